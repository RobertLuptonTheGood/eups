(* Soundness of the partition checker [partition_ok]: a component list it accepts is exactly the
   partition of the graph into strongly connected components. *)
From Coq Require Import Lia.
From Eupsv Require Import Base.Base Base.BaseLemmas Model.Graph Proofs.GraphLib Proofs.GraphLayers Proofs.GraphTarjan.

Inductive gstar (g : graph) : node -> node -> Prop :=
| gs_refl a : gstar g a a
| gs_step a b c : gstar g a b -> gedge g b c -> gstar g a c.

Lemma gstar_trans g a b c : gstar g a b -> gstar g b c -> gstar g a c.
Proof.
  intros H1 H2. revert H1. induction H2 as [b | b c d H IH E]; intros H1; [exact H1|].
  eapply gs_step; [apply IH, H1 | exact E].
Qed.

Lemma gstar_edge g a b : gedge g a b -> gstar g a b.
Proof. intros E. eapply gs_step; [apply gs_refl | exact E]. Qed.

Lemma gstar_step_l g a b c : gedge g a b -> gstar g b c -> gstar g a c.
Proof. intros E H. eapply gstar_trans; [apply gstar_edge, E | exact H]. Qed.

Lemma gstar_path g a b : gstar g a b -> a = b \/ gpath g a b.
Proof.
  induction 1 as [a | a b c H IH E]; [auto|]. right.
  destruct IH as [-> | P]; [apply gp_one, E | eapply gpath_snoc; eauto].
Qed.

Lemma gpath_star g a b : gpath g a b -> gstar g a b.
Proof.
  induction 1 as [a b E | a b c E _ IH].
  - eapply gs_step; [apply gs_refl | exact E].
  - eapply gstar_trans; [eapply gs_step; [apply gs_refl | exact E] | exact IH].
Qed.

Lemma reach_set_sound g fuel : forall cur x,
  In x (reach_set fuel g cur) -> exists c, In c cur /\ gstar g c x.
Proof.
  induction fuel as [|f IH]; intros cur x; simpl.
  - intros H. exists x. split; [exact H | apply gs_refl].
  - intros H. apply IH in H as [c [Ic Sc]]. apply uniq_nodes_In, in_app_iff in Ic as [Ic | Ic].
    + eauto.
    + apply in_flat_map in Ic as [n [In_ Is]]. exists n. split; [exact In_|].
      destruct (succs_of g n) as [l|] eqn:E; [|destruct Is].
      eapply gstar_trans; [|exact Sc]. eapply gs_step; [apply gs_refl | exists l; split; [apply succs_of_In, E | exact Is]].
Qed.

Lemma index_of_comp_In cs n : forall i j, index_of_comp cs n i = Some j -> i <= j /\ In n (nth (j - i) cs []).
Proof.
  induction cs as [|c r IH]; intros i j; simpl; [discriminate|].
  destruct (mem_node n c) eqn:M.
  - intros Q. inversion Q. subst. split; [lia|]. rewrite Nat.sub_diag. apply mem_node_In, M.
  - intros Q. apply IH in Q as [Q1 Q2]. split; [lia|].
    replace (j - i) with (S (j - S i)) by lia. exact Q2.
Qed.

Lemma index_of_comp_Some cs n : In n (concat cs) -> forall i, exists j, index_of_comp cs n i = Some j.
Proof.
  induction cs as [|c r IH]; simpl; [tauto|]. intros H i.
  destruct (mem_node n c) eqn:M; [eauto|].
  apply in_app_iff in H as [H | H]; [apply mem_node_In in H; congruence|]. apply IH, H.
Qed.

Definition same_comp (cs : list comp) (a b : node) : Prop := exists c, In c cs /\ In a c /\ In b c.

Theorem partition_ok_sound g cs :
  partition_ok g cs = true ->
  NoDup (concat cs) /\
  (forall n, In n (gkeys g) <-> In n (concat cs)) /\
  (forall a b, In a (gkeys g) -> In b (gkeys g) ->
     (same_comp cs a b <-> a = b \/ (gpath g a b /\ gpath g b a))).
Proof.
  unfold partition_ok. intros H.
  apply andb_prop in H as [H H5]. apply andb_prop in H as [H H4]. apply andb_prop in H as [H H3].
  apply andb_prop in H as [H1 H2].
  apply nodup_nodes_NoDup in H1.
  rewrite forallb_forall in H2, H3, H4, H5.
  assert (Hk : forall n, In n (gkeys g) <-> In n (concat cs)).
  { intros n. split; intros H; [apply mem_node_In, H2, H | apply mem_node_In, H3, H]. }
  split; [exact H1|]. split; [exact Hk|].
  (* the index does not increase along edges, hence along paths *)
  assert (Hedge : forall a b, gedge g a b -> exists i j,
             index_of_comp cs a 0 = Some i /\ index_of_comp cs b 0 = Some j /\ j <= i).
  { intros a b [ss [I1 I2]]. specialize (H4 (a, ss) I1). simpl in H4.
    rewrite forallb_forall in H4. specialize (H4 b I2).
    destruct (index_of_comp cs a 0) as [i|]; [|discriminate].
    destruct (index_of_comp cs b 0) as [j|]; [|discriminate].
    exists i, j. split; [reflexivity|]. split; [reflexivity | apply Nat.leb_le, H4]. }
  assert (Hpath : forall a b, gpath g a b -> exists i j,
             index_of_comp cs a 0 = Some i /\ index_of_comp cs b 0 = Some j /\ j <= i).
  { induction 1 as [a b E | a b c E _ IH]; [apply Hedge, E|].
    destruct (Hedge a b E) as [i [j [Ei [Ej L1]]]]. destruct IH as [j' [k [Ej' [Ek L2]]]].
    rewrite Ej in Ej'. inversion Ej'. subst j'. exists i, k. split; [exact Ei|]. split; [exact Ek | lia]. }
  intros a b Ka Kb. split.
  - intros [c [Ic [Ia Ib]]]. specialize (H5 c Ic). destruct c as [|h c']; [discriminate|].
    rewrite forallb_forall in H5.
    pose proof (H5 a Ia) as Ha. pose proof (H5 b Ib) as Hb.
    apply andb_true_iff in Ha as [Ha1 Ha2]. apply andb_true_iff in Hb as [Hb1 Hb2].
    apply mem_node_In, reach_set_sound in Ha1 as [x [[<- | []] Sha]].
    apply mem_node_In, reach_set_sound in Ha2 as [x [[<- | []] Sah]].
    apply mem_node_In, reach_set_sound in Hb1 as [x [[<- | []] Shb]].
    apply mem_node_In, reach_set_sound in Hb2 as [x [[<- | []] Sbh]].
    destruct (node_eq_dec a b) as [-> | Ne]; [auto|]. right. split.
    + destruct (gstar_path g a b (gstar_trans _ _ _ _ Sah Shb)); [contradiction | assumption].
    + destruct (gstar_path g b a (gstar_trans _ _ _ _ Sbh Sha)); [congruence | assumption].
  - intros [-> | [P1 P2]].
    + apply Hk in Kb. apply in_concat in Kb as [c [Ic Ib]]. exists c. auto.
    + destruct (Hpath a b P1) as [i [j [Ei [Ej L1]]]]. destruct (Hpath b a P2) as [j' [i' [Ej' [Ei' L2]]]].
      rewrite Ej in Ej'. rewrite Ei in Ei'. inversion Ej'. inversion Ei'. subst j' i'.
      assert (i = j) by lia. subst j.
      apply index_of_comp_In in Ei as [_ Ia]. apply index_of_comp_In in Ej as [_ Ib].
      rewrite Nat.sub_0_r in Ia, Ib. exists (nth i cs []). split; [|auto].
      destruct (nth_in_or_default i cs []) as [H | H]; [exact H|]. rewrite H in Ia. destruct Ia.
Qed.
