(* The invariant of the world: every cache file is either detectably stale, product by product,
   or says what the database files say.  Preserved by the effects of every record-level action
   (whatever the caches are), by writing a cache file from data that agrees with the files, and
   by deleting cache files. *)
From Eupsv Require Import Base.Base Base.BaseLemmas Model.Db Model.Cache.
From Eupsv Require Import Proofs.DbLib Proofs.Db Proofs.DbSim Proofs.DbInv Proofs.DbCor.
From Eupsv Require Import Proofs.CacheLib Proofs.CacheWt Proofs.CacheEff Proofs.CacheU.
From Coq Require Import Lia.

(* for product n the cache file of directory l agrees with the files -- the stack's records and, for
   the user tags, the tag directory of the owner of l (nobody's for ups_db) --, or a record of n, or
   the owner's tag directory for n, is newer than the file, or n has no version file any more while the
   cache file still lists it *)
Definition pk_ok_n (w : world) (l s f : str) (p : pickle) (n : str) : Prop :=
  (agree_n (pk_data p) (w_db w) s f n /\ uagree_n (pk_data p) (w_db w) (w_uc w) (owner l) s f n)
  \/ (In n (db_names (w_db w) s) /\
      (newer_n (w_db w) (w_stamps w) s n (pk_stamp p) = true
       \/ (l <> upsdb /\ pk_stamp p < stamp_of (w_stamps w) (RUDir l s n))))
  \/ (~ In n (db_names (w_db w) s) /\ alookup n (pk_data p) <> None).

Record INV (w : world) : Prop := mkINV {
  inv_nd : no_dangling (view (w_db w));
  inv_st : forall k t, glookup rkey_eqb k (w_stamps w) = Some t -> t <= w_clock w;
  inv_pc : forall l s f p, pk_get w l s f = Some p -> pk_stamp p <= w_clock w;
  inv_pk : forall l s f p, pk_get w l s f = Some p -> forall n, pk_ok_n w l s f p n
}.

Lemma init_INV path : INV (init_world path).
Proof.
  constructor; cbn.
  - apply no_dangling_empty.
  - discriminate.
  - unfold pk_get. cbn. discriminate.
  - unfold pk_get. cbn. discriminate.
Qed.

Lemma newer_n_mono d d' st st' s n tau :
  (forall k, rk_prod k = (s, n) -> is_ukey k = false -> stamp_of st' k = stamp_of st k) ->
  (forall kv, vname kv = n -> In kv (vfiles (stack_of d s)) -> In kv (vfiles (stack_of d' s))) ->
  (forall kv, cname kv = n -> In kv (cfiles (stack_of d s)) -> In kv (cfiles (stack_of d' s))) ->
  newer_n d st s n tau = true -> newer_n d' st' s n tau = true.
Proof.
  intros Hs Hv Hc H. unfold newer_n in *.
  apply orb_true_iff in H. destruct H as [H|H]; [apply orb_true_iff in H; destruct H as [H|H]|]; apply orb_true_iff.
  - left. apply orb_true_iff. left. rewrite Hs; [exact H|reflexivity..].
  - left. apply orb_true_iff. right. apply existsb_exists in H. destruct H as [kv [H1 H2]]. apply existsb_exists. exists kv.
    apply andb_true_iff in H2. destruct H2 as [H2 H3]. pose proof (proj1 (str_eqb_eq _ _) H2) as En.
    split; [exact (Hv kv En H1)|]. rewrite H2, Hs; [exact H3| |reflexivity]. cbn. rewrite <- En. reflexivity.
  - right. apply existsb_exists in H. destruct H as [kv [H1 H2]]. apply existsb_exists. exists kv.
    apply andb_true_iff in H2. destruct H2 as [H2 H3]. pose proof (proj1 (str_eqb_eq _ _) H2) as En.
    split; [exact (Hc kv En H1)|]. rewrite H2, Hs; [exact H3| |reflexivity]. cbn. rewrite <- En. reflexivity.
Qed.

Lemma newer_n_frame tick es w s0 n0 s n tau :
  Forall (in_scope s0 n0) es -> (s, n) <> (s0, n0) ->
  newer_n (w_db w) (w_stamps w) s n tau = true ->
  newer_n (w_db (do_effects tick w es)) (w_stamps (do_effects tick w es)) s n tau = true.
Proof.
  intros F N. rewrite do_effects_db.
  assert (Sc : s <> s0 \/ n <> n0).
  { destruct (str_eq_dec s s0) as [->|]; [|auto]. right. intro. subst. apply N. reflexivity. }
  apply newer_n_mono.
  - intros k Hk _. unfold stamp_of. rewrite (stamps_frame_list tick es w s0 n0 k F); [reflexivity|congruence].
  - intros kv En. apply (vfiles_frame_list es _ s n0 s0 kv F). rewrite En. exact Sc.
  - intros kv En. apply (cfiles_frame_list es _ s n0 s0 kv F). rewrite En. exact Sc.
Qed.

Lemma db_names_frame es d s0 n0 s n :
  Forall (in_scope s0 n0) es -> (s, n) <> (s0, n0) ->
  (In n (db_names (apply es d) s) <-> In n (db_names d s)).
Proof.
  intros F N. rewrite !db_names_In.
  assert (Sc : s <> s0 \/ n <> n0).
  { destruct (str_eq_dec s s0) as [->|]; [|auto]. right. intro. subst. apply N. reflexivity. }
  split; intros [v [c H]]; exists v, c.
  - apply (vfiles_frame_list es d s n0 s0 ((n, v), c) F); [|exact H]. exact Sc.
  - apply (vfiles_frame_list es d s n0 s0 ((n, v), c) F); [|exact H]. exact Sc.
Qed.

Lemma do_effects_ukey tick es k : is_ukey k = true -> forall w,
  glookup rkey_eqb k (w_stamps (do_effects tick w es)) = glookup rkey_eqb k (w_stamps w).
Proof.
  intro H. induction es as [|e es IH]; intro w; [reflexivity|]. rewrite do_effects_cons, IH.
  cbn [do_effect w_stamps]. apply stamp_effect_ukey. exact H.
Qed.

Lemma no_decl_no_vis d uc uo s n f : (forall v, db_decl d s n v f = None) -> forall t, vis_u d uc uo s n t f = None.
Proof.
  intros H t. unfold vis_u. destruct uo as [u|]; [|reflexivity]. destruct (uc_tag uc u s n t f) as [v|]; [|reflexivity].
  rewrite H. reflexivity.
Qed.

Lemma do_act_db tick w x : w_db (do_act tick w x) = apply (compile (w_db w) x) (w_db w).
Proof. unfold do_act. apply do_effects_db. Qed.

Lemma do_act_pickles tick w x : w_pickles (do_act tick w x) = w_pickles w.
Proof. unfold do_act. apply do_effects_pickles. Qed.

Lemma pk_get_pickles w w' l s f : w_pickles w' = w_pickles w -> pk_get w' l s f = pk_get w l s f.
Proof. intro H. unfold pk_get. rewrite H. reflexivity. Qed.

Lemma str_pair_eq_or_neq (a b : str * str) : a = b \/ a <> b.
Proof.
  destruct a as [a1 a2], b as [b1 b2]. destruct (str_eq_dec a1 b1) as [->|N]; [|right; congruence].
  destruct (str_eq_dec a2 b2) as [->|N]; [left; reflexivity|right; congruence].
Qed.

Lemma do_act_inv tick w x : clock_strict tick -> INV w -> act_ok (view (w_db w)) x -> INV (do_act tick w x).
Proof.
  intros CS I0 OK. pose proof (compile_scope (w_db w) x) as SC.
  (* an action that does nothing leaves the world as it is; any other stamps the directory of its product *)
  destruct (compile_touch (w_db w) x) as [Nil|Tch]; [unfold do_act; rewrite Nil; exact I0|].
  destruct I0 as [ND ST PC PK].
  assert (ND' : no_dangling (view (w_db (do_act tick w x)))).
  { rewrite do_act_db. eapply no_dangling_aeq; [apply aeq_sym, compile_refines|].
    apply aapply_no_dangling; assumption. }
  pose proof (do_effects_clock tick (compile (w_db w) x) CS w) as CL.
  constructor.
  - exact ND'.
  - apply do_effects_stamps_le; assumption.
  - intros l s f p H. rewrite (pk_get_pickles w) in H by apply do_act_pickles. specialize (PC l s f p H).
    unfold do_act. lia.
  - intros l s f p H n. rewrite (pk_get_pickles w) in H by apply do_act_pickles.
    specialize (PK l s f p H n). specialize (PC l s f p H).
    destruct (str_pair_eq_or_neq (s, n) (act_stack x, act_name x)) as [E|N].
    + (* the product the action is about *)
      injection E as -> ->.
      assert (Fresh : pk_stamp p < stamp_of (w_stamps (do_act tick w x)) (RDir (act_stack x) (act_name x))).
      { unfold do_act. apply dir_stamp_touch; auto. }
      destruct (in_dec str_eq_dec (act_name x) (db_names (w_db (do_act tick w x)) (act_stack x))) as [I|NI].
      -- right. left. split; [exact I|]. left. unfold newer_n. apply Nat.ltb_lt in Fresh. rewrite Fresh. reflexivity.
      -- destruct (alookup (act_name x) (pk_data p)) eqn:Ea.
         ++ right. right. split; [exact NI|congruence].
         ++ left. pose proof (not_named_no_decl _ _ _ NI) as D0. split; [split; intro k|].
            ** unfold fd_decl. rewrite Ea. symmetry. apply D0.
            ** unfold fd_tag. rewrite Ea.
               destruct (db_tag (w_db (do_act tick w x)) (act_stack x) (act_name x) k f) as [v|] eqn:Et; [|reflexivity].
               exfalso. apply (proj1 (no_dangling_db _) ND' _ _ _ _ _ Et). apply D0.
            ** intro t. unfold fd_utag. rewrite Ea. symmetry. apply no_decl_no_vis. intro v. apply D0.
    + (* another product: nothing about it changed *)
      assert (Fr : (n, f) <> act_nf x \/ s <> act_stack x).
      { destruct (str_eq_dec s (act_stack x)) as [->|]; [|auto]. left. intro E. apply N.
        unfold act_name. rewrite <- E. reflexivity. }
      destruct PK as [[[A1 A2] A3]|[[I Nw]|[NI K]]].
      * left. rewrite do_act_db. split; [split; intro k; destruct (compile_frame (w_db w) x s n k f Fr) as [E1 E2]|].
        -- rewrite E1. apply A1.
        -- rewrite E2. apply A2.
        -- intro t. rewrite (A3 t), do_act_uc. unfold vis_u. destruct (owner l) as [u|]; [|reflexivity].
           destruct (uc_tag (w_uc w) u s n t f) as [v|]; [|reflexivity].
           destruct (compile_frame (w_db w) x s n v f Fr) as [E1 _]. rewrite E1. reflexivity.
      * right. left. split.
        -- rewrite do_act_db. apply (db_names_frame (compile (w_db w) x) (w_db w) (act_stack x) (act_name x) s n SC N). exact I.
        -- destruct Nw as [Nw|[Nl Nw]].
           ++ left. unfold do_act. apply (newer_n_frame tick _ w _ _ s n _ SC N). exact Nw.
           ++ right. split; [exact Nl|]. unfold do_act, stamp_of. rewrite do_effects_ukey by reflexivity. exact Nw.
      * right. right. split; [|exact K]. rewrite do_act_db. intro I. apply NI.
        apply (db_names_frame (compile (w_db w) x) (w_db w) (act_stack x) (act_name x) s n SC N). exact I.
Qed.

Lemma pk_get_gset w ps l s f l' s' f' :
  glookup pkey_eqb (l', s', f') (gset pkey_eqb (l, s, f) ps (w_pickles w)) =
  if pkey_eqb (l', s', f') (l, s, f) then Some ps else pk_get w l' s' f'.
Proof. apply (glookup_gset pkey_eqb pkey_eqb_eq). Qed.

Lemma write_pickle_inv tick w l s f fd : clock_strict tick -> INV w -> agree fd (w_db w) s f ->
  uagree fd (w_db w) (w_uc w) (owner l) s f ->
  INV (mkW (w_db w) (tick (w_clock w)) (w_stamps w)
           (gset pkey_eqb (l, s, f) (mkPk (tick (w_clock w)) fd) (w_pickles w)) (w_uc w)).
Proof.
  intros CS [ND ST PC PK] AG UG. pose proof (CS (w_clock w)) as Ht. constructor; cbn [w_db w_clock w_stamps w_uc].
  - exact ND.
  - intros k t H. specialize (ST k t H). lia.
  - intros l' s' f' p. unfold pk_get. cbn [w_pickles]. rewrite pk_get_gset.
    destruct (pkey_eqb (l', s', f') (l, s, f)); intro H.
    + inversion H. cbn. lia.
    + specialize (PC _ _ _ _ H). lia.
  - intros l' s' f' p. unfold pk_get at 1. cbn [w_pickles]. rewrite pk_get_gset.
    destruct (pkey_eqb (l', s', f') (l, s, f)) eqn:E; intros H n.
    + apply pkey_eqb_eq in E. inversion E. subst. inversion H. left. split; [apply AG|apply UG].
    + exact (PK _ _ _ _ H n).
Qed.

Lemma delete_cache_inv w l s f : INV w -> INV (delete_cache w l s f).
Proof.
  intros [ND ST PC PK].
  assert (G : forall l' s' f' p, pk_get (delete_cache w l s f) l' s' f' = Some p -> pk_get w l' s' f' = Some p).
  { intros l' s' f' p. unfold pk_get, delete_cache. cbn [w_pickles].
    rewrite (glookup_gremove pkey_eqb pkey_eqb_eq). destruct (pkey_eqb (l', s', f') (l, s, f)); [discriminate|auto]. }
  constructor; cbn [delete_cache w_db w_clock w_stamps w_uc].
  - exact ND.
  - exact ST.
  - intros l' s' f' p H. exact (PC _ _ _ _ (G _ _ _ _ H)).
  - intros l' s' f' p H n. exact (PK _ _ _ _ (G _ _ _ _ H) n).
Qed.

(* a step that writes in the tag directory of user u for product n of stack s and nowhere else *)
Record ustep (u s n : str) (w w' : world) : Prop := mkUstep {
  us_db : w_db w' = w_db w;
  us_pk : w_pickles w' = w_pickles w;
  us_st : forall k, is_ukey k = false -> stamp_of (w_stamps w') k = stamp_of (w_stamps w) k;
  us_mono : forall k, stamp_of (w_stamps w) k <= stamp_of (w_stamps w') k;
  us_le : forall k t, glookup rkey_eqb k (w_stamps w') = Some t -> t <= w_clock w';
  us_uc : forall u' s' n' t f, (u', s', n') <> (u, s, n) -> uc_tag (w_uc w') u' s' n' t f = uc_tag (w_uc w) u' s' n' t f;
  us_new : w' = w \/ (w_clock w < w_clock w' /\ stamp_of (w_stamps w') (RUDir u s n) = w_clock w')
}.

Lemma ustep_inv u s n w w' : u <> upsdb -> ustep u s n w w' -> INV w -> INV w'.
Proof.
  intros Hu [Edb Epk Est Emono Ele Euc Enew] [ND ST PC PK].
  assert (CL : w_clock w <= w_clock w') by (destruct Enew as [->|[H _]]; lia).
  constructor.
  - rewrite Edb. exact ND.
  - exact Ele.
  - intros l s' f p H. rewrite (pk_get_pickles w) in H by exact Epk. specialize (PC l s' f p H). lia.
  - intros l s' f p H n'. rewrite (pk_get_pickles w) in H by exact Epk.
    specialize (PK l s' f p H n'). specialize (PC l s' f p H). unfold pk_ok_n in *. rewrite Edb.
    destruct Enew as [->|[Hc Hs]]; [exact PK|].
    assert (Cases : (l, s', n') = (u, s, n) \/ (l, s', n') <> (u, s, n)).
    { destruct (str_eq_dec l u) as [->|]; [|right; congruence]. destruct (str_eq_dec s' s) as [->|]; [|right; congruence].
      destruct (str_eq_dec n' n) as [->|]; [left; reflexivity|right; congruence]. }
    destruct Cases as [E|N].
    + injection E as -> -> ->.
      destruct (in_dec str_eq_dec n (db_names (w_db w) s)) as [I|NI].
      * right. left. split; [exact I|]. right. split; [exact Hu|]. rewrite Hs. lia.
      * destruct PK as [[A U]|[[I _]|K]]; [|contradiction|right; right; exact K].
        left. split; [exact A|]. intro t. rewrite (U t).
        rewrite !no_decl_no_vis; [reflexivity| |]; intro v; apply not_named_no_decl; exact NI.
    + destruct PK as [[A U]|[[I Nw]|K]]; [| |right; right; exact K].
      * left. split; [exact A|]. intro t. rewrite (U t). unfold vis_u, owner.
        destruct (str_eqb_spec l upsdb) as [->|Nl]; [reflexivity|]. rewrite (Euc l s' n' t f N). reflexivity.
      * right. left. split; [exact I|]. destruct Nw as [Nw|[Nl Nw]].
        -- left. apply (newer_n_mono (w_db w) _ (w_stamps w)); auto.
        -- right. split; [exact Nl|]. specialize (Emono (RUDir l s' n')). lia.
Qed.

Lemma stamp_of_sset k t st k' : stamp_of (sset k t st) k' = if rkey_eqb k' k then t else stamp_of st k'.
Proof. unfold stamp_of, sset. rewrite (glookup_gset rkey_eqb rkey_eqb_eq). destruct (rkey_eqb k' k); reflexivity. Qed.

Lemma stamp_of_le st c k : (forall k t, glookup rkey_eqb k st = Some t -> t <= c) -> stamp_of st k <= c.
Proof. intro H. unfold stamp_of. destruct (glookup rkey_eqb k st) as [t|] eqn:E; [exact (H k t E)|lia]. Qed.

Lemma ustep_refl u s n w : INV w -> ustep u s n w w.
Proof. intros [_ ST _ _]. constructor; auto. Qed.

Lemma ustep_trans u s n w1 w2 w3 : ustep u s n w1 w2 -> ustep u s n w2 w3 -> ustep u s n w1 w3.
Proof.
  intros [A1 A2 A3 A4 A5 A6 A7] [B1 B2 B3 B4 B5 B6 B7]. constructor.
  - congruence.
  - congruence.
  - intros k H. rewrite (B3 k H). apply A3. exact H.
  - intro k. specialize (A4 k). specialize (B4 k). lia.
  - exact B5.
  - intros u' s' n' t f N. rewrite (B6 _ _ _ _ _ N). apply A6. exact N.
  - destruct B7 as [->|[Hc Hs]]; [exact A7|]. right. split; [|exact Hs].
    destruct A7 as [->|[Hc' _]]; lia.
Qed.

(* stamps st' that differ from st by files of tag directories stamped t, no stamp being later than t *)
Definition ustamped (st st' : list (rkey * nat)) (t : nat) : Prop :=
  (forall k, is_ukey k = false -> stamp_of st' k = stamp_of st k) /\
  (forall k, stamp_of st k <= stamp_of st' k) /\
  (forall k t', glookup rkey_eqb k st' = Some t' -> t' <= t).

Lemma sset_ustamped k t st : is_ukey k = true -> (forall k0 t0, glookup rkey_eqb k0 st = Some t0 -> t0 <= t) ->
  ustamped st (sset k t st) t.
Proof.
  intros Hk ST. split; [|split].
  - intros k' H. rewrite stamp_of_sset. destruct (rkey_eqb k' k) eqn:E; [|reflexivity].
    apply rkey_eqb_eq in E. congruence.
  - intro k'. rewrite stamp_of_sset. destruct (rkey_eqb k' k); [exact (stamp_of_le _ _ k' ST)|apply le_n].
  - intros k' t'. unfold sset. rewrite (glookup_gset rkey_eqb rkey_eqb_eq). destruct (rkey_eqb k' k); intro H; [inversion H; apply le_n|exact (ST k' t' H)].
Qed.

Lemma ustamped_trans st1 st2 st3 t : ustamped st1 st2 t -> ustamped st2 st3 t -> ustamped st1 st3 t.
Proof.
  intros [A1 [A2 _]] [B1 [B2 B3]]. split; [|split; [|exact B3]].
  - intros k H. rewrite (B1 k H). exact (A1 k H).
  - intro k. exact (Nat.le_trans _ _ _ (A2 k) (B2 k)).
Qed.

Lemma ustamped_keeps st st' t k : ustamped st st' t -> stamp_of st k = t -> stamp_of st' k = t.
Proof. intros [_ [M L]] E. apply Nat.le_antisymm; [exact (stamp_of_le _ _ k L)|rewrite <- E; apply M]. Qed.

(* a write in the tag directory: the directory n/ of the product, then perhaps a chain file in it, get the new time *)
Lemma uwrite_ustep tick w u s n (chain : option str) uc' : clock_strict tick -> INV w ->
  (forall u' s' n' t f, (u', s', n') <> (u, s, n) -> uc_tag uc' u' s' n' t f = uc_tag (w_uc w) u' s' n' t f) ->
  ustep u s n w
    (mkW (w_db w) (tick (w_clock w))
         (let st1 := sset (RUDir u s n) (tick (w_clock w)) (w_stamps w) in
          match chain with Some t => sset (RUChain u s (n, t)) (tick (w_clock w)) st1 | None => st1 end)
         (w_pickles w) uc').
Proof.
  intros CS [_ ST _ _] UC. pose proof (CS (w_clock w)) as Ht. cbv zeta.
  assert (ST' : forall k t, glookup rkey_eqb k (w_stamps w) = Some t -> t <= tick (w_clock w)).
  { intros k t H. exact (Nat.le_trans _ _ _ (ST k t H) (Nat.lt_le_incl _ _ Ht)). }
  pose proof (sset_ustamped (RUDir u s n) _ _ eq_refl ST') as F1.
  assert (E1 : stamp_of (sset (RUDir u s n) (tick (w_clock w)) (w_stamps w)) (RUDir u s n) = tick (w_clock w))
    by (rewrite stamp_of_sset, (proj2 (rkey_eqb_eq _ _) eq_refl); reflexivity).
  destruct chain as [t|].
  - pose proof (sset_ustamped (RUChain u s (n, t)) _ _ eq_refl (proj2 (proj2 F1))) as F2.
    pose proof (ustamped_keeps _ _ _ _ F2 E1) as E2. destruct (ustamped_trans _ _ _ _ F1 F2) as [A [B C]].
    constructor; cbn [w_db w_clock w_stamps w_pickles w_uc]; auto.
  - destruct F1 as [A [B C]]. constructor; cbn [w_db w_clock w_stamps w_pickles w_uc]; auto.
Qed.

Lemma ukey_other u s n t u' s' n' t' : (u', s', n') <> (u, s, n) -> ukey_eqb (u', s', n', t') (u, s, n, t) = false.
Proof.
  intro N. destruct (ukey_eqb (u', s', n', t') (u, s, n, t)) eqn:E; [|reflexivity].
  apply ukey_eqb_eq in E. inversion E. subst. exfalso. apply N. reflexivity.
Qed.

Lemma do_uset_ustep tick w u s n t f v : clock_strict tick -> INV w -> ustep u s n w (do_uset tick w u s n t f v).
Proof.
  intros CS I. apply (uwrite_ustep tick w u s n (Some t)); [exact CS|exact I|].
  intros u' s' n' t' f' N. rewrite uc_tag_gset, (ukey_other _ _ _ _ _ _ _ _ N). reflexivity.
Qed.

Lemma do_udel_ustep tick w u s n t f : clock_strict tick -> INV w -> ustep u s n w (do_udel tick w u s n t f).
Proof.
  intros CS I. unfold do_udel. destruct (amem f (uc_file (w_uc w) u s n t)); [|apply ustep_refl; exact I].
  destruct (is_nil (aremove f (uc_file (w_uc w) u s n t))).
  - apply (uwrite_ustep tick w u s n None); [exact CS|exact I|].
    intros u' s' n' t' f' N. rewrite uc_tag_gremove, (ukey_other _ _ _ _ _ _ _ _ N). reflexivity.
  - apply (uwrite_ustep tick w u s n (Some t)); [exact CS|exact I|].
    intros u' s' n' t' f' N. rewrite uc_tag_gset, (ukey_other _ _ _ _ _ _ _ _ N). reflexivity.
Qed.

Lemma fold_udel_ustep tick u s n f l : clock_strict tick -> u <> upsdb -> forall w, INV w ->
  ustep u s n w (fold_left (fun w t => do_udel tick w u s n t f) l w).
Proof.
  intros CS Hu. induction l as [|t l IH]; intros w I; cbn [fold_left]; [apply ustep_refl; exact I|].
  pose proof (do_udel_ustep tick w u s n t f CS I) as S1.
  exact (ustep_trans _ _ _ _ _ _ S1 (IH _ (ustep_inv _ _ _ _ _ Hu S1 I))).
Qed.

(* what Database.undeclare does in the tag directory concerns the product of the action *)
Lemma do_uact_ustep tick w u x : clock_strict tick -> u <> upsdb -> INV w ->
  ustep u (act_root x) (act_name x) w (do_uact tick w u x).
Proof.
  intros CS Hu I. destruct x; cbn [do_uact]; try (apply ustep_refl; exact I).
  destruct (is_some _); [apply fold_udel_ustep; assumption|apply ustep_refl; exact I].
Qed.

Lemma do_udb_ustep tick w u x : clock_strict tick -> INV w ->
  ustep u (uact_stack x) (uact_name x) w (do_udb tick false w u x).
Proof. intros CS I. destruct x; [apply do_uset_ustep|apply do_udel_ustep]; assumption. Qed.

(* the tag-directory part of a group: the invariant stays, the records and the cache files are not touched, nor
   the tag directories for a stack that no action of the group is about *)
Lemma do_uacts_quiet tick u g : clock_strict tick -> u <> upsdb -> forall w, INV w ->
  INV (do_uacts tick w u g) /\ w_db (do_uacts tick w u g) = w_db w /\ w_pickles (do_uacts tick w u g) = w_pickles w /\
  (forall s2, Forall (fun x => act_root x <> s2) g ->
     forall u' n t f, uc_tag (w_uc (do_uacts tick w u g)) u' s2 n t f = uc_tag (w_uc w) u' s2 n t f).
Proof.
  intros CS Hu. unfold do_uacts. induction g as [|x g IH]; intros w I; cbn [fold_left]; [auto|].
  pose proof (do_uact_ustep tick w u x CS Hu I) as S1.
  destruct (IH _ (ustep_inv _ _ _ _ _ Hu S1 I)) as [I2 [D2 [P2 U2]]].
  split; [exact I2|]. split; [rewrite D2; apply (us_db _ _ _ _ _ S1)|]. split; [rewrite P2; apply (us_pk _ _ _ _ _ S1)|].
  intros s2 F u' n t f. inversion F as [|? ? N F']. subst. rewrite (U2 s2 F').
  apply (us_uc _ _ _ _ _ S1). intro E. inversion E. congruence.
Qed.
