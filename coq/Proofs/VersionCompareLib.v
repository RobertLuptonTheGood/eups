(* Generic lemmas used by the C10 proofs: span, lists and prefixes, comparison combinators, character classes. *)
From Coq Require Import Lia.
From Eupsv Require Import Base.Base Base.BaseLemmas Model.VersionCompare.

Lemma span_spec p x a b :
  span p x = (a, b) ->
  x = a ++ b /\ forallb p a = true /\ match b with c :: _ => p c = false | [] => True end.
Proof.
  revert a b. induction x as [|c r IH]; simpl; intros a b.
  - now intros [= <- <-].
  - destruct (p c) eqn:Pc; [|intros [= <- <-]; now rewrite Pc].
    destruct (span p r) as [a' b']. intros [= <- <-]. destruct (IH _ _ eq_refl) as (-> & Ha & Hb).
    simpl. now rewrite Pc.
Qed.

Lemma span_app p x a b : span p x = (a, b) -> x = a ++ b.
Proof. intro H. apply (span_spec p x a b H). Qed.

Lemma span_all_fst p x a b : span p x = (a, b) -> forallb p a = true.
Proof. intro H. apply (span_spec p x a b H). Qed.

Lemma span_snd_head p x a c b : span p x = (a, c :: b) -> p c = false.
Proof. intro H. apply (span_spec p x a (c :: b) H). Qed.

Lemma span_stop p a c x : forallb p a = true -> p c = false -> span p (a ++ c :: x) = (a, c :: x).
Proof.
  induction a as [|d a IH]; simpl; intros Ha Hc.
  - now rewrite Hc.
  - apply andb_true_iff in Ha as [Hd Ha]. rewrite Hd, IH; auto.
Qed.

Lemma span_all p a : forallb p a = true -> span p a = (a, []).
Proof.
  induction a as [|d a IH]; simpl; intros Ha; [reflexivity|].
  apply andb_true_iff in Ha as [Hd Ha]. now rewrite Hd, IH.
Qed.

Lemma span_nil_head p c x : p c = false -> span p (c :: x) = ([], c :: x).
Proof. intro H. simpl. now rewrite H. Qed.

Lemma rev_nonnil {A} (l : list A) : l <> [] -> rev l <> [].
Proof. intros N E. apply N. now rewrite <- (rev_involutive l), E. Qed.

Lemma concat_snoc {A} (l : list (list A)) (x : list A) : concat (l ++ [x]) = concat l ++ x.
Proof. rewrite concat_app. cbn [concat]. now rewrite app_nil_r. Qed.

Lemma starts_with_app p : forall y, starts_with p y = true -> y = p ++ skipn (length p) y.
Proof.
  induction p as [|c p IH]; intros y H; [reflexivity|].
  destruct y as [|d y]; [discriminate|]. simpl in H.
  destruct (ascii_eqb_spec c d) as [->|]; [|discriminate]. simpl. f_equal. now apply IH.
Qed.

Lemma starts_with_both x : forall y, starts_with x y = true -> starts_with y x = true -> x = y.
Proof.
  induction x as [|c x IH]; intros [|d y] H1 H2; try reflexivity; try discriminate.
  simpl in H1, H2. destruct (ascii_eqb_spec c d) as [->|]; [|discriminate].
  rewrite ascii_eqb_refl in H2. f_equal. now apply IH.
Qed.

Lemma nonempty_true_iff (x : str) : nonempty x = true <-> x <> [].
Proof. destruct x; simpl; split; congruence. Qed.

Lemma nonempty_false_iff (x : str) : nonempty x = false <-> x = [].
Proof. destruct x; simpl; split; congruence. Qed.

Lemma nonempty_app_l (x y : str) : nonempty x = true -> nonempty (x ++ y) = true.
Proof. destruct x; simpl; congruence. Qed.

Lemma CompOpp_eq_iff c d : CompOpp c = d <-> c = CompOpp d.
Proof. destruct c, d; simpl; split; congruence. Qed.

Record ord_ok {A} (c : A -> A -> comparison) : Prop := {
  ok_refl : forall a, c a a = Eq;
  ok_eq : forall a b, c a b = Eq -> a = b;
  ok_anti : forall a b, c b a = CompOpp (c a b);
  ok_trans : forall a b d, c a b = Lt -> c b d = Lt -> c a d = Lt }.

Lemma ord_ok_N : ord_ok N.compare.
Proof.
  split.
  - apply N.compare_refl.
  - apply N.compare_eq.
  - intros a b. apply N.compare_antisym.
  - intros a b d H1 H2. apply N.compare_lt_iff in H1, H2. apply N.compare_lt_iff. now apply N.lt_trans with b.
Qed.

Lemma ord_ok_ascii : ord_ok ascii_compare.
Proof.
  unfold ascii_compare. split.
  - intro a. apply N.compare_refl.
  - intros a b H. apply N.compare_eq in H.
    rewrite <- (ascii_N_embedding a), <- (ascii_N_embedding b). now rewrite H.
  - intros a b. apply N.compare_antisym.
  - intros a b d. apply (ok_trans _ ord_ok_N).
Qed.

Lemma ord_ok_lex {A} (c : A -> A -> comparison) : ord_ok c -> ord_ok (lex_compare c).
Proof.
  intros [R E An T]. split.
  - induction a as [|x a IH]; simpl; [reflexivity|]. now rewrite R.
  - induction a as [|x a IH]; intros [|y b]; simpl; try congruence.
    destruct (c x y) eqn:C; try congruence. intro H. apply E in C. subst. f_equal. now apply IH.
  - induction a as [|x a IH]; intros [|y b]; simpl; try reflexivity.
    rewrite (An x y). destruct (c x y); simpl; auto.
  - induction a as [|x a IH]; intros [|y b] [|z d]; simpl; try congruence.
    destruct (c x y) eqn:C1; try congruence.
    + apply E in C1. subst y. destruct (c x z) eqn:C2; try congruence. apply IH.
    + destruct (c y z) eqn:C2; try congruence.
      * apply E in C2. subst z. now rewrite C1.
      * now rewrite (T x y z C1 C2).
Qed.

Lemma lex_compare_snoc {A} (c : A -> A -> comparison) a x y :
  ord_ok c -> lex_compare c (a ++ [x]) (a ++ [y]) = c x y.
Proof.
  intro H. induction a as [|z a IH]; cbn [app lex_compare].
  - now destruct (c x y).
  - now rewrite (ok_refl c H).
Qed.

Lemma lex_compare_longer {A} (c : A -> A -> comparison) a y :
  ord_ok c -> lex_compare c a (a ++ [y]) = Lt.
Proof.
  intro H. induction a as [|z a IH]; cbn [app lex_compare]; [reflexivity|]. now rewrite (ok_refl c H).
Qed.

Lemma ord_ok_str : ord_ok str_compare.
Proof. apply ord_ok_lex, ord_ok_ascii. Qed.

Section OrdFacts.
  Context {A : Type} (c : A -> A -> comparison) (H : ord_ok c).

  Lemma ok_eq_iff a b : c a b = Eq <-> a = b.
  Proof using H. split; [apply (ok_eq c H)|]. intros ->. apply (ok_refl c H). Qed.

  Lemma ok_gt_lt a b : c a b = Gt <-> c b a = Lt.
  Proof using H. rewrite (ok_anti c H a b). destruct (c a b); simpl; split; congruence. Qed.

  Lemma ok_trans_gt a b d : c a b = Gt -> c b d = Gt -> c a d = Gt.
  Proof using H. rewrite !ok_gt_lt. intros. eapply (ok_trans c H); eauto. Qed.

  Lemma ok_le_trans a b d : c a b <> Gt -> c b d <> Gt -> c a d <> Gt.
  Proof using H.
    intros H1 H2 H3. destruct (c a b) eqn:C1; try congruence.
    - apply (ok_eq c H) in C1. subst. congruence.
    - destruct (c b d) eqn:C2; try congruence.
      + apply (ok_eq c H) in C2. subst. congruence.
      + rewrite (ok_trans c H a b d C1 C2) in H3. discriminate.
  Qed.

  Lemma ok_total a b : c a b <> Gt \/ c b a <> Gt.
  Proof using H. rewrite (ok_anti c H a b). destruct (c a b); simpl; [left|left|right]; congruence. Qed.
End OrdFacts.

Lemma notpm_iff c : notpm c = true <-> ascii_eqb c c_minus = false /\ ascii_eqb c c_plus = false.
Proof. unfold notpm. now rewrite negb_true_iff, orb_false_iff. Qed.

(* is_digit and is_alpha test nat_of_ascii, a number in unary that is slow to evaluate on all 256 characters;
   where a class is swept, it is through the same tests on the binary code. *)
Definition digit_code (c : ascii) : bool := let n := N_of_ascii c in ((48 <=? n) && (n <=? 57))%N.
Definition alpha_code (c : ascii) : bool :=
  let n := N_of_ascii c in ((65 <=? n) && (n <=? 90) || (97 <=? n) && (n <=? 122))%N.

Lemma leb_to_nat a n : (N.to_nat a <=? N.to_nat n) = (a <=? n)%N.
Proof. destruct (N.leb_spec a n); [apply Nat.leb_le|apply Nat.leb_gt]; lia. Qed.

Lemma is_digit_code c : is_digit c = digit_code c.
Proof. unfold digit_code. cbv zeta. now rewrite <- !leb_to_nat. Qed.

Lemma is_alpha_code c : is_alpha c = alpha_code c.
Proof. unfold alpha_code. cbv zeta. now rewrite <- !leb_to_nat. Qed.

(* Letters, digits and the separators . _ are disjoint classes that hold neither hyphen nor plus sign.
   What membership of each excludes is one evaluation over the 256 characters. *)
Lemma alpha_class c : is_alpha c = true ->
  is_digit c = false /\ is_sep c = false /\ notpm c = true /\ regex_meta c = false /\ is_space c = false /\
  (65 <= N_of_ascii c)%N.
Proof.
  rewrite is_alpha_code. intro H.
  apply (all_ascii_impl _ (fun c => negb (is_digit c) && negb (is_sep c) && notpm c && negb (regex_meta c) &&
                                    negb (is_space c) && (65 <=? N_of_ascii c)%N)) in H; [|vm_compute; reflexivity].
  apply andb_prop in H as [H L]. apply N.leb_le in L.
  repeat (apply andb_prop in H as [H ?]). rewrite negb_true_iff in *. repeat split; assumption.
Qed.

Lemma digit_class c : is_digit c = true ->
  is_alpha c = false /\ is_sep c = false /\ notpm c = true /\ regex_meta c = false /\ (N_of_ascii c <= 57)%N.
Proof.
  rewrite is_digit_code. intro H.
  apply (all_ascii_impl _ (fun c => negb (is_alpha c) && negb (is_sep c) && notpm c && negb (regex_meta c) &&
                                    (N_of_ascii c <=? 57)%N)) in H; [|vm_compute; reflexivity].
  apply andb_prop in H as [H L]. apply N.leb_le in L.
  repeat (apply andb_prop in H as [H ?]). rewrite negb_true_iff in *. repeat split; assumption.
Qed.

Lemma sep_class c : is_sep c = true ->
  is_alpha c = false /\ is_digit c = false /\ notpm c = true /\ ascii_eqb c c_m || ascii_eqb c c_p = false.
Proof.
  intro H.
  apply (all_ascii_impl _ (fun c => negb (is_alpha c) && negb (is_digit c) && notpm c &&
                                    negb (ascii_eqb c c_m || ascii_eqb c c_p))) in H; [|vm_compute; reflexivity].
  repeat (apply andb_prop in H as [H ?]). rewrite negb_true_iff in *. repeat split; assumption.
Qed.

Lemma alpha_not_digit c : is_alpha c = true -> is_digit c = false.
Proof. intro H. apply (alpha_class c H). Qed.
Lemma alpha_notpm c : is_alpha c = true -> notpm c = true.
Proof. intro H. apply (alpha_class c H). Qed.
Lemma alpha_not_sep c : is_alpha c = true -> is_sep c = false.
Proof. intro H. apply (alpha_class c H). Qed.
Lemma alpha_not_meta c : is_alpha c = true -> regex_meta c = false.
Proof. intro H. apply (alpha_class c H). Qed.
Lemma alpha_not_space c : is_alpha c = true -> is_space c = false.
Proof. intro H. apply (alpha_class c H). Qed.
Lemma digit_notpm c : is_digit c = true -> notpm c = true.
Proof. intro H. apply (digit_class c H). Qed.
Lemma digit_not_sep c : is_digit c = true -> is_sep c = false.
Proof. intro H. apply (digit_class c H). Qed.
Lemma digit_not_alpha c : is_digit c = true -> is_alpha c = false.
Proof. intro H. apply (digit_class c H). Qed.
Lemma digit_not_meta c : is_digit c = true -> regex_meta c = false.
Proof. intro H. apply (digit_class c H). Qed.
Lemma sep_notpm c : is_sep c = true -> notpm c = true.
Proof. intro H. apply (sep_class c H). Qed.
Lemma sep_not_digit c : is_sep c = true -> is_digit c = false.
Proof. intro H. apply (sep_class c H). Qed.
Lemma sep_not_alpha c : is_sep c = true -> is_alpha c = false.
Proof. intro H. apply (sep_class c H). Qed.
Lemma sep_not_mp c : is_sep c = true -> ascii_eqb c c_m || ascii_eqb c c_p = false.
Proof. intro H. apply (sep_class c H). Qed.

Lemma digit_lt_alpha d l : is_digit d = true -> is_alpha l = true -> ascii_compare d l = Lt.
Proof.
  intros Hd Hl. apply N.compare_lt_iff.
  destruct (digit_class d Hd) as (_ & _ & _ & _ & Hd'). destruct (alpha_class l Hl) as (_ & _ & _ & _ & _ & Hl'). lia.
Qed.
