(* C11 - level B: the block state machine of Table._read with the repair of D6, run on the
   classified lines of a well-formed items list, builds the chains one expects (compile), and
   Table.actions picks from each chain the branch the truth tables designate.  The reader
   before the repair runs in step with the repaired one as long as no brace line finds an
   open branch without a command (erase, run_erase); on items without an empty branch it
   therefore builds the same.  The two facts about text that this level needs (arguments
   split back, conditions tokenise back) are section hypotheses here; they are discharged in
   Proofs/ArgsRT.v and Proofs/CondTok.v. *)
From Coq Require Import Lia.
From Eupsv Require Import Base.Base Base.BaseLemmas Model.Rx Model.Cond Model.Args Model.Legacy
  Model.Blocks Model.TableSpec Proofs.CondEval Proofs.TableWf.

Lemma del_f_id args : mem_str (lit "-f") args = false -> del_f args = args.
Proof.
  induction args as [|a r IH]; [reflexivity|]. cbn [mem_str del_f].
  rewrite str_eqb_sym. destruct (str_eqb a (lit "-f")); [discriminate|].
  intros H. now rewrite IH.
Qed.

Lemma dir_env_not_f top : str_eqb (dir_env_name top) (lit "-f") = false.
Proof.
  destruct (str_eqb (dir_env_name top) (lit "-f")) eqn:E; [|reflexivity].
  apply str_eqb_eq, (f_equal (@length _)) in E. unfold dir_env_name in E. rewrite app_length in E. cbn in E. lia.
Qed.

Lemma normalise_kind k spell :
  str_eqb (lower_str spell) (lower_str (kind_name k)) = true ->
  normalise_cmd spell =
  Some (match k with
        | KEnvPrepend | KPathPrepend => k_envPrepend
        | KEnvAppend | KPathAppend => k_envAppend
        | KEnvSet | KSetenv | KPathSet => k_envSet
        | KSetupRequired => k_setupRequired | KSetupOptional => k_setupOptional
        | KUnsetupRequired => k_unsetupRequired | KUnsetupOptional => k_unsetupOptional
        | KAddAlias => k_addAlias | KDeclareOptions => k_declareOptions
        | KPrint => k_print | KProdDir => k_prodDir | KSetupEnv => k_setupEnv
        | KEnvUnset => k_envUnset
        end).
Proof.
  intros H. apply str_eqb_eq in H. unfold normalise_cmd. rewrite H. destruct k; vm_compute; reflexivity.
Qed.

Lemma arity_2_3 n : (2 <=? n) && (n <=? 3) = true -> (n <? 2) || (3 <? n) = false.
Proof. destruct n as [|[|[|[|n]]]]; cbn; congruence. Qed.

(* cbn is to evaluate process_cmd on the command name and leave del_f and dir_env_name folded *)
Local Opaque del_f dir_env_name.

(* a well-formed command line becomes exactly the action the documentation describes,
   provided its argument text splits back into its arguments *)
Lemma cmd_action top c :
  wf_cmd c = true ->
  split_args true (print_args (cl_args (c_lay c)) (c_args c)) = c_args c ->
  mk_action true top (cl_spell (c_lay c)) (print_args (cl_args (c_lay c)) (c_args c))
  = CAdd (denote_cmd top c).
Proof.
  intros Hwf Hsplit. destruct (wf_cmd_parts c Hwf) as (Hsp & _ & _ & _ & _ & _ & _ & _ & Har & Hf).
  unfold mk_action. rewrite (normalise_kind _ _ Hsp), Hsplit.
  unfold denote_cmd. destruct c as [k args lay]. cbn [c_kind c_args] in *.
  (* the envPrepend family takes two or three arguments: its test of the number passes *)
  destruct k; cbn [kind_sem arity_ok] in *; unfold process_cmd, add; rewrite ?(arity_2_3 _ Har);
    try (cbn; rewrite (del_f_id _ Hf); reflexivity).
  (* envSet family: exactly two arguments *)
  1-3: (apply Nat.eqb_eq in Har; destruct args as [|a0 [|a1 [|a2 r]]]; try discriminate Har;
        cbn; rewrite (del_f_id [a0; a1]) by exact Hf; reflexivity).
  (* envUnset(PRODUCT_DIR) *)
  destruct args as [|a0 [|a1 r]]; try discriminate Har.
  apply str_eqb_eq in Har. subst a0. cbn.
  rewrite str_eqb_refl. rewrite del_f_id; [reflexivity|].
  cbn [mem_str]. rewrite str_eqb_sym, dir_env_not_f. reflexivity.
Qed.

Local Transparent del_f dir_env_name.

Definition branch_elems (top : str) (b : branch) : lbb :=
  [LLog (print_cond (b_cond b)); LBlk (denote_body top (b_body b))].

Definition chain_lbb (top : str) (bs : list branch) (els : option (list cmd * bracelay)) : lbb :=
  flat_map (branch_elems top) bs
  ++ [LBlk (match els with Some (b, _) => denote_body top b | None => [] end)].

Definition flushU (U : list action) : list lbb :=
  match U with [] => [] | _ => [[LLog s_true; LBlk U; LBlk []]] end.

Fixpoint compile (top : str) (U : list action) (is : list item) : list lbb :=
  match is with
  | [] => flushU U
  | ICmd c :: r => compile top (U ++ [denote_cmd top c]) r
  | IChain b0 elifs els _ :: r => flushU U ++ chain_lbb top (b0 :: elifs) els :: compile top [] r
  end.

Lemma is_nil_app_cons {A} (l : list A) x r : is_nil (l ++ x :: r) = false.
Proof. destruct l; reflexivity. Qed.

(* along the run of the repaired reader no brace line finds inBranch set and block empty:
   no branch of the text, as it is read, is without a command *)
Fixpoint no_empty_open (fx : bool) (top : str) (ks : list linekind) (q : rstate_r) : bool :=
  match ks with
  | [] => true
  | k :: r =>
      (match k with
       | LCmd _ _ | LOther _ => true
       | _ => negb (q_inbranch q && is_nil (q_block q))
       end)
      && match step_r fx top k q with Ok q' => no_empty_open fx top r q' | Err _ => true end
  end.

Definition ifb_of (o : option (list action)) : list action := match o with Some b => b | None => [] end.

(* the state of the reader before the repair that runs in step with a state of the repaired
   one: the same variables, ifBlock the empty list for None *)
Definition erase (q : rstate_r) : rstate :=
  mkR (q_logical q) (q_block q) (ifb_of (q_ifblock q)) (q_chain q) (q_out q).

(* The two readers differ in their tests only: block, against block or inBranch, to close a
   branch; ifBlock empty, against ifBlock None, to tell an else branch.  The first pair
   agrees when inBranch is set only over a block that holds a command, the second when
   ifBlock is never Some []: it is set from a block that is not empty. *)
Lemma step_brace_erase k q :
  q_ifblock q <> Some [] -> q_inbranch q && is_nil (q_block q) = false ->
  match k with LCmd _ _ | LOther _ => False | _ => True end ->
  step_brace k (erase q) = erase (step_brace_r k q) /\ q_ifblock (step_brace_r k q) <> Some [].
Proof.
  destruct q as [lg blk inb o ch out]. cbn [q_ifblock q_inbranch q_block]. intros Hn Hg Hk.
  destruct blk as [|a blk].
  - (* nothing to close: then inBranch is not set *)
    rewrite andb_true_r in Hg. subst inb.
    destruct k as [c|c|x| |n a0|l]; try contradiction; cbn; try (split; [reflexivity|exact Hn]).
    destruct ch; cbn; (split; [reflexivity|assumption || discriminate]).
  - destruct o as [[|b0 b]|]; [now elim Hn|..];
      (destruct k as [c|c|[|]| |n a0|l]; try contradiction); cbn;
      rewrite ?is_nil_app_cons; (split; [reflexivity|discriminate]).
Qed.

Lemma step_cmd_erase r q :
  step_cmd r (erase q) = bind (step_cmd_r r q) (fun q' => Ok (erase q')) /\
  forall q', step_cmd_r r q = Ok q' -> q_ifblock q' = q_ifblock q.
Proof. destruct r; cbn; (split; [reflexivity|]); intros q' E; try discriminate E; now injection E as <-. Qed.

Lemma step_erase fx top k q :
  q_ifblock q <> Some [] ->
  match k with LCmd _ _ | LOther _ => true | _ => negb (q_inbranch q && is_nil (q_block q)) end = true ->
  step fx top k (erase q) = bind (step_r fx top k q) (fun q' => Ok (erase q')) /\
  forall q', step_r fx top k q = Ok q' -> q_ifblock q' <> Some [].
Proof.
  intros Hn Hg.
  assert (C : forall r, step_cmd r (erase q) = bind (step_cmd_r r q) (fun q' => Ok (erase q')) /\
                        forall q', step_cmd_r r q = Ok q' -> q_ifblock q' <> Some []).
  { intros r. destruct (step_cmd_erase r q) as [E I]. split; [exact E|]. intros q' Hq. now rewrite (I q' Hq). }
  pose proof (step_brace_erase k q Hn) as B.
  destruct k as [c|c|x| |n a0|l]; cbn [step step_r]; try apply C;
    apply negb_true_iff in Hg; destruct (B Hg I) as [E N];
    (split; [now rewrite E|intros q' Hq; now injection Hq as <-]).
Qed.

Lemma run_erase fx top ks q :
  q_ifblock q <> Some [] -> no_empty_open fx top ks q = true ->
  bind (run_lines_r fx top ks q) (fun q' => Ok (finish_r q'))
  = bind (run_lines fx top ks (erase q)) (fun st' => Ok (finish st')).
Proof.
  revert q. induction ks as [|k r IH]; intros q Hn Hg; [reflexivity|].
  cbn [no_empty_open] in Hg. apply andb_prop in Hg. destruct Hg as [G1 G2].
  cbn [run_lines run_lines_r]. destruct (step_erase fx top k q Hn G1) as [E N]. rewrite E.
  destruct (step_r fx top k q) as [q'|e]; cbn [bind]; [|reflexivity]. apply IH; auto.
Qed.

(* on classified lines of any kind (stray braces included): where no branch is empty the
   repaired reader builds what the reader before the repair builds *)
Lemma repair_conservative_lines fx top ks :
  no_empty_open fx top ks q_init = true -> read_blocks_r fx top ks = read_blocks fx top ks.
Proof.
  intros H. unfold read_blocks_r, read_blocks. now apply (run_erase fx top ks q_init).
Qed.

Lemma step_if_r c U O :
  step_brace_r (LIf c) (mkQ s_true U false None [] O) = mkQ c [] true None [] (O ++ flushU U).
Proof. destruct U; cbn; [now rewrite app_nil_r|reflexivity]. Qed.

Lemma step_elif_r c lg blk ch O :
  step_brace_r (LElseIf c) (mkQ lg blk true None ch O) = mkQ c [] true None (ch ++ [LLog lg; LBlk blk]) O.
Proof. unfold step_brace_r. cbn [q_block q_inbranch negb]. now rewrite andb_false_r. Qed.

Lemma step_else_r lg blk ch O :
  step_brace_r (LElse true) (mkQ lg blk true None ch O) = mkQ lg [] true (Some blk) ch O.
Proof. unfold step_brace_r. cbn [q_block q_inbranch negb]. now rewrite andb_false_r. Qed.

Lemma step_close_r lg blk o ch O :
  step_brace_r LClose (mkQ lg blk true o ch O)
  = mkQ s_true [] false None []
        (O ++ [ch ++ [LLog lg; LBlk (match o with Some b => b | None => blk end);
                      LBlk (match o with Some _ => blk | None => [] end)]]).
Proof.
  unfold step_brace_r. cbn [q_block q_inbranch negb]. rewrite andb_false_r. cbn.
  now rewrite is_nil_app_cons.
Qed.

Section LevelB.
Variable top : str.
Hypothesis Hargs : forall c, wf_cmd c = true ->
  split_args true (print_args (cl_args (c_lay c)) (c_args c)) = c_args c.

Lemma run_lines_r_app ks1 ks2 st :
  run_lines_r true top (ks1 ++ ks2) st = bind (run_lines_r true top ks1 st) (run_lines_r true top ks2).
Proof.
  revert st. induction ks1 as [|k r IH]; intros st; [reflexivity|].
  cbn [app run_lines_r]. destruct (step_r true top k st); cbn [bind]; auto.
Qed.

Lemma no_empty_open_app ks1 ks2 q :
  no_empty_open true top (ks1 ++ ks2) q
  = no_empty_open true top ks1 q
    && match run_lines_r true top ks1 q with Ok q' => no_empty_open true top ks2 q' | Err _ => true end.
Proof.
  revert q. induction ks1 as [|k r IH]; intros q; [reflexivity|].
  cbn [app no_empty_open run_lines_r]. destruct (step_r true top k q) as [q'|e]; cbn [bind].
  - now rewrite IH, andb_assoc.
  - now rewrite !andb_true_r.
Qed.

Lemma run_cmds_r body lg blk inb ifb ch out :
  forallb wf_cmd body = true ->
  run_lines_r true top (map cmd_kind_line body) (mkQ lg blk inb ifb ch out)
  = Ok (mkQ lg (blk ++ denote_body top body) inb ifb ch out).
Proof.
  revert blk. induction body as [|c r IH]; intros blk Hwf.
  - cbn. now rewrite app_nil_r.
  - cbn [forallb] in Hwf. apply andb_prop in Hwf. destruct Hwf as [Hc Hr].
    cbn [map run_lines_r]. unfold cmd_kind_line at 1. cbn [step_r].
    rewrite (cmd_action top c Hc (Hargs c Hc)).
    cbn [step_cmd_r bind q_logical q_block q_inbranch q_ifblock q_chain q_out].
    rewrite (IH _ Hr). unfold denote_body. cbn [map]. now rewrite <- app_assoc.
Qed.

Lemma open_cmds body q : no_empty_open true top (map cmd_kind_line body) q = true.
Proof.
  revert q. induction body as [|c r IH]; intros q; [reflexivity|].
  cbn [map]. unfold cmd_kind_line at 1. cbn [no_empty_open andb].
  destruct (step_r true top _ q); auto.
Qed.

Lemma nonnil_map {A B} (f : A -> B) l : is_nil l = false -> is_nil (map f l) = false.
Proof. destruct l; auto. Qed.

Lemma nonnil_body (l : list cmd) : is_nil l = false -> is_nil (denote_body top l) = false.
Proof. destruct l; auto. Qed.

(* the else-if branches: the branch whose block is open, and the chain so far *)
Fixpoint elif_state (b : branch) (ch : lbb) (elifs : list branch) : branch * lbb :=
  match elifs with
  | [] => (b, ch)
  | b' :: r => elif_state b' (ch ++ branch_elems top b) r
  end.

Lemma elif_state_chain b ch elifs :
  snd (elif_state b ch elifs) ++ branch_elems top (fst (elif_state b ch elifs))
  = ch ++ flat_map (branch_elems top) (b :: elifs).
Proof.
  revert b ch. induction elifs as [|b' r IH]; intros b ch.
  - cbn. reflexivity.
  - cbn [elif_state]. rewrite IH. cbn [flat_map]. now rewrite <- app_assoc.
Qed.

Lemma elif_state_nonempty b ch elifs :
  is_nil (b_body b) = false ->
  forallb (fun b => negb (is_nil (b_body b))) elifs = true ->
  is_nil (b_body (fst (elif_state b ch elifs))) = false.
Proof.
  revert b ch. induction elifs as [|b' r IH]; intros b ch Hb Hall; [exact Hb|].
  cbn [forallb] in Hall. apply andb_prop in Hall. destruct Hall as [H1 H2].
  apply negb_true_iff in H1. cbn [elif_state]. now apply IH.
Qed.

Definition elif_kinds (elifs : list branch) : list linekind :=
  flat_map (fun b => LElseIf (print_cond (b_cond b)) :: map cmd_kind_line (b_body b)) elifs.

Lemma run_elifs_r elifs b ch out :
  forallb wf_branch elifs = true ->
  run_lines_r true top (elif_kinds elifs)
    (mkQ (print_cond (b_cond b)) (denote_body top (b_body b)) true None ch out)
  = Ok (mkQ (print_cond (b_cond (fst (elif_state b ch elifs))))
            (denote_body top (b_body (fst (elif_state b ch elifs)))) true None
            (snd (elif_state b ch elifs)) out).
Proof.
  revert b ch. induction elifs as [|b' r IH]; intros b ch Hwf; [reflexivity|].
  cbn [forallb] in Hwf. apply andb_prop in Hwf. destruct Hwf as [Hw1 Hw2].
  destruct (wf_branch_parts _ Hw1) as (_ & Hcm & _).
  unfold elif_kinds. cbn [flat_map]. fold (elif_kinds r).
  cbn [app run_lines_r step_r bind]. rewrite step_elif_r, run_lines_r_app, (run_cmds_r _ _ _ _ _ _ _ Hcm).
  cbn [bind app]. exact (IH b' _ Hw2).
Qed.

Lemma open_elifs elifs b ch out :
  is_nil (b_body b) = false -> forallb wf_branch elifs = true ->
  forallb (fun b => negb (is_nil (b_body b))) elifs = true ->
  no_empty_open true top (elif_kinds elifs)
    (mkQ (print_cond (b_cond b)) (denote_body top (b_body b)) true None ch out) = true.
Proof.
  revert b ch. induction elifs as [|b' r IH]; intros b ch Hb Hwf Hne; [reflexivity|].
  cbn [forallb] in Hwf, Hne. apply andb_prop in Hwf. apply andb_prop in Hne.
  destruct Hwf as [Hw1 Hw2], Hne as [Hn1 Hn2]. apply negb_true_iff in Hn1.
  destruct (wf_branch_parts _ Hw1) as (_ & Hcm & _).
  unfold elif_kinds. cbn [flat_map]. fold (elif_kinds r).
  cbn [app no_empty_open step_r q_inbranch q_block andb]. rewrite (nonnil_body _ Hb). cbn [negb andb].
  rewrite step_elif_r, no_empty_open_app, open_cmds, (run_cmds_r _ _ _ _ _ _ _ Hcm). cbn [andb app].
  exact (IH b' _ Hn1 Hw2 Hn2).
Qed.

Lemma is_nil_flushU_out (U : list action) (O : list lbb) :
  (if is_nil U then O else O ++ [[LLog s_true; LBlk U; LBlk []]]) = O ++ flushU U.
Proof. destruct U; cbn; [now rewrite app_nil_r|reflexivity]. Qed.

Lemma run_chain_r b0 elifs els cl U O :
  wf_item (IChain b0 elifs els cl) = true ->
  run_lines_r true top (item_kinds (IChain b0 elifs els cl)) (mkQ s_true U false None [] O)
  = Ok (mkQ s_true [] false None [] (O ++ flushU U ++ [chain_lbb top (b0 :: elifs) els])).
Proof.
  intros Hw. destruct (wf_chain_parts _ _ _ _ Hw) as (Hb0 & Hel & Hels & _).
  destruct (wf_branch_parts _ Hb0) as (_ & Hcm0 & _).
  cbn [item_kinds]. fold (elif_kinds elifs).
  cbn [run_lines_r step_r bind]. rewrite step_if_r, !run_lines_r_app, (run_cmds_r _ _ _ _ _ _ _ Hcm0).
  cbn [bind app]. rewrite run_lines_r_app, (run_elifs_r elifs b0 [] _ Hel). cbn [bind].
  pose proof (elif_state_chain b0 [] elifs) as Hch.
  destruct (elif_state b0 [] elifs) as [bl ch]. cbn [fst snd app] in *.
  unfold chain_lbb. rewrite <- Hch. unfold branch_elems.
  destruct els as [[eb el]|].
  - destruct Hels as [Hecm _].
    cbn [app run_lines_r step_r bind]. rewrite step_else_r, run_lines_r_app, (run_cmds_r _ _ _ _ _ _ _ Hecm).
    cbn [bind app run_lines_r step_r]. rewrite step_close_r. now rewrite <- !app_assoc.
  - cbn [app run_lines_r step_r bind]. rewrite step_close_r. now rewrite <- !app_assoc.
Qed.

Lemma open_chain b0 elifs els cl U O :
  wf_item (IChain b0 elifs els cl) = true -> no_empty_branch_item (IChain b0 elifs els cl) = true ->
  no_empty_open true top (item_kinds (IChain b0 elifs els cl)) (mkQ s_true U false None [] O) = true.
Proof.
  intros Hw Hne. destruct (wf_chain_parts _ _ _ _ Hw) as (Hb0 & Hel & Hels & _).
  cbn [no_empty_branch_item forallb] in Hne. apply andb_prop in Hne. destruct Hne as [Hne Hnels].
  apply andb_prop in Hne. destruct Hne as [Hn0 Hnel]. apply negb_true_iff in Hn0.
  destruct (wf_branch_parts _ Hb0) as (_ & Hcm0 & _).
  cbn [item_kinds]. fold (elif_kinds elifs).
  cbn [no_empty_open step_r q_inbranch andb negb]. rewrite step_if_r.
  rewrite no_empty_open_app, open_cmds, (run_cmds_r _ _ _ _ _ _ _ Hcm0). cbn [andb app].
  rewrite no_empty_open_app, (open_elifs elifs b0 [] _ Hn0 Hel Hnel), (run_elifs_r elifs b0 [] _ Hel). cbn [andb].
  pose proof (elif_state_nonempty b0 [] elifs Hn0 Hnel) as Hlast.
  destruct (elif_state b0 [] elifs) as [bl ch]. cbn [fst snd] in *.
  destruct els as [[eb el]|].
  - destruct Hels as [Hecm _]. apply negb_true_iff in Hnels.
    cbn [app no_empty_open step_r q_inbranch q_block andb]. rewrite (nonnil_body _ Hlast). cbn [negb andb].
    rewrite step_else_r, no_empty_open_app, open_cmds, (run_cmds_r _ _ _ _ _ _ _ Hecm).
    cbn [andb app no_empty_open step_r q_inbranch q_block]. now rewrite (nonnil_body _ Hnels).
  - cbn [app no_empty_open step_r q_inbranch q_block andb]. now rewrite (nonnil_body _ Hlast).
Qed.

Lemma run_items_r is U O :
  wf_items is = true ->
  bind (run_lines_r true top (items_kinds is) (mkQ s_true U false None [] O)) (fun st => Ok (finish_r st))
  = Ok (O ++ compile top U is).
Proof.
  revert U O. induction is as [|i r IH]; intros U O Hwf.
  - cbn. destruct U; reflexivity.
  - cbn [wf_items forallb] in Hwf. apply andb_prop in Hwf. destruct Hwf as [Hw1 Hw2].
    unfold items_kinds. cbn [flat_map]. fold (items_kinds r). rewrite run_lines_r_app.
    destruct i as [c|b0 elifs els cl].
    + cbn [item_kinds run_lines_r]. unfold cmd_kind_line. cbn [step_r].
      cbn [wf_item] in Hw1. rewrite (cmd_action top c Hw1 (Hargs c Hw1)).
      cbn [step_cmd_r bind q_logical q_block q_inbranch q_ifblock q_chain q_out].
      rewrite (IH _ _ Hw2). reflexivity.
    + rewrite (run_chain_r b0 elifs els cl U O Hw1). cbn [bind].
      rewrite (IH _ _ Hw2). cbn [compile]. rewrite <- !app_assoc. reflexivity.
Qed.

Lemma open_items is U O :
  wf_items is = true -> no_empty_branch is = true ->
  no_empty_open true top (items_kinds is) (mkQ s_true U false None [] O) = true.
Proof.
  revert U O. induction is as [|i r IH]; intros U O Hwf Hne; [reflexivity|].
  cbn [wf_items no_empty_branch forallb] in Hwf, Hne. apply andb_prop in Hwf. apply andb_prop in Hne.
  destruct Hwf as [Hw1 Hw2], Hne as [Hn1 Hn2].
  unfold items_kinds. cbn [flat_map]. fold (items_kinds r). rewrite no_empty_open_app.
  destruct i as [c|b0 elifs els cl].
  - cbn [item_kinds wf_item] in *. change [cmd_kind_line c] with (map cmd_kind_line [c]).
    rewrite open_cmds, run_cmds_r by (cbn [forallb]; now rewrite Hw1). now apply IH.
  - rewrite (open_chain _ _ _ _ _ _ Hw1 Hn1), (run_chain_r _ _ _ _ _ _ Hw1). now apply IH.
Qed.

Lemma read_blocks_r_items is :
  wf_items is = true -> read_blocks_r true top (items_kinds is) = Ok (compile top [] is).
Proof. intros Hwf. unfold read_blocks_r, q_init. apply (run_items_r is [] [] Hwf). Qed.

Lemma read_blocks_items is :
  wf_items is = true -> no_empty_branch is = true ->
  read_blocks true top (items_kinds is) = Ok (compile top [] is).
Proof.
  intros Hwf Hne. rewrite <- (repair_conservative_lines true top _ (open_items is [] [] Hwf Hne)).
  now apply read_blocks_r_items.
Qed.

End LevelB.

Section Select.
Variable top : str.
Variable e : cenv.
Hypothesis Hcond : forall c, wf_cond c = true -> eval_cond true e (print_cond c) = Ok (denote e c).

Lemma eval_true : eval_cond true e s_true = Ok true.
Proof. vm_compute. reflexivity. Qed.

Lemma sel_branch b rest : wf_branch b = true ->
  sel_chain true e (branch_elems top b ++ rest)
  = if denote e (b_cond b) then Ok (denote_body top (b_body b))
    else match rest with [LBlk eb] => Ok eb | [LLog _] => Err Crash | _ => sel_chain true e rest end.
Proof.
  intros Hb. destruct (wf_branch_parts _ Hb) as (Hc & _).
  unfold branch_elems. cbn [app sel_chain]. rewrite (Hcond _ Hc). now destruct (denote e (b_cond b)).
Qed.

Lemma sel_chain_branches b bs els :
  forallb wf_branch (b :: bs) = true ->
  sel_chain true e (chain_lbb top (b :: bs) els) = Ok (pick_branch e top (b :: bs) els).
Proof.
  revert b. induction bs as [|b' r IH]; intros b [Hb Hr]%andb_prop;
    unfold chain_lbb; cbn [flat_map]; rewrite <- app_assoc, (sel_branch _ _ Hb); cbn [pick_branch];
    (destruct (denote e (b_cond b)); [reflexivity|]).
  - now destruct els as [[eb el]|].
  - exact (IH b' Hr).
Qed.

Lemma select_app a b :
  select true e (a ++ b)
  = bind (select true e a) (fun x => bind (select true e b) (fun y => Ok (x ++ y))).
Proof.
  induction a as [|l r IH]; cbn [app select].
  - cbn [bind]. destruct (select true e b); reflexivity.
  - destruct (sel_chain true e l); cbn [bind]; [|reflexivity]. rewrite IH.
    destruct (select true e r); cbn [bind]; [|reflexivity].
    destruct (select true e b); cbn [bind]; [|reflexivity]. now rewrite app_assoc.
Qed.

Lemma select_flushU U : select true e (flushU U) = Ok U.
Proof.
  destruct U as [|a r]; [reflexivity|]. cbn [flushU select sel_chain].
  rewrite eval_true. cbn [bind]. now rewrite app_nil_r.
Qed.

Lemma select_compile is U :
  wf_items is = true ->
  select true e (compile top U is) = Ok (U ++ denote_items e top is).
Proof.
  revert U. induction is as [|i r IH]; intros U Hwf.
  - cbn [compile denote_items flat_map]. rewrite app_nil_r. apply select_flushU.
  - cbn [wf_items forallb] in Hwf. apply andb_prop in Hwf. destruct Hwf as [Hi Hr].
    destruct i as [c|b0 elifs els cl]; cbn [compile].
    + rewrite (IH _ Hr). unfold denote_items. cbn [flat_map denote_item app]. now rewrite <- app_assoc.
    + rewrite select_app, select_flushU. cbn [bind select].
      destruct (wf_chain_parts _ _ _ _ Hi) as (Hb0 & Hel & _).
      rewrite sel_chain_branches by (cbn [forallb]; now rewrite Hb0, Hel).
      cbn [bind]. rewrite (IH _ Hr). cbn [bind app].
      unfold denote_items. cbn [flat_map denote_item]. reflexivity.
Qed.

End Select.
