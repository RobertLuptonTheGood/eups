(* Frame theorem for Model/Setup.v (C04, and the backbone of C01): a call of setup changes
   only what is owned by the product names it can reach within its depth budget.
   The control flow of the loop over a table is dealt with once, in a Hoare rule (run_actions_rule) that the
   other inductions over setup use as well (Proofs/SetupInv.v, Proofs/SetupUnwind.v); the traversal itself is
   proved once for any relation between states that the single steps respect (setup_related): the frame theorem
   here, its -j variant in Proofs/SetupFrameJ.v and the ownership relation of Proofs/SetupOwn.v are instances. *)
From Eupsv Require Import Base.Base Base.BaseLemmas Model.PathAlg Proofs.PathAlg Model.Setup.

Section Frame.
Variable w : world.
Variable cfg : config.
Variable dl : str -> ascii.            (* the delimiter each path variable is used with *)

Definition has_name (n : str) (p : product) : Prop := In p w /\ p_name p = n.

Definition own_var (n k : str) : Prop :=
  k = setup_var n \/ k = dir_var n \/ k = extra_var n \/
  exists p v, has_name n p /\ In (ASet k v) (p_actions p).
Definition own_alias (n a : str) : Prop := exists p v, has_name n p /\ In (AAlias a v) (p_actions p).
Definition own_elem (n var v : str) : Prop := exists p ap d, has_name n p /\ In (APath ap var v d) (p_actions p).
Definition path_var (var : str) : Prop := exists p ap v d, In p w /\ In (APath ap var v d) (p_actions p).
Definition set_var (k : str) : Prop := exists p v, In p w /\ In (ASet k v) (p_actions p).
Definition reserved (k : str) : Prop := exists n, k = setup_var n \/ k = dir_var n \/ k = extra_var n.

Record WF : Prop := {
  wf_path : forall p ap var v d, In p w -> In (APath ap var v d) (p_actions p) ->
            wf_delim d = true /\ wf_elem d v = true /\ d = dl var;
  wf_set : forall p k v, In p w -> In (ASet k v) (p_actions p) -> v <> [] /\ mem_ascii c_dollar v = false;
  wf_nounset : forall p k, In p w -> ~ In (AUnset k) (p_actions p);
  wf_path_not_set : forall var, path_var var -> ~ set_var var;
  wf_path_not_reserved : forall var, path_var var -> ~ reserved var;
  wf_set_not_reserved : forall k, set_var k -> ~ reserved k
}.

Definition dep_edge (n m : str) : Prop :=
  exists p opt j, has_name n p /\ In (ASetup opt m j) (p_actions p).

(* budget: None = unbounded, Some k = k more levels of dependencies *)
Definition dec (b : option nat) : option nat :=
  match b with None => None | Some k => Some (pred k) end.
Definition positive (b : option nat) : Prop :=
  match b with None => True | Some k => 0 < k end.
Definition ble (a b : option nat) : Prop :=
  match a, b with
  | _, None => True
  | None, Some _ => False
  | Some x, Some y => x <= y
  end.

Inductive touches : option nat -> str -> str -> Prop :=
| t_self b n : touches b n n
| t_dep b n m k : positive b -> dep_edge n m -> touches (dec b) m k -> touches b n k.

Lemma ble_refl b : ble b b.
Proof. destruct b; simpl; auto. Qed.

Lemma ble_dec a b : ble a b -> ble (dec a) (dec b).
Proof. destruct a, b; simpl; auto using Nat.pred_le_mono. Qed.

Lemma ble_positive a b : ble a b -> positive a -> positive b.
Proof. destruct a, b; simpl; auto; [intros L P; exact (Nat.lt_le_trans _ _ _ P L)|contradiction]. Qed.

Lemma touches_mono a n k : touches a n k -> forall b, ble a b -> touches b n k.
Proof.
  induction 1 as [a n|a n m k Hp He Ht IH]; intros b Hb; [constructor|].
  apply (t_dep b n m k); [now apply (ble_positive a)|assumption|]. apply IH. now apply ble_dec.
Qed.

Lemma touches_unbounded_trans a b c : touches None a b -> touches None b c -> touches None a c.
Proof.
  intro Tab. remember (@None nat) as bud eqn:Eb. induction Tab as [b0 n0|b0 n0 m0 k0 Hpos He Ht IH]; intro Hc; [assumption|].
  subst b0. apply (t_dep None n0 m0 c I He). now apply IH.
Qed.

(* the budget of a call at a given depth *)
Definition levels (depth : nat) (just : bool) : option nat :=
  if just then Some 0 else
  match c_max_depth cfg with
  | None => None
  | Some m => Some (m - depth)
  end.

Definition depth_ok (depth : nat) : Prop :=
  match c_max_depth cfg with None => True | Some m => depth <= m end.

Lemma depth_ok_top : depth_ok 0.
Proof. unfold depth_ok. destruct (c_max_depth cfg); [apply Nat.le_0_l|exact I]. Qed.

Lemma levels_just_le depth just k : ble (levels depth (just || k)) (levels depth just).
Proof.
  unfold levels. destruct just; cbn [orb]; [apply ble_refl|].
  destruct k; [|apply ble_refl]. destruct (c_max_depth cfg); simpl; auto using Nat.le_0_l.
Qed.

Lemma cut_off_false_levels depth just jst :
  depth_ok depth -> cut_off cfg just (S depth) = false ->
  positive (levels depth just) /\ ble (levels (S depth) jst) (dec (levels depth just)) /\ depth_ok (S depth).
Proof.
  unfold cut_off, levels, depth_ok. intros Hd Hc. apply orb_false_iff in Hc. destruct Hc as [Hj Hm].
  subst just. destruct (c_max_depth cfg) as [m|]; simpl.
  - apply Nat.eqb_neq in Hm.
    assert (Hlt : depth < m) by (apply Nat.le_neq; split; [exact Hd|intros ->; now apply Hm]).
    split; [now apply Nat.lt_add_lt_sub_r|split; [|exact Hlt]].
    destruct jst; simpl; [apply Nat.le_0_l|]. rewrite Nat.sub_succ_r. apply Nat.le_refl.
  - split; [exact I|split; [|exact I]]. now destruct jst.
Qed.

Definition nodollar_paths (e : amap str) : Prop :=
  forall var, path_var var -> no_dollar (oldv var e) = true.

(* what a set N of product names may change between two environments *)
Record env_frame (N : str -> Prop) (e e' : amap str) : Prop := {
  ef_vars : forall k, ~ path_var k -> (forall n, N n -> ~ own_var n k) -> alookup k e' = alookup k e;
  ef_paths : forall var (keep : str -> bool), path_var var ->
             (forall n v, N n -> own_elem n var v -> keep v = false) ->
             uniq (filter keep (elems (dl var) (oldv var e'))) = uniq (filter keep (elems (dl var) (oldv var e)))
}.

Definition alias_frame (N : str -> Prop) (a a' : amap str) : Prop :=
  forall k, (forall n, N n -> ~ own_alias n k) -> alookup k a' = alookup k a.

Lemma env_frame_refl N e : env_frame N e e.
Proof. split; reflexivity. Qed.

Lemma env_frame_trans N e1 e2 e3 : env_frame N e1 e2 -> env_frame N e2 e3 -> env_frame N e1 e3.
Proof.
  intros [V1 P1] [V2 P2]. split.
  - intros k Hk Hn. rewrite (V2 k Hk Hn). exact (V1 k Hk Hn).
  - intros var keep Hv Hn. rewrite (P2 var keep Hv Hn). now apply P1.
Qed.

Lemma env_frame_mono (N M : str -> Prop) e e' :
  (forall n, N n -> M n) -> env_frame N e e' -> env_frame M e e'.
Proof.
  intros H [V P]. split.
  - intros k Hk Hn. apply V; auto.
  - intros var keep Hv Hn. apply P; auto. intros n v Hin. apply Hn. auto.
Qed.

Lemma alias_frame_refl N a : alias_frame N a a.
Proof. intros k _. reflexivity. Qed.

Lemma alias_frame_trans N a1 a2 a3 : alias_frame N a1 a2 -> alias_frame N a2 a3 -> alias_frame N a1 a3.
Proof. intros H1 H2 k Hk. rewrite (H2 k Hk). exact (H1 k Hk). Qed.

Lemma alias_frame_mono (N M : str -> Prop) a a' :
  (forall n, N n -> M n) -> alias_frame N a a' -> alias_frame M a a'.
Proof. intros H F k Hk. apply F. auto. Qed.

Lemma oldv_other k var x e : k <> var -> oldv var (aset k x e) = oldv var e.
Proof. intro N. unfold oldv. rewrite alookup_aset_other; auto. Qed.

Lemma oldv_other_remove k var e : k <> var -> oldv var (aremove k e) = oldv var e.
Proof. intro N. unfold oldv. rewrite alookup_aremove_other; auto. Qed.

Lemma frame_set_owned (N : str -> Prop) n k x e :
  N n -> own_var n k -> ~ path_var k -> env_frame N e (aset k x e).
Proof.
  intros Hn Ho Hp. split.
  - intros k' Hk' Hno. apply alookup_aset_other. intros ->. now apply (Hno n).
  - intros var keep Hv _. rewrite oldv_other; [reflexivity|]. intros ->. contradiction.
Qed.

Lemma frame_unset_owned (N : str -> Prop) n k e :
  N n -> own_var n k -> ~ path_var k -> env_frame N e (aremove k e).
Proof.
  intros Hn Ho Hp. split.
  - intros k' Hk' Hno. apply alookup_aremove_other. intros ->. now apply (Hno n).
  - intros var keep Hv _. rewrite oldv_other_remove; [reflexivity|]. intros ->. contradiction.
Qed.

Lemma nodollar_set e k x : nodollar_paths e -> ~ path_var k -> nodollar_paths (aset k x e).
Proof. intros H Hk var Hv. rewrite oldv_other; [now apply H|]. intros ->. contradiction. Qed.

Lemma nodollar_unset e k : nodollar_paths e -> ~ path_var k -> nodollar_paths (aremove k e).
Proof. intros H Hk var Hv. rewrite oldv_other_remove; [now apply H|]. intros ->. contradiction. Qed.

Lemma reserved_not_path (H : WF) k : reserved k -> ~ path_var k.
Proof. intros Hr Hp. now apply (wf_path_not_reserved H k). Qed.

Lemma frame_path_step (H : WF) (N : str -> Prop) n p ap fwd var v d e :
  N n -> has_name n p -> In (APath ap var v d) (p_actions p) -> nodollar_paths e ->
  exists e', env_prepend ap fwd var v d e = Ok (Some e') /\ env_frame N e e' /\ nodollar_paths e' /\
    (forall k, k <> var -> alookup k e' = alookup k e) /\
    elems d (oldv var e') = result_list ap fwd d v (oldv var e).
Proof.
  intros Hn [Hin Hnm] Ha Hnd.
  destruct (wf_path H p ap var v d Hin Ha) as [Hd [Hv Hdl]].
  assert (Hpv : path_var var) by (exists p, ap, v, d; auto).
  destruct (env_prepend_elems ap fwd var v d e Hd Hv (Hnd var Hpv)) as [e' [H1 [H2 [H3 H4]]]].
  exists e'. split; [assumption|]. split; [split|split; [|split; assumption]].
  - intros k Hk _. apply H4. intros ->. contradiction.
  - intros var' keep Hv' Hkeep. destruct (str_eq_dec var' var) as [->|Nv].
    + rewrite <- Hdl. rewrite H2.
      assert (Kv : keep v = false) by (apply (Hkeep n v Hn); exists p, ap, d; split; [split|]; auto).
      rewrite <- (filter_remove_str_absorb keep v (result_list ap fwd d v (oldv var e)) Kv).
      rewrite result_others. rewrite (filter_remove_str_absorb keep v _ Kv).
      rewrite <- uniq_filter. now rewrite uniq_idem.
    + unfold oldv. rewrite H4 by assumption. reflexivity.
  - intros var' Hv'. destruct (str_eq_dec var' var) as [->|Nv]; [assumption|].
    unfold oldv. rewrite H4 by assumption. now apply Hnd.
Qed.

Lemma frame_set_step (H : WF) (N : str -> Prop) n p (fwd : bool) k v e :
  N n -> has_name n p -> In (ASet k v) (p_actions p) -> nodollar_paths e ->
  let e' := if fwd then aset k v e else aremove k e in
  env_set fwd k v e = Ok (Some e') /\ env_frame N e e' /\ nodollar_paths e'.
Proof.
  intros Hn [Hin Hnm] Ha Hnd.
  destruct (wf_set H p k v Hin Ha) as [Hne Hdol].
  assert (Hsv : set_var k) by (exists p, v; auto).
  assert (Hnp : ~ path_var k) by (intro Hp; now apply (wf_path_not_set H k Hp)).
  assert (Hown : own_var n k) by (right; right; right; exists p, v; split; [split|]; auto).
  destruct fwd; cbn zeta.
  - split; [|split; [now apply (frame_set_owned N n)|now apply nodollar_set]].
    rewrite (env_set_expanded k v v e (expand_nodollar e v Hdol) Hne). now rewrite (interp_nodollar e v Hdol).
  - split; [reflexivity|]. split; [now apply (frame_unset_owned N n)|now apply nodollar_unset].
Qed.

(* A Hoare rule for run_actions over the lines of one table [tbl]: [I todo st] holds before the lines [todo] are
   executed in state [st], [Q] of the result.  The rule holds the control flow of the loop once: a dependency
   that is cut off is skipped; a dependency that fails or raises leaves the state as it was before the line and
   raises if the line is a setupRequired of a setup; any other line that fails raises from the state before it. *)
Section Loop.
Variables (rec : setup_fn) (fwd : bool) (depth : nat) (just : bool) (tbl : list action).
Variable I : list action -> state -> Prop.
Variable Q : result -> Prop.
Hypothesis Qfuel : Q RFuel.
Hypothesis Qbad : Q RBad.
Hypothesis Hdone : forall st ds, I [] st -> Q (RDone true st ds).
Hypothesis Hsimple : forall a todo st ds, In a tbl -> (forall o m j, a <> ASetup o m j) -> I (a :: todo) st ->
  match exec_simple fwd a st with Ok st' => I todo st' | Err _ => Q (RRaise st ds) end.
Hypothesis Hcut : forall o m j todo st,
  cut_off cfg just (S depth) = true -> I (ASetup o m j :: todo) st -> I todo st.
Hypothesis Hdep : forall o m j todo st ds,
  In (ASetup o m j) tbl -> cut_off cfg just (S depth) = false -> I (ASetup o m j :: todo) st ->
  match rec st ds m fwd (S depth) j with
  | RDone true st' _ => I todo st'
  | RDone false _ ds' | RRaise _ ds' => if fwd && negb o then Q (RRaise st ds') else I todo st
  | _ => True
  end.

Lemma run_actions_rule todo : incl todo tbl ->
  forall st ds, I todo st -> Q (run_actions cfg rec fwd depth just todo st ds).
Proof.
  induction todo as [|a todo IH]; intros Hsub st ds HI; [now apply Hdone|].
  assert (Ha : In a tbl) by (apply Hsub; now left).
  assert (IH' := IH (fun x Hx => Hsub x (or_intror Hx))).
  assert (Simple : (forall o m j, a <> ASetup o m j) ->
            Q match exec_simple fwd a st with
              | Ok st' => run_actions cfg rec fwd depth just todo st' ds
              | Err _ => RRaise st ds
              end).
  { intro Hns. pose proof (Hsimple a todo st ds Ha Hns HI) as S.
    destruct (exec_simple fwd a st); [now apply IH'|exact S]. }
  destruct a as [o m j|ap var v d|k v|k|k v|]; try (apply Simple; discriminate).
  cbn [run_actions]. pose proof (Hcut o m j todo st) as C. pose proof (Hdep o m j todo st ds Ha) as D.
  destruct (cut_off cfg just (S depth)); [apply IH'; now apply C|]. specialize (D eq_refl HI).
  destruct (rec st ds m fwd (S depth) j) as [[|] st' ds'|st' ds'| |]; auto; destruct (fwd && negb o); auto.
Qed.

End Loop.

Lemma find_pv_in (l : world) name v p :
  find_pv l name v = Some p -> In p l /\ p_name p = name /\ p_version p = v.
Proof.
  induction l as [|q l IH]; simpl; [discriminate|].
  destruct (str_eqb (p_name q) name && str_eqb (p_version q) v) eqn:E.
  - intro Hq. injection Hq as <-. apply andb_true_iff in E. destruct E as [E1 E2].
    apply str_eqb_eq in E1. apply str_eqb_eq in E2. split; [now left|split; assumption].
  - intro Hq. destruct (IH Hq) as [Hin [Hn Hv]]. split; [now right|split; assumption].
Qed.

Lemma find_pv_spec name v p : find_pv w name v = Some p -> has_name name p /\ p_version p = v.
Proof. intro Hq. destruct (find_pv_in w name v p Hq) as [Hin [Hn Hv]]. split; [split|]; assumption. Qed.

Lemma find_setup_product_spec e name p : find_setup_product w e name = Some p -> has_name name p.
Proof.
  unfold find_setup_product. destruct (alookup (setup_var name) e); [|discriminate].
  destruct (recorded_version s); [|discriminate]. intro Hq. now destruct (find_pv_spec _ _ _ Hq).
Qed.

Definition good (N : str -> Prop) (st : state) (r : result) : Prop :=
  match r with
  | RDone _ st' _ => env_frame N (s_env st) (s_env st') /\ nodollar_paths (s_env st') /\
                     alias_frame N (s_aliases st) (s_aliases st')
  | RRaise st' _ => alias_frame N (s_aliases st) (s_aliases st')
  | _ => True
  end.

Definition framed (N : str -> Prop) (st st' : state) : Prop :=
  env_frame N (s_env st) (s_env st') /\ alias_frame N (s_aliases st) (s_aliases st').

Lemma framed_refl N st : framed N st st.
Proof. split; [apply env_frame_refl|apply alias_frame_refl]. Qed.

Lemma framed_trans N s1 s2 s3 : framed N s1 s2 -> framed N s2 s3 -> framed N s1 s3.
Proof.
  intros [E1 A1] [E2 A2]. split; [exact (env_frame_trans N _ _ _ E1 E2)|exact (alias_frame_trans N _ _ _ A1 A2)].
Qed.

Lemma framed_mono (N M : str -> Prop) st st' : (forall n, N n -> M n) -> framed N st st' -> framed M st st'.
Proof. intros HNM [E A]. split; [now apply (env_frame_mono N M)|now apply (alias_frame_mono N M)]. Qed.

Lemma exec_simple_ok (H : WF) (N : str -> Prop) n p fwd a st :
  N n -> has_name n p -> In a (p_actions p) -> (forall o m j, a <> ASetup o m j) ->
  nodollar_paths (s_env st) ->
  exists st', exec_simple fwd a st = Ok st' /\ framed N st st' /\ nodollar_paths (s_env st').
Proof.
  intros Hn Hp Ha Hns Hnd.
  assert (Env : forall r e', r = Ok (Some e') -> env_frame N (s_env st) e' -> nodollar_paths e' ->
            exists st', match r with Ok (Some e') => Ok (with_env st e') | Ok None => Ok st | Err x => Err x end = Ok st' /\
              framed N st st' /\ nodollar_paths (s_env st')).
  { intros r e' -> F D. exists (with_env st e'). split; [reflexivity|].
    split; [split; [exact F|apply alias_frame_refl]|exact D]. }
  destruct a as [o m j|ap var v d|k v|k|k v|]; cbn [exec_simple].
  - elim (Hns o m j eq_refl).
  - destruct (frame_path_step H N n p ap fwd var v d (s_env st) Hn Hp Ha Hnd) as [e' [E [F [D _]]]].
    exact (Env _ e' E F D).
  - destruct (frame_set_step H N n p fwd k v (s_env st) Hn Hp Ha Hnd) as [E [F D]]. exact (Env _ _ E F D).
  - elim (wf_nounset H p k (proj1 Hp) Ha).
  - eexists. split; [reflexivity|]. split; [split; [apply env_frame_refl|]|exact Hnd]. cbn [s_aliases].
    intros a Hno. assert (a <> k).
    { intros ->. apply (Hno n Hn). exists p, v. split; assumption. }
    destruct fwd; [now apply alookup_aset_other|now apply alookup_aremove_other].
  - exists st. split; [reflexivity|]. split; [apply framed_refl|exact Hnd].
Qed.

Lemma own_var_reserved n k : k = setup_var n \/ k = dir_var n \/ k = extra_var n -> own_var n k.
Proof. intros [E|[E|E]]; [left|right; left|right; right; left]; exact E. Qed.

Lemma reserved_vars name : reserved (setup_var name) /\ reserved (dir_var name) /\ reserved (extra_var name).
Proof. unfold reserved. split; [|split]; exists name; [left|right; left|right; right]; reflexivity. Qed.

Lemma reserved_owned (H : WF) name k :
  k = setup_var name \/ k = dir_var name \/ k = extra_var name -> own_var name k /\ ~ path_var k.
Proof. intro Hk. split; [now apply own_var_reserved|apply (reserved_not_path H); now exists name]. Qed.

Lemma set_product_vars_ok (H : WF) (N : str -> Prop) name p st :
  N name -> nodollar_paths (s_env st) ->
  env_frame N (s_env st) (s_env (set_product_vars cfg st name p)) /\
  nodollar_paths (s_env (set_product_vars cfg st name p)) /\
  s_aliases (set_product_vars cfg st name p) = s_aliases st.
Proof.
  intros Hn Hnd.
  destruct (reserved_owned H name (setup_var name)) as [O1 R1]; [now left|].
  destruct (reserved_owned H name (dir_var name)) as [O2 R2]; [right; now left|].
  unfold set_product_vars, set_env. cbn [s_env s_aliases]. split; [|split; [|reflexivity]].
  - apply (env_frame_trans N _ (aset (dir_var name) (p_dir p) (s_env st))); now apply (frame_set_owned N name).
  - apply nodollar_set; [apply nodollar_set|]; assumption.
Qed.

Lemma unset_product_vars_ok (H : WF) (N : str -> Prop) name st :
  N name -> nodollar_paths (s_env st) ->
  env_frame N (s_env st) (s_env (unset_product_vars st name)) /\
  nodollar_paths (s_env (unset_product_vars st name)) /\
  s_aliases (unset_product_vars st name) = s_aliases st.
Proof.
  intros Hn Hnd.
  destruct (reserved_owned H name (setup_var name)) as [O1 R1]; [now left|].
  destruct (reserved_owned H name (dir_var name)) as [O2 R2]; [right; now left|].
  destruct (reserved_owned H name (extra_var name)) as [O3 R3]; [right; now right|].
  unfold unset_product_vars, unset_env. cbn [s_env s_aliases]. split; [|split; [|reflexivity]].
  - apply (env_frame_trans N _ (aremove (setup_var name) (aremove (dir_var name) (s_env st))));
      [apply (env_frame_trans N _ (aremove (dir_var name) (s_env st)))|]; now apply (frame_unset_owned N name).
  - repeat apply nodollar_unset; assumption.
Qed.

Lemma set_vars_framed (H : WF) (N : str -> Prop) n p st : N n -> has_name n p -> nodollar_paths (s_env st) ->
  framed N st (set_product_vars cfg st n p) /\ nodollar_paths (s_env (set_product_vars cfg st n p)).
Proof.
  intros Hn _ Hnd. destruct (set_product_vars_ok H N n p st Hn Hnd) as [E [D A]].
  split; [split; [exact E|]|exact D]. rewrite A. apply alias_frame_refl.
Qed.

Lemma unset_vars_framed (H : WF) (N : str -> Prop) n p st : N n -> has_name n p -> nodollar_paths (s_env st) ->
  framed N st (unset_product_vars st n) /\ nodollar_paths (s_env (unset_product_vars st n)).
Proof.
  intros Hn _ Hnd. destruct (unset_product_vars_ok H N n st Hn Hnd) as [E [D A]].
  split; [split; [exact E|]|exact D]. rewrite A. apply alias_frame_refl.
Qed.

(* What a call of setup does to the state.  The names are those a reachability relation T with a budget gives,
   one that contains the name itself, grows with the budget and follows the lines of a table, a line with -j with no
   budget left: [touches], and the finer relation of Proofs/SetupFrameJ.v.  The relation R between states is one
   that every single step of the table of a product whose name is in N respects, reflexive, transitive and growing
   with N: [framed], and the ownership relation of Proofs/SetupOwn.v. *)
Section Reach.
Variable T : option nat -> str -> str -> Prop.
Hypothesis T_self : forall b n, T b n n.
Hypothesis T_mono : forall a n k, T a n k -> forall b, ble a b -> T b n k.
Hypothesis T_line : forall b n p o m j k, positive b -> has_name n p -> In (ASetup o m j) (p_actions p) ->
  T (if j then Some 0 else dec b) m k -> T b n k.

Section Traversal.
Variable R : (str -> Prop) -> state -> state -> Prop.
Hypothesis R_refl : forall N st, R N st st.
Hypothesis R_trans : forall N s1 s2 s3, R N s1 s2 -> R N s2 s3 -> R N s1 s3.
Hypothesis R_mono : forall (N M : str -> Prop) st st', (forall n, N n -> M n) -> R N st st' -> R M st st'.
Hypothesis R_simple : forall (N : str -> Prop) n p fwd a st,
  N n -> has_name n p -> In a (p_actions p) -> (forall o m j, a <> ASetup o m j) -> nodollar_paths (s_env st) ->
  exists st', exec_simple fwd a st = Ok st' /\ R N st st' /\ nodollar_paths (s_env st').
Hypothesis R_set : forall (N : str -> Prop) n p st, N n -> has_name n p -> nodollar_paths (s_env st) ->
  R N st (set_product_vars cfg st n p) /\ nodollar_paths (s_env (set_product_vars cfg st n p)).
Hypothesis R_unset : forall (N : str -> Prop) n p st, N n -> has_name n p -> nodollar_paths (s_env st) ->
  R N st (unset_product_vars st n) /\ nodollar_paths (s_env (unset_product_vars st n)).

Definition related (N : str -> Prop) (st : state) (r : result) : Prop :=
  match r with
  | RDone _ st' _ | RRaise st' _ => R N st st' /\ nodollar_paths (s_env st')
  | _ => True
  end.

Definition fn_related (rec : setup_fn) : Prop :=
  forall st ds name fwd depth just, nodollar_paths (s_env st) -> depth_ok depth ->
    related (T (levels depth just) name) st (rec st ds name fwd depth just).

Lemma related_mono (N M : str -> Prop) st r : (forall n, N n -> M n) -> related N st r -> related M st r.
Proof.
  intro HNM. destruct r as [ok st' ds'|st' ds'| |]; cbn [related]; auto;
    intros [A D]; exact (conj (R_mono N M st st' HNM A) D).
Qed.

Lemma run_actions_related (rec : setup_fn) name p fwd depth just :
  fn_related rec -> has_name name p -> depth_ok depth ->
  forall acts, incl acts (p_actions p) ->
  forall st0 st ds, R (T (levels depth just) name) st0 st -> nodollar_paths (s_env st) ->
    related (T (levels depth just) name) st0 (run_actions cfg rec fwd depth just acts st ds).
Proof.
  intros Hrec Hp Hdepth acts Hsub st0 st1 ds1 R1 D1. set (N := T (levels depth just) name) in *.
  refine (run_actions_rule rec fwd depth just (p_actions p)
            (fun _ st => R N st0 st /\ nodollar_paths (s_env st)) (related N st0)
            I I (fun st ds HI => HI) _ (fun _ _ _ _ _ _ HI => HI) _ acts Hsub st1 ds1 (conj R1 D1)).
  - intros a todo st ds Ha Hns [R0 D].
    destruct (R_simple N name p fwd a st (T_self _ name) Hp Ha Hns D) as [st' [E [R' D']]]. rewrite E.
    exact (conj (R_trans N _ _ _ R0 R') D').
  - intros o m j todo st ds Ha Hc [R0 D].
    destruct (cut_off_false_levels depth just j Hdepth Hc) as [Hpos [Hble Hd']].
    pose proof (Hrec st ds m fwd (S depth) j D Hd') as C. apply (related_mono _ N) in C.
    2:{ intros k Hk. apply (T_line _ name p o m j k Hpos Hp Ha). destruct j; [exact Hk|exact (T_mono _ _ _ Hk _ Hble)]. }
    destruct (rec st ds m fwd (S depth) j) as [[|] st' ds'|st' ds'| |]; try exact I;
      try (destruct (fwd && negb o); exact (conj R0 D)).
    exact (conj (R_trans N _ _ _ R0 (proj1 C)) (proj2 C)).
Qed.

Lemma setup_step_related (rec : setup_fn) : fn_related rec -> fn_related (setup_step w cfg rec).
Proof.
  intros Hrec st ds name fwd depth just Hnd Hdepth. set (N := T (levels depth just) name).
  pose proof (T_self (levels depth just) name : N name) as HNself.
  pose proof (conj (R_refl N st) Hnd) as Same.
  unfold setup_step. destruct fwd.
  - destruct ds as [|[v|] ds1]; [exact I| |exact Same].
    destruct (find_pv w name v) as [p|] eqn:Hf; [|exact I].
    destruct (find_pv_spec name v p Hf) as [Hp _].
    destruct (same_product p (find_setup_product w (s_env st) name) && negb (depth =? 0)); [exact Same|].
    (* the version that was set up is unset first, within a budget that --keep can only lower *)
    assert (H0 : related N st (match find_setup_product w (s_env st) name with
                               | Some _ => rec st ds1 name false depth (just || c_keep cfg)
                               | None => RDone true st ds1 end)).
    { destruct (find_setup_product w (s_env st) name); [|exact Same].
      apply (related_mono (T (levels depth (just || c_keep cfg)) name) N); [|now apply Hrec].
      intros n Hn. apply (T_mono _ _ _ Hn). apply levels_just_le. }
    destruct (match find_setup_product w (s_env st) name with
              | Some _ => rec st ds1 name false depth (just || c_keep cfg)
              | None => RDone true st ds1 end) as [ok st1 ds2|st1 ds2| |]; try exact H0.
    destruct H0 as [R0 D1]. destruct (R_set N name p st1 HNself Hp D1) as [R2 D2].
    exact (run_actions_related rec name p true depth just Hrec Hp Hdepth (p_actions p) (incl_refl _)
             st _ ds2 (R_trans N _ _ _ R0 R2) D2).
  - destruct (find_setup_product w (s_env st) name) as [sp|] eqn:Hs; [|exact Same].
    pose proof (find_setup_product_spec _ _ _ Hs) as Hp.
    destruct (R_unset N name sp st HNself Hp Hnd) as [R1 D1].
    exact (run_actions_related rec name sp false depth just Hrec Hp Hdepth (p_actions sp) (incl_refl _)
             st _ ds R1 D1).
Qed.

Theorem setup_related fuel : fn_related (setup w cfg fuel).
Proof.
  induction fuel as [|fuel IH].
  - intros st ds name fwd depth just _ _. exact I.
  - cbn [setup]. now apply setup_step_related.
Qed.

End Traversal.

Lemma setup_step_framed (H : WF) (rec : setup_fn) :
  fn_related framed rec -> fn_related framed (setup_step w cfg rec).
Proof.
  exact (setup_step_related framed framed_refl framed_trans framed_mono
           (exec_simple_ok H) (set_vars_framed H) (unset_vars_framed H) rec).
Qed.

Theorem setup_framed (H : WF) fuel : fn_related framed (setup w cfg fuel).
Proof.
  exact (setup_related framed framed_refl framed_trans framed_mono
           (exec_simple_ok H) (set_vars_framed H) (unset_vars_framed H) fuel).
Qed.

Theorem setup_frames (H : WF) fuel st ds name fwd depth just :
  nodollar_paths (s_env st) -> depth_ok depth ->
  good (T (levels depth just) name) st (setup w cfg fuel st ds name fwd depth just).
Proof.
  intros Hnd Hd. pose proof (setup_framed H fuel st ds name fwd depth just Hnd Hd) as G.
  destruct (setup w cfg fuel st ds name fwd depth just); try exact I; destruct G as [[E A] D];
    [exact (conj E (conj D A))|exact A].
Qed.

End Reach.

Definition fn_ok (rec : setup_fn) : Prop :=
  forall st ds name fwd depth just, nodollar_paths (s_env st) -> depth_ok depth ->
    good (touches (levels depth just) name) st (rec st ds name fwd depth just).

Lemma touches_line b n p o m j k : positive b -> has_name n p -> In (ASetup o m j) (p_actions p) ->
  touches (if j then Some 0 else dec b) m k -> touches b n k.
Proof.
  intros Hpos Hp Ha Ht. apply (t_dep b n m k Hpos); [now exists p, o, j|].
  apply (touches_mono _ _ _ Ht). destruct j; [|apply ble_refl]. destruct b as [x|]; simpl; auto using Nat.le_0_l.
Qed.

(* the form in which the inductions of Proofs/SetupInv.v take the frame theorem for the nested calls: it says of
   the state an exception leaves what [good] says of a final state *)
Definition fn_framed (rec : setup_fn) : Prop := fn_related touches framed rec.

Lemma setup_step_ok (H : WF) (rec : setup_fn) : fn_framed rec -> fn_framed (setup_step w cfg rec).
Proof. exact (setup_step_framed touches t_self touches_mono touches_line H rec). Qed.

Theorem setup_frame_raise (H : WF) fuel : fn_framed (setup w cfg fuel).
Proof. exact (setup_framed touches t_self touches_mono touches_line H fuel). Qed.

Theorem setup_frame (H : WF) fuel : fn_ok (setup w cfg fuel).
Proof. exact (setup_frames touches t_self touches_mono touches_line H fuel). Qed.

End Frame.

Lemma nodollar_nil w : nodollar_paths w [].
Proof. intros var _. reflexivity. Qed.
