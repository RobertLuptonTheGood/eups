(* C03 - the model of Model/Resolve.v refines the designation rule of Model/ResolveSpec.v *)
From Eupsv Require Import Base.Base Base.BaseLemmas Model.Resolve Model.ResolveSpec Proofs.ResolveLib.
From Coq Require Import Lia.

Lemma find_version_spec db n v f : find_version db n v f = version_designates db n v f.
Proof.
  unfold version_designates. induction db as [|s db IH]; simpl; [reflexivity|].
  destruct (declared s n v f); auto.
Qed.

Lemma find_chain_tagged_spec db n t f : find_chain_tagged db n t f = tag_designates db n t f.
Proof.
  unfold tag_designates. induction db as [|s db IH]; simpl; [reflexivity|].
  destruct (chain_version s n f t); [destruct (declared s n _ f)|]; auto.
Qed.

Lemma version_designates_version db n v f p : version_designates db n v f = Some p -> fd_version p = v.
Proof.
  unfold version_designates. induction db as [|s db IH]; simpl; [discriminate|].
  destruct (declared s n v f); [intro H; injection H as <-; reflexivity|exact IH].
Qed.

Lemma version_designates_none db n v f :
  (forall s, In s db -> declared s n v f = false) -> version_designates db n v f = None.
Proof.
  intro H. unfold version_designates. apply first_some_none. intros s Hs. now rewrite (H s Hs).
Qed.

Lemma versions_of_In l n f v : In v (versions_of l n f) -> In (n, v, f) l.
Proof.
  induction l as [|[[n' v'] f'] l IH]; simpl; [tauto|].
  destruct (str_eqb n n') eqn:En, (str_eqb f f') eqn:Ef; simpl; auto.
  intros [<-|H]; auto. apply str_eqb_eq in En, Ef. subst. now left.
Qed.

Lemma versions_in_names db s n f v : In s db -> In v (versions_in s n f) -> In v (names_of db n).
Proof.
  intros Hs Hv. unfold names_of. apply in_flat_map. exists s. split; [assumption|].
  apply in_flat_map. exists (n, v, f). split; [now apply versions_of_In|].
  rewrite str_eqb_refl. now left.
Qed.

Definition cands_stack (s : stackv) (n f : str) : list found :=
  map (fun v => found_in s n v f) (versions_in s n f).

Lemma candidates_cons s db n f : candidates (s :: db) n f = cands_stack s n f ++ candidates db n f.
Proof. reflexivity. Qed.

Lemma candidates_names db n f q : In q (candidates db n f) -> In (fd_version q) (names_of db n).
Proof.
  unfold candidates. intro H. apply in_flat_map in H. destruct H as [s [Hs Hq]].
  apply in_map_iff in Hq. destruct Hq as [v [<- Hv]]. simpl. eapply versions_in_names; eauto.
Qed.

Lemma names_of_cons s db n v : In v (names_of db n) -> In v (names_of (s :: db) n).
Proof. unfold names_of. simpl. intro H. apply in_or_app. now right. Qed.

Lemma find_verb_map s n f vs v :
  find (verb v) (map (fun w => found_in s n w f) vs) = if mem_str v vs then Some (found_in s n v f) else None.
Proof.
  induction vs as [|w vs IH]; simpl; [reflexivity|].
  unfold verb at 1. simpl. rewrite (str_eqb_sym v w).
  destruct (str_eqb w v) eqn:E; [apply str_eqb_eq in E; now subst|exact IH].
Qed.

Section Latest.
  Variable vcmp : str -> str -> comparison.
  Variable U : list str.
  Hypothesis HT : total_order_on vcmp U.
  Variables n f : str.

  Lemma find_latest_from_best db : forall A out,
    (forall s, In s db -> forall v, In v (versions_in s n f) -> In v U) ->
    vers_in_U U A ->
    match out with None => A = [] | Some o => is_best vcmp A o end ->
    match find_latest_from vcmp out db n f with
    | None => A ++ candidates db n f = []
    | Some r => is_best vcmp (A ++ candidates db n f) r
    end.
  Proof.
    induction db as [|s db IH]; intros A out HS HA HO.
    - simpl. rewrite app_nil_r. destruct out; assumption.
    - assert (HS' : forall s0, In s0 db -> forall v, In v (versions_in s0 n f) -> In v U)
        by (intros s0 H0; apply HS; now right).
      assert (Hs : forall v, In v (versions_in s n f) -> In v U) by (apply HS; now left).
      simpl find_latest_from. unfold stack_latest.
      pose proof (last_max_spec vcmp U HT (versions_in s n f) Hs) as LM.
      rewrite candidates_cons, app_assoc. unfold cands_stack.
      set (B := map (fun w => found_in s n w f) (versions_in s n f)).
      assert (HAB : vers_in_U U (A ++ B)).
      { intros q Hq. apply in_app_or in Hq. destruct Hq as [Hq|Hq]; [auto|].
        apply in_map_iff in Hq. destruct Hq as [w [<- Hw]]. simpl. auto. }
      destruct (last_max vcmp (versions_in s n f)) as [v|].
      + destruct LM as [Iv Mv].
        assert (HB : is_best vcmp B (found_in s n v f)).
        { split; [apply in_map_iff; eauto|]. split.
          - intros q Hq. apply in_map_iff in Hq. destruct Hq as [w [<- Hw]]. simpl. auto.
          - cbn [fd_version found_in]. unfold B. rewrite find_verb_map. apply mem_str_In in Iv. now rewrite Iv. }
        destruct out as [o|].
        * pose proof (is_best_app vcmp U HT A B o _ HAB HO HB) as H. unfold higher in H. cbn [fd_version found_in] in *.
          destruct (vcmp v (fd_version o)); apply IH; auto.
        * subst A. apply IH; auto.
      + assert (E : B = []) by (unfold B; now rewrite LM). rewrite E, app_nil_r. apply IH; auto.
  Qed.

End Latest.

Lemma find_latest_spec vcmp db n f :
  total_order_on vcmp (names_of db n) ->
  find_latest vcmp db n f = highest vcmp (candidates db n f).
Proof.
  intro HT. unfold find_latest.
  pose proof (find_latest_from_best vcmp (names_of db n) HT n f db [] None) as H.
  simpl in H.
  assert (H1 : forall s, In s db -> forall v, In v (versions_in s n f) -> In v (names_of db n))
    by (intros; eapply versions_in_names; eauto).
  specialize (H H1 (fun q (Hq : In q []) => match Hq with end) eq_refl).
  destruct (find_latest_from vcmp None db n f) as [r|].
  - symmetry. apply (best_is_highest vcmp (names_of db n) HT); [|assumption].
    intros q Hq. now apply candidates_names in Hq.
  - rewrite H. reflexivity.
Qed.

Section Expr.
  Variable vcmp : str -> str -> comparison.
  Variable vmatch : str -> str -> bool.
  Variables n x f : str.

  Definition matching_stack (s : stackv) : list found :=
    map (fun w => found_in s n w f) (filter (fun v => vmatch v x) (versions_in s n f)).
  Definition matching (db : dbv) : list found := flat_map matching_stack db.

  Lemma filter_candidates db :
    filter (fun p => vmatch (fd_version p) x) (candidates db n f) = matching db.
  Proof.
    induction db as [|s db IH]; [reflexivity|].
    rewrite candidates_cons, filter_app, IH. simpl. f_equal.
    unfold cands_stack, matching_stack. induction (versions_in s n f) as [|w l IHl]; simpl; [reflexivity|].
    destruct (vmatch w x); simpl; now rewrite IHl.
  Qed.

  Lemma add_new_find s vs : forall out v,
    find (verb v) (add_new s n f vs out) =
    match find (verb v) out with
    | Some r => Some r
    | None => find (verb v) (map (fun w => found_in s n w f) vs)
    end.
  Proof.
    induction vs as [|w vs IH]; intros out v; simpl.
    - destruct (find (verb v) out); reflexivity.
    - destruct (existsb (fun p => str_eqb (fd_version p) w) out) eqn:E.
      + rewrite IH. destruct (find (verb v) out) eqn:Fo; [reflexivity|].
        unfold verb at 2. simpl. destruct (str_eqb w v) eqn:Ewv; [|reflexivity].
        apply str_eqb_eq in Ewv. subst w. exfalso.
        change (fun p => str_eqb (fd_version p) v) with (verb v) in E.
        rewrite existsb_find, Fo in E. discriminate.
      + rewrite IH, find_app. destruct (find (verb v) out); [reflexivity|]. simpl.
        destruct (verb v (found_in s n w f)); reflexivity.
  Qed.

  Lemma fbe_find db : forall out v,
    find (verb v) (find_by_expr_from vmatch out db n x f) =
    match find (verb v) out with Some r => Some r | None => find (verb v) (matching db) end.
  Proof.
    induction db as [|s db IH]; intros out v; simpl.
    - destruct (find (verb v) out); reflexivity.
    - rewrite IH, add_new_find, find_app. unfold matching_stack.
      destruct (find (verb v) out); [reflexivity|].
      destruct (find (verb v) (map _ _)); reflexivity.
  Qed.

End Expr.

Lemma expr_spec vcmp vmatch db n x f :
  total_order_on vcmp (names_of db n) ->
  select_latest vcmp (find_by_expr vmatch db n x f) = expr_designates vcmp vmatch db n x f.
Proof.
  intro HT. unfold expr_designates. rewrite filter_candidates.
  set (L := matching vmatch n x f db). unfold find_by_expr.
  set (D := find_by_expr_from vmatch [] db n x f).
  assert (HF : forall v, find (verb v) D = find (verb v) L)
    by (intro v; unfold D; rewrite fbe_find; reflexivity).
  assert (HLU : vers_in_U (names_of db n) L).
  { intros q Hq. unfold L in Hq. rewrite <- filter_candidates in Hq. apply filter_In in Hq.
    now apply candidates_names with f. }
  assert (HDU : forall q, In q (map fd_version D) -> In q (names_of db n)).
  { intros q Hq. apply in_map_iff in Hq. destruct Hq as [p [<- Hp]].
    destruct (find (verb (fd_version p)) D) as [r|] eqn:F.
    - rewrite HF in F. apply find_some in F. destruct F as [Ir Vr]. apply str_eqb_eq in Vr. rewrite <- Vr. now apply HLU.
    - rewrite find_none_iff in F. specialize (F p Hp). now rewrite verb_refl in F. }
  unfold select_latest.
  pose proof (last_max_spec vcmp (names_of db n) HT (map fd_version D) HDU) as LM.
  destruct (last_max vcmp (map fd_version D)) as [v|].
  - destruct LM as [Iv Mv].
    destruct (find (fun p => str_eqb (fd_version p) v) D) as [r|] eqn:Fr.
    + symmetry. apply (best_is_highest vcmp (names_of db n) HT); [assumption|].
      change (fun p => str_eqb (fd_version p) v) with (verb v) in Fr.
      pose proof (find_some _ _ Fr) as [_ Vr]. unfold verb in Vr. apply str_eqb_eq in Vr.
      rewrite HF in Fr. split; [exact (proj1 (find_some _ _ Fr))|]. split.
      * intros q Hq. rewrite Vr. apply Mv.
        destruct (find (verb (fd_version q)) D) as [d|] eqn:Fd.
        -- pose proof (find_some _ _ Fd) as [IdD Vd]. unfold verb in Vd. apply str_eqb_eq in Vd.
           rewrite <- Vd. now apply in_map.
        -- rewrite HF in Fd. rewrite find_none_iff in Fd. specialize (Fd q Hq).
           rewrite verb_refl in Fd. discriminate.
      * rewrite Vr. exact Fr.
    + exfalso. apply in_map_iff in Iv. destruct Iv as [p [Ep Hp]].
      rewrite find_none_iff in Fr. specialize (Fr p Hp). simpl in Fr. rewrite Ep, str_eqb_refl in Fr.
      discriminate.
  - destruct L as [|q L'] eqn:EL; [reflexivity|]. exfalso.
    assert (ED : D = []) by (destruct D; [reflexivity|discriminate]).
    specialize (HF (fd_version q)). rewrite ED in HF. simpl in HF.
    rewrite verb_refl in HF. discriminate.
Qed.

Lemma chain_lookup_tag l n f t v : chain_lookup l n f t = Some v -> existsb (chain_tag_is t) l = true.
Proof.
  induction l as [|[[[n' f'] t'] v'] l IH]; simpl; [discriminate|].
  destruct (str_eqb n n' && str_eqb f f' && str_eqb t t') eqn:E.
  - intros _. apply andb_true_iff in E. destruct E as [_ E]. rewrite E. reflexivity.
  - intro H. rewrite (IH H). apply orb_true_r.
Qed.

Lemma existsb_tag_filter t p l :
  existsb (chain_tag_is t) l = false -> existsb (chain_tag_is t) (filter p l) = false.
Proof.
  induction l as [|x r IH]; simpl; [reflexivity|]. intro H. apply orb_false_iff in H. destruct H as [H1 H2].
  destruct (p x); simpl; [rewrite H1|]; now apply IH.
Qed.

Lemma no_chain_no_tagged db n t f :
  forallb (fun s => negb (existsb (chain_tag_is t) (st_chain s))) db = true ->
  find_chain_tagged db n t f = None.
Proof.
  induction db as [|s db IH]; simpl; [reflexivity|]. intro H. apply andb_true_iff in H. destruct H as [Hk Hdb].
  apply negb_true_iff in Hk.
  unfold chain_version. destruct (chain_lookup (st_chain s) n f t) eqn:E.
  - apply chain_lookup_tag in E. congruence.
  - now apply IH.
Qed.

Lemma wf_no_keep db n f : wf_db db = true -> find_chain_tagged db n (lit "keep") f = None.
Proof.
  intro H. apply no_chain_no_tagged. unfold wf_db in H. rewrite forallb_forall in *.
  intros s Hs. specialize (H s Hs). unfold wf_stack in H. apply andb_true_iff in H. now destruct H.
Qed.

Lemma wf_no_expr_version db n v f : wf_db db = true -> is_expr v = true -> find_version db n v f = None.
Proof.
  intros Hwf Hv. induction db as [|s db IH]; simpl; [reflexivity|].
  simpl in Hwf. apply andb_true_iff in Hwf. destruct Hwf as [Hs Hdb].
  destruct (declared s n v f) eqn:D; [|now apply IH]. exfalso.
  unfold declared in D. apply existsb_exists in D. destruct D as [[[n' v'] f'] [Hin Hd]].
  unfold decl_is in Hd. apply andb_true_iff in Hd. destruct Hd as [Hd _]. apply andb_true_iff in Hd.
  destruct Hd as [_ Hd]. apply str_eqb_eq in Hd. subst v'.
  unfold wf_stack in Hs. apply andb_true_iff in Hs. destruct Hs as [Hs _].
  rewrite forallb_forall in Hs. specialize (Hs _ Hin). simpl in Hs. rewrite Hv in Hs. discriminate.
Qed.

Lemma find_from_vro_none_prev vcmp vmatch c db f depth vro rq :
  find_from_vro vcmp vmatch c db None f depth vro rq =
  match vro_loop vcmp vmatch c db None rq f depth vro with
  | Some (p, r, _) => Some (p, r)
  | None => None
  end.
Proof. unfold find_from_vro. destruct (vro_loop _ _ _ _ _ _ _ _ _) as [[[p r] e0]|]; reflexivity. Qed.

Lemma inert_step vcmp vmatch c db rq f depth e later :
  wf_db db = true -> is_inert e = true ->
  vro_step vcmp vmatch c db None rq f depth e later = Continue.
Proof.
  intros WF He. destruct e; try discriminate; try reflexivity.
  unfold vro_step. destruct (0 <? depth); [reflexivity|].
  destruct (recognized c (lit "keep")); [|reflexivity].
  unfold tag_step, find_tagged.
  change (str_eqb (lit "keep") (lit "latest")) with false.
  change (str_eqb (lit "keep") (lit "setup")) with false. cbv iota.
  now rewrite (wf_no_keep db (rq_name rq) f WF).
Qed.

Lemma inert_loop vcmp vmatch c db rq f depth pre l :
  wf_db db = true -> forallb is_inert pre = true ->
  vro_loop vcmp vmatch c db None rq f depth (pre ++ l) = vro_loop vcmp vmatch c db None rq f depth l.
Proof.
  intros WF. induction pre as [|e pre IH]; cbn [app vro_loop forallb]; [reflexivity|].
  intro H. apply andb_true_iff in H. destruct H as [He Hp].
  rewrite (inert_step vcmp vmatch c db rq f depth e _ WF He). now apply IH.
Qed.

Definition step_outcome (s : step) : outcome :=
  match s with
  | Continue => Next
  | Stop (Some (p, _)) => Yield p
  | Stop None => Fail
  end.

Section Walk.
  Variable vcmp : str -> str -> comparison.
  Variable vmatch : str -> str -> bool.
  Variable c : config.
  Variable db : dbv.
  Variable rq : request.
  Variable f : str.
  Variable depth : nat.
  Hypothesis WF : wf_db db = true.
  Hypothesis HT : total_order_on vcmp (names_of db (rq_name rq)).

  Local Notation n := (rq_name rq).
  Local Notation vr := (classify rq).

  Lemma find_tagged_spec t :
    find_tagged vcmp db n t f =
    if str_eqb t (lit "latest") then highest vcmp (candidates db n f)
    else if str_eqb t (lit "setup") then None else tag_designates db n t f.
  Proof.
    unfold find_tagged. destruct (str_eqb t (lit "latest")); [now apply find_latest_spec|].
    destruct (str_eqb t (lit "setup")); [reflexivity|apply find_chain_tagged_spec].
  Qed.

  Lemma tag_step_outcome e t :
    step_outcome (tag_step vcmp db n f e t) = of_option (find_tagged vcmp db n t f).
  Proof. unfold tag_step. destruct (find_tagged vcmp db n t f); reflexivity. Qed.

  Lemma explicit_step_outcome v later :
    step_outcome (explicit_step db n v f depth later) = or_fail (version_designates db n v f) later.
  Proof.
    unfold explicit_step. rewrite find_version_spec.
    destruct (version_designates db n v f); simpl; [reflexivity|].
    destruct (existsb is_version_like later); reflexivity.
  Qed.

  Lemma explicit_step_expr v later :
    is_expr v = true -> step_outcome (explicit_step db n v f depth later) = or_fail None later.
  Proof.
    intro H. unfold explicit_step. rewrite (wf_no_expr_version db n v f WF H). simpl.
    destruct (existsb is_version_like later); reflexivity.
  Qed.

  Lemma version_step_clause e later :
    is_version_like e = true ->
    step_outcome (version_step vcmp vmatch db rq f depth e later) = clause vcmp vmatch c db n vr f e later.
  Proof.
    intro He. unfold version_step, classify.
    destruct (rq_version rq) as [[|ch v]|]; simpl.
    - destruct e; try discriminate; reflexivity.
    - set (V := ch :: v) in *. destruct (is_expr V) eqn:EX.
      + destruct e; try discriminate; simpl.
        * destruct (mem_entry EVersionExpr later); reflexivity.
        * destruct (mem_entry EVersionExpr later); reflexivity.
        * rewrite EX. rewrite expr_spec by exact HT.
          destruct (expr_designates vcmp vmatch db n V f); [reflexivity|].
          now apply explicit_step_expr.
      + destruct e; try discriminate; simpl.
        * apply explicit_step_outcome.
        * apply explicit_step_outcome.
        * destruct (rq_expr rq) as [[|c' x']|]; simpl; try apply explicit_step_outcome.
          set (X := c' :: x') in *. destruct (is_expr X) eqn:EX2.
          -- rewrite expr_spec by exact HT.
             destruct (expr_designates vcmp vmatch db n X f); [reflexivity|].
             apply explicit_step_outcome.
          -- apply explicit_step_outcome.
    - destruct e; try discriminate; reflexivity.
  Qed.

  Lemma step_clause e later :
    step_outcome (vro_step vcmp vmatch c db None rq f depth e later) = clause vcmp vmatch c db n vr f e later.
  Proof.
    destruct e; try (apply version_step_clause; reflexivity); try reflexivity.
    - now rewrite inert_step.
    - unfold vro_step. cbn [clause]. destruct (recognized c t); [|reflexivity].
      rewrite tag_step_outcome, find_tagged_spec.
      destruct (str_eqb t (lit "latest")); [reflexivity|].
      destruct (str_eqb t (lit "setup")); reflexivity.
  Qed.

  Lemma loop_designates vro :
    option_map (fun x => fst (fst x)) (vro_loop vcmp vmatch c db None rq f depth vro) =
    designates_in vcmp vmatch c db n vr f vro.
  Proof.
    induction vro as [|e later IH]; simpl; [reflexivity|].
    pose proof (step_clause e later) as H.
    destruct (vro_step vcmp vmatch c db None rq f depth e later) as [|[[p r]|]]; simpl in H; rewrite <- H.
    - exact IH.
    - reflexivity.
    - reflexivity.
  Qed.

  Lemma walk_designates vro :
    option_map fst (find_from_vro vcmp vmatch c db None f depth vro rq) =
    designates_in vcmp vmatch c db n vr f vro.
  Proof.
    rewrite find_from_vro_none_prev, <- loop_designates.
    destruct (vro_loop _ _ _ _ _ _ _ _ _) as [[[p r] e0]|]; reflexivity.
  Qed.

  (* every entry of pre says Next, read in front of tail *)
  Fixpoint all_next (pre tail : list entry) : Prop :=
    match pre with
    | [] => True
    | e :: pre' => clause vcmp vmatch c db n vr f e (pre' ++ tail) = Next /\ all_next pre' tail
    end.

  Lemma loop_split vro p r e0 :
    vro_loop vcmp vmatch c db None rq f depth vro = Some (p, r, e0) ->
    exists pre later, vro = pre ++ e0 :: later /\ all_next pre (e0 :: later) /\
                      vro_step vcmp vmatch c db None rq f depth e0 later = Stop (Some (p, r)).
  Proof.
    induction vro as [|e l IH]; simpl; [discriminate|].
    pose proof (step_clause e l) as HC.
    destruct (vro_step vcmp vmatch c db None rq f depth e l) as [|[[p' r']|]] eqn:ES; intro H.
    - destruct (IH H) as [pre [later [E [AN ST]]]]. exists (e :: pre), later. subst l.
      split; [reflexivity|]. split; [|exact ST]. split; [|exact AN]. now rewrite <- HC.
    - injection H as -> -> ->. exists [], l. repeat split. exact ES.
    - discriminate.
  Qed.

  Lemma in_none_top_none vro :
    designates_in vcmp vmatch c db n vr f vro = None ->
    designates_top vcmp vmatch c db n vr f depth vro = None.
  Proof.
    induction vro as [|e l IH]; simpl; [reflexivity|].
    destruct (clause vcmp vmatch c db n vr f e l); [discriminate|reflexivity|exact IH].
  Qed.

  Lemma top_split pre e0 later :
    all_next pre (e0 :: later) ->
    designates_top vcmp vmatch c db n vr f depth (pre ++ e0 :: later) =
    match clause vcmp vmatch c db n vr f e0 later with
    | Yield p => if acceptable vr depth p then Some p
                 else designates_top vcmp vmatch c db n vr f depth later
    | Fail => None
    | Next => designates_top vcmp vmatch c db n vr f depth later
    end.
  Proof.
    induction pre as [|e pre IH]; simpl; [reflexivity|].
    intros [H AN]. rewrite H. now apply IH.
  Qed.

  Lemma in_split_yield pre e0 later p :
    all_next pre (e0 :: later) -> clause vcmp vmatch c db n vr f e0 later = Yield p ->
    designates_in vcmp vmatch c db n vr f (pre ++ e0 :: later) = Some p.
  Proof.
    induction pre as [|e pre IH]; simpl.
    - intros _ H. now rewrite H.
    - intros [H AN] HY. rewrite H. now apply IH.
  Qed.

  Lemma acceptable_model p :
    acceptable vr depth p =
    negb (match truthy (rq_version rq) with
          | Some v => (depth =? 0) && negb (is_expr v) && negb (str_eqb (fd_version p) v)
          | None => false
          end).
  Proof.
    unfold classify. destruct (rq_version rq) as [[|ch v]|]; simpl; try reflexivity.
    destruct (is_expr (ch :: v)); simpl.
    - now rewrite andb_false_r.
    - rewrite andb_true_r. destruct (depth =? 0); simpl; [|reflexivity].
      now rewrite negb_involutive.
  Qed.

  (* a product that a top-level request refuses was produced by an entry whose verdict does not
     depend on what follows it, and the reason names that entry *)
  Lemma yield_stable e0 later p :
    clause vcmp vmatch c db n vr f e0 later = Yield p -> acceptable vr depth p = false ->
    forall later', clause vcmp vmatch c db n vr f e0 later' = Yield p.
  Proof.
    intros HY HA later'. unfold acceptable in HA.
    destruct vr as [|v ox|x] eqn:EV; try discriminate.
    apply orb_false_iff in HA. destruct HA as [_ HA].
    assert (NV : fd_version p <> v) by (intro; subst; now rewrite str_eqb_refl in HA).
    assert (OF : forall l, or_fail (version_designates db n v f) l = Yield p -> False).
    { intros l H. unfold or_fail in H. destruct (version_designates db n v f) as [q|] eqn:EQ.
      - injection H as ->. apply version_designates_version in EQ. contradiction.
      - destruct (existsb is_version_like l); discriminate. }
    destruct e0; simpl in *; try discriminate; try exact HY.
    - exfalso. eapply OF; eauto.
    - exfalso. eapply OF; eauto.
    - destruct (match ox with Some x => expr_designates vcmp vmatch db n x f | None => None end); [exact HY|].
      exfalso. eapply OF; eauto.
  Qed.

  Lemma not_in_pre pre e0 later p :
    all_next pre (e0 :: later) ->
    (forall later', clause vcmp vmatch c db n vr f e0 later' = Yield p) -> ~ In e0 pre.
  Proof.
    induction pre as [|e pre IH]; simpl; [tauto|].
    intros [H AN] HY [->|Hin].
    - rewrite HY in H. discriminate.
    - now apply (IH AN HY).
  Qed.

  Lemma stop_reason e later p r :
    vro_step vcmp vmatch c db None rq f depth e later = Stop (Some (p, r)) ->
    fst r = e \/ truthy (rq_version rq) = Some (fd_version p).
  Proof.
    assert (TS : forall t, tag_step vcmp db n f e t = Stop (Some (p, r)) -> fst r = e).
    { intros t H. unfold tag_step in H. destruct (find_tagged vcmp db n t f); [|discriminate].
      injection H as _ <-. reflexivity. }
    assert (XS : forall v l, explicit_step db n v f depth l = Stop (Some (p, r)) -> fst r = e \/ Some v = Some (fd_version p)).
    { intros v l H. unfold explicit_step in H. rewrite find_version_spec in H.
      destruct (version_designates db n v f) as [q|] eqn:EQ.
      - injection H as -> _. apply version_designates_version in EQ. right. now rewrite EQ.
      - destruct (existsb is_version_like l); discriminate. }
    assert (VS : version_step vcmp vmatch db rq f depth e later = Stop (Some (p, r)) ->
                 fst r = e \/ truthy (rq_version rq) = Some (fd_version p)).
    { unfold version_step. destruct (truthy (rq_version rq)) as [v|]; [|discriminate].
      destruct (is_expr v && negb (entry_eqb e EVersionExpr)); [destruct (mem_entry EVersionExpr later); discriminate|].
      cbv zeta. destruct (entry_eqb e EVersionExpr) eqn:EE; [|apply XS].
      apply entry_eqb_eq in EE. subst e.
      destruct (if is_expr v then Some v else truthy (rq_expr rq)) as [x|]; [|apply XS].
      destruct (is_expr x); [|apply XS].
      destruct (select_latest vcmp (find_by_expr vmatch db n x f)); [|apply XS].
      intro H. injection H as _ <-. now left. }
    destruct e; unfold vro_step; cbv beta iota; intro H; try discriminate; try (apply VS; exact H).
    - destruct (0 <? depth); [discriminate|]. destruct (recognized c (lit "keep")); [|discriminate].
      left. eapply TS; eauto.
    - destruct (recognized c t); [|discriminate]. left. eapply TS; eauto.
  Qed.

  Lemma accept_top keep : forall fuel vro,
    length vro < fuel ->
    exists r, accept_loop vcmp vmatch fuel c db keep None f depth vro rq = Ok r /\
              option_map fst r = designates_top vcmp vmatch c db n vr f depth vro.
  Proof.
    induction fuel as [|k IH]; intros vro Hlen; [lia|].
    destruct vro as [|e l]; [exists None; split; reflexivity|].
    cbn [accept_loop]. rewrite find_from_vro_none_prev. set (vro := e :: l) in *.
    destruct (vro_loop vcmp vmatch c db None rq f depth vro) as [[[p r] e0]|] eqn:EL.
    - destruct (loop_split vro p r e0 EL) as [pre [later [EV [AN ST]]]].
      pose proof (step_clause e0 later) as HC. rewrite ST in HC. simpl in HC. symmetry in HC.
      assert (TOP : designates_top vcmp vmatch c db n vr f depth vro =
                    match clause vcmp vmatch c db n vr f e0 later with
                    | Yield p0 => if acceptable vr depth p0 then Some p0
                                  else designates_top vcmp vmatch c db n vr f depth later
                    | Fail => None
                    | Next => designates_top vcmp vmatch c db n vr f depth later
                    end) by (rewrite EV; apply top_split; exact AN).
      rewrite TOP, HC.
      pose proof (acceptable_model p) as AM.
      destruct (acceptable vr depth p) eqn:AC.
      + exists (Some (p, Some r)). split; [|reflexivity].
        destruct (truthy (rq_version rq)) as [v|]; [|reflexivity].
        symmetry in AM. apply negb_true_iff in AM. now rewrite AM.
      + destruct (truthy (rq_version rq)) as [v|] eqn:TV; [|discriminate].
        symmetry in AM. apply negb_false_iff in AM. rewrite AM.
        assert (ER : fst r = e0).
        { destruct (stop_reason e0 later p r ST) as [H|H]; [exact H|].
          exfalso. rewrite TV in H. injection H as ->.
          now rewrite str_eqb_refl, andb_false_r in AM. }
        destruct r as [tag x]. cbn [fst] in ER. rewrite ER.
        pose proof (yield_stable e0 later p HC AC) as YS.
        pose proof (not_in_pre pre e0 later p AN YS) as NI.
        rewrite EV. rewrite (index_of_first e0 pre later NI), skipn_after.
        apply IH. rewrite EV in Hlen. rewrite app_length in Hlen. simpl in Hlen. lia.
    - exists None. split; [reflexivity|]. symmetry. apply in_none_top_none.
      rewrite <- loop_designates, EL. reflexivity.
  Qed.

End Walk.

Lemma resolve_designates vcmp vmatch c db keep flavors depth vro rq :
  wf_db db = true -> total_order_on vcmp (names_of db (rq_name rq)) ->
  exists r, resolve_request vcmp vmatch c db keep None flavors depth vro rq = Ok r /\
            option_map fst r = designates vcmp vmatch c db flavors depth vro rq.
Proof.
  intros WF HT. unfold resolve_request, designates.
  induction flavors as [|f fs IH]; cbn [flavor_loop first_some].
  - exists None. split; reflexivity.
  - destruct (accept_top vcmp vmatch c db rq f depth WF HT keep (S (length vro)) vro (Nat.lt_succ_diag_r _))
      as [r [E1 E2]].
    rewrite E1. destruct r as [x|].
    + exists (Some x). split; [reflexivity|]. simpl in E2. now rewrite <- E2.
    + simpl in E2. rewrite <- E2. exact IH.
Qed.

Lemma cmp_eqb_eq a b : cmp_eqb a b = true <-> a = b.
Proof. destruct a, b; simpl; split; congruence. Qed.

Lemma total_orderb_sound vcmp l : total_orderb vcmp l = true -> total_order_on vcmp l.
Proof.
  unfold total_orderb. intro H. apply andb_true_iff in H. destruct H as [H H3].
  apply andb_true_iff in H. destruct H as [H1 H2].
  rewrite forallb_forall in H1, H2, H3. repeat split.
  - intros x Hx. apply cmp_eqb_eq. now apply H1.
  - intros x y Hx Hy E. specialize (H2 x Hx). rewrite forallb_forall in H2. specialize (H2 y Hy).
    apply andb_true_iff in H2. destruct H2 as [H2 _]. rewrite E in H2. now apply str_eqb_eq.
  - intros x y Hx Hy. specialize (H2 x Hx). rewrite forallb_forall in H2. specialize (H2 y Hy).
    apply andb_true_iff in H2. destruct H2 as [_ H2]. now apply cmp_eqb_eq.
  - intros x y z Hx Hy Hz A B. specialize (H3 x Hx). rewrite forallb_forall in H3. specialize (H3 y Hy).
    rewrite forallb_forall in H3. specialize (H3 z Hz).
    destruct (vcmp x y); try congruence; destruct (vcmp y z); try congruence;
      destruct (vcmp x z); simpl in H3; congruence.
Qed.

Lemma cmp_parts_flip a : forall b, cmp_parts b a = CompOpp (cmp_parts a b).
Proof.
  induction a as [|x a IH]; intros [|y b]; simpl; try reflexivity.
  rewrite (Nat.compare_antisym x y). destruct (x ?= y); simpl; auto.
Qed.

Lemma cmp_parts_trans a : forall b c, cmp_parts a b <> Gt -> cmp_parts b c <> Gt -> cmp_parts a c <> Gt.
Proof.
  induction a as [|x a IH]; intros [|y b] [|z c]; simpl; try (intros; congruence).
  destruct (Nat.compare_spec x y), (Nat.compare_spec y z); try congruence.
  1: subst; rewrite Nat.compare_refl; apply IH.
  all: intros _ _; replace (x ?= z) with Lt by (symmetry; apply Nat.compare_lt_iff; lia); discriminate.
Qed.

Lemma vcmp_simple_total_order l :
  (forall x y, In x l -> In y l -> vcmp_simple x y = Eq -> x = y) -> total_order_on vcmp_simple l.
Proof.
  intro H. unfold vcmp_simple in *. repeat split.
  - intros x _. generalize (vparts x) as a. induction a; simpl; [reflexivity|now rewrite Nat.compare_refl].
  - exact H.
  - intros. apply cmp_parts_flip.
  - intros x y z _ _ _. apply cmp_parts_trans.
Qed.

Lemma vcmp_simple_total_orderb l :
  forallb (fun x => forallb (fun y => match vcmp_simple x y with Eq => str_eqb x y | _ => true end) l) l = true ->
  total_order_on vcmp_simple l.
Proof.
  intro H. apply vcmp_simple_total_order. intros x y Hx Hy E. rewrite forallb_forall in H. specialize (H x Hx).
  rewrite forallb_forall in H. specialize (H y Hy). rewrite E in H. now apply str_eqb_eq.
Qed.

Lemma no_vl_no_expr l : existsb is_version_like l = false -> mem_entry EVersionExpr l = false.
Proof.
  induction l as [|e l IH]; simpl; [reflexivity|]. intro H. apply orb_false_iff in H. destruct H as [He Hl].
  destruct e; simpl in *; try discriminate; auto.
Qed.

Section Cut.
  Variable vcmp : str -> str -> comparison.
  Variable vmatch : str -> str -> bool.
  Variable c : config.
  Variable db : dbv.
  Variable prev : option (found * option reason).
  Variable rq : request.
  Variable f : str.
  Variable depth : nat.

  Lemma vro_step_cut e l1 l2 :
    existsb is_version_like l1 = existsb is_version_like l2 ->
    mem_entry EVersionExpr l1 = mem_entry EVersionExpr l2 ->
    vro_step vcmp vmatch c db prev rq f depth e l1 = vro_step vcmp vmatch c db prev rq f depth e l2.
  Proof.
    intros H1 H2. unfold vro_step, version_step, explicit_step. rewrite H1, H2. reflexivity.
  Qed.

  Lemma last_vl_stops e later v :
    truthy (rq_version rq) = Some v -> is_version_like e = true ->
    existsb is_version_like later = false ->
    vro_step vcmp vmatch c db prev rq f depth e later <> Continue.
  Proof.
    intros TV He NV.
    assert (X : forall w, explicit_step db (rq_name rq) w f depth later <> Continue).
    { intro w. unfold explicit_step. destruct (find_version db (rq_name rq) w f); [discriminate|].
      rewrite NV. discriminate. }
    assert (VS : version_step vcmp vmatch db rq f depth e later <> Continue).
    { unfold version_step. rewrite TV. rewrite (no_vl_no_expr later NV).
      destruct (is_expr v && negb (entry_eqb e EVersionExpr)); [discriminate|].
      destruct (if entry_eqb e EVersionExpr then if is_expr v then Some v else truthy (rq_expr rq) else None)
        as [x|]; [|apply X].
      destruct (is_expr x); [|apply X].
      destruct (select_latest vcmp (find_by_expr vmatch db (rq_name rq) x f)); [discriminate|apply X]. }
    destruct e; try discriminate; exact VS.
  Qed.

  Lemma loop_cut pre e post v :
    truthy (rq_version rq) = Some v -> is_version_like e = true ->
    existsb is_version_like post = false ->
    vro_loop vcmp vmatch c db prev rq f depth (pre ++ e :: post) =
    vro_loop vcmp vmatch c db prev rq f depth (pre ++ [e]).
  Proof.
    intros TV He NV. induction pre as [|e' pre IH]; cbn [app vro_loop].
    - rewrite (vro_step_cut e post []); [|simpl; exact NV|simpl; now apply no_vl_no_expr].
      pose proof (last_vl_stops e [] v TV He eq_refl) as NC.
      destruct (vro_step vcmp vmatch c db prev rq f depth e []) as [|[[p r]|]]; [contradiction|reflexivity|reflexivity].
    - rewrite (vro_step_cut e' (pre ++ e :: post) (pre ++ [e])).
      + destruct (vro_step vcmp vmatch c db prev rq f depth e' (pre ++ [e])) as [|[[p r]|]]; auto.
      + rewrite !existsb_app. simpl. rewrite He. now rewrite !orb_true_r.
      + rewrite !mem_entry_app. simpl. rewrite (no_vl_no_expr post NV).
        destruct (entry_eqb EVersionExpr e); reflexivity.
  Qed.

End Cut.

Lemma walk_cut vcmp vmatch c db f depth pre e post rq :
  truthy (rq_version rq) <> None -> is_version_like e = true -> existsb is_version_like post = false ->
  find_from_vro vcmp vmatch c db None f depth (pre ++ e :: post) rq =
  find_from_vro vcmp vmatch c db None f depth (pre ++ [e]) rq.
Proof.
  intros TV He NV. destruct (truthy (rq_version rq)) as [v|] eqn:E; [|contradiction].
  rewrite !find_from_vro_none_prev. now rewrite (loop_cut vcmp vmatch c db None rq f depth pre e post v).
Qed.

Definition skipped_when_bare (e : entry) : bool := is_inert e || is_version_like e.

Lemma bare_loop vcmp vmatch c db rq f depth pre l :
  wf_db db = true -> truthy (rq_version rq) = None -> forallb skipped_when_bare pre = true ->
  vro_loop vcmp vmatch c db None rq f depth (pre ++ l) = vro_loop vcmp vmatch c db None rq f depth l.
Proof.
  intros WF TV. induction pre as [|e pre IH]; cbn [app vro_loop forallb]; [reflexivity|].
  intro H. apply andb_true_iff in H. destruct H as [He Hp].
  assert (S : vro_step vcmp vmatch c db None rq f depth e (pre ++ l) = Continue).
  { unfold skipped_when_bare in He. apply orb_true_iff in He. destruct He as [He|He].
    - now apply inert_step.
    - destruct e; try discriminate; unfold vro_step, version_step; now rewrite TV. }
  rewrite S. now apply IH.
Qed.

Lemma tag_hit vcmp vmatch c db rq f depth t rest p :
  recognized c t = true -> str_eqb t (lit "latest") = false -> str_eqb t (lit "setup") = false ->
  tag_designates db (rq_name rq) t f = Some p ->
  vro_loop vcmp vmatch c db None rq f depth (ETag t :: rest) = Some (p, (ETag t, None), ETag t).
Proof.
  intros R L S T. cbn [vro_loop]. unfold vro_step. rewrite R. unfold tag_step, find_tagged.
  rewrite L, S, find_chain_tagged_spec, T. reflexivity.
Qed.

Lemma fold_higher_in vcmp r : forall b, In (fold_left (higher vcmp) r b) (b :: r).
Proof.
  induction r as [|y r IH]; intro b; simpl; [now left|].
  specialize (IH (higher vcmp b y)). destruct IH as [E|H].
  - rewrite <- E. unfold higher. destruct (vcmp _ _); auto.
  - auto.
Qed.

Lemma highest_in vcmp l p : highest vcmp l = Some p -> In p l.
Proof. destruct l as [|a l]; simpl; [discriminate|]. intro H. injection H as <-. apply fold_higher_in. Qed.

Lemma first_some_in {A B} (g : A -> option B) l b : first_some g l = Some b -> exists a, In a l /\ g a = Some b.
Proof.
  induction l as [|a l IH]; simpl; [discriminate|]. destruct (g a) eqn:E.
  - intro H. injection H as <-. exists a. auto.
  - intro H. destruct (IH H) as [a' [Ha Hg]]. exists a'. auto.
Qed.

(* whatever a clause yields is a record of a stack on the path: a listed version of the product for the flavor, or a
   version the stack declares *)
Lemma clause_yield (P : found -> Prop) vcmp vmatch c db n vr f e later p :
  (forall s v, In s db -> In v (versions_in s n f) \/ declared s n v f = true -> P (found_in s n v f)) ->
  clause vcmp vmatch c db n vr f e later = Yield p -> P p.
Proof.
  intro HP.
  assert (HC : forall l, highest vcmp l = Some p -> (forall q, In q l -> In q (candidates db n f)) -> P p).
  { intros l H S. apply highest_in, S, in_flat_map in H. destruct H as [s [Hs H]].
    apply in_map_iff in H. destruct H as [v [<- Hv]]. auto. }
  assert (HF : forall s (o : option str), In s db ->
             match o with Some v => if declared s n v f then Some (found_in s n v f) else None | None => None end = Some p -> P p).
  { intros s [v|] Hs E; [|discriminate]. destruct (declared s n v f) eqn:D; [|discriminate]. injection E as <-. auto. }
  assert (HV : forall v l, or_fail (version_designates db n v f) l = Yield p -> P p).
  { intros v l H. unfold or_fail in H. destruct (version_designates db n v f) as [q|] eqn:E.
    - injection H as ->. apply first_some_in in E. destruct E as [s [Hs E]]. exact (HF s (Some v) Hs E).
    - destruct (existsb is_version_like l); discriminate. }
  assert (HX : forall x, expr_designates vcmp vmatch db n x f = Some p -> P p).
  { intros x H. apply (HC _ H). intros q Hq. now apply filter_In in Hq. }
  destruct e; cbn [clause]; try discriminate.
  1-2: destruct vr as [|v ox|x]; [discriminate|apply HV|destruct (mem_entry EVersionExpr later); discriminate].
  - destruct vr as [|v [x|]|x]; [discriminate| |apply HV|].
    + destruct (expr_designates vcmp vmatch db n x f) as [q|] eqn:E; [|apply HV]. intro H. injection H as ->. eauto.
    + unfold or_fail. destruct (expr_designates vcmp vmatch db n x f) as [q|] eqn:E.
      * intro H. injection H as ->. eauto.
      * destruct (existsb is_version_like later); discriminate.
  - destruct (recognized c t); [|discriminate]. destruct (str_eqb t (lit "latest")).
    + destruct (highest vcmp (candidates db n f)) as [q|] eqn:E; [|discriminate]. intro H. injection H as ->. eauto.
    + destruct (str_eqb t (lit "setup")); [discriminate|].
      destruct (tag_designates db n t f) as [q|] eqn:E; [|discriminate]. intro H. injection H as ->.
      apply first_some_in in E. destruct E as [s [Hs E]]. exact (HF s _ Hs E).
Qed.

Lemma clause_flavor vcmp vmatch c db n vr f e later p :
  clause vcmp vmatch c db n vr f e later = Yield p -> fd_flavor p = f /\ fd_name p = n.
Proof. apply (clause_yield (fun p => fd_flavor p = f /\ fd_name p = n)). intros; simpl; auto. Qed.

Lemma designates_top_flavor vcmp vmatch c db n vr f depth vro p :
  designates_top vcmp vmatch c db n vr f depth vro = Some p -> fd_flavor p = f /\ fd_name p = n.
Proof.
  induction vro as [|e l IH]; simpl; [discriminate|].
  destruct (clause vcmp vmatch c db n vr f e l) as [q| |] eqn:E; [|discriminate|exact IH].
  destruct (acceptable vr depth q); [|exact IH]. intro H. injection H as ->. eapply clause_flavor; eauto.
Qed.

Lemma accept_loop_version vcmp vmatch c db keep prev f rq v : forall fuel vro p r,
  truthy (rq_version rq) = Some v -> is_expr v = false ->
  accept_loop vcmp vmatch fuel c db keep prev f 0 vro rq = Ok (Some (p, r)) -> fd_version p = v.
Proof.
  induction fuel as [|k IH]; intros vro0 p r TV NE; [discriminate|].
  cbn [accept_loop]. destruct vro0 as [|e l]; [discriminate|].
  set (cand := match find_from_vro vcmp vmatch c db prev f 0 (e :: l) rq with
               | Some (p0, r0) => Some (p0, Some r0)
               | None => match prev with
                         | Some (op, _) => if keep || opt_str_eqb (fd_version op) (rq_version rq)
                                           then Some (op, None) else None
                         | None => None
                         end
               end).
  destruct cand as [[p0 r0]|]; [|discriminate].
  rewrite TV, NE. cbn [Nat.eqb negb andb].
  destruct (str_eqb (fd_version p0) v) eqn:EV; cbn [negb].
  - intro H. injection H as <- _. now apply str_eqb_eq.
  - destruct r0 as [[tag x]|]; [|discriminate].
    destruct (index_of tag (e :: l)); [|discriminate]. apply IH; assumption.
Qed.

Lemma resolve_version vcmp vmatch c db keep prev flavors vro rq v p r :
  truthy (rq_version rq) = Some v -> is_expr v = false ->
  resolve_request vcmp vmatch c db keep prev flavors 0 vro rq = Ok (Some (p, r)) -> fd_version p = v.
Proof.
  intros TV NE. unfold resolve_request. induction flavors as [|f fs IH]; cbn [flavor_loop]; [discriminate|].
  destruct (accept_loop vcmp vmatch (S (length vro)) c db keep prev f 0 vro rq) as [[[p0 r0]|]|] eqn:E.
  - intro H. injection H as -> ->. eapply accept_loop_version; eauto.
  - exact IH.
  - discriminate.
Qed.

Lemma accept_none vcmp vmatch c db keep f depth vro rq k :
  find_from_vro vcmp vmatch c db None f depth vro rq = None ->
  accept_loop vcmp vmatch (S k) c db keep None f depth vro rq = Ok None.
Proof. intro H. cbn [accept_loop]. destruct vro; [reflexivity|]. now rewrite H. Qed.

Lemma accept_deep vcmp vmatch c db keep prev f d vro rq k p r :
  find_from_vro vcmp vmatch c db prev f (S d) vro rq = Some (p, r) ->
  accept_loop vcmp vmatch (S k) c db keep prev f (S d) vro rq = Ok (Some (p, Some r)).
Proof.
  intro H. cbn [accept_loop]. destruct vro as [|e l].
  - unfold find_from_vro in H. simpl in H. discriminate.
  - rewrite H. destruct (truthy (rq_version rq)); reflexivity.
Qed.

Lemma undeclared_fails_walk vcmp vmatch c db f depth pre post rq v :
  wf_db db = true -> forallb is_inert pre = true ->
  truthy (rq_version rq) = Some v -> is_expr v = false -> truthy (rq_expr rq) = None ->
  (forall s, In s db -> declared s (rq_name rq) v f = false) ->
  existsb is_version_like post = false ->
  find_from_vro vcmp vmatch c db None f depth (pre ++ EVersion :: EVersionExpr :: post) rq = None.
Proof.
  intros WF IN TV NE TX ND NV.
  replace (pre ++ EVersion :: EVersionExpr :: post) with ((pre ++ [EVersion]) ++ EVersionExpr :: post)
    by (rewrite <- app_assoc; reflexivity).
  rewrite walk_cut; [|rewrite TV; discriminate|reflexivity|exact NV].
  rewrite <- app_assoc. cbn [app]. rewrite find_from_vro_none_prev, inert_loop by assumption.
  assert (FV : find_version db (rq_name rq) v f = None)
    by (rewrite find_version_spec; now apply version_designates_none).
  cbn [vro_loop]. unfold vro_step, version_step, explicit_step. rewrite TV, NE, TX, FV. reflexivity.
Qed.
