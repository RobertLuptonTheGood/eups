(* Library lemmas for Model/Remove.v: path prefixes, rmtree, the undeclare transition on lookups; [home], the stack
   whose declaration Eups.undeclare removes; the tactic [vm_refl] of the closed examples of Props/C14.v. *)
From Coq Require Import Lia.
From Eupsv Require Import Base.Base Base.BaseLemmas Model.Graph Model.Db Model.Remove
     Proofs.GraphLib Proofs.DbLib Proofs.Db Proofs.DbInv.

Lemma starts_with_comparable a : forall b x,
  starts_with a x = true -> starts_with b x = true -> starts_with a b = true \/ starts_with b a = true.
Proof.
  induction a as [|c a IH]; intros b x Ha Hb; [left; reflexivity|].
  destruct b as [|d b]; [right; reflexivity|].
  destruct x as [|y x]; [discriminate|]. cbn in Ha, Hb |- *.
  destruct (ascii_eqb c y) eqn:E1; [|discriminate]. destruct (ascii_eqb d y) eqn:E2; [|discriminate].
  apply ascii_eqb_eq in E1, E2. subst. rewrite ascii_eqb_refl. apply (IH b x); assumption.
Qed.

Lemma starts_with_snoc c a : forall b,
  starts_with (a ++ [c]) (b ++ [c]) = true -> a = b \/ starts_with (a ++ [c]) b = true.
Proof.
  induction a as [|y a IH]; intros b H.
  - destruct b as [|x b]; [left; reflexivity|]. right. cbn in H |- *.
    destruct (ascii_eqb c x); [reflexivity|discriminate].
  - destruct b as [|x b]; cbn in H.
    + destruct (ascii_eqb y c); [|discriminate]. destruct a; discriminate.
    + cbn. destruct (ascii_eqb y x) eqn:E; [|discriminate]. apply ascii_eqb_eq in E. subst.
      destruct (IH b H) as [->|K]; [left; reflexivity|right; exact K].
Qed.

Lemma starts_with_trans a : forall b x, starts_with a b = true -> starts_with b x = true -> starts_with a x = true.
Proof.
  induction a as [|c a IH]; intros b x H1 H2; [reflexivity|].
  destruct b as [|d b]; [discriminate|]. destruct x as [|y x]; [discriminate|]. cbn in *.
  destruct (ascii_eqb c d) eqn:E1; [|discriminate]. destruct (ascii_eqb d y) eqn:E2; [|discriminate].
  apply ascii_eqb_eq in E1, E2. subst. rewrite ascii_eqb_refl. apply (IH b x); assumption.
Qed.

Lemma under_refl d : under d d = true.
Proof. unfold under. rewrite str_eqb_refl. reflexivity. Qed.

Lemma under_cases d p : under d p = true <-> p = d \/ starts_with (d ++ [slash]) p = true.
Proof. unfold under. rewrite orb_true_iff, str_eqb_eq. tauto. Qed.

Lemma under_comparable d1 d2 p :
  under d1 p = true -> under d2 p = true -> under d1 d2 = true \/ under d2 d1 = true.
Proof.
  intros U1 U2. apply under_cases in U1 as [->|H1]; [right; exact U2|].
  apply under_cases in U2 as [->|H2]; [left; apply under_cases; right; exact H1|].
  destruct (starts_with_comparable _ _ _ H1 H2) as [K|K]; apply starts_with_snoc in K as [->|K].
  - left. apply under_refl.
  - left. apply under_cases. right. exact K.
  - left. apply under_refl.
  - right. apply under_cases. right. exact K.
Qed.

Lemma rmtree_In d fs x : In x (rmtree d fs) <-> In x fs /\ under d x = false.
Proof. unfold rmtree. rewrite filter_In, negb_true_iff. tauto. Qed.

Lemma odir_eqb_eq a b : odir_eqb a b = true <-> a = b.
Proof.
  destruct a, b; cbn; try (split; congruence). rewrite str_eqb_eq. split; congruence.
Qed.

Lemma mem_odir_In d l : mem_odir d l = true <-> In d l.
Proof.
  unfold mem_odir. rewrite existsb_exists. split.
  - intros [x [I E]]. apply odir_eqb_eq in E. subst. exact I.
  - intro I. exists d. split; [exact I|]. apply odir_eqb_eq. reflexivity.
Qed.

Lemma mem_odir_not_In d l : mem_odir d l = false <-> ~ In d l.
Proof. rewrite <- mem_odir_In. destruct (mem_odir d l); split; congruence. Qed.

Lemma find_exact_agree a a' roots n v f :
  (forall s, In s roots -> a_decl a' s n v f = a_decl a s n v f) ->
  find_exact a' roots n v f = find_exact a roots n v f.
Proof.
  induction roots as [|s0 rs IH]; intro H; cbn; [reflexivity|].
  rewrite (H s0 (or_introl eq_refl)). destruct (a_decl a s0 n v f); [reflexivity|].
  apply IH. intros s I. apply H. right. exact I.
Qed.

(* Eups.undeclare of an explicit version: the first stack on the path that declares it *)
Lemma undeclare_some c a n v :
  undeclare c a n (Some v) =
  match find_exact a (apath a) n v (rc_flavor c) with
  | Some (s, _) => Ok (aapply (ADelDecl s n v (rc_flavor c)) a)
  | None => Err NotFound
  end.
Proof.
  unfold undeclare, astep_gen. cbn [decide]. unfold undeclare_acts, undeclare_target.
  cbn [o_stack o_flavor o_noaction roots_of].
  destruct (find_exact a (apath a) n v (rc_flavor c)) as [[s r]|]; reflexivity.
Qed.

Lemma decl_after_del a s1 n1 v1 f1 s n v f r :
  a_decl (aapply (ADelDecl s1 n1 v1 f1) a) s n v f = Some r ->
  a_decl a s n v f = Some r /\ (a_decl a s1 n1 v1 f1 <> None -> (s, n, v, f) <> (s1, n1, v1, f1)).
Proof.
  rewrite a_decl_aapply. destruct (a_decl a s1 n1 v1 f1) as [r1|]; cbn [is_some andb].
  - destruct (dkey_eqb (s, n, v, f) (s1, n1, v1, f1)) eqn:K; [discriminate|].
    intro E. split; [exact E|]. intros _ X. rewrite X, dkey_eqb_refl in K. discriminate.
  - intro E. split; [exact E|]. intro N. elim N. reflexivity.
Qed.

Lemma dkey_neq_nv s n v f s' n' v' f' : (n, v) <> (n', v') -> dkey_eqb (s, n, v, f) (s', n', v', f') = false.
Proof.
  intro N. apply (geqb_neq dkey_eqb dkey_eqb_eq). intro E. inversion E. subst. apply N. reflexivity.
Qed.

(* the stack whose declaration of (n, v) Eups.undeclare removes *)
Definition home (c : rconf) (a : adb) (n v : str) : option str :=
  match find_exact a (apath a) n v (rc_flavor c) with Some (s, _) => Some s | None => None end.

Lemma find_exact_after_other a s1 n1 v1 f n v :
  (n, v) <> (n1, v1) ->
  find_exact (aapply (ADelDecl s1 n1 v1 f) a) (apath (aapply (ADelDecl s1 n1 v1 f) a)) n v f = find_exact a (apath a) n v f.
Proof.
  intro N. rewrite apath_aapply. apply find_exact_agree.
  intros s _. rewrite a_decl_aapply, (dkey_neq_nv _ _ _ _ _ _ _ _ N), andb_false_r. reflexivity.
Qed.

Lemma home_after_other c a s1 n1 v1 n v :
  (n, v) <> (n1, v1) -> home c (aapply (ADelDecl s1 n1 v1 (rc_flavor c)) a) n v = home c a n v.
Proof. intro N. unfold home. rewrite (find_exact_after_other _ _ _ _ _ _ _ N). reflexivity. Qed.

Lemma product_dir_some c a n v dir :
  product_dir c a (n, Some v, true) = Some dir ->
  exists s r, find_exact a (apath a) n v (rc_flavor c) = Some (s, r) /\ dir = fst r.
Proof.
  unfold product_dir, nver, nname. cbn [fst snd].
  destruct (find_exact a (apath a) n v (rc_flavor c)) as [[s r]|]; [|discriminate].
  intro H. injection H as <-. eauto.
Qed.

(* a closed equation checked by evaluating it in the virtual machine.  [vm_compute; reflexivity] would also write out
   the normal forms of both sides as terms, which are then compared once more: slow to check when a side is a state *)
Ltac vm_refl := lazymatch goal with |- ?a = ?b => exact (eq_refl b <: a = b) end.
