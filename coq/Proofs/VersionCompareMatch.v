(* C10: relational expressions (version_match) on conventional names. *)
From Eupsv Require Import Base.Base Base.BaseLemmas Model.VersionCompare Model.VersionKey
  Proofs.VersionCompareLib Proofs.VersionCompare Proofs.VersionCompareKey.

Lemma cname_wf_name c : wf_cname c -> wf_name (print_cname c) = true.
Proof.
  destruct c as [[p s] t]. intros (Wp & Ws & Wt). unfold wf_name. cbn [print_cname].
  rewrite !forallb_app, (part_wf_name p Wp).
  destruct s as [s|], t as [t|]; cbn [wf_opt forallb] in *; rewrite ?part_wf_name by assumption; reflexivity.
Qed.

Lemma conv_wf_name w : conv w = true -> wf_name w = true /\ w <> [].
Proof.
  intro C. destruct (conv_spec w C) as [c (W & <- & _)]. split; [now apply cname_wf_name|].
  destruct c as [[p s] t]. destruct W as (Wp & _). cbn [print_cname].
  pose proof (part_nonempty p Wp). destruct (print_part p); [congruence|discriminate].
Qed.

(* characters that the tokeniser of version_match copies into the current word *)
Definition plain (c : ascii) : bool :=
  negb (is_space c || ascii_eqb c c_lt || ascii_eqb c c_gt || ascii_eqb c c_eq || ascii_eqb c c_bar).

Lemma wf_char_plain c : wf_char c = true -> plain c = true.
Proof.
  unfold wf_char. rewrite is_alpha_code, is_digit_code.
  apply (all_ascii_impl (fun c => alpha_code c || digit_code c || is_sep c || ascii_eqb c c_minus || ascii_eqb c c_plus) plain).
  vm_compute. reflexivity.
Qed.

(* a letter or a digit is a word character, and each of . _ - + is in the class by name *)
Lemma wf_char_verchar c : wf_char c = true -> is_word c || mem_ascii c [c_minus; c_plus; c_dot; ":"%char; "/"%char] = true.
Proof.
  unfold wf_char, is_sep, is_word. intro H. rewrite !orb_true_iff, !ascii_eqb_eq in H.
  destruct H as [[[[A|D]|[->| ->]]| ->]| ->]; try reflexivity; [now rewrite A|now rewrite D, orb_true_r].
Qed.

Lemma conv_not_keyword w : conv w = true -> str_eqb w s_and = false /\ str_eqb w s_or = false.
Proof.
  intro C. assert (K : forall k, conv k = false -> str_eqb w k = false).
  { intros k Hk. destruct (str_eqb_spec w k) as [->|]; congruence. }
  split; apply K; reflexivity.
Qed.

Lemma tokenize_plain w : forall cur r,
  forallb plain w = true -> tokenize cur (w ++ r) = tokenize (rev w ++ cur) r.
Proof.
  induction w as [|c w IH]; intros cur r H; [reflexivity|].
  cbn [forallb] in H. apply andb_true_iff in H as [Hc H].
  unfold plain in Hc. rewrite negb_true_iff, !orb_false_iff in Hc. destruct Hc as ((((S & L) & G) & E) & B).
  cbn [app tokenize]. rewrite S, L, G, E, B, IH by assumption. cbn [rev]. now rewrite <- app_assoc.
Qed.

Definition sep_or : str := " "%char :: s_barbar ++ [" "%char].

Definition toks_alt (a : alt) : list tok :=
  match fst a with
  | Some op => [TRel op; TText (snd a)]
  | None => [TText (snd a)]
  end.

Lemma tokenize_relop op x : tokenize [] (relop_text op ++ " "%char :: x) = TRel op :: tokenize [] x.
Proof. destruct op; reflexivity. Qed.

Lemma tokenize_sep_or cur x : tokenize cur (sep_or ++ x) = flush_text cur (TOrOr :: tokenize [] x).
Proof. reflexivity. Qed.

Lemma flush_rev w l : w <> [] -> flush_text (rev w) l = TText w :: l.
Proof.
  intro N. unfold flush_text. destruct (rev w) eqn:E; [|now rewrite <- E, rev_involutive].
  apply (f_equal (@rev _)) in E. rewrite rev_involutive in E. contradiction.
Qed.

Lemma tokenize_word_end w : forallb plain w = true -> w <> [] -> tokenize [] w = [TText w].
Proof.
  intros H N. rewrite <- (app_nil_r w) at 1. rewrite tokenize_plain, app_nil_r by assumption.
  now apply flush_rev.
Qed.

Lemma tokenize_word_or w x :
  forallb plain w = true -> w <> [] -> tokenize [] (w ++ sep_or ++ x) = TText w :: TOrOr :: tokenize [] x.
Proof.
  intros H N. rewrite tokenize_plain, app_nil_r, tokenize_sep_or by assumption. now apply flush_rev.
Qed.

Definition tail_str (l : list alt) : str := flat_map (fun a => sep_or ++ print_alt a) l.
Definition tail_toks (l : list alt) : list tok := flat_map (fun a => TOrOr :: toks_alt a) l.

Lemma join_str_cons sep x l : join_str sep (x :: l) = x ++ flat_map (fun y => sep ++ y) l.
Proof.
  revert x. induction l as [|y l IH]; intro x; [cbn [join_str flat_map]; now rewrite app_nil_r|].
  change (join_str sep (x :: y :: l)) with (x ++ sep ++ join_str sep (y :: l)).
  rewrite IH. cbn [flat_map]. now rewrite <- app_assoc.
Qed.

Lemma print_expr_cons a l : print_expr (a :: l) = print_alt a ++ tail_str l.
Proof.
  unfold print_expr, tail_str. cbn [map]. rewrite join_str_cons. f_equal.
  induction l as [|b l IH]; [reflexivity|]. cbn [map flat_map]. now rewrite IH.
Qed.

Definition operand_ok (a : alt) : Prop := forallb plain (snd a) = true /\ snd a <> [].

Lemma tokenize_alt_tail a l :
  operand_ok a -> Forall operand_ok l ->
  tokenize [] (print_alt a ++ tail_str l) = toks_alt a ++ tail_toks l.
Proof.
  revert a. induction l as [|b l IH]; intros a [Ha Na] Hl.
  - cbn [tail_str tail_toks flat_map]. rewrite !app_nil_r. destruct a as [[op|] w]; cbn [print_alt toks_alt fst snd] in *.
    + rewrite tokenize_relop. now rewrite tokenize_word_end.
    + now apply tokenize_word_end.
  - inversion Hl as [|? ? Hb Hl']; subst.
    cbn [tail_str tail_toks flat_map]. fold (tail_str l). fold (tail_toks l).
    specialize (IH b Hb Hl').
    destruct a as [[op|] w]; cbn [print_alt toks_alt fst snd] in *.
    + rewrite <- app_assoc. cbn [app]. rewrite tokenize_relop.
      rewrite <- app_assoc. rewrite tokenize_word_or by assumption. now rewrite IH.
    + rewrite <- app_assoc. rewrite tokenize_word_or by assumption. now rewrite IH.
Qed.

Definition alt_op (a : alt) : relop := match fst a with Some op => op | None => REq end.
Definition tail_items (l : list alt) : list item := flat_map (fun a => [IOr; ITerm (alt_op a) (snd a)]) l.

Definition name_ok (a : alt) : Prop :=
  is_vername (snd a) = true /\ str_eqb (snd a) s_and = false /\ str_eqb (snd a) s_or = false.

Lemma items_alt a rest : name_ok a -> items (toks_alt a ++ rest) = ITerm (alt_op a) (snd a) :: items rest.
Proof.
  intros (V & A & O). destruct a as [[op|] w]; cbn [toks_alt alt_op fst snd app items tok_text] in *; [reflexivity|].
  now rewrite V, A, O.
Qed.

Lemma items_tail l : Forall name_ok l -> items (tail_toks l) = tail_items l.
Proof.
  induction 1 as [|a l Ha Hl IH]; [reflexivity|].
  cbn [tail_toks tail_items flat_map]. fold (tail_toks l). fold (tail_items l).
  cbn [items app]. rewrite items_alt by assumption. now rewrite IH.
Qed.

Lemma run_tail (prim : relop -> str -> res bool) (h : alt -> bool) l : forall lo b,
  lo <> LAnd ->
  Forall (fun a => prim (alt_op a) (snd a) = Ok (h a)) l ->
  run_items prim lo (Some b) (tail_items l) = Ok (b || existsb h l).
Proof.
  induction l as [|a l IH]; intros lo b Hlo Hl.
  - cbn. now rewrite orb_false_r; destruct b.
  - inversion Hl as [|? ? Ha Hl']; subst.
    cbn [tail_items flat_map app run_items]. fold (tail_items l). rewrite Ha.
    cbn [truthy existsb]. destruct b; cbn [orb]; [reflexivity|].
    destruct (h a); cbn [orb]; [reflexivity|]. rewrite IH by (auto; discriminate). reflexivity.
Qed.

Lemma run_expr (prim : relop -> str -> res bool) (h : alt -> bool) a l :
  Forall (fun a => prim (alt_op a) (snd a) = Ok (h a)) (a :: l) ->
  run_items prim LNone None (ITerm (alt_op a) (snd a) :: tail_items l) = Ok (existsb h (a :: l)).
Proof.
  intro H. inversion H as [|? ? Ha Hl]; subst. cbn [run_items]. rewrite Ha.
  rewrite (run_tail prim h) by (auto; discriminate). reflexivity.
Qed.
Definition alt_conv (v : str) (a : alt) : Prop := conv (snd a) = true /\ prefix_of (snd a) = prefix_of v.

Lemma conv_operand_ok a : conv (snd a) = true -> operand_ok a /\ name_ok a.
Proof.
  intros C. destruct (conv_wf_name _ C) as [W N]. destruct (conv_not_keyword _ C) as [A O].
  unfold wf_name in W. split; [split; [|assumption]|split; [|split; assumption]].
  - eapply forallb_impl; [apply wf_char_plain|exact W].
  - unfold is_vername. apply nonempty_true_iff in N. rewrite N. cbn [andb].
    eapply forallb_impl; [apply wf_char_verchar|exact W].
Qed.

Lemma match_expr v a l :
  conv v = true -> Forall (alt_conv v) (a :: l) ->
  version_match v (print_expr (a :: l)) = Ok (existsb (alt_holds v) (a :: l)).
Proof.
  intros Cv H. unfold version_match. rewrite print_expr_cons.
  assert (Hok : Forall (fun a => operand_ok a /\ name_ok a) (a :: l)).
  { eapply Forall_impl; [|exact H]. intros x [Cx _]. now apply conv_operand_ok. }
  inversion Hok as [|? ? [Oa Na] Hl]; subst.
  rewrite tokenize_alt_tail; [|assumption|eapply Forall_impl; [|exact Hl]; now intros x [? _]].
  rewrite items_alt by assumption.
  rewrite items_tail by (eapply Forall_impl; [|exact Hl]; now intros x [_ ?]).
  apply run_expr. eapply Forall_impl; [|exact H]. intros x [Cx Px].
  unfold alt_holds, alt_op, version_match_prim. now rewrite cmp_strict_key_order by auto.
Qed.

Lemma match_single v a : conv v = true -> alt_conv v a -> version_match v (print_alt a) = Ok (alt_holds v a).
Proof.
  intros Cv Ha. pose proof (match_expr v a [] Cv (Forall_cons _ Ha (Forall_nil _))) as H.
  unfold print_expr in H. cbn [map join_str existsb] in H. now rewrite orb_false_r in H.
Qed.

(* an operand with another letter prefix cannot be sorted against the version: no match *)
Lemma match_unsortable v a :
  conv v = true -> conv (snd a) = true -> prefix_of (snd a) <> prefix_of v ->
  version_match v (print_expr [a]) = Ok false.
Proof.
  intros Cv Ca P. unfold version_match. rewrite print_expr_cons.
  destruct (conv_operand_ok a Ca) as [Oa Na].
  rewrite tokenize_alt_tail by (auto; constructor). rewrite items_alt by assumption.
  cbn [tail_toks flat_map items run_items]. unfold version_match_prim.
  rewrite cmp_strict_unsortable by auto. reflexivity.
Qed.
