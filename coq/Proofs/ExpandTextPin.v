(* C17, level A - print / classify round trip for the lines of the exact block:
   classifying the pin line  setupRequired(n -j v)  as expandTableFile writes it gives back (n, -j, v). *)
From Eupsv Require Import Base.Base Base.BaseLemmas Model.Rx Proofs.RxLib Model.PathAlg Model.Setup Model.Expand Model.ExpandText.
From Eupsv Require Import Proofs.ExpandTextLib Proofs.ExpandText.

(* a character of a product name or version as the round trip needs it: ASCII, no white space, none of
   parentheses, brackets, hash, comma, double quote *)
Definition tok_char (c : ascii) : bool :=
  ascii_ok c && negb (is_pyspace c) &&
  negb (mem_ascii c [c_lp; c_rp; "["%char; "]"%char; c_hash; c_comma; c_dq]).

(* a word: not empty, made of such characters, not starting with a dash *)
Definition tokenish (x : str) : Prop :=
  forallb tok_char x = true /\ match x with c :: _ => ascii_eqb c "-"%char = false | [] => False end.

Lemma tok_char_ascii c : tok_char c = true -> ascii_ok c = true.
Proof. unfold tok_char. rewrite !andb_true_iff. tauto. Qed.

Lemma tok_char_nows c : tok_char c = true -> is_pyspace c = false.
Proof. unfold tok_char. rewrite !andb_true_iff, negb_true_iff. tauto. Qed.

Lemma tok_char_excl c x : tok_char c = true ->
  mem_ascii x [c_lp; c_rp; "["%char; "]"%char; c_hash; c_comma; c_dq] = true -> ascii_eqb c x = false.
Proof.
  unfold tok_char. rewrite !andb_true_iff, !negb_true_iff. intros [_ C] X.
  destruct (ascii_eqb_spec c x) as [->|]; [congruence|reflexivity].
Qed.

Lemma go_word p w : forall acc rest, forallb (fun c => negb (p c)) w = true ->
  split_set_go p acc (w ++ rest) = split_set_go p (acc ++ w) rest.
Proof.
  induction w as [|c w IH]; intros acc rest H; [now rewrite app_nil_r|]. cbn [forallb] in H. apply andb_true_iff in H.
  destruct H as [Hc Hw]. apply negb_true_iff in Hc. cbn [app split_set_go]. rewrite Hc, (IH _ _ Hw), <- app_assoc. reflexivity.
Qed.

Lemma go_sep p c acc rest : p c = true -> acc <> [] -> split_set_go p acc (c :: rest) = acc :: split_set_go p [] rest.
Proof. intros H N. cbn [split_set_go]. rewrite H. destruct acc; [contradiction|reflexivity]. Qed.

Lemma go_seps p s rest : forallb p s = true -> split_set_go p [] (s ++ rest) = split_set_go p [] rest.
Proof.
  induction s as [|c s IH]; [reflexivity|]. cbn [forallb]. rewrite andb_true_iff. intros [H1 H2].
  cbn [app split_set_go]. rewrite H1. now apply IH.
Qed.

Lemma go_end p acc : acc <> [] -> split_set_go p acc [] = [acc].
Proof. destruct acc; [contradiction|reflexivity]. Qed.

Lemma split_word p w c s rest : w <> [] -> forallb (fun c => negb (p c)) w = true -> p c = true -> forallb p s = true ->
  split_set p (w ++ c :: s ++ rest) = w :: split_set p rest.
Proof.
  intros N Hw Hc Hs. unfold split_set. rewrite go_word by assumption. cbn [app]. rewrite go_sep by assumption.
  now rewrite go_seps.
Qed.

Lemma split_last_word p w : w <> [] -> forallb (fun c => negb (p c)) w = true -> split_set p w = [w].
Proof.
  intros N Hw. pose proof (go_word p w [] [] Hw) as G. rewrite app_nil_r in G. unfold split_set. rewrite G. now apply go_end.
Qed.

Definition pin_sline (o : bool) (n v : str) : sline :=
  {| sl_optional := o; sl_name := n; sl_flags := [lit "-j"]; sl_version := Some v; sl_rest := []; sl_logical := None;
     sl_orig := pin_text o n v |}.

Definition pin_args (n v : str) : str := pad15 n ++ lit " -j " ++ v.

Lemma pin_text_eq o n v : pin_text o n v = cmd_name o ++ lit "(" ++ pin_args n v ++ lit ")".
Proof. unfold pin_text, pin_args. now rewrite render_pin. Qed.

Lemma pin_args_all (q : ascii -> bool) n v :
  (forall c, tok_char c = true -> q c = true) -> q c_space = true -> q "-"%char = true -> q "j"%char = true ->
  forallb tok_char n = true -> forallb tok_char v = true -> forallb q (pin_args n v) = true.
Proof.
  intros Hq Hs Hd Hj Hn Hv. unfold pin_args, pad15. rewrite !forallb_app. rewrite (forallb_impl _ q n Hq Hn), (forallb_impl _ q v Hq Hv).
  rewrite forallb_repeat by assumption. cbn. change (q " "%char) with (q c_space). now rewrite Hs, Hd, Hj.
Qed.

Lemma kw_at_cmd tf o rest : kw_at tf (cmd_name o ++ lit "(" ++ rest) = Some (o, rest).
Proof. destruct tf, o; vm_compute; reflexivity. Qed.

Lemma tokenish_nonnil x : tokenish x -> x <> [].
Proof. intros [_ H] ->. exact H. Qed.

Lemma mem_forallb c (x : str) : forallb (fun d => negb (ascii_eqb d c)) x = true -> mem_ascii c x = false.
Proof.
  induction x as [|d x IH]; [reflexivity|]. cbn [forallb mem_ascii]. rewrite andb_true_iff, negb_true_iff. intros [H1 H2].
  rewrite ascii_eqb_sym, H1. now apply IH.
Qed.

Lemma word_pieces_plain x : tokenish x -> word_pieces x = [x].
Proof.
  intros [F H]. unfold word_pieces. destruct x as [|c r]; [contradiction|].
  assert (Fc : tok_char c = true) by (cbn [forallb] in F; now apply andb_true_iff in F).
  rewrite (tok_char_excl c "["%char Fc) by reflexivity. cbn [app].
  destruct (rev (c :: r)) as [|d m] eqn:R; [reflexivity|].
  assert (Fd : tok_char d = true).
  { assert (I : In d (c :: r)) by (apply in_rev; rewrite R; now left). rewrite forallb_forall in F. auto. }
  now rewrite (tok_char_excl d "]"%char Fd).
Qed.

Lemma not_flag x : tokenish x ->
  flag_with_arg x = false /\ flag_plain x = false /\ starts_with (lit "--external") x = false /\ dashed x = false.
Proof.
  intros [_ H]. destruct x as [|c r]; [contradiction|]. unfold flag_with_arg, flag_plain, second_in, dashed.
  cbn [starts_with lit String.list_ascii_of_string]. rewrite (ascii_eqb_sym "-"%char c), H.
  repeat split; destruct r; reflexivity.
Qed.

Lemma inner_match_plain g : forallb not_dq (g ++ [c_rp]) = true -> mem_ascii c_rp g = false ->
  inner_match (g ++ [c_rp]) = Some (g, []).
Proof.
  intros ND NP. unfold inner_match. remember (g ++ [c_rp]) as s eqn:Es. destruct s as [|q r].
  - destruct g; discriminate.
  - pose proof ND as ND'. cbn [forallb] in ND'. apply andb_true_iff in ND'. destruct ND' as [Hq _]. unfold not_dq in Hq.
    apply negb_true_iff in Hq. rewrite Hq. rewrite (span_all not_dq _ ND). rewrite Es, split_last_app by reflexivity.
    reflexivity.
Qed.

Theorem classify_pin tf o n v :
  tokenish n -> tokenish v -> n <> lit "eups" ->
  has_sub (lit "--external") (pin_text o n v) = false ->
  classify_line tf (pin_text o n v) = Inside (LSetup (pin_sline o n v)).
Proof.
  intros Tn Tv Ne Hx. pose proof Tn as [Fn _]. pose proof Tv as [Fv _].
  unfold classify_line. rewrite Hx.
  (* every character is ASCII *)
  replace (forallb ascii_ok (pin_text o n v)) with true.
  2:{ symmetry. rewrite pin_text_eq, !forallb_app. rewrite pin_args_all; try reflexivity; try assumption.
      - destruct o; reflexivity.
      - apply tok_char_ascii. }
  cbn [negb].
  (* no white space in front, no hash anywhere *)
  destruct (cmd_name_head o) as [cr Ecr].
  assert (Hd : drop_ws (pin_text o n v) = pin_text o n v) by (rewrite pin_text_eq, Ecr; reflexivity).
  rewrite Hd. rewrite pin_text_eq at 1. rewrite Ecr. cbn [app]. change (ascii_eqb "s"%char c_hash) with false. cbv iota.
  assert (NH : mem_ascii c_hash (pin_text o n v) = false).
  { apply mem_forallb. rewrite pin_text_eq, !forallb_app. rewrite pin_args_all; try reflexivity; try assumption.
    - destruct o; reflexivity.
    - intros c H. now rewrite (tok_char_excl c c_hash H). }
  rewrite (before_hash_id _ NH).
  replace (mentions_setup tf (pin_text o n v)) with true
    by (symmetry; apply mentions_here; rewrite pin_text_eq; apply kw_here_cmd).
  cbn [negb]. rewrite Hd.
  (* the command pattern *)
  assert (ND : forallb not_dq (pin_args n v ++ lit ")") = true).
  { rewrite forallb_app. rewrite pin_args_all; try reflexivity; try assumption.
    intros c H. unfold not_dq. now rewrite (tok_char_excl c c_dq H). }
  assert (NP : existsb paren (pin_args n v) = false).
  { apply not_true_is_false. intro X. apply existsb_exists in X. destruct X as [c [I Pc]].
    assert (Q : forallb (fun c => negb (paren c)) (pin_args n v) = true).
    { apply pin_args_all; try reflexivity; try assumption. intros d H.
      unfold paren. now rewrite (tok_char_excl d c_lp H), (tok_char_excl d c_rp H). }
    rewrite forallb_forall in Q. apply Q in I. now rewrite Pc in I. }
  assert (IM : inner_match (pin_args n v ++ lit ")") = Some (pin_args n v, [])).
  { apply inner_match_plain; [assumption|]. apply mem_forallb. apply pin_args_all; try reflexivity; try assumption.
    intros c H. now rewrite (tok_char_excl c c_rp H). }
  unfold cmd_at. rewrite pin_text_eq, kw_at_cmd, IM. cbn [all_ws forallb negb]. rewrite NP.
  rewrite <- pin_text_eq.
  (* the arguments *)
  assert (NS : forall tf', forallb (fun c => negb (is_argsep tf' c)) n = true /\ forallb (fun c => negb (is_argsep tf' c)) v = true).
  { intro tf'. split; (eapply forallb_impl; [|eassumption]); intros c H;
      unfold is_argsep; rewrite (tok_char_nows c H), (tok_char_excl c c_comma H) by reflexivity; now destruct tf'. }
  destruct (NS tf) as [Sn Sv].
  assert (SP : split_set (is_argsep tf) (pin_args n v) = [n; lit "-j"; v]).
  { unfold pin_args, pad15. rewrite <- app_assoc.
    change (lit " -j " ++ v) with (c_space :: [] ++ (lit "-j" ++ c_space :: [] ++ v)).
    assert (Rp : forall k, repeat c_space k ++ c_space :: [] ++ (lit "-j" ++ c_space :: [] ++ v)
                           = c_space :: repeat c_space k ++ (lit "-j" ++ c_space :: [] ++ v)).
    { induction k as [|k IH]; [reflexivity|]. cbn [repeat app] in *. now rewrite IH. }
    rewrite Rp. rewrite split_word; [|now apply tokenish_nonnil|assumption|now destruct tf|apply forallb_repeat; now destruct tf].
    rewrite split_word; [|discriminate|now destruct tf|now destruct tf|reflexivity].
    rewrite split_last_word; [reflexivity|now apply tokenish_nonnil|assumption]. }
  unfold classify_args. rewrite SP.
  replace (str_eqb n (lit "eups")) with false by (symmetry; now apply str_eqb_neq).
  destruct (not_flag n Tn) as [A1 [A2 [A3 A4]]]. destruct (not_flag v Tv) as [B1 [B2 [B3 B4]]].
  cbn [scan_args]. rewrite A1, A2, A3, A4, B1, B2, B3, B4. cbn [orb].
  change (flag_with_arg (lit "-j")) with false. change (flag_plain (lit "-j")) with true. cbn [orb].
  rewrite (word_pieces_plain n Tn), (word_pieces_plain v Tv). cbn [app].
  (* the name the closure loop takes *)
  replace (if tf then n else first_piece (pin_args n v)) with n.
  2:{ destruct tf; [reflexivity|]. unfold first_piece, pin_args, pad15. rewrite <- app_assoc.
      assert (Sp : exists rest, repeat c_space (15 - length n) ++ lit " -j " ++ v = c_sp :: rest).
      { destruct (15 - length n); eexists; reflexivity. }
      destruct Sp as [rest ->]. rewrite span_app; [reflexivity| |reflexivity].
      eapply forallb_impl; [|exact Fn]. intros c H. pose proof (tok_char_nows c H) as Hw.
      destruct (ascii_eqb c c_sp) eqn:X; [|reflexivity]. apply ascii_eqb_eq in X. subst c. discriminate Hw. }
  rewrite str_eqb_refl. cbn [negb].
  replace (str_eqb v s_lbr) with false.
  2:{ symmetry. apply str_eqb_neq. intros ->. cbn in Fv. discriminate Fv. }
  change (take_bracket []) with (@None str, @nil str).
  assert (St : strip (pin_text o n v) = pin_text o n v) by (rewrite pin_text_eq; apply strip_tight, tight_cmd).
  rewrite St. reflexivity.
Qed.
