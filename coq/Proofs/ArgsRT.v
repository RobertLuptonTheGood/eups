(* C11 - level A for arguments: the (repaired) argument splitter of Table._read applied to
   the printed argument list gives back the arguments: quoted values keep their blanks and
   commas, whatever the separators and the optional quoting of the other values; a double
   quote that is part of a value (written backslash, quote) comes back as that character,
   inside a quoted value as well as at one or both ends of a bare word.
   The proof follows the passes of _read: the first pass turns every written backslash-quote
   into the place holder 2 (bsq_rest: the text is then the RAW print pr_rest0 of the values
   with 2 for their quotes); the two quoted-string passes and the split see delimiting
   quotes only; the delimiters are removed BEFORE the place holders are put back, so a
   bare word whose first and last characters are quotes keeps them (unprotect_bare). *)
From Coq Require Import Lia.
From Eupsv Require Import Base.Base Base.BaseLemmas Model.Rx Model.Cond Model.Args Model.Legacy
  Model.Blocks Model.TableSpec Proofs.RxLib.

Definition nodq (s : str) : bool := forallb (fun c => negb (ascii_eqb c c_dq)) s.
Definition nobsl (s : str) : bool := forallb (fun c => negb (ascii_eqb c c_bsl)) s.
(* the place holders of _read *)
Definition is_ctl (c : ascii) : bool := ascii_eqb c c_01 || ascii_eqb c c_02 || ascii_eqb c c_03.
Definition noctl (s : str) : bool := forallb (fun c => negb (is_ctl c)) s.
Definition nosep (s : str) : bool := forallb (fun c => negb (is_argsep c)) s.

Lemma wf_value_facts a : wf_value a = true ->
  nonempty a = true /\ nobsl a = true /\ noctl a = true.
Proof.
  unfold wf_value. intros H. apply andb_true_iff in H. destruct H as [Hn Hb].
  (* the backslash and the place holders are among the characters a value may not have *)
  repeat split; [exact Hn| |]; (eapply forallb_impl; [|exact Hb]); intros c; unfold bad_arg_char.
  - destruct (ascii_eqb c c_bsl); [rewrite orb_true_r; discriminate|reflexivity].
  - destruct (ascii_eqb c c_hash || ascii_eqb c c_bsl || ascii_eqb c c_nl || ascii_eqb c (chr 13));
      [discriminate|exact id].
Qed.

(* the values written as they are, without escaping: what the text between the parentheses
   looks like once the first pass of _read has replaced every backslash-quote *)
Definition pr_arg0 (q : bool) (a : str) : str := if q then c_dq :: a ++ [c_dq] else a.

Fixpoint pr_rest0 (l : list (str * bool)) (args : list str) : str :=
  match l, args with
  | (sep, q) :: l', a :: args' => sep ++ pr_arg0 q a ++ pr_rest0 l' args'
  | _, _ => []
  end.

(* a value with the place holder 2 for its double quotes *)
Definition dqp (a : str) : str := map_char c_dq c_02 a.

Lemma esc_dq_id a : nodq a = true -> esc_dq a = a.
Proof.
  unfold nodq, esc_dq. induction a as [|c a IH]; [reflexivity|]. cbn [forallb flat_map]. intros H.
  apply andb_true_iff in H. destruct H as [Hc Ha]. apply negb_true_iff in Hc. now rewrite Hc, (IH Ha).
Qed.

Lemma dqp_id a : nodq a = true -> dqp a = a.
Proof.
  unfold nodq, dqp, map_char. induction a as [|c a IH]; [reflexivity|]. cbn [forallb map]. intros H.
  apply andb_true_iff in H. destruct H as [Hc Ha]. apply negb_true_iff in Hc. now rewrite Hc, (IH Ha).
Qed.

Lemma dqp_nodq a : nodq (dqp a) = true.
Proof.
  unfold nodq, dqp, map_char. induction a as [|c a IH]; [reflexivity|]. cbn [map forallb].
  rewrite IH, andb_true_r. destruct (ascii_eqb c c_dq) eqn:E; [reflexivity|now rewrite E].
Qed.

Lemma dqp_nonempty a : nonempty (dqp a) = nonempty a.
Proof. destruct a; reflexivity. Qed.

Definition bsq_m : str -> option (str * nat) := lit_match [c_bsl; c_dq] [c_02].

Lemma bsq_nomatch c r : negb (ascii_eqb c c_bsl) = true -> bsq_m (c :: r) = None.
Proof.
  intros Hc. apply negb_true_iff in Hc. unfold bsq_m, lit_match. cbn [cs_prefix].
  now rewrite ascii_eqb_sym, Hc.
Qed.

Lemma bsq_copy s rest : nobsl s = true -> scan bsq_m 0 (s ++ rest) = s ++ scan bsq_m 0 rest.
Proof. apply scan_copy, bsq_nomatch. Qed.

Lemma bsq_esc a rest : nobsl a = true ->
  scan bsq_m 0 (esc_dq a ++ rest) = dqp a ++ scan bsq_m 0 rest.
Proof.
  unfold nobsl, esc_dq, dqp, map_char. induction a as [|c a IH]; [reflexivity|].
  cbn [forallb flat_map map]. intros H. apply andb_true_iff in H. destruct H as [Hc Ha].
  destruct (ascii_eqb c c_dq) eqn:E.
  - rewrite <- app_assoc. change ([c_bsl; c_dq] ++ ?x) with (c_bsl :: [c_dq] ++ x).
    rewrite (scan_match bsq_m c_bsl [c_dq] _ [c_02] eq_refl). cbn [app]. f_equal. apply IH, Ha.
  - cbn [app scan]. rewrite (bsq_nomatch c _ Hc). f_equal. apply IH, Ha.
Qed.

Lemma bsq_arg q x rest : nobsl x = true ->
  scan bsq_m 0 (pr_arg q x ++ rest) = pr_arg0 q (dqp x) ++ scan bsq_m 0 rest.
Proof.
  intros Hx. destruct q; cbn [pr_arg pr_arg0]; [|apply bsq_esc, Hx].
  rewrite <- !app_comm_cons, <- !app_assoc. cbn [scan]. rewrite bsq_nomatch, bsq_esc by (reflexivity || exact Hx).
  cbn [app scan]. now rewrite bsq_nomatch by reflexivity.
Qed.

Fixpoint bsq_ok (l : list (str * bool)) (args : list str) : bool :=
  match l, args with
  | [], [] => true
  | (sep, q) :: l', x :: args' => nobsl sep && nobsl x && bsq_ok l' args'
  | _, _ => false
  end.

Lemma bsq_rest l args rest : bsq_ok l args = true ->
  scan bsq_m 0 (pr_rest l args ++ rest) = pr_rest0 l (map dqp args) ++ scan bsq_m 0 rest.
Proof.
  revert args. induction l as [|[sep q] l IH]; intros [|x args] H; try discriminate H; [reflexivity|].
  cbn [bsq_ok] in H. apply andb3 in H. destruct H as (Hs & Hx & Hr).
  cbn [pr_rest pr_rest0 map]. rewrite <- !app_assoc.
  now rewrite (bsq_copy sep), bsq_arg, IH by assumption.
Qed.

Lemma protect_bsq_id s : nobsl s = true -> protect_bsq s = s.
Proof. apply (scan_copy_all bsq_m), bsq_nomatch. Qed.

Lemma sp_nobsl n : nobsl (sp n) = true.
Proof. apply forallb_repeat. reflexivity. Qed.

Lemma bsq_full n a0 l args m : nobsl a0 = true -> bsq_ok l args = true ->
  protect_bsq (sp n ++ esc_dq a0 ++ pr_rest l args ++ sp m)
  = sp n ++ dqp a0 ++ pr_rest0 l (map dqp args) ++ sp m.
Proof.
  intros Ha Hr. unfold protect_bsq, replace_all, resub. fold bsq_m.
  rewrite bsq_copy by apply sp_nobsl. rewrite bsq_esc by exact Ha. rewrite bsq_rest by exact Hr.
  fold (protect_bsq (sp m)). now rewrite protect_bsq_id by apply sp_nobsl.
Qed.

Lemma sep_facts s : forallb is_argsep s = true -> nodq s = true /\ nobsl s = true.
Proof.
  intros H. split; (eapply forallb_impl; [|exact H]); apply all_ascii_impl; vm_compute; reflexivity.
Qed.

Lemma sp_argsep n : forallb is_argsep (sp n) = true.
Proof. apply forallb_repeat. reflexivity. Qed.

Lemma bare_nosep a : bare_ok a = true -> nosep a = true.
Proof.
  (* the space is one of the blanks *)
  unfold bare_ok, nosep. apply forallb_impl. intros c. unfold is_argsep.
  destruct (ascii_eqb c c_comma); [rewrite orb_true_r; discriminate|].
  destruct (ascii_eqb_spec c c_sp) as [->|_]; [discriminate|reflexivity].
Qed.

Lemma qm_nomatch a b c r : negb (ascii_eqb c c_dq) = true -> quoted_match a b (c :: r) = None.
Proof. intros H. apply negb_true_iff in H. cbn [quoted_match]. now rewrite H. Qed.

Lemma nodq_copy a b s rest : nodq s = true ->
  scan (quoted_match a b) 0 (s ++ rest) = s ++ scan (quoted_match a b) 0 rest.
Proof. apply scan_copy, qm_nomatch. Qed.

Lemma nodq_all a b s : nodq s = true -> scan (quoted_match a b) 0 s = s.
Proof. apply scan_copy_all, qm_nomatch. Qed.

Lemma pass_arg a b q x rest : nodq x = true -> nonempty x = true ->
  scan (quoted_match a b) 0 (pr_arg0 q x ++ rest)
  = pr_arg0 q (if q then map_char a b x else x) ++ scan (quoted_match a b) 0 rest.
Proof.
  intros Hx Hn. destruct q; cbn [pr_arg0]; [|apply nodq_copy, Hx].
  cbn [app]. rewrite <- app_assoc. apply (scan_delimited _ _ _ _ _ (c_dq :: map_char a b x ++ [c_dq])).
  cbn [quoted_match]. rewrite ascii_eqb_refl.
  rewrite (span_app _ x c_dq rest Hx) by (now rewrite ascii_eqb_refl). destruct x; [discriminate|reflexivity].
Qed.

(* the arguments after a pass: the quoted ones have been mapped *)
Fixpoint tr (f : str -> str) (l : list (str * bool)) (args : list str) : list str :=
  match l, args with
  | (_, q) :: l', x :: args' => (if q then f x else x) :: tr f l' args'
  | _, _ => []
  end.

Fixpoint pass_ok (l : list (str * bool)) (args : list str) : bool :=
  match l, args with
  | [], [] => true
  | (sep, q) :: l', x :: args' => nodq sep && nodq x && nonempty x && pass_ok l' args'
  | _, _ => false
  end.

Lemma pass_rest a b l args rest : pass_ok l args = true ->
  scan (quoted_match a b) 0 (pr_rest0 l args ++ rest)
  = pr_rest0 l (tr (map_char a b) l args) ++ scan (quoted_match a b) 0 rest.
Proof.
  revert args. induction l as [|[sep q] l IH]; intros [|x args] H; try discriminate H; [reflexivity|].
  cbn [pass_ok] in H. apply andb4 in H. destruct H as (Hs & Hx & Hn & Hr).
  cbn [pr_rest0 tr]. rewrite <- !app_assoc.
  now rewrite (nodq_copy a b sep), pass_arg, IH by assumption.
Qed.

Lemma sp_nodq n : nodq (sp n) = true.
Proof. apply forallb_repeat. reflexivity. Qed.

Lemma pass_full a b pre a0 l args post :
  nodq pre = true -> nodq a0 = true -> nodq post = true -> pass_ok l args = true ->
  scan (quoted_match a b) 0 (pre ++ a0 ++ pr_rest0 l args ++ post)
  = pre ++ a0 ++ pr_rest0 l (tr (map_char a b) l args) ++ post.
Proof.
  intros H1 H2 H3 H4. rewrite nodq_copy by exact H1. rewrite nodq_copy by exact H2.
  rewrite pass_rest by exact H4. now rewrite nodq_all by exact H3.
Qed.

Lemma map_char_nonempty a b x : nonempty (map_char a b x) = nonempty x.
Proof. destruct x; reflexivity. Qed.

Lemma pass_ok_tr a b l args : negb (ascii_eqb b c_dq) = true ->
  pass_ok l args = true -> pass_ok l (tr (map_char a b) l args) = true.
Proof.
  intros Hb. revert args. induction l as [|[sep q] l IH]; intros [|x args] H; try discriminate H; [reflexivity|].
  cbn [pass_ok] in H. apply andb4 in H. destruct H as (Hs & Hx & Hn & Hr).
  cbn [tr pass_ok]. rewrite Hs, (IH _ Hr). destruct q.
  - unfold nodq. rewrite (forallb_map_char _ a b x Hb Hx), map_char_nonempty, Hn. reflexivity.
  - now rewrite Hx, Hn.
Qed.

Lemma tr_tr f g l args : tr g l (tr f l args) = tr (fun x => g (f x)) l args.
Proof.
  revert args. induction l as [|[sep q] l IH]; intros [|x args]; try reflexivity.
  cbn [tr]. rewrite IH. destruct q; reflexivity.
Qed.

Lemma split_go_word p acc w rest :
  forallb (fun c => negb (p c)) w = true ->
  split_set_go p acc (w ++ rest) = split_set_go p (acc ++ w) rest.
Proof.
  revert acc. induction w as [|c w IH]; intros acc Hw; [now rewrite app_nil_r|].
  cbn [forallb] in Hw. apply andb_true_iff in Hw. destruct Hw as [Hc Hw]. apply negb_true_iff in Hc.
  cbn [app split_set_go]. rewrite Hc, (IH _ Hw), <- app_assoc. reflexivity.
Qed.

Definition emit (acc : str) : list str := match acc with [] => [] | _ => [acc] end.

Lemma split_go_sep p acc s rest :
  forallb p s = true -> nonempty s = true ->
  split_set_go p acc (s ++ rest) = emit acc ++ split_set_go p [] rest.
Proof.
  revert acc. induction s as [|c s IH]; intros acc Hs Hn; [discriminate|].
  cbn [forallb] in Hs. apply andb_true_iff in Hs. destruct Hs as [Hc Hs].
  cbn [app split_set_go]. rewrite Hc. destruct s as [|c' s'].
  - cbn [app]. destruct acc; reflexivity.
  - rewrite (IH [] Hs eq_refl). destruct acc; reflexivity.
Qed.

Lemma split_go_lead p s rest : forallb p s = true -> split_set_go p [] (s ++ rest) = split_set_go p [] rest.
Proof. intros Hs. destruct s as [|c s]; [reflexivity|]. now rewrite split_go_sep. Qed.

Lemma split_go_seps p acc s : forallb p s = true -> split_set_go p acc s = emit acc.
Proof.
  intros Hs. destruct s as [|c s]; [destruct acc; reflexivity|].
  rewrite <- (app_nil_r (c :: s)), split_go_sep by auto. cbn. now rewrite app_nil_r.
Qed.

(* the words of the protected text *)
Fixpoint words (l : list (str * bool)) (args : list str) : list str :=
  match l, args with
  | (_, q) :: l', x :: args' => pr_arg0 q x :: words l' args'
  | _, _ => []
  end.

Fixpoint split_ok (l : list (str * bool)) (args : list str) : bool :=
  match l, args with
  | [], [] => true
  | (sep, q) :: l', x :: args' =>
      forallb is_argsep sep && nonempty sep && nosep x && nonempty x && split_ok l' args'
  | _, _ => false
  end.

Lemma nosep_pr_arg q x : nosep x = true -> nosep (pr_arg0 q x) = true.
Proof.
  intros H. destruct q; [|exact H]. unfold nosep in *. cbn [pr_arg0 forallb].
  rewrite forallb_app, H. reflexivity.
Qed.

Lemma split_rest acc l args trail :
  nonempty acc = true -> split_ok l args = true -> forallb is_argsep trail = true ->
  split_set_go is_argsep acc (pr_rest0 l args ++ trail) = acc :: words l args.
Proof.
  revert acc args. induction l as [|[sep q] l IH]; intros acc [|x args] Ha H Ht; try discriminate H.
  - cbn [pr_rest0 app words]. rewrite split_go_seps by exact Ht. destruct acc; [discriminate|reflexivity].
  - cbn [split_ok] in H. apply andb4 in H. destruct H as (Hs & Hx & Hxn & Hr).
    apply andb_true_iff in Hs. destruct Hs as [Hs Hsn].
    cbn [pr_rest0 words]. rewrite <- !app_assoc.
    rewrite split_go_sep by auto. destruct acc as [|c acc]; [discriminate|]. cbn [emit app]. f_equal.
    rewrite split_go_word by (apply nosep_pr_arg, Hx). cbn [app].
    apply IH; auto. destruct q, x; try discriminate; reflexivity.
Qed.

Definition prot (x : str) : str := map_char c_comma c_03 (map_char c_sp c_01 x).

Lemma unprot_char c :
  negb (ascii_eqb c c_01 || ascii_eqb c c_02 || ascii_eqb c c_03) = true ->
  let f1 := fun c => if ascii_eqb c c_sp then c_01 else c in
  let f2 := fun c => if ascii_eqb c c_comma then c_03 else c in
  let g1 := fun c => if ascii_eqb c c_01 then c_sp else c in
  let g2 := fun c => if ascii_eqb c c_02 then c_dq else c in
  let g3 := fun c => if ascii_eqb c c_03 then c_comma else c in
  g3 (g2 (g1 (f2 (f1 c)))) = c.
Proof.
  intros H f1 f2 g1 g2 g3. apply ascii_eqb_eq. revert c H.
  apply (all_ascii_impl (fun c => negb (is_ctl c)) (fun c => ascii_eqb (g3 (g2 (g1 (f2 (f1 c))))) c)).
  vm_compute. reflexivity.
Qed.

Lemma map_id_noctl (f : ascii -> ascii) x :
  all_ascii (fun c => implb (negb (is_ctl c)) (ascii_eqb (f c) c)) = true -> noctl x = true -> map f x = x.
Proof.
  intros Hf. induction x as [|c x IH]; [reflexivity|]. cbn [noctl forallb map]. intros H.
  apply andb_true_iff in H. destruct H as [Hc Hx].
  f_equal; [|exact (IH Hx)]. apply ascii_eqb_eq. exact (all_ascii_impl _ _ Hf c Hc).
Qed.

(* what map_char does to one character.  Composing the passes with map_map would unfold the
   conditionals into each other and double the term at every pass; char_sub keeps them apart. *)
Definition char_sub (a b c : ascii) : ascii := if ascii_eqb c a then b else c.

Lemma map_char_map a b (f : ascii -> ascii) x :
  map_char a b (map f x) = map (fun c => char_sub a b (f c)) x.
Proof. apply map_map. Qed.

(* a quoted value: the delimiters go, then the blanks, the quotes and the commas come back *)
Lemma unprotect_quoted x : noctl x = true -> unprotect (c_dq :: prot (dqp x) ++ [c_dq]) = x.
Proof.
  unfold unprotect, prot, dqp. rewrite strip_dq_quoted.
  change (map_char c_dq c_02 x) with (map (char_sub c_dq c_02) x). rewrite !map_char_map.
  apply map_id_noctl. vm_compute. reflexivity.
Qed.

(* a bare word: when the delimiting quotes are looked for, the quotes of the value are still
   the place holder 2, so nothing is removed, whatever the first and last characters are *)
Lemma unprotect_bare x : noctl x = true -> unprotect (dqp x) = x.
Proof.
  unfold unprotect. rewrite strip_dq_id.
  - unfold dqp. change (map_char c_dq c_02 x) with (map (char_sub c_dq c_02) x). rewrite !map_char_map.
    apply map_id_noctl. vm_compute. reflexivity.
  - pose proof (dqp_nodq x) as Hq. destruct (dqp x) as [|c y]; [reflexivity|].
    cbn [nodq forallb] in Hq. apply andb_true_iff in Hq. destruct Hq as [Hq _]. now apply negb_true_iff.
Qed.

Lemma prot_nosep x : nosep (prot x) = true.
Proof.
  unfold nosep, prot, map_char. rewrite map_map. induction x as [|c x IH]; [reflexivity|].
  cbn [map forallb]. rewrite IH, andb_true_r. revert c. apply all_ascii_spec. vm_compute. reflexivity.
Qed.

Lemma dqp_nosep x : nosep x = true -> nosep (dqp x) = true.
Proof. apply forallb_map_char. reflexivity. Qed.

Lemma wf_rest_facts l args : wf_rest l args = true ->
  bsq_ok l args = true /\
  pass_ok l (map dqp args) = true /\
  split_ok l (tr prot l (map dqp args)) = true /\
  map unprotect (words l (tr prot l (map dqp args))) = args.
Proof.
  revert args. induction l as [|[sep q] l IH]; intros [|x args] H; try discriminate H.
  - repeat split.
  - cbn [wf_rest] in H. apply andb4 in H. destruct H as (Hs & Hv & Hq & Hr).
    destruct (IH _ Hr) as (I0 & I1 & I2 & I3).
    destruct (wf_value_facts x Hv) as (Vn & Vb & Vc).
    unfold wf_sep in Hs. apply andb3 in Hs. destruct Hs as (Sn & Ss & _).
    destruct (sep_facts sep Ss) as [Sq Sb].
    repeat split.
    + cbn [bsq_ok]. now rewrite Sb, Vb, I0.
    + cbn [map pass_ok]. now rewrite Sq, dqp_nodq, dqp_nonempty, Vn, I1.
    + cbn [map tr split_ok]. rewrite Ss, Sn, I2. cbn [andb]. destruct q.
      * rewrite prot_nosep. unfold prot. rewrite !map_char_nonempty, dqp_nonempty, Vn. reflexivity.
      * rewrite (dqp_nosep x (bare_nosep x Hq)), dqp_nonempty, Vn. reflexivity.
    + cbn [map tr words]. rewrite I3. f_equal. destruct q; cbn [pr_arg0].
      * apply unprotect_quoted, Vc.
      * apply unprotect_bare, Vc.
Qed.

Lemma esc_dq_head a rest :
  nonempty a = true ->
  match esc_dq a ++ rest with c :: _ => ascii_eqb c c_dq | [] => false end = false.
Proof.
  destruct a as [|c a]; [discriminate|]. intros _. cbn [esc_dq flat_map].
  destruct (ascii_eqb c c_dq) eqn:E; cbn [app]; [reflexivity|exact E].
Qed.

Theorem split_print_args g args : wf_args g args = true -> split_args true (print_args g args) = args.
Proof.
  destruct args as [|a0 rest]; cbn [wf_args print_args].
  - intros _. unfold split_args, protect.
    rewrite strip_dq_id by (destruct (gl_lead g); reflexivity).
    rewrite protect_bsq_id by apply sp_nobsl.
    unfold resub. rewrite (nodq_all c_sp), (nodq_all c_comma) by apply sp_nodq.
    unfold split_set. now rewrite split_go_seps by apply sp_argsep.
  - intros H. apply andb3 in H. destruct H as (Hv & Hb & Hr).
    destruct (wf_value_facts a0 Hv) as (Vn & Vb & Vc).
    destruct (wf_rest_facts _ _ Hr) as (P0 & P1 & P2 & P3).
    unfold split_args, protect.
    rewrite strip_dq_id.
    2:{ destruct (gl_lead g); [|reflexivity]. cbn [sp repeat app]. apply esc_dq_head, Vn. }
    rewrite bsq_full by assumption.
    unfold resub.
    rewrite pass_full by (auto using sp_nodq, dqp_nodq).
    rewrite pass_full by (auto using sp_nodq, dqp_nodq, pass_ok_tr).
    rewrite tr_tr.
    change (fun x => map_char c_comma c_03 (map_char c_sp c_01 x)) with prot.
    unfold split_set.
    assert (Hw : nosep (dqp a0) = true) by (apply dqp_nosep, bare_nosep, Hb).
    assert (Hne : nonempty (dqp a0) = true) by (now rewrite dqp_nonempty).
    rewrite split_go_lead by apply sp_argsep. rewrite split_go_word by exact Hw. cbn [app].
    rewrite split_rest; auto using sp_argsep. cbn [map]. rewrite P3. f_equal. apply unprotect_bare, Vc.
Qed.

Lemma pr_arg_plain q a : nodq a = true -> pr_arg q a = pr_arg0 q a.
Proof. intros H. unfold pr_arg, pr_arg0. now rewrite (esc_dq_id a H). Qed.

(* a bare word between two quotes: written with both quotes escaped, read with both *)
Lemma split_quoted_word name sep w :
  wf_value name = true -> bare_ok name = true -> wf_sep sep = true ->
  wf_value w = true -> bare_ok w = true ->
  let g := mkArglay 0 [(sep, false)] 0 in
  let a := c_dq :: w ++ [c_dq] in
  print_args g [name; a] = esc_dq name ++ sep ++ [c_bsl; c_dq] ++ esc_dq w ++ [c_bsl; c_dq] /\
  split_args true (print_args g [name; a]) = [name; a].
Proof.
  intros Hn Hnb Hs Hw Hwb g a.
  assert (Ea : esc_dq a = [c_bsl; c_dq] ++ esc_dq w ++ [c_bsl; c_dq]).
  { subst a. unfold esc_dq. cbn [flat_map]. rewrite ascii_eqb_refl, flat_map_app. cbn [flat_map].
    rewrite ascii_eqb_refl, app_nil_r. reflexivity. }
  split.
  - subst g. unfold print_args. cbn [gl_lead gl_rest gl_trail sp repeat pr_rest pr_arg app].
    rewrite Ea, !app_nil_r. reflexivity.
  - apply split_print_args. subst g. cbn [wf_args gl_rest wf_rest]. rewrite Hn, Hnb, Hs. cbn [andb].
    rewrite andb_true_r. apply andb_true_iff. split.
    + unfold wf_value in *. apply andb_true_iff in Hw. destruct Hw as [_ Hw].
      subst a. cbn [nonempty forallb]. rewrite forallb_app, Hw. reflexivity.
    + unfold bare_ok in *. subst a. cbn [forallb]. rewrite forallb_app, Hwb. reflexivity.
Qed.

(* a text the recogniser puts inside the grammar is the print of a well-formed argument
   list, and the splitter gives exactly those arguments *)
Lemma args_class_sound t args : args_class t = Some args ->
  split_args true t = args /\ exists g, wf_args g args = true /\ print_args g args = t.
Proof.
  unfold args_class. destruct (args_parse t) as [[g a]|]; [|discriminate].
  destruct (wf_args g a) eqn:W; [|discriminate]. cbn [andb].
  destruct (str_eqb (print_args g a) t) eqn:E; [|discriminate]. intros H. injection H as <-.
  apply str_eqb_eq in E. split; [|exists g; auto]. rewrite <- E. now apply split_print_args.
Qed.
