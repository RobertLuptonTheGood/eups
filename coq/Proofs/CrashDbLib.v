(* Paths of database records (Model/CrashDb.v): the three kinds of names are recognised by
   [classify] and by nothing else ([classify_dpath], [classify_vpath_ok], [classify_cpath_ok],
   [classify_inv]), no record path is a temporary name, and printing a record is inverted by
   parsing it. *)
From Eupsv Require Import Base.Base Base.BaseLemmas Model.Db Model.Crash Model.CrashDb Proofs.DbLib.
From Coq Require Import Lia.

Lemma starts_with_app_inv p : forall x, starts_with p x = true -> exists r, x = p ++ r.
Proof.
  induction p as [|c p IH]; intros x H; [exists x; reflexivity|].
  destruct x as [|d x]; [discriminate|]. cbn in H.
  destruct (ascii_eqb_spec c d) as [->|N]; [|discriminate].
  destruct (IH x H) as [r ->]. exists r. reflexivity.
Qed.

Lemma starts_with_sep a c : mem_ascii c a = false -> forall b r,
  starts_with a (b ++ c :: r) = starts_with a b.
Proof.
  induction a as [|x a IH]; intros Hc b r; [reflexivity|].
  cbn in Hc. destruct (ascii_eqb c x) eqn:E; [discriminate|].
  destruct b as [|y b]; cbn.
  - rewrite ascii_eqb_sym, E. reflexivity.
  - destruct (ascii_eqb x y); [apply IH; exact Hc|reflexivity].
Qed.

Lemma ends_with_sep suf c x y : mem_ascii c suf = false -> ends_with suf (x ++ c :: y) = ends_with suf y.
Proof.
  intro H. unfold ends_with. rewrite rev_app_distr. cbn [rev]. rewrite <- app_assoc. cbn [app].
  apply starts_with_sep. rewrite <- (rev_involutive suf) in H.
  destruct (mem_ascii c (rev suf)) eqn:E; [|reflexivity].
  apply mem_ascii_In in E. apply in_rev in E. apply mem_ascii_In in E.
  rewrite rev_involutive in H. congruence.
Qed.

Lemma is_tmp_sep x y : is_tmp (x ++ c_slash :: y) = is_tmp y.
Proof. unfold is_tmp. apply ends_with_sep. reflexivity. Qed.

Lemma strip_suffix_spec suf x v : strip_suffix suf x = Some v -> x = v ++ suf.
Proof.
  unfold strip_suffix. destruct (ends_with suf x) eqn:E; [|discriminate].
  intros [= <-]. unfold ends_with in E.
  destruct (starts_with_app_inv _ _ E) as [r Hr].
  assert (Hx : x = rev r ++ suf).
  { rewrite <- (rev_involutive x), Hr, rev_app_distr, rev_involutive. reflexivity. }
  clear E Hr. subst x. rewrite app_length.
  replace (length (rev r) + length suf - length suf) with (length (rev r)) by lia.
  rewrite firstn_app, firstn_all, Nat.sub_diag. cbn [firstn]. rewrite app_nil_r. reflexivity.
Qed.

Lemma strip_suffix_app suf v : strip_suffix suf (v ++ suf) = Some v.
Proof.
  unfold strip_suffix, ends_with. rewrite rev_app_distr, starts_with_refl.
  rewrite app_length. replace (length v + length suf - length suf) with (length v) by lia.
  rewrite firstn_app, firstn_all, Nat.sub_diag. cbn [firstn]. rewrite app_nil_r. reflexivity.
Qed.

Lemma chain_not_version t : strip_suffix version_suffix (t ++ chain_suffix) = None.
Proof. unfold strip_suffix, ends_with. rewrite rev_app_distr. reflexivity. Qed.

Lemma is_tmp_version v : is_tmp (v ++ version_suffix) = false.
Proof. unfold is_tmp, ends_with. rewrite rev_app_distr. reflexivity. Qed.

Lemma is_tmp_chain t : is_tmp (t ++ chain_suffix) = false.
Proof. unfold is_tmp, ends_with. rewrite rev_app_distr. reflexivity. Qed.

Lemma seg_ok_app_version v : seg_ok (v ++ version_suffix) = seg_ok v.
Proof. unfold seg_ok. rewrite mem_ascii_app. cbn. rewrite orb_false_r. reflexivity. Qed.

Lemma seg_ok_app_chain t : seg_ok (t ++ chain_suffix) = seg_ok t.
Proof. unfold seg_ok. rewrite mem_ascii_app. cbn. rewrite orb_false_r. reflexivity. Qed.

Lemma seg_ok_false x : seg_ok x = true -> mem_ascii c_slash x = false.
Proof. unfold seg_ok. destruct (mem_ascii c_slash x); [discriminate|reflexivity]. Qed.

Lemma seg_ok_ups_db : seg_ok ups_db = true.
Proof. reflexivity. Qed.

Lemma is_tmp_dpath s n : is_tmp (dpath s n) = is_tmp n.
Proof. unfold dpath. rewrite !join_cons. rewrite !is_tmp_sep. reflexivity. Qed.

Lemma is_tmp_vpath s k : is_tmp (vpath s k) = false.
Proof. unfold vpath. rewrite !join_cons. rewrite !is_tmp_sep. cbn [join]. apply is_tmp_version. Qed.

Lemma is_tmp_cpath s k : is_tmp (cpath s k) = false.
Proof. unfold cpath. rewrite !join_cons. rewrite !is_tmp_sep. cbn [join]. apply is_tmp_chain. Qed.

Lemma split_segments l : l <> [] -> forallb seg_ok l = true -> split_on c_slash (join c_slash l) = l.
Proof.
  intros Hne H. apply split_on_join; [exact Hne|].
  apply Forall_forall. intros x Hx. apply seg_ok_false. apply (proj1 (forallb_forall _ _) H). exact Hx.
Qed.

Lemma classify_dpath s n : seg_ok s = true -> seg_ok n = true -> classify (dpath s n) = Some (EntDir s n).
Proof.
  intros Hs Hn. unfold classify, dpath. rewrite split_segments; [|discriminate|].
  - reflexivity.
  - cbn [forallb]. rewrite Hs, Hn. reflexivity.
Qed.

Lemma segs_ok_parts s k : segs_ok s k = true -> seg_ok s = true /\ seg_ok (fst k) = true /\ seg_ok (snd k) = true.
Proof.
  unfold segs_ok. intro H. apply andb_true_iff in H. destruct H as [H H3].
  apply andb_true_iff in H. destruct H as [H1 H2]. auto.
Qed.

Lemma classify_vpath_ok s k : segs_ok s k = true -> classify (vpath s k) = Some (EntV s k).
Proof.
  intro H. destruct (segs_ok_parts s k H) as [Hs [Hn Hv]]. destruct k as [n v]. unfold classify, vpath. cbn [fst snd] in *.
  rewrite split_segments; [|discriminate|].
  - rewrite str_eqb_refl, strip_suffix_app. reflexivity.
  - cbn [forallb]. rewrite Hs, Hn, seg_ok_app_version, Hv. reflexivity.
Qed.

Lemma classify_cpath_ok s k : segs_ok s k = true -> classify (cpath s k) = Some (EntC s k).
Proof.
  intro H. destruct (segs_ok_parts s k H) as [Hs [Hn Ht]]. destruct k as [n t]. unfold classify, cpath. cbn [fst snd] in *.
  rewrite split_segments; [|discriminate|].
  - rewrite str_eqb_refl, chain_not_version, strip_suffix_app. reflexivity.
  - cbn [forallb]. rewrite Hs, Hn, seg_ok_app_chain, Ht. reflexivity.
Qed.

Lemma split_seg_ok q : Forall (fun x => seg_ok x = true) (split_on c_slash q).
Proof.
  eapply Forall_impl; [|apply split_on_parts_nodelim]. intros x H. unfold seg_ok. cbn beta in H. rewrite H. reflexivity.
Qed.

Lemma classify_inv q e : classify q = Some e ->
  match e with
  | EntDir s n => q = dpath s n /\ seg_ok s = true /\ seg_ok n = true
  | EntV s k => q = vpath s k /\ segs_ok s k = true
  | EntC s k => q = cpath s k /\ segs_ok s k = true
  end.
Proof.
  unfold classify. pose proof (join_split_on c_slash q) as J.
  assert (F : forall x, In x (split_on c_slash q) -> seg_ok x = true).
  { apply Forall_forall. apply split_seg_ok. }
  destruct (split_on c_slash q) as [|s [|u [|n [|file [|x l]]]]]; try discriminate.
  - (* three segments *)
    destruct (str_eqb_spec u ups_db) as [->|]; [|discriminate].
    intros [= <-]. split; [symmetry; exact J|]. split; apply F; cbn; auto.
  - (* four segments *)
    destruct (str_eqb_spec u ups_db) as [->|]; [|discriminate].
    assert (Fs : seg_ok s = true) by (apply F; cbn; auto).
    assert (Fn : seg_ok n = true) by (apply F; cbn; auto).
    assert (Ff : seg_ok file = true) by (apply F; cbn; auto).
    destruct (strip_suffix version_suffix file) as [v|] eqn:Ev.
    + intros [= <-]. apply strip_suffix_spec in Ev. subst file. rewrite seg_ok_app_version in Ff.
      split; [symmetry; exact J|]. unfold segs_ok. cbn [fst snd]. rewrite Fs, Fn, Ff. reflexivity.
    + destruct (strip_suffix chain_suffix file) as [t|] eqn:Et; [|discriminate].
      intros [= <-]. apply strip_suffix_spec in Et. subst file. rewrite seg_ok_app_chain in Ff.
      split; [symmetry; exact J|]. unfold segs_ok. cbn [fst snd]. rewrite Fs, Fn, Ff. reflexivity.
Qed.

Lemma key_ok_parts s k : key_ok s k = true -> segs_ok s k = true /\ is_tmp (fst k) = false.
Proof.
  unfold key_ok. intro H. apply andb_true_iff in H. destruct H as [H H4].
  split; [assumption|]. destruct (is_tmp (fst k)); [discriminate|reflexivity].
Qed.

Lemma parse_print_v c : parse_v (print_v c) = Some c.
Proof. induction c as [|[f [dir table]] c IH]; [reflexivity|]. cbn [print_v parse_v]. rewrite IH. reflexivity. Qed.

Lemma parse_print_c c : parse_c (print_c c) = Some c.
Proof. induction c as [|[f v] c IH]; [reflexivity|]. cbn [print_c parse_c]. rewrite IH. reflexivity. Qed.
