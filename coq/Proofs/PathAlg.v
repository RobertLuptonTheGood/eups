(* Model/PathAlg.v (C12): expansion and interpolation copy dollar-free text and replace a single reference;
   de-duplication commutes with path_step, which gives the element list after a well-formed envPrepend /
   envAppend in either mode (env_prepend_step; with MANPATH flags, env_prepend_flagged). *)
From Eupsv Require Import Base.Base Base.BaseLemmas Model.PathAlg.
From Coq Require Import Lia.

(* regex metacharacters: a delimiter is spliced into patterns unescaped *)
Definition metachars : list ascii :=
  [".";"^";"$";"*";"+";"?";"{";"}";"[";"]";"\";"|";"(";")"]%char.
Definition wf_delim (d : ascii) : bool := negb (mem_ascii d metachars).
Definition no_dollar (x : str) : bool := negb (mem_ascii c_dollar x).
Definition wf_elem (d : ascii) (v : str) : bool :=
  nonempty v && negb (mem_ascii d v) && negb (mem_ascii c_dollar v).
Definition oldv (var : str) (e : env) : str :=
  match alookup var e with Some v => v | None => [] end.

Definition good (d : ascii) (p : str) : Prop :=
  nonempty p = true /\ mem_ascii d p = false /\ mem_ascii c_dollar p = false.

Lemma wf_elem_good d v : wf_elem d v = true -> good d v.
Proof.
  intro H. apply andb_prop in H. destruct H as [H Hc]. apply andb_prop in H. destruct H as [Hn Hd].
  apply negb_true_iff in Hd, Hc. now split.
Qed.

Lemma wf_delim_not_dollar d : wf_delim d = true -> c_dollar <> d.
Proof. intros H <-. discriminate H. Qed.

Lemma no_dollar_spec x : no_dollar x = true <-> mem_ascii c_dollar x = false.
Proof. apply negb_true_iff. Qed.

Lemma oldv_aset_same var x e : oldv var (aset var x e) = x.
Proof. unfold oldv. now rewrite alookup_aset_same. Qed.

Lemma match_var_at_nodollar c r : c <> c_dollar -> match_var_at (c :: r) = None.
Proof. intro N. apply ascii_eqb_neq in N. unfold match_var_at. now rewrite N. Qed.

Lemma expand_aux_0 e c r :
  expand_aux e 0 (c :: r) =
  match match_var_at (c :: r) with
  | Some (opt, key, dflt, rest) =>
      match (match alookup key e with Some v => Some v | None => dflt end) with
      | Some v => seq_text v (expand_aux e (length (c :: r) - length rest - 1) r)
      | None => if opt then Ok None else Err Undefined
      end
  | None => seq_text [c] (expand_aux e 0 r)
  end.
Proof. reflexivity. Qed.

Lemma seq_text_app a b r : seq_text a (seq_text b r) = seq_text (a ++ b) r.
Proof. destruct r as [[t|]|]; cbn [seq_text]; now rewrite ?app_assoc. Qed.

Lemma expand_plain_prefix e a y :
  mem_ascii c_dollar a = false -> expand_var e (a ++ y) = seq_text a (expand_var e y).
Proof.
  intro Ha. unfold expand_var. induction a as [|c r IH]; cbn [app].
  - now destruct (expand_aux e 0 y) as [[t|]|].
  - apply mem_ascii_cons_false in Ha. destruct Ha as [Hc Hr].
    rewrite expand_aux_0, match_var_at_nodollar by congruence. rewrite (IH Hr). apply seq_text_app.
Qed.

Lemma expand_nodollar e v : mem_ascii c_dollar v = false -> expand_var e v = Ok (Some v).
Proof.
  intro H. pose proof (expand_plain_prefix e v [] H) as E. cbn in E. now rewrite !app_nil_r in E.
Qed.

Lemma match_interp_at_nodollar c r : c <> c_dollar -> match_interp_at (c :: r) = None.
Proof.
  intro N. unfold match_interp_at. destruct r; [reflexivity|].
  apply ascii_eqb_neq in N. now rewrite N.
Qed.

Lemma interp_aux_0 e c r :
  interp_aux e 0 (c :: r) =
  match match_interp_at (c :: r) with
  | Some (key, rest) =>
      match alookup key e with
      | Some v => v ++ interp_aux e (length (c :: r) - length rest - 1) r
      | None => c :: interp_aux e 0 r
      end
  | None => c :: interp_aux e 0 r
  end.
Proof. reflexivity. Qed.

Lemma interp_plain_prefix e a y : mem_ascii c_dollar a = false -> interp e (a ++ y) = a ++ interp e y.
Proof.
  intro Ha. unfold interp. induction a as [|c r IH]; [reflexivity|].
  apply mem_ascii_cons_false in Ha. destruct Ha as [Hc Hr].
  cbn [app]. rewrite interp_aux_0, match_interp_at_nodollar by congruence. f_equal. exact (IH Hr).
Qed.

Lemma interp_nodollar e x : mem_ascii c_dollar x = false -> interp e x = x.
Proof.
  intro H. pose proof (interp_plain_prefix e x [] H) as E. cbn in E. now rewrite !app_nil_r in E.
Qed.

Lemma strip_lead_head d c r : c <> d -> strip_lead d (c :: r) = (false, c :: r).
Proof. intro N. apply ascii_eqb_neq in N. cbn [strip_lead]. now rewrite N. Qed.

Lemma strip_lead_none d v : mem_ascii d v = false -> strip_lead d v = (false, v).
Proof.
  destruct v as [|c r]; [reflexivity|]. intro H. apply mem_ascii_cons_false in H.
  apply strip_lead_head. destruct H. congruence.
Qed.

Lemma strip_trail_none d v : mem_ascii d v = false -> strip_trail d v = (false, v).
Proof.
  intro H. unfold strip_trail. destruct (rev v) as [|c r] eqn:E.
  - assert (v = []) by (rewrite <- (rev_involutive v), E; reflexivity). now subst.
  - assert (Hin : In c v) by (apply in_rev; rewrite E; now left).
    assert (N : ascii_eqb c d = false).
    { apply ascii_eqb_neq. intros ->. apply mem_ascii_In in Hin. congruence. }
    now rewrite N.
Qed.

Lemma strip_lead_some d v : strip_lead d (d :: v) = (true, v).
Proof. simpl. now rewrite ascii_eqb_refl. Qed.

Lemma strip_trail_some d v : strip_trail d (v ++ [d]) = (true, v).
Proof. unfold strip_trail. rewrite rev_app_distr. simpl. now rewrite ascii_eqb_refl, rev_involutive. Qed.

Lemma elems_good_parts d x :
  mem_ascii c_dollar x = false -> Forall (good d) (elems d x).
Proof.
  intro H. unfold elems. apply Forall_forall. intros p Hp. apply filter_In in Hp.
  destruct Hp as [Hin Hne]. repeat split; [assumption| |].
  - pose proof (split_on_parts_nodelim d x) as F. rewrite Forall_forall in F. now apply F.
  - pose proof (split_on_parts_sub c_dollar d x H) as F. rewrite Forall_forall in F. now apply F.
Qed.

Lemma elems_join d l : Forall (good d) l -> elems d (join d l) = l.
Proof.
  intro H. unfold elems. destruct l as [|x l]; [reflexivity|].
  rewrite split_on_join.
  - apply forallb_filter_id, forallb_forall. intros p Hp. rewrite Forall_forall in H. now destruct (H p Hp).
  - discriminate.
  - eapply Forall_impl; [|exact H]. intros p [_ [Hp _]]. exact Hp.
Qed.

Lemma join_nodollar d l :
  c_dollar <> d -> Forall (good d) l -> mem_ascii c_dollar (join d l) = false.
Proof.
  intros N H. apply mem_ascii_join; [assumption|].
  eapply Forall_impl; [|exact H]. intros p [_ [_ Hp]]. exact Hp.
Qed.

Lemma good_uniq d l : Forall (good d) l -> Forall (good d) (uniq l).
Proof.
  rewrite !Forall_forall. intros H p Hp. apply H. now apply uniq_In.
Qed.

Lemma good_step d ap fwd l v : good d v -> Forall (good d) l -> Forall (good d) (path_step ap fwd l v).
Proof.
  intros Hv Hl. assert (Hr : Forall (good d) (remove_str v l)) by now apply Forall_filter.
  unfold path_step. destruct fwd; [destruct ap|].
  - apply Forall_app. split; [assumption|constructor; [assumption|constructor]].
  - constructor; assumption.
  - assumption.
Qed.

Lemma remove_str_head v l : remove_str v (v :: l) = remove_str v l.
Proof. unfold remove_str. cbn [filter]. now rewrite str_eqb_refl. Qed.

Lemma uniq_path_step ap fwd l v : uniq (path_step ap fwd l v) = path_step ap fwd (uniq l) v.
Proof.
  unfold path_step. destruct fwd; [destruct ap|].
  - rewrite uniq_app_fresh, uniq_remove_str; [reflexivity|]. rewrite remove_str_In. tauto.
  - cbn [uniq]. now rewrite uniq_remove_str, remove_str_idem.
  - apply uniq_remove_str.
Qed.

Lemma remove_str_path_step ap fwd l v : remove_str v (path_step ap fwd l v) = remove_str v l.
Proof.
  unfold path_step. destruct fwd; [destruct ap|].
  - rewrite remove_str_app, remove_str_head. cbn. rewrite app_nil_r. apply remove_str_idem.
  - rewrite remove_str_head. apply remove_str_idem.
  - apply remove_str_idem.
Qed.

Lemma path_step_keeps ap x y l : x <> y -> In x (remove_str y (path_step ap true l x)).
Proof.
  intro N. rewrite remove_str_In. split; [|exact N].
  unfold path_step. destruct ap; [apply in_or_app; right|]; now left.
Qed.

Lemma path_step_forward_In ap y x np : In y (path_step ap true np x) <-> In y np \/ y = x.
Proof.
  unfold path_step. destruct ap; [rewrite in_app_iff|]; cbn [In]; rewrite remove_str_In; split.
  - intros [[Hy _]|[E|[]]]; [now left|right; now symmetry].
  - intros [Hy|E]; [|right; left; now symmetry].
    destruct (str_eq_dec y x) as [E|N]; [right; left; now symmetry|left; now split].
  - intros [E|[Hy _]]; [right; now symmetry|now left].
  - intros [Hy|E]; [|left; now symmetry].
    destruct (str_eq_dec y x) as [E|N]; [left; now symmetry|right; now split].
Qed.

(* the element list after a step on the variable whose text was old *)
Definition result_list (ap fwd : bool) (d : ascii) (v old : str) : list str :=
  uniq (path_step ap fwd (elems d old) v).

Lemma result_list_step ap fwd d v old :
  result_list ap fwd d v old = path_step ap fwd (uniq (elems d old)) v.
Proof. apply uniq_path_step. Qed.

Lemma result_reverse ap d v old :
  result_list ap false d v old = remove_str v (uniq (elems d old)).
Proof. apply result_list_step. Qed.

Lemma result_fwd_In ap d v old x :
  In x (result_list ap true d v old) <-> x = v \/ In x (elems d old).
Proof. unfold result_list. rewrite uniq_In, path_step_forward_In. apply or_comm. Qed.

Lemma result_rev_In ap d v old x :
  In x (result_list ap false d v old) <-> In x (elems d old) /\ x <> v.
Proof. rewrite result_reverse, remove_str_In, uniq_In. reflexivity. Qed.

Lemma result_others ap fwd d v old :
  remove_str v (result_list ap fwd d v old) = remove_str v (uniq (elems d old)).
Proof. rewrite result_list_step. apply remove_str_path_step. Qed.

Lemma result_list_uniq ap fwd d v old : uniq (result_list ap fwd d v old) = result_list ap fwd d v old.
Proof. apply uniq_idem. Qed.

Lemma result_list_good ap fwd d v old :
  wf_elem d v = true -> mem_ascii c_dollar old = false -> Forall (good d) (result_list ap fwd d v old).
Proof.
  intros Hv Ho. unfold result_list. apply good_uniq, good_step.
  - now apply wf_elem_good.
  - now apply elems_good_parts.
Qed.

(* the pinned code (before the fix of D8): a present element stayed where it was *)
Definition result_list_pinned (ap fwd : bool) (d : ascii) (v old : str) : list str :=
  uniq (path_step_pinned ap fwd (elems d old) v).
Lemma result_append_present_pinned d v old :
  In v (elems d old) -> result_list_pinned true true d v old = uniq (elems d old).
Proof. intro H. unfold result_list_pinned, path_step_pinned. now apply uniq_app_present. Qed.

(* the last two lines of new_path_text *)
Definition with_flags (d : ascii) (pre app : bool) (t : str) : str :=
  let s1 := if pre && negb (starts_with [d] t) then d :: t else t in
  if app && negb (ends_with [d] s1) then s1 ++ [d] else s1.

Lemma ends_with_snoc d x : ends_with [d] (x ++ [d]) = true.
Proof. unfold ends_with. rewrite rev_app_distr. simpl. now rewrite ascii_eqb_refl. Qed.

Lemma elems_lead d x : elems d (d :: x) = elems d x.
Proof. unfold elems. simpl. now rewrite ascii_eqb_refl. Qed.

Lemma split_on_snoc d x : split_on d (x ++ [d]) = split_on d x ++ [[]].
Proof.
  induction x as [|c r IH]; simpl.
  - now rewrite ascii_eqb_refl.
  - destruct (ascii_eqb c d); rewrite IH; [reflexivity|].
    destruct (split_on d r) as [|h t] eqn:E; [now apply split_on_nonnil in E|reflexivity].
Qed.

Lemma elems_trail d x : elems d (x ++ [d]) = elems d x.
Proof. unfold elems. rewrite split_on_snoc, filter_app. simpl. apply app_nil_r. Qed.

Lemma with_flags_spec d pre app t :
  elems d (with_flags d pre app t) = elems d t /\
  (pre = true -> starts_with [d] (with_flags d pre app t) = true) /\
  (app = true -> ends_with [d] (with_flags d pre app t) = true).
Proof.
  unfold with_flags. set (s1 := if pre && negb (starts_with [d] t) then d :: t else t).
  assert (E1 : elems d s1 = elems d t /\ (pre = true -> starts_with [d] s1 = true)).
  { subst s1. destruct pre; cbn [andb]; [|split; [reflexivity|discriminate]].
    destruct (starts_with [d] t) eqn:Es; cbn [negb].
    - split; [reflexivity|intros _; exact Es].
    - split; [apply elems_lead|intros _; apply (starts_with_refl [d])]. }
  destruct E1 as [E1 P1]. destruct app; cbn [andb].
  - destruct (ends_with [d] s1) eqn:Ee; cbn [negb].
    + repeat split; auto.
    + rewrite elems_trail. repeat split; auto.
      * intro Hp. specialize (P1 Hp). destruct s1 as [|c r]; [discriminate|]. exact P1.
      * intros _. apply ends_with_snoc.
  - repeat split; auto. discriminate.
Qed.

Lemma with_flags_mem c d pre app t : c <> d -> mem_ascii c (with_flags d pre app t) = mem_ascii c t.
Proof.
  intro N. apply ascii_eqb_neq in N. unfold with_flags.
  set (s1 := if pre && negb (starts_with [d] t) then d :: t else t).
  assert (E1 : mem_ascii c s1 = mem_ascii c t).
  { subst s1. destruct (pre && negb (starts_with [d] t)); [|reflexivity]. cbn [mem_ascii]. now rewrite N. }
  destruct (app && negb (ends_with [d] s1)); [|exact E1].
  rewrite mem_ascii_app, E1. cbn [mem_ascii]. rewrite N. apply orb_false_r.
Qed.

Lemma new_path_text_single ap fwd d pre app v old :
  mem_ascii d v = false ->
  new_path_text ap fwd d pre app v (elems d old) = with_flags d pre app (join d (result_list ap fwd d v old)).
Proof. intro H. unfold new_path_text. now rewrite (split_on_nodelim d v H). Qed.

Lemma result_text_nodollar ap fwd d pre app v old :
  wf_delim d = true -> wf_elem d v = true -> mem_ascii c_dollar old = false ->
  mem_ascii c_dollar (with_flags d pre app (join d (result_list ap fwd d v old))) = false.
Proof.
  intros Hd Hv Ho. pose proof (wf_delim_not_dollar d Hd) as N. rewrite (with_flags_mem _ _ _ _ _ N).
  apply join_nodollar; [exact N|]. now apply result_list_good.
Qed.

Lemma env_prepend_wf ap fwd var v d e (lead trail : bool) :
  wf_delim d = true -> wf_elem d v = true -> no_dollar (oldv var e) = true ->
  env_prepend ap fwd var ((if lead then [d] else []) ++ v ++ (if trail then [d] else [])) d e =
    Ok (Some (aset var (with_flags d lead trail (join d (result_list ap fwd d v (oldv var e)))) e)).
Proof.
  intros Hd Hv Ho. pose proof (wf_elem_good d v Hv) as [Hne [Hnd Hn]]. apply no_dollar_spec in Ho.
  unfold env_prepend. fold (oldv var e).
  assert (S1 : strip_lead d ((if lead then [d] else []) ++ v ++ (if trail then [d] else []))
               = (lead, v ++ (if trail then [d] else []))).
  { destruct lead; [apply strip_lead_some|]. destruct v as [|c r]; [discriminate|].
    apply mem_ascii_cons_false in Hnd. apply strip_lead_head. destruct Hnd. congruence. }
  assert (S2 : strip_trail d (v ++ (if trail then [d] else [])) = (trail, v)).
  { destruct trail; [apply strip_trail_some|]. rewrite app_nil_r. now apply strip_trail_none. }
  assert (Hx : (if fwd then expand_var e v
                else match expand_var e v with Ok (Some x) => Ok (Some x) | _ => Ok (Some v) end)
               = Ok (Some v)).
  { rewrite (expand_nodollar e v Hn). now destruct fwd. }
  rewrite S1, S2, Hx. cbn [bind]. rewrite (new_path_text_single ap fwd d lead trail v (oldv var e) Hnd).
  rewrite interp_nodollar; [reflexivity|]. now apply result_text_nodollar.
Qed.

Lemma env_prepend_flagged ap fwd var v d e (lead trail : bool) :
  wf_delim d = true -> wf_elem d v = true -> no_dollar (oldv var e) = true ->
  let value := (if lead then [d] else []) ++ v ++ (if trail then [d] else []) in
  exists e', env_prepend ap fwd var value d e = Ok (Some e') /\
    elems d (oldv var e') = result_list ap fwd d v (oldv var e) /\
    (lead = true -> starts_with [d] (oldv var e') = true) /\
    (trail = true -> ends_with [d] (oldv var e') = true) /\
    no_dollar (oldv var e') = true /\
    (forall k, k <> var -> alookup k e' = alookup k e).
Proof.
  intros Hd Hv Ho value. eexists. split; [now apply env_prepend_wf|]. rewrite oldv_aset_same.
  apply no_dollar_spec in Ho.
  destruct (with_flags_spec d lead trail (join d (result_list ap fwd d v (oldv var e)))) as [F1 [F2 F3]].
  rewrite F1, elems_join by now apply result_list_good.
  repeat split; auto.
  - apply no_dollar_spec. now apply result_text_nodollar.
  - intros k Hk. now apply alookup_aset_other.
Qed.

Lemma env_prepend_elems ap fwd var v d e :
  wf_delim d = true -> wf_elem d v = true -> no_dollar (oldv var e) = true ->
  exists e', env_prepend ap fwd var v d e = Ok (Some e') /\
    elems d (oldv var e') = result_list ap fwd d v (oldv var e) /\
    no_dollar (oldv var e') = true /\
    (forall k, k <> var -> alookup k e' = alookup k e).
Proof.
  intros Hd Hv Ho.
  destruct (env_prepend_flagged ap fwd var v d e false false Hd Hv Ho) as [e' [H1 [H2 [_ [_ H3]]]]].
  cbn [app] in H1. rewrite app_nil_r in H1. exists e'. auto.
Qed.

Lemma env_prepend_step ap fwd var v d e :
  wf_delim d = true -> wf_elem d v = true -> no_dollar (oldv var e) = true ->
  exists e', env_prepend ap fwd var v d e = Ok (Some e') /\
    elems d (oldv var e') = path_step ap fwd (uniq (elems d (oldv var e))) v /\
    (forall k, k <> var -> alookup k e' = alookup k e).
Proof.
  intros Hd Hv Ho. destruct (env_prepend_elems ap fwd var v d e Hd Hv Ho) as [e' [H1 [H2 [_ H4]]]].
  exists e'. rewrite H2, result_list_step. auto.
Qed.

Lemma env_set_expanded k v v' e :
  expand_var e v = Ok (Some v') -> v' <> [] -> env_set true k v e = Ok (Some (aset k (interp e v') e)).
Proof.
  intros Hf Hv. unfold env_set. rewrite Hf. simpl. destruct v'; [congruence|reflexivity].
Qed.

Lemma env_set_reverse k v e : env_set false k v e = Ok (Some (aremove k e)).
Proof. reflexivity. Qed.

Lemma span_stop p x c y : (forall a, In a x -> p a = true) -> p c = false ->
  span p (x ++ c :: y) = (x, c :: y).
Proof.
  intros Hx Hc. induction x as [|a x IH]; simpl.
  - now rewrite Hc.
  - rewrite (Hx a (or_introl eq_refl)). rewrite IH; [reflexivity|]. intros b Hb. apply Hx. now right.
Qed.

(* what is left to drop of a reference c :: x once it was matched in front of y *)
Lemma matched_length {A} (c : A) x y : length (c :: x ++ y) - length y - 1 = length x.
Proof. cbn [length]. rewrite app_length. lia. Qed.

Lemma interp_aux_skip e x y : interp_aux e (length x) (x ++ y) = interp_aux e 0 y.
Proof. induction x as [|c x IH]; [reflexivity|exact IH]. Qed.

Lemma match_interp_at_ref key b :
  mem_ascii c_rbrace key = false ->
  match_interp_at (c_dollar :: c_lbrace :: key ++ c_rbrace :: b) = Some (key, b).
Proof.
  intro Hk. cbn -[span]. rewrite (span_stop _ key c_rbrace b); [reflexivity| |].
  - intros x Hx. rewrite negb_true_iff. apply ascii_eqb_neq. intros ->.
    apply mem_ascii_In in Hx. congruence.
  - now rewrite ascii_eqb_refl.
Qed.

Lemma interp_reference e a key val b :
  mem_ascii c_dollar a = false -> mem_ascii c_rbrace key = false -> alookup key e = Some val ->
  interp e (a ++ c_dollar :: c_lbrace :: key ++ c_rbrace :: b) = a ++ val ++ interp e b.
Proof.
  intros Ha Hk Hl. rewrite (interp_plain_prefix e a _ Ha). f_equal. unfold interp.
  rewrite interp_aux_0, (match_interp_at_ref key b Hk), Hl. f_equal.
  replace (c_lbrace :: key ++ c_rbrace :: b) with ((c_lbrace :: key ++ [c_rbrace]) ++ b)
    by (cbn [app]; now rewrite <- app_assoc).
  rewrite matched_length. apply interp_aux_skip.
Qed.

Lemma expand_aux_skip e x y : expand_aux e (length x) (x ++ y) = expand_aux e 0 y.
Proof. induction x as [|c x IH]; [reflexivity|exact IH]. Qed.

Definition key_ok (key : str) : Prop := forall x, In x key -> x <> c_minus /\ x <> c_rbrace.

Lemma match_var_at_ref opt key b :
  key_ok key ->
  match_var_at (c_dollar :: (if opt : bool then [c_quest] else []) ++ c_lbrace :: key ++ c_rbrace :: b)
  = Some (opt, key, None, b).
Proof.
  intro Hk.
  assert (Hs : span (fun c => negb (ascii_eqb c c_minus || ascii_eqb c c_rbrace)) (key ++ c_rbrace :: b)
               = (key, c_rbrace :: b)).
  { apply span_stop.
    - intros x Hx. destruct (Hk x Hx) as [N1 N2]. rewrite negb_true_iff, orb_false_iff.
      split; apply ascii_eqb_neq; assumption.
    - rewrite ascii_eqb_refl. now rewrite orb_true_r. }
  destruct opt; cbn -[span]; now rewrite Hs.
Qed.

Lemma expand_reference e a opt key val b :
  mem_ascii c_dollar a = false -> key_ok key -> alookup key e = Some val ->
  expand_var e (a ++ c_dollar :: (if opt : bool then [c_quest] else []) ++ c_lbrace :: key ++ c_rbrace :: b)
  = seq_text (a ++ val) (expand_var e b).
Proof.
  intros Ha Hk Hl. rewrite (expand_plain_prefix e a _ Ha), <- seq_text_app. f_equal. unfold expand_var.
  rewrite expand_aux_0, (match_var_at_ref opt key b Hk), Hl. f_equal.
  set (m := (if opt : bool then [c_quest] else []) ++ c_lbrace :: key ++ [c_rbrace]).
  replace ((if opt : bool then [c_quest] else []) ++ c_lbrace :: key ++ c_rbrace :: b) with (m ++ b)
    by (subst m; rewrite <- app_assoc; cbn [app]; now rewrite <- app_assoc).
  rewrite matched_length. apply expand_aux_skip.
Qed.

Lemma expand_single_ref e a opt key val b :
  mem_ascii c_dollar a = false -> mem_ascii c_dollar b = false -> key_ok key -> alookup key e = Some val ->
  expand_var e (a ++ c_dollar :: (if opt : bool then [c_quest] else []) ++ c_lbrace :: key ++ c_rbrace :: b)
  = Ok (Some (a ++ val ++ b)).
Proof.
  intros Ha Hb Hk Hl. rewrite (expand_reference e a opt key val b Ha Hk Hl), (expand_nodollar e b Hb).
  cbn [seq_text]. now rewrite <- app_assoc.
Qed.

Lemma expand_guarded_undefined e a key b :
  mem_ascii c_dollar a = false -> key_ok key -> alookup key e = None ->
  expand_var e (a ++ c_dollar :: c_quest :: c_lbrace :: key ++ c_rbrace :: b) = Ok None.
Proof.
  intros Ha Hk Hl. rewrite (expand_plain_prefix e a _ Ha). unfold expand_var.
  pose proof (match_var_at_ref true key b Hk) as M. cbn [app] in M.
  rewrite expand_aux_0, M, Hl. reflexivity.
Qed.

Lemma exec_pacts_inv (P : env -> Prop) fwd l :
  (forall a e e', In a l -> P e -> exec_pact fwd a e = Ok e' -> P e') ->
  forall e e', P e -> exec_pacts fwd l e = Ok e' -> P e'.
Proof.
  induction l as [|a l IH]; intros Hstep e e' HP H; simpl in H.
  - now injection H as <-.
  - destruct (exec_pact fwd a e) as [e1|] eqn:E1; simpl in H; [|discriminate].
    apply (IH (fun a0 x x' Hin => Hstep a0 x x' (or_intror Hin)) e1 e'); [|assumption].
    apply (Hstep a e e1); [now left|assumption|assumption].
Qed.
