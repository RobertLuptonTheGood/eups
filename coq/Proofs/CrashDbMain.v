(* C08, second layer: what a reader sees after a crash inside a command.  Store side
   (Proofs/CrashDb.v) and database side (Proofs/CrashDbAct.v) put together. *)
From Eupsv Require Import Base.Base Base.BaseLemmas Model.Db Model.Crash Model.CrashDb
  Proofs.DbLib Proofs.Db Proofs.DbSim Proofs.DbInv Proofs.DbCor Proofs.Crash
  Proofs.CrashDbLib Proofs.CrashDb Proofs.CrashDbAct.

(* the hypotheses shared by every theorem: a store holding database d, a command with path-safe
   names that the model does not refuse, its file effects, the store after k system calls *)
Record crash_point (f : fs) (d : db) (o : op) (es : list fseffect) (k : nat) (d' : db) : Prop := mkCP {
  cp_rep : represents f d;
  cp_ok : op_ok o = true;
  cp_eff : effects d o = Ok es;
  cp_read : read_db (map fst d) (crash_fs f es k) = Ok d'
}.

Lemma read_db_ok path f d' : read_db path f = Ok d' -> d' = read_raw path f.
Proof. unfold read_db. destruct (forallb _ _); [|discriminate]. intros [= <-]. reflexivity. Qed.

Lemma Forall_firstn {A} (P : A -> Prop) i l : Forall P l -> Forall P (firstn i l).
Proof. intro H. rewrite <- (firstn_skipn i l) in H. apply Forall_app in H. exact (proj1 H). Qed.

Lemma crash_point_reads f d o es k :
  represents f d -> op_ok o = true -> effects d o = Ok es ->
  exists j d', j <= length es /\ read_db (map fst d) (crash_fs f es k) = Ok d' /\
               db_eq d' (apply (firstn j es) d).
Proof.
  intros R Hok He.
  pose proof (effects_ok false d o es (represents_names_ok _ _ R) Hok He) as Hes.
  destruct (crash_reads_effect_prefix f d es k R Hes) as [j [Hj [H1 H2]]].
  exists j, (read_raw (map fst d) (crash_fs f es k)). auto.
Qed.

Lemma crash_point_raw f d o es k :
  represents f d -> op_ok o = true -> effects d o = Ok es ->
  crash_point f d o es k (read_raw (map fst d) (crash_fs f es k)).
Proof.
  intros R Hok He. destruct (crash_point_reads f d o es k R Hok He) as [j [d' [_ [Hr _]]]].
  rewrite <- (read_db_ok _ _ _ Hr). constructor; assumption.
Qed.

Lemma crash_point_view f d o es k d' : crash_point f d o es k d' ->
  exists acts j, decide false (view d) o = Ok acts /\ es = compile_all d acts /\
    aeq (view d') (view (apply (firstn j (compile_all d acts)) d)).
Proof.
  intros [R Hok He Hr].
  destruct (crash_point_reads f d o es k R Hok He) as [j [d2 [_ [H1 H2]]]].
  rewrite Hr in H1. injection H1 as <-.
  unfold effects, effects_gen in He. destruct (decide false (view d) o) as [acts|e] eqn:E; [|discriminate].
  injection He as <-. exists acts, j. split; [reflexivity|]. split; [reflexivity|]. apply db_eq_view. exact H2.
Qed.

Lemma crash_between f d o es k d' : crash_point f d o es k d' ->
  exists acts i, decide false (view d) o = Ok acts /\ es = compile_all d acts /\ i <= length acts /\
    same_or (view d') (aapply_all (firstn i acts) (view d)) (aapply_all (firstn (S i) acts) (view d)).
Proof.
  intro C. destruct (crash_point_view _ _ _ _ _ _ C) as [acts [j [Hd [He Hv]]]].
  destruct (effect_prefix_between acts d j) as [i [Hi Sm]].
  exists acts, i. split; [exact Hd|]. split; [exact He|]. split; [exact Hi|]. apply (same_or_aeq_l _ _ _ _ Hv Sm).
Qed.

Lemma crash_prefix_values f d o es k d' : crash_point f d o es k d' ->
  exists acts, decide false (view d) o = Ok acts /\ es = compile_all d acts /\
    (forall s n v fl, exists j, a_decl (view d') s n v fl = a_decl (aapply_all (firstn j acts) (view d)) s n v fl) /\
    (forall s n t fl, exists j, a_tag (view d') s n t fl = a_tag (aapply_all (firstn j acts) (view d)) s n t fl).
Proof.
  intro C. destruct (crash_between _ _ _ _ _ _ C) as [acts [i [Hd [He [_ [S1 S2]]]]]].
  exists acts. split; [exact Hd|]. split; [exact He|]. split; intros s n x fl.
  - destruct (S1 s n x fl) as [E|E]; [exists i|exists (S i)]; exact E.
  - destruct (S2 s n x fl) as [E|E]; [exists i|exists (S i)]; exact E.
Qed.

(* the repaired tag move writes the target stack's key once or twice, with the version, and removes the
   tag in other stacks: no key gets two different values *)
Lemma declare_tame a o n v dir table t acts : decide false a (Declare o n v dir table t) = Ok acts ->
  forall s n' t' f', exists u, Forall (tame u s n' t' f') acts.
Proof.
  cbn [decide]. unfold declare_acts. destruct (declare_plan a o n v dir table t) as [pl|e]; [|discriminate].
  destruct (o_noaction o); [intros [= <-]; exists None; constructor|].
  set (f := o_flavor o). rewrite declare_finish_new_unfold. destruct (dp_tag pl) as [x|] eqn:Ex.
  2:{ intros [= <-]. intros. exists None. unfold declare_acts1. rewrite Ex.
      destruct (dp_write pl); repeat constructor. }
  cbv zeta. set (acts1 := declare_acts1 f n v pl). set (a1 := aapply_all acts1 a).
  destruct (find_exact a1 _ n v f) as [[s' r]|] eqn:Ef; [|discriminate].
  apply find_exact_some in Ef. destruct Ef as [Hin _].
  assert (s' = dp_target pl) by (destruct Hin as [<-|[<-|[]]]; reflexivity). subst s'. clear Hin.
  set (tg := dp_target pl) in *. set (rs := other_occurrences _ tg n x f).
  intros [= <-]. intros s n' t' f'.
  set (u := if dkey_eqb (s, n', t', f') (tg, n, x, f) then Some v else None). exists u.
  assert (Hset : tame u s n' t' f' (ASetTag tg n x f v)).
  { cbn [tame]. intros [= <- <- <- <-]. unfold u. rewrite dkey_eqb_refl. reflexivity. }
  apply Forall_app. split.
  - unfold acts1, declare_acts1. destruct (dp_write pl); [|constructor]. rewrite Ex.
    constructor; [exact I|]. constructor; [exact Hset|constructor].
  - constructor; [exact Hset|]. apply Forall_forall. intros y Hy. apply in_map_iff in Hy. destruct Hy as [r0 [<- Hr0]].
    cbn [tame]. intros [= <- <- <- <-]. unfold u. destruct (dkey_eqb _ _) eqn:E; [|reflexivity].
    (* the other occurrences exclude the target stack *)
    apply dkey_eqb_eq in E. injection E as ->. unfold rs, other_occurrences in Hr0. apply filter_In in Hr0.
    rewrite str_eqb_refl in Hr0. destruct Hr0 as [_ Hr0]. discriminate.
Qed.

Lemma declare_tame_d p a o n v dir table t acts : decide p a (Declare o n v dir table t) = Ok acts ->
  forall s n' v' f', exists u, Forall (tame_d u s n' v' f') acts.
Proof.
  cbn [decide]. unfold declare_acts. destruct (declare_plan a o n v dir table t) as [pl|e]; [|discriminate].
  destruct (o_noaction o); [intros [= <-]; exists None; constructor|].
  intros H s n' v' f'. apply declare_finish_shape in H. exists (Some (dp_dir pl, dp_table pl)).
  assert (H1 : Forall (tame_d (Some (dp_dir pl, dp_table pl)) s n' v' f') (declare_acts1 (o_flavor o) n v pl)).
  { unfold declare_acts1. destruct (dp_write pl); [|constructor]. constructor; [intros _; reflexivity|].
    destruct (dp_tag pl); repeat constructor. }
  destruct (dp_tag pl) as [x|]; [|subst acts; exact H1]. destruct H as [rs [rs' [-> _]]].
  (* what follows the first part are actions on tags *)
  apply Forall_app. split; [exact H1|]. apply Forall_forall. intros y Hy.
  apply in_app_or in Hy. destruct Hy as [Hy|[<-|Hy]]; [|exact I|];
    apply in_map_iff in Hy; destruct Hy as [r [<- _]]; exact I.
Qed.

Lemma firstn_single {A} j (x : A) : firstn j [x] = [] \/ firstn j [x] = [x].
Proof. destruct j; [left; reflexivity|right]. cbn [firstn]. rewrite firstn_nil. reflexivity. Qed.

Lemma decide_prefix_old_or_new a o acts j : decide false a o = Ok acts ->
  same_or (aapply_all (firstn j acts) a) a (aapply_all acts a).
Proof.
  intro Hd. destruct (is_declare o) eqn:Ho.
  - destruct o as [o n0 v dir table t0| | | | | ]; try discriminate.
    apply tame_old_or_final; [exact (declare_tame _ _ _ _ _ _ _ _ Hd)|exact (declare_tame_d _ _ _ _ _ _ _ _ _ Hd)].
  - destruct (decide_shape_not_declare _ _ _ _ Ho Hd) as [[o' [t [n [v [s [_ [_ ->]]]]]]]|R].
    + destruct (firstn_single j (ASetTag s n t (o_flavor o') v)) as [-> | ->]; split; intros; auto.
    + apply removals_old_or_final. exact R.
Qed.

Lemma crash_old_or_new f d o es k d' : crash_point f d o es k d' ->
  same_or (view d') (view d) (view (apply es d)).
Proof.
  intro C. destruct (crash_prefix_values _ _ _ _ _ _ C) as [acts [Hd [-> [Kd Kt]]]].
  destruct (compile_all_refines acts d) as [_ [Hc1 Hc2]]. split; intros s n x fl.
  - destruct (Kd s n x fl) as [j ->]. rewrite Hc1. apply (decide_prefix_old_or_new _ _ _ j Hd).
  - destruct (Kt s n x fl) as [j ->]. rewrite Hc2. apply (decide_prefix_old_or_new _ _ _ j Hd).
Qed.
