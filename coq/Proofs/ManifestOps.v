(* C18: sessions of operations on one TaggedProductList / Manifest object; the flavor override. *)
From Eupsv Require Import Base.Base Base.BaseLemmas Model.Manifest Model.ManifestSpec Model.ManifestOps
  Proofs.ManifestLib Proofs.ManifestText Proofs.ManifestTag.

Lemma tl_run_writes ops : forall s,
  forallb tl_is_write ops = true -> exists s', tl_run s ops = Ok s' /\ ts_list s' = ts_list s.
Proof.
  induction ops as [|o ops IH]; intros s Hw; cbn [tl_run]; [eauto|].
  cbn [forallb] in Hw. apply andb_true_iff in Hw. destruct Hw as [Ho Hw].
  destruct o as [| f fa na |]; try discriminate Ho. cbn [tl_step]. exact (IH _ Hw).
Qed.

Lemma tl_run_app a : forall s b,
  tl_run s (a ++ b) = match tl_run s a with Ok s' => tl_run s' b | Err e => Err e end.
Proof.
  induction a as [|o a IH]; intros s b; cbn [app tl_run]; [reflexivity|].
  destruct (tl_step s o); [apply IH|reflexivity].
Qed.

Lemma last_cons {A} (x : A) tr d : last (x :: tr) d = last tr x.
Proof.
  revert x d. induction tr as [|y tr IH]; intros x d; [reflexivity|].
  exact (eq_trans (IH y d) (eq_sym (IH y x))).
Qed.

Lemma tl_trace_run ops : forall s,
  match tl_run s ops with
  | Ok s' => snd (tl_trace s ops) = None /\ last (fst (tl_trace s ops)) s = s'
  | Err e => snd (tl_trace s ops) = Some e
  end.
Proof.
  induction ops as [|o ops IH]; intros s; cbn [tl_run tl_trace]; [now split|].
  destruct (tl_step s o) as [s1|e]; [|reflexivity].
  specialize (IH s1). destruct (tl_trace s1 ops) as [tr e] eqn:E. cbn [fst snd] in *.
  destruct (tl_run s1 ops) as [s'|e']; [|assumption].
  destruct IH as [H1 H2]. split; [assumption|].
  now rewrite last_cons.
Qed.

Lemma tl_line_override g p i : tl_line (Some g) p i = tl_entry_line (restamp g (p, i)).
Proof. destruct i as [[f v] ex]. reflexivity. Qed.

Lemma map_fst_restamp g es : map fst (map (restamp g) es) = map fst es.
Proof.
  induction es as [|[p [[f v] ex]] es IH]; cbn [map fst restamp]; [reflexivity|]. now rewrite IH.
Qed.

Lemma wf_restamp g es : wf_word g = true ->
  forallb wf_tlinfo es = true -> forallb wf_tlinfo (map (restamp g) es) = true.
Proof.
  intros Hg. induction es as [|[p [[f v] ex]] es IH]; cbn [map forallb restamp]; [reflexivity|].
  intros H. apply andb_true_iff in H. destruct H as [He Hes]. rewrite (IH Hes), andb_true_r.
  cbn [wf_tlinfo] in *. do 3 (apply andb_true_iff in He; destruct He as [He ?]).
  now rewrite He, Hg, H0, H.
Qed.

Lemma tl_read_write_override t g fl :
  nonl (tl_tag t) -> wf_entries (tl_entries t) -> wf_word g = true ->
  tl_read (tl_new (tl_tag t) (Some fl)) (tl_write (Some g) t)
  = Ok (mkTl (tl_tag t) fl
         (map (as_flavor fl) (filter (visible fl) (map (restamp g) (sorted_entries (tl_entries t)))))).
Proof.
  intros Ht Hwf Hg. destruct (wf_sorted_entries _ Hwf) as [H1 H2].
  unfold tl_write. rewrite tl_write_lines_entries.
  replace (map (fun e => tl_line (Some g) (fst e) (snd e)) (sorted_entries (tl_entries t)))
    with (map tl_entry_line (map (restamp g) (sorted_entries (tl_entries t)))).
  - apply tl_read_entries; [assumption | now apply wf_restamp | now rewrite map_fst_restamp].
  - rewrite map_map. apply map_ext. intros [p i]. symmetry. apply tl_line_override.
Qed.

Lemma visible_restamp_same g es :
  map (as_flavor g) (filter (visible g) (map (restamp g) es)) = map (restamp g) es.
Proof.
  induction es as [|[p [[f v] ex]] es IH]; cbn [map filter restamp]; [reflexivity|].
  cbn [visible]. rewrite str_eqb_refl. cbn [orb map as_flavor]. now rewrite IH.
Qed.

Lemma visible_restamp_other g fl es : g <> fl -> g <> s_generic ->
  filter (visible fl) (map (restamp g) es) = [].
Proof.
  intros H1 H2. induction es as [|[p [[f v] ex]] es IH]; cbn [map filter restamp]; [reflexivity|].
  cbn [visible]. destruct (str_eqb_spec g fl); [congruence|]. destruct (str_eqb_spec g s_generic); [congruence|].
  exact IH.
Qed.

Lemma m_run_writes efl who time ver ops : forall s,
  forallb m_is_write ops = true ->
  exists s', m_run efl who time ver s ops = Ok s' /\ ms_man s' = ms_man s.
Proof.
  induction ops as [|o ops IH]; intros s Hw; cbn [m_run]; [eauto|].
  cbn [forallb] in Hw. apply andb_true_iff in Hw. destruct Hw as [Ho Hw].
  destruct o as [| f noopt fa na | |]; try discriminate Ho. cbn [m_step]. exact (IH _ Hw).
Qed.

Lemma m_run_app efl who time ver a : forall s b,
  m_run efl who time ver s (a ++ b)
  = match m_run efl who time ver s a with Ok s' => m_run efl who time ver s' b | Err e => Err e end.
Proof.
  induction a as [|o a IH]; intros s b; cbn [app m_run]; [reflexivity|].
  destruct (m_step efl who time ver s o); [apply IH|reflexivity].
Qed.
