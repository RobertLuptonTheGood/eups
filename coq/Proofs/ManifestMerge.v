(* C18: Mapping.merge - row-wise union of two tables, one of them taking precedence. *)
From Eupsv Require Import Base.Base Base.BaseLemmas Model.Manifest Model.ManifestSpec
  Proofs.ManifestLib Proofs.ManifestMap Proofs.ManifestInv.

(* the union of two answers: the one that takes precedence first *)
Definition pick {A} (first second : option A) : option A :=
  match first with Some x => Some x | None => second end.

Definition union_get {A} (ow : bool) (mine theirs : option A) : option A :=
  if ow then pick theirs mine else pick mine theirs.

Lemma NoDup_cons_keys {V} k (x : V) o : NoDup (akeys ((k, x) :: o)) -> alookup k o = None /\ NoDup (akeys o).
Proof.
  unfold akeys. cbn [map fst]. intros H. inversion H; subst. split; [|assumption].
  apply alookup_not_In. exact H2.
Qed.

Lemma alookup_vm_merge (o : vmap) : forall rows ow k, NoDup (akeys o) ->
  alookup k (vm_merge rows o ow) = union_get ow (alookup k rows) (alookup k o).
Proof.
  unfold vm_merge. induction o as [|[k0 x0] o IH]; intros rows ow k Hnd; cbn [fold_left fst snd].
  - cbn [alookup]. unfold union_get, pick. destruct ow; [reflexivity|]. now destruct (alookup k rows).
  - destruct (NoDup_cons_keys _ _ _ Hnd) as [Hk0 Hnd']. rewrite IH by assumption.
    cbn [alookup]. unfold union_get, pick, amem.
    destruct ow; cbn [negb andb].
    + destruct (str_eqb_spec k k0) as [->|Hne].
      * now rewrite Hk0, alookup_aset_same.
      * now rewrite alookup_aset_other.
    + destruct (alookup k0 rows) as [y|] eqn:Ey.
      * destruct (str_eqb_spec k k0) as [->|Hne]; [now rewrite Ey|reflexivity].
      * destruct (str_eqb_spec k k0) as [->|Hne].
        -- now rewrite alookup_aset_same, Ey.
        -- now rewrite alookup_aset_other.
Qed.

(* an absent dictionary merges like an empty one, so with oget the two upper levels read alike *)
Lemma oget_pm_merge (o : pmap) : forall s ow p, NoDup (akeys o) ->
  oget p (pm_merge s o ow) = vm_merge (oget p s) (oget p o) ow.
Proof.
  unfold pm_merge. induction o as [|[p0 ovm0] o IH]; intros s ow p Hnd; cbn [fold_left fst snd]; [reflexivity|].
  destruct (NoDup_cons_keys _ _ _ Hnd) as [Hp0 Hnd']. rewrite IH, oget_cons by assumption.
  destruct (str_eqb_spec p p0) as [->|Hne].
  - replace (oget p0 o) with (@nil (str * mval)) by (unfold oget; now rewrite Hp0). now rewrite oget_aset_same.
  - now rewrite oget_aset_other.
Qed.

Lemma oget_fm_merge (o : fmap) : forall s ow f, NoDup (akeys o) ->
  oget f (fm_merge s o ow) = pm_merge (oget f s) (oget f o) ow.
Proof.
  unfold fm_merge. induction o as [|[f0 opm0] o IH]; intros s ow f Hnd; cbn [fold_left fst snd]; [reflexivity|].
  destruct (NoDup_cons_keys _ _ _ Hnd) as [Hf0 Hnd']. rewrite IH, oget_cons by assumption.
  destruct (str_eqb_spec f f0) as [->|Hne].
  - replace (oget f0 o) with (@nil (str * vmap)) by (unfold oget; now rewrite Hf0).
    destruct opm0; [reflexivity|]. now rewrite oget_aset_same.
  - destruct opm0; [reflexivity|]. now rewrite oget_aset_other.
Qed.

(* the law of merge: every lookup in the merged table is the union of the lookups *)
Lemma mget_fm_merge s o ow f p k : fm_nodup o ->
  mget (fm_merge s o ow) f p k = union_get ow (mget s f p k) (mget o f p k).
Proof.
  intros Ho. pose proof (oget_pm_nodup o f Ho) as Hpm.
  rewrite !mget_oget, oget_fm_merge, oget_pm_merge by apply Ho || apply Hpm.
  apply alookup_vm_merge. now apply oget_vm_nodup.
Qed.

Lemma vm_merge_nodup (o : vmap) : forall rows ow, NoDup (akeys rows) -> NoDup (akeys (vm_merge rows o ow)).
Proof.
  unfold vm_merge. induction o as [|[k0 x0] o IH]; intros rows ow H; cbn [fold_left fst snd]; [assumption|].
  apply IH. destruct (negb ow && amem k0 rows); [assumption|now apply NoDup_aset].
Qed.

Lemma pm_merge_nodup (o : pmap) : forall s ow, pm_nodup s -> pm_nodup (pm_merge s o ow).
Proof.
  unfold pm_merge. induction o as [|[p0 ovm0] o IH]; intros s ow H; cbn [fold_left fst snd]; [assumption|].
  apply IH. apply pm_nodup_aset; [assumption|]. apply vm_merge_nodup. now apply oget_vm_nodup.
Qed.

Lemma fm_merge_nodup (o : fmap) : forall s ow, fm_nodup s -> fm_nodup (fm_merge s o ow).
Proof.
  unfold fm_merge. induction o as [|[f0 opm0] o IH]; intros s ow H; cbn [fold_left fst snd]; [assumption|].
  apply IH. destruct opm0; [assumption|]. apply fm_nodup_aset; [assumption|].
  apply pm_merge_nodup. now apply oget_pm_nodup.
Qed.

Lemma merge_empty_r s ow : fm_merge s [] ow = s.
Proof. reflexivity. Qed.

Lemma merge_empty_l o ow : fm_nodup o -> fm_equiv (fm_merge [] o ow) o.
Proof.
  intros H. apply fm_equiv_of_mget. intros f p k. rewrite mget_fm_merge by assumption.
  unfold union_get, pick. change (mget [] f p k) with (@None mval).
  destruct ow; now destruct (mget o f p k).
Qed.

Lemma merge_idem s ow : fm_nodup s -> fm_equiv (fm_merge s s ow) s.
Proof.
  intros H. apply fm_equiv_of_mget. intros f p k. rewrite mget_fm_merge by assumption.
  unfold union_get, pick. destruct ow; now destruct (mget s f p k).
Qed.

Lemma merge_assoc a b c ow : fm_nodup a -> fm_nodup b -> fm_nodup c ->
  fm_equiv (fm_merge (fm_merge a b ow) c ow) (fm_merge a (fm_merge b c ow) ow).
Proof.
  intros Ha Hb Hc. apply fm_equiv_of_mget. intros f p k.
  rewrite !mget_fm_merge by auto using fm_merge_nodup.
  unfold union_get, pick. destruct ow; destruct (mget a f p k), (mget b f p k), (mget c f p k); reflexivity.
Qed.

Lemma merge_flip a b : fm_nodup a -> fm_nodup b ->
  fm_equiv (fm_merge a b false) (fm_merge b a true).
Proof.
  intros Ha Hb. apply fm_equiv_of_mget. intros f p k. rewrite !mget_fm_merge by assumption. reflexivity.
Qed.

Lemma merge_congr a a' b b' ow : fm_nodup b -> fm_nodup b' -> fm_equiv a a' -> fm_equiv b b' ->
  fm_equiv (fm_merge a b ow) (fm_merge a' b' ow).
Proof.
  intros Hb Hb' H1 H2. apply fm_equiv_of_mget. intros f p k. rewrite !mget_fm_merge by assumption.
  now rewrite (fm_equiv_mget _ _ H1), (fm_equiv_mget _ _ H2).
Qed.

Lemma merge_rows a b ow :
  fm_equiv (mp_map (m_merge (m_of_rows a) (m_of_rows b) ow))
           (mp_map (m_of_rows (if ow then a ++ b else b ++ a))).
Proof.
  apply fm_equiv_of_mget. intros f p k. cbn [m_merge mp_map].
  rewrite mget_fm_merge by apply m_of_rows_nodup. rewrite !mget_m_of_rows.
  unfold union_get, pick. destruct ow; now rewrite lastval_app.
Qed.

Lemma m_merge_nodup m o ow : fm_nodup (mp_map m) -> fm_nodup (mp_map (m_merge m o ow)).
Proof. intros H. cbn [m_merge mp_map]. now apply fm_merge_nodup. Qed.

Lemma remap_merged_says extra files fl ds :
  remap true (m_merge (m_of_rows extra) (m_of_rows files) false) fl ds = spec_remap (files ++ extra) fl ds.
Proof.
  rewrite <- remap_says. apply remap_equiv. exact (merge_rows extra files false).
Qed.
