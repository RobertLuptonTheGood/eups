(* The manifest of Distrib.createDependencies is a safe build order; the command-line listing. *)
From Coq Require Import List Sorted Permutation.
From Eupsv Require Import Base.Base Base.BaseLemmas Model.Graph Model.BuildOrder
     Proofs.GraphLib Proofs.GraphWalk Proofs.GraphListing Proofs.GraphOrder Proofs.GraphBuild Proofs.GraphTotal
     Proofs.BuildOrderLib.
Import ListNotations.

Lemma relookup_target w p z :
  wf_world w -> step w p z -> relookup w z = if nreal z then Some z else None.
Proof.
  intros Hwf [es [e [T [I ->]]]].
  destruct (node_table_inv w p es T) as [n [v [-> Tv]]].
  destruct (Hwf n v es e Tv I) as [H1 H2].
  unfold own_target, relookup. destruct (eres e) as [r|] eqn:Er; cbn [nver nname nreal fst snd].
  - rewrite (H1 r eq_refl). reflexivity.
  - destruct (evers e) as [v'|] eqn:Ev; [|reflexivity]. rewrite (H2 v' eq_refl eq_refl). reflexivity.
Qed.

Lemma relookup_listed w top z :
  wf_world w -> reach_plus w top z -> relookup w z = if nreal z then Some z else None.
Proof.
  intros Hwf R. destruct (reach_plus_last w top z R) as [k [_ S]]. eapply relookup_target; eauto.
Qed.

(* when every entry is found again exactly if it is declared, and then as itself (relookup_listed): the loop
   keeps the declared products, in order, each with the flag of its entry, and fails with ProductNotFound exactly
   on an entry that is neither declared nor optional *)
Lemma manifest_loop_spec w : forall l,
  (forall z, In z l -> relookup w (enode z) = if nreal (enode z) then Some (enode z) else None) ->
  match manifest_loop w l with
  | Ok m => manifest_nodes m = filter nreal (map enode l) /\
            (forall q o, In (q, o) m -> exists x, In x l /\ enode x = q /\ eoptional x = o) /\
            (forall x, In x l -> nreal (enode x) = false -> eoptional x = true)
  | Err e => e = NotFound /\ exists x, In x l /\ nreal (enode x) = false /\ eoptional x = false
  end.
Proof.
  unfold manifest_nodes. induction l as [|x l IH]; intros H; cbn [manifest_loop map filter].
  - split; [reflexivity|]. split; [intros q o [] | intros x []].
  - specialize (IH (fun z Iz => H z (or_intror Iz))). rewrite (H x (or_introl eq_refl)).
    (* what the entries after x give holds of x :: l as well, if x is declared or optional *)
    assert (IH' : (nreal (enode x) = false -> eoptional x = true) ->
                  match manifest_loop w l with
                  | Ok m => map fst m = filter nreal (map enode l) /\
                            (forall q o, In (q, o) m -> exists y, In y (x :: l) /\ enode y = q /\ eoptional y = o) /\
                            (forall y, In y (x :: l) -> nreal (enode y) = false -> eoptional y = true)
                  | Err e => e = NotFound /\ exists y, In y (x :: l) /\ nreal (enode y) = false /\ eoptional y = false
                  end).
    { intros Hx. destruct (manifest_loop w l) as [m|e].
      - destruct IH as [A [B C]]. split; [exact A|]. split.
        + intros q o I. destruct (B q o I) as [y [Iy Hy]]. exists y. split; [right; exact Iy | exact Hy].
        + intros y [<- | Iy]; [exact Hx | exact (C y Iy)].
      - destruct IH as [-> [y [Iy Hy]]]. split; [reflexivity|]. exists y. split; [right; exact Iy | exact Hy]. }
    destruct (nreal (enode x)) eqn:Rx.
    + assert (Hx : true = false -> eoptional x = true) by discriminate. specialize (IH' Hx).
      destruct (manifest_loop w l) as [m'|e]; [|exact IH'].
      destruct IH' as [A [B C]]. split; [cbn [map fst]; f_equal; exact A|]. split; [|exact C].
      intros q o [[= <- <-] | I]; [exists x; split; [left; reflexivity | auto] | exact (B q o I)].
    + destruct (eoptional x) eqn:O; [exact (IH' (fun _ => eq_refl))|].
      split; [reflexivity|]. exists x. split; [left; reflexivity | auto].
Qed.

Lemma manifest_nodes_app m1 m2 : manifest_nodes (m1 ++ m2) = manifest_nodes m1 ++ manifest_nodes m2.
Proof. apply map_app. Qed.

Lemma create_dependencies_inv fuel w n v m :
  create_dependencies fuel w n v = Ok m ->
  declared w n v = true /\
  exists l mm, dependent_products fuel w (n, Some v, true) true = Ok l /\
               manifest_loop w (by_depth l) = Ok mm /\ m = mm ++ [((n, Some v, true), false)].
Proof.
  unfold create_dependencies. destruct (declared w n v); cbn [negb]; [|discriminate].
  destruct (dependent_products fuel w (n, Some v, true) true) as [l|e] eqn:D; [|destruct e; discriminate].
  destruct (manifest_loop w (by_depth l)) as [mm|e] eqn:M; [|discriminate].
  intros Q. inversion Q. subst. split; [reflexivity|]. exists l, mm. auto.
Qed.

Record manifest_facts (w : world) (top : node) (l : list entry) (mm : list mentry) : Prop := {
  mf_listing : forall q, In q (map enode l) <-> q <> top /\ reach_plus w top q;
  mf_nodup : NoDup (map enode l);
  mf_nodes : manifest_nodes mm = filter nreal (map enode (by_depth l));
  mf_flags : forall q o, In (q, o) mm -> exists x, In x l /\ enode x = q /\ eoptional x = o
}.

Lemma listing_again fuel w top l :
  length w < fuel -> wf_world w -> dependent_products fuel w top true = Ok l ->
  forall z, In z (by_depth l) -> relookup w (enode z) = if nreal (enode z) then Some (enode z) else None.
Proof.
  intros Hf Hwf D z Iz. destruct (listing_topological true node_cmp w top fuel l Hf D) as [HL _].
  apply (relookup_listed w top _ Hwf), HL, in_map, by_depth_In, Iz.
Qed.

Lemma manifest_facts_hold fuel w top l mm :
  length w < fuel -> wf_world w ->
  dependent_products fuel w top true = Ok l -> manifest_loop w (by_depth l) = Ok mm ->
  manifest_facts w top l mm.
Proof.
  intros Hf Hwf D M. destruct (listing_topological true node_cmp w top fuel l Hf D) as [HL HN].
  pose proof (manifest_loop_spec w (by_depth l) (listing_again fuel w top l Hf Hwf D)) as S. rewrite M in S.
  destruct S as [A [B _]]. constructor; auto.
  intros q o I. destruct (B q o I) as [x [Ix Hx]]. exists x. split; [apply by_depth_In, Ix | exact Hx].
Qed.

Lemma by_depth_nodes l q : In q (map enode (by_depth l)) <-> In q (map enode l).
Proof.
  split; apply Permutation_in, Permutation_map; [apply by_depth_perm | apply Permutation_sym, by_depth_perm].
Qed.

Lemma manifest_entries fuel w n v m :
  length w < fuel -> wf_world w ->
  create_dependencies fuel w n v = Ok m ->
  NoDup (manifest_nodes m) /\
  forall q, In q (manifest_nodes m) <->
            q = (n, Some v, true) \/ (q <> (n, Some v, true) /\ reach_plus w (n, Some v, true) q /\ nreal q = true).
Proof.
  intros Hf Hwf C. destruct (create_dependencies_inv _ _ _ _ _ C) as [_ [l [mm [D [M ->]]]]].
  set (top := (n, Some v, true)) in *.
  destruct (manifest_facts_hold fuel w top l mm Hf Hwf D M) as [HL HN Enodes _].
  rewrite manifest_nodes_app. change (manifest_nodes [(top, false)]) with [top]. rewrite Enodes.
  assert (Hin : forall q, In q (filter nreal (map enode (by_depth l))) <->
                          q <> top /\ reach_plus w top q /\ nreal q = true).
  { intros q. rewrite filter_In, by_depth_nodes, HL. apply and_assoc. }
  split.
  - apply NoDup_snoc.
    + apply NoDup_filter. eapply Permutation_NoDup; [|exact HN].
      apply Permutation_map, Permutation_sym, by_depth_perm.
    + intros I. apply Hin in I as [A _]. apply A. reflexivity.
  - intros q. rewrite in_app_iff, Hin. cbn [In]. split.
    + intros [H | [H | []]]; [right; exact H | left; symmetry; exact H].
    + intros [H | H]; [right; left; symmetry; exact H | left; exact H].
Qed.

Lemma manifest_flags fuel w n v m q o :
  length w < fuel -> wf_world w ->
  create_dependencies fuel w n v = Ok m -> In (q, o) m ->
  (q = (n, Some v, true) /\ o = false) \/
  exists l x, dependent_products fuel w (n, Some v, true) true = Ok l /\ In x l /\ enode x = q /\ eoptional x = o.
Proof.
  intros Hf Hwf C I. destruct (create_dependencies_inv _ _ _ _ _ C) as [_ [l [mm [D [M ->]]]]].
  destruct (manifest_facts_hold fuel w _ l mm Hf Hwf D M) as [_ _ _ Hflags].
  apply in_app_iff in I as [I | [I | []]].
  - right. destruct (Hflags q o I) as [x Hx]. exists l, x. split; [exact D | exact Hx].
  - left. inversion I. auto.
Qed.

(* createDependencies answers exactly when the product is declared and every listed product that is not declared
   is optional; otherwise ProductNotFound *)
Lemma manifest_answers fuel w n v :
  length w < fuel -> wf_world w -> declared w n v = true ->
  exists l, dependent_products fuel w (n, Some v, true) true = Ok l /\
    ((exists m, create_dependencies fuel w n v = Ok m) <->
     (forall x, In x l -> nreal (enode x) = false -> eoptional x = true)) /\
    ((exists x, In x l /\ nreal (enode x) = false /\ eoptional x = false) ->
     create_dependencies fuel w n v = Err NotFound).
Proof.
  intros Hf Hwf Dc. destruct (dependent_products_total w (n, Some v, true) fuel Hf) as [l D]. exists l.
  split; [exact D|].
  unfold create_dependencies. rewrite Dc, D. cbn [negb].
  pose proof (manifest_loop_spec w (by_depth l) (listing_again fuel w _ l Hf Hwf D)) as A.
  destruct (manifest_loop w (by_depth l)) as [mm|e].
  - destruct A as [_ [_ C]].
    assert (Hopt : forall x, In x l -> nreal (enode x) = false -> eoptional x = true).
    { intros x Ix. apply C, by_depth_In, Ix. }
    split; [split; eauto|]. intros [x [Ix [Nx Ox]]]. rewrite (Hopt x Ix Nx) in Ox. discriminate.
  - destruct A as [-> [x [Ix [Nx Ox]]]]. apply (proj1 (by_depth_In l x)) in Ix. split; [|reflexivity].
    split; [intros [m Q]; discriminate|]. intros H. rewrite (H x Ix Nx) in Ox. discriminate.
Qed.

Lemma manifest_order_core fuel w n v m M1 p M2 y :
  length w < fuel -> wf_world w ->
  create_dependencies fuel w n v = Ok m ->
  manifest_nodes m = M1 ++ p :: M2 -> step w p y -> In y (manifest_nodes m) ->
  ~ reach_plus w y p -> In y M1.
Proof.
  intros Hf Hwf C Hsplit S Iy Ncyc.
  destruct (create_dependencies_inv _ _ _ _ _ C) as [_ [l [mm [D [M ->]]]]].
  set (top := (n, Some v, true)) in *.
  destruct (manifest_facts_hold fuel w top l mm Hf Hwf D M) as [HL _ Enodes _].
  rewrite manifest_nodes_app in *. change (manifest_nodes [(top, false)]) with [top] in *. rewrite Enodes in *.
  assert (Hself : p <> y).
  { intros <-. apply Ncyc. apply rp_one, step_is_stepP, S. }
  induction M2 as [|z M2' _] using rev_ind.
  - (* p is the last entry: the product itself *)
    apply app_inj_tail in Hsplit as [HF Hp]. rewrite <- HF.
    apply in_app_iff in Iy as [Iy | [Iy | []]]; [exact Iy|]. congruence.
  - replace (M1 ++ p :: M2' ++ [z]) with ((M1 ++ p :: M2') ++ [z]) in Hsplit
      by (rewrite <- app_assoc; reflexivity).
    apply app_inj_tail in Hsplit as [HF Hz].
    destruct (filter_map_split_mid _ _ _ _ _ _ HF) as [l1 [x [l2 [El [Ex E1]]]]].
    assert (Ix : In x l).
    { apply (proj1 (by_depth_In l x)). rewrite El. apply in_or_app. right. left. reflexivity. }
    assert (Rp : reach_plus w top p).
    { rewrite <- Ex. apply HL, in_map, Ix. }
    apply in_app_iff in Iy as [Iy | [Iy | []]].
    + apply filter_In in Iy as [Iy Ky]. apply in_map_iff in Iy as [zy [Ezy Izy]].
      assert (Izl : In zy l) by (apply (proj1 (by_depth_In l zy)), Izy).
      assert (Hlt : edepth x < edepth zy).
      { apply (build_order_general w top fuel l Hf Hwf D x zy Ix Izl); rewrite Ex, Ezy; assumption. }
      rewrite <- E1. apply filter_In. split; [|exact Ky]. rewrite <- Ezy.
      apply in_map, (by_depth_before l l1 x l2 zy El Izl Hlt).
    + exfalso. apply Ncyc. rewrite <- Iy. exact Rp.
Qed.

Lemma manifest_node_in_closure fuel w n v m p :
  length w < fuel -> wf_world w -> create_dependencies fuel w n v = Ok m ->
  In p (manifest_nodes m) -> closure w (n, Some v, true) p.
Proof.
  intros Hf Hwf C I. apply (proj2 (manifest_entries fuel w n v m Hf Hwf C)) in I as [-> | [_ [R _]]].
  - left. reflexivity.
  - right. exact R.
Qed.

Lemma acyclic_no_back w top p y : acyclic_from w top -> closure w top p -> step w p y -> ~ reach_plus w y p.
Proof.
  intros Ha Cp S R. apply (Ha p Cp). eapply rp_more; [apply step_is_stepP, S | exact R].
Qed.

Lemma targets_step w p d : In d (targets w p) -> step w p d.
Proof.
  unfold targets. destruct (node_table w p) as [es|] eqn:T; [|intros []].
  intros I. apply in_map_iff in I as [e [E Ie]]. exists es, e. auto.
Qed.

Lemma install_loop_ok w M :
  (forall M1 p M2 y, M = M1 ++ p :: M2 -> step w p y -> In y M -> In y M1) ->
  forall todo inst pre,
  M = pre ++ todo -> (forall q, In q inst <-> In q pre) ->
  exists out, install_loop w M inst todo = Ok out /\ forall q, In q out <-> In q M.
Proof.
  intros Hord. induction todo as [|p r IH]; intros inst pre EM Hi; cbn [install_loop].
  - exists inst. split; [reflexivity|]. rewrite app_nil_r in EM. subst. exact Hi.
  - assert (Hc : forallb (fun d => implb (mem_node d M) (mem_node d inst)) (targets w p) = true).
    { apply forallb_forall. intros d Id. destruct (mem_node d M) eqn:Em; [|reflexivity]. cbn [implb].
      apply mem_node_In. apply Hi. apply (Hord pre p r d EM (targets_step _ _ _ Id)). apply mem_node_In, Em. }
    rewrite Hc. apply (IH (inst ++ [p]) (pre ++ [p])).
    + rewrite <- app_assoc. exact EM.
    + intros q. rewrite !in_app_iff, Hi. reflexivity.
Qed.

Lemma filter_all {A} (l : list A) : filter (fun _ => true) l = l.
Proof. induction l as [|x l IH]; simpl; [reflexivity | rewrite IH; reflexivity]. Qed.

(* under wf_world two listed products with the same name and version are the same product: the stub of a line
   that did not resolve carries a version that is not declared *)
Lemma listed_key_inj w top a b :
  wf_world w -> reach_plus w top a -> reach_plus w top b -> ukey_of a = ukey_of b -> a = b.
Proof.
  intros Hwf Ra Rb E. apply (relookup_listed w top _ Hwf) in Ra, Rb.
  destruct a as [[na va] ra], b as [[nb vb] rb]. unfold ukey_of in E. cbn [nname nver fst snd] in E. injection E as -> ->.
  (* the second look-up reads name and version only *)
  change (relookup w (nb, vb, ra)) with (relookup w (nb, vb, rb)) in Ra. rewrite Rb in Ra.
  destruct ra, rb; cbn [nreal snd] in Ra; congruence.
Qed.

Lemma listing_keys_nodup fuel w top l :
  length w < fuel -> wf_world w -> dependent_products fuel w top true = Ok l ->
  NoDup (map (fun x => ukey_of (enode x)) l).
Proof.
  intros Hf Hwf D. destruct (listing_topological true node_cmp w top fuel l Hf D) as [HL HN].
  rewrite <- (map_map enode ukey_of). apply nodup_map_inj_on; [exact HN|].
  intros a b Ia Ib E. apply HL in Ia as [_ Ra]. apply HL in Ib as [_ Rb]. eapply listed_key_inj; eauto.
Qed.

Lemma cli_entries_exact f l :
  NoDup (map (fun x => ukey_of (enode x)) l) ->
  cli_entries f l = filter (fun x => depth_ok f (edepth x)) l.
Proof.
  intros Hn. unfold cli_entries, cli_entries_with. apply first_of_product_id; [apply GraphLayers.NoDup_map_filter, Hn | intros x _ []].
Qed.

Lemma cli_lines_inv fuel w top topological f L :
  cli_lines fuel w top topological false f = Ok L ->
  exists l, dependent_products fuel w top topological = Ok l /\
            L = (if depth_ok f 0 then [top] else []) ++ map enode (cli_entries f l).
Proof.
  unfold cli_lines, cli_lines_with. destruct (dependent_products fuel w top topological) as [l|]; [|discriminate].
  cbn [andb]. intros Q. inversion Q. exists l. auto.
Qed.
