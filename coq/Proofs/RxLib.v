(* C11 - lemmas about the regular-expression building blocks of Model/Rx.v (span, scan, split_last,
   prefixes, strip_dq, map_char) and about forallb on strings. *)
From Coq Require Import Lia.
From Eupsv Require Import Base.Base Base.BaseLemmas Model.Rx.

Lemma span_app p a x rest :
  forallb p a = true -> p x = false -> span p (a ++ x :: rest) = (a, x :: rest).
Proof.
  induction a as [|c a IH]; cbn [app span forallb]; intros Ha Hx.
  - now rewrite Hx.
  - apply andb_true_iff in Ha. destruct Ha as [Hc Ha]. now rewrite Hc, (IH Ha Hx).
Qed.

Lemma span_all p a : forallb p a = true -> span p a = (a, []).
Proof.
  induction a as [|c a IH]; cbn [span forallb]; intros Ha; [reflexivity|].
  apply andb_true_iff in Ha. destruct Ha as [Hc Ha]. now rewrite Hc, (IH Ha).
Qed.

Lemma span_split p s : s = fst (span p s) ++ snd (span p s).
Proof.
  induction s as [|c s IH]; [reflexivity|]. cbn [span]. destruct (p c); [|reflexivity].
  destruct (span p s) as [a b]. cbn [fst snd app] in *. now rewrite <- IH.
Qed.

Lemma span_fst_all p s : forallb p (fst (span p s)) = true.
Proof.
  induction s as [|c s IH]; [reflexivity|]. cbn [span]. destruct (p c) eqn:E; [|reflexivity].
  destruct (span p s) as [a b]. cbn [fst forallb] in *. now rewrite E, IH.
Qed.

Lemma span_snd_drop p s : snd (span p s) = drop_while p s.
Proof.
  induction s as [|c s IH]; [reflexivity|]. cbn [span drop_while]. destruct (p c); [|reflexivity].
  destruct (span p s) as [a b]. cbn [snd] in *. exact IH.
Qed.

Lemma drop_while_app p a rest : forallb p a = true -> drop_while p (a ++ rest) = drop_while p rest.
Proof.
  induction a as [|c a IH]; cbn [app drop_while forallb]; intros Ha; [reflexivity|].
  apply andb_true_iff in Ha. destruct Ha as [Hc Ha]. now rewrite Hc, (IH Ha).
Qed.

Lemma drop_while_stop p x rest : p x = false -> drop_while p (x :: rest) = x :: rest.
Proof. intros H. cbn. now rewrite H. Qed.

Lemma drop_while_all p a : forallb p a = true -> drop_while p a = [].
Proof. intros H. rewrite <- (app_nil_r a), drop_while_app; auto. Qed.

Lemma drop_ws_app a rest : all_ws a = true -> drop_ws (a ++ rest) = drop_ws rest.
Proof. apply drop_while_app. Qed.

Lemma scan_skip m a rest : scan m (length a) (a ++ rest) = scan m 0 rest.
Proof. induction a as [|c a IH]; [reflexivity|]. cbn [length app scan]. exact IH. Qed.

Lemma scan_match m c a rest out :
  m (c :: a ++ rest) = Some (out, length a) -> scan m 0 (c :: a ++ rest) = out ++ scan m 0 rest.
Proof. intros H. cbn [scan]. rewrite H. now rewrite scan_skip. Qed.

Lemma scan_delimited m q x q' rest out :
  m (q :: x ++ q' :: rest) = Some (out, S (length x)) ->
  scan m 0 (q :: x ++ q' :: rest) = out ++ scan m 0 rest.
Proof.
  intros H. replace (x ++ q' :: rest) with ((x ++ [q']) ++ rest) in * by (now rewrite <- app_assoc).
  apply scan_match. rewrite H, app_length. cbn [length]. now rewrite Nat.add_1_r.
Qed.

Lemma scan_copy m (p : ascii -> bool) a rest :
  (forall c r, p c = true -> m (c :: r) = None) -> forallb p a = true ->
  scan m 0 (a ++ rest) = a ++ scan m 0 rest.
Proof.
  intros Hm. induction a as [|c a IH]; cbn [app scan forallb]; intros H; [reflexivity|].
  apply andb_true_iff in H. destruct H as [Hc Ha]. now rewrite (Hm c _ Hc), (IH Ha).
Qed.

Lemma scan_copy_all m (p : ascii -> bool) a :
  (forall c r, p c = true -> m (c :: r) = None) -> forallb p a = true -> scan m 0 a = a.
Proof. intros Hm H. pose proof (scan_copy m p a [] Hm H) as E. now rewrite !app_nil_r in E. Qed.

Lemma scan_id m s : (forall a b, s = a ++ b -> m b = None) -> scan m 0 s = s.
Proof.
  induction s as [|c r IH]; intros H; [reflexivity|]. cbn [scan].
  rewrite (H [] (c :: r) eq_refl). f_equal. apply IH. intros a b E. apply (H (c :: a) b). now rewrite E.
Qed.

Lemma split_last_none c s : mem_ascii c s = false -> split_last c s = None.
Proof.
  induction s as [|x r IH]; [reflexivity|]. cbn [mem_ascii split_last].
  rewrite ascii_eqb_sym. destruct (ascii_eqb x c); [discriminate|]. intros H. now rewrite (IH H).
Qed.

Lemma split_last_app c a b : mem_ascii c b = false -> split_last c (a ++ c :: b) = Some (a, b).
Proof.
  intros Hb. induction a as [|x a IH]; cbn [app split_last].
  - rewrite (split_last_none c b Hb), ascii_eqb_refl. reflexivity.
  - now rewrite IH.
Qed.

Lemma ci_prefix_app p s rest : lower_str s = p -> ci_prefix p (s ++ rest) = Some rest.
Proof.
  revert p. induction s as [|c s IH]; intros p <-; [reflexivity|].
  cbn [lower_str map app ci_prefix]. rewrite ascii_eqb_refl. now apply IH.
Qed.

Lemma cs_prefix_app p rest : cs_prefix p (p ++ rest) = Some rest.
Proof. induction p as [|c p IH]; [reflexivity|]. cbn [app cs_prefix]. now rewrite ascii_eqb_refl. Qed.

(* a prefix test that already fails inside a known (lower-cased) head *)
Fixpoint mismatch (k l : str) : bool :=
  match k, l with
  | a :: k', b :: l' => if ascii_eqb a b then mismatch k' l' else true
  | _, _ => false
  end.

Lemma ci_prefix_mismatch k s rest : mismatch k (lower_str s) = true -> ci_prefix k (s ++ rest) = None.
Proof.
  revert k. induction s as [|c s IH]; intros k; destruct k as [|a k]; cbn [lower_str map mismatch]; try discriminate.
  cbn [app ci_prefix]. destruct (ascii_eqb a (lower_ascii c)); [apply IH|reflexivity].
Qed.

Lemma all_ws_app a b : all_ws (a ++ b) = all_ws a && all_ws b.
Proof. apply forallb_app. Qed.

Lemma andb3 a b c : a && b && c = true -> a = true /\ b = true /\ c = true.
Proof. destruct a, b, c; auto. Qed.

Lemma andb4 a b c d : a && b && c && d = true -> a = true /\ b = true /\ c = true /\ d = true.
Proof. destruct a, b, c, d; auto. Qed.

Lemma forallb_Forall {A} (p : A -> bool) l : forallb p l = true <-> Forall (fun x => p x = true) l.
Proof. rewrite forallb_forall, Forall_forall. reflexivity. Qed.

Lemma forallb_repeat {A} (p : A -> bool) x n : p x = true -> forallb p (repeat x n) = true.
Proof. intros H. induction n; [reflexivity|]. cbn [repeat forallb]. now rewrite H. Qed.

Lemma forallb_map_char (p : ascii -> bool) a b x :
  p b = true -> forallb p x = true -> forallb p (map_char a b x) = true.
Proof.
  intros Hb. unfold map_char. induction x as [|c x IH]; [reflexivity|]. cbn [map forallb]. intros H.
  apply andb_true_iff in H. destruct H as [Hc Hx]. rewrite (IH Hx), andb_true_r.
  destruct (ascii_eqb c a); assumption.
Qed.

Lemma strip_dq_id s : (match s with c :: _ => ascii_eqb c c_dq | [] => false end) = false -> strip_dq s = s.
Proof. destruct s as [|c r]; [reflexivity|]. cbn [strip_dq]. now intros ->. Qed.

Lemma strip_dq_quoted a : strip_dq (c_dq :: a ++ [c_dq]) = a.
Proof.
  cbn [strip_dq]. rewrite ascii_eqb_refl, rev_app_distr. cbn [rev app].
  rewrite ascii_eqb_refl. apply rev_involutive.
Qed.

Lemma map_char_id a b s : mem_ascii a s = false -> map_char a b s = s.
Proof.
  induction s as [|c r IH]; [reflexivity|]. cbn [mem_ascii map_char map].
  destruct (ascii_eqb a c) eqn:E; [discriminate|]. intros H.
  rewrite ascii_eqb_sym, E. f_equal. apply IH, H.
Qed.
