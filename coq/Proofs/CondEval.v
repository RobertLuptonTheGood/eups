(* C11 - the repaired evaluator computes the truth-table denotation of the tokens of a
   printed condition (token level; the tokeniser is tied to the text in Proofs/CondTok.v). *)
From Coq Require Import Lia.
From Eupsv Require Import Base.Base Base.BaseLemmas Model.Rx Model.Cond Model.Args Model.Legacy Model.Blocks Model.TableSpec.

Lemma class_neq (p : ascii -> bool) c k : p c = true -> p k = false -> ascii_eqb c k = false.
Proof. intros Hc Hk. apply ascii_eqb_neq. intros ->. congruence. Qed.

Lemma alpha_facts c : is_alpha c = true ->
  ascii_eqb c "+"%char = false /\ ascii_eqb c "-"%char = false /\ is_digit c = false /\
  ascii_eqb c "_"%char = false /\ ascii_eqb c c_dollar = false /\ ascii_eqb c c_lp = false /\
  ascii_eqb c "!"%char = false /\ ascii_eqb c c_rp = false.
Proof.
  intros H. repeat split; try (apply (class_neq is_alpha _ _ H); reflexivity).
  (* the letters lie above the digits *)
  unfold is_alpha, is_upper, is_lower in H. unfold is_digit. cbv zeta in *.
  destruct (Nat.leb_spec (nat_of_ascii c) 57) as [D|D]; [|apply andb_false_r].
  rewrite (proj2 (Nat.leb_gt 65 _)), (proj2 (Nat.leb_gt 97 _)) in H by lia. discriminate H.
Qed.

Lemma lower_alpha c : is_lower (lower_ascii c) = true -> is_alpha c = true.
Proof. unfold lower_ascii, is_alpha. destruct (is_upper c); [reflexivity|]. intros ->. reflexivity. Qed.

Lemma first_alpha_py_int s : first_alpha s = true -> py_int s = None.
Proof.
  destruct s as [|c r]; [discriminate|]. cbn [first_alpha]. intros H.
  destruct (alpha_facts c H) as (H1 & H2 & H3 & H4 & _).
  unfold py_int. rewrite H1, H2. cbn [digits_go]. rewrite H3, H4. reflexivity.
Qed.

Lemma first_alpha_no_dollar s : first_alpha s = true -> starts_with [c_dollar; c_lb] s = false.
Proof.
  destruct s as [|c r]; [discriminate|]. cbn [first_alpha]. intros H.
  destruct (alpha_facts c H) as (_ & _ & _ & _ & H5 & _).
  cbn [starts_with]. rewrite ascii_eqb_sym, H5. reflexivity.
Qed.

Lemma first_alpha_neq s t : first_alpha s = true -> first_alpha t = false -> str_eqb s t = false.
Proof.
  intros Hs Ht. apply str_eqb_neq. intros ->. rewrite Hs in Ht. discriminate.
Qed.

Lemma lower_first_alpha s t :
  lower_str s = t -> first_alpha t = true -> forallb is_lower t = true -> first_alpha s = true.
Proof.
  destruct s as [|c r]; intros <-; [discriminate|]. cbn. intros _ H.
  apply andb_true_iff in H. destruct H as [H _]. now apply lower_alpha.
Qed.

(* a token that is one side of a comparison: _peek answers [v] for it, and [v] is none of
   the tokens the parser looks for *)
Definition operand (e : cenv) (s : str) (v : value) : Prop :=
  (forall t, peek e (VStr s :: t) = Ok v) /\ is_eof v = false /\
  veq_s v (lit "(") = false /\ veq_s v (lit "!") = false /\ veq_s v (lit "not") = false.

Lemma operand_word e s w :
  lookup e (VStr s) = Ok (VStr w) -> first_alpha w = true -> mem_str w reserved_words = false ->
  operand e s (VStr w).
Proof.
  intros Hl Ha Hr. unfold reserved_words in Hr. cbn [mem_str] in Hr.
  destruct (str_eqb w (lit "True")) eqn:R1; [discriminate|].
  destruct (str_eqb w (lit "False")) eqn:R2; [discriminate|].
  destruct (str_eqb w (lit "EOF")) eqn:R3; [discriminate|].
  destruct (str_eqb w (lit "not")) eqn:R4; [discriminate|].
  assert (Hc : coerce (VStr w) = VStr w).
  { unfold coerce. now rewrite (first_alpha_py_int _ Ha), R1, R2. }
  unfold operand, peek. rewrite Hl. cbn [bind]. rewrite Hc. unfold is_eof, veq_s.
  repeat split; auto using first_alpha_neq.
Qed.

Lemma wf_lit_facts x : wf_lit x = true ->
  first_alpha x = true /\ mem_str x reserved_words = false /\
  str_eqb (lower_str x) (lit "flavor") = false /\ str_eqb (lower_str x) (lit "type") = false.
Proof.
  unfold wf_lit. intros H.
  apply andb_true_iff in H. destruct H as [H Hl]. apply andb_true_iff in H. destruct H as [H Hr].
  apply andb_true_iff in H. destruct H as [Ha _]. apply negb_true_iff in Hr, Hl. cbn [mem_str] in Hl.
  destruct (str_eqb (lower_str x) (lit "flavor")); [discriminate|].
  destruct (str_eqb (lower_str x) (lit "type")); [discriminate|]. auto.
Qed.

Lemma operand_lit e x : wf_lit x = true -> operand e x (VStr x).
Proof.
  intros H. destruct (wf_lit_facts x H) as (Ha & Hr & L1 & L2).
  apply operand_word; auto. unfold lookup. now rewrite (first_alpha_no_dollar _ Ha), L1, L2.
Qed.

(* what _lookup answers for the variable of an atom: the flavor, the list of types, or (no
   type defined) the spelling itself *)
Definition var_value (e : cenv) (v : cvar) (sp : str) : value :=
  match v with
  | CFlavor => VStr (ce_flavor e)
  | CType => match ce_types e with [] => VStr sp | _ => VList (ce_types e) end
  end.

Lemma lookup_var e v s :
  starts_with [c_dollar; c_lb] s = false -> lower_str s = var_name v ->
  lookup e (VStr s) = Ok (var_value e v s).
Proof. unfold lookup. intros -> ->. destruct v; [reflexivity|]. cbn. destruct (ce_types e); reflexivity. Qed.

Lemma operand_var e v l : wf_env e = true -> wf_alay v l = true ->
  operand e (al_sp l) (var_value e v (al_sp l)).
Proof.
  unfold wf_env, wf_alay. intros He Hl. apply str_eqb_eq in Hl.
  apply andb_true_iff in He. destruct He as [Ea Er]. apply negb_true_iff in Er.
  assert (Hf : first_alpha (al_sp l) = true) by (apply (lower_first_alpha _ _ Hl); destruct v; reflexivity).
  pose proof (lookup_var e v _ (first_alpha_no_dollar _ Hf) Hl) as Hk.
  destruct v; [|destruct (ce_types e) eqn:Et]; unfold var_value in *; try rewrite Et in *.
  - now apply operand_word.
  - (* a spelling of "type" is no reserved word *)
    apply operand_word; auto. apply mem_str_not_In. cbn [reserved_words In].
    intros [E|[E|[E|[E|[]]]]]; rewrite <- E in Hl; discriminate Hl.
  - unfold operand, peek. rewrite Hk. repeat split.
Qed.

(* the value of a comparison, as _term computes it *)
Definition cmp_value (o : cmpop) (lhs rhs : value) : value :=
  match lhs with
  | VList l => VBool (match o with OEq => py_in rhs l | ONe => negb (py_in rhs l) end)
  | _ => VBool (match o with OEq => py_eq lhs rhs | ONe => negb (py_eq lhs rhs) end)
  end.

Lemma var_cmp e v l o x : wf_alay v l = true -> wf_lit x = true ->
  cmp_value o (var_value e v (al_sp l)) (VStr x) = VBool (denote_atom e v o x).
Proof.
  unfold wf_alay. intros Hl Hx. apply str_eqb_eq in Hl. destruct (wf_lit_facts x Hx) as (_ & _ & _ & L2).
  unfold denote_atom. destruct v; [reflexivity|]. cbn [var_value]. destruct (ce_types e); [|reflexivity].
  (* no type is defined: the spelling is compared with the literal, which is not a spelling of "type" *)
  assert (N : str_eqb (al_sp l) x = false).
  { apply str_eqb_neq. intros E. rewrite E in Hl. apply str_eqb_neq in L2. exact (L2 Hl). }
  cbn [cmp_value py_eq mem_str]. now rewrite N.
Qed.

Definition bin_value (o : binop) : value -> value -> value :=
  match o with BOr => py_or | BAnd => py_and end.

Lemma bin_value_denote e s1 s2 o a b :
  bin_value o (VBool (denote e a)) (VBool (denote e b)) = VBool (denote e (Bin s1 s2 o a b)).
Proof. cbn [denote]. destruct o, (denote e a); reflexivity. Qed.

Lemma ev_expr_S fx f e toks :
  ev_expr fx (S f) e toks = bind (ev_term fx f e toks) (fun '(lhs, t1) => ev_loop fx f e lhs t1).
Proof. reflexivity. Qed.

Lemma ev_loop_S f e lhs toks :
  ev_loop true (S f) e lhs toks =
  bind (next e toks) (fun '(op, t1) =>
    if is_or op then
      bind (ev_term true f e t1) (fun '(rhs, t2) => ev_loop true f e (py_or lhs rhs) t2)
    else if is_and op then
      bind (ev_term true f e t1) (fun '(rhs, t2) => ev_loop true f e (py_and lhs rhs) t2)
    else Ok (lhs, push op t1)).
Proof. reflexivity. Qed.

(* what _term does once it has its left-hand side *)
Definition term_rest (fx : bool) (f : nat) (e : cenv) (r : value * list value) : rv :=
  let '(lhs, t1) := r in
  bind (next e t1) (fun '(op, t2) =>
    if is_eof op then Ok (lhs, t2)
    else if veq_s op (lit "==") then
      bind (ev_prim fx f e t2) (fun '(rhs, t3) =>
        match lhs with
        | VList l => Ok (VBool (py_in rhs l), t3)
        | _ => Ok (VBool (py_eq lhs rhs), t3)
        end)
    else if veq_s op (lit "!=") then
      bind (ev_prim fx f e t2) (fun '(rhs, t3) =>
        match lhs with
        | VList l => Ok (VBool (negb (py_in rhs l)), t3)
        | _ => Ok (VBool (negb (py_eq lhs rhs)), t3)
        end)
    else if is_unmodelled_cmp op then Err Undefined
    else Ok (lhs, push op t2)).

Lemma ev_term_S fx f e toks :
  ev_term fx (S f) e toks = bind (ev_prim fx f e toks) (term_rest fx f e).
Proof. reflexivity. Qed.

Lemma ev_prim_S fx f e toks :
  ev_prim fx (S f) e toks =
  bind (peek e toks) (fun nx =>
    if veq_s nx (lit "(") then
      bind (next e toks) (fun '(_, t1) =>
        bind (ev_expr fx f e t1) (fun '(v, t2) =>
          bind (next e t2) (fun '(cl, t3) =>
            if veq_s cl (lit ")") then Ok (v, t3) else Err Refused)))
    else if veq_s nx (lit "!") || veq_s nx (lit "not") then
      bind (next e toks) (fun '(_, t1) =>
        bind (ev_expr fx f e t1) (fun '(v, t2) => Ok (VBool (negb (truthy v)), t2)))
    else next e toks).
Proof. reflexivity. Qed.

Lemma operand_prim fx f e s v t : operand e s v -> ev_prim fx (S f) e (VStr s :: t) = Ok (v, t).
Proof.
  intros (Hp & He & N1 & N2 & N3). rewrite ev_prim_S, Hp. cbn [bind]. rewrite N1, N2, N3. cbn [orb].
  unfold next. rewrite Hp. cbn [bind]. now rewrite He.
Qed.

Lemma prim_paren fx f e t v t' :
  ev_expr fx f e t = Ok (v, VStr s_rp :: t') -> ev_prim fx (S f) e (VStr s_lp :: t) = Ok (v, t').
Proof.
  intros H.
  change (ev_prim fx (S f) e (VStr s_lp :: t)) with
    (bind (ev_expr fx f e t) (fun '(v, t2) => bind (next e t2) (fun '(cl, t3) =>
       if veq_s cl (lit ")") then Ok (v, t3) else Err Refused))).
  now rewrite H.
Qed.

Lemma term_cmp fx f e lhs o s v rest : operand e s v ->
  term_rest fx (S f) e (lhs, VStr (pr_cmp o) :: VStr s :: rest) = Ok (cmp_value o lhs v, rest).
Proof.
  intros Hs. unfold term_rest.
  replace (next e (VStr (pr_cmp o) :: VStr s :: rest)) with (Ok (VStr (pr_cmp o), VStr s :: rest) : rv)
    by (destruct o; reflexivity).
  cbn [bind]. rewrite (operand_prim fx f e s v rest Hs). destruct o, lhs; reflexivity.
Qed.

Lemma loop_bin f e lhs o t :
  ev_loop true (S f) e lhs (VStr (pr_bin o) :: t) =
  bind (ev_term true f e t) (fun '(rhs, t2) => ev_loop true f e (bin_value o lhs rhs) t2).
Proof. destruct o; reflexivity. Qed.

Lemma loop_end f e lhs : ev_loop true (S f) e lhs [] = Ok (lhs, []).
Proof. reflexivity. Qed.

Lemma loop_rp f e lhs t : ev_loop true (S f) e lhs (VStr s_rp :: t) = Ok (lhs, VStr s_rp :: t).
Proof. reflexivity. Qed.

(* The four functions are one mutual fixpoint on the fuel: when cbn or unification unfolds one,
   the goal fills with the bodies of all four.  From here on, and in every file that imports
   this one, they are used through the equations above; vm_compute is not affected. *)
Global Opaque ev_expr ev_loop ev_term ev_prim.

Definition follow_ok (rest : list value) : Prop :=
  rest = [] \/ exists o t, rest = VStr o :: t /\ In o [pr_bin BOr; pr_bin BAnd; s_rp].

(* after a complete term the look-ahead is put back *)
Lemma term_finish fx f e lhs rest : follow_ok rest -> term_rest fx f e (lhs, rest) = Ok (lhs, rest).
Proof.
  intros [->|(o & t & -> & Ho)]; [reflexivity|].
  cbn [In pr_bin] in Ho. destruct Ho as [<-|[<-|[<-|[]]]]; reflexivity.
Qed.

(* c where the grammar wants a term: a Bin goes between parentheses, as the printer writes a
   right operand *)
Definition term_toks (c : cond) : list str :=
  if is_bin c then s_lp :: cond_toks c ++ [s_rp] else cond_toks c.

(* fuel: what _expr needs for the tokens of c and what _term needs for term_toks c.  Every call
   of expr, loop, term or prim takes one: an atom is three calls deep, a pair of parentheses
   adds four (expression, term, primary and the loop step that sees the closing one) *)
Fixpoint need_e (c : cond) : nat :=
  match c with
  | Atom _ _ _ _ => 3
  | Paren _ _ c' => 4 + need_e c'
  | Bin _ _ _ a b => 1 + (if is_bin b then 3 + need_e b else need_e b) + need_e a
  end.
Definition need_t (c : cond) : nat := if is_bin c then 3 + need_e c else need_e c - 1.

Lemma need_e_pos c : 3 <= need_e c.
Proof. induction c; cbn [need_e]; try lia. Qed.

Lemma need_e_len c : need_e c <= 4 * length (cond_toks c).
Proof.
  induction c; cbn [need_e cond_toks].
  - cbn. lia.
  - destruct (is_bin c2); repeat (rewrite ?app_length; cbn [length]); lia.
  - repeat (rewrite ?app_length; cbn [length]). lia.
Qed.

Lemma bin_toks s1 s2 o a b : cond_toks (Bin s1 s2 o a b) = cond_toks a ++ pr_bin o :: term_toks b.
Proof. reflexivity. Qed.

Definition vs (l : list str) : list value := map VStr l.
Lemma vs_app a b : vs (a ++ b) = vs a ++ vs b.
Proof. apply map_app. Qed.

Section Sound.
Variable e : cenv.
Hypothesis He : wf_env e = true.

(* the continuation form: evaluating an expression in front of [rest] is running the
   operator loop on [rest] with the denotation as left-hand side *)
Definition L (c : cond) : Prop :=
  forall rest res f, follow_ok rest ->
    (forall g, f <= g -> ev_loop true g e (VBool (denote e c)) rest = Ok res) ->
    forall g, f + need_e c <= g -> ev_expr true g e (vs (cond_toks c) ++ rest) = Ok res.

(* as a term, c evaluates to its denotation and leaves what follows it *)
Definition T (c : cond) : Prop :=
  forall rest, follow_ok rest ->
    forall g, need_t c <= g ->
      ev_term true g e (vs (term_toks c) ++ rest) = Ok (VBool (denote e c), rest).

Lemma T_atom l v o x : wf_alay v l = true -> wf_lit x = true -> T (Atom l v o x).
Proof.
  intros Hl Hx rest _ g Hg. change (2 <= g) in Hg. destruct g as [|[|g]]; try lia.
  change (vs (term_toks (Atom l v o x)) ++ rest) with (VStr (al_sp l) :: VStr (pr_cmp o) :: VStr x :: rest).
  rewrite ev_term_S, (operand_prim _ _ _ _ _ _ (operand_var e v l He Hl)). cbn [bind].
  rewrite (term_cmp _ _ _ _ _ _ _ _ (operand_lit e x Hx)), (var_cmp e v l o x Hl Hx). reflexivity.
Qed.

(* T (Bin ...) and T (Paren ...) both are this statement: term_toks puts a Bin between
   parentheses and need_t (Bin ...) = 3 + need_e (Bin ...); a Paren prints its own and
   need_t (Paren _ _ c) = 4 + need_e c - 1 *)
Lemma T_paren c : L c ->
  forall rest, follow_ok rest ->
    forall g, 3 + need_e c <= g ->
      ev_term true g e (vs (s_lp :: cond_toks c ++ [s_rp]) ++ rest) = Ok (VBool (denote e c), rest).
Proof.
  intros HL rest Hf g Hg. destruct g as [|[|g]]; try lia.
  assert (Hin : ev_expr true g e (vs (cond_toks c) ++ VStr s_rp :: rest)
                = Ok (VBool (denote e c), VStr s_rp :: rest)).
  { apply (HL _ _ 1); [|intros [|g'] Hg'; [lia|apply loop_rp]|lia].
    right. exists s_rp, rest. cbn. auto. }
  replace (vs (s_lp :: cond_toks c ++ [s_rp]) ++ rest) with (VStr s_lp :: vs (cond_toks c) ++ VStr s_rp :: rest)
    by (cbn [vs map app]; fold (vs (cond_toks c ++ [s_rp])); now rewrite vs_app, <- app_assoc).
  rewrite ev_term_S, (prim_paren _ _ _ _ _ _ Hin). cbn [bind]. apply term_finish, Hf.
Qed.

Lemma L_of_T c : is_bin c = false -> T c -> L c.
Proof.
  intros Hb HT rest res f Hf Hloop g Hg.
  unfold T, need_t, term_toks in HT. rewrite Hb in HT.
  pose proof (need_e_pos c) as Hpos.
  destruct g as [|g]; [lia|].
  rewrite ev_expr_S, (HT rest Hf g) by lia. cbn [bind]. apply Hloop. lia.
Qed.

Lemma L_bin s1 s2 o a b : L a -> T b -> L (Bin s1 s2 o a b).
Proof.
  intros La Tb rest res f Hf Hloop g Hg. cbn [need_e] in Hg.
  set (nb := if is_bin b then 3 + need_e b else need_e b) in Hg.
  assert (Hnb : need_t b <= nb) by (unfold need_t, nb; destruct (is_bin b); lia).
  rewrite bin_toks, vs_app, <- app_assoc. cbn [vs map app]. fold (vs (term_toks b)).
  apply (La _ res (1 + f + nb)); [| |lia].
  - right. exists (pr_bin o), (vs (term_toks b) ++ rest). split; [reflexivity|]. destruct o; cbn; auto.
  - intros [|g'] Hg'; [lia|]. rewrite loop_bin, (Tb rest Hf g') by lia. cbn [bind].
    rewrite (bin_value_denote e s1 s2). apply Hloop. lia.
Qed.

Lemma sound c : wf_cond c = true -> L c /\ T c.
Proof.
  induction c as [l v o x | s1 s2 o a IHa b IHb | s1 s2 c IHc]; cbn [wf_cond]; intros Hwf.
  - apply andb_true_iff in Hwf. destruct Hwf as [Hl Hx].
    pose proof (T_atom l v o x Hl Hx) as HT. split; [apply L_of_T; [reflexivity|]|]; exact HT.
  - apply andb_true_iff in Hwf. destruct Hwf as [Ha Hb].
    pose proof (L_bin s1 s2 o a b (proj1 (IHa Ha)) (proj2 (IHb Hb))) as LB.
    split; [exact LB|exact (T_paren _ LB)].
  - pose proof (T_paren c (proj1 (IHc Hwf))) as HT. split; [apply L_of_T; [reflexivity|]|]; exact HT.
Qed.

Lemma eval_tokens_sound c : wf_cond c = true ->
  eval_tokens true e (cond_toks c) = Ok (VBool (denote e c)).
Proof.
  intros Hwf. unfold eval_tokens. fold (vs (cond_toks c)).
  pose proof (proj1 (sound c Hwf) [] (VBool (denote e c), []) 1) as H.
  rewrite app_nil_r in H. rewrite H; [reflexivity|now left| |].
  - intros [|g] Hg; [lia|]. apply loop_end.
  - unfold eval_fuel, vs. rewrite map_length. pose proof (need_e_len c). lia.
Qed.

End Sound.
