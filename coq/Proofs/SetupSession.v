(* Sessions on one Eups object (Model/SetupSession.v): with the table emptied at the start of every top-level
   forward request, a request on a long-lived object answers like a request on a fresh one - whatever table the
   earlier requests left.  The unsetup never reads the table. *)
From Eupsv Require Import Base.Base Model.PathAlg Model.Setup Model.Resolve Model.SetupFull Model.SetupSession.

Definition same_but_table (r1 r2 : fresult) : Prop :=
  match r1, r2 with
  | FDone ok1 st1 _ tr1, FDone ok2 st2 _ tr2 => ok1 = ok2 /\ st1 = st2 /\ tr1 = tr2
  | FRaise st1 _ tr1, FRaise st2 _ tr2 => st1 = st2 /\ tr1 = tr2
  | FFuel tr1, FFuel tr2 => tr1 = tr2
  | FBad tr1, FBad tr2 => tr1 = tr2
  | _, _ => False
  end.

Lemma same_but_table_cases (P : fresult -> fresult -> Prop) r1 r2 :
  same_but_table r1 r2 ->
  (forall ok st a1 a2 tr, P (FDone ok st a1 tr) (FDone ok st a2 tr)) ->
  (forall st a1 a2 tr, P (FRaise st a1 tr) (FRaise st a2 tr)) ->
  (forall tr, P (FFuel tr) (FFuel tr)) -> (forall tr, P (FBad tr) (FBad tr)) -> P r1 r2.
Proof.
  intros S HD HR HF HB. destruct r1, r2; cbn in S; try contradiction.
  - destruct S as (-> & -> & ->). apply HD.
  - destruct S as (-> & ->). apply HR.
  - subst. apply HF.
  - subst. apply HB.
Qed.

Lemma with_trace_same pre r1 r2 : same_but_table r1 r2 -> same_but_table (with_trace pre r1) (with_trace pre r2).
Proof. intro S. pattern r1, r2. apply (same_but_table_cases _ r1 r2 S); cbn; auto. Qed.

Definition unsetup_blind (rec : full_fn) : Prop :=
  forall st al1 al2 vro name li depth just,
    same_but_table (rec st al1 vro name li false depth just) (rec st al2 vro name li false depth just).

Lemma run_actions_unsetup_blind cfg rec depth just vro :
  unsetup_blind rec ->
  forall acts infos st al1 al2,
    same_but_table (run_actions_full cfg rec false depth just vro acts infos st al1)
                   (run_actions_full cfg rec false depth just vro acts infos st al2).
Proof.
  intros Hrec acts. induction acts as [|a acts IH]; intros infos st al1 al2.
  - cbn. auto.
  - cbn [run_actions_full]. destruct a; try (destruct (exec_simple false _ st); [apply IH | cbn; auto]).
    destruct (cut_off cfg just (S depth)); [apply IH|].
    generalize (Hrec st al1 al2 (child_vro vro) name (hd no_info infos) (S depth) just0).
    generalize (rec st al1 (child_vro vro) name (hd no_info infos) false (S depth) just0)
               (rec st al2 (child_vro vro) name (hd no_info infos) false (S depth) just0).
    intros r1 r2 S12. pattern r1, r2. apply (same_but_table_cases _ r1 r2 S12).
    + intros ok st' a1 a2 tr. destruct ok; cbn [andb]; apply with_trace_same, IH.
    + intros st' a1 a2 tr. cbn [andb]. apply with_trace_same, IH.
    + intro tr. reflexivity.
    + intro tr. reflexivity.
Qed.

Lemma setup_full_unsetup_blind vcmp vmatch fw cfg rc flavors fuel :
  unsetup_blind (setup_full vcmp vmatch fw cfg rc flavors fuel).
Proof.
  induction fuel as [|fuel IH]; intros st al1 al2 vro name li depth just.
  - cbn. reflexivity.
  - cbn [setup_full]. unfold setup_full_step.
    destruct (find_setup_product (fw_products fw) (s_env st) name).
    + apply run_actions_unsetup_blind, IH.
    + cbn. auto.
Qed.

Section Session.
Variable vcmp : str -> str -> comparison.
Variable vmatch : str -> str -> bool.
Variable fw : fworld.
Variable cfg : Setup.config.
Variable rc : Resolve.config.
Variable flavors : list str.

Lemma instance_request_like_fresh fuel al st name version fwd just :
  fst (instance_request vcmp vmatch fw cfg rc flavors true fuel al st name version fwd just)
  = request_full vcmp vmatch fw cfg rc flavors fuel st name version fwd just.
Proof.
  unfold instance_request, request_full.
  destruct (select_vro rc (request_opts cfg version)) as [vro|e]; [|reflexivity].
  destruct fwd; cbn [andb].
  - destruct (setup_full vcmp vmatch fw cfg rc flavors fuel st [] vro name _ true 0 just) as [[|] ? ? ?| | |]; reflexivity.
  - generalize (setup_full_unsetup_blind vcmp vmatch fw cfg rc flavors fuel st al [] vro name
                  {| li_version := version; li_expr := None |} 0 just).
    generalize (setup_full vcmp vmatch fw cfg rc flavors fuel st al vro name {| li_version := version; li_expr := None |} false 0 just)
               (setup_full vcmp vmatch fw cfg rc flavors fuel st [] vro name {| li_version := version; li_expr := None |} false 0 just).
    intros r1 r2 S12. pattern r1, r2. apply (same_but_table_cases _ r1 r2 S12).
    + intros ok st' a1 a2 tr. now destruct ok.
    + reflexivity.
    + reflexivity.
    + reflexivity.
Qed.

Lemma session_like_fresh fuel rqs : forall al st,
  session_run vcmp vmatch fw cfg rc flavors true fuel al st rqs = fresh_run vcmp vmatch fw cfg rc flavors fuel st rqs.
Proof.
  induction rqs as [|[[[name version] fwd] just] rest IH]; intros al st; [reflexivity|].
  cbn [session_run fresh_run].
  pose proof (instance_request_like_fresh fuel al st name version fwd just) as H.
  destruct (instance_request vcmp vmatch fw cfg rc flavors true fuel al st name version fwd just) as [o al'].
  cbn in H. subst o. f_equal. apply IH.
Qed.

End Session.
