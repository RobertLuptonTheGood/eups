(* C18: Mapping.add / _apply / apply against the row-by-row reading of a remap table. *)
From Eupsv Require Import Base.Base Base.BaseLemmas Model.Manifest Model.ManifestSpec Proofs.ManifestLib.

Definition mgroup (fm : fmap) (f p : str) : option vmap :=
  match alookup f fm with Some pm => alookup p pm | None => None end.

Definition group_val (fm : fmap) (f p : str) : vmap :=
  match mgroup fm f p with Some vm => vm | None => [] end.

Definition mget (fm : fmap) (f p k : str) : option mval := alookup k (group_val fm f p).

Lemma mget_fm_get fm f p k : mget fm f p k = fm_get fm f p k.
Proof.
  unfold mget, group_val, mgroup, fm_get. destruct (alookup f fm) as [pm|]; [|reflexivity].
  destruct (alookup p pm); reflexivity.
Qed.

(* an absent dictionary reads as an empty one: the lookup in terms of the model's oget *)
Lemma mget_oget fm f p k : mget fm f p k = alookup k (oget p (oget f fm)).
Proof. unfold mget, group_val, mgroup, oget. now destruct (alookup f fm). Qed.

Lemma mget_fm_add fm inP inV outP outV fl f p k :
  mget (fm_add fm inP inV outP outV fl true) f p k =
  if str_eqb f fl && str_eqb p inP && str_eqb k inV then Some (outP, out_version outV) else mget fm f p k.
Proof.
  rewrite !mget_oget. unfold fm_add. cbn [negb andb].
  destruct (str_eqb_spec f fl) as [->|Hf]; cbn [andb]; [rewrite oget_aset_same | now rewrite oget_aset_other].
  destruct (str_eqb_spec p inP) as [->|Hp]; cbn [andb]; [rewrite oget_aset_same | now rewrite oget_aset_other].
  destruct (str_eqb_spec k inV) as [->|Hk]; [now rewrite alookup_aset_same | now rewrite alookup_aset_other].
Qed.

Lemma m_exists1_mget m p v f :
  m_exists1 m p v f = match mget (mp_map m) f p v with Some _ => true | None => false end.
Proof.
  unfold m_exists1, mget, group_val, mgroup, amem.
  destruct (alookup f (mp_map m)) as [pm|]; [|reflexivity]. destruct (alookup p pm); reflexivity.
Qed.

(* the row of one flavor level that answers for (p, v) *)
Definition fm_find (fm : fmap) (f p v : str) : option mval :=
  match mget fm f p v with Some r => Some r | None => mget fm f p s_any end.

(* the row that answers for (p, v) when the running flavor is fl *)
Definition fm_says (fm : fmap) (fl p v : str) : option mval :=
  match fm_find fm fl p v with
  | Some r => Some r
  | None => if str_eqb fl s_generic then None else fm_find fm s_generic p v
  end.

Lemma m_apply1_find m p v f :
  m_apply1 m p v f = match fm_find (mp_map m) f p v with Some r => r | None => (p, Some v) end.
Proof.
  unfold m_apply1, fm_find, mget, group_val, mgroup.
  destruct (alookup f (mp_map m)) as [pm|]; [|reflexivity].
  destruct (alookup p pm) as [vm|]; [|reflexivity].
  destruct (alookup v vm); [reflexivity|]. destruct (alookup s_any vm); reflexivity.
Qed.

Lemma m_apply_says m p v fl :
  m_apply m p v fl = match fm_says (mp_map m) fl p v with Some r => r | None => (p, Some v) end.
Proof.
  unfold m_apply, fm_says. rewrite !m_exists1_mget, !m_apply1_find.
  destruct (str_eqb_spec fl s_generic) as [->|Hg]; cbn [negb andb].
  - destruct (fm_find (mp_map m) s_generic p v); reflexivity.
  - unfold fm_find at 2 3.
    destruct (mget (mp_map m) fl p v); cbn [orb negb]; [reflexivity|].
    destruct (mget (mp_map m) fl p s_any); reflexivity.
Qed.

(* tables that answer every lookup alike are applied alike *)
Definition fm_equiv (a b : fmap) : Prop := forall f p k, fm_get a f p k = fm_get b f p k.

Lemma fm_equiv_mget a b : fm_equiv a b -> forall f p k, mget a f p k = mget b f p k.
Proof. intros H f p k. rewrite !mget_fm_get. apply H. Qed.

Lemma fm_equiv_of_mget a b : (forall f p k, mget a f p k = mget b f p k) -> fm_equiv a b.
Proof. intros H f p k. rewrite <- !mget_fm_get. apply H. Qed.

Lemma m_apply_equiv a b p v fl : fm_equiv (mp_map a) (mp_map b) -> m_apply a p v fl = m_apply b p v fl.
Proof. intros H. rewrite !m_apply_says. unfold fm_says, fm_find. now rewrite !(fm_equiv_mget _ _ H). Qed.

Lemma remap_equiv fx a b fl ds : fm_equiv (mp_map a) (mp_map b) -> remap fx a fl ds = remap fx b fl ds.
Proof.
  intros H. unfold remap. induction ds as [|d ds IH]; cbn [flat_map]; [reflexivity|].
  rewrite IH. unfold remap_dep. now rewrite (m_apply_equiv _ _ _ _ _ H).
Qed.

Lemma fm_equiv_refl a : fm_equiv a a.
Proof. intros f p k. reflexivity. Qed.

Lemma fm_equiv_sym a b : fm_equiv a b -> fm_equiv b a.
Proof. intros H f p k. symmetry. apply H. Qed.

Lemma fm_equiv_trans a b c : fm_equiv a b -> fm_equiv b c -> fm_equiv a c.
Proof. intros H1 H2 f p k. now rewrite H1. Qed.

Definition row_val (r : row) : mval :=
  (match r_outP r with Some (a :: b) => a :: b | _ => r_inP r end, out_version (r_outV r)).

Definition val_verdict (x : mval) : verdict :=
  match snd x with Some w => Replace (fst x) w | None => Delete end.

Lemma verdict_row_val r : verdict_of r = val_verdict (row_val r).
Proof. unfold verdict_of, val_verdict, row_val. cbn [fst snd]. now destruct (r_outV r) as [[|c w]|]. Qed.

Definition lastval (rows : list row) (f p k : str) : option mval :=
  match last_row rows f p k with Some r => Some (row_val r) | None => None end.

Lemma last_row_snoc rows r f p k :
  last_row (rows ++ [r]) f p k = if names f p k r then Some r else last_row rows f p k.
Proof. unfold last_row. rewrite rev_unit. reflexivity. Qed.

Lemma last_row_app a b f p k :
  last_row (a ++ b) f p k = match last_row b f p k with Some r => Some r | None => last_row a f p k end.
Proof. unfold last_row. rewrite rev_app_distr. apply find_app. Qed.

Lemma last_row_names rows f p k r : last_row rows f p k = Some r -> names f p k r = true.
Proof. unfold last_row. intros H. now apply find_some in H. Qed.

Lemma last_row_In rows f p k r : last_row rows f p k = Some r -> In r rows.
Proof. unfold last_row. intros H. apply find_some in H. apply in_rev. apply H. Qed.

Lemma last_row_None_In rows f p k r : last_row rows f p k = None -> In r rows -> names f p k r = false.
Proof. unfold last_row. intros H Hin. apply (find_none _ _ H). now apply in_rev in Hin. Qed.

Lemma lastval_app a b f p k :
  lastval (a ++ b) f p k = match lastval b f p k with Some x => Some x | None => lastval a f p k end.
Proof. unfold lastval. rewrite last_row_app. now destruct (last_row b f p k). Qed.

Lemma m_of_rows_snoc rows r : m_of_rows (rows ++ [r]) = add_row (m_of_rows rows) r.
Proof. unfold m_of_rows. now rewrite fold_left_app. Qed.

Lemma mp_map_add_row m r :
  mp_map (add_row m r) =
  if is_noreinstall (r_outV r) then mp_map m
  else fm_add (mp_map m) (r_inP r) (r_inV r) (fst (row_val r)) (r_outV r) (r_fl r) true.
Proof. unfold add_row, add_row_ow, m_add, row_val. cbn [fst]. now destruct (is_noreinstall (r_outV r)). Qed.

Lemma in_group_eq f p r : in_group f p r = true ->
  r_fl r = f /\ r_inP r = p /\ is_noreinstall (r_outV r) = false.
Proof.
  unfold in_group. intros H. do 2 (apply andb_true_iff in H; destruct H as [H ?]).
  apply str_eqb_eq in H, H1. now apply negb_true_iff in H0.
Qed.

Lemma names_spec f p k r :
  names f p k r = str_eqb f (r_fl r) && str_eqb p (r_inP r) && str_eqb k (r_inV r) && negb (is_noreinstall (r_outV r)).
Proof.
  unfold names, in_group. rewrite (str_eqb_sym (r_fl r)), (str_eqb_sym (r_inP r)), (str_eqb_sym (r_inV r)).
  destruct (str_eqb f (r_fl r)), (str_eqb p (r_inP r)), (str_eqb k (r_inV r)), (is_noreinstall (r_outV r)); reflexivity.
Qed.

(* the dictionaries built by add hold, under every key, the value of the last row that names it *)
Lemma mget_m_of_rows rows f p k : mget (mp_map (m_of_rows rows)) f p k = lastval rows f p k.
Proof.
  induction rows as [|r rows IH] using rev_ind; [reflexivity|].
  rewrite m_of_rows_snoc, mp_map_add_row. unfold lastval. rewrite last_row_snoc, names_spec.
  destruct (is_noreinstall (r_outV r)) eqn:En.
  - cbn [negb]. rewrite andb_false_r. exact IH.
  - cbn [negb]. rewrite andb_true_r, mget_fm_add.
    destruct (str_eqb f (r_fl r) && str_eqb p (r_inP r) && str_eqb k (r_inV r)); [|exact IH].
    unfold row_val. reflexivity.
Qed.

Lemma fm_find_rows rows f p v :
  option_map val_verdict (fm_find (mp_map (m_of_rows rows)) f p v) = level_says rows f p v.
Proof.
  unfold fm_find, level_says. rewrite !mget_m_of_rows. unfold lastval.
  destruct (last_row rows f p v) as [r|]; cbn [option_map]; [now rewrite verdict_row_val|].
  destruct (last_row rows f p s_any) as [r|]; cbn [option_map]; [now rewrite verdict_row_val|reflexivity].
Qed.

Lemma fm_says_rows rows fl p v :
  option_map val_verdict (fm_says (mp_map (m_of_rows rows)) fl p v) = says rows fl p v.
Proof.
  unfold fm_says, says. rewrite <- !fm_find_rows.
  destruct (fm_find (mp_map (m_of_rows rows)) fl p v); cbn [option_map]; [reflexivity|].
  destruct (str_eqb fl s_generic); reflexivity.
Qed.

Lemma remap_dep_says rows fl d :
  remap_dep true (m_of_rows rows) fl d = spec_remap_dep rows fl d.
Proof.
  unfold remap_dep, spec_remap_dep. rewrite m_apply_says, <- fm_says_rows.
  destruct (fm_says (mp_map (m_of_rows rows)) fl (d_product d) (d_version d)) as [[q [w|]]|];
    cbn [option_map val_verdict fst snd]; try reflexivity.
  now rewrite !str_eqb_refl.
Qed.

Lemma remap_says rows fl ds : remap true (m_of_rows rows) fl ds = spec_remap rows fl ds.
Proof.
  unfold remap, spec_remap. induction ds as [|d ds IH]; cbn [flat_map]; [reflexivity|].
  now rewrite remap_dep_says, IH.
Qed.

Lemma apply_says rows fl p v :
  m_apply (m_of_rows rows) p v fl =
  match fm_says (mp_map (m_of_rows rows)) fl p v with Some r => r | None => (p, Some v) end.
Proof. apply m_apply_says. Qed.
