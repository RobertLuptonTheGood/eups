(* C05 - lemmas about Model/Shell.v: the lexer of the shell fragment reads the emitter's
   quoting back exactly; running the lexed commands is a fold of assignments and removals;
   the environment it ends with has the lookups of the computed environment. *)
From Eupsv Require Import Base.Base Base.BaseLemmas Model.Shell Proofs.ShellLib.

(* a character that, outside quotes, simply extends the current word *)
Definition plain_char (c : ascii) : bool :=
  negb (ascii_eqb c c_squote) && negb (is_blank c) && negb (ascii_eqb c c_nl) &&
  negb (ascii_eqb c c_semi) && negb (is_operator c || is_unmodelled c).

(* name_start, word and pathlike are nested by the way they are written *)
Lemma name_start_word c : is_name_start c = true -> is_word c = true.
Proof.
  unfold is_name_start, is_word. intros H. apply orb_true_iff in H.
  destruct H as [-> | ->]; [reflexivity|apply orb_true_r].
Qed.

Lemma word_pathlike c : is_word c = true -> is_pathlike c = true.
Proof.
  unfold is_word, is_pathlike. cbv zeta. intros H.
  apply orb_true_iff in H. destruct H as [H | ->]; [apply orb_true_iff in H; destruct H as [-> | ->]|];
    rewrite ?orb_true_r; reflexivity.
Qed.

(* the one fact about the classes that is a matter of looking at every character *)
Lemma pathlike_plain : forall c, is_pathlike c = true -> plain_char c = true.
Proof. apply all_ascii_impl. vm_compute. reflexivity. Qed.

Lemma word_plain c : is_word c = true -> plain_char c = true.
Proof. intros H. exact (pathlike_plain c (word_pathlike c H)). Qed.

Lemma name_start_plain_b c : implb (is_name_start c) (plain_char c) = true.
Proof. apply implb_true_iff. intros H. exact (word_plain c (name_start_word c H)). Qed.

Lemma word_not_nl_b c : implb (is_word c) (negb (ascii_eqb c c_nl)) = true.
Proof.
  apply implb_true_iff. intros H. apply word_plain in H. unfold plain_char in H.
  destruct (ascii_eqb c c_nl); [|reflexivity]. rewrite andb_false_r in H. discriminate H.
Qed.

Lemma blank_re_space c : is_blank c = true -> is_re_space c = true.
Proof.
  unfold is_blank, is_re_space. cbv zeta.
  destruct (Nat.eqb_spec (nat_of_ascii c) 32) as [->|_]; [reflexivity|].
  destruct (Nat.eqb_spec (nat_of_ascii c) 9) as [->|_]; [reflexivity|discriminate].
Qed.

(* the claim alphabet is the path-like characters plus characters that make needs_quote quote *)
Lemma claim_unspecial_pathlike c :
  is_claim_char c = true -> is_re_space c || is_meta c = false -> is_pathlike c = true.
Proof.
  unfold is_claim_char. intros H N. apply orb_false_iff in N. destruct N as [N1 N2].
  rewrite N2, orb_false_r in H. rewrite !orb_true_iff in H. destruct H as [[H|H]|H]; [exact H| |].
  - rewrite (blank_re_space c H) in N1. discriminate N1.
  - apply ascii_eqb_eq in H. subst c. discriminate N1.
Qed.

Lemma claim_not_quote c : is_claim_char c = true -> is_quote_char c = false.
Proof.
  unfold is_quote_char. cbv zeta. intros H. rewrite <- (ascii_nat_embedding c) in H.
  destruct (Nat.eqb_spec (nat_of_ascii c) 39) as [E|_]; [rewrite E in H; lazy in H; discriminate H|].
  destruct (Nat.eqb_spec (nat_of_ascii c) 34) as [E|_]; [rewrite E in H; lazy in H; discriminate H|reflexivity].
Qed.

Lemma valid_name_words k : valid_name k = true -> forallb is_word k = true.
Proof.
  destruct k as [|c r]; [discriminate|]. cbn [valid_name forallb]. intros H.
  apply andb_true_iff in H. destruct H as [H1 H2]. rewrite (name_start_word c H1). exact H2.
Qed.

Lemma valid_name_plain k : valid_name k = true -> forallb plain_char k = true.
Proof. intros H. exact (forallb_impl _ _ _ word_plain (valid_name_words _ H)). Qed.

Lemma valid_name_nonempty k : valid_name k = true -> k <> [].
Proof. destruct k; [discriminate|intros _; discriminate]. Qed.

Lemma claim_no_squote v : claim_value v = true -> mem_ascii c_squote v = false.
Proof. exact (forallb_not_mem is_claim_char c_squote v eq_refl). Qed.

Lemma valid_name_no_eq k : valid_name k = true -> mem_ascii c_eq k = false.
Proof. intros H. exact (forallb_not_mem is_word c_eq k eq_refl (valid_name_words k H)). Qed.

Lemma lex_plain_step c cur cmd done r :
  plain_char c = true ->
  lex false cur cmd done (c :: r) = lex false (Some (cur_text cur ++ [c])) cmd done r.
Proof.
  unfold plain_char. cbn [lex].
  destruct (ascii_eqb c c_squote); [discriminate|]. destruct (is_blank c); [discriminate|].
  destruct (ascii_eqb c c_nl); [discriminate|]. destruct (ascii_eqb c c_semi); [discriminate|].
  destruct (is_operator c || is_unmodelled c); [discriminate|]. reflexivity.
Qed.

Lemma lex_plain w : forall cur cmd done r,
  forallb plain_char w = true ->
  lex false cur cmd done (w ++ r) =
  lex false (if nonempty w then Some (cur_text cur ++ w) else cur) cmd done r.
Proof.
  induction w as [|c w IH]; intros cur cmd done r H; [reflexivity|].
  cbn [forallb] in H. apply andb_true_iff in H. destruct H as [H1 H2].
  cbn [app nonempty]. rewrite (lex_plain_step _ _ _ _ _ H1). rewrite (IH _ _ _ _ H2).
  cbn [cur_text]. destruct w as [|d w]; cbn [nonempty]; [reflexivity|].
  rewrite <- app_assoc. reflexivity.
Qed.

Lemma lex_in_quote v : forall u cmd done r,
  mem_ascii c_squote v = false ->
  lex true (Some u) cmd done (v ++ c_squote :: r) = lex false (Some (u ++ v)) cmd done r.
Proof.
  induction v as [|c v IH]; intros u cmd done r H.
  - cbn [app lex]. rewrite ascii_eqb_refl. rewrite app_nil_r. reflexivity.
  - cbn [mem_ascii] in H. destruct (ascii_eqb c_squote c) eqn:E; [discriminate|].
    cbn [app lex]. rewrite ascii_eqb_sym, E. cbn [cur_text]. rewrite (IH _ _ _ _ H).
    rewrite <- app_assoc. reflexivity.
Qed.

Lemma strip_final_nl_head v a rest : strip_final_nl v = a :: rest -> exists t, v = a :: t.
Proof.
  unfold strip_final_nl. destruct (rev v) as [|c r] eqn:E.
  - intros H. exists rest. exact H.
  - destruct (ascii_eqb c c_nl); [|intros H; exists rest; exact H].
    intros H. assert (Hv : v = rev r ++ [c]).
    { rewrite <- (rev_involutive v). rewrite E. reflexivity. }
    rewrite H in Hv. exists (rest ++ [c]). exact Hv.
Qed.

Lemma claim_not_looks_quoted v : claim_value v = true -> looks_quoted v = false.
Proof.
  intros Hc. unfold looks_quoted. destruct (strip_final_nl v) as [|a rest] eqn:E; [reflexivity|].
  destruct (strip_final_nl_head _ _ _ E) as [t Ht]. subst v.
  cbn [claim_value forallb] in Hc. apply andb_true_iff in Hc. destruct Hc as [Ha _].
  destruct (rev rest); [reflexivity|]. rewrite (claim_not_quote a Ha). reflexivity.
Qed.

Lemma claim_unspecial_plain v :
  claim_value v = true -> existsb (fun c => is_re_space c || is_meta c) v = false ->
  forallb plain_char v = true.
Proof.
  induction v as [|c v IH]; [reflexivity|]. cbn [claim_value forallb existsb]. intros Hc He.
  apply andb_true_iff in Hc. destruct Hc as [H1 H2].
  apply orb_false_iff in He. destruct He as [E1 E2].
  rewrite (pathlike_plain c (claim_unspecial_pathlike c H1 E1)). exact (IH H2 E2).
Qed.

(* on a value of the claim alphabet needs_quote decides between the two ways of reading it back *)
Lemma needs_quote_claim v :
  claim_value v = true ->
  if needs_quote v then nonempty v = true else v = [] \/ forallb plain_char v = true.
Proof.
  intros Hc. unfold needs_quote. rewrite (claim_not_looks_quoted v Hc). cbn [negb]. rewrite andb_true_r.
  destruct v as [|c v]; cbn [nonempty andb]; [left; reflexivity|].
  destruct (existsb _ (c :: v)) eqn:E; [reflexivity|]. right. exact (claim_unspecial_plain _ Hc E).
Qed.

(* a quoted value extends the current word by exactly that value (quote_lex is the case of no
   current word) *)
Lemma lex_quote_val v cur cmd done r :
  claim_value v = true ->
  lex false cur cmd done (quote_val v ++ r) =
  lex false (if nonempty v then Some (cur_text cur ++ v) else cur) cmd done r.
Proof.
  intros Hc. pose proof (needs_quote_claim v Hc) as Hq. unfold quote_val.
  destruct (needs_quote v).
  - rewrite Hq. cbn [app lex]. rewrite ascii_eqb_refl, <- app_assoc.
    exact (lex_in_quote _ _ _ _ _ (claim_no_squote _ Hc)).
  - destruct Hq as [-> | Hp]; [reflexivity|]. exact (lex_plain _ _ _ _ _ Hp).
Qed.

Inductive scmd := SExport (k v : str) | SUnset (k : str).

Definition text_of (c : scmd) : str :=
  match c with SExport k v => export_cmd k v | SUnset k => unset_cmd k end.
Definition keyword (c : scmd) : str :=
  match c with SExport _ _ => s_export | SUnset _ => s_unset end.
Definition argument (c : scmd) : str :=
  match c with SExport k v => k ++ c_eq :: v | SUnset k => k end.
Definition words_of (c : scmd) : list str := [keyword c; argument c].
Definition scmd_ok (c : scmd) : Prop :=
  match c with
  | SExport k v => valid_name k = true /\ claim_value v = true
  | SUnset k => valid_name k = true
  end.

Lemma lex_keyword kw done r :
  forallb plain_char kw = true -> nonempty kw = true ->
  lex false None [] done ((kw ++ [c_space]) ++ r) = lex false None [kw] done r.
Proof.
  intros Hp Hn. rewrite <- app_assoc. rewrite (lex_plain _ _ _ _ _ Hp), Hn. reflexivity.
Qed.

Lemma lex_name k cmd done r :
  valid_name k = true -> lex false None cmd done (k ++ r) = lex false (Some k) cmd done r.
Proof.
  intros Hk. rewrite (lex_plain _ _ _ _ _ (valid_name_plain _ Hk)).
  destruct k; [discriminate|reflexivity].
Qed.

Lemma lex_text_of c done r :
  scmd_ok c ->
  lex false None [] done (text_of c ++ r) = lex false (Some (argument c)) [keyword c] done r.
Proof.
  destruct c as [k v|k]; cbn [scmd_ok text_of keyword argument].
  - intros [Hk Hv]. unfold export_cmd. change s_export_sp with (s_export ++ [c_space]).
    rewrite <- app_assoc. rewrite lex_keyword by reflexivity.
    rewrite <- app_assoc. rewrite (lex_name _ _ _ _ Hk). cbn [app].
    rewrite (lex_plain_step c_eq) by reflexivity. cbn [cur_text].
    rewrite (lex_quote_val _ _ _ _ _ Hv). cbn [cur_text].
    destruct v; cbn [nonempty]; [|rewrite <- app_assoc]; reflexivity.
  - intros Hk. unfold unset_cmd. change s_unset_sp with (s_unset ++ [c_space]).
    rewrite <- app_assoc. rewrite lex_keyword by reflexivity. exact (lex_name _ _ _ _ Hk).
Qed.

Lemma lex_render_from cs : forall done,
  Forall scmd_ok cs ->
  lex false None [] done (render (map text_of cs)) = Ok (done ++ map words_of cs).
Proof.
  unfold render. induction cs as [|c cs IH]; intros done Hok.
  - cbn. rewrite app_nil_r. reflexivity.
  - inversion Hok as [|? ? Hc Hcs]; subst. cbn [map].
    destruct cs as [|c2 cs2].
    + cbn [map join_str]. rewrite (lex_text_of c done [c_nl] Hc). reflexivity.
    + change (join_str sep (text_of c :: map text_of (c2 :: cs2)))
        with (text_of c ++ sep ++ join_str sep (map text_of (c2 :: cs2))).
      repeat rewrite <- app_assoc. rewrite (lex_text_of c done _ Hc).
      (* the separator closes the command *)
      change (lex false (Some (argument c)) [keyword c] done (sep ++ ?r))
        with (lex false None [] (done ++ [words_of c]) r).
      rewrite (IH _ Hcs). rewrite <- app_assoc. reflexivity.
Qed.

Lemma split_assign_app k v :
  mem_ascii c_eq k = false -> split_assign (k ++ c_eq :: v) = Some (k, v).
Proof.
  induction k as [|c k IH]; cbn [app split_assign mem_ascii]; intros H.
  - rewrite ascii_eqb_refl. reflexivity.
  - destruct (ascii_eqb c_eq c) eqn:E; [discriminate|]. rewrite ascii_eqb_sym, E.
    rewrite (IH H). reflexivity.
Qed.

Definition apply_scmd (e : env) (c : scmd) : env :=
  match c with SExport k v => aset k v e | SUnset k => aremove k e end.

Lemma run_cmd_words c e : scmd_ok c -> run_cmd (words_of c) e = Ok (apply_scmd e c).
Proof.
  destruct c as [k v|k]; cbn [scmd_ok apply_scmd].
  - intros [Hk _]. change (run_cmd (words_of (SExport k v)) e) with (run_export [k ++ c_eq :: v] e).
    cbn [run_export]. rewrite (split_assign_app _ _ (valid_name_no_eq _ Hk)). rewrite Hk. reflexivity.
  - intros Hk. change (run_cmd (words_of (SUnset k)) e) with (run_unset [k] e).
    cbn [run_unset]. rewrite Hk. reflexivity.
Qed.

Lemma sh_run_words cs : forall e,
  Forall scmd_ok cs -> sh_run (map words_of cs) e = Ok (fold_left apply_scmd cs e).
Proof.
  induction cs as [|c cs IH]; intros e H; [reflexivity|].
  inversion H as [|? ? Hc Hcs]; subst. cbn [map sh_run fold_left].
  rewrite (run_cmd_words _ _ Hc). exact (IH _ Hcs).
Qed.

Theorem sh_source_scmds cs e :
  Forall scmd_ok cs -> sh_source (render (map text_of cs)) e = Ok (fold_left apply_scmd cs e).
Proof.
  intros H. unfold sh_source, sh_lex. rewrite (lex_render_from _ _ H). exact (sh_run_words _ _ H).
Qed.

Lemma failed_changes_nothing e : sh_source (render emit_failed) e = Ok e.
Proof. reflexivity. Qed.

Definition export_scmds (old new : env) : list scmd :=
  map (fun kv => SExport (fst kv) (snd kv)) (filter (changed old) new).
Definition unset_keys (is_eups : bool) (old new' : env) : list str :=
  filter (unset_wanted is_eups new') (akeys old).
Definition env_scmds (is_eups fwd : bool) (old new : env) : list scmd :=
  export_scmds old new ++ map SUnset (unset_keys is_eups old (new_after is_eups fwd new)).

Lemma emit_sh_noalias is_eups fwd old new :
  emit Sh is_eups fwd old new [] [] = Ok (map text_of (env_scmds is_eups fwd old new)).
Proof.
  unfold emit, env_scmds, export_scmds, unset_keys, exports, unsets.
  cbn [alias_sets filter map bind alias_unsets akeys]. rewrite app_nil_r.
  rewrite map_app. repeat rewrite map_map. reflexivity.
Qed.

Lemma env_scmds_ok is_eups fwd old new :
  valid_names old = true -> valid_names new = true -> claim_env old new = true ->
  Forall scmd_ok (env_scmds is_eups fwd old new).
Proof.
  intros Ho Hn Hc. apply Forall_app. split; apply Forall_map, Forall_forall.
  - intros [k v] Hin. apply filter_In in Hin. destruct Hin as [Hin Hch]. split.
    + exact (proj1 (forallb_forall _ _) Hn _ (in_map fst _ _ Hin)).
    + pose proof (proj1 (forallb_forall _ _) Hc _ Hin) as H. cbn beta in H. rewrite Hch in H. exact H.
  - intros k Hin. apply filter_In in Hin. exact (proj1 (forallb_forall _ _) Ho _ (proj1 Hin)).
Qed.

(* the environment the model shell ends with when it starts from e *)
Definition final_env_from (e : env) (is_eups fwd : bool) (old new : env) : env :=
  remove_all (unset_keys is_eups old (new_after is_eups fwd new)) (set_all (filter (changed old) new) e).

Lemma apply_env_scmds e is_eups fwd old new :
  fold_left apply_scmd (env_scmds is_eups fwd old new) e = final_env_from e is_eups fwd old new.
Proof. unfold env_scmds, export_scmds. rewrite fold_left_app, !fold_left_map. reflexivity. Qed.

(* env' with its equation serves closed instances: an example names env' and closes the
   equation by evaluation; the other callers give eq_refl *)
Lemma emit_sh_sourced S is_eups fwd old new env' :
  valid_names old = true -> valid_names new = true -> claim_env old new = true ->
  final_env_from S is_eups fwd old new = env' ->
  exists cmds, emit Sh is_eups fwd old new [] [] = Ok cmds /\ sh_source (render cmds) S = Ok env'.
Proof.
  intros Ho Hn Hc <-. exists (map text_of (env_scmds is_eups fwd old new)).
  split; [apply emit_sh_noalias|].
  rewrite (sh_source_scmds _ _ (env_scmds_ok is_eups fwd _ _ Ho Hn Hc)), apply_env_scmds. reflexivity.
Qed.

Lemma changed_false_eq old k v : changed old (k, v) = false -> alookup k old = Some v.
Proof.
  unfold changed. cbn [fst snd]. destruct (alookup k old) as [v'|]; [|discriminate].
  intros H. apply negb_false_iff in H. apply str_eqb_eq in H. congruence.
Qed.

Lemma alookup_new_after k is_eups fwd new :
  alookup k (new_after is_eups fwd new) =
  if negb fwd && is_eups && mem_str k eups_gone then None else alookup k new.
Proof.
  unfold new_after. destruct (negb fwd && is_eups); [|reflexivity].
  exact (alookup_remove_all k eups_gone new).
Qed.

Lemma alookup_protect k is_eups old new' :
  alookup k (protect is_eups old new') =
  match alookup k new' with
  | Some v => Some v
  | None => if negb is_eups && is_protected k then alookup k old else None
  end.
Proof.
  unfold protect. rewrite alookup_app. destruct (alookup k new') as [v|] eqn:E; [reflexivity|].
  rewrite (alookup_filter_key _ (fun k => negb is_eups && is_protected k && negb (amem k new'))).
  - unfold amem. rewrite E. cbn [negb]. rewrite andb_true_r. reflexivity.
  - intros kv. reflexivity.
Qed.

Lemma alookup_final_from e k is_eups fwd old new :
  NoDup (akeys new) ->
  alookup k (final_env_from e is_eups fwd old new) =
  if amem k old && unset_wanted is_eups (new_after is_eups fwd new) k then None
  else match alookup k new with
       | Some v => if changed old (k, v) then Some v else alookup k e
       | None => alookup k e
       end.
Proof.
  intros Hnd. unfold final_env_from. rewrite alookup_remove_all. unfold unset_keys.
  rewrite mem_str_filter, mem_str_akeys, (alookup_set_all_filter _ _ _ _ Hnd). reflexivity.
Qed.

Lemma gone_ok_use is_eups fwd old new k :
  gone_ok is_eups fwd old new = true ->
  negb fwd && is_eups && mem_str k eups_gone = true ->
  amem k new = true -> amem k old = true.
Proof.
  unfold gone_ok. intros Hg Hc Hn.
  apply andb_true_iff in Hc. destruct Hc as [Hc Hm]. rewrite Hc in Hg.
  apply mem_str_In in Hm. pose proof (proj1 (forallb_forall _ _) Hg _ Hm) as H. cbn beta in H.
  rewrite Hn in H. exact H.
Qed.

Lemma in_claim_elim is_eups fwd old new :
  in_claim is_eups fwd old new = true ->
  valid_names old = true /\ valid_names new = true /\ nodup_keys (akeys new) = true /\
  claim_env old new = true /\ gone_ok is_eups fwd old new = true.
Proof.
  unfold in_claim. intros H. repeat (apply andb_true_iff in H; destruct H as [H ?]). auto.
Qed.

(* old can serve as the baseline of the delta for a shell whose environment is S: the two differ
   only where old has nothing and the computed environment new' has a binding (under --force:
   the names that the table actions made eups forget) *)
Definition baseline_for (S old new' : env) : Prop :=
  forall k, alookup k S = alookup k old \/ alookup k old = None /\ amem k new' = true.

Lemma baseline_equiv S old new' : env_equiv S old -> baseline_for S old new'.
Proof. intros He k. left. exact (He k). Qed.

Lemma alookup_forget k forced caller :
  alookup k (forget forced caller) = if mem_str k forced then None else alookup k caller.
Proof. exact (alookup_remove_all k forced caller). Qed.

Lemma baseline_forget forced caller new' :
  forced_ok forced new' = true -> baseline_for caller (forget forced caller) new'.
Proof.
  intros Hf k. rewrite alookup_forget. destruct (mem_str k forced) eqn:Ef; [right|left; reflexivity].
  split; [reflexivity|]. apply mem_str_In in Ef. exact (proj1 (forallb_forall _ _) Hf _ Ef).
Qed.

Lemma final_from_equiv_protect S is_eups fwd old new :
  NoDup (akeys new) -> gone_ok is_eups fwd old new = true ->
  baseline_for S old (new_after is_eups fwd new) ->
  env_equiv (final_env_from S is_eups fwd old new) (protect is_eups S (new_after is_eups fwd new)).
Proof.
  intros Hnd Hg HS k. specialize (HS k). rewrite (alookup_final_from _ _ _ _ _ _ Hnd).
  (* an unchanged binding of new is one of old, hence of S *)
  assert (Hexp : match alookup k new with
                 | Some v => if changed old (k, v) then Some v else alookup k S
                 | None => alookup k S
                 end = match alookup k new with Some v => Some v | None => alookup k S end).
  { destruct (alookup k new) as [v|]; [|reflexivity].
    destruct (changed old (k, v)) eqn:E; [reflexivity|]. apply changed_false_eq in E.
    destruct HS as [H | [H _]]; congruence. }
  rewrite Hexp, alookup_protect. unfold unset_wanted, amem in *. rewrite alookup_new_after in *.
  destruct (negb fwd && is_eups && mem_str k eups_gone) eqn:Egone.
  - (* one of the three variables that unsetup of eups deletes at the end *)
    assert (He : is_eups = true).
    { destruct is_eups; [reflexivity|]. rewrite andb_false_r in Egone. discriminate. }
    subst is_eups. cbn [negb andb]. destruct (alookup k old) as [vo|] eqn:Eo; cbn [andb]; [reflexivity|].
    destruct (alookup k new) as [v|] eqn:En.
    + pose proof (gone_ok_use _ _ _ _ _ Hg Egone) as H. unfold amem in H. rewrite En, Eo in H.
      discriminate (H eq_refl).
    + destruct HS as [H | [_ H]]; [exact H|discriminate H].
  - destruct (alookup k new) as [v|] eqn:En; cbn [negb].
    + rewrite !andb_false_r. reflexivity.
    + rewrite andb_true_r. destruct (negb is_eups && is_protected k); cbn [negb].
      * rewrite andb_false_r. reflexivity.
      * rewrite andb_true_r. destruct (alookup k old); [reflexivity|].
        destruct HS as [H | [_ H]]; [exact H|discriminate H].
Qed.

(* at S = old the conclusion is the model's relation sourced is_eups fwd old new env' *)
Lemma in_claim_sourced S is_eups fwd old new env' :
  in_claim is_eups fwd old new = true -> final_env_from S is_eups fwd old new = env' ->
  exists cmds, emit Sh is_eups fwd old new [] [] = Ok cmds /\ sh_source (render cmds) S = Ok env'.
Proof.
  intros Hc. destruct (in_claim_elim _ _ _ _ Hc) as [Ho [Hn [_ [Hcl _]]]].
  exact (emit_sh_sourced S _ _ _ _ _ Ho Hn Hcl).
Qed.

(* emit_sound is the case S = old, emit_sound_forced the case old = forget forced S *)
Theorem emit_sound_from S is_eups fwd old new :
  in_claim is_eups fwd old new = true -> baseline_for S old (new_after is_eups fwd new) ->
  exists cmds env',
    emit Sh is_eups fwd old new [] [] = Ok cmds /\
    sh_source (render cmds) S = Ok env' /\
    env_equiv env' (protect is_eups S (new_after is_eups fwd new)).
Proof.
  intros Hc HS. destruct (in_claim_elim _ _ _ _ Hc) as [_ [_ [Hnd [_ Hg]]]].
  destruct (in_claim_sourced S _ _ _ _ _ Hc eq_refl) as [cmds [He Hs]].
  exists cmds, (final_env_from S is_eups fwd old new). split; [exact He|]. split; [exact Hs|].
  exact (final_from_equiv_protect _ _ _ _ _ (nodup_keys_NoDup _ Hnd) Hg HS).
Qed.

Lemma sourced_lookup is_eups fwd old new env' :
  in_claim is_eups fwd old new = true -> sourced is_eups fwd old new env' ->
  env_equiv env' (protect is_eups old (new_after is_eups fwd new)).
Proof.
  intros Hc [cmds [He Hs]].
  destruct (emit_sound_from old _ _ _ _ Hc (baseline_equiv _ _ _ (fun k => eq_refl))) as [cmds2 [env2 [He2 [Hs2 Heq]]]].
  rewrite He in He2. inversion He2; subst cmds2. rewrite Hs in Hs2. inversion Hs2; subst env2. exact Heq.
Qed.
