(* Chain records over several flavors and several look-ups in one process (C16):
   lemmas about Model/RecordsExt.v. *)
From Eupsv Require Import Base.Base Base.BaseLemmas Model.Paths Model.Records Model.RecordsExt
  Proofs.RecordsLib Proofs.Records.
From Coq Require Import Lia.

Lemma cf_get_set_same who now v g c : cf_get_version g (cf_set_version who now v g c) = Some v.
Proof.
  unfold cf_get_version, cf_set_version. cbn [cf_info]. rewrite alookup_aset_same.
  destruct (alookup g (cf_info c)) as [old|].
  - apply alookup_aset_same.
  - reflexivity.
Qed.

Lemma cf_get_set_other who now v g f c :
  f <> g -> cf_get_version f (cf_set_version who now v g c) = cf_get_version f c.
Proof.
  intro N. unfold cf_get_version, cf_set_version. cbn [cf_info]. now rewrite alookup_aset_other.
Qed.

Lemma cf_get_remove_same g c : cf_get_version g (cf_remove_version g c) = None.
Proof.
  unfold cf_get_version, cf_remove_version. cbn [cf_info].
  induction (cf_info c) as [|[k i] m IH]; [reflexivity|]. cbn [aremove].
  destruct (str_eqb g k) eqn:E; [exact IH|]. cbn [alookup]. now rewrite E.
Qed.

Lemma cf_get_remove_other g f c :
  f <> g -> cf_get_version f (cf_remove_version g c) = cf_get_version f c.
Proof.
  intro N. unfold cf_get_version, cf_remove_version. cbn [cf_info]. now rewrite alookup_aremove_other.
Qed.

Lemma cf_set_versions_names who now v fls c :
  cf_name (cf_set_versions who now v fls c) = cf_name c /\
  cf_tag (cf_set_versions who now v fls c) = cf_tag c.
Proof.
  revert c. induction fls as [|g r IH]; intro c; [split; reflexivity|].
  cbn [cf_set_versions]. destruct (IH (cf_set_version who now v g c)) as [A B].
  rewrite A, B. split; reflexivity.
Qed.

Lemma cf_remove_versions_other fls f c :
  ~ In f fls -> cf_get_version f (cf_remove_versions fls c) = cf_get_version f c.
Proof.
  revert c. induction fls as [|g r IH]; intros c N; [reflexivity|].
  cbn [cf_remove_versions]. rewrite IH by (intro H; apply N; now right).
  apply cf_get_remove_other. intros ->. apply N. now left.
Qed.

Lemma cf_remove_versions_in fls f c :
  In f fls -> cf_get_version f (cf_remove_versions fls c) = None.
Proof.
  revert c. induction fls as [|g r IH]; intros c H; [destruct H|].
  cbn [cf_remove_versions].
  destruct (mem_str f r) eqn:M.
  - apply IH. now apply mem_str_In.
  - apply mem_str_not_In in M. rewrite cf_remove_versions_other by assumption.
    destruct H as [->|H]; [apply cf_get_remove_same|contradiction].
Qed.

Lemma mem_str_app x a b : mem_str x (a ++ b) = mem_str x a || mem_str x b.
Proof.
  induction a as [|y a IH]; [reflexivity|]. cbn [app mem_str]. destruct (str_eqb x y); [reflexivity|exact IH].
Qed.

(* [rest] is what is still to be visited, [kept] what has been appended so far *)
Lemma reduce_loop_spec declared rest : forall kept,
  (forall x, In x kept -> ~ In x rest) ->
  forall f, In f (reduce_loop (length rest) (rest ++ kept) declared) <->
            In f kept \/ (In f rest /\ In f declared).
Proof.
  induction rest as [|g rest IH]; intros kept Inv f.
  - cbn [length reduce_loop app]. split; [now left|]. intros [H|[[] _]]. exact H.
  - cbn [length app reduce_loop].
    assert (Gk : mem_str g kept = false).
    { apply mem_str_not_In. intro H. apply (Inv g H). now left. }
    rewrite mem_str_app, Gk, Bool.orb_false_r.
    destruct (mem_str g declared) eqn:D; cbn [andb].
    + destruct (mem_str g rest) eqn:M; cbn [negb].
      * rewrite IH by (intros x Hx Hr; apply (Inv x Hx); now right).
        apply mem_str_In in M. apply mem_str_In in D. cbn [In].
        intuition (subst; auto).
      * apply mem_str_not_In in M. rewrite <- app_assoc.
        rewrite IH.
        -- apply mem_str_In in D. rewrite in_app_iff. cbn [In].
           intuition (subst; auto).
        -- intros x Hx Hr. apply in_app_iff in Hx. destruct Hx as [Hx|[<-|[]]].
           ++ apply (Inv x Hx). now right.
           ++ contradiction.
    + rewrite IH by (intros x Hx Hr; apply (Inv x Hx); now right).
      apply mem_str_not_In in D. cbn [In].
      intuition (subst; auto; contradiction).
Qed.

Lemma reduce_loop_nodup declared rest : forall kept,
  (forall x, In x kept -> ~ In x rest) -> NoDup kept ->
  NoDup (reduce_loop (length rest) (rest ++ kept) declared).
Proof.
  induction rest as [|g rest IH]; intros kept Inv ND.
  - exact ND.
  - cbn [length app reduce_loop].
    assert (Gk : mem_str g kept = false).
    { apply mem_str_not_In. intro H. apply (Inv g H). now left. }
    rewrite mem_str_app, Gk, Bool.orb_false_r.
    destruct (mem_str g declared && negb (mem_str g rest)) eqn:C.
    + apply andb_true_iff in C. destruct C as [_ M]. apply Bool.negb_true_iff in M.
      apply mem_str_not_In in M. rewrite <- app_assoc. apply IH.
      * intros x Hx Hr. apply in_app_iff in Hx. destruct Hx as [Hx|[<-|[]]].
        -- apply (Inv x Hx). now right.
        -- contradiction.
      * apply NoDup_snoc; [exact ND|]. intro H. apply (Inv g H). now left.
    + apply IH; [|exact ND]. intros x Hx Hr. apply (Inv x Hx). now right.
Qed.

(* which list assignTag starts from *)
Definition requested (req : option (list str)) (declared : list str) : list str :=
  match req with
  | None | Some [] => declared
  | Some l => l
  end.

Lemma assign_flavors_spec req declared f :
  In f (assign_flavors req declared) <-> In f (requested req declared) /\ In f declared.
Proof.
  unfold assign_flavors. fold (requested req declared).
  pose proof (reduce_loop_spec declared (requested req declared) [] (fun x H => match H with end) f) as S.
  rewrite app_nil_r in S. rewrite S. split; [intros [[]|H]; exact H|now right].
Qed.

Lemma assign_flavors_nodup req declared : NoDup (assign_flavors req declared).
Proof.
  unfold assign_flavors. fold (requested req declared).
  pose proof (reduce_loop_nodup declared (requested req declared) [] (fun x H => match H with end)
                                (NoDup_nil _)) as S.
  now rewrite app_nil_r in S.
Qed.

Lemma db_find1_read ex root d n v f ls r :
  text_of n v d = Some ls -> vf_read None None ls = Ok r ->
  db_find1 ex root d (n, v, f)
  = Ok (make_product ex r f (Some root) (Some (path_join root s_ups_db))).
Proof. intros T E. unfold db_find1. rewrite T. now apply (db_find_read _ _ _ _ _ _ _ r). Qed.

Lemma db_find_seq_nth ex root d qs k :
  nth_error (db_find_seq ex root d qs) k = option_map (db_find1 ex root d) (nth_error qs k).
Proof.
  unfold db_find_seq. revert k. induction qs as [|q r IH]; intros [|k]; try reflexivity. cbn. apply IH.
Qed.

