(* Basic lemmas for Model/Graph.v: lengths of filtered lists and NoDup of appended lists, decidable
   equality of nodes, membership, counting the nodes not yet seen, string order. *)
From Coq Require Import Lia.
From Eupsv Require Import Base.Base Base.BaseLemmas Model.Graph.

Lemma filter_length_le {A} (f g : A -> bool) l :
  (forall x, f x = true -> g x = true) -> length (filter f l) <= length (filter g l).
Proof.
  intros H. induction l as [|x l IH]; simpl; [lia|].
  destruct (f x) eqn:F.
  - rewrite (H _ F). simpl. lia.
  - destruct (g x); simpl; lia.
Qed.

Lemma filter_length_lt {A} (f g : A -> bool) l x :
  (forall y, f y = true -> g y = true) -> In x l -> f x = false -> g x = true ->
  length (filter f l) < length (filter g l).
Proof.
  intros H. induction l as [|y l IH]; simpl; [tauto|].
  intros [-> | I] F G.
  - rewrite F, G. simpl. pose proof (filter_length_le f g l H). lia.
  - specialize (IH I F G). destruct (f y) eqn:Fy.
    + rewrite (H _ Fy). simpl. lia.
    + destruct (g y); simpl; lia.
Qed.

Lemma filter_length_le_all {A} (f : A -> bool) l : length (filter f l) <= length l.
Proof. induction l as [|x l IHl]; simpl; [lia|]. destruct (f x); simpl; lia. Qed.

Lemma skipn_length_app {A} (a b : list A) : skipn (length a) (a ++ b) = b.
Proof. rewrite skipn_app, skipn_all, Nat.sub_diag. reflexivity. Qed.

Lemma firstn_length_app {A} (a b : list A) : firstn (length a) (a ++ b) = a.
Proof. rewrite firstn_app, firstn_all, Nat.sub_diag. simpl. apply app_nil_r. Qed.

Lemma NoDup_app_inv {A} (a b : list A) :
  NoDup (a ++ b) -> NoDup a /\ NoDup b /\ (forall x, In x a -> ~ In x b).
Proof.
  induction a as [|y a IH]; simpl; intros H.
  - split; [constructor|]. split; [exact H | tauto].
  - inversion H as [|? ? N D]. subst. destruct (IH D) as [H1 [H2 H3]]. split.
    + constructor; [|exact H1]. intros I. apply N. apply in_or_app. auto.
    + split; [exact H2|]. intros x [<- | I]; [|auto]. intros J. apply N. apply in_or_app. auto.
Qed.

Lemma NoDup_app_intro {A} (a b : list A) :
  NoDup a -> NoDup b -> (forall x, In x a -> ~ In x b) -> NoDup (a ++ b).
Proof.
  induction a as [|y a IH]; simpl; intros H1 H2 H3; [exact H2|].
  inversion H1 as [|? ? N D]. subst. constructor.
  - intros I. apply in_app_iff in I as [I | I]; [contradiction|]. apply (H3 y); auto.
  - apply IH; auto.
Qed.

Lemma ostr_eqb_eq a b : ostr_eqb a b = true <-> a = b.
Proof.
  destruct a, b; simpl; try (split; congruence).
  rewrite str_eqb_eq. split; congruence.
Qed.

Lemma ostr_eqb_refl a : ostr_eqb a a = true.
Proof. apply ostr_eqb_eq. reflexivity. Qed.

Lemma node_eqb_eq (a b : node) : node_eqb a b = true <-> a = b.
Proof.
  destruct a as [[an av] ar], b as [[bn bv] br]. unfold node_eqb, nname, nver, nreal. simpl.
  rewrite !andb_true_iff, str_eqb_eq, ostr_eqb_eq, Bool.eqb_true_iff.
  split; [intros [[-> ->] ->]; reflexivity | intros H; inversion H; auto].
Qed.

Lemma node_eqb_refl a : node_eqb a a = true.
Proof. apply node_eqb_eq. reflexivity. Qed.

Lemma node_eqb_neq (a b : node) : node_eqb a b = false <-> a <> b.
Proof.
  split.
  - intros H E. apply node_eqb_eq in E. congruence.
  - intros H. destruct (node_eqb a b) eqn:E; [apply node_eqb_eq in E; contradiction | reflexivity].
Qed.

Lemma node_eqb_sym a b : node_eqb a b = node_eqb b a.
Proof.
  destruct (node_eqb a b) eqn:E.
  - apply node_eqb_eq in E. subst. symmetry. apply node_eqb_refl.
  - symmetry. apply node_eqb_neq. apply node_eqb_neq in E. congruence.
Qed.

Lemma node_eq_dec (a b : node) : {a = b} + {a <> b}.
Proof. destruct (node_eqb a b) eqn:E; [left; apply node_eqb_eq, E | right; apply node_eqb_neq, E]. Qed.

Lemma mem_node_In x l : mem_node x l = true <-> In x l.
Proof.
  induction l as [|y l IH]; simpl; [split; [discriminate | tauto]|].
  destruct (node_eqb x y) eqn:E.
  - apply node_eqb_eq in E. subst. tauto.
  - apply node_eqb_neq in E. rewrite IH. split; [tauto | intros [H | H]; [congruence | assumption]].
Qed.

Lemma mem_node_not_In x l : mem_node x l = false <-> ~ In x l.
Proof. rewrite <- mem_node_In. destruct (mem_node x l); split; congruence. Qed.

(* the nodes of U not yet in a growing set: the measure by which the walks and Tarjan's visit end *)
Definition not_in (seen : list node) (k : node) : bool := negb (mem_node k seen).

Lemma not_in_true seen k : not_in seen k = true <-> ~ In k seen.
Proof. unfold not_in. rewrite negb_true_iff. apply mem_node_not_In. Qed.

Lemma count_not_in_mono U s s' : incl s s' -> length (filter (not_in s') U) <= length (filter (not_in s) U).
Proof. intros H. apply filter_length_le. intros x. rewrite !not_in_true. auto. Qed.

Lemma count_not_in_lt U s s' n :
  incl s s' -> In n U -> ~ In n s -> In n s' -> length (filter (not_in s') U) < length (filter (not_in s) U).
Proof.
  intros H K N I. apply filter_length_lt with (x := n); [|exact K| |].
  - intros x. rewrite !not_in_true. auto.
  - destruct (not_in s' n) eqn:E; [apply not_in_true in E; contradiction | reflexivity].
  - apply not_in_true, N.
Qed.

Lemma uniq_nodes_In x l : In x (uniq_nodes l) <-> In x l.
Proof.
  induction l as [|y l IH]; simpl; [tauto|].
  rewrite filter_In, IH. destruct (node_eq_dec x y) as [-> | N].
  - tauto.
  - apply node_eqb_neq in N as N'. rewrite N'. simpl. split; [tauto|]. intros [H | H]; [congruence | tauto].
Qed.

Lemma uniq_nodes_NoDup l : NoDup (uniq_nodes l).
Proof.
  induction l as [|y l IH]; simpl; constructor.
  - rewrite filter_In. intros [_ H]. rewrite node_eqb_refl in H. discriminate.
  - apply NoDup_filter, IH.
Qed.

Lemma nodup_nodes_NoDup l : nodup_nodes l = true <-> NoDup l.
Proof.
  induction l as [|x l IH]; simpl.
  - split; [constructor | reflexivity].
  - rewrite andb_true_iff, negb_true_iff, mem_node_not_In, IH. split.
    + intros [H1 H2]. constructor; assumption.
    + intros H. inversion H. auto.
Qed.

Lemma table_of_In w n v es : table_of w n v = Some es -> In ((n, v), es) w.
Proof.
  induction w as [|[[n' v'] es'] w IH]; simpl; [discriminate|].
  destruct (str_eqb n n' && str_eqb v v') eqn:E.
  - apply andb_true_iff in E as [E1 E2]. apply str_eqb_eq in E1, E2. subst. intros H. inversion H. auto.
  - auto.
Qed.

Lemma node_table_world_nodes w p es : node_table w p = Some es -> In p (world_nodes w).
Proof.
  destruct p as [[n ov] r]. unfold node_table, nreal, nver, nname. simpl.
  destruct r; [|discriminate]. destruct ov as [v|]; [|discriminate].
  intros H. apply table_of_In in H. unfold world_nodes. apply in_map_iff.
  exists ((n, v), es). auto.
Qed.

Lemma node_table_real w p es : node_table w p = Some es -> nreal p = true.
Proof. unfold node_table. destruct (nreal p); [reflexivity | discriminate]. Qed.

Lemma nat_of_ascii_inj a b : nat_of_ascii a = nat_of_ascii b -> a = b.
Proof. intros H. rewrite <- (ascii_nat_embedding a), <- (ascii_nat_embedding b), H. reflexivity. Qed.

Lemma str_compare_eq a b : str_compare a b = Eq <-> a = b.
Proof.
  revert b. induction a as [|x a IH]; destruct b as [|y b]; simpl; try (split; congruence).
  destruct (Nat.compare (nat_of_ascii x) (nat_of_ascii y)) eqn:E.
  - apply Nat.compare_eq in E. apply nat_of_ascii_inj in E. subst. rewrite IH. split; congruence.
  - split; [discriminate|]. intros H. inversion H. subst. rewrite Nat.compare_refl in E. discriminate.
  - split; [discriminate|]. intros H. inversion H. subst. rewrite Nat.compare_refl in E. discriminate.
Qed.

Lemma str_compare_refl a : str_compare a a = Eq.
Proof. apply str_compare_eq. reflexivity. Qed.
