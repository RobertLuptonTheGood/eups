(* What a call of setup (Model/Setup.v, every resolver) can do to the variables and aliases that products own,
   in positive form (C02):
     - a variable that is not a path variable is unchanged, or is owned by a product name the call touches;
     - a variable that some table sets with envSet is unchanged, or unset, or holds a value some table sets it to;
     - for every product name the world knows: NAME_DIR_EXTRA is unchanged or unset, and SETUP_NAME / NAME_DIR
       are both unchanged, or both unset, or both written for one declared product of that name;
     - an alias is unchanged, or is defined by a table of a product name the call touches.
   The relations are reflexive and transitive, so they hold across setup followed by unsetup.
   At the end [alias_acc], the accounting of the aliases that Proofs/SetupUnwind.v and Proofs/SetupFullClosure.v share. *)
From Eupsv Require Import Base.Base Base.BaseLemmas Model.PathAlg Proofs.PathAlg Model.Setup Proofs.SetupFrame
     Proofs.SetupInv.

Section Own.
Variable w : world.
Variable cfg : config.
Variable dl : str -> ascii.
Variable rank : str -> nat.
Hypothesis H : WF2 w dl rank.

Notation has_name := (has_name w).
Notation own_var := (own_var w).
Notation own_alias := (own_alias w).
Notation path_var := (path_var w).
Notation set_var := (set_var w).
Notation known := (known w).
Notation touches := (touches w).
Notation nodollar_paths := (nodollar_paths w).

(* a value an envSet action can leave in k *)
Definition written (k : str) (val : option str) : Prop :=
  val = None \/ exists p v, In p w /\ In (ASet k v) (p_actions p) /\ val = Some v.

Definition res_rel (n : str) (e e' : amap str) : Prop :=
  (alookup (extra_var n) e' = alookup (extra_var n) e \/ alookup (extra_var n) e' = None) /\
  ((alookup (setup_var n) e' = alookup (setup_var n) e /\ alookup (dir_var n) e' = alookup (dir_var n) e) \/
   (alookup (setup_var n) e' = None /\ alookup (dir_var n) e' = None) \/
   (exists p, has_name n p /\ alookup (setup_var n) e' = Some (setup_string cfg n (p_version p)) /\
              alookup (dir_var n) e' = Some (p_dir p))).

Record own_rel (N : str -> Prop) (e e' : amap str) : Prop := {
  or_changed : forall k, ~ path_var k -> alookup k e' = alookup k e \/ exists n, N n /\ own_var n k;
  or_set : forall k, set_var k -> alookup k e' = alookup k e \/ written k (alookup k e');
  or_res : forall n, known n -> res_rel n e e' }.

Definition alias_rel (N : str -> Prop) (a a' : amap str) : Prop :=
  forall k, alookup k a' = alookup k a \/ exists n, N n /\ own_alias n k.

Definition st_rel (N : str -> Prop) (st st' : state) : Prop :=
  own_rel N (s_env st) (s_env st') /\ alias_rel N (s_aliases st) (s_aliases st').

Lemma res_rel_refl n e : res_rel n e e.
Proof. split; [now left|left; now split]. Qed.

Lemma res_rel_trans n e1 e2 e3 : res_rel n e1 e2 -> res_rel n e2 e3 -> res_rel n e1 e3.
Proof.
  intros [X1 M1] [X2 M2]. split.
  - destruct X2 as [X2|X2]; [rewrite X2; exact X1|now right].
  - destruct M2 as [[S2 D2]|[M2|M2]]; [|right; now left|right; now right].
    rewrite S2, D2. exact M1.
Qed.

Lemma own_rel_refl N e : own_rel N e e.
Proof. split; [now left|now left|intros; apply res_rel_refl]. Qed.

Lemma own_rel_trans N e1 e2 e3 : own_rel N e1 e2 -> own_rel N e2 e3 -> own_rel N e1 e3.
Proof.
  intros [C1 S1 R1] [C2 S2 R2]. split.
  - intros k Hk. destruct (C2 k Hk) as [E|O]; [|now right]. rewrite E. now apply C1.
  - intros k Hk. destruct (S2 k Hk) as [E|W]; [|now right]. rewrite E. now apply S1.
  - intros n Kn. exact (res_rel_trans n e1 e2 e3 (R1 n Kn) (R2 n Kn)).
Qed.

Lemma own_rel_mono (N M : str -> Prop) e e' : (forall n, N n -> M n) -> own_rel N e e' -> own_rel M e e'.
Proof.
  intros HNM [C S R]. split; [|assumption|assumption].
  intros k Hk. destruct (C k Hk) as [E|[n [Hn O]]]; [now left|right]. exists n. split; [now apply HNM|assumption].
Qed.

Lemma alias_rel_refl N a : alias_rel N a a.
Proof. intro k. now left. Qed.

Lemma alias_rel_trans N a1 a2 a3 : alias_rel N a1 a2 -> alias_rel N a2 a3 -> alias_rel N a1 a3.
Proof. intros A1 A2 k. destruct (A2 k) as [E|O]; [|now right]. rewrite E. apply A1. Qed.

Lemma alias_rel_mono (N M : str -> Prop) a a' : (forall n, N n -> M n) -> alias_rel N a a' -> alias_rel M a a'.
Proof. intros HNM A k. destruct (A k) as [E|[n [Hn O]]]; [now left|right]. exists n. split; [now apply HNM|assumption]. Qed.

Lemma st_rel_refl N st : st_rel N st st.
Proof. split; [apply own_rel_refl|apply alias_rel_refl]. Qed.

Lemma st_rel_trans N s1 s2 s3 : st_rel N s1 s2 -> st_rel N s2 s3 -> st_rel N s1 s3.
Proof.
  intros [A1 B1] [A2 B2]. split; [exact (own_rel_trans N _ _ _ A1 A2)|exact (alias_rel_trans N _ _ _ B1 B2)].
Qed.

Lemma st_rel_mono (N M : str -> Prop) st st' : (forall n, N n -> M n) -> st_rel N st st' -> st_rel M st st'.
Proof. intros HNM [A B]. split; [now apply (own_rel_mono N M)|now apply (alias_rel_mono N M)]. Qed.

Lemma reserved_apart n m : known n -> known m -> n <> m ->
  forall a b, (a = setup_var n \/ a = dir_var n \/ a = extra_var n) ->
              (b = setup_var m \/ b = dir_var m \/ b = extra_var m) -> a <> b.
Proof.
  intros Kn Km Hne a b Ha Hb E. subst b.
  apply (wf_var_apart w dl rank H n m a Kn Km Hne); now apply own_var_reserved.
Qed.

Lemma res_rel_same n e e' :
  alookup (setup_var n) e' = alookup (setup_var n) e -> alookup (dir_var n) e' = alookup (dir_var n) e ->
  alookup (extra_var n) e' = alookup (extra_var n) e -> res_rel n e e'.
Proof. intros A B C. split; [now left|left; now split]. Qed.

(* a change of the reserved variables of one name that keeps to what res_rel allows *)
Lemma reserved_change_rel (N : str -> Prop) name e e' :
  N name -> known name ->
  (forall k, k <> setup_var name -> k <> dir_var name -> k <> extra_var name -> alookup k e' = alookup k e) ->
  res_rel name e e' -> own_rel N e e'.
Proof.
  intros Hn Kname Look R.
  assert (Own : forall k, k = setup_var name \/ k = dir_var name \/ k = extra_var name \/
                          alookup k e' = alookup k e).
  { intro k. destruct (str_eq_dec k (setup_var name)) as [E|N1]; [now left|].
    destruct (str_eq_dec k (dir_var name)) as [E|N2]; [right; now left|].
    destruct (str_eq_dec k (extra_var name)) as [E|N3]; [right; right; now left|].
    right; right; right. exact (Look k N1 N2 N3). }
  split.
  - intros k _. destruct (Own k) as [E|[E|[E|E]]]; [right|right|right|now left];
      (exists name; split; [exact Hn|apply own_var_reserved; auto]).
  - intros k Hk. left. destruct (Own k) as [E|[E|[E|E]]]; [exfalso|exfalso|exfalso|exact E];
      apply (wf_set_not_reserved (wf_base w dl rank H) _ Hk); exists name; auto.
  - intros n Kn. destruct (str_eq_dec n name) as [->|Nn]; [exact R|].
    pose proof (reserved_apart n name Kn Kname Nn) as Ap.
    apply res_rel_same; apply Look; apply Ap; auto.
Qed.

Lemma set_vars_rel (N : str -> Prop) name p st :
  N name -> has_name name p ->
  own_rel N (s_env st) (s_env (set_product_vars cfg st name p)).
Proof.
  intros Hn Hp. apply (reserved_change_rel N name _ _ Hn (known_has_name w name p Hp)).
  - intros k N1 N2 _. now apply set_vars_lookup.
  - split.
    + left. apply set_vars_lookup; apply not_eq_sym; [apply setup_extra_differ|apply dir_extra_differ].
    + right. right. exists p. split; [assumption|split; [apply set_vars_setup|apply set_vars_dir]].
Qed.

Lemma unset_vars_rel (N : str -> Prop) name st :
  N name -> known name ->
  own_rel N (s_env st) (s_env (unset_product_vars st name)).
Proof.
  intros Hn Kname. apply (reserved_change_rel N name _ _ Hn Kname).
  - intro k. apply unset_vars_lookup.
  - split; [right|right; left; split]; apply unset_vars_gone; auto.
Qed.

(* a change of one variable that is not reserved: a variable the name owns unless it is a path variable, left with
   a value some table writes if it is an envSet variable *)
Lemma single_change_rel (N : str -> Prop) name e e' var :
  N name -> (forall k, k <> var -> alookup k e' = alookup k e) -> ~ reserved var ->
  (~ path_var var -> own_var name var) -> (set_var var -> written var (alookup var e')) ->
  own_rel N e e' /\ forall k, reserved k -> alookup k e' = alookup k e.
Proof.
  intros Hn Oth Nr Ov Wr.
  assert (R : forall k, reserved k -> alookup k e' = alookup k e).
  { intros k Hk. apply Oth. intros ->. contradiction. }
  split; [split|exact R].
  - intros k Hk. destruct (str_eq_dec k var) as [->|Nk]; [right; exists name; auto|left; now apply Oth].
  - intros k Hk. destruct (str_eq_dec k var) as [->|Nk]; [right; auto|left; now apply Oth].
  - intros n _. apply res_rel_same; apply R, (reserved_vars n).
Qed.

Lemma simple_rel (N : str -> Prop) name p fwd a st :
  N name -> has_name name p -> In a (p_actions p) -> (forall o m j, a <> ASetup o m j) ->
  nodollar_paths (s_env st) ->
  exists st', exec_simple fwd a st = Ok st' /\ st_rel N st st' /\ nodollar_paths (s_env st') /\
    (forall k, reserved k -> alookup k (s_env st') = alookup k (s_env st)) /\
    (((forall k v, a <> AAlias k v) /\ s_aliases st' = s_aliases st) \/
     exists k v, a = AAlias k v /\ s_env st' = s_env st /\
                 s_aliases st' = if fwd then aset k v (s_aliases st) else aremove k (s_aliases st)).
Proof.
  intros Hn Hp Ha Hns Hnd.
  destruct a as [o m j|ap var v d|k v|k|k v|]; cbn [exec_simple].
  - elim (Hns o m j eq_refl).
  - destruct (path_step_facts w dl rank H name p ap fwd var v d (s_env st) Hp Ha Hnd) as [e' [E1 [_ [E3 [E4 _]]]]].
    rewrite E1. eexists. split; [reflexivity|]. cbn [with_env s_env s_aliases].
    assert (Hpv : path_var var) by (exists p, ap, v, d; split; [apply Hp|assumption]).
    destruct (single_change_rel N name _ e' var Hn E4 (wf_path_not_reserved (wf_base w dl rank H) var Hpv)) as [O R].
    + intro Np. contradiction.
    + intro Hs. elim (wf_path_not_set (wf_base w dl rank H) var Hpv Hs).
    + split; [split; [exact O|apply alias_rel_refl]|].
      split; [assumption|split; [exact R|left; split; [discriminate|reflexivity]]].
  - destruct (set_step_facts w dl rank H name p fwd k v (s_env st) Hp Ha Hnd) as [E1 [_ E3]].
    rewrite E1. eexists. split; [reflexivity|]. cbn [with_env s_env s_aliases].
    assert (Hsv : set_var k) by (exists p, v; split; [apply Hp|assumption]).
    destruct (single_change_rel N name (s_env st) (if fwd then aset k v (s_env st) else aremove k (s_env st)) k Hn) as [O R].
    + intros k' Nk. destruct fwd; [now apply alookup_aset_other|now apply alookup_aremove_other].
    + exact (wf_set_not_reserved (wf_base w dl rank H) k Hsv).
    + intros _. exact (own_set w name p k v Hp Ha).
    + intros _. destruct fwd.
      * right. exists p, v. split; [apply Hp|]. split; [assumption|apply alookup_aset_same].
      * left. apply alookup_aremove_same.
    + split; [split; [exact O|apply alias_rel_refl]|].
      split; [assumption|split; [exact R|left; split; [discriminate|reflexivity]]].
  - elim (wf_nounset (wf_base w dl rank H) p k (proj1 Hp) Ha).
  - eexists. split; [reflexivity|]. cbn [s_env s_aliases].
    split; [split; [apply own_rel_refl|]|split; [assumption|split; [reflexivity|]]].
    + intro k'. destruct (str_eq_dec k' k) as [->|Nk].
      * right. exists name. split; [assumption|]. exists p, v. split; assumption.
      * left. destruct fwd; [now apply alookup_aset_other|now apply alookup_aremove_other].
    + right. exists k, v. split; [reflexivity|split; reflexivity].
  - exists st. split; [reflexivity|]. split; [apply st_rel_refl|].
    split; [assumption|split; [reflexivity|left; split; [discriminate|reflexivity]]].
Qed.

Lemma simple_st_rel (N : str -> Prop) n p fwd a st :
  N n -> has_name n p -> In a (p_actions p) -> (forall o m j, a <> ASetup o m j) -> nodollar_paths (s_env st) ->
  exists st', exec_simple fwd a st = Ok st' /\ st_rel N st st' /\ nodollar_paths (s_env st').
Proof.
  intros Hn Hp Ha Hns Hnd. destruct (simple_rel N n p fwd a st Hn Hp Ha Hns Hnd) as [st' [E [R [D _]]]].
  now exists st'.
Qed.

Lemma set_vars_st_rel (N : str -> Prop) n p st : N n -> has_name n p -> nodollar_paths (s_env st) ->
  st_rel N st (set_product_vars cfg st n p) /\ nodollar_paths (s_env (set_product_vars cfg st n p)).
Proof.
  intros Hn Hp D. destruct (set_product_vars_ok w cfg dl (wf_base w dl rank H) N n p st Hn D) as [_ [D2 A2]].
  split; [split; [now apply set_vars_rel|rewrite A2; apply alias_rel_refl]|exact D2].
Qed.

Lemma unset_vars_st_rel (N : str -> Prop) n p st : N n -> has_name n p -> nodollar_paths (s_env st) ->
  st_rel N st (unset_product_vars st n) /\ nodollar_paths (s_env (unset_product_vars st n)).
Proof.
  intros Hn Hp D. destruct (unset_product_vars_ok w dl (wf_base w dl rank H) N n st Hn D) as [_ [D2 A2]].
  split; [split; [exact (unset_vars_rel N n st Hn (known_has_name w n p Hp))|rewrite A2; apply alias_rel_refl]|exact D2].
Qed.

Definition fn_own (rec : setup_fn) : Prop :=
  forall st ds name fwd depth just, nodollar_paths (s_env st) -> depth_ok cfg depth ->
    match rec st ds name fwd depth just with
    | RDone _ st' _ => st_rel (touches (levels cfg depth just) name) st st'
    | _ => True
    end.

Theorem setup_own fuel : fn_own (setup w cfg fuel).
Proof.
  intros st ds name fwd depth just Hnd Hd.
  pose proof (setup_related w cfg touches (t_self w) (touches_mono w) (touches_line w)
                st_rel st_rel_refl st_rel_trans st_rel_mono simple_st_rel set_vars_st_rel unset_vars_st_rel
                fuel st ds name fwd depth just Hnd Hd) as G.
  destruct (setup w cfg fuel st ds name fwd depth just); try exact I. exact (proj1 G).
Qed.

End Own.

(* every alias (of the set Z) that is defined and that a table of a product name in [reach] defines is accounted
   for: it is one of the pending names B, or a table of a product that is recorded, of a name in [reach], defines it *)
Definition alias_acc (w : world) (reach Z B : str -> Prop) (st : state) : Prop :=
  forall k v, Z k -> alookup k (s_aliases st) = Some v -> (exists n, reach n /\ own_alias w n k) ->
    B k \/ exists n q v', reach n /\ find_setup_product w (s_env st) n = Some q /\ In (AAlias k v') (p_actions q).
