(* User tags in the cache: what it means for loaded data to agree with the tag directory of a user,
   and the content lemmas: a rebuild agrees, ProductStack._loadUserTags on top of data without user
   tags agrees, the write-through of every record-level action and of the two user-tag calls keeps
   the agreement. *)
From Eupsv Require Import Base.Base Base.BaseLemmas Model.Db Model.Cache.
From Eupsv Require Import Proofs.DbLib Proofs.Db Proofs.DbSim Proofs.DbInv Proofs.DbCor.
From Eupsv Require Import Proofs.CacheLib Proofs.CacheWt.
From Coq Require Import Lia.

(* the version that user tag t designates for a reader who reads the tag directory of uo (nobody's:
   no user tag): what the chain file says, when that version is declared *)
Definition vis_u (d : db) (uc : list (ukey * ccontent)) (uo : option str) (s n t f : str) : option str :=
  match uo with
  | None => None
  | Some u => match uc_tag uc u s n t f with
              | Some v => if is_some (db_decl d s n v f) then Some v else None
              | None => None
              end
  end.

Definition uagree_n (fd : fdata) (d : db) (uc : list (ukey * ccontent)) (uo : option str) (s f n : str) : Prop :=
  forall t, fd_utag fd n t = vis_u d uc uo s n t f.

Definition uagree (fd : fdata) (d : db) (uc : list (ukey * ccontent)) (uo : option str) (s f : str) : Prop :=
  forall n, uagree_n fd d uc uo s f n.

Definition ulookup_agree (ps : pstack) (d : db) (uc : list (ukey * ccontent)) (uo : option str) (s : str) : Prop :=
  forall f fd, alookup f (ps_lookup ps) = Some fd -> uagree fd d uc uo s f.

Definition owner (loc : str) : option str := if str_eqb loc upsdb then None else Some loc.

Lemma uc_tags_In uc u s n t : In t (uc_tags uc u s n) <-> glookup ukey_eqb (u, s, n, t) uc <> None.
Proof.
  unfold uc_tags. induction uc as [|[[[[u' s'] n'] t'] c] uc IH]; cbn [flat_map glookup fst snd].
  - split; [intros []|intro H; congruence].
  - cbn [ukey_eqb]. rewrite (str_eqb_sym u u'), (str_eqb_sym s s'), (str_eqb_sym n n').
    destruct (str_eqb u' u && str_eqb s' s && str_eqb n' n); cbn [andb app]; [|exact IH].
    destruct (str_eqb_spec t t') as [->|N]; [split; [discriminate|left; reflexivity]|].
    split; [intros [H|H]; [congruence|apply IH; exact H]|intro H; right; apply IH; exact H].
Qed.

Lemma uc_tag_absent uc u s n t f : ~ In t (uc_tags uc u s n) -> uc_tag uc u s n t f = None.
Proof.
  intro H. unfold uc_tag, uc_file. destruct (glookup ukey_eqb (u, s, n, t) uc) eqn:E; [|reflexivity].
  exfalso. apply H. apply uc_tags_In. congruence.
Qed.

Lemma rebuild_utags_lookup d uc uo s f n t :
  alookup t (rebuild_utags d uc uo s f n) = vis_u d uc uo s n t f.
Proof.
  unfold rebuild_utags, vis_u. destruct uo as [u|]; [|reflexivity].
  rewrite (alookup_flat_map_guard _ (fun _ => true)
             (fun t => match uc_tag uc u s n t f with
                       | Some v => if is_some (db_decl d s n v f) then Some v else None
                       | None => None end) (fun t => t)).
  2:{ intro a. cbv beta. destruct (uc_tag uc u s n a f) as [v|]; [|reflexivity].
      destruct (is_some (db_decl d s n v f)); reflexivity. }
  destruct (existsb (fun a => true && str_eqb t a) (uc_tags uc u s n)) eqn:E; [reflexivity|].
  rewrite uc_tag_absent; [reflexivity|]. intro I.
  assert (X : existsb (fun a => true && str_eqb t a) (uc_tags uc u s n) = true).
  { apply existsb_exists. exists t. split; [exact I|]. cbn. apply str_eqb_refl. }
  congruence.
Qed.

Lemma vis_u_declared d uc uo s n t f v : vis_u d uc uo s n t f = Some v -> db_decl d s n v f <> None.
Proof.
  unfold vis_u. destruct uo as [u|]; [|discriminate]. destruct (uc_tag uc u s n t f) as [v'|]; [|discriminate].
  destruct (db_decl d s n v' f) eqn:E; cbn; [|discriminate]. intro H. inversion H. subst. congruence.
Qed.

Lemma rebuild_uagree d uc uo s f : uagree (rebuild_fdata d uc uo s f) d uc uo s f.
Proof.
  intros n t. unfold fd_utag. rewrite rebuild_fdata_lookup.
  destruct (mem_str n (db_names d s) && negb (is_nil (f_versions (rebuild_family d uc uo s f n)))) eqn:E.
  - cbn [rebuild_family f_utags]. apply rebuild_utags_lookup.
  - destruct (vis_u d uc uo s n t f) as [v|] eqn:V; [|reflexivity]. exfalso.
    apply vis_u_declared in V. rewrite <- (rebuild_versions d uc uo s f n v) in V.
    apply andb_false_iff in E. destruct E as [E|E].
    + apply V. rewrite rebuild_versions. apply not_named_no_decl. intro I. apply mem_str_In in I. congruence.
    + apply negb_false_iff, is_nil_true in E. rewrite E in V. apply V. reflexivity.
Qed.

(* under [agree] a version is declared exactly when the data has it: the agreement of the user tags is
   a property of the data and the tag directory *)
Definition vis_fd (fd : fdata) (uc : list (ukey * ccontent)) (u s n t f : str) : option str :=
  match uc_tag uc u s n t f with
  | Some v => if is_some (fd_decl fd n v) then Some v else None
  | None => None
  end.

Definition ugood_n (fd : fdata) (uc : list (ukey * ccontent)) (uo : option str) (s f n : str) : Prop :=
  forall t, fd_utag fd n t = match uo with None => None | Some u => vis_fd fd uc u s n t f end.

Definition ugood (fd : fdata) (uc : list (ukey * ccontent)) (uo : option str) (s f : str) : Prop :=
  forall n, ugood_n fd uc uo s f n.

Lemma ugood_uagree_n fd d uc uo s f n : agree_n fd d s f n -> (ugood_n fd uc uo s f n <-> uagree_n fd d uc uo s f n).
Proof.
  intros [A _]. unfold ugood_n, uagree_n, vis_u, vis_fd.
  split; intros H t; rewrite H; destruct uo as [u|]; try reflexivity;
    destruct (uc_tag uc u s n t f) as [v|]; try reflexivity; rewrite A; reflexivity.
Qed.

Definition ps_ugood (ps : pstack) (uc : list (ukey * ccontent)) (uo : option str) (s : str) : Prop :=
  forall f fd, alookup f (ps_lookup ps) = Some fd -> ugood fd uc uo s f.

Lemma ps_ugood_uagree ps d uc uo s : lookup_agree ps d s -> (ps_ugood ps uc uo s <-> ulookup_agree ps d uc uo s).
Proof.
  intro A. split; intros H f fd E n; apply (ugood_uagree_n fd d uc uo s f n (A f fd E n)); apply (H f fd E).
Qed.

Lemma uc_tag_gset uc u s n t c u' s' n' t' f' :
  uc_tag (gset ukey_eqb (u, s, n, t) c uc) u' s' n' t' f' =
  if ukey_eqb (u', s', n', t') (u, s, n, t) then alookup f' c else uc_tag uc u' s' n' t' f'.
Proof.
  unfold uc_tag, uc_file. rewrite (glookup_gset ukey_eqb ukey_eqb_eq).
  destruct (ukey_eqb (u', s', n', t') (u, s, n, t)); reflexivity.
Qed.

Lemma uc_tag_gremove uc u s n t u' s' n' t' f' :
  uc_tag (gremove ukey_eqb (u, s, n, t) uc) u' s' n' t' f' =
  if ukey_eqb (u', s', n', t') (u, s, n, t) then None else uc_tag uc u' s' n' t' f'.
Proof.
  unfold uc_tag, uc_file. rewrite (glookup_gremove ukey_eqb ukey_eqb_eq).
  destruct (ukey_eqb (u', s', n', t') (u, s, n, t)); reflexivity.
Qed.

Lemma do_uset_uc_tag tick w u s n t f v u' s' n' t' f' :
  uc_tag (w_uc (do_uset tick w u s n t f v)) u' s' n' t' f' =
  if ukey_eqb (u', s', n', t') (u, s, n, t) && str_eqb f' f then Some v else uc_tag (w_uc w) u' s' n' t' f'.
Proof.
  unfold do_uset. cbn [w_uc]. rewrite uc_tag_gset.
  destruct (ukey_eqb (u', s', n', t') (u, s, n, t)) eqn:E; cbn [andb]; [|reflexivity].
  apply ukey_eqb_eq in E. inversion E. subst. rewrite alookup_aset. destruct (str_eqb f' f); reflexivity.
Qed.

Lemma do_udel_uc_tag tick w u s n t f u' s' n' t' f' :
  uc_tag (w_uc (do_udel tick w u s n t f)) u' s' n' t' f' =
  if ukey_eqb (u', s', n', t') (u, s, n, t) && str_eqb f' f then None else uc_tag (w_uc w) u' s' n' t' f'.
Proof.
  unfold do_udel.
  destruct (ukey_eqb (u', s', n', t') (u, s, n, t)) eqn:E; cbn [andb].
  - apply ukey_eqb_eq in E. inversion E. subst u' s' n' t'.
    destruct (amem f (uc_file (w_uc w) u s n t)) eqn:M.
    + destruct (is_nil (aremove f (uc_file (w_uc w) u s n t))) eqn:Nil; cbn [w_uc].
      * rewrite uc_tag_gremove. replace (ukey_eqb (u, s, n, t) (u, s, n, t)) with true
          by (symmetry; apply ukey_eqb_eq; reflexivity).
        destruct (str_eqb_spec f' f) as [->|N]; [reflexivity|].
        apply is_nil_true in Nil. unfold uc_tag. symmetry. apply (aremove_nil_lookup _ _ Nil). exact N.
      * rewrite uc_tag_gset. replace (ukey_eqb (u, s, n, t) (u, s, n, t)) with true
          by (symmetry; apply ukey_eqb_eq; reflexivity).
        rewrite alookup_aremove. destruct (str_eqb f' f); reflexivity.
    + destruct (str_eqb_spec f' f) as [->|N]; [|reflexivity].
      unfold uc_tag. destruct (alookup f (uc_file (w_uc w) u s n t)) eqn:L; [|reflexivity].
      exfalso. assert (X : amem f (uc_file (w_uc w) u s n t) = true) by (apply amem_true; congruence). congruence.
  - destruct (amem f (uc_file (w_uc w) u s n t)); [|reflexivity].
    destruct (is_nil (aremove f (uc_file (w_uc w) u s n t))); cbn [w_uc].
    + rewrite uc_tag_gremove, E. reflexivity.
    + rewrite uc_tag_gset, E. reflexivity.
Qed.

Lemma fold_udel_uc_tag tick u s n f l : forall w u' s' n' t' f',
  uc_tag (w_uc (fold_left (fun w t => do_udel tick w u s n t f) l w)) u' s' n' t' f' =
  if str_eqb u' u && str_eqb s' s && str_eqb n' n && str_eqb f' f && mem_str t' l then None
  else uc_tag (w_uc w) u' s' n' t' f'.
Proof.
  induction l as [|t l IH]; intros w u' s' n' t' f'; cbn [fold_left mem_str].
  - rewrite andb_false_r. reflexivity.
  - rewrite IH, do_udel_uc_tag. unfold ukey_eqb. rewrite (str_eqb_sym t' t).
    destruct (str_eqb u' u && str_eqb s' s && str_eqb n' n), (str_eqb f' f), (str_eqb t t'), (mem_str t' l); reflexivity.
Qed.

Lemma mem_utags_on uc u s n v f t : mem_str t (utags_on uc u s n v f) = opt_str_eqb (uc_tag uc u s n t f) v.
Proof.
  unfold utags_on. rewrite mem_str_filter.
  destruct (opt_str_eqb (uc_tag uc u s n t f) v) eqn:E; [|apply andb_false_r]. rewrite andb_true_r.
  apply mem_str_In. destruct (in_dec str_eq_dec t (uc_tags uc u s n)) as [I|NI]; [exact I|].
  rewrite (uc_tag_absent _ _ _ _ _ _ NI) in E. discriminate.
Qed.

Lemma do_uact_uc_tag tick w u x u' s' n' t' f' :
  uc_tag (w_uc (do_uact tick w u x)) u' s' n' t' f' =
  match x with
  | ADelDecl s n v f =>
      if is_some (db_decl (w_db w) s n v f) && str_eqb u' u && str_eqb s' s && str_eqb n' n && str_eqb f' f
         && opt_str_eqb (uc_tag (w_uc w) u s n t' f) v
      then None else uc_tag (w_uc w) u' s' n' t' f'
  | _ => uc_tag (w_uc w) u' s' n' t' f'
  end.
Proof.
  destruct x as [s n v f r|s n v f|s n t f v|s n t f]; cbn [do_uact]; try reflexivity.
  destruct (is_some (db_decl (w_db w) s n v f)); cbn [andb]; [|reflexivity].
  rewrite fold_udel_uc_tag, mem_utags_on. reflexivity.
Qed.

Lemma do_effects_uc tick es : forall w, w_uc (do_effects tick w es) = w_uc w.
Proof. induction es as [|e es IH]; intro w; [reflexivity|]. cbn [do_effects fold_left]. fold (do_effects tick (do_effect tick w e) es). rewrite IH. reflexivity. Qed.

Lemma do_act_uc tick w x : w_uc (do_act tick w x) = w_uc w.
Proof. unfold do_act. apply do_effects_uc. Qed.

(* the tag directory changed at most for product n and flavor f (of user u, stack s) *)
Definition uc_same_but (uc uc' : list (ukey * ccontent)) (u s n f : str) : Prop :=
  forall n' t' f', (n', f') <> (n, f) -> uc_tag uc' u s n' t' f' = uc_tag uc u s n' t' f'.

Lemma vis_fd_ext fd fd' uc uc' u s n t f :
  uc_tag uc' u s n t f = uc_tag uc u s n t f -> (forall v, fd_decl fd' n v = fd_decl fd n v) ->
  vis_fd fd' uc' u s n t f = vis_fd fd uc u s n t f.
Proof. intros E D. unfold vis_fd. rewrite E. destruct (uc_tag uc u s n t f); [rewrite D|]; reflexivity. Qed.

Lemma ps_ugood_update ps ps' uc uc' u s f n fd fd' :
  ps_ugood ps uc (Some u) s ->
  alookup f (ps_lookup ps) = Some fd -> ps_upd ps ps' f fd' ->
  (forall n', n' <> n -> alookup n' fd' = alookup n' fd) ->
  uc_same_but uc uc' u s n f ->
  ugood_n fd' uc' (Some u) s f n ->
  ps_ugood ps' uc' (Some u) s.
Proof.
  intros G Ef [_ Up] Hn Huc Gn f0 fd0 E0 n0 t. rewrite Up in E0.
  destruct (str_eqb_spec f0 f) as [->|Nf].
  - inversion E0. subst fd0. destruct (str_eq_dec n0 n) as [->|Nn]; [apply Gn|].
    unfold fd_utag at 1. rewrite (Hn n0 Nn). fold (fd_utag fd n0 t). rewrite (G f fd Ef n0 t).
    symmetry. apply vis_fd_ext.
    + apply Huc. intro E. inversion E. contradiction.
    + intro v. unfold fd_decl. rewrite (Hn n0 Nn). reflexivity.
  - rewrite (G f0 fd0 E0 n0 t). symmetry. apply vis_fd_ext; [|reflexivity].
    apply Huc. intro E. inversion E. contradiction.
Qed.

(* the user tags of a stack are compared with the tag directory for the flavors the stack holds only *)
Lemma ps_ugood_ext ps uc uc' uo s :
  (forall f u n t, alookup f (ps_lookup ps) <> None -> uo = Some u -> uc_tag uc' u s n t f = uc_tag uc u s n t f) ->
  ps_ugood ps uc uo s -> ps_ugood ps uc' uo s.
Proof.
  intros H G f fd E n t. rewrite (G f fd E n t). destruct uo as [u|]; [|reflexivity].
  symmetry. apply vis_fd_ext; [|reflexivity]. apply H; [congruence|reflexivity].
Qed.

(* what a reader makes of chain files R when the versions are D: a tag whose version is not there is not
   seen ([vis_fd] and [vis_u] are this, for the versions of the data and of the files) *)
Definition vis (R : str -> option str) (D : str -> option vrec) (t : str) : option str :=
  match R t with Some v => if is_some (D v) then Some v else None | None => None end.

Lemma vis_closed R D : closed D (vis R D).
Proof.
  intros t v. unfold vis. destruct (R t) as [v'|]; [|discriminate]. destruct (D v') eqn:E; [|discriminate].
  intro H. inversion H. subst v'. congruence.
Qed.

(* what Database.undeclare makes of the chain files of the undeclaring user *)
Definition upd_raw (x : aact) (D : str -> option vrec) (R : str -> option str) (t : str) : option str :=
  match x with
  | ADelDecl _ _ v _ => if is_some (D v) && opt_str_eqb (R t) v then None else R t
  | _ => R t
  end.

Lemma vis_upd x uts R R' D D' U :
  (forall t, U t = vis R D t) -> (forall k, D' k = upd_decl x D k) -> (forall t, R' t = upd_raw x D R t) ->
  match x with ASetDecl s n v f _ => forall t, mem_str t (uts s n v f) = opt_str_eqb (R' t) v | _ => True end ->
  forall t, upd_utag x uts U t = vis R' D' t.
Proof.
  intros HU HD HR Huts t. unfold vis.
  destruct x as [s n v f r|s n v f|s n t0 f v|s n t0 f]; cbn [upd_utag upd_raw upd_decl] in *;
    rewrite ?Huts, HR, HU; unfold vis; destruct (R t) as [v'|]; cbn [opt_str_eqb]; rewrite ?andb_false_r, ?HD;
    try reflexivity.
  - destruct (str_eqb_spec v' v) as [->|]; reflexivity.
  - destruct (str_eqb_spec v' v) as [->|N].
    + destruct (D v); cbn [is_some andb opt_str_eqb]; rewrite ?str_eqb_refl, ?HD, ?str_eqb_refl; reflexivity.
    + rewrite andb_false_r, HD. destruct (str_eqb_spec v' v); [contradiction|].
      destruct (D v'); cbn [is_some opt_str_eqb]; [|reflexivity]. destruct (str_eqb_spec v' v); [contradiction|reflexivity].
Qed.

Lemma do_uact_raw tick w u x D t :
  (forall v, D v = db_decl (w_db w) (act_root x) (act_name x) v (act_flavor x)) ->
  uc_tag (w_uc (do_uact tick w u x)) u (act_root x) (act_name x) t (act_flavor x) =
  upd_raw x D (fun t => uc_tag (w_uc w) u (act_root x) (act_name x) t (act_flavor x)) t.
Proof.
  intro HD. rewrite do_uact_uc_tag. destruct x; try reflexivity. unfold act_name, act_flavor in *.
  cbn [act_root act_nf fst snd upd_raw] in *. rewrite HD, !str_eqb_refl, !andb_true_r. reflexivity.
Qed.

Lemma do_uact_same_but tick w u x :
  uc_same_but (w_uc w) (w_uc (do_uact tick w u x)) u (act_root x) (act_name x) (act_flavor x).
Proof.
  intros n' t' f' N. rewrite do_uact_uc_tag. destruct x as [s n v f r|s n v f|s n t f v|s n t f]; try reflexivity.
  unfold act_name, act_flavor in N. cbn [act_nf fst snd] in N.
  destruct (str_eqb_spec n' n) as [->|]; destruct (str_eqb_spec f' f) as [->|]; try (exfalso; apply N; reflexivity);
    rewrite ?andb_false_r; cbn [andb]; rewrite ?andb_false_r; reflexivity.
Qed.

Lemma wt_act_ugood tick w u uts ps s x ps' ch :
  (forall s n v f, uts s n v f = utags_on (w_uc (do_uact tick w u x)) u s n v f) ->
  ps_ugood ps (w_uc w) (Some u) s ->
  lookup_agree ps (w_db w) s ->
  act_root x = s ->
  alookup (act_flavor x) (ps_lookup ps) <> None ->
  wt_act false uts x ps = Ok (ps', ch) ->
  ps_ugood ps' (w_uc (do_act tick (do_uact tick w u x) x)) (Some u) s.
Proof.
  intros Huts G A Hs Hfl E. rewrite do_act_uc. subst s.
  destruct (alookup (act_flavor x) (ps_lookup ps)) as [fd|] eqn:Efd; [clear Hfl|congruence].
  pose proof (G _ _ Efd (act_name x)) as Gn.
  destruct (wt_act_spec uts x ps fd ps' ch Efd E) as [fd' [Up [Oth [Sd [_ Su]]]]].
  apply (ps_ugood_update ps ps' (w_uc w) _ u _ _ _ fd fd' G Efd Up Oth (do_uact_same_but tick w u x)).
  intro t. rewrite Su.
  - apply (vis_upd x uts _ (fun t => uc_tag (w_uc (do_uact tick w u x)) u (act_root x) (act_name x) t (act_flavor x))
             _ _ _ Gn Sd).
    + intro t'. apply do_uact_raw. intro v. apply (A _ _ Efd).
    + destruct x; try exact I. intro t'. rewrite Huts. apply mem_utags_on.
  - intros t' v H. rewrite Gn in H. exact (vis_closed _ _ _ _ H).
Qed.

Definition uact_name (x : uact) : str := match x with USet _ n _ _ _ | UDel _ n _ _ => n end.
Definition uact_flavor (x : uact) : str := match x with USet _ _ _ f _ | UDel _ _ _ f => f end.

Definition uupd_utag (x : uact) (U : str -> option str) (k : str) : option str :=
  match x with
  | USet _ _ t _ v => if str_eqb k t then Some v else U k
  | UDel _ _ t _ => if str_eqb k t then None else U k
  end.

Lemma wt_uact_unloaded x ps ps' ch :
  alookup (uact_flavor x) (ps_lookup ps) = None -> wt_uact x ps = Ok (ps', ch) -> ps' = ps.
Proof.
  intro H. destruct x; cbn [uact_flavor wt_uact] in *; unfold ps_family; rewrite H; [discriminate|].
  intro E. inversion E. reflexivity.
Qed.

Lemma wt_uact_total x ps fd : alookup (uact_flavor x) (ps_lookup ps) = Some fd ->
  match x with USet _ n _ _ v => fd_decl fd n v <> None | UDel _ _ _ _ => True end ->
  exists r, wt_uact x ps = Ok r.
Proof.
  intros Efd P. destruct x as [s n t f v|s n t f]; cbn [uact_flavor wt_uact] in *; rewrite (ps_family_fam _ _ _ _ Efd).
  - unfold fd_decl in P. destruct (alookup n fd) as [fm|]; [|congruence].
    unfold fam_assign_utag, fam_has_version, amem. destruct (alookup v (f_versions fm)); [eexists; reflexivity|congruence].
  - destruct (alookup n fd) as [fm|]; [|eexists; reflexivity].
    destruct (fam_unassign_utag t fm) as [fm' [|]]; eexists; reflexivity.
Qed.

(* the two calls change the user tags of their product only; an assignment that does not raise is for a
   version the data has *)
Definition uact_upd (x : uact) (ps : pstack) (fd : fdata) (ps' : pstack) : Prop :=
  exists fd', ps_upd ps ps' (uact_flavor x) fd' /\
    (forall n', n' <> uact_name x -> alookup n' fd' = alookup n' fd) /\
    (forall k, fd_decl fd' (uact_name x) k = fd_decl fd (uact_name x) k) /\
    (forall k, fd_tag fd' (uact_name x) k = fd_tag fd (uact_name x) k) /\
    (forall k, fd_utag fd' (uact_name x) k = uupd_utag x (fd_utag fd (uact_name x)) k) /\
    match x with USet _ n _ _ v => fd_decl fd n v <> None | UDel _ _ _ _ => True end.

Lemma wt_uact_spec x ps fd ps' ch : alookup (uact_flavor x) (ps_lookup ps) = Some fd ->
  wt_uact x ps = Ok (ps', ch) -> uact_upd x ps fd ps'.
Proof.
  intro Efd.
  assert (Same : (forall k, fd_utag fd (uact_name x) k = uupd_utag x (fd_utag fd (uact_name x)) k) ->
                 match x with USet _ n _ _ v => fd_decl fd n v <> None | UDel _ _ _ _ => True end ->
                 Ok (ps, false) = Ok (ps', ch) -> uact_upd x ps fd ps').
  { intros Hu P H. injection H as <- <-. exists fd. split; [apply ps_upd_refl; exact Efd|]. auto 6. }
  (* the family of the product is replaced by one with the same versions and tags *)
  assert (Repl : forall fm us, alookup (uact_name x) fd = Some fm ->
                 (forall k, alookup k us = uupd_utag x (fd_utag fd (uact_name x)) k) ->
                 match x with USet _ n _ _ v => fd_decl fd n v <> None | UDel _ _ _ _ => True end ->
                 Ok (ps_set_family ps (uact_flavor x) (uact_name x) (mkFam (f_versions fm) (f_tags fm) us), true) =
                 Ok (ps', ch) -> uact_upd x ps fd ps').
  { intros fm us Efm Hu P H. injection H as <- <-. destruct (fd_fam_some _ _ _ Efm) as [Hd [Ht _]].
    eexists. split; [apply ps_upd_set; exact Efd|]. split; [intros n' N; apply alookup_aset_other; exact N|].
    split; [|split; [|split; [|exact P]]]; intro k.
    - rewrite fd_decl_aset, str_eqb_refl. symmetry. apply Hd.
    - rewrite fd_tag_aset, str_eqb_refl. symmetry. apply Ht.
    - rewrite fd_utag_aset, str_eqb_refl. apply Hu. }
  destruct x as [s n t f v|s n t f]; cbn [uact_flavor uact_name wt_uact uupd_utag] in *;
    rewrite (ps_family_fam _ _ _ _ Efd); destruct (alookup n fd) as [fm|] eqn:Efm.
  - destruct (fd_fam_some _ _ _ Efm) as [Hd [_ Hu]]. unfold fam_assign_utag, fam_has_version, amem.
    destruct (alookup v (f_versions fm)) eqn:Ev; [|discriminate].
    apply (Repl fm _ eq_refl); [|rewrite Hd; congruence]. intro k. rewrite alookup_aset, Hu. reflexivity.
  - discriminate.
  - destruct (fd_fam_some _ _ _ Efm) as [_ [_ Hu]]. unfold fam_unassign_utag, amem.
    destruct (alookup t (f_utags fm)) eqn:Et.
    + apply (Repl fm _ eq_refl); [|exact I]. intro k. rewrite alookup_aremove, Hu. reflexivity.
    + apply Same; [|exact I]. intro k. destruct (str_eqb_spec k t) as [->|]; [rewrite Hu; exact Et|reflexivity].
  - apply Same; [|exact I]. intro k. unfold fd_utag. rewrite Efm. destruct (str_eqb k t); reflexivity.
Qed.

Lemma do_udb_raw tick w u x t :
  uc_tag (w_uc (do_udb tick false w u x)) u (uact_stack x) (uact_name x) t (uact_flavor x) =
  uupd_utag x (fun t => uc_tag (w_uc w) u (uact_stack x) (uact_name x) t (uact_flavor x)) t.
Proof.
  destruct x; cbn [do_udb uact_stack uact_name uact_flavor uupd_utag]; rewrite ?do_uset_uc_tag, ?do_udel_uc_tag;
    unfold ukey_eqb; rewrite !str_eqb_refl; cbn [andb]; rewrite andb_true_r; reflexivity.
Qed.

Lemma do_udb_same_but tick w u x :
  uc_same_but (w_uc w) (w_uc (do_udb tick false w u x)) u (uact_stack x) (uact_name x) (uact_flavor x).
Proof.
  intros n' t' f' N.
  destruct x as [s n t f v|s n t f]; cbn [do_udb uact_stack uact_name uact_flavor] in *;
    rewrite ?do_uset_uc_tag, ?do_udel_uc_tag; unfold ukey_eqb; rewrite !str_eqb_refl; cbn [andb];
    (destruct (str_eqb_spec n' n) as [->|]; cbn [andb]; [|reflexivity]);
    (destruct (str_eqb_spec f' f) as [->|]; [exfalso; apply N; reflexivity|]); rewrite andb_false_r; reflexivity.
Qed.

Lemma wt_uact_ugood tick w u ps x ps' ch :
  ps_ugood ps (w_uc w) (Some u) (uact_stack x) ->
  wt_uact x ps = Ok (ps', ch) ->
  ps_ugood ps' (w_uc (do_udb tick false w u x)) (Some u) (uact_stack x).
Proof.
  intros G E. pose proof (do_udb_same_but tick w u x) as Huc.
  destruct (alookup (uact_flavor x) (ps_lookup ps)) as [fd|] eqn:Efd.
  - destruct (wt_uact_spec x ps fd ps' ch Efd E) as [fd' [Up [Oth [Sd [_ [Su P]]]]]].
    apply (ps_ugood_update ps ps' (w_uc w) _ u _ _ _ fd fd' G Efd Up Oth Huc).
    (* what a reader sees of the product after the write: the versions of the data are those of fd *)
    intro t. rewrite Su. unfold vis_fd. rewrite do_udb_raw. pose proof (G _ _ Efd (uact_name x) t) as Gt. unfold vis_fd in Gt.
    destruct x as [s n t0 f v|s n t0 f]; cbn [uupd_utag uact_name uact_stack uact_flavor] in *;
      destruct (str_eqb t t0); try reflexivity; try (rewrite Gt; destruct (uc_tag _ _ _ _ _ _); [rewrite Sd|]; reflexivity).
    rewrite Sd. destruct (fd_decl fd n v); [reflexivity|congruence].
  - rewrite (wt_uact_unloaded x ps ps' ch Efd E). apply (ps_ugood_ext ps (w_uc w)); [|exact G].
    intros f u0 n t Hf Eu. inversion Eu. subst u0. apply Huc. intro E0. inversion E0. congruence.
Qed.

Lemma wt_uact_agree x ps d s ps' ch : lookup_agree ps d s -> wt_uact x ps = Ok (ps', ch) ->
  lookup_agree ps' d s /\ ps_modtimes ps' = ps_modtimes ps /\
  (forall f, alookup f (ps_lookup ps) <> None -> alookup f (ps_lookup ps') <> None).
Proof.
  intros A E. destruct (alookup (uact_flavor x) (ps_lookup ps)) as [fd|] eqn:Efd.
  - destruct (wt_uact_spec x ps fd ps' ch Efd E) as [fd' [Up [Oth [Sd [St _]]]]].
    split; [|split; [apply Up|exact (ps_upd_keys _ _ _ _ Up)]].
    apply (lookup_agree_update ps ps' d d s _ _ fd fd' A Efd Up Oth); [|auto].
    destruct (A _ _ Efd (uact_name x)) as [A1 A2]. split; intro k; [rewrite Sd; apply A1|rewrite St; apply A2].
  - rewrite (wt_uact_unloaded x ps ps' ch Efd E). auto.
Qed.

(* ProductStack._loadUserTags assigns as the user-tag call does: one assignment is the write-through of a USet on
   the lookup, where that does not raise *)
Lemma set_utag_wt lk mt s f n t v :
  set_utag lk f n t v =
  match wt_uact (USet s n t f v) (mkPS lk mt) with Ok (ps', _) => ps_lookup ps' | Err _ => lk end.
Proof.
  unfold set_utag, wt_uact, ps_family, ps_set_family. cbn [ps_lookup].
  destruct (alookup f lk) as [fd|]; [|reflexivity]. destruct (alookup n fd) as [fm|]; [|reflexivity].
  destruct (fam_assign_utag t v fm); reflexivity.
Qed.

(* one assignment of one chain file: the step of [load_utags_n], for product (fst k), tag and flavor (snd k) *)
Definition utag_step (uc : list (ukey * ccontent)) (u s : str) (lk : amap fdata) (k : str * (str * str)) : amap fdata :=
  match uc_tag uc u s (fst k) (fst (snd k)) (snd (snd k)) with
  | Some v => set_utag lk (snd (snd k)) (fst k) (fst (snd k)) v
  | None => lk
  end.

(* _loadUserTags is one pass over all the assignments of all the chain files of the products of the stack *)
Lemma fold_left_flat_map {A B C} (g : A -> B * C -> A) (h : B -> list C) l : forall a,
  fold_left (fun a b => fold_left (fun a c => g a (b, c)) (h b) a) l a =
  fold_left g (flat_map (fun b => map (pair b) (h b)) l) a.
Proof.
  induction l as [|b l IH]; intro a; cbn [fold_left flat_map]; [reflexivity|]. rewrite fold_left_app, <- IH. f_equal.
  generalize a. induction (h b) as [|c r IHr]; intro a0; cbn [fold_left map]; [reflexivity|]. apply IHr.
Qed.

(* user tag t of product n is, in the data of flavor f, what a reader of the tag directory sees *)
Definition utag_right uc u s (lk : amap fdata) (f n t : str) : Prop :=
  forall fd, alookup f lk = Some fd -> fd_utag fd n t = vis_fd fd uc u s n t f.

(* a load in progress from lk0: the data agree with the files, the flavors are those of lk0, and a user tag is
   either still absent or right *)
Definition loading d uc u s (lk0 lk : amap fdata) : Prop :=
  (forall f fd, alookup f lk = Some fd -> agree fd d s f) /\
  (forall f, alookup f lk = None <-> alookup f lk0 = None) /\
  (forall f n t fd, alookup f lk = Some fd -> fd_utag fd n t = None \/ fd_utag fd n t = vis_fd fd uc u s n t f).

(* a step makes its own user tag right and leaves right every tag that is so already *)
Lemma utag_step_loading d uc u s lk0 lk n t f : loading d uc u s lk0 lk ->
  loading d uc u s lk0 (utag_step uc u s lk (n, (t, f))) /\
  utag_right uc u s (utag_step uc u s lk (n, (t, f))) f n t /\
  (forall f0 n0 t0, utag_right uc u s lk f0 n0 t0 -> utag_right uc u s (utag_step uc u s lk (n, (t, f))) f0 n0 t0).
Proof.
  intros [A [K J]]. unfold utag_step. cbn [fst snd].
  (* nothing is assigned: the chain file does not name the flavor, or no family of the data has the version *)
  assert (Skip : (forall fd, alookup f lk = Some fd -> vis_fd fd uc u s n t f = None) ->
            loading d uc u s lk0 lk /\ utag_right uc u s lk f n t /\
            (forall f0 n0 t0, utag_right uc u s lk f0 n0 t0 -> utag_right uc u s lk f0 n0 t0)).
  { intro V. split; [split; [exact A|split; [exact K|exact J]]|split; [|auto]]. intros fd Ef.
    destruct (J f n t fd Ef) as [E|E]; [rewrite (V fd Ef)|]; exact E. }
  destruct (uc_tag uc u s n t f) as [v|] eqn:Ev; [|apply Skip; intros fd _; unfold vis_fd; rewrite Ev; reflexivity].
  rewrite (set_utag_wt lk [] s). destruct (alookup f lk) as [fd|] eqn:Ef.
  2:{ unfold wt_uact, ps_family. cbn [ps_lookup]. rewrite Ef. apply Skip. discriminate. }
  destruct (wt_uact (USet s n t f v) (mkPS lk [])) as [[ps' ch]|e] eqn:Ew.
  2:{ apply Skip. intros fd0 E0. inversion E0. subst fd0. unfold vis_fd. rewrite Ev.
      destruct (fd_decl fd n v) eqn:Dv; [|reflexivity].
      destruct (wt_uact_total (USet s n t f v) (mkPS lk []) fd Ef) as [r Er]; [cbn; congruence|congruence]. }
  destruct (wt_uact_agree _ (mkPS lk []) d s _ _ A Ew) as [A' _].
  destruct (wt_uact_spec (USet s n t f v) (mkPS lk []) fd ps' ch Ef Ew) as [fd' [[_ Up] [Oth [Sd [_ [Su P]]]]]].
  cbn [uact_flavor uact_name uupd_utag ps_lookup] in *.
  assert (Mk : fd_utag fd' n t = vis_fd fd' uc u s n t f).
  { rewrite Su, str_eqb_refl. unfold vis_fd. rewrite Ev, Sd. destruct (fd_decl fd n v); [reflexivity|congruence]. }
  (* in the new data of the flavor every other key is as it was *)
  assert (Key : forall n0 t0, (n0, t0) = (n, t) \/
            (fd_utag fd' n0 t0 = fd_utag fd n0 t0 /\ vis_fd fd' uc u s n0 t0 f = vis_fd fd uc u s n0 t0 f)).
  { intros n0 t0. destruct (str_eq_dec n0 n) as [->|N].
    - destruct (str_eqb_spec t0 t) as [->|Nt]; [left; reflexivity|right]. rewrite Su.
      destruct (str_eqb_spec t0 t); [contradiction|]. split; [reflexivity|apply vis_fd_ext; [reflexivity|exact Sd]].
    - right. unfold fd_utag, vis_fd, fd_decl. rewrite (Oth n0 N). auto. }
  split; [split; [exact A'|split]|split].
  - intro f0. rewrite Up. destruct (str_eqb_spec f0 f) as [->|]; [rewrite <- K, Ef; split; discriminate|apply K].
  - intros f0 n0 t0 fd0 E0. rewrite Up in E0. destruct (str_eqb_spec f0 f) as [->|]; [|exact (J _ _ _ _ E0)].
    inversion E0. subst fd0. destruct (Key n0 t0) as [E|[E1 E2]]; [inversion E; right; exact Mk|rewrite E1, E2; exact (J _ _ _ _ Ef)].
  - intros fd0 E0. rewrite Up, str_eqb_refl in E0. inversion E0. subst fd0. exact Mk.
  - intros f0 n0 t0 R fd0 E0. rewrite Up in E0. destruct (str_eqb_spec f0 f) as [->|]; [|exact (R _ E0)].
    inversion E0. subst fd0. destruct (Key n0 t0) as [E|[E1 E2]]; [inversion E; exact Mk|rewrite E1, E2; exact (R _ Ef)].
Qed.

Lemma fold_loading d uc u s lk0 l : forall lk, loading d uc u s lk0 lk ->
  loading d uc u s lk0 (fold_left (utag_step uc u s) l lk) /\
  (forall n t f, In (n, (t, f)) l -> utag_right uc u s (fold_left (utag_step uc u s) l lk) f n t) /\
  (forall f n t, utag_right uc u s lk f n t -> utag_right uc u s (fold_left (utag_step uc u s) l lk) f n t).
Proof.
  induction l as [|[n [t f]] l IH]; intros lk L; cbn [fold_left]; [split; [exact L|split; [intros ? ? ? []|auto]]|].
  destruct (utag_step_loading d uc u s lk0 lk n t f L) as [L1 [Made Keep]].
  destruct (IH _ L1) as [L2 [In2 Keep2]]. split; [exact L2|]. split; [|auto].
  intros n' t' f' [E|H]; [|exact (In2 _ _ _ H)]. inversion E. subst. apply Keep2. exact Made.
Qed.

Lemma utag_entries_In uc u s n t f v : uc_tag uc u s n t f = Some v -> In (t, f) (utag_entries uc u s n).
Proof.
  intro H. unfold utag_entries. apply in_flat_map. exists t. split.
  - destruct (in_dec str_eq_dec t (uc_tags uc u s n)) as [I|NI]; [exact I|].
    rewrite (uc_tag_absent _ _ _ _ _ _ NI) in H. discriminate.
  - apply in_map. apply alookup_not_None_In. unfold uc_tag in H. congruence.
Qed.

(* loaded from the cache files of ups_db (nobody's user tags), then _loadUserTags: the data agrees with the
   tag directory of the loading user *)
Lemma load_user_tags_ok d uc uo s ps :
  lookup_agree ps d s -> ps_ugood ps uc None s ->
  lookup_agree (load_user_tags d uc uo s ps) d s /\
  ps_ugood (load_user_tags d uc uo s ps) uc uo s /\
  ps_modtimes (load_user_tags d uc uo s ps) = ps_modtimes ps /\
  (forall f, alookup f (ps_lookup (load_user_tags d uc uo s ps)) = None <-> alookup f (ps_lookup ps) = None).
Proof.
  intros A G. destruct uo as [u|]; cbn [load_user_tags];
    [|split; [exact A|split; [exact G|split; [reflexivity|intro f; split; auto]]]].
  assert (L0 : loading d uc u s (ps_lookup ps) (ps_lookup ps)).
  { split; [exact A|]. split; [intro; split; auto|]. intros f n t fd Ef. left. exact (G f fd Ef n t). }
  change (fun lk n => load_utags_n uc u s n lk)
    with (fun lk n => fold_left (fun lk tf => utag_step uc u s lk (n, tf)) (utag_entries uc u s n) lk).
  rewrite (fold_left_flat_map (utag_step uc u s)).
  set (l := flat_map _ (db_names d s)). destruct (fold_loading d uc u s _ l _ L0) as [[A' [K J]] [Made _]].
  split; [exact A'|]. split; [|split; [reflexivity|exact K]].
  intros f fd E n t. cbn [ps_lookup] in E. destruct (J f n t fd E) as [E0|E0]; [|exact E0].
  destruct (vis_fd fd uc u s n t f) as [v|] eqn:V; [|exact E0].
  (* the tag directory gives a version that is held, hence declared: its assignment was made *)
  rewrite <- V. apply (Made n t f); [|exact E]. unfold vis_fd in V.
  destruct (uc_tag uc u s n t f) as [v'|] eqn:Et; [|discriminate].
  destruct (fd_decl fd n v') as [r|] eqn:Ed; [|discriminate].
  apply in_flat_map. exists n. split; [|apply in_map; exact (utag_entries_In _ _ _ _ _ _ _ Et)].
  apply (db_decl_named d s n v' f r). rewrite <- (proj1 (A' f fd E n) v'). exact Ed.
Qed.


Lemma do_acts_uc tick g : forall w, w_uc (do_acts tick w g) = w_uc w.
Proof.
  induction g as [|x g IH]; intro w; [reflexivity|]. rewrite do_acts_cons.
  rewrite IH. apply do_act_uc.
Qed.
