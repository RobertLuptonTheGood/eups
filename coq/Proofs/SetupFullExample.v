(* The world of Proofs/SetupExample.v as a world of the composed model (Model/SetupFull.v): the request
   information of every table line and the chain files.
     liba 1.0   setupRequired(base 1.0)
     libb 1.0   setupRequired(base 2.0)        (a bare setupRequired(base) would keep base 1.0: the earlier
                                               choice was made through the entry version, which ranks before current)
     app  1.0   setupRequired(liba) setupRequired(libb) setupOptional(ghost)
   so that  setup app  from the empty environment takes, by itself, exactly the decisions ex_ds of
   Proofs/SetupExample.v (base 1.0 below liba, replaced by base 2.0 below libb, ghost not found). *)
From Eupsv Require Import Base.Base Model.PathAlg Model.Setup Model.Resolve Model.SetupFull Proofs.SetupExample
     Generated.Config.

Definition li_v (v : string) : lineinfo := {| li_version := Some (lit v); li_expr := None |}.
Arguments li_v v%string.

Definition ex_fw : fworld :=
  {| fw_products := ex_world;
     fw_lines := [ (lit "liba", lit "1.0", [li_v "1.0"; no_info; no_info]);
                   (lit "libb", lit "1.0", [li_v "2.0"; no_info; no_info]);
                   (lit "app", lit "1.0", [no_info; no_info; no_info; no_info; no_info]) ];
     fw_tags := [ (lit "base", lit "current", lit "2.0"); (lit "liba", lit "current", lit "1.0");
                  (lit "libb", lit "current", lit "1.0"); (lit "app", lit "current", lit "1.0") ] |}.

Definition ex_flavors : list str := [lit "Linux64"; lit "generic"].

Definition ex_cfg_keep : Setup.config :=
  {| c_flavor := lit "Linux64"; c_root := lit "/s"; c_max_depth := None; c_keep := true; c_flavors := [] |}.

(* the VRO of a plain request and of a request with --keep, as selectVRO makes them from the shipped
   configuration (Generated/Config.v) *)
Definition ex_vro : list entry :=
  [EType (lit "exact"); ECommandLine; EVersion; EVersionExpr; ETag (lit "current")].

Lemma select_vro_shipped cfg v :
  select_vro default_config (request_opts cfg v) = Ok (if c_keep cfg then EKeep :: ex_vro else ex_vro).
Proof. unfold request_opts. destruct (c_keep cfg), v; reflexivity. Qed.

Example ex_vro_plain v : select_vro default_config (request_opts ex_cfg v) = Ok ex_vro.
Proof. exact (select_vro_shipped ex_cfg v). Qed.

Example ex_vro_keep v : select_vro default_config (request_opts ex_cfg_keep v) = Ok (EKeep :: ex_vro).
Proof. exact (select_vro_shipped ex_cfg_keep v). Qed.

(* the assignment that explains  setup libb  on ex_fw: libb 1.0, base 2.0 *)
Definition ex_D (n : str) : option str :=
  if str_eqb n (lit "libb") then Some (lit "1.0")
  else if str_eqb n (lit "base") then Some (lit "2.0") else None.

(* A world with a version conflict in which a REQUIRED product ends up not set up (why the closure clause
   of C01 is conditional):
     c 1.0            -
     b 1.0            setupRequired(c)
     b 2.0            -
     a 1.0            setupRequired(b 1.0)
     d 1.0            setupRequired(b 2.0)
     t 1.0            setupRequired(c) setupRequired(a) setupRequired(d)
   setup t: c, a, b 1.0 (c is already set up), d, then b 2.0 replaces b 1.0 - and the unsetup of b 1.0 unsets
   its dependency c, which t requires directly. *)
Definition cx_prod (n v : string) (acts : list action) : product :=
  {| p_name := lit n; p_version := lit v; p_dir := lit "/s/" ++ lit n ++ lit "/" ++ lit v;
     p_actions := acts ++ [APath false (lit "PATH") (lit "/s/" ++ lit n ++ lit "/" ++ lit v ++ lit "/bin") c_colon] |}.
Arguments cx_prod (n v)%string acts.

Definition cx_world : world :=
  [ cx_prod "c" "1.0" [];
    cx_prod "b" "1.0" [ASetup false (lit "c") false];
    cx_prod "b" "2.0" [];
    cx_prod "a" "1.0" [ASetup false (lit "b") false];
    cx_prod "d" "1.0" [ASetup false (lit "b") false];
    cx_prod "t" "1.0" [ASetup false (lit "c") false; ASetup false (lit "a") false; ASetup false (lit "d") false] ].

Definition cx_fw : fworld :=
  {| fw_products := cx_world;
     fw_lines := [ (lit "a", lit "1.0", [li_v "1.0"]); (lit "d", lit "1.0", [li_v "2.0"]) ];
     fw_tags := [ (lit "c", lit "current", lit "1.0"); (lit "b", lit "current", lit "2.0");
                  (lit "a", lit "current", lit "1.0"); (lit "d", lit "current", lit "1.0");
                  (lit "t", lit "current", lit "1.0") ] |}.

Definition cx_order : list str := [lit "c"; lit "b"; lit "a"; lit "d"; lit "t"].

(* D36 (fixed): an optional dependency that defines an alias and then fails.
     x 1.0   addAlias(run_x, echo x)  envPrepend(PATH, /s/x/1.0/bin)  setupRequired(missing)
     t 1.0   setupOptional(x)  envPrepend(PATH, /s/t/1.0/bin) *)
Definition ax_world : world :=
  [ {| p_name := lit "x"; p_version := lit "1.0"; p_dir := lit "/s/x/1.0";
       p_actions := [AAlias (lit "run_x") (lit "echo x"); APath false (lit "PATH") (lit "/s/x/1.0/bin") c_colon;
                     ASetup false (lit "missing") false] |};
    {| p_name := lit "t"; p_version := lit "1.0"; p_dir := lit "/s/t/1.0";
       p_actions := [ASetup true (lit "x") false; APath false (lit "PATH") (lit "/s/t/1.0/bin") c_colon] |} ].
Definition ax_order : list str := [lit "missing"; lit "x"; lit "t"].
(* t 1.0, x 1.0, missing not found *)
Definition ax_ds : list decision := [Some (lit "1.0"); Some (lit "1.0"); None].
