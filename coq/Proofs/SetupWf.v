(* Soundness of the checker of Model/SetupWf.v: a world that passes it satisfies the hypotheses WF
   (Proofs/SetupFrame.v) and WF2 (Proofs/SetupInv.v) of the setup theorems, with the delimiter function
   and the rank function the checker computes. *)
From Eupsv Require Import Base.Base Base.BaseLemmas Model.PathAlg Proofs.PathAlg Model.Setup.
From Eupsv Require Import Proofs.SetupFrame Proofs.SetupInv Model.SetupWf.

Lemma path_entries_In p var v d :
  In (var, v, d) (path_entries p) <-> exists ap, In (APath ap var v d) (p_actions p).
Proof.
  unfold path_entries. rewrite in_flat_map. split.
  - intros [a [Ha Hx]]. destruct a as [o n j|ap var' v' d'|k x|k|k x|]; cbn [In] in Hx; try contradiction.
    destruct Hx as [E|[]]. injection E as -> -> ->. now exists ap.
  - intros [ap Ha]. exists (APath ap var v d). split; [assumption|now left].
Qed.

Lemma set_entries_In p k v : In (k, v) (set_entries p) <-> In (ASet k v) (p_actions p).
Proof.
  unfold set_entries. rewrite in_flat_map. split.
  - intros [a [Ha Hx]]. destruct a as [o n j|ap var' v' d'|k' x|k'|k' x|]; cbn [In] in Hx; try contradiction.
    destruct Hx as [E|[]]. injection E as -> ->. assumption.
  - intro Ha. exists (ASet k v). split; [assumption|now left].
Qed.

Lemma dep_targets_In p m : In m (dep_targets p) <-> exists o j, In (ASetup o m j) (p_actions p).
Proof.
  unfold dep_targets. rewrite in_flat_map. split.
  - intros [a [Ha Hx]]. destruct a as [o n j|ap var' v' d'|k' x|k'|k' x|]; cbn [In] in Hx; try contradiction.
    destruct Hx as [E|[]]. subst n. now exists o, j.
  - intros [o [j Ha]]. exists (ASetup o m j). split; [assumption|now left].
Qed.

Lemma elem_pairs_In p var v :
  In (var, v) (elem_pairs p) <-> exists ap d, In (APath ap var v d) (p_actions p).
Proof.
  unfold elem_pairs. rewrite in_map_iff. split.
  - intros [[[a b] c] [E Hin]]. cbn [fst snd] in E. injection E as -> ->.
    apply path_entries_In in Hin. destruct Hin as [ap Ha]. now exists ap, c.
  - intros [ap [d Ha]]. exists (var, v, d). split; [reflexivity|]. apply path_entries_In. now exists ap.
Qed.

Lemma pair_eqb_eq a b : pair_eqb a b = true <-> a = b.
Proof.
  destruct a as [a1 a2], b as [b1 b2]. unfold pair_eqb. cbn [fst snd].
  rewrite andb_true_iff, !str_eqb_eq. split; [intros [-> ->]; reflexivity|intro E; injection E; auto].
Qed.

Lemma disjoint_str_spec a b : disjoint_str a b = true -> forall x, In x a -> In x b -> False.
Proof.
  unfold disjoint_str. rewrite forallb_forall. intros H x Ha Hb.
  specialize (H x Ha). apply negb_true_iff in H. apply mem_str_not_In in H. contradiction.
Qed.

Lemma disjoint_pair_spec a b : disjoint_pair a b = true -> forall x, In x a -> In x b -> False.
Proof.
  unfold disjoint_pair. rewrite forallb_forall. intros H x Ha Hb.
  specialize (H x Ha). apply negb_true_iff in H.
  assert (T : existsb (pair_eqb x) b = true) by (apply existsb_exists; exists x; split; [assumption|now apply pair_eqb_eq]).
  rewrite T in H. discriminate.
Qed.

Lemma ends_with_refl p x : ends_with p (x ++ p) = true.
Proof. unfold ends_with. rewrite rev_app_distr. apply starts_with_refl. Qed.

(* the syntactic test covers every variable reserved for some name *)
Lemma reserved_maybe k : reserved k -> maybe_reserved k = true.
Proof.
  intros [n [E|[E|E]]]; subst k; unfold maybe_reserved, setup_var, dir_var, extra_var.
  - now rewrite starts_with_refl.
  - rewrite (ends_with_refl (lit "_DIR")). now rewrite orb_true_r.
  - rewrite (ends_with_refl (lit "_DIR_EXTRA")). now rewrite !orb_true_r.
Qed.

Lemma forallb_forallb {A B} (g : A -> list B) (f : A -> B -> bool) l :
  forallb (fun a => forallb (f a) (g a)) l = true -> forall a b, In a l -> In b (g a) -> f a b = true.
Proof.
  intros Hl a b Ha Hb. rewrite forallb_forall in Hl. specialize (Hl a Ha). rewrite forallb_forall in Hl.
  exact (Hl b Hb).
Qed.

Lemma keys_sound (l : world) :
  check_keys l = true ->
  forall p q, In p l -> In q l -> p_name p = p_name q -> p_version p = p_version q -> p = q.
Proof.
  induction l as [|a l IH]; cbn [check_keys]; [intros _ p q []|].
  intro H. apply andb_true_iff in H. destruct H as [Hn Hl]. apply negb_true_iff in Hn.
  assert (Hno : forall x, In x l -> p_name x = p_name a -> p_version x = p_version a -> False).
  { intros x Hx E1 E2.
    assert (T : existsb (fun q => str_eqb (p_name q) (p_name a) && str_eqb (p_version q) (p_version a)) l = true).
    { apply existsb_exists. exists x. split; [assumption|]. rewrite E1, E2, !str_eqb_refl. reflexivity. }
    rewrite T in Hn. discriminate. }
  intros p q [<-|Hp] [<-|Hq] En Ev.
  - reflexivity.
  - exfalso. now apply (Hno q Hq).
  - exfalso. now apply (Hno p Hp).
  - now apply IH.
Qed.

Lemma word_ok_word x : word_ok x = true -> word x.
Proof.
  unfold word_ok, word. intro H. apply andb_true_iff in H. destruct H as [H1 H2]. split.
  - intros ->. discriminate.
  - now apply negb_true_iff.
Qed.

Section Sound.
Variable w : world.
Variable order : list str.

Lemma actions_sound :
  check_actions w = true -> forall p a, In p w -> In a (p_actions p) -> action_ok w a = true.
Proof.
  intros H p a. exact (forallb_forallb p_actions (fun _ => action_ok w) w H p a).
Qed.

Lemma path_var_In var : path_var w var -> In var (path_vars w).
Proof.
  unfold path_var, path_vars. intros [p [ap [v [d [Hp Ha]]]]].
  apply in_map_iff. exists (var, v, d). split; [reflexivity|].
  apply in_flat_map. exists p. split; [assumption|]. apply path_entries_In. now exists ap.
Qed.

Lemma set_var_In k : set_var w k -> In k (set_vars w).
Proof.
  unfold set_var, set_vars. intros [p [v [Hp Ha]]].
  apply in_map_iff. exists (k, v). split; [reflexivity|].
  apply in_flat_map. exists p. split; [assumption|]. now apply set_entries_In.
Qed.

Lemma wf_sound : check_actions w = true -> check_vars w = true -> WF w (dl_of w).
Proof.
  intros HA HV. unfold check_vars in HV. apply andb_true_iff in HV. destruct HV as [HP HS].
  rewrite forallb_forall in HP, HS.
  split.
  - intros p ap var v d Hp Ha. pose proof (actions_sound HA p _ Hp Ha) as X. cbn [action_ok] in X.
    apply andb_true_iff in X. destruct X as [X X3]. apply andb_true_iff in X. destruct X as [X1 X2].
    split; [assumption|split; [assumption|]]. now apply ascii_eqb_eq.
  - intros p k v Hp Ha. pose proof (actions_sound HA p _ Hp Ha) as X. cbn [action_ok] in X.
    apply andb_true_iff in X. destruct X as [X1 X2]. split.
    + intros ->. discriminate.
    + now apply negb_true_iff.
  - intros p k Hp Ha. pose proof (actions_sound HA p _ Hp Ha) as X. discriminate.
  - intros var Hv Hs. apply path_var_In in Hv. apply set_var_In in Hs.
    specialize (HP var Hv). apply andb_true_iff in HP. destruct HP as [X _].
    apply negb_true_iff in X. apply mem_str_not_In in X. contradiction.
  - intros var Hv Hr. apply path_var_In in Hv.
    specialize (HP var Hv). apply andb_true_iff in HP. destruct HP as [_ X].
    rewrite (reserved_maybe var Hr) in X. discriminate.
  - intros k Hs Hr. apply set_var_In in Hs. specialize (HS k Hs).
    rewrite (reserved_maybe k Hr) in HS. discriminate.
Qed.

Lemma rank_sound :
  check_rank w order = true -> forall n m, dep_edge w n m -> rank_of order m < rank_of order n.
Proof.
  intros H n m [p [o [j [[Hp Hn] Ha]]]]. subst n. apply Nat.ltb_lt.
  apply (forallb_forallb dep_targets _ w H p m Hp). apply dep_targets_In. now exists o, j.
Qed.

Lemma known_In n : known w n -> In n (known_names w).
Proof.
  intros [p [Hp [E|[o [j Ha]]]]]; unfold known_names; apply uniq_In; apply in_flat_map; exists p;
    (split; [assumption|]).
  - now left.
  - right. apply dep_targets_In. now exists o, j.
Qed.

Lemma own_var_In n k : own_var w n k -> In k (own_vars w n).
Proof.
  unfold own_var, own_vars. intros [E|[E|[E|[p [v [[Hp Hn] Ha]]]]]]; apply in_or_app.
  - left. left. now symmetry.
  - left. right. left. now symmetry.
  - left. right. right. left. now symmetry.
  - right. apply in_map_iff. exists (k, v). split; [reflexivity|]. apply in_flat_map. exists p. split.
    + apply filter_In. split; [assumption|]. now apply str_eqb_eq.
    + now apply set_entries_In.
Qed.

Lemma var_apart_sound :
  check_var_apart w = true ->
  forall n m k, known w n -> known w m -> n <> m -> own_var w n k -> ~ own_var w m k.
Proof.
  intros H n m k Kn Km Hne On Om.
  pose proof (forallb_forallb (fun _ => known_names w) _ _ H n m (known_In n Kn) (known_In m Km)) as X.
  apply orb_true_iff in X. destruct X as [E|D].
  - apply str_eqb_eq in E. contradiction.
  - apply (disjoint_str_spec _ _ D k); now apply own_var_In.
Qed.

Lemma elem_apart_sound :
  check_elem_apart w = true ->
  forall n m var v, n <> m -> own_elem w n var v -> ~ own_elem w m var v.
Proof.
  intros H n m var v Hne [p [ap [d [[Hp Hn] Ha]]]] [q [ap' [d' [[Hq Hm] Ha']]]].
  pose proof (forallb_forallb (fun _ => w) _ w H p q Hp Hq) as X. apply orb_true_iff in X. destruct X as [E|D].
  - apply str_eqb_eq in E. congruence.
  - apply (disjoint_pair_spec _ _ D (var, v)); apply elem_pairs_In; eauto.
Qed.

Lemma versions_sound :
  check_versions w = true -> check_keys w = true ->
  forall p q, In p w -> In q w -> p_name p = p_name q -> p <> q ->
  disjoint_pair (elem_pairs p) (elem_pairs q) = true /\ disjoint_pair (set_entries p) (set_entries q) = true.
Proof.
  intros H0 K p q Hp Hq Hn Hne. pose proof (forallb_forallb (fun _ => w) _ w H0 p q Hp Hq) as H.
  apply orb_true_iff in H. destruct H as [H|H]; [apply orb_true_iff in H; destruct H as [H|H]|].
  - rewrite Hn, str_eqb_refl in H. discriminate.
  - apply str_eqb_eq in H. exfalso. apply Hne. now apply (keys_sound w K).
  - now apply andb_true_iff in H.
Qed.

Lemma set_once_sound :
  check_set_once w = true ->
  forall p k v v', In p w -> In (ASet k v) (p_actions p) -> In (ASet k v') (p_actions p) -> v = v'.
Proof.
  intros H0 p k v v' Hp Ha Hb. apply set_entries_In in Ha. apply set_entries_In in Hb.
  pose proof (forallb_forallb set_entries _ w H0 p (k, v) Hp Ha) as H. rewrite forallb_forall in H.
  specialize (H (k, v') Hb). cbn [fst snd] in H.
  rewrite str_eqb_refl in H. cbn [negb orb] in H. now apply str_eqb_eq.
Qed.

Lemma words_sound :
  check_words w = true ->
  forall p, In p w -> word (p_name p) /\ word (p_version p) /\ p_version p <> lit "-f".
Proof.
  intros H p Hp. unfold check_words in H. rewrite forallb_forall in H. specialize (H p Hp).
  apply andb_true_iff in H. destruct H as [H H3]. apply andb_true_iff in H. destruct H as [H1 H2].
  split; [now apply word_ok_word|split; [now apply word_ok_word|]].
  apply negb_true_iff in H3. now apply str_eqb_neq.
Qed.

Theorem wf2_check_sound : wf2_check w order = true -> WF2 w (dl_of w) (rank_of order).
Proof.
  unfold wf2_check. intro H0.
  apply andb_prop in H0 as [H0 H9]. apply andb_prop in H0 as [H0 H8]. apply andb_prop in H0 as [H0 H7].
  apply andb_prop in H0 as [H0 H6]. apply andb_prop in H0 as [H0 H5]. apply andb_prop in H0 as [H0 H4].
  apply andb_prop in H0 as [H0 H3]. apply andb_prop in H0 as [H1 H2]. split.
  - now apply wf_sound.
  - now apply rank_sound.
  - now apply elem_apart_sound.
  - now apply var_apart_sound.
  - intros p q ap var v d ap' d' Hp Hq Hn Hne Ha Hb.
    destruct (versions_sound H6 H8 p q Hp Hq Hn Hne) as [D _].
    apply (disjoint_pair_spec _ _ D (var, v)); apply elem_pairs_In; eauto.
  - intros p q k v Hp Hq Hn Hne Ha Hb.
    destruct (versions_sound H6 H8 p q Hp Hq Hn Hne) as [_ D].
    apply (disjoint_pair_spec _ _ D (k, v)); now apply set_entries_In.
  - now apply set_once_sound.
  - now apply (keys_sound w).
  - now apply words_sound.
Qed.

Corollary wf_check_sound : wf2_check w order = true -> WF w (dl_of w).
Proof. intro H. exact (wf_base w (dl_of w) (rank_of order) (wf2_check_sound H)). Qed.

End Sound.

Print Assumptions wf2_check_sound.
Print Assumptions wf_check_sound.
