(* What a call of setup with several stacks (Model/SetupMS.v, every resolver) can do to the variables and aliases
   that products own, in positive form (C02):
     - a variable that is not a path variable is unchanged, or is owned by a product name the call touches;
     - a variable that some table sets with envSet is unchanged, or unset, or holds a value some table sets it to;
     - for every product name the world knows: NAME_DIR_EXTRA is unchanged or unset, and SETUP_NAME / NAME_DIR
       are both unchanged, or both unset, or both written for one declaration of that name - of any stack: the
       value written names its stack (ms_setup_string);
     - an alias is unchanged, or is defined by a table of a product name the call touches.
   The relations are reflexive and transitive, so they hold across setup followed by unsetup; st_rel is an instance
   of the traversal theorem setup_related of Proofs/SetupMSFrame.v.  alias_acc, at the end, is the accounting of
   aliases that Proofs/SetupMSUnwind.v follows. *)
From Eupsv Require Import Base.Base Base.BaseLemmas Model.PathAlg Proofs.PathAlg Model.Setup Model.SetupMS Proofs.SetupMSFrame
     Proofs.SetupMSInv.
From Coq Require Import Lia.

Section Own.
Variable w : mworld.
Variable cfg : config.
Variable dl : str -> ascii.
Variable rank : str -> nat.
Hypothesis H : WF2 w dl rank.

Notation has_name := (has_name w).
Notation own_var := (own_var w).
Notation own_alias := (own_alias w).
Notation path_var := (path_var w).
Notation set_var := (set_var w).
Notation known := (known w).
Notation touches := (touches w).
Notation nodollar_paths := (nodollar_paths w).

(* a value an envSet action can leave in k *)
Definition written (k : str) (val : option str) : Prop :=
  val = None \/ exists p v, In p w /\ In (ASet k v) (mp_actions p) /\ val = Some v.

Definition res_rel (n : str) (e e' : amap str) : Prop :=
  (alookup (extra_var n) e' = alookup (extra_var n) e \/ alookup (extra_var n) e' = None) /\
  ((alookup (setup_var n) e' = alookup (setup_var n) e /\ alookup (dir_var n) e' = alookup (dir_var n) e) \/
   (alookup (setup_var n) e' = None /\ alookup (dir_var n) e' = None) \/
   (exists p, has_name n p /\ alookup (setup_var n) e' = Some (ms_setup_string p) /\
              alookup (dir_var n) e' = Some (mp_dir p))).

Record own_rel (N : str -> Prop) (e e' : amap str) : Prop := {
  or_changed : forall k, ~ path_var k -> alookup k e' = alookup k e \/ exists n, N n /\ own_var n k;
  or_set : forall k, set_var k -> alookup k e' = alookup k e \/ written k (alookup k e');
  or_res : forall n, known n -> res_rel n e e' }.

Definition alias_rel (N : str -> Prop) (a a' : amap str) : Prop :=
  forall k, alookup k a' = alookup k a \/ exists n, N n /\ own_alias n k.

Definition st_rel (N : str -> Prop) (st st' : state) : Prop :=
  own_rel N (s_env st) (s_env st') /\ alias_rel N (s_aliases st) (s_aliases st').

Lemma res_rel_refl n e : res_rel n e e.
Proof. split; [now left|left; now split]. Qed.

Lemma res_rel_trans n e1 e2 e3 : res_rel n e1 e2 -> res_rel n e2 e3 -> res_rel n e1 e3.
Proof.
  intros [X1 M1] [X2 M2]. split.
  - destruct X2 as [X2|X2]; [rewrite X2; exact X1|now right].
  - destruct M2 as [[S2 D2]|[M2|M2]]; [|right; now left|right; now right].
    rewrite S2, D2. exact M1.
Qed.

Lemma own_rel_refl N e : own_rel N e e.
Proof. split; [now left|now left|intros; apply res_rel_refl]. Qed.

Lemma own_rel_trans N e1 e2 e3 : own_rel N e1 e2 -> own_rel N e2 e3 -> own_rel N e1 e3.
Proof.
  intros [C1 S1 R1] [C2 S2 R2]. split.
  - intros k Hk. destruct (C2 k Hk) as [E|O]; [|now right]. rewrite E. now apply C1.
  - intros k Hk. destruct (S2 k Hk) as [E|W]; [|now right]. rewrite E. now apply S1.
  - intros n Kn. exact (res_rel_trans n e1 e2 e3 (R1 n Kn) (R2 n Kn)).
Qed.

Lemma own_rel_mono (N M : str -> Prop) e e' : (forall n, N n -> M n) -> own_rel N e e' -> own_rel M e e'.
Proof.
  intros HNM [C S R]. split; [|assumption|assumption].
  intros k Hk. destruct (C k Hk) as [E|[n [Hn O]]]; [now left|right]. exists n. split; [now apply HNM|assumption].
Qed.

Lemma alias_rel_refl N a : alias_rel N a a.
Proof. intro k. now left. Qed.

Lemma alias_rel_trans N a1 a2 a3 : alias_rel N a1 a2 -> alias_rel N a2 a3 -> alias_rel N a1 a3.
Proof. intros A1 A2 k. destruct (A2 k) as [E|O]; [|now right]. rewrite E. apply A1. Qed.

Lemma alias_rel_mono (N M : str -> Prop) a a' : (forall n, N n -> M n) -> alias_rel N a a' -> alias_rel M a a'.
Proof. intros HNM A k. destruct (A k) as [E|[n [Hn O]]]; [now left|right]. exists n. split; [now apply HNM|assumption]. Qed.

Lemma st_rel_refl N st : st_rel N st st.
Proof. split; [apply own_rel_refl|apply alias_rel_refl]. Qed.

Lemma st_rel_trans N s1 s2 s3 : st_rel N s1 s2 -> st_rel N s2 s3 -> st_rel N s1 s3.
Proof.
  intros [A1 B1] [A2 B2]. split; [exact (own_rel_trans N _ _ _ A1 A2)|exact (alias_rel_trans N _ _ _ B1 B2)].
Qed.

Lemma st_rel_mono (N M : str -> Prop) st st' : (forall n, N n -> M n) -> st_rel N st st' -> st_rel M st st'.
Proof. intros HNM [A B]. split; [now apply (own_rel_mono N M)|now apply (alias_rel_mono N M)]. Qed.

Lemma res_rel_same n e e' : (forall k, res_of n k -> alookup k e' = alookup k e) -> res_rel n e e'.
Proof. intro S. split; [left; apply S, res_extra|left; split; apply S; [apply res_setup|apply res_dir]]. Qed.

Lemma only_res_other name n e e' k :
  known n -> known name -> n <> name -> only_res name e e' -> res_of n k -> alookup k e' = alookup k e.
Proof.
  intros Kn Kname Nn O Rk. apply O. intro Rk'.
  exact (wf_var_apart w dl rank H n name k Kn Kname Nn (res_own w n k Rk) (res_own w name k Rk')).
Qed.

Lemma only_res_rel (N : str -> Prop) name e e' :
  N name -> known name -> only_res name e e' -> res_rel name e e' -> own_rel N e e'.
Proof.
  intros Hn Kname O R. split.
  - intros k _. destruct (res_of_dec name k) as [Rk|NR]; [right|left; now apply O].
    exists name. split; [assumption|exact (res_own w name k Rk)].
  - intros k Hk. left. apply O. intro Rk.
    exact (wf_set_not_reserved (wf_base w dl rank H) _ Hk (res_reserved name k Rk)).
  - intros n Kn. destruct (str_eq_dec n name) as [->|Nn]; [exact R|].
    apply res_rel_same. intros k. exact (only_res_other name n e e' k Kn Kname Nn O).
Qed.

Lemma set_vars_rel (N : str -> Prop) name p st :
  N name -> has_name name p ->
  own_rel N (s_env st) (s_env (mset_product_vars st name p)).
Proof.
  intros Hn Hp. apply (only_res_rel N name _ _ Hn (known_has_name w name p Hp) (set_vars_only_res name p st)).
  split; [left; apply set_vars_extra|right; right].
  exists p. split; [assumption|split; [apply set_vars_setup|apply set_vars_dir]].
Qed.

Lemma unset_vars_rel (N : str -> Prop) name st :
  N name -> known name ->
  own_rel N (s_env st) (s_env (unset_product_vars st name)).
Proof.
  intros Hn Kname. apply (only_res_rel N name _ _ Hn Kname (unset_vars_only_res name st)).
  split; [right|right; left; split]; apply unset_vars_gone; [apply res_extra|apply res_setup|apply res_dir].
Qed.

Lemma one_var_rel (N : str -> Prop) name c e e' :
  N name -> (forall k, k <> c -> alookup k e' = alookup k e) -> ~ reserved c ->
  (path_var c \/ own_var name c /\ written c (alookup c e')) ->
  own_rel N e e' /\ forall k, reserved k -> alookup k e' = alookup k e.
Proof.
  intros Hn Oth NR Hc.
  assert (R : forall k, reserved k -> alookup k e' = alookup k e).
  { intros k Rk. apply Oth. intros ->. contradiction. }
  split; [split|exact R].
  - intros k Hk. destruct (str_eq_dec k c) as [->|Nk]; [|left; now apply Oth].
    destruct Hc as [Pc|[Oc _]]; [contradiction|]. right. exists name. split; assumption.
  - intros k Hk. destruct (str_eq_dec k c) as [->|Nk]; [|left; now apply Oth].
    destruct Hc as [Pc|[_ Wc]]; [|now right]. now elim (wf_path_not_set (wf_base w dl rank H) c Pc Hk).
  - intros n _. apply res_rel_same. intros k Rk. apply R. exact (res_reserved n k Rk).
Qed.

Lemma simple_rel (N : str -> Prop) name p fwd a st :
  N name -> has_name name p -> In a (mp_actions p) -> (forall o m j, a <> ASetup o m j) ->
  nodollar_paths (s_env st) ->
  exists st', exec_simple fwd a st = Ok st' /\ st_rel N st st' /\ nodollar_paths (s_env st') /\
    (forall k, reserved k -> alookup k (s_env st') = alookup k (s_env st)) /\
    (((forall k v, a <> AAlias k v) /\ s_aliases st' = s_aliases st) \/
     exists k v, a = AAlias k v /\ s_env st' = s_env st /\
                 s_aliases st' = if fwd then aset k v (s_aliases st) else aremove k (s_aliases st)).
Proof.
  intros Hn Hp Ha Hns Hnd.
  destruct a as [o m j|ap var v d|k v|k|k v|]; cbn [exec_simple].
  - now elim (Hns o m j).
  - destruct (path_step_facts w dl rank H name p ap fwd var v d (s_env st) Hp Ha Hnd) as [e' [E1 [_ [E3 [E4 _]]]]].
    rewrite E1. eexists. split; [reflexivity|]. cbn [with_env s_env s_aliases].
    assert (Hpv : path_var var) by (exists p, ap, v, d; split; [apply Hp|assumption]).
    destruct (one_var_rel N name var _ e' Hn E4 (wf_path_not_reserved (wf_base w dl rank H) var Hpv) (or_introl Hpv)) as [O R].
    split; [split; [exact O|apply alias_rel_refl]|split; [assumption|split; [exact R|left; split; [discriminate|reflexivity]]]].
  - destruct (frame_set_step w dl (wf_base w dl rank H) (eq name) name p fwd k v (s_env st) eq_refl Hp Ha Hnd) as [E1 [_ E3]].
    rewrite E1. eexists. split; [reflexivity|]. cbn [with_env s_env s_aliases].
    assert (Hsv : set_var k) by (exists p, v; split; [apply Hp|assumption]).
    destruct (one_var_rel N name k (s_env st) (if fwd then aset k v (s_env st) else aremove k (s_env st)) Hn) as [O R].
    + intros k' Nk. destruct fwd; [now apply alookup_aset_other|now apply alookup_aremove_other].
    + exact (wf_set_not_reserved (wf_base w dl rank H) k Hsv).
    + right. split; [exact (own_set w name p k v Hp Ha)|]. destruct fwd.
      * right. exists p, v. split; [apply Hp|]. split; [assumption|apply alookup_aset_same].
      * left. apply alookup_aremove_same.
    + split; [split; [exact O|apply alias_rel_refl]|split; [assumption|split; [exact R|left; split; [discriminate|reflexivity]]]].
  - now elim (wf_nounset (wf_base w dl rank H) p k (proj1 Hp) Ha).
  - eexists. split; [reflexivity|]. cbn [s_env s_aliases].
    split; [split; [apply own_rel_refl|]|split; [assumption|split; [reflexivity|]]].
    + intro k'. destruct (str_eq_dec k' k) as [->|Nk].
      * right. exists name. split; [assumption|]. exists p, v. split; assumption.
      * left. destruct fwd; [now apply alookup_aset_other|now apply alookup_aremove_other].
    + right. exists k, v. split; [reflexivity|split; reflexivity].
  - eexists. split; [reflexivity|]. split; [apply st_rel_refl|]. split; [assumption|split; [reflexivity|left; split; [discriminate|reflexivity]]].
Qed.

Definition fn_own (rec : msetup_fn) : Prop :=
  forall st ds name fwd depth just, nodollar_paths (s_env st) -> depth_ok cfg depth ->
    match rec st ds name fwd depth just with
    | MDone _ st' _ => st_rel (touches (levels cfg depth just) name) st st'
    | _ => True
    end.

Theorem setup_own fuel : fn_own (msetup w cfg fuel).
Proof.
  intros st ds name fwd depth just Hnd Hd.
  pose proof (wf_base w dl rank H) as Hb.
  assert (G : related w st_rel (touches (levels cfg depth just) name) st (msetup w cfg fuel st ds name fwd depth just)).
  { apply (setup_related w cfg st_rel st_rel_refl st_rel_trans st_rel_mono); [| | |assumption|assumption].
    - intros N n p fwd0 a st0 Hn Hp Ha Hns D.
      destruct (simple_rel N n p fwd0 a st0 Hn Hp Ha Hns D) as [st' [E [R [D' _]]]]. now exists st'.
    - intros N n p st0 Hn Hp D. destruct (set_vars_framed w dl Hb N n p st0 Hn D) as [_ D'].
      split; [split; [now apply set_vars_rel|apply alias_rel_refl]|exact D'].
    - intros N n p st0 Hn Hp D. destruct (unset_vars_framed w dl Hb N n st0 Hn D) as [_ D'].
      split; [split; [exact (unset_vars_rel N n st0 Hn (known_has_name w n p Hp))|apply alias_rel_refl]|exact D']. }
  destruct (msetup w cfg fuel st ds name fwd depth just); try exact I. exact (proj1 G).
Qed.

End Own.

(* every alias (of the set Z) that is defined and that a table of a mproduct name in [reach] defines is accounted
   for: it is one of the pending names B, or a table of a mproduct that is recorded, of a name in [reach], defines it *)
Definition alias_acc (w : mworld) (cfg : config) (reach Z B : str -> Prop) (st : state) : Prop :=
  forall k v, Z k -> alookup k (s_aliases st) = Some v -> (exists n, reach n /\ own_alias w n k) ->
    B k \/ exists n q v', reach n /\ mfind_setup_product w (c_flavor cfg) (s_env st) n = Some q /\ In (AAlias k v') (mp_actions q).
