(* C08, second layer: reachable databases are represented (non-vacuity of the hypotheses), and
   the concrete states used by the witnesses in Props/C08.v. *)
From Eupsv Require Import Base.Base Base.BaseLemmas Model.Db Model.Crash Model.CrashDb
  Proofs.Db Proofs.DbInv Proofs.Crash Proofs.CrashDb.

Lemma apply_effects_app f a b : apply_effects f (a ++ b) = apply_effects (apply_effects f a) b.
Proof. unfold apply_effects. apply fold_left_app. Qed.

Lemma represents_run ops : forall f d, represents f d -> forallb op_ok ops = true ->
  represents (apply_effects f (images (run_effects d ops))) (run false d ops).
Proof.
  induction ops as [|o r IH]; intros f d R H; [exact R|].
  cbn [forallb] in H. apply andb_true_iff in H. destruct H as [H1 H2].
  cbn [run_effects]. unfold images. rewrite map_app. fold (images (op_effects d o)).
  fold (images (run_effects (step_total false d o) r)). rewrite apply_effects_app.
  change (run false d (o :: r)) with (run false (step_total false d o) r).
  apply IH; [|exact H2].
  unfold op_effects, step_total, step_gen. fold (effects d o).
  destruct (effects d o) as [es|e] eqn:E; [|exact R].
  apply represents_apply; [exact R|]. apply (effects_ok false d o es (represents_names_ok _ _ R) H1 E).
Qed.

Lemma reachable_is_represented path ops : forallb seg_ok path = true -> forallb op_ok ops = true ->
  represents (store_of path ops) (run false (empty_db path) ops).
Proof. intros H1 H2. apply represents_run; [apply represents_empty; exact H1|exact H2]. Qed.

Definition w_L : str := lit "Linux64".
Definition w_D : str := lit "Darwin".
Definition w_path : list str := [lit "stack"].
Definition w_o (fl : str) : opts := mkOpts fl None false false.

(* declare a 1 -t current ; declare a 2   (flavor Linux64) *)
Definition w_hist : list op :=
  [Declare (w_o w_L) (lit "a") (lit "1") (Some (lit "/p/a/1")) None (Some (lit "current"));
   Declare (w_o w_L) (lit "a") (lit "2") (Some (lit "/p/a/2")) None None].

Definition w_d : db := run false (empty_db w_path) w_hist.
Definition w_f : fs := store_of w_path w_hist.

Lemma w_represents : represents w_f w_d.
Proof. apply reachable_is_represented; reflexivity. Qed.

Lemma w_no_dangling : no_dangling (view w_d).
Proof. apply run_no_dangling. apply no_dangling_empty. Qed.

(* the tag move: declare a 2 -t current *)
Definition w_move : op := Declare (w_o w_L) (lit "a") (lit "2") None None (Some (lit "current")).
(* a second flavor joins the version file of a 1 *)
Definition w_join : op := Declare (w_o w_D) (lit "a") (lit "1") (Some (lit "/q/a/1")) None None.
(* undeclare the tagged version a 1 *)
Definition w_undeclare : op := Undeclare (w_o w_L) (lit "a") (Some (lit "1")).
