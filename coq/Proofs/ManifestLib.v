(* Text-level lemmas for C18 (level A): words and non-space runs, padded columns, lines_of, sorting; association lists. *)
From Coq Require Import Lia Permutation.
From Eupsv Require Import Base.Base Base.BaseLemmas Model.Manifest Model.ManifestSpec.

Definition nosp (s : str) : Prop := Forall (fun c => is_pyspace c = false) s.
Definition word (s : str) : Prop := s <> [] /\ nosp s.

Lemma wf_word_word s : wf_word s = true -> word s.
Proof.
  unfold wf_word, word, nosp. intros H. apply andb_true_iff in H. destruct H as [Hn Hf].
  split.
  - destruct s; [discriminate|congruence].
  - apply Forall_forall. intros c Hc. rewrite forallb_forall in Hf. specialize (Hf c Hc).
    unfold is_word_char in Hf. now apply negb_true_iff in Hf.
Qed.

Lemma words_space c x : is_pyspace c = true -> words (c :: x) = words x.
Proof. intros H. cbn [words]. now rewrite H. Qed.

Lemma words_spaces k x : words (repeat c_sp k ++ x) = words x.
Proof. induction k; cbn [repeat app]; [reflexivity|]. rewrite words_space; auto. Qed.

Lemma words_step a b r :
  words (a :: b :: r) =
  if is_pyspace a then words (b :: r)
  else if is_pyspace b then [a] :: words (b :: r)
       else match words (b :: r) with h :: t => (a :: h) :: t | [] => [[a]] end.
Proof. reflexivity. Qed.

(* where a run of non-space characters may end: at the end of the text or before white space *)
Definition at_space (x : str) : Prop :=
  match x with [] => True | c :: _ => is_pyspace c = true end.

Lemma words_run w x : word w -> at_space x -> words (w ++ x) = w :: words x.
Proof.
  intros [Hne Hn] Hx. induction w as [|a w IH]; [congruence|].
  inversion Hn as [|? ? Ha Hw]; subst.
  destruct w as [|b w].
  - destruct x as [|c x]; cbn [app]; [cbn [words]; now rewrite Ha|].
    cbn [at_space] in Hx. rewrite words_step, Ha, Hx. now rewrite words_space.
  - assert (Hb : is_pyspace b = false) by (inversion Hw; auto).
    change ((a :: b :: w) ++ x) with (a :: b :: (w ++ x)). rewrite words_step, Ha, Hb.
    change (b :: (w ++ x)) with ((b :: w) ++ x). now rewrite (IH ltac:(discriminate) Hw).
Qed.

Lemma words_word w : word w -> words w = [w].
Proof. intros W. pose proof (words_run w [] W I) as H. now rewrite app_nil_r in H. Qed.

Lemma words_nil : words [] = [].
Proof. reflexivity. Qed.

Lemma words_ljust n w x : word w -> words (ljust n w ++ c_sp :: x) = w :: words x.
Proof.
  intros W. unfold ljust. rewrite <- app_assoc.
  rewrite words_run; [now rewrite words_spaces, words_space | assumption | now destruct (n - length w)].
Qed.

Lemma words_extras v ex : word v -> Forall word ex ->
  words (v ++ concat (map (fun e => c_sp :: c_sp :: e) ex)) = v :: ex.
Proof.
  revert v. induction ex as [|e ex IH]; intros v Wv Hex.
  - cbn [map concat]. rewrite app_nil_r. now apply words_word.
  - inversion Hex; subst. cbn [map concat]. cbn [app].
    rewrite words_run by (assumption || reflexivity). rewrite !words_space by reflexivity. now rewrite IH.
Qed.

Lemma dropw_nosp c x : is_pyspace c = false -> dropw (c :: x) = c :: x.
Proof. intros H. cbn [dropw]. now rewrite H. Qed.

Lemma boc_word_start c x : is_pyspace c = false -> blank_or_comment (c :: x) = ascii_eqb c c_hash.
Proof. intros H. unfold blank_or_comment. now rewrite dropw_nosp. Qed.

Lemma boc_hash x : blank_or_comment (c_hash :: x) = true.
Proof. now rewrite boc_word_start. Qed.

Lemma strip_prefix_app p x : strip_prefix p (p ++ x) = Some x.
Proof.
  induction p as [|c p IH]; cbn [app strip_prefix]; [now destruct x|].
  now rewrite ascii_eqb_refl.
Qed.

Lemma spanw_run w x : nosp w -> at_space x -> spanw (w ++ x) = (w, x).
Proof.
  intros Hw Hx. induction Hw as [|a w Ha Hw IH]; cbn [app spanw].
  - destruct x as [|c x]; cbn [spanw]; [reflexivity|]. cbn [at_space] in Hx. now rewrite Hx.
  - now rewrite Ha, IH.
Qed.

Lemma spanw_all w : nosp w -> spanw w = (w, []).
Proof. intros H. pose proof (spanw_run w [] H I) as E. now rewrite app_nil_r in E. Qed.

Lemma nosp_app a b : nosp a -> nosp b -> nosp (a ++ b).
Proof. unfold nosp. intros. apply Forall_app; auto. Qed.

Definition nonl (s : str) : Prop :=
  Forall (fun c => ascii_eqb c c_nl = false /\ ascii_eqb c c_cr = false) s.

Lemma no_nl_nonl s : no_nl s = true -> nonl s.
Proof.
  unfold no_nl, nonl. intros H. apply Forall_forall. intros c Hc.
  rewrite forallb_forall in H. specialize (H c Hc). apply andb_true_iff in H.
  destruct H as [H1 H2]. now rewrite negb_true_iff in H1, H2.
Qed.

Lemma nosp_nonl s : nosp s -> nonl s.
Proof.
  unfold nosp, nonl. intros H. eapply Forall_impl; [|exact H]. intros c Hc. cbv beta in *.
  split.
  - destruct (ascii_eqb_spec c c_nl); auto. subst. discriminate.
  - destruct (ascii_eqb_spec c c_cr); auto. subst. discriminate.
Qed.

Lemma nonl_app a b : nonl a -> nonl b -> nonl (a ++ b).
Proof. unfold nonl. intros. apply Forall_app; auto. Qed.

Lemma nonl_cons c s : ascii_eqb c c_nl = false -> ascii_eqb c c_cr = false -> nonl s -> nonl (c :: s).
Proof. unfold nonl. intros. constructor; auto. Qed.

Lemma nonl_repeat c n : ascii_eqb c c_nl = false -> ascii_eqb c c_cr = false -> nonl (repeat c n).
Proof. intros. induction n; cbn [repeat]; [constructor|]. apply nonl_cons; auto. Qed.

Lemma no_nl_app a b : no_nl (a ++ b) = no_nl a && no_nl b.
Proof. apply forallb_app. Qed.

Lemma nonl_no_nl s : nonl s -> no_nl s = true.
Proof.
  unfold nonl, no_nl. rewrite Forall_forall, forallb_forall. intros H c Hc. now destruct (H c Hc) as [-> ->].
Qed.

Lemma word_no_nl s : word s -> no_nl s = true.
Proof. intros [_ H]. now apply nonl_no_nl, nosp_nonl. Qed.

Lemma forallb_no_nl ls : forallb no_nl ls = true -> Forall nonl ls.
Proof. rewrite forallb_forall, Forall_forall. intros H l Hl. now apply no_nl_nonl, H. Qed.

(* a column of a written line: the padded field and the blank of the format *)
Lemma nonl_column n s x : nosp s -> nonl x -> nonl (ljust n s ++ c_sp :: x).
Proof.
  intros Hs Hx. unfold ljust.
  apply nonl_app; [apply nonl_app; [now apply nosp_nonl | now apply nonl_repeat] | now apply nonl_cons].
Qed.

Lemma lines_of_line l rest : nonl l -> lines_of (l ++ c_nl :: rest) = l :: lines_of rest.
Proof.
  induction 1 as [|c l [H1 H2] Hl IH]; cbn [app].
  - cbn [lines_of]. now rewrite ascii_eqb_refl.
  - cbn [lines_of]. rewrite H1, H2. now rewrite IH.
Qed.

Lemma lines_of_unlines ls : Forall nonl ls -> lines_of (unlines ls) = ls.
Proof.
  unfold unlines. induction 1 as [|l ls Hl Hls IH]; cbn [map concat]; [reflexivity|].
  rewrite <- app_assoc. cbn [app]. rewrite lines_of_line; auto. now rewrite IH.
Qed.

Lemma str_ltb_asym a : forall b, str_ltb a b = true -> str_ltb b a = false.
Proof.
  induction a as [|x a IH]; intros [|y b] H; cbn [str_ltb] in *; try congruence.
  destruct (N.ltb (N_of_ascii x) (N_of_ascii y)) eqn:E1.
  - apply N.ltb_lt in E1. destruct (N.ltb (N_of_ascii y) (N_of_ascii x)) eqn:E2.
    + apply N.ltb_lt in E2. lia.
    + reflexivity.
  - destruct (N.ltb (N_of_ascii y) (N_of_ascii x)) eqn:E2; [discriminate|]. auto.
Qed.

Lemma insert_sorted_perm x l : Permutation (insert_sorted x l) (x :: l).
Proof.
  induction l as [|y l IH]; cbn [insert_sorted]; [reflexivity|].
  destruct (str_ltb y x); [|reflexivity].
  rewrite IH. apply perm_swap.
Qed.

Lemma sort_str_perm l : Permutation (sort_str l) l.
Proof.
  unfold sort_str. induction l as [|x l IH]; cbn [fold_right]; [reflexivity|].
  rewrite insert_sorted_perm. now constructor.
Qed.

Lemma sort_str_In x l : In x (sort_str l) <-> In x l.
Proof.
  split; apply Permutation_in; [apply sort_str_perm | symmetry; apply sort_str_perm].
Qed.

Lemma sort_str_NoDup l : NoDup l -> NoDup (sort_str l).
Proof. intros H. eapply Permutation_NoDup; [symmetry; apply sort_str_perm | exact H]. Qed.

Fixpoint lsorted (l : list str) : Prop :=
  match l with
  | x :: (y :: _) as l' => str_ltb y x = false /\ lsorted l'
  | _ => True
  end.

Lemma insert_sorted_lsorted x l : lsorted l -> lsorted (insert_sorted x l).
Proof.
  induction l as [|y l IH]; intros H; cbn [insert_sorted]; [exact I|].
  destruct (str_ltb y x) eqn:E.
  - specialize (IH ltac:(destruct l; [exact I | apply H])).
    destruct l as [|z l]; cbn [insert_sorted] in *.
    + split; [now apply str_ltb_asym | exact I].
    + destruct (str_ltb z x) eqn:E2.
      * split; [apply H | exact IH].
      * split; [now apply str_ltb_asym | exact IH].
  - split; [exact E | exact H].
Qed.

Lemma sort_str_lsorted l : lsorted (sort_str l).
Proof.
  unfold sort_str. induction l as [|x l IH]; cbn [fold_right]; [exact I|].
  now apply insert_sorted_lsorted.
Qed.

Lemma sort_str_sorted_id l : lsorted l -> sort_str l = l.
Proof.
  unfold sort_str. induction l as [|x l IH]; intros H; cbn [fold_right]; [reflexivity|].
  rewrite IH by (destruct l; [exact I | apply H]).
  destruct l as [|y l]; cbn [insert_sorted]; [reflexivity|].
  destruct H as [H _]. now rewrite H.
Qed.

Lemma sort_str_idem l : sort_str (sort_str l) = sort_str l.
Proof. apply sort_str_sorted_id, sort_str_lsorted. Qed.

Lemma alookup_In_keys {V} k (m : amap V) : In k (akeys m) -> exists v, alookup k m = Some v.
Proof.
  unfold akeys. induction m as [|[k' v'] m IH]; cbn [map fst In alookup]; [tauto|].
  intros [->|H].
  - rewrite str_eqb_refl. eauto.
  - destruct (str_eqb k k'); eauto.
Qed.

Lemma alookup_not_In {V} k (m : amap V) : ~ In k (akeys m) -> alookup k m = None.
Proof.
  unfold akeys. induction m as [|[k' v'] m IH]; cbn [map fst In alookup]; [reflexivity|].
  intros H. destruct (str_eqb_spec k k') as [->|Hne]; [exfalso; auto|]. apply IH. tauto.
Qed.

Lemma In_NoDup_alookup {V} k (v : V) m : NoDup (akeys m) -> In (k, v) m -> alookup k m = Some v.
Proof.
  unfold akeys. induction m as [|[k' v'] m IH]; cbn [map fst In alookup]; [tauto|].
  intros Hnd [[= -> ->]|Hin].
  - now rewrite str_eqb_refl.
  - inversion Hnd; subst. destruct (str_eqb_spec k k') as [->|Hne]; [|auto].
    exfalso. apply H1. change k' with (fst (k', v)). now apply in_map.
Qed.

Lemma oget_cons {V} k k0 (x : amap V) o : oget k ((k0, x) :: o) = if str_eqb k k0 then x else oget k o.
Proof. unfold oget. cbn [alookup]. now destruct (str_eqb k k0). Qed.

Lemma oget_aset_same {V} k (v : amap V) m : oget k (aset k v m) = v.
Proof. unfold oget. now rewrite alookup_aset_same. Qed.

Lemma oget_aset_other {V} k k' (v : amap V) m : k' <> k -> oget k' (aset k v m) = oget k' m.
Proof. intros H. unfold oget. now rewrite alookup_aset_other. Qed.

Lemma In_aset {V} k (v : V) m k' v' : In (k', v') (aset k v m) -> (k' = k /\ v' = v) \/ In (k', v') m.
Proof.
  induction m as [|[k0 v0] m IH]; cbn [aset In].
  - intros [[= <- <-]|[]]. auto.
  - destruct (str_eqb k k0).
    + intros [[= <- <-]|H]; auto.
    + intros [H|H]; auto. destruct (IH H); auto.
Qed.

Lemma akeys_aset_In {V} k (v : V) m x : In x (akeys (aset k v m)) -> x = k \/ In x (akeys m).
Proof.
  unfold akeys. intros H. apply in_map_iff in H. destruct H as [[k' v'] [<- H]].
  apply In_aset in H. destruct H as [[-> _]|H]; auto. right. change k' with (fst (k', v')). now apply in_map.
Qed.

Lemma NoDup_aset {V} k (v : V) m : NoDup (akeys m) -> NoDup (akeys (aset k v m)).
Proof.
  unfold akeys. induction m as [|[k0 v0] m IH]; cbn [aset map fst]; intros H.
  - repeat constructor. intros [].
  - inversion H; subst. destruct (str_eqb_spec k k0) as [->|Hne]; cbn [map fst]; [now constructor|].
    constructor; [|auto]. intros Hin. apply akeys_aset_In in Hin. destruct Hin; [congruence|auto].
Qed.

Lemma str_eqb3_eq a a' b b' c c' :
  str_eqb a a' && str_eqb b b' && str_eqb c c' = true -> a = a' /\ b = b' /\ c = c'.
Proof. rewrite !andb_true_iff, !str_eqb_eq. tauto. Qed.
