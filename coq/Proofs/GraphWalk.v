(* The recursive table walk (Table.dependencies): termination on every world, soundness and
   completeness with respect to reachability. *)
From Coq Require Import Lia.
From Eupsv Require Import Base.Base Base.BaseLemmas Model.Graph Proofs.GraphLib Proofs.GraphLayers.

Lemma gedge_cons k l (m : graph) a b : gedge ((k, l) :: m) a b <-> (a = k /\ In b l) \/ gedge m a b.
Proof.
  unfold gedge. simpl. split.
  - intros [ss [[Q | I1] I2]]; [inversion Q; subst; auto | right; exists ss; auto].
  - intros [[-> I] | [ss [I1 I2]]]; [exists l; auto | exists ss; auto].
Qed.

Lemma gedge_nil a b : ~ gedge [] a b.
Proof. intros [ss [[] _]]. Qed.

Lemma gedge_pd_add k t m a b : gedge (pd_add_l k t m) a b <-> gedge m a b \/ (a = k /\ b = t).
Proof.
  induction m as [|[k' l] m IH]; simpl.
  - rewrite gedge_cons. simpl. split.
    + intros [[-> [<- | []]] | H]; [auto | destruct (gedge_nil _ _ H)].
    + intros [H | [-> ->]]; [destruct (gedge_nil _ _ H) | auto].
  - destruct (node_eqb k k') eqn:E.
    + apply node_eqb_eq in E. subst k'. rewrite !gedge_cons, in_app_iff. simpl. split.
      * intros [[-> [H | [<- | []]]] | H]; auto.
      * intros [[[-> H] | H] | [-> ->]]; auto.
    + rewrite !gedge_cons, IH. symmetry. apply or_assoc.
Qed.

Lemma gedge_pd_ensure k m a b : gedge (pd_ensure_l k m) a b <-> gedge m a b.
Proof.
  induction m as [|[k' l] m IH]; simpl.
  - rewrite gedge_cons. simpl. tauto.
  - destruct (node_eqb k k') eqn:E; [reflexivity|]. rewrite !gedge_cons, IH. reflexivity.
Qed.

Lemma gkeys_pd_ensure_eq k m :
  gkeys (pd_ensure_l k m) = if mem_node k (gkeys m) then gkeys m else gkeys m ++ [k].
Proof.
  unfold gkeys. induction m as [|[k' l] m IH]; simpl; [reflexivity|].
  destruct (node_eqb k k'); simpl; [reflexivity|]. rewrite IH. destruct (mem_node k (map fst m)); reflexivity.
Qed.

Lemma gkeys_pd_add_eq k t m : gkeys (pd_add_l k t m) = gkeys (pd_ensure_l k m).
Proof.
  unfold gkeys. induction m as [|[k' l] m IH]; simpl; [reflexivity|].
  destruct (node_eqb k k'); simpl; [reflexivity|]. rewrite IH. reflexivity.
Qed.

Lemma gkeys_pd_ensure k m x : In x (gkeys (pd_ensure_l k m)) <-> In x (gkeys m) \/ k = x.
Proof.
  rewrite gkeys_pd_ensure_eq. destruct (mem_node k (gkeys m)) eqn:E.
  - apply mem_node_In in E. split; [auto | intros [H | <-]; assumption].
  - rewrite in_app_iff. simpl. split; [intros [H | [H | []]]; auto | intros [H | H]; auto].
Qed.

Lemma gkeys_pd_add k t m x : In x (gkeys (pd_add_l k t m)) <-> In x (gkeys m) \/ k = x.
Proof. rewrite gkeys_pd_add_eq. apply gkeys_pd_ensure. Qed.

Section Walk.
  Variable w : world.
  Variable pins : list (str * option str).

  Definition tg (e : edge) : node := resolve w pins e.

  Definition stepP (p q : node) : Prop :=
    exists es e, node_table w p = Some es /\ In e es /\ q = tg e.

  Inductive reachP : node -> node -> Prop :=
  | rp_one p q : stepP p q -> reachP p q
  | rp_more p q r : stepP p q -> reachP q r -> reachP p r.

  Lemma reachP_trans p q r : reachP p q -> reachP q r -> reachP p r.
  Proof.
    intros P Q. induction P as [p q H | p q r' H _ IH]; [eapply rp_more; eauto | eapply rp_more; [exact H | apply IH, Q]].
  Qed.

  Lemma reachP_trans_step p q r : reachP p q -> stepP q r -> reachP p r.
  Proof. intros P S. apply (reachP_trans p q r P), rp_one, S. Qed.

  Definition unvisited (st : wstate) : nat :=
    length (filter (fun k => negb (mem_node k (vis st))) (world_nodes w)).

  Lemma unvisited_mono st st' : incl (vis st) (vis st') -> unvisited st' <= unvisited st.
  Proof. apply count_not_in_mono. Qed.

  Lemma unvisited_mark t st : In t (world_nodes w) -> ~ In t (vis st) -> unvisited (mark t st) < unvisited st.
  Proof.
    intros I N. apply count_not_in_lt with (n := t); [|exact I|exact N|]; simpl; auto using incl_tl, incl_refl.
  Qed.

  (* one call of the walk on the lines [es] of the table of [tp], from state [st]: wo_mono to wo_emitted speak of
     the listing [out] and of the products visited, the wo_pd_ fields of the edges and keys of productDictionary *)
  Record walk_ok (tp : node) (st : wstate) (es : list edge) (out : list entry) (st' : wstate) : Prop := {
    wo_mono : incl (vis st) (vis st');
    wo_new : forall x, In x (vis st') -> ~ In x (vis st) ->
             forall es_x e, node_table w x = Some es_x -> In e es_x -> In (tg e) (map enode out);
    wo_lines : forall e, In e es -> In (tg e) (map enode out);
    wo_vis : forall t, In t (map enode out) -> nreal t = true -> In t (vis st');
    wo_sound : forall R : node -> Prop,
        (forall e, In e es -> R (tg e)) -> (forall x y, R x -> stepP x y -> R y) ->
        forall t, In t (map enode out) -> R t;
    wo_emitted : forall x, In x (vis st') -> ~ In x (vis st) -> In x (map enode out);
    wo_pd_mono : forall k s, gedge (pd st) k s -> gedge (pd st') k s;
    wo_pd_sound : forall k s, gedge (pd st') k s ->
        gedge (pd st) k s \/ (k = tp /\ exists e, In e es /\ s = tg e) \/
        (In k (vis st') /\ ~ In k (vis st) /\ stepP k s);
    wo_pd_lines : forall e, In e es -> gedge (pd st') tp (tg e);
    wo_pd_new : forall x, In x (vis st') -> ~ In x (vis st) ->
        forall es_x e, node_table w x = Some es_x -> In e es_x -> gedge (pd st') x (tg e);
    wo_pd_keys : forall k, In k (gkeys (pd st')) ->
        In k (gkeys (pd st)) \/ k = tp \/ (In k (vis st') /\ ~ In k (vis st))
  }.

  Definition rec_ok (rec : node -> nat -> list edge -> wstate -> res (list entry * wstate)) (n : nat) : Prop :=
    forall t d es st, unvisited st < n ->
      exists out st', rec t d es st = Ok (out, st') /\ walk_ok t st es out st'.

  Lemma vis_pd_add k t st : vis (pd_add k t st) = vis st.
  Proof. reflexivity. Qed.
  Lemma vis_pd_ensure k st : vis (pd_ensure k st) = vis st.
  Proof. reflexivity. Qed.

  (* the effect of handling one line before the rest of the loop: the recursive call, if any *)
  Record sub_ok (st : wstate) (t : node) (l1 : list entry) (st2 : wstate) : Prop := {
    so_mono : incl (vis st) (vis st2);
    so_vis : nreal t = true -> In t (vis st2);
    so_new : forall x, In x (vis st2) -> ~ In x (vis st) ->
             forall es_x e', node_table w x = Some es_x -> In e' es_x -> In (tg e') (map enode l1);
    so_out_vis : forall q, In q (map enode l1) -> nreal q = true -> In q (vis st2);
    so_sound : forall R : node -> Prop, R t -> (forall x y, R x -> stepP x y -> R y) ->
               forall q, In q (map enode l1) -> R q;
    so_emitted : forall x, In x (vis st2) -> ~ In x (vis st) -> x = t \/ In x (map enode l1);
    so_pd_mono : forall k s, gedge (pd st) k s -> gedge (pd st2) k s;
    so_pd_sound : forall k s, gedge (pd st2) k s ->
                  gedge (pd st) k s \/ (In k (vis st2) /\ ~ In k (vis st) /\ stepP k s);
    so_pd_new : forall x, In x (vis st2) -> ~ In x (vis st) ->
                forall es_x e', node_table w x = Some es_x -> In e' es_x -> gedge (pd st2) x (tg e');
    so_pd_keys : forall k, In k (gkeys (pd st2)) -> In k (gkeys (pd st)) \/ (In k (vis st2) /\ ~ In k (vis st))
  }.

  Lemma sub_ok_skip st t : (nreal t = true -> In t (vis st)) -> sub_ok st t [] st.
  Proof. intros H. constructor; simpl; try tauto. apply incl_refl. Qed.

  Lemma sub_call_ok rec n : rec_ok rec n -> forall t depth st, unvisited st <= n ->
    exists l1 st2,
      (if nreal t && negb (mem_node t (vis st))
       then match node_table w t with
            | Some es' => rec t (S depth) es' (pd_ensure t (mark t st))
            | None => Ok ([], mark t st)
            end
       else Ok ([], st)) = Ok (l1, st2) /\ sub_ok st t l1 st2.
  Proof.
    intros Hrec t depth st Hn.
    destruct (nreal t) eqn:Hr; simpl.
    2:{ exists [], st. split; [reflexivity | apply sub_ok_skip; congruence]. }
    destruct (mem_node t (vis st)) eqn:Hm; simpl.
    { apply mem_node_In in Hm. exists [], st. split; [reflexivity | apply sub_ok_skip; auto]. }
    apply mem_node_not_In in Hm.
    destruct (node_table w t) as [es'|] eqn:Ht.
    - assert (Hlt : unvisited (pd_ensure t (mark t st)) < n).
      { apply Nat.lt_le_trans with (unvisited st); [|exact Hn].
        exact (unvisited_mark t st (node_table_world_nodes _ _ _ Ht) Hm). }
      destruct (Hrec t (S depth) es' _ Hlt) as [l1 [st2 [E Hok]]].
      exists l1, st2. split; [exact E|].
      destruct Hok as [M N L V S Em P1 P2 P3 P4 P5]. simpl in M, N, Em, P1, P2, P4, P5.
      assert (Hnew : forall x, In x (vis st2) -> ~ In x (vis st) -> x = t \/ (x <> t /\ ~ (t = x \/ In x (vis st)))).
      { intros x Hx Hnx. destruct (node_eq_dec x t) as [-> | Ne]; [auto|]. right. split; [exact Ne|].
        intros [Q | Q]; [congruence | tauto]. }
      constructor.
      + intros x Hx. apply M. simpl. auto.
      + intros _. apply M. simpl. auto.
      + intros x Hx Hnx es_x e' Tx Ie. destruct (Hnew x Hx Hnx) as [-> | [Ne Nn]].
        * rewrite Ht in Tx. inversion Tx. subst. apply L, Ie.
        * apply (N x Hx Nn es_x); auto.
      + exact V.
      + intros R Rt Rc q Hq. apply (S R); auto.
        intros e' Ie. apply (Rc t); auto. exists es', e'. auto.
      + intros x Hx Hnx. destruct (Hnew x Hx Hnx) as [-> | [Ne Nn]]; [auto|]. right. apply Em; auto.
      + intros k s H. apply P1. apply (proj2 (gedge_pd_ensure _ _ _ _)). exact H.
      + intros k s H. destruct (P2 k s H) as [H1 | [[-> [e' [Ie ->]]] | [H1 [H2 H3]]]].
        * left. apply (proj1 (gedge_pd_ensure _ _ _ _)) in H1. exact H1.
        * right. split; [apply M; simpl; auto|]. split; [exact Hm|]. exists es', e'. auto.
        * right. split; [exact H1|]. split; [tauto | exact H3].
      + intros x Hx Hnx es_x e' Tx Ie. destruct (Hnew x Hx Hnx) as [-> | [Ne Nn]].
        * rewrite Ht in Tx. inversion Tx. subst. apply P3, Ie.
        * apply (P4 x Hx Nn es_x); auto.
      + intros k H. destruct (P5 k H) as [H1 | [-> | [H1 H2]]].
        * apply (proj1 (gkeys_pd_ensure _ _ _)) in H1. destruct H1 as [H1 | ->]; [auto|]. right. split; [apply M; simpl; auto | exact Hm].
        * right. split; [apply M; simpl; auto | exact Hm].
        * right. split; [exact H1 | tauto].
    - exists [], (mark t st). split; [reflexivity|]. constructor; simpl; try (intros; tauto).
      + intros x Hx. simpl. auto.
      + intros x [<- | Hx] Hnx es_x e' Tx Ie; [congruence | tauto].
      + intros x [<- | Hx] Hnx; tauto.
      + intros x [<- | Hx] Hnx es_x e' Tx Ie; [congruence | tauto].
  Qed.

  Lemma walk_lines_ok rec n :
    rec_ok rec n ->
    forall es tp depth st, unvisited st <= n ->
      exists out st', walk_lines w pins rec tp depth es st = Ok (out, st') /\ walk_ok tp st es out st'.
  Proof.
    intros Hrec. induction es as [|e r IH]; intros tp depth st Hn.
    - exists [], st. split; [reflexivity|]. constructor; simpl; try tauto. apply incl_refl.
    - cbn [walk_lines]. fold (tg e). set (t := tg e).
      destruct (sub_call_ok rec n Hrec t depth st Hn) as [l1 [st2 [E Hs]]]. rewrite E.
      destruct Hs as [M2 V2 N2 Q2 S2 E2 A1 A2 A3 A4].
      assert (Hn2 : unvisited (pd_add tp t st2) <= n).
      { apply Nat.le_trans with (unvisited st); [exact (unvisited_mono st st2 M2) | exact Hn]. }
      destruct (IH tp depth (pd_add tp t st2) Hn2) as [l2 [st3 [E3 Hok3]]]. rewrite E3.
      exists ((t, eopt e, depth) :: l1 ++ l2), st3. split; [reflexivity|].
      destruct Hok3 as [M3 N3 L3 V3 S3 Em3 B1 B2 B3 B4 B5]. simpl in M3, N3, Em3, B1, B2, B4, B5.
      constructor.
      + intros x Hx. apply M3, M2, Hx.
      + intros x Hx Hnx es_x e' Tx Ie. simpl. rewrite map_app, in_app_iff. right.
        destruct (in_dec node_eq_dec x (vis st2)) as [I2 | I2].
        * left. eapply N2; eauto.
        * right. eapply N3; eauto.
      + intros e' [<- | Ie]; simpl; [left; reflexivity|]. right. rewrite map_app, in_app_iff. right. apply L3, Ie.
      + intros q Hq Hr. simpl in Hq. rewrite map_app, in_app_iff in Hq.
        destruct Hq as [<- | [Hq | Hq]].
        * apply M3. apply V2, Hr.
        * apply M3. apply Q2; auto.
        * apply V3; auto.
      + intros R Rl Rc q Hq. simpl in Hq. rewrite map_app, in_app_iff in Hq.
        destruct Hq as [<- | [Hq | Hq]].
        * apply Rl. simpl. auto.
        * apply (S2 R); auto. apply Rl. simpl. auto.
        * apply (S3 R); auto. intros e' Ie. apply Rl. simpl. auto.
      + intros x Hx Hnx. simpl. rewrite map_app, in_app_iff.
        destruct (in_dec node_eq_dec x (vis st2)) as [I2 | I2].
        * destruct (E2 x I2 Hnx) as [-> | H]; auto.
        * right. right. apply Em3; auto.
      + intros k s H. apply B1. apply (proj2 (gedge_pd_add _ _ _ _ _)). left. apply A1, H.
      + intros k s H. destruct (B2 k s H) as [H1 | [[-> [e' [Ie ->]]] | [H1 [H2 H3]]]].
        * apply (proj1 (gedge_pd_add _ _ _ _ _)) in H1. destruct H1 as [H1 | [-> ->]].
          -- destruct (A2 k s H1) as [H0 | [H0 [H0' H0'']]]; [auto|]. right. right. split; [apply M3, H0 | auto].
          -- right. left. split; [reflexivity|]. exists e. simpl. auto.
        * right. left. split; [reflexivity|]. exists e'. simpl. auto.
        * right. right. split; [exact H1|]. split; [intros Q; apply H2, M2, Q | exact H3].
      + intros e' [<- | Ie].
        * apply B1. apply (proj2 (gedge_pd_add _ _ _ _ _)). right. auto.
        * apply B3, Ie.
      + intros x Hx Hnx es_x e' Tx Ie.
        destruct (in_dec node_eq_dec x (vis st2)) as [I2 | I2].
        * apply B1. apply (proj2 (gedge_pd_add _ _ _ _ _)). left. eapply A3; eauto.
        * eapply B4; eauto.
      + intros k H. destruct (B5 k H) as [H1 | [-> | [H1 H2]]].
        * apply (proj1 (gkeys_pd_add _ _ _ _)) in H1. destruct H1 as [H1 | ->]; [|auto].
          destruct (A4 k H1) as [H0 | [H0 H0']]; [auto|]. right. right. split; [apply M3, H0 | exact H0'].
        * auto.
        * right. right. split; [exact H1 | intros Q; apply H2, M2, Q].
  Qed.

  Lemma walk_ok_all fuel : rec_ok (walk fuel w pins) fuel.
  Proof.
    induction fuel as [|f IH]; intros t d es st Hlt; [lia|].
    cbn [walk]. apply walk_lines_ok with (n := f); [exact IH | lia].
  Qed.

  Lemma unvisited_le st : unvisited st <= length w.
  Proof.
    unfold unvisited. etransitivity; [apply filter_length_le_all|].
    unfold world_nodes. rewrite map_length. lia.
  Qed.
End Walk.
