(* Loading: what ProductStack.fromCache returns agrees with the files.  Saving keeps the
   invariant.  [ps_ok]: the data of one loaded stack agrees with the files, and no cache file
   it knows about was rewritten behind its back.  At the end: when a cache file is not up to date. *)
From Eupsv Require Import Base.Base Base.BaseLemmas Model.Db Model.Cache.
From Eupsv Require Import Proofs.DbLib Proofs.Db Proofs.DbSim Proofs.DbInv Proofs.DbCor.
From Eupsv Require Import Proofs.CacheLib Proofs.CacheWt Proofs.CacheEff Proofs.CacheU Proofs.CacheInv.
From Coq Require Import Lia.

(* uo: whose tag directory the instance reads (nobody's for an administrator) *)
Definition ps_ok (w : world) (uo : option str) (s : str) (ps : pstack) : Prop :=
  lookup_agree ps (w_db w) s /\ ps_ugood ps (w_uc w) uo s /\
  (forall l f m p, glookup key_eqb (l, f) (ps_modtimes ps) = Some m -> pk_get w l s f = Some p -> pk_stamp p <= m).

Lemma ugood_nil uc uo s f : ugood [] uc uo s f.
Proof. intros n t. unfold fd_utag. cbn. destruct uo; [|reflexivity]. unfold vis_fd. destruct (uc_tag _ _ _ _ _ _); reflexivity. Qed.

(* w' differs from w only in the clock and the cache files of stack s *)
Definition same_but (s : str) (w w' : world) : Prop :=
  w_db w' = w_db w /\ w_stamps w' = w_stamps w /\ w_clock w <= w_clock w' /\ w_uc w' = w_uc w /\
  (forall l s' f, s' <> s -> pk_get w' l s' f = pk_get w l s' f).

Lemma same_but_refl s w : same_but s w w.
Proof. repeat split; auto. Qed.

Lemma same_but_trans s w1 w2 w3 : same_but s w1 w2 -> same_but s w2 w3 -> same_but s w1 w3.
Proof.
  intros [A1 [A2 [A3 [A5 A4]]]] [B1 [B2 [B3 [B5 B4]]]]. repeat split; try congruence; try lia.
  intros. rewrite B4, A4; auto.
Qed.

(* [ps_ok] for stack s looks at the records of s, at the tag directories for s and at the cache files of s *)
Lemma ps_ok_ext w w' uo s ps :
  (forall n k f, db_decl (w_db w') s n k f = db_decl (w_db w) s n k f /\ db_tag (w_db w') s n k f = db_tag (w_db w) s n k f) ->
  (forall u n t f, uc_tag (w_uc w') u s n t f = uc_tag (w_uc w) u s n t f) ->
  (forall l f, pk_get w' l s f = pk_get w l s f) -> ps_ok w uo s ps -> ps_ok w' uo s ps.
Proof.
  intros Hd Hu Hp [A [U B]]. split; [|split].
  - intros f fd Hf n. destruct (A f fd Hf n) as [A1 A2].
    split; intro k; destruct (Hd n k f) as [E1 E2]; rewrite ?E1, ?E2; auto.
  - apply (ps_ugood_ext ps (w_uc w)); [|exact U]. intros f u0 n t _ _. apply Hu.
  - intros l f m p H1 H2. rewrite Hp in H2. exact (B l f m p H1 H2).
Qed.

Lemma in_sync_true w w' uo s ps loc fl :
  w_pickles w' = w_pickles w -> ps_ok w uo s ps -> in_sync w' s ps loc fl = true.
Proof.
  intros P [_ [_ B]]. unfold in_sync. destruct (glookup key_eqb (loc, fl) (ps_modtimes ps)) as [m|] eqn:E1; [|reflexivity].
  destruct (pk_get w' loc s fl) as [p|] eqn:E2; [|reflexivity].
  apply Nat.leb_le. rewrite (pk_get_pickles w) in E2 by exact P. exact (B _ _ _ _ E1 E2).
Qed.

Lemma ensure_in_sync_same w w' uo s loc ps :
  w_pickles w' = w_pickles w -> ps_ok w uo s ps -> ensure_in_sync w' s loc ps = ps.
Proof.
  intros P H. unfold ensure_in_sync.
  assert (X : forallb (in_sync w' s ps loc) (akeys (ps_lookup ps)) = true).
  { apply forallb_forall. intros f _. exact (in_sync_true w w' uo s ps loc f P H). }
  rewrite X. reflexivity.
Qed.

Lemma ensure_in_sync_id w uo s loc ps : ps_ok w uo s ps -> ensure_in_sync w s loc ps = ps.
Proof. apply ensure_in_sync_same. reflexivity. Qed.

Lemma persist_lookup tick w s loc fl ps f :
  alookup f (ps_lookup (snd (persist tick w s loc fl ps))) =
  match alookup f (ps_lookup ps) with Some fd => Some fd | None => if str_eqb f fl then Some [] else None end.
Proof.
  cbn [persist snd ps_lookup]. destruct (alookup fl (ps_lookup ps)) eqn:Ef.
  - destruct (alookup f (ps_lookup ps)) eqn:E; [reflexivity|]. destruct (str_eqb_spec f fl) as [->|]; [congruence|reflexivity].
  - rewrite alookup_aset. destruct (str_eqb_spec f fl) as [->|]; [rewrite Ef; reflexivity|].
    destruct (alookup f (ps_lookup ps)); reflexivity.
Qed.

Lemma pkey_eqb_refl k : pkey_eqb k k = true.
Proof. apply pkey_eqb_eq. reflexivity. Qed.

Lemma persist_ok tick w s loc fl ps w' ps' :
  clock_strict tick -> INV w -> ps_ok w (owner loc) s ps ->
  (alookup fl (ps_lookup ps) = None -> agree [] (w_db w) s fl) ->
  persist tick w s loc fl ps = (w', ps') ->
  INV w' /\ ps_ok w' (owner loc) s ps' /\ same_but s w w' /\
  alookup fl (ps_lookup ps') <> None /\
  (forall f fd, alookup f (ps_lookup ps) = Some fd -> alookup f (ps_lookup ps') = Some fd) /\
  (exists p, pk_get w' loc s fl = Some p /\ w_clock w < pk_stamp p /\ agree (pk_data p) (w_db w') s fl).
Proof.
  intros CS I [A [U B]] Hnew E. pose proof (persist_lookup tick w s loc fl ps) as Lk. rewrite E in Lk. cbn [snd] in Lk.
  (* the data held now was held before, or is the empty data of the new flavor *)
  assert (Old : forall f fd, alookup f (ps_lookup ps') = Some fd ->
            alookup f (ps_lookup ps) = Some fd \/ (fd = [] /\ f = fl /\ alookup fl (ps_lookup ps) = None)).
  { intros f fd H. rewrite Lk in H. destruct (alookup f (ps_lookup ps)) eqn:Ef; [left; exact H|].
    destruct (str_eqb_spec f fl) as [->|]; [|discriminate]. inversion H. auto. }
  unfold persist in E. injection E as <- <-. pose proof (CS (w_clock w)) as Ht.
  set (data := match alookup fl (ps_lookup ps) with Some fd => fd | None => [] end).
  assert (AD : agree data (w_db w) s fl).
  { unfold data. destruct (alookup fl (ps_lookup ps)) as [fd|] eqn:Ef; [exact (A _ _ Ef)|apply Hnew; reflexivity]. }
  assert (UD : ugood data (w_uc w) (owner loc) s fl).
  { unfold data. destruct (alookup fl (ps_lookup ps)) as [fd|] eqn:Ef; [exact (U _ _ Ef)|apply ugood_nil]. }
  split; [|split; [|split; [|split; [|split]]]].
  - apply write_pickle_inv; try assumption.
    intro n. apply (ugood_uagree_n data (w_db w) (w_uc w) (owner loc) s fl n (AD n)). apply UD.
  - split; [|split]; cbn [w_db w_uc ps_modtimes].
    + intros f fd H. destruct (Old f fd H) as [H'|[-> [-> H']]]; [exact (A _ _ H')|exact (Hnew H')].
    + intros f fd H. destruct (Old f fd H) as [H'|[-> [-> H']]]; [exact (U _ _ H')|apply ugood_nil].
    + intros l f m p. rewrite (glookup_gset key_eqb key_eqb_eq). unfold pk_get. cbn [w_pickles]. rewrite pk_get_gset.
      destruct (key_eqb (l, f) (loc, fl)) eqn:Ek.
      * apply key_eqb_eq in Ek. injection Ek as -> ->. rewrite pkey_eqb_refl.
        intros H1 H2. inversion H1. inversion H2. cbn. lia.
      * assert (X : pkey_eqb (l, s, f) (loc, s, fl) = false).
        { destruct (pkey_eqb (l, s, f) (loc, s, fl)) eqn:X; [|reflexivity]. apply pkey_eqb_eq in X.
          inversion X. subst. rewrite key_eqb_refl in Ek. discriminate. }
        rewrite X. apply B.
  - repeat split; cbn; try lia. intros l s' f N. unfold pk_get. cbn [w_pickles]. rewrite pk_get_gset.
    destruct (pkey_eqb (l, s', f) (loc, s, fl)) eqn:X; [|reflexivity]. apply pkey_eqb_eq in X. inversion X. congruence.
  - rewrite Lk, str_eqb_refl. destruct (alookup fl (ps_lookup ps)); discriminate.
  - intros f fd H. rewrite Lk, H. reflexivity.
  - exists (mkPk (tick (w_clock w)) data). split; [|split; [cbn; lia|exact AD]].
    unfold pk_get. cbn [w_pickles]. rewrite pk_get_gset, pkey_eqb_refl. reflexivity.
Qed.

Lemma save_other tick s loc fls f : ~ In f fls -> forall w ps w' ps' b,
  save tick w s loc fls ps = (w', ps', b) -> pk_get w' loc s f = pk_get w loc s f.
Proof.
  induction fls as [|fl r IH]; intros Hn w ps w' ps' b E; cbn [save] in E.
  - inversion E. reflexivity.
  - destruct (in_sync w s ps loc fl).
    + destruct (persist tick w s loc fl ps) as [w1 ps1] eqn:Ep.
      rewrite (IH (fun H => Hn (or_intror H)) _ _ _ _ _ E).
      unfold persist in Ep. inversion Ep. unfold pk_get. cbn [w_pickles]. rewrite pk_get_gset.
      destruct (pkey_eqb (loc, s, f) (loc, s, fl)) eqn:X; [|reflexivity].
      apply pkey_eqb_eq in X. inversion X. subst. exfalso. apply Hn. left. reflexivity.
    + destruct (save tick w s loc r ps) as [[w1 ps1] b1] eqn:Es. injection E as <- <- <-.
      exact (IH (fun H => Hn (or_intror H)) _ _ _ _ _ Es).
Qed.

Lemma save_ok tick s loc fls : forall w ps w' ps' b,
  clock_strict tick -> INV w -> ps_ok w (owner loc) s ps ->
  (forall f, In f fls -> alookup f (ps_lookup ps) = None -> agree [] (w_db w) s f) ->
  save tick w s loc fls ps = (w', ps', b) ->
  INV w' /\ ps_ok w' (owner loc) s ps' /\ same_but s w w' /\
  (forall f, In f fls -> alookup f (ps_lookup ps') <> None) /\
  (forall f fd, alookup f (ps_lookup ps) = Some fd -> alookup f (ps_lookup ps') = Some fd) /\
  (forall f, In f fls -> exists p, pk_get w' loc s f = Some p /\ w_clock w < pk_stamp p).
Proof.
  induction fls as [|fl r IH]; intros w ps w' ps' b CS I OK Hnew E; cbn [save] in E.
  - injection E as <- <- <-. split; [exact I|]. split; [exact OK|]. split; [apply same_but_refl|].
    split; [intros f []|]. split; [auto|]. intros f [].
  - rewrite (in_sync_true w w _ _ _ _ _ eq_refl OK) in E.
    destruct (persist tick w s loc fl ps) as [w1 ps1] eqn:Ep.
    destruct (persist_ok tick w s loc fl ps w1 ps1 CS I OK (Hnew fl (or_introl eq_refl)) Ep)
      as [I1 [OK1 [SB1 [K1 [K3 [p1 [G1 [G2 _]]]]]]]].
    assert (Hnew1 : forall f, In f r -> alookup f (ps_lookup ps1) = None -> agree [] (w_db w1) s f).
    { intros f Hf Hn. destruct SB1 as [Edb _]. rewrite Edb. apply Hnew; [right; exact Hf|].
      destruct (alookup f (ps_lookup ps)) eqn:Ef; [|reflexivity]. rewrite (K3 _ _ Ef) in Hn. discriminate. }
    destruct (IH w1 ps1 w' ps' b CS I1 OK1 Hnew1 E) as [I2 [OK2 [SB2 [L1 [L3 L4]]]]].
    split; [exact I2|]. split; [exact OK2|]. split; [eapply same_but_trans; eassumption|].
    split; [|split].
    + intros f [->|Hf]; [|apply L1; exact Hf].
      destruct (alookup f (ps_lookup ps1)) as [fd|] eqn:Ef; [|congruence]. rewrite (L3 _ _ Ef). discriminate.
    + intros f fd H. apply L3, K3, H.
    + intros f [->|Hf].
      * destruct (in_dec str_eq_dec f r) as [Hr|Hr].
        -- destruct (L4 f Hr) as [p [P1 P2]]. exists p. split; [exact P1|]. destruct SB1 as [_ [_ [C _]]]. lia.
        -- (* later saves do not touch this file: shown through the frame of save on other flavors *)
           rewrite (save_other tick s loc r f Hr _ _ _ _ _ E). exists p1. split; [exact G1|exact G2].
      * destruct (L4 f Hf) as [p [P1 P2]]. exists p. split; [exact P1|]. destruct SB1 as [_ [_ [C _]]]. lia.
Qed.

Definition mt_ok (w : world) (s : str) (ps : pstack) : Prop :=
  forall l f m p, glookup key_eqb (l, f) (ps_modtimes ps) = Some m -> pk_get w l s f = Some p -> pk_stamp p <= m.

Lemma reload_lookup w loc s fls : forall ps f,
  alookup f (ps_lookup (reload w loc s fls ps)) =
  match (if mem_str f fls then pk_get w loc s f else None) with
  | Some p => Some (pk_data p)
  | None => alookup f (ps_lookup ps)
  end.
Proof.
  induction fls as [|fl r IH]; intros ps f; cbn [reload mem_str]; [reflexivity|].
  rewrite IH. destruct (str_eqb_spec f fl) as [->|N].
  - destruct (mem_str fl r); destruct (pk_get w loc s fl) as [p|] eqn:E; cbn [ps_lookup]; try reflexivity.
    rewrite alookup_aset, str_eqb_refl. reflexivity.
  - destruct (if mem_str f r then pk_get w loc s f else None); [reflexivity|].
    destruct (pk_get w loc s fl); cbn [ps_lookup]; [|reflexivity].
    rewrite alookup_aset. destruct (str_eqb_spec f fl); [contradiction|reflexivity].
Qed.

Lemma reload_mt w loc s fls : forall ps, mt_ok w s ps -> mt_ok w s (reload w loc s fls ps).
Proof.
  induction fls as [|fl r IH]; intros ps H; cbn [reload]; [exact H|]. apply IH.
  destruct (pk_get w loc s fl) as [p0|] eqn:E; [|exact H].
  intros l f m p. cbn [ps_modtimes]. rewrite (glookup_gset key_eqb key_eqb_eq).
  destruct (key_eqb (l, f) (loc, fl)) eqn:Ek.
  - apply key_eqb_eq in Ek. inversion Ek. subst. intros H1 H2. inversion H1. subst. rewrite E in H2. inversion H2. lia.
  - apply H.
Qed.

Lemma up_to_date_true w loc s fl : up_to_date false w loc s fl = true ->
  exists p, pk_get w loc s fl = Some p /\ newer_than w s (pk_stamp p) = false /\
            (loc <> upsdb -> unewer_than w loc s (pk_stamp p) = false).
Proof.
  unfold up_to_date. destruct (pk_get w loc s fl) as [p|]; [|discriminate].
  intro H. apply andb_true_iff in H. destruct H as [H1 H2]. exists p. split; [reflexivity|]. split.
  - apply negb_true_iff. exact H2.
  - intro N. apply negb_true_iff in H1. cbn [negb andb] in H1.
    destruct (str_eqb_spec loc upsdb); [contradiction|]. exact H1.
Qed.

Lemma try_cache_true w loc s fls ps ps' :
  INV w -> mt_ok w s ps -> ps_lookup ps = [] ->
  try_cache false w loc s fls ps = (ps', true) ->
  ps_ok w (owner loc) s ps' /\ (forall f, In f fls -> alookup f (ps_lookup ps') <> None).
Proof.
  intros I MT Nil E. unfold try_cache in E.
  destruct (forallb (up_to_date false w loc s) fls) eqn:U; [|discriminate].
  destruct (same_names (db_names (w_db w) s) (ps_names (reload w loc s fls ps))) eqn:SN; [|discriminate].
  inversion E. subst ps'. clear E. rewrite forallb_forall in U. rewrite same_names_true in SN.
  assert (Both : forall f fd, alookup f (ps_lookup (reload w loc s fls ps)) = Some fd -> forall n,
            agree_n fd (w_db w) s f n /\ uagree_n fd (w_db w) (w_uc w) (owner loc) s f n).
  { intros f fd H. rewrite reload_lookup, Nil in H.
    destruct (mem_str f fls) eqn:Mf; [|discriminate].
    destruct (pk_get w loc s f) as [p|] eqn:Ep; [|discriminate]. inversion H. subst fd.
    assert (Hf : In f fls) by (apply mem_str_In; exact Mf).
    destruct (up_to_date_true _ _ _ _ (U f Hf)) as [p' [Ep' [Nw UNw]]]. rewrite Ep in Ep'. inversion Ep'. subst p'.
    intro n. destruct (inv_pk w I loc s f p Ep n) as [A|[[In1 [Nw1|[Nl Nw1]]]|[NI K]]].
    + exact A.
    + exfalso. unfold newer_than in Nw.
      assert (X : existsb (fun n0 => newer_n (w_db w) (w_stamps w) s n0 (pk_stamp p)) (db_names (w_db w) s) = true).
      { apply existsb_exists. exists n. split; assumption. }
      congruence.
    + exfalso. specialize (UNw Nl). unfold unewer_than in UNw.
      assert (X : existsb (fun n0 => unewer_n (w_uc w) (w_stamps w) loc s n0 (pk_stamp p)) (db_names (w_db w) s) = true).
      { apply existsb_exists. exists n. split; [exact In1|]. unfold unewer_n. apply orb_true_iff. left.
        apply Nat.ltb_lt. exact Nw1. }
      congruence.
    + exfalso. apply NI. apply SN. unfold ps_names. apply in_flat_map. exists (f, pk_data p). split.
      * apply alookup_In. rewrite reload_lookup, Mf, Ep. reflexivity.
      * cbn [snd]. apply alookup_not_None_In. exact K. }
  split; [split; [|split]|].
  - intros f fd H n. apply (Both f fd H n).
  - intros f fd H n. destruct (Both f fd H n) as [A Ua].
    apply (ugood_uagree_n fd (w_db w) (w_uc w) (owner loc) s f n A). exact Ua.
  - apply reload_mt. exact MT.
  - intros f Hf. rewrite reload_lookup. apply mem_str_In in Hf. rewrite Hf.
    assert (Hf' : In f fls) by (apply mem_str_In; exact Hf).
    destruct (up_to_date_true _ _ _ _ (U f Hf')) as [p [Ep _]]. rewrite Ep. discriminate.
Qed.

Lemma try_cache_false w loc s fls ps ps' :
  mt_ok w s ps -> ps_lookup ps = [] -> try_cache false w loc s fls ps = (ps', false) ->
  mt_ok w s ps' /\ ps_lookup ps' = [].
Proof.
  intros MT Nil E. unfold try_cache in E. destruct (forallb (up_to_date false w loc s) fls).
  - destruct (same_names _ _); [discriminate|]. inversion E. subst ps'. cbn [ps_modtimes ps_lookup].
    split; [|reflexivity]. apply reload_mt. exact MT.
  - inversion E. subst. auto.
Qed.

Lemma owner_upsdb : owner upsdb = None.
Proof. unfold owner. rewrite str_eqb_refl. reflexivity. Qed.

(* refreshFromDatabase, then save: the stack holds, for every flavor of the database, what the files say, it
   holds every flavor that was asked for, and each of those got a cache file with a fresh stamp *)
Lemma rebuild_save_ok tick w s loc nf ps0 w' ps b :
  clock_strict tick -> INV w -> mt_ok w s ps0 ->
  save tick w s loc (uniq (akeys (rebuild_lookup (w_db w) (w_uc w) (owner loc) s) ++ nf))
       (mkPS (rebuild_lookup (w_db w) (w_uc w) (owner loc) s) (ps_modtimes ps0)) = (w', ps, b) ->
  INV w' /\ ps_ok w' (owner loc) s ps /\ same_but s w w' /\
  (forall f, In f nf -> alookup f (ps_lookup ps) <> None) /\
  (forall f, In f (db_flavors (w_db w) s) ->
     alookup f (ps_lookup ps) = Some (rebuild_fdata (w_db w) (w_uc w) (owner loc) s f)) /\
  (forall f, In f nf -> exists p, pk_get w' loc s f = Some p /\ w_clock w < pk_stamp p).
Proof.
  intros CS I MT Es. set (utd := owner loc) in *.
  assert (OK0 : ps_ok w utd s (mkPS (rebuild_lookup (w_db w) (w_uc w) utd s) (ps_modtimes ps0))).
  { split; [|split; [|exact MT]]; intros f fd H; cbn [ps_lookup] in H; rewrite rebuild_lookup_lookup in H;
      destruct (mem_str f (db_flavors (w_db w) s)); inversion H.
    - apply rebuild_agree. apply (inv_nd w I).
    - intro n. apply (ugood_uagree_n _ (w_db w) (w_uc w) utd s f n (rebuild_agree (w_db w) (w_uc w) utd s f (inv_nd w I) n)).
      apply rebuild_uagree. }
  assert (Hnew : forall f, In f (uniq (akeys (rebuild_lookup (w_db w) (w_uc w) utd s) ++ nf)) ->
            alookup f (ps_lookup (mkPS (rebuild_lookup (w_db w) (w_uc w) utd s) (ps_modtimes ps0))) = None ->
            agree [] (w_db w) s f).
  { intros f _ H. cbn [ps_lookup] in H. rewrite rebuild_lookup_lookup in H.
    destruct (mem_str f (db_flavors (w_db w) s)) eqn:M; [discriminate|].
    apply empty_agree; [apply (inv_nd w I)|]. apply mem_str_not_In. exact M. }
  destruct (save_ok tick s loc _ _ _ _ _ _ CS I OK0 Hnew Es) as [I3 [OK3 [SB3 [L1 [L3 L4]]]]].
  assert (Inf : forall f, In f nf -> In f (uniq (akeys (rebuild_lookup (w_db w) (w_uc w) utd s) ++ nf))).
  { intros f Hf. apply uniq_In, in_or_app. right. exact Hf. }
  split; [exact I3|]. split; [exact OK3|]. split; [exact SB3|]. split; [auto|]. split; [|auto].
  intros f Hf. apply L3. cbn [ps_lookup]. rewrite rebuild_lookup_lookup. apply mem_str_In in Hf. rewrite Hf. reflexivity.
Qed.

Lemma from_cache_ok tick w s loc utd nf w' ps :
  clock_strict tick -> INV w -> utd = owner loc -> from_cache tick false w s loc utd nf = (w', ps) ->
  INV w' /\ ps_ok w' utd s ps /\ same_but s w w' /\ (forall f, In f nf -> alookup f (ps_lookup ps) <> None).
Proof.
  intros CS I Hutd E. unfold from_cache in E.
  assert (MT0 : mt_ok w s ps_empty) by (intros l f m p H; discriminate).
  destruct (try_cache false w loc s nf ps_empty) as [ps1 [|]] eqn:T1.
  - inversion E. subst. destruct (try_cache_true _ _ _ _ _ _ I MT0 eq_refl T1) as [H1 H2].
    split; [exact I|]. split; [exact H1|]. split; [apply same_but_refl|exact H2].
  - destruct (try_cache_false _ _ _ _ _ _ MT0 eq_refl T1) as [MT1 Nil1].
    destruct (try_cache false w upsdb s nf ps1) as [ps2 [|]] eqn:T2.
    + destruct (try_cache_true _ _ _ _ _ _ I MT1 Nil1 T2) as [[H1 [H1u H1m]] H2].
      rewrite owner_upsdb in H1u.
      destruct (load_user_tags_ok (w_db w) (w_uc w) utd s ps2 H1 H1u) as [L1 [L2 [L3 L4]]].
      assert (OKu : ps_ok w utd s (load_user_tags (w_db w) (w_uc w) utd s ps2)).
      { split; [exact L1|]. split; [exact L2|]. rewrite L3. exact H1m. }
      assert (Held : forall f, In f nf -> alookup f (ps_lookup (load_user_tags (w_db w) (w_uc w) utd s ps2)) <> None).
      { intros f Hf N. apply (H2 f Hf). apply L4. exact N. }
      destruct (str_eqb loc upsdb).
      * injection E as <- <-.
        split; [exact I|]. split; [exact OKu|]. split; [apply same_but_refl|exact Held].
      * (* persisted into the instance's own directory *)
        destruct (save tick w s loc nf (load_user_tags (w_db w) (w_uc w) utd s ps2)) as [[w3 ps3] b] eqn:Es.
        injection E as <- <-.
        assert (Hnew : forall f, In f nf ->
                  alookup f (ps_lookup (load_user_tags (w_db w) (w_uc w) utd s ps2)) = None -> agree [] (w_db w) s f).
        { intros f Hf N. exfalso. exact (Held f Hf N). }
        subst utd.
        destruct (save_ok tick s loc _ _ _ _ _ _ CS I OKu Hnew Es) as [I3 [OK3 [SB3 [K1 _]]]].
        split; [exact I3|]. split; [exact OK3|]. split; [exact SB3|exact K1].
    + destruct (try_cache_false _ _ _ _ _ _ MT1 Nil1 T2) as [MT2 _]. subst utd.
      destruct (save tick w s loc _ _) as [[w3 ps3] b] eqn:Es. injection E as <- <-.
      destruct (rebuild_save_ok tick w s loc nf ps2 w3 ps3 b CS I MT2 Es) as [I3 [OK3 [SB3 [L1 _]]]]. auto.
Qed.

Lemma reload_lookup_indep w loc s fls : forall ps ps',
  ps_lookup ps = ps_lookup ps' -> ps_lookup (reload w loc s fls ps) = ps_lookup (reload w loc s fls ps').
Proof.
  induction fls as [|fl r IH]; intros ps ps' H; cbn [reload]; [exact H|]. apply IH.
  destruct (pk_get w loc s fl); [|exact H]. cbn [ps_lookup]. rewrite H. reflexivity.
Qed.

Lemma try_cache_bool_indep w loc s fls ps :
  ps_lookup ps = [] -> snd (try_cache false w loc s fls ps) = believed w loc s fls.
Proof.
  intro H. unfold believed, try_cache. destruct (forallb (up_to_date false w loc s) fls); [|reflexivity].
  unfold ps_names. rewrite (reload_lookup_indep w loc s fls ps ps_empty H).
  destruct (same_names _ _); reflexivity.
Qed.

Lemma not_up_to_date_not_believed_any b w loc s nf f ps :
  In f nf -> up_to_date b w loc s f = false -> snd (try_cache b w loc s nf ps) = false.
Proof.
  intros Hf H. unfold try_cache.
  assert (X : forallb (up_to_date b w loc s) nf = false).
  { destruct (forallb (up_to_date b w loc s) nf) eqn:E; [|reflexivity].
    rewrite forallb_forall in E. rewrite (E f Hf) in H. discriminate. }
  rewrite X. reflexivity.
Qed.


Lemma absent_not_up_to_date b w loc s f : pk_get w loc s f = None -> up_to_date b w loc s f = false.
Proof. intro H. unfold up_to_date. rewrite H. reflexivity. Qed.

Lemma older_not_up_to_date b w loc s f p :
  pk_get w loc s f = Some p -> newer_than w s (pk_stamp p) = true -> up_to_date b w loc s f = false.
Proof. intros H1 H2. unfold up_to_date. rewrite H1, H2. apply andb_false_r. Qed.

Lemma uolder_not_up_to_date w loc s f p :
  loc <> upsdb -> pk_get w loc s f = Some p -> unewer_than w loc s (pk_stamp p) = true ->
  up_to_date false w loc s f = false.
Proof.
  intros N H1 H2. unfold up_to_date. rewrite H1, H2. destruct (str_eqb_spec loc upsdb); [contradiction|]. reflexivity.
Qed.


(* a write in a user's tag directory leaves that directory newer than every cache file of his for the
   stack: while the product has a version file, none of them is up to date *)
Lemma uset_outdates tick w u s n t f v f0 p :
  clock_strict tick -> INV w -> u <> upsdb -> pk_get w u s f0 = Some p -> In n (db_names (w_db w) s) ->
  up_to_date false (do_uset tick w u s n t f v) u s f0 = false.
Proof.
  intros CS I Hu Hp Hn. unfold up_to_date.
  replace (pk_get (do_uset tick w u s n t f v) u s f0) with (pk_get w u s f0) by reflexivity. rewrite Hp.
  apply andb_false_iff. left. apply negb_false_iff. destruct (str_eqb_spec u upsdb); [contradiction|]. cbn [negb andb].
  unfold unewer_than. apply existsb_exists. exists n. split; [exact Hn|].
  unfold unewer_n. apply orb_true_iff. left. apply Nat.ltb_lt.
  replace (w_stamps (do_uset tick w u s n t f v))
    with (sset (RUChain u s (n, t)) (tick (w_clock w)) (sset (RUDir u s n) (tick (w_clock w)) (w_stamps w))) by reflexivity.
  rewrite !stamp_of_sset. cbn [rkey_eqb]. rewrite !str_eqb_refl. cbn [andb].
  pose proof (inv_pc w I _ _ _ _ Hp). pose proof (CS (w_clock w)). lia.
Qed.
