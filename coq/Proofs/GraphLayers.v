(* Layering of the component graph (utils.topologicalSort after Tarjan): every edge between two
   different components goes to a strictly earlier layer, whatever the component list is; the layers
   are made of the components, each in one layer; paths and cycles of a graph. *)
From Coq Require Import Lia.
From Eupsv Require Import Base.Base Base.BaseLemmas Model.Graph Proofs.GraphLib.

Definition gedge (g : graph) (a b : node) : Prop := exists ss, In (a, ss) g /\ In b ss.

Inductive gpath (g : graph) : node -> node -> Prop :=
| gp_one a b : gedge g a b -> gpath g a b
| gp_more a b c : gedge g a b -> gpath g b c -> gpath g a c.

Lemma gpath_trans g a b c : gpath g a b -> gpath g b c -> gpath g a c.
Proof. intros P Q. induction P as [a b E | a b d E _ IH]; [eapply gp_more; eauto | eapply gp_more; [exact E | apply IH, Q]]. Qed.

Lemma gpath_snoc g a b c : gpath g a b -> gedge g b c -> gpath g a c.
Proof. intros P E. apply (gpath_trans g a b c P), gp_one, E. Qed.

Definition acyclic (g : graph) : Prop := forall a, ~ gpath g a a.

Lemma comp_eqb_eq a b : comp_eqb a b = true <-> a = b.
Proof.
  revert b. induction a as [|x a IH]; destruct b as [|y b]; simpl; try (split; congruence).
  rewrite andb_true_iff, node_eqb_eq, IH. split; [intros [-> ->]; reflexivity | intros H; inversion H; auto].
Qed.

Lemma comp_eqb_refl a : comp_eqb a a = true.
Proof. apply comp_eqb_eq. reflexivity. Qed.

Lemma comp_eqb_neq a b : comp_eqb a b = false <-> a <> b.
Proof.
  split.
  - intros H E. apply comp_eqb_eq in E. congruence.
  - intros H. destruct (comp_eqb a b) eqn:E; [apply comp_eqb_eq in E; contradiction | reflexivity].
Qed.

Lemma comp_eq_dec (a b : comp) : {a = b} + {a <> b}.
Proof. destruct (comp_eqb a b) eqn:E; [left; apply comp_eqb_eq, E | right; apply comp_eqb_neq, E]. Qed.

Lemma mem_comp_In c l : mem_comp c l = true <-> In c l.
Proof.
  induction l as [|d l IH]; simpl; [split; [discriminate | tauto]|].
  destruct (comp_eqb c d) eqn:E.
  - apply comp_eqb_eq in E. subst. tauto.
  - apply comp_eqb_neq in E. rewrite IH. split; [tauto | intros [H | H]; [congruence | assumption]].
Qed.

Lemma mem_comp_not_In c l : mem_comp c l = false <-> ~ In c l.
Proof. rewrite <- mem_comp_In. destruct (mem_comp c l); split; congruence. Qed.

Fixpoint lidx (L : list (list comp)) (c : comp) : nat :=
  match L with
  | [] => 0
  | l :: r => if mem_comp c l then 0 else S (lidx r c)
  end.

Definition is_nil {A} (l : list A) : bool := match l with [] => true | _ => false end.

Lemma NoDup_map_filter {A B} (f : A -> B) (p : A -> bool) l : NoDup (map f l) -> NoDup (map f (filter p l)).
Proof.
  induction l as [|x l IH]; simpl; [auto|]. intros H. inversion H as [|? ? N D]. subst.
  destruct (p x); simpl; [|auto]. constructor; [|auto].
  intros I. apply N. apply in_map_iff in I as [y [E I]]. apply filter_In in I as [I _].
  rewrite <- E. apply in_map, I.
Qed.

Lemma NoDup_keys_functional {A B} (m : list (A * B)) k v v' :
  NoDup (map fst m) -> In (k, v) m -> In (k, v') m -> v = v'.
Proof.
  induction m as [|[k0 v0] m IH]; simpl; [tauto|]. intros H. inversion H as [|? ? N D]. subst.
  intros [E | I] [E' | I'].
  - congruence.
  - inversion E. subst. exfalso. apply N. apply in_map_iff. exists (k, v'). auto.
  - inversion E'. subst. exfalso. apply N. apply in_map_iff. exists (k, v). auto.
  - auto.
Qed.

Lemma filter_drop_one {A} (p : A -> bool) l x : In x l -> p x = false -> length (filter p l) < length l.
Proof.
  induction l as [|y l IH]; simpl; [tauto|]. intros [-> | I] Px.
  - rewrite Px. pose proof (filter_length_le_all p l). lia.
  - specialize (IH I Px). destruct (p y); simpl; lia.
Qed.

(* one round of the layering loop: the components without successors are yielded as a layer and
   struck from what is left *)
Definition ready (m : cgraph) : list comp :=
  map fst (filter (fun it => is_nil (snd it)) m).
Definition rest (m : cgraph) : cgraph :=
  map (fun it => (fst it, remove_comps (ready m) (snd it)))
      (filter (fun it => negb (mem_comp (fst it) (ready m))) m).

Lemma peel_unfold f m :
  peel (S f) m =
  match ready m with
  | [] => match m with [] => Ok [] | _ => Err Crash end
  | _ => match peel f (rest m) with Err x => Err x | Ok L => Ok (ready m :: L) end
  end.
Proof. reflexivity. Qed.

Lemma peel_Ok f m L : peel (S f) m = Ok L ->
  (m = [] /\ L = []) \/ (ready m <> [] /\ exists L', peel f (rest m) = Ok L' /\ L = ready m :: L').
Proof.
  rewrite peel_unfold. destruct (ready m) as [|o1 o] eqn:Eo.
  - destruct m; [|discriminate]. intros Q. inversion Q. auto.
  - rewrite <- Eo. destruct (peel f (rest m)) as [L'|]; [|discriminate]. intros Q. inversion Q. right.
    split; [rewrite Eo; discriminate | eauto].
Qed.

Lemma ready_In (m : cgraph) c : In c (ready m) <-> In (c, []) m.
Proof.
  unfold ready. rewrite in_map_iff. split.
  - intros [[k d] [<- H]]. apply filter_In in H as [H1 H2]. simpl in *. destruct d; [exact H1 | discriminate].
  - intros H. exists (c, []). split; [reflexivity|]. apply filter_In. auto.
Qed.

Lemma rest_In m c deps : In (c, deps) (rest m) <->
  ~ In c (ready m) /\ exists deps0, In (c, deps0) m /\ deps = remove_comps (ready m) deps0.
Proof.
  unfold rest. rewrite in_map_iff. split.
  - intros [[c0 deps0] [Q H]]. simpl in Q. inversion Q. subst. apply filter_In in H as [H1 H2]. simpl in H2.
    apply negb_true_iff, mem_comp_not_In in H2. eauto.
  - intros [N [deps0 [I ->]]]. exists (c, deps0). split; [reflexivity|]. apply filter_In. split; [exact I|].
    simpl. apply negb_true_iff, mem_comp_not_In, N.
Qed.

Lemma rest_keys m c : In c (map fst (rest m)) <-> In c (map fst m) /\ ~ In c (ready m).
Proof.
  rewrite !in_map_iff. split.
  - intros [[c0 deps] [<- H]]. apply rest_In in H as [N [deps0 [I _]]]. split; [exists (c0, deps0); auto | exact N].
  - intros [[[c0 deps0] [<- I]] N]. exists (c0, remove_comps (ready m) deps0). split; [reflexivity|].
    apply rest_In. eauto.
Qed.

Lemma rest_NoDup m : NoDup (map fst m) -> NoDup (map fst (rest m)).
Proof. unfold rest. rewrite map_map. simpl. apply NoDup_map_filter. Qed.

Lemma rest_shorter m : ready m <> [] -> length (rest m) < length m.
Proof.
  intros H. assert (Ho : exists o1, In o1 (ready m)) by (destruct (ready m); [congruence | eexists; left; reflexivity]).
  destruct Ho as [o1 Io]. unfold rest. rewrite map_length.
  apply (filter_drop_one _ m (o1, [])); [apply ready_In, Io|]. simpl. apply negb_false_iff, mem_comp_In, Io.
Qed.

(* the heart: a component is yielded strictly after each of its successor components *)
Lemma peel_order f : forall m L,
  peel f m = Ok L -> NoDup (map fst m) ->
  forall c deps d, In (c, deps) m -> In d deps -> lidx L d < lidx L c.
Proof.
  induction f as [|f IH]; intros m L E ND c deps d Ic Id; [discriminate|].
  apply peel_Ok in E as [[-> _] | [_ [L' [Ep ->]]]]; [destruct Ic|].
  assert (Hc : ~ In c (ready m)).
  { intros I. apply ready_In in I. pose proof (NoDup_keys_functional m c deps [] ND Ic I). subst. destruct Id. }
  cbn [lidx]. apply mem_comp_not_In in Hc as Hc'. rewrite Hc'.
  destruct (mem_comp d (ready m)) eqn:Ed; [lia|].
  assert (Id' : In d (remove_comps (ready m) deps)).
  { unfold remove_comps. apply filter_In. split; [exact Id|]. rewrite Ed. reflexivity. }
  assert (Ic' : In (c, remove_comps (ready m) deps) (rest m)) by (apply rest_In; eauto).
  specialize (IH (rest m) L' Ep (rest_NoDup m ND) c _ d Ic' Id'). lia.
Qed.

Lemma peel_yields f : forall m L,
  peel f m = Ok L -> forall c deps, In (c, deps) m -> In c (nth (lidx L c) L []).
Proof.
  induction f as [|f IH]; intros m L E c deps Ic; [discriminate|].
  apply peel_Ok in E as [[-> _] | [_ [L' [Ep ->]]]]; [destruct Ic|]. cbn [lidx].
  destruct (mem_comp c (ready m)) eqn:Ec; simpl.
  - apply mem_comp_In, Ec.
  - apply (IH (rest m) L' Ep c (remove_comps (ready m) deps)). apply rest_In.
    split; [apply mem_comp_not_In, Ec | eauto].
Qed.

Lemma peel_elems f : forall m L, peel f m = Ok L -> forall i c, In c (nth i L []) -> In c (map fst m).
Proof.
  induction f as [|f IH]; intros m L E i c H; [discriminate|].
  apply peel_Ok in E as [[-> ->] | [_ [L' [Ep ->]]]]; [destruct i; destruct H|].
  destruct i as [|i]; simpl in H.
  - apply ready_In in H. apply (in_map fst) in H. exact H.
  - apply (IH _ _ Ep), rest_keys in H. apply H.
Qed.

Lemma peel_unique f : forall m L, peel f m = Ok L ->
  forall i j c, In c (nth i L []) -> In c (nth j L []) -> i = j.
Proof.
  induction f as [|f IH]; intros m L E; [discriminate|].
  apply peel_Ok in E as [[-> ->] | [_ [L' [Ep ->]]]]; [intros [|i] j c H; destruct H|].
  assert (Hlater : forall k c, In c (nth k L' []) -> ~ In c (ready m)).
  { intros k c H. apply (peel_elems f _ L' Ep), rest_keys in H. apply H. }
  intros [|i] [|j] c Hi Hj; simpl in Hi, Hj.
  - reflexivity.
  - exfalso. eapply Hlater; eauto.
  - exfalso. eapply Hlater; eauto.
  - f_equal. eapply IH; eauto.
Qed.

Lemma peel_fuel f : forall m, length m < f -> peel f m <> Err OutOfFuel.
Proof.
  induction f as [|f IH]; intros m Hlt; [lia|]. rewrite peel_unfold.
  destruct (ready m) as [|o1 o] eqn:Eo; [destruct m; discriminate|]. rewrite <- Eo.
  assert (Hne : ready m <> []) by (rewrite Eo; discriminate).
  pose proof (rest_shorter m Hne) as Hm'.
  assert (IH' : peel f (rest m) <> Err OutOfFuel) by (apply IH; lia).
  destruct (peel f (rest m)) as [L'|e]; [discriminate | congruence].
Qed.

Lemma comp_of_In cs n c : comp_of cs n = Some c -> In c cs /\ In n c.
Proof.
  revert c. induction cs as [|c0 r IH]; intros c; simpl; [discriminate|].
  destruct (comp_of r n) as [d|] eqn:E.
  - intros Q. inversion Q. subst. destruct (IH c eq_refl). auto.
  - destruct (mem_node n c0) eqn:M; [|discriminate]. intros Q. inversion Q. subst.
    apply mem_node_In in M. auto.
Qed.

Lemma comp_of_Some cs n : In n (concat cs) -> exists c, comp_of cs n = Some c.
Proof.
  induction cs as [|c0 r IH]; simpl; [tauto|]. intros H.
  destruct (comp_of r n) as [d|] eqn:E; [eauto|].
  apply in_app_iff in H as [H | H].
  - apply mem_node_In in H. rewrite H. eauto.
  - destruct (IH H) as [c Q]. discriminate.
Qed.

Lemma cg_init_keys cs c : In c (map fst (cg_init cs)) <-> In c cs.
Proof.
  revert c. induction cs as [|c0 r IH]; intros c; simpl; [tauto|].
  destruct (mem_comp c0 (map fst (cg_init r))) eqn:M.
  - rewrite IH. apply mem_comp_In in M. apply IH in M. split; [tauto|]. intros [<- | H]; auto.
  - simpl. rewrite IH. tauto.
Qed.

Lemma cg_init_NoDup cs : NoDup (map fst (cg_init cs)).
Proof.
  induction cs as [|c0 r IH]; simpl; [constructor|].
  destruct (mem_comp c0 (map fst (cg_init r))) eqn:M; [exact IH|].
  simpl. constructor; [apply mem_comp_not_In, M | exact IH].
Qed.

Lemma cg_add_keys c d m : In c (map fst m) -> map fst (cg_add c d m) = map fst m.
Proof.
  induction m as [|[k l] m IH]; simpl; [tauto|].
  destruct (comp_eqb c k) eqn:E; simpl; [reflexivity|].
  intros [H | H]; [apply comp_eqb_neq in E; congruence|]. rewrite IH; auto.
Qed.

Definition has_edge (m : cgraph) (c d : comp) : Prop := exists deps, In (c, deps) m /\ In d deps.

Lemma has_edge_cons k0 l (m : cgraph) k e : has_edge ((k0, l) :: m) k e <-> (k = k0 /\ In e l) \/ has_edge m k e.
Proof.
  unfold has_edge. simpl. split.
  - intros [deps [[Q | I1] I2]]; [inversion Q; subst; auto | right; exists deps; auto].
  - intros [[-> I] | [deps [I1 I2]]]; [exists l; auto | exists deps; auto].
Qed.

(* cg_add adds the edge c -> d and nothing else *)
Lemma cg_add_edge c d m k e : has_edge (cg_add c d m) k e <-> has_edge m k e \/ (k = c /\ e = d).
Proof.
  induction m as [|[k0 l] m IH]; simpl.
  - rewrite has_edge_cons. simpl. split.
    + intros [[-> [<- | []]] | H]; auto.
    + intros [[deps [[] _]] | [-> ->]]. auto.
  - destruct (comp_eqb c k0) eqn:E.
    + apply comp_eqb_eq in E. subst k0. rewrite !has_edge_cons. destruct (mem_comp d l) eqn:M.
      * apply mem_comp_In in M. split; [auto|]. intros [H | [-> ->]]; auto.
      * rewrite in_app_iff. simpl. split.
        -- intros [[-> [H | [<- | []]]] | H]; auto.
        -- intros [[[-> H] | H] | [-> ->]]; auto.
    + rewrite !has_edge_cons, IH. symmetry. apply or_assoc.
Qed.

(* the edge of the component graph that the edge n -> s of the graph stands for *)
Definition cedge (cs : list comp) (n s : node) (k e : comp) : Prop :=
  comp_of cs n = Some k /\ comp_of cs s = Some e /\ k <> e.

Lemma cg_edges_Ok cs n : forall ss m m', cg_edges cs n ss m = Ok m' ->
  (forall s, In s ss -> exists cn c_s, comp_of cs n = Some cn /\ comp_of cs s = Some c_s) /\
  (forall k e, has_edge m' k e <-> has_edge m k e \/ exists s, In s ss /\ cedge cs n s k e).
Proof.
  induction ss as [|s r IH]; intros m m'; simpl.
  - intros Q. inversion Q. subst. split; [intros s []|]. intros k e. split; [auto | intros [H | [s [[] _]]]; exact H].
  - destruct (comp_of cs n) as [cn|] eqn:En; [|discriminate].
    destruct (comp_of cs s) as [c_s|] eqn:Es; [|discriminate].
    intros Q. apply IH in Q as [H1 H2]. split; [intros s' [<- | I]; [eauto | apply H1, I]|].
    intros k e. rewrite H2.
    assert (Here : has_edge (if comp_eqb cn c_s then m else cg_add cn c_s m) k e <-> has_edge m k e \/ cedge cs n s k e).
    { unfold cedge. rewrite En, Es. destruct (comp_eqb cn c_s) eqn:E.
      - apply comp_eqb_eq in E. split; [auto|]. intros [H | [Q1 [Q2 Ne]]]; [exact H | congruence].
      - rewrite cg_add_edge. apply comp_eqb_neq in E. split.
        + intros [H | [-> ->]]; auto.
        + intros [H | [Q1 [Q2 _]]]; [auto|]. inversion Q1. inversion Q2. auto. }
    rewrite Here. split.
    + intros [[H | H] | [s' [I C]]]; [auto | right; exists s; auto | right; exists s'; auto].
    + intros [H | [s' [[<- | I] C]]]; [auto | auto | right; exists s'; auto].
Qed.

Lemma cg_edges_keys cs n : forall ss m m', cg_edges cs n ss m = Ok m' ->
  (forall c, In c cs -> In c (map fst m)) -> map fst m' = map fst m.
Proof.
  induction ss as [|s r IH]; intros m m'; simpl; [intros Q; inversion Q; reflexivity|].
  destruct (comp_of cs n) as [cn|] eqn:En; [|discriminate].
  destruct (comp_of cs s) as [c_s|]; [|discriminate].
  intros Q K. destruct (comp_eqb cn c_s); [exact (IH _ _ Q K)|].
  assert (Kn : In cn (map fst m)) by (apply K; eapply comp_of_In; eauto).
  rewrite (IH _ _ Q); [apply cg_add_keys, Kn|]. intros c I. rewrite cg_add_keys; auto.
Qed.

Lemma cg_of_Ok cs : forall g m m', cg_of cs g m = Ok m' ->
  (forall n ss s, In (n, ss) g -> In s ss -> exists cn c_s, comp_of cs n = Some cn /\ comp_of cs s = Some c_s) /\
  (forall k e, has_edge m' k e <->
               has_edge m k e \/ exists n ss s, In (n, ss) g /\ In s ss /\ cedge cs n s k e).
Proof.
  induction g as [|[n ss] g IH]; intros m m'; simpl.
  - intros Q. inversion Q. subst. split; [intros n ss s []|]. intros k e.
    split; [auto | intros [H | [n [ss [s [[] _]]]]]; exact H].
  - destruct (comp_of cs n) as [cn|]; [|discriminate].
    destruct (cg_edges cs n ss m) as [m1|] eqn:E1; [|discriminate].
    intros Q. apply IH in Q as [B1 B2]. apply cg_edges_Ok in E1 as [A1 A2]. split.
    + intros n' ss' s [Q' | I] Is; [inversion Q'; subst; apply A1, Is | eapply B1; eauto].
    + intros k e. rewrite B2, A2. split.
      * intros [[H | [s [I C]]] | [n' [ss' [s [I C]]]]]; [auto | right; exists n, ss, s; auto | right; exists n', ss', s; tauto].
      * intros [H | [n' [ss' [s [[Q' | I] [Is C]]]]]]; [auto | inversion Q'; subst; left; right; exists s; auto|].
        right. exists n', ss', s. auto.
Qed.

Lemma cg_of_keys cs : forall g m m', cg_of cs g m = Ok m' ->
  (forall c, In c cs -> In c (map fst m)) -> map fst m' = map fst m.
Proof.
  induction g as [|[n ss] g IH]; intros m m'; simpl; [intros Q; inversion Q; reflexivity|].
  destruct (comp_of cs n) as [cn|]; [|discriminate].
  destruct (cg_edges cs n ss m) as [m1|] eqn:E1; [|discriminate].
  intros Q K. pose proof (cg_edges_keys cs n ss m m1 E1 K) as A1.
  rewrite (IH _ _ Q); [exact A1|]. intros c I. rewrite A1. auto.
Qed.

(* the component graph built for a component list has that list as its keys, each once *)
Lemma cg_keys cs g m : cg_of cs g (cg_init cs) = Ok m ->
  NoDup (map fst m) /\ forall c, In c (map fst m) <-> In c cs.
Proof.
  intros E. rewrite (cg_of_keys cs g _ m E (fun c I => proj2 (cg_init_keys cs c) I)).
  split; [apply cg_init_NoDup | apply cg_init_keys].
Qed.

(* layers_respect_edges, for any component list *)
Lemma comp_layers_order check g cs L :
  comp_layers check g cs = Ok L ->
  forall n ss s, In (n, ss) g -> In s ss ->
    exists cn c_s, comp_of cs n = Some cn /\ comp_of cs s = Some c_s /\
                   (cn = c_s \/ lidx L c_s < lidx L cn).
Proof.
  unfold comp_layers. destruct (check && _); [discriminate|].
  destruct (cg_of cs g (cg_init cs)) as [m|] eqn:E; [|discriminate].
  intros P n ss s I1 I2. destruct (cg_of_Ok cs g _ m E) as [Hdef Hedge].
  destruct (Hdef n ss s I1 I2) as [cn [c_s [H1 H2]]]. exists cn, c_s. split; [exact H1|]. split; [exact H2|].
  destruct (comp_eq_dec cn c_s) as [Q | Ne]; [auto|]. right.
  assert (Hcd : has_edge m cn c_s) by (apply Hedge; right; exists n, ss, s; repeat split; assumption).
  destruct Hcd as [deps [J1 J2]]. eapply peel_order; eauto. apply (cg_keys cs g m E).
Qed.

Lemma comp_layers_yields check g cs L :
  comp_layers check g cs = Ok L -> forall c, In c cs -> In c (nth (lidx L c) L []).
Proof.
  unfold comp_layers. destruct (check && _); [discriminate|].
  destruct (cg_of cs g (cg_init cs)) as [m|] eqn:E; [|discriminate].
  intros P c I.
  assert (Ik : In c (map fst m)) by (apply (cg_keys cs g m E), I).
  apply in_map_iff in Ik as [[c' deps] [<- Ik]]. eapply peel_yields; eauto.
Qed.

Lemma comp_layers_elems check g cs L :
  comp_layers check g cs = Ok L -> forall i c, In c (nth i L []) -> In c cs.
Proof.
  unfold comp_layers. destruct (check && _); [discriminate|].
  destruct (cg_of cs g (cg_init cs)) as [m|] eqn:E; [|discriminate].
  intros P i c H. apply (peel_elems _ _ _ P) in H. apply (cg_keys cs g m E), H.
Qed.

Lemma comp_layers_unique check g cs L :
  comp_layers check g cs = Ok L -> forall i j c, In c (nth i L []) -> In c (nth j L []) -> i = j.
Proof.
  unfold comp_layers. destruct (check && _); [discriminate|].
  destruct (cg_of cs g (cg_init cs)) as [m|]; [|discriminate].
  intros P. eapply peel_unique; eauto.
Qed.

(* the test topologicalSort(checkCycles=True) makes on the component list *)
Lemma no_big_comp (cs : list comp) : existsb (fun c => Nat.ltb 1 (length c)) cs = false <-> forall c, In c cs -> length c <= 1.
Proof.
  split.
  - intros E c I. destruct (Nat.ltb 1 (length c)) eqn:F; [|apply Nat.ltb_ge, F].
    assert (X : existsb (fun c => Nat.ltb 1 (length c)) cs = true) by (apply existsb_exists; eauto). congruence.
  - intros H. destruct (existsb (fun c => Nat.ltb 1 (length c)) cs) eqn:E; [|reflexivity].
    apply existsb_exists in E as [c [Ic Lc]]. apply Nat.ltb_lt in Lc. specialize (H c Ic). lia.
Qed.

Lemma comp_layers_check_singletons g cs L :
  comp_layers true g cs = Ok L -> forall c, In c cs -> length c <= 1.
Proof.
  unfold comp_layers. destruct (existsb (fun c => Nat.ltb 1 (length c)) cs) eqn:E; [discriminate|].
  intros _. apply no_big_comp, E.
Qed.

Lemma singleton_comp (c : comp) a : length c <= 1 -> In a c -> c = [a].
Proof. destruct c as [|x [|y c]]; simpl; [tauto | intros _ [<- | []]; reflexivity | lia]. Qed.

Lemma check_passes_acyclic g cs L :
  (forall n ss, In (n, ss) g -> ~ In n ss) ->
  comp_layers true g cs = Ok L -> acyclic g.
Proof.
  intros Hself P.
  assert (Hedge : forall a b, gedge g a b -> lidx L [b] < lidx L [a]).
  { intros a b [ss [I1 I2]].
    destruct (comp_layers_order true g cs L P a ss b I1 I2) as [ca [cb [H1 [H2 H3]]]].
    apply comp_of_In in H1 as [C1 N1]. apply comp_of_In in H2 as [C2 N2].
    rewrite (singleton_comp ca a (comp_layers_check_singletons g cs L P ca C1) N1) in H3.
    rewrite (singleton_comp cb b (comp_layers_check_singletons g cs L P cb C2) N2) in H3.
    destruct H3 as [E | H3]; [|exact H3]. inversion E. subst. exfalso. eapply Hself; eauto. }
  assert (Hpath : forall a b, gpath g a b -> lidx L [b] < lidx L [a]).
  { induction 1 as [a b E | a b c E _ IH]; [auto|]. pose proof (Hedge a b E). lia. }
  intros a Pa. pose proof (Hpath a a Pa). lia.
Qed.

Lemma comp_layers_fuel check g cs : comp_layers check g cs <> Err OutOfFuel.
Proof.
  unfold comp_layers. destruct (check && _); [discriminate|].
  assert (G : forall g m, cg_of cs g m <> Err OutOfFuel).
  { induction g0 as [|[n ss] g0 IHg]; intros m; simpl; [discriminate|].
    destruct (comp_of cs n); [|discriminate].
    assert (G2 : forall ss m, cg_edges cs n ss m <> Err OutOfFuel).
    { induction ss0 as [|s ss0 IHs]; intros m0; simpl; [discriminate|].
      destruct (comp_of cs n); [|discriminate]. destruct (comp_of cs s); [|discriminate]. apply IHs. }
    specialize (G2 ss m). destruct (cg_edges cs n ss m) as [m1|e]; [apply IHg | congruence]. }
  specialize (G g (cg_init cs)). destruct (cg_of cs g (cg_init cs)) as [m|e]; [|congruence].
  apply peel_fuel. lia.
Qed.
