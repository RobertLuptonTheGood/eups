(* C01, the closure clause, on the composed model Model/SetupFull.v:

     when no product is requested in two different versions along the traversal, nothing of the closure is
     set up beforehand, and the request succeeds, the products set up are exactly the dependency closure
     (required dependencies, plus optional ones that resolve), each at the version the VRO designates.

   Conflict-freedom is the existence of ONE assignment D : name -> version (or nothing) such that the
   top-level request designates D top and every dependency line of the table of a product at its
   assigned version designates, for the product it names, what D assigns to that product (designates
   is the designation rule of Model/ResolveSpec.v, for a product not chosen before).  The closure is
   defined from D and the tables alone:
     sets_up n        n is assigned a version whose table has only required lines naming products that
                      set up (an optional line may name one that does not)
     reach_ok top k   k is reached from top through lines (required or optional) naming products that
                      set up, always in the table of the assigned version.
   Restrictions of the statement: no -j on a dependency line, no --just, no --max-depth, no keep in the VRO. *)
From Eupsv Require Import Base.Base Base.BaseLemmas Model.PathAlg Proofs.PathAlg Model.Setup Proofs.SetupFrame
     Proofs.SetupInv Model.Resolve Model.ResolveSpec Proofs.ResolveLib Proofs.Resolve Model.SetupFull
     Proofs.SetupFull Proofs.SetupFullResolve Proofs.SetupOwn.
From Coq Require Import Lia.

Section Closure.
Variable vcmp : str -> str -> comparison.
Variable vmatch : str -> str -> bool.
Variable fw : fworld.
Variable cfg : Setup.config.
Variable rc : Resolve.config.
Variable flavors : list str.
Variable dl : str -> ascii.
Variable rank : str -> nat.
Variable vro : list entry.
Variable top : str.
Variable D : str -> option str.
Variable Z : str -> Prop.               (* the aliases whose accounting is followed (C02); none for C01 *)

Notation w := (fw_products fw).
Notation full := (setup_full vcmp vmatch fw cfg rc flavors).
Notation step_full := (setup_full_step vcmp vmatch fw cfg rc flavors).
Notation run_full := (run_actions_full cfg).
Notation db := (db_of cfg fw).
Notation recorded := (recorded fw).
Notation retains := (retains fw).
Notation install := (install fw cfg).
Notation resolve_call := (resolve_call vcmp vmatch fw cfg rc flavors).
Notation retains_refl := (retains_refl fw).

(* the version designated for a request of product x with the line information li, below the top level *)
Definition desig (depth : nat) (x : str) (li : lineinfo) : option str :=
  option_map fd_version (designates vcmp vmatch rc db flavors depth vro (mkRequest x (li_version li) (li_expr li))).

(* every dependency line of a table: no -j, and it designates what D assigns *)
Fixpoint lines_ok (acts : list action) (infos : list lineinfo) : Prop :=
  match acts with
  | [] => True
  | a :: r =>
      match a with
      | ASetup _ x j => j = false /\ desig 1 x (hd no_info infos) = D x
      | _ => True
      end /\ lines_ok r (tl infos)
  end.

Definition reachN (n : str) : Prop := touches w None top n.

Inductive sets_up : str -> Prop :=
| su_intro n v p : D n = Some v -> find_pv w n v = Some p ->
                   (forall x j, In (ASetup false x j) (p_actions p) -> sets_up x) -> sets_up n.

Inductive reach_ok : str -> str -> Prop :=
| ro_self m : reach_ok m m
| ro_dep m v p o x j k : D m = Some v -> find_pv w m v = Some p -> In (ASetup o x j) (p_actions p) ->
                         sets_up x -> reach_ok x k -> reach_ok m k.

Hypothesis H : WF2 w dl rank.
Hypothesis Hdepth : c_max_depth cfg = None.
Hypothesis Hwfdb : wf_db db = true.
Hypothesis Hto : forall n, total_order_on vcmp (names_of db n).
Hypothesis Hnokeep : mem_entry EKeep vro = false.
Hypothesis Hlines : forall n v p, reachN n -> D n = Some v -> find_pv w n v = Some p ->
                                  lines_ok (p_actions p) (lines_of fw p).

Lemma reachN_step m p o x j : reachN m -> has_name w m p -> In (ASetup o x j) (p_actions p) -> reachN x.
Proof.
  intros R Hp Ha. unfold reachN in *.
  apply (touches_unbounded_trans w top m x R). apply (t_dep w None m x x I); [|constructor]. exists p, o, j. split; assumption.
Qed.

Definition assigned (e : amap str) : Prop := forall n q, reachN n -> recorded e n q -> D n = Some (p_version q).
Definition closed_at (e : amap str) (q : product) : Prop :=
  forall o x j, In (ASetup o x j) (p_actions q) -> sets_up x -> exists q', recorded e x q'.
Definition settled (open : str -> Prop) (e : amap str) : Prop :=
  forall n q, reachN n -> recorded e n q -> ~ open n -> sets_up n /\ closed_at e q.
Definition al_ok (al : already) : Prop :=
  forall n fd r, reachN n -> alookup n al = Some (fd, r) -> D n = Some (fd_version fd).

(* the aliases of Z that tables of reachable products define are defined only while such a product is recorded *)
Definition AJ (st : state) : Prop := alias_acc w reachN Z (fun _ => False) st.

(* what holds between two dependency lines: [open] are the products whose tables are being processed *)
Record cinv (open : str -> Prop) (st : state) (al : already) : Prop := {
  ci_nd : nodollar_paths w (s_env st);
  ci_assigned : assigned (s_env st);
  ci_settled : settled open (s_env st);
  ci_al : al_ok al;
  ci_AJ : AJ st }.

Lemma al_ok_aset al m fd why : al_ok al -> D m = Some (fd_version fd) -> al_ok (aset m (fd, why) al).
Proof.
  intros A Dm n fd0 r Rn E. destruct (str_eq_dec n m) as [->|N].
  - rewrite alookup_aset_same in E. now injection E as <- _.
  - rewrite alookup_aset_other in E by assumption. now apply (A n fd0 r).
Qed.

Lemma AJ_env st st' : s_aliases st' = s_aliases st -> retains (s_env st) (s_env st') -> AJ st -> AJ st'.
Proof.
  intros EA Ret A k v Zk E O. rewrite EA in E. destruct (A k v Zk E O) as [[]|[n [q [v' [Rn [Rq Hin]]]]]].
  right. exists n, q, v'. split; [assumption|]. split; [now apply Ret|assumption].
Qed.

(* the records are the same; a new alias is accounted for by the recorded product whose table defines it *)
Lemma cinv_simple open st st1 al m p a :
  reachN m -> recorded (s_env st) m p -> In a (p_actions p) -> nodollar_paths w (s_env st1) ->
  (forall n, find_setup_product w (s_env st1) n = find_setup_product w (s_env st) n) ->
  (s_aliases st1 = s_aliases st \/ exists k v, a = AAlias k v /\ s_aliases st1 = aset k v (s_aliases st)) ->
  cinv open st al -> cinv open st1 al.
Proof.
  intros Rm Hrec Ha Dn F Al [_ Has Hse HA HAJ]. destruct (same_records fw _ _ F) as [R R']. split; try assumption.
  - intros n q Rn Rec. exact (Has n q Rn (R' n q Rec)).
  - intros n q Rn Rec Ho. destruct (Hse n q Rn (R' n q Rec) Ho) as [S C]. split; [assumption|].
    intros o x j Hin Sx. destruct (C o x j Hin Sx) as [q' Rq']. exists q'. now apply R.
  - destruct Al as [EA|[k [v [-> EA]]]]; [exact (AJ_env st st1 EA R HAJ)|].
    intros k' v' Zk' E' O'. rewrite EA in E'. destruct (str_eq_dec k' k) as [->|Nk].
    + right. exists m, p, v. split; [assumption|]. split; [now apply R|assumption].
    + rewrite alookup_aset_other in E' by assumption.
      destruct (HAJ k' v' Zk' E' O') as [[]|[n [q [v0 [Rn [Rq Hin]]]]]].
      right. exists n, q, v0. split; [assumption|]. split; [now apply R|assumption].
Qed.

Lemma cinv_start (open : str -> Prop) st al m p fd why :
  reachN m -> find_pv w m (p_version p) = Some p -> D m = Some (p_version p) -> fd_version fd = p_version p ->
  find_setup_product w (s_env st) m = None -> cinv open st al ->
  cinv (fun n => open n \/ n = m) (set_product_vars cfg st m p) (aset m (fd, why) al).
Proof.
  intros Rm F Dm V Hs [Hnd Has Hse HA HAJ].
  destruct (set_vars_records fw cfg dl rank H st m p F Hs Hnd) as [Self [Ret [Back Dn]]]. split.
  - assumption.
  - intros n q Rn Rec. destruct (Back n q Rec) as [->|Rec0]; [|now apply (Has n q)].
    now rewrite <- (recorded_inj fw _ _ _ _ Self Rec).
  - intros n q Rn Rec Ho. destruct (Back n q Rec) as [->|Rec0]; [exfalso; apply Ho; now right|].
    destruct (Hse n q Rn Rec0 (fun O => Ho (or_introl O))) as [S C]. split; [assumption|].
    intros o x j Hin Sx. destruct (C o x j Hin Sx) as [q' Rq']. exists q'. exact (Ret x q' Rq').
  - apply al_ok_aset; [assumption|]. now rewrite V.
  - exact (AJ_env st (set_product_vars cfg st m p) eq_refl Ret HAJ).
Qed.

Definition call_post (open : str -> Prop) (st : state) (m : str) (r : fresult) : Prop :=
  match r with
  | FDone true st' al' _ =>
      cinv open st' al' /\ sets_up m /\ retains (s_env st) (s_env st') /\ (exists q, recorded (s_env st') m q) /\
      (forall k q, recorded (s_env st') k q -> recorded (s_env st) k q \/ reach_ok m k)
  | FDone false _ al' _ => ~ sets_up m /\ al_ok al'
  | FRaise _ al' _ => ~ sets_up m /\ al_ok al'
  | _ => True
  end.

Lemma call_post_trace open st m pre r : call_post open st m r -> call_post open st m (with_trace pre r).
Proof. destruct r as [[|] st' al' tr|st' al' tr|tr|tr]; exact (fun x => x). Qed.

Definition clos_fn (frec : full_fn) : Prop :=
  forall (open : str -> Prop) st al m li d,
    reachN m -> (forall n, open n -> rank m < rank n) -> cinv open st al -> desig 1 m li = D m ->
    call_post open st m (frec st al vro m li true (S d) false).

(* the product was not chosen before (or the call is the top-level one, which starts with an empty dictionary) *)
Lemma resolve_D_fresh al m li depth :
  alookup m al = None -> desig depth m li = D m ->
  match resolve_call al vro m li depth with
  | Ok None => D m = None
  | Ok (Some (fd, _)) => D m = Some (fd_version fd)
  | Err _ => False
  end.
Proof.
  intros E HD. unfold desig in HD. unfold SetupFull.resolve_call. rewrite E.
  destruct (resolve_designates vcmp vmatch rc db (c_keep cfg) flavors depth vro
              (mkRequest m (li_version li) (li_expr li)) Hwfdb (Hto _)) as [x [E1 E2]].
  rewrite E1. rewrite <- E2 in HD. destruct x as [[fd why]|]; cbn [option_map fst] in HD; now rewrite <- HD.
Qed.

Lemma resolve_D al m li d :
  reachN m -> al_ok al -> desig 1 m li = D m ->
  match resolve_call al vro m li (S d) with
  | Ok None => D m = None
  | Ok (Some (fd, _)) => D m = Some (fd_version fd)
  | Err _ => False
  end.
Proof.
  intros R A HD. unfold desig in HD. set (rq := mkRequest m (li_version li) (li_expr li)) in *.
  rewrite <- (designates_deep vcmp vmatch rc db flavors d vro rq) in HD.
  destruct (alookup m al) as [[op r]|] eqn:E; [|now apply resolve_D_fresh].
  unfold SetupFull.resolve_call. fold rq. rewrite E.
  pose proof (A m op r R E) as Dm. rewrite Dm in HD.
  destruct (designates vcmp vmatch rc db flavors (S d) vro rq) as [pD|] eqn:ED; [|discriminate].
  cbn [option_map] in HD. injection HD as HV.
  destruct (resolve_prev_version vcmp vmatch rc db (c_keep cfg) op r flavors d vro rq pD Hwfdb (Hto _) ED (eq_sym HV))
    as [p' [r' [E1 E2]]].
  rewrite E1. rewrite Dm. now rewrite E2, HV.
Qed.

Definition run_post (open : str -> Prop) (m : str) (acts : list action) (st : state) (r : fresult) : Prop :=
  match r with
  | FDone true st' al' _ =>
      cinv (fun n => open n \/ n = m) st' al' /\ retains (s_env st) (s_env st') /\
      (forall o x j, In (ASetup o x j) acts ->
         (o = false -> sets_up x) /\ (sets_up x -> exists q, recorded (s_env st') x q)) /\
      (forall k q, recorded (s_env st') k q ->
         recorded (s_env st) k q \/ exists o x j, In (ASetup o x j) acts /\ sets_up x /\ reach_ok x k)
  | FDone false _ al' _ => (exists x j, In (ASetup false x j) acts /\ ~ sets_up x) /\ al_ok al'
  | FRaise _ al' _ => (exists x j, In (ASetup false x j) acts /\ ~ sets_up x) /\ al_ok al'
  | _ => True
  end.

Lemma run_post_trace open m acts st pre r : run_post open m acts st r -> run_post open m acts st (with_trace pre r).
Proof. destruct r as [[|] st' al' tr|st' al' tr|tr|tr]; exact (fun x => x). Qed.

Lemma run_post_cons (open : str -> Prop) m a acts st st1 r :
  retains (s_env st) (s_env st1) ->
  (forall k q, recorded (s_env st1) k q ->
     recorded (s_env st) k q \/ exists o x j, a = ASetup o x j /\ sets_up x /\ reach_ok x k) ->
  (forall o x j, a = ASetup o x j ->
     (o = false -> sets_up x) /\ (sets_up x -> exists q, recorded (s_env st1) x q)) ->
  run_post open m acts st1 r -> run_post open m (a :: acts) st r.
Proof.
  intros Ret New Line. destruct r as [[|] st' al' tr|st' al' tr|tr|tr]; cbn [run_post]; auto.
  2,3: intros [[x [j [Hin Nx]]] A]; split; [|assumption]; exists x, j; split; [now right|assumption].
  intros [C [R' [L N]]]. split; [assumption|]. split; [exact (retains_trans fw _ _ _ Ret R')|]. split.
  - intros o x j [->|Hin]; [|exact (L o x j Hin)]. destruct (Line o x j eq_refl) as [L1 L2]. split; [assumption|].
    intro Sx. destruct (L2 Sx) as [q Rq]. exists q. now apply R'.
  - intros k q Rk. destruct (N k q Rk) as [Rk1|[o [x [j [Hin [Sx Ro]]]]]].
    + destruct (New k q Rk1) as [Rk0|[o [x [j [-> [Sx Ro]]]]]]; [now left|right].
      exists o, x, j. split; [now left|split; assumption].
    + right. exists o, x, j. split; [now right|split; assumption].
Qed.

Lemma run_clos frec (open : str -> Prop) m p depth :
  clos_fn frec -> has_name w m p -> reachN m -> (forall n, open n -> rank m < rank n) ->
  forall acts infos, (forall a, In a acts -> In a (p_actions p)) -> lines_ok acts infos ->
  forall st al, cinv (fun n => open n \/ n = m) st al -> recorded (s_env st) m p ->
    run_post open m acts st (run_full frec true depth false vro acts infos st al).
Proof.
  intros HC Hp Rm Hrank. induction acts as [|a acts IH]; intros infos Hsub HL st al HI Hrec.
  - cbn [run_actions_full run_post]. split; [assumption|]. split; [apply retains_refl|].
    split; [intros o x j []|]. intros k q R. now left.
  - assert (Hsub' : forall a0, In a0 acts -> In a0 (p_actions p)) by (intros; apply Hsub; now right).
    assert (Ha : In a (p_actions p)) by (apply Hsub; now left).
    destruct HL as [HLa HL']. destruct (dep_dec a) as [[o [x [j ->]]]|Hns].
    + destruct HLa as [-> HDx]. cbn [run_actions_full]. unfold cut_off, child_vro. rewrite Hdepth, Hnokeep.
      assert (Rx : reachN x) by exact (reachN_step m p o x false Rm Hp Ha).
      assert (Hrank' : forall n, (open n \/ n = m) -> rank x < rank n).
      { assert (E : rank x < rank m) by (apply (wf_rank w dl rank H m x); exists p, o, false; split; assumption).
        intros n [O| ->]; [pose proof (Hrank n O); lia|assumption]. }
      pose proof (HC (fun n => open n \/ n = m) st al x (hd no_info infos) depth Rx Hrank' HI HDx) as C.
      (* the dependency failed: the environment is restored, the dictionary is not *)
      assert (Failed : forall al' tr, ~ sets_up x /\ al_ok al' ->
                run_post open m (ASetup o x false :: acts) st
                  (if true && negb o then FRaise st al' tr
                   else with_trace tr (run_full frec true depth false vro acts (tl infos) st al'))).
      { intros al' tr [Nx A']. destruct o; cbn [negb andb].
        - apply run_post_trace.
          apply (run_post_cons open m (ASetup true x false) acts st st).
          + apply retains_refl.
          + intros k q R. now left.
          + intros o1 x1 j1 Eq. injection Eq as <- <- _. split; [discriminate|]. intro Sx. contradiction.
          + apply IH; auto. destruct HI. now split.
        - cbn [run_post]. split; [|assumption]. exists x, false. split; [now left|assumption]. }
      destruct (frec st al vro x (hd no_info infos) true (S depth) false) as [[|] st' al' tr|st' al' tr|tr|tr];
        cbn [call_post] in C; try exact I.
      2,3: exact (Failed al' tr C).
      destruct C as [HI' [Sx [Ret [[qx Rqx] New]]]]. apply run_post_trace.
      apply (run_post_cons open m (ASetup o x false) acts st st').
      * exact Ret.
      * intros k q Rk. destruct (New k q Rk) as [R0|Ro]; [now left|right]. exists o, x, false. auto.
      * intros o0 x0 j0 Eq. injection Eq as <- <- _. split; [auto|]. intros _. now exists qx.
      * apply IH; auto.
    + rewrite (run_full_simple cfg) by assumption.
      destruct (simple_records fw cfg dl rank H m p true a st Hp Ha Hns (ci_nd _ _ _ HI)) as [st1 [E [Dn [F Al]]]].
      rewrite E. destruct (same_records fw _ _ F) as [R R'].
      apply (run_post_cons open m a acts st st1 _ R).
      * intros k q Rk. left. now apply R'.
      * intros o x j Eq. exfalso. exact (Hns o x j Eq).
      * apply IH; auto. exact (cinv_simple _ st st1 al m p a Rm Hrec Ha Dn F Al HI).
Qed.

Lemma finish_product (open : str -> Prop) st st1 m p r :
  (forall n, open n -> rank m < rank n) -> reachN m ->
  find_pv w m (p_version p) = Some p -> D m = Some (p_version p) ->
  retains (s_env st) (s_env st1) -> recorded (s_env st1) m p ->
  (forall k q, recorded (s_env st1) k q -> k = m \/ recorded (s_env st) k q) ->
  run_post open m (p_actions p) st1 r -> call_post open st m r.
Proof.
  intros Hrank Rm F Dm Ret Self Back.
  (* a required line names a product that does not set up: neither does m *)
  assert (Failed : (exists x j, In (ASetup false x j) (p_actions p) /\ ~ sets_up x) -> ~ sets_up m).
  { intros [x [j [Hin Nx]]] Sm. inversion Sm as [n v p' Dv Fv Hall]; subst n.
    rewrite Dm in Dv. injection Dv as <-. rewrite F in Fv. injection Fv as <-. exact (Nx (Hall x j Hin)). }
  destruct r as [[|] st' al' tr|st' al' tr|tr|tr]; cbn [run_post call_post]; auto.
  2,3: intros [N A]; split; [exact (Failed N)|assumption].
  intros [[A0 A1 A2 A3 A4] [Ret' [L N]]].
  assert (Sm : sets_up m).
  { apply (su_intro m (p_version p) p Dm F). intros x j Hin. exact (proj1 (L false x j Hin) eq_refl). }
  assert (Self' : recorded (s_env st') m p) by now apply Ret'.
  split; [split; try assumption|]. 2: split; [assumption|split; [exact (retains_trans fw _ _ _ Ret Ret')|split; [now exists p|]]].
  - (* m is no longer open: it sets up, and its lines are closed *)
    intros n q Rn Rec Ho. destruct (str_eq_dec n m) as [->|Nm].
    + rewrite <- (recorded_inj fw _ _ _ _ Self' Rec).
      split; [assumption|]. intros o x j Hin Sx. exact (proj2 (L o x j Hin) Sx).
    + apply (A2 n q Rn Rec). intros [O|E]; [now apply Ho|contradiction].
  - intros k q Rk. destruct (N k q Rk) as [R1|[o [x [j [Hin [Sx Ro]]]]]].
    + destruct (Back k q R1) as [->|R0]; [right; constructor|now left].
    + right. exact (ro_dep m (p_version p) p o x j k Dm F Hin Sx Ro).
Qed.

Lemma table_clos frec (open : str -> Prop) st al m p fd why depth :
  clos_fn frec -> reachN m -> (forall n, open n -> rank m < rank n) ->
  find_pv w m (p_version p) = Some p -> D m = Some (p_version p) -> fd_version fd = p_version p ->
  find_setup_product w (s_env st) m = None -> cinv open st al ->
  call_post open st m (run_full frec true depth false vro (p_actions p) (lines_of fw p)
                                (set_product_vars cfg st m p) (aset m (fd, why) al)).
Proof.
  intros HC Rm Hrank F Dm V Hs HI.
  destruct (set_vars_records fw cfg dl rank H st m p F Hs (ci_nd _ _ _ HI)) as [Self [Ret [Back _]]].
  apply (finish_product open st (set_product_vars cfg st m p) m p); auto.
  apply (run_clos frec open m p depth HC (proj1 (find_pv_spec w m _ p F)) Rm Hrank (p_actions p) (lines_of fw p)
           (fun a Ha => Ha)); auto.
  - exact (Hlines m (p_version p) p Rm Dm F).
  - now apply cinv_start.
Qed.

Lemma clos_step frec : clos_fn frec -> clos_fn (step_full frec).
Proof.
  intros HC open st al m li d Rm Hrank HI HD.
  pose proof (resolve_D al m li d Rm (ci_al _ _ _ HI) HD) as RD.
  rewrite (step_full_below vcmp vmatch fw cfg rc flavors dl rank H).
  2:{ intros fd why q R Rq. rewrite R in RD. pose proof (ci_assigned _ _ _ HI m q Rm Rq). congruence. }
  destruct (resolve_call al vro m li (S d)) as [[[fd why]|]|e]; [| |contradiction].
  2:{ cbn [call_post]. split; [|exact (ci_al _ _ _ HI)]. intro Sm. inversion Sm as [n v p Dv _ _]; subst n. congruence. }
  destruct (find_pv w m (fd_version fd)) as [p|] eqn:F; [|exact I].
  destruct (find_pv_spec w m _ p F) as [_ Hv]. rewrite <- Hv in F, RD.
  destruct (find_setup_product w (s_env st) m) as [q|] eqn:Hs.
  - (* already set up, at the assigned version: nothing happens *)
    cbn [call_post].
    assert (Hno : ~ open m) by (intro O; pose proof (Hrank m O); lia).
    destruct (ci_settled _ _ _ HI m q Rm Hs Hno) as [Sm _].
    split; [assumption|]. split; [assumption|]. split; [apply retains_refl|]. split; [now exists q|].
    intros k q0 R. now left.
  - apply call_post_trace. apply table_clos; auto.
Qed.

Lemma clos_full fuel : clos_fn (full fuel).
Proof.
  induction fuel as [|fuel IH].
  - intros open st al m li d _ _ _ _. exact I.
  - cbn [setup_full]. now apply clos_step.
Qed.

(* names outside the reach: the frame theorem *)
Lemma outside_reach fuel st al li st' al' tr :
  known w top -> nodollar_paths w (s_env st) ->
  full fuel st al vro top li true 0 false = FDone true st' al' tr ->
  forall k, known w k -> ~ reachN k -> find_setup_product w (s_env st') k = find_setup_product w (s_env st) k.
Proof.
  intros Kt Hnd E k Kk Nk.
  pose proof (setup_full_frame_lemma vcmp vmatch fw cfg rc flavors dl fuel st al vro top li true 0 false
                (wf_base w dl rank H) Hnd (depth_ok_top cfg)) as G.
  rewrite E in G. cbn [erase good] in G. destruct G as [Fr _].
  assert (L : levels cfg 0 false = None) by (unfold levels; now rewrite Hdepth). rewrite L in Fr.
  apply (frame_find w dl rank H _ (s_env st) (s_env st') k Fr); [| |assumption].
  - intros n Rn ->. now apply Nk.
  - intros n Rn. now apply (touches_known w None top n).
Qed.

Lemma closure_recorded e m k :
  assigned e -> settled (fun _ => False) e -> reach_ok m k -> reachN m -> (exists q, recorded e m q) ->
  reachN k /\ exists q, recorded e k q.
Proof.
  intros C1 C2. induction 1 as [m|m v pm o x j k Dm Fm Hin Sx Ro IH]; intros Rm [qm Rqm]; [split; [assumption|now exists qm]|].
  pose proof (C1 m qm Rm Rqm) as Dq. rewrite Dm in Dq. injection Dq as ->.
  pose proof (recorded_find_pv fw _ m qm Rqm) as Fq. rewrite Fm in Fq. injection Fq as ->.
  destruct (C2 m qm Rm Rqm (fun O => O)) as [_ Cl].
  apply IH; [|exact (Cl o x j Hin Sx)].
  exact (reachN_step m qm o x j Rm (proj1 (find_pv_spec w m _ qm Fm)) Hin).
Qed.

Theorem closure_lemma fuel st li st' al' tr :
  nodollar_paths w (s_env st) ->
  (forall n, reachN n -> find_setup_product w (s_env st) n = None) ->
  desig 0 top li = D top -> AJ st ->
  full fuel st [] vro top li true 0 false = FDone true st' al' tr ->
  (forall k, reach_ok top k ->
     exists v q, D k = Some v /\ find_pv w k v = Some q /\ find_setup_product w (s_env st') k = Some q) /\
  (forall k q, reachN k -> find_setup_product w (s_env st') k = Some q -> reach_ok top k /\ D k = Some (p_version q)) /\
  (forall k, known w k -> ~ reachN k ->
     find_setup_product w (s_env st') k = find_setup_product w (s_env st) k) /\
  AJ st'.
Proof.
  intros Hnd Hfresh HD HAJ E. pose proof E as E0.
  assert (Rtop : reachN top) by constructor.
  destruct fuel as [|fuel]; [discriminate|]. cbn [setup_full] in E. rewrite step_full_forward in E.
  pose proof (resolve_D_fresh [] top li 0 eq_refl HD) as RD.
  destruct (resolve_call [] vro top li 0) as [[[fd why]|]|e]; try discriminate.
  destruct (find_pv w top (fd_version fd)) as [p|] eqn:F; [|discriminate].
  cbn [Nat.eqb negb] in E. rewrite andb_false_r in E.
  destruct (find_pv_spec w top _ p F) as [Hp Hv]. rewrite <- Hv in F, RD.
  destruct (with_trace_done _ _ _ _ _ _ E) as [tr1 E3]. unfold install, unsetup_old in E3.
  rewrite (Hfresh top Rtop), with_trace_nil in E3.
  (* nothing reachable is recorded, in the environment or in the dictionary rebuilt from it *)
  assert (Nr : forall n q, reachN n -> ~ recorded (s_env st) n q).
  { intros n q Rn Rec. unfold SetupFull.recorded in Rec. rewrite (Hfresh n Rn) in Rec. discriminate. }
  assert (HI : cinv (fun _ => False) st (aset top (fd, why) (rebuild w cfg (s_env st)))).
  { split; try assumption; try (intros n q Rn Rec; destruct (Nr n q Rn Rec)).
    apply al_ok_aset; [|now rewrite <- Hv].
    intros n fd0 r Rn En. exfalso. exact (rebuild_lookup_inv fw cfg _ _ _ _ En (Hfresh n Rn)). }
  pose proof (table_clos (full fuel) (fun _ => False) st _ top p fd why 0 (clos_full fuel) Rtop
                (fun n (O : False) => match O with end) F RD (eq_sym Hv) (Hfresh top Rtop) HI) as CP.
  rewrite E3 in CP. cbn [call_post] in CP.
  destruct CP as [[_ C1 C2 _ CA] [_ [_ [Rt New]]]].
  split; [|split; [|split; [|exact CA]]].
  - intros k Rk. destruct (closure_recorded (s_env st') top k C1 C2 Rk Rtop Rt) as [Rnk [q Rq]].
    exists (p_version q), q. split; [exact (C1 k q Rnk Rq)|]. split; [exact (recorded_find_pv fw _ k q Rq)|exact Rq].
  - intros k q Rnk Rq. split; [|exact (C1 k q Rnk Rq)].
    destruct (New k q Rq) as [R0|Ro]; [|assumption]. destruct (Nr k q Rnk R0).
  - exact (outside_reach (S fuel) st [] li st' al' tr (known_has_name w top p Hp) Hnd E0).
Qed.

End Closure.

(* no product is requested in two different versions along the traversal: one assignment D explains the
   top-level request and every dependency line (none of them with -j) of every table the traversal can read *)
Definition conflict_free vcmp vmatch fw cfg rc flavors vro top li (D : str -> option str) : Prop :=
  desig vcmp vmatch fw cfg rc flavors vro 0 top li = D top /\
  forall n v p, reachN fw top n -> D n = Some v -> find_pv (fw_products fw) n v = Some p ->
                lines_ok vcmp vmatch fw cfg rc flavors vro D (p_actions p) (lines_of fw p).

Definition all_versions (db : dbv) : list str :=
  flat_map (fun s => map (fun d => snd (fst d)) (st_decl s)) db.

Lemma names_of_all db n v : In v (names_of db n) -> In v (all_versions db).
Proof.
  unfold names_of, all_versions. rewrite !in_flat_map. intros [s [Hs Hv]]. exists s. split; [assumption|].
  apply in_flat_map in Hv. destruct Hv as [[[n' v'] f'] [Hd Hv]]. apply in_map_iff. exists (n', v', f').
  destruct (str_eqb n n'); [|contradiction]. destruct Hv as [<-|[]]. split; [reflexivity|assumption].
Qed.

Lemma total_order_all vcmp db : total_order_on vcmp (all_versions db) -> forall n, total_order_on vcmp (names_of db n).
Proof.
  intros [A [B [C0 D0]]] n. pose proof (names_of_all db n) as S.
  split; [|split; [|split]]; intros; [apply A|apply B|apply C0|apply (D0 x y z)]; auto.
Qed.
