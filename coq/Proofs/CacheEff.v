(* Effects with stamps: what one record-level action changes in the files, the product names
   and the modification times.  Everything an action does concerns one product of one stack,
   and (unless it does nothing at all) leaves that product's directory with a fresh stamp. *)
From Eupsv Require Import Base.Base Base.BaseLemmas Model.Db Model.Cache.
From Eupsv Require Import Proofs.DbLib Proofs.Db Proofs.DbSim Proofs.DbInv Proofs.DbCor.
From Eupsv Require Import Proofs.CacheLib Proofs.CacheWt.
From Coq Require Import Lia.

Definition is_touch (e : fseffect) : bool :=
  match e with Mkdir _ _ | Rmdir _ _ => false | _ => true end.

Definition in_scope (s n : str) (e : fseffect) : Prop := eff_stack e = s /\ eff_name e = n.

Lemma untag_effects_scope d s n t f : Forall (in_scope s n) (untag_effects d s n t f).
Proof.
  unfold untag_effects. destruct (db_cfile d s (n, t)) as [c|]; [|constructor].
  destruct (amem f c); [|constructor]. constructor; [|constructor].
  unfold write_or_remove_c. destruct (is_nil (aremove f c)); split; reflexivity.
Qed.

Lemma compile_scope d x : Forall (in_scope (act_stack x) (act_name x)) (compile d x).
Proof.
  destruct x as [s n v f r|s n v f|s n t f v|s n t f]; cbn [compile act_stack act_name act_nf fst].
  - apply Forall_app. split.
    + destruct (db_has_dir d s n); constructor; [split; reflexivity|constructor].
    + constructor; [split; reflexivity|constructor].
  - destruct (db_vfile d s (n, v)) as [c|]; [|constructor]. destruct (amem f c); [|constructor].
    apply Forall_app. split.
    + apply Forall_forall. intros e He. apply in_flat_map in He. destruct He as [t [_ He]].
      exact (proj1 (Forall_forall _ _) (untag_effects_scope d s n t f) e He).
    + destruct (is_nil (aremove f c)); repeat constructor.
  - repeat constructor.
  - apply untag_effects_scope.
Qed.

Lemma untag_effects_touch d s n t f :
  untag_effects d s n t f = [] \/ Exists (fun e => is_touch e = true) (untag_effects d s n t f).
Proof.
  unfold untag_effects. destruct (db_cfile d s (n, t)) as [c|]; [|left; reflexivity].
  destruct (amem f c); [|left; reflexivity]. right. constructor.
  unfold write_or_remove_c. destruct (is_nil (aremove f c)); reflexivity.
Qed.

Lemma compile_touch d x : compile d x = [] \/ Exists (fun e => is_touch e = true) (compile d x).
Proof.
  destruct x as [s n v f r|s n v f|s n t f v|s n t f]; cbn [compile].
  - right. apply Exists_app. right. constructor. reflexivity.
  - destruct (db_vfile d s (n, v)) as [c|]; [|left; reflexivity]. destruct (amem f c); [|left; reflexivity].
    right. apply Exists_app. right. destruct (is_nil (aremove f c)); constructor; reflexivity.
  - right. constructor. reflexivity.
  - apply untag_effects_touch.
Qed.

Lemma stack_of_apply1 e d s :
  stack_of (apply1 e d) s =
  match alookup s d with
  | Some st => if str_eqb s (eff_stack e) then apply_stack e st else st
  | None => empty_stack
  end.
Proof. unfold stack_of. rewrite alookup_apply1. destruct (alookup s d); reflexivity. Qed.

Lemma vfiles_apply_stack e st :
  vfiles (apply_stack e st) =
  match e with
  | WriteV _ k c => gset key_eqb k c (vfiles st)
  | RemoveV _ k => gremove key_eqb k (vfiles st)
  | _ => vfiles st
  end.
Proof. destruct e as [? n|? n| | | |]; cbn [apply_stack]; try reflexivity; [destruct (mem_str n _)|destruct (has_files n _)]; reflexivity. Qed.

Lemma cfiles_apply_stack e st :
  cfiles (apply_stack e st) =
  match e with
  | WriteC _ k c => gset key_eqb k c (cfiles st)
  | RemoveC _ k => gremove key_eqb k (cfiles st)
  | _ => cfiles st
  end.
Proof. destruct e as [? n|? n| | | |]; cbn [apply_stack]; try reflexivity; [destruct (mem_str n _)|destruct (has_files n _)]; reflexivity. Qed.

Lemma vfiles_frame e d s (kv : key * vcontent) :
  s <> eff_stack e \/ vname kv <> eff_name e ->
  (In kv (vfiles (stack_of (apply1 e d) s)) <-> In kv (vfiles (stack_of d s))).
Proof.
  intro H. rewrite stack_of_apply1. unfold stack_of. destruct (alookup s d) as [st|]; [|reflexivity].
  destruct (str_eqb_spec s (eff_stack e)) as [E|N]; [|reflexivity].
  assert (Hn : fst (fst kv) <> eff_name e) by (destruct H; [contradiction|assumption]).
  rewrite vfiles_apply_stack. destruct kv as [k c].
  destruct e as [s' n'|s' n'|s' k' c'|s' k'|s' k' c'|s' k']; try reflexivity; cbn [eff_name fst] in Hn.
  - apply (In_gset_other key_eqb key_eqb_eq). intros ->. exact (Hn eq_refl).
  - apply (In_gremove_other key_eqb key_eqb_eq). intros ->. exact (Hn eq_refl).
Qed.

Lemma cfiles_frame e d s (kv : key * ccontent) :
  s <> eff_stack e \/ cname kv <> eff_name e ->
  (In kv (cfiles (stack_of (apply1 e d) s)) <-> In kv (cfiles (stack_of d s))).
Proof.
  intro H. rewrite stack_of_apply1. unfold stack_of. destruct (alookup s d) as [st|]; [|reflexivity].
  destruct (str_eqb_spec s (eff_stack e)) as [E|N]; [|reflexivity].
  assert (Hn : fst (fst kv) <> eff_name e) by (destruct H; [contradiction|assumption]).
  rewrite cfiles_apply_stack. destruct kv as [k c].
  destruct e as [s' n'|s' n'|s' k' c'|s' k'|s' k' c'|s' k']; try reflexivity; cbn [eff_name fst] in Hn.
  - apply (In_gset_other key_eqb key_eqb_eq). intros ->. exact (Hn eq_refl).
  - apply (In_gremove_other key_eqb key_eqb_eq). intros ->. exact (Hn eq_refl).
Qed.

Definition rk_prod (k : rkey) : str * str :=
  match k with
  | RDir s n => (s, n) | RVer s k => (s, fst k) | RChain s k => (s, fst k)
  | RUDir _ s n => (s, n) | RUChain _ s k => (s, fst k)
  end.

Definition is_ukey (k : rkey) : bool := match k with RUDir _ _ _ | RUChain _ _ _ => true | _ => false end.

(* the records an effect stamps: the directory of its product (a mkdir only when it makes one) and the file it
   writes; d is the database before the effect *)
Definition stamped (e : fseffect) (d : db) (k : rkey) : bool :=
  match e with
  | Mkdir s n => negb (db_has_dir d s n) && rkey_eqb k (RDir s n)
  | Rmdir _ _ => false
  | WriteV s k' _ => rkey_eqb k (RVer s k') || rkey_eqb k (RDir s (fst k'))
  | WriteC s k' _ => rkey_eqb k (RChain s k') || rkey_eqb k (RDir s (fst k'))
  | RemoveV s k' | RemoveC s k' => rkey_eqb k (RDir s (fst k'))
  end.

Lemma stamp_effect_lookup e d t st k :
  glookup rkey_eqb k (stamp_effect e d t st) = if stamped e d k then Some t else glookup rkey_eqb k st.
Proof.
  unfold stamp_effect, sset. destruct e as [s n|s n|s k' c|s k'|s k' c|s k']; cbn [stamped];
    try (destruct (db_has_dir d s n); cbn [negb andb]); rewrite ?(glookup_gset rkey_eqb rkey_eqb_eq); try reflexivity;
    destruct (rkey_eqb k _); reflexivity.
Qed.

Lemma stamped_scope e d k : stamped e d k = true -> rk_prod k = (eff_stack e, eff_name e) /\ is_ukey k = false.
Proof.
  assert (Eq : forall k', rkey_eqb k k' = true -> rk_prod k = rk_prod k' /\ is_ukey k = is_ukey k').
  { intros k' H. apply rkey_eqb_eq in H. subst. auto. }
  destruct e as [s n|s n|s k' c|s k'|s k' c|s k']; cbn [stamped eff_stack eff_name]; intro H;
    try discriminate; try (apply andb_true_iff in H; destruct H as [_ H]); try (apply orb_true_iff in H; destruct H as [H|H]);
    exact (Eq _ H).
Qed.

Lemma stamp_effect_ukey e d t st k : is_ukey k = true ->
  glookup rkey_eqb k (stamp_effect e d t st) = glookup rkey_eqb k st.
Proof.
  intro H. rewrite stamp_effect_lookup. destruct (stamped e d k) eqn:S; [|reflexivity].
  apply stamped_scope in S. destruct S. congruence.
Qed.

Lemma stamp_effect_frame e d t st k :
  rk_prod k <> (eff_stack e, eff_name e) ->
  glookup rkey_eqb k (stamp_effect e d t st) = glookup rkey_eqb k st.
Proof.
  intro H. rewrite stamp_effect_lookup. destruct (stamped e d k) eqn:S; [|reflexivity].
  apply stamped_scope in S. destruct S. contradiction.
Qed.

Lemma stamp_effect_values e d t st k t' :
  glookup rkey_eqb k (stamp_effect e d t st) = Some t' -> t' = t \/ glookup rkey_eqb k st = Some t'.
Proof. rewrite stamp_effect_lookup. destruct (stamped e d k); intro H; [left; congruence|right; exact H]. Qed.

Lemma stamp_effect_touch e d t st :
  is_touch e = true -> glookup rkey_eqb (RDir (eff_stack e) (eff_name e)) (stamp_effect e d t st) = Some t.
Proof.
  intro T. rewrite stamp_effect_lookup.
  destruct e as [s n|s n|s k' c|s k'|s k' c|s k']; try discriminate; cbn [stamped eff_stack eff_name rkey_eqb];
    rewrite !str_eqb_refl, ?orb_true_r; reflexivity.
Qed.

Lemma do_effects_cons tick w e es : do_effects tick w (e :: es) = do_effects tick (do_effect tick w e) es.
Proof. reflexivity. Qed.

Lemma do_effects_db tick es : forall w, w_db (do_effects tick w es) = apply es (w_db w).
Proof.
  induction es as [|e es IH]; intro w; [reflexivity|]. rewrite do_effects_cons, IH, apply_cons. reflexivity.
Qed.

Lemma do_effects_pickles tick es : forall w, w_pickles (do_effects tick w es) = w_pickles w.
Proof. induction es as [|e es IH]; intro w; [reflexivity|]. rewrite do_effects_cons, IH. reflexivity. Qed.

Lemma do_effects_clock tick es : clock_strict tick -> forall w, w_clock w <= w_clock (do_effects tick w es).
Proof.
  intro CS. induction es as [|e es IH]; intro w; [cbn; lia|]. rewrite do_effects_cons.
  specialize (IH (do_effect tick w e)). cbn [do_effect w_clock] in IH. pose proof (CS (w_clock w)). lia.
Qed.

Lemma do_effects_stamps_le tick es : clock_strict tick -> forall w,
  (forall k t, glookup rkey_eqb k (w_stamps w) = Some t -> t <= w_clock w) ->
  forall k t, glookup rkey_eqb k (w_stamps (do_effects tick w es)) = Some t -> t <= w_clock (do_effects tick w es).
Proof.
  intro CS. induction es as [|e es IH]; intros w H; [exact H|]. rewrite do_effects_cons. apply IH.
  intros k t Hk. cbn [do_effect w_stamps w_clock] in *. apply stamp_effect_values in Hk.
  destruct Hk as [->|Hk]; [lia|]. specialize (H k t Hk). pose proof (CS (w_clock w)). lia.
Qed.

Lemma vfiles_frame_list es : forall d s n0 s0 (kv : key * vcontent),
  Forall (in_scope s0 n0) es -> s <> s0 \/ vname kv <> n0 ->
  (In kv (vfiles (stack_of (apply es d) s)) <-> In kv (vfiles (stack_of d s))).
Proof.
  induction es as [|e es IH]; intros d s n0 s0 kv F H; [tauto|]. inversion F as [|? ? [E1 E2] F']. subst.
  rewrite apply_cons, (IH _ s _ _ kv F' H). apply vfiles_frame. exact H.
Qed.

Lemma cfiles_frame_list es : forall d s n0 s0 (kv : key * ccontent),
  Forall (in_scope s0 n0) es -> s <> s0 \/ cname kv <> n0 ->
  (In kv (cfiles (stack_of (apply es d) s)) <-> In kv (cfiles (stack_of d s))).
Proof.
  induction es as [|e es IH]; intros d s n0 s0 kv F H; [tauto|]. inversion F as [|? ? [E1 E2] F']. subst.
  rewrite apply_cons, (IH _ s _ _ kv F' H). apply cfiles_frame. exact H.
Qed.

Lemma stamps_frame_list tick es : forall w s0 n0 k,
  Forall (in_scope s0 n0) es -> rk_prod k <> (s0, n0) ->
  glookup rkey_eqb k (w_stamps (do_effects tick w es)) = glookup rkey_eqb k (w_stamps w).
Proof.
  induction es as [|e es IH]; intros w s0 n0 k F H; [reflexivity|]. inversion F as [|? ? [E1 E2] F']. subst.
  rewrite do_effects_cons, (IH _ _ _ k F' H). cbn [do_effect w_stamps]. apply stamp_effect_frame. exact H.
Qed.

Lemma dir_stamp_keep tick es : clock_strict tick -> forall w k c0,
  c0 <= w_clock w -> c0 < stamp_of (w_stamps w) k -> c0 < stamp_of (w_stamps (do_effects tick w es)) k.
Proof.
  intro CS. induction es as [|e es IH]; intros w k c0 Hc H; [exact H|]. rewrite do_effects_cons.
  pose proof (CS (w_clock w)) as Ht. apply IH; cbn [do_effect w_clock w_stamps]; [lia|].
  unfold stamp_of in *. rewrite stamp_effect_lookup. destruct (stamped e (w_db w) k); [lia|exact H].
Qed.

Lemma dir_stamp_touch tick es : clock_strict tick -> forall w s0 n0 c0,
  Forall (in_scope s0 n0) es -> Exists (fun e => is_touch e = true) es ->
  c0 <= w_clock w -> c0 < stamp_of (w_stamps (do_effects tick w es)) (RDir s0 n0).
Proof.
  intro CS. induction es as [|e es IH]; intros w s0 n0 c0 F X Hc; [inversion X|].
  inversion F as [|? ? [E1 E2] F']. subst. rewrite do_effects_cons. pose proof (CS (w_clock w)) as Ht.
  destruct (is_touch e) eqn:T.
  - apply dir_stamp_keep; [exact CS|cbn; lia|]. cbn [do_effect w_stamps]. unfold stamp_of.
    rewrite (stamp_effect_touch e _ _ _ T). lia.
  - inversion X as [? ? T'|? ? X']; subst; [congruence|]. apply IH; auto. cbn. lia.
Qed.
