(* For the Examples of Props/C01.v, C02.v and C04.v: a decision procedure for conflict_free on assignments given as a
   finite table (conflict_free_check, sound), conj_then and the naming of the state a run ends in; then the facts
   about the example worlds of Proofs/SetupExample.v, SetupFullExample.v, SetupFullRealExample.v, SetupRefsExample.v
   and SetupMSStack.v that these Examples share, each well-formedness check and each run evaluated once. *)
From Eupsv Require Import Base.Base Base.BaseLemmas Model.Setup Proofs.SetupFrame Proofs.SetupInv Model.SetupWf Proofs.SetupWf
     Proofs.SetupExample Model.Resolve Model.ResolveSpec Model.SetupFull Proofs.SetupFullClosure Proofs.SetupFullExample
     Generated.Config Model.ResolveReal Proofs.ResolveReal Proofs.SetupFullRealExample.
From Eupsv Require Proofs.Resolve.

(* conflict_free, decided: for an assignment given as a finite table it is enough to look at the request and at the
   tables of the entries *)
Section ConflictFreeCheck.
Variables (vcmp : str -> str -> comparison) (vmatch : str -> str -> bool) (fw : fworld) (cfg : Setup.config)
          (rc : Resolve.config) (flavors : list str) (vro : list entry) (tbl : amap str).

Definition same_version (a b : option str) : bool :=
  match a, b with Some x, Some y => str_eqb x y | None, None => true | _, _ => false end.

Lemma same_version_eq a b : same_version a b = true -> a = b.
Proof. destruct a, b; try discriminate; [|reflexivity]. intro E. now apply str_eqb_eq in E as ->. Qed.

Fixpoint lines_check (acts : list action) (infos : list lineinfo) : bool :=
  match acts with
  | [] => true
  | a :: r =>
      match a with
      | ASetup _ x j => negb j && same_version (desig vcmp vmatch fw cfg rc flavors vro 1 x (hd no_info infos)) (alookup x tbl)
      | _ => true
      end && lines_check r (tl infos)
  end.

Lemma lines_check_sound acts infos :
  lines_check acts infos = true -> lines_ok vcmp vmatch fw cfg rc flavors vro (fun n => alookup n tbl) acts infos.
Proof.
  revert infos. induction acts as [|a r IH]; intros infos E; [exact I|].
  cbn [lines_check] in E. apply andb_true_iff in E as [Ea Er]. split; [|exact (IH _ Er)].
  destruct a as [o x j| | | | |]; try exact I. apply andb_true_iff in Ea as [Ej Ev].
  split; [now destruct j|exact (same_version_eq _ _ Ev)].
Qed.

Definition conflict_free_check (top : str) (li : lineinfo) : bool :=
  same_version (desig vcmp vmatch fw cfg rc flavors vro 0 top li) (alookup top tbl) &&
  forallb (fun nv => match find_pv (fw_products fw) (fst nv) (snd nv) with
                     | Some p => lines_check (p_actions p) (lines_of fw p)
                     | None => true
                     end) tbl.

Lemma forallb_alookup {V} (f : str * V -> bool) m n v : forallb f m = true -> alookup n m = Some v -> f (n, v) = true.
Proof. intros E L. exact (proj1 (forallb_forall f m) E _ (alookup_In _ _ _ L)). Qed.

Lemma conflict_free_check_sound top li :
  conflict_free_check top li = true -> conflict_free vcmp vmatch fw cfg rc flavors vro top li (fun n => alookup n tbl).
Proof.
  intro E. apply andb_true_iff in E as [E0 EL]. split; [exact (same_version_eq _ _ E0)|].
  intros n v p _ Dn F. pose proof (forallb_alookup _ tbl n v EL Dn) as C. cbn [fst snd] in C. rewrite F in C.
  now apply lines_check_sound.
Qed.
End ConflictFreeCheck.

(* a conjunct proved in place and then used for the conjuncts after it *)
(* the state a run ends in, for naming the states between the runs of an example *)
Definition done_state (r : result) : state := match r with RDone _ s _ => s | _ => ex_st0 end.
Definition request_state {T} (r : res (option state * T)) : state := match r with Ok (Some s, _) => s | _ => ex_st0 end.

Lemma ex_world_wf2 : WF2 ex_world (dl_of ex_world) (rank_of ex_order).
Proof. apply wf2_check_sound. vm_compute. reflexivity. Qed.

Lemma ex_app_run : setup ex_world ex_cfg 20 ex_st0 ex_ds (lit "app") true 0 false = RDone true ex_final [].
Proof. vm_compute. reflexivity. Qed.

Lemma ex_db_wf : wf_db (db_of ex_cfg ex_fw) = true.
Proof. vm_compute. reflexivity. Qed.

Lemma ex_versions_ordered n : total_order_on vcmp_simple (names_of (db_of ex_cfg ex_fw) n).
Proof. revert n. apply total_order_all. apply Proofs.Resolve.vcmp_simple_total_orderb. vm_compute. reflexivity. Qed.

Lemma ex_conflict_free :
  conflict_free vcmp_simple vmatch_simple ex_fw ex_cfg default_config ex_flavors ex_vro (lit "libb") no_info ex_D.
Proof.
  apply (conflict_free_check_sound _ _ _ _ _ _ _ [(lit "libb", lit "1.0"); (lit "base", lit "2.0")]). vm_compute. reflexivity.
Qed.

(* setup libb from the empty environment, the resolver deciding: libb 1.0 and base 2.0 *)
Definition ex_libb_resolved : state := Eval vm_compute in request_state
  (request_full_simple ex_fw ex_cfg default_config ex_flavors 20 ex_st0 (lit "libb") None true false).

Lemma rvx_world_wf2 : WF2 rvx_world (dl_of rvx_world) (rank_of rvx_order).
Proof. apply wf2_check_sound. vm_compute. reflexivity. Qed.

Lemma rvx_db_wf : wf_db (db_of ex_cfg rvx_fw) = true.
Proof. vm_compute. reflexivity. Qed.

Lemma rvx_real_ok : fw_real_ok ex_cfg rvx_fw = true.
Proof. vm_compute. reflexivity. Qed.

From Eupsv Require Import Proofs.SetupRefsExample.

Definition rx_tool1 : state := Eval vm_compute in done_state (setup rx_world rx_cfg 10 rx_st0 rx_ds1 (lit "tool") true 0 false).

Lemma rx_tool1_run : setup rx_world rx_cfg 10 rx_st0 rx_ds1 (lit "tool") true 0 false = RDone true rx_tool1 [].
Proof. vm_compute. reflexivity. Qed.

From Eupsv Require Import Model.SetupMS Proofs.SetupMSInv Proofs.SetupMSStack Model.SetupMSWf Proofs.SetupMSWf.

Lemma ms_world_wf2 : SetupMSInv.WF2 ms_world (mdl_of ms_world) (mrank_of ms_order).
Proof. apply SetupMSWf.wf2_check_sound. vm_compute. reflexivity. Qed.

Lemma ms_libB_run : msetup ms_world ms_cfg 3 ms_st0 [Some (key_of ms_libB)] (lit "lib") true 0 false = MDone true ms_stB [].
Proof. vm_compute. reflexivity. Qed.

Lemma ms_app_run :
  msetup ms_world ms_cfg 3 ms_stB [Some (key_of ms_app); Some (key_of ms_libA)] (lit "app") true 0 false = MDone true ms_stApp [].
Proof. vm_compute. reflexivity. Qed.
