(* List lemmas, the sort by descending depth and the once-per-key filters of the command line, for
   Proofs/BuildOrder.v. *)
From Coq Require Import Lia List Sorted Permutation.
From Eupsv Require Import Base.Base Base.BaseLemmas Model.Graph Model.BuildOrder Proofs.GraphLib Proofs.GraphListing.
Import ListNotations.

Lemma filter_map_split_mid {A B} (f : B -> bool) (g : A -> B) : forall L M1 p M2,
  filter f (map g L) = M1 ++ p :: M2 ->
  exists L1 x L2, L = L1 ++ x :: L2 /\ g x = p /\ filter f (map g L1) = M1.
Proof.
  induction L as [|a L IH]; intros M1 p M2 H; simpl in H.
  - destruct M1; discriminate.
  - destruct (f (g a)) eqn:E.
    + destruct M1 as [|b M1]; simpl in H.
      * inversion H; subst. exists [], a, L. auto.
      * inversion H as [[Hb Hr]]. destruct (IH _ _ _ Hr) as [L1 [x [L2 [-> [Ex E1]]]]].
        exists (a :: L1), x, L2. simpl. rewrite E, E1. auto.
    + destruct (IH _ _ _ H) as [L1 [x [L2 [-> [Ex E1]]]]]. exists (a :: L1), x, L2. simpl. rewrite E. auto.
Qed.

Lemma nodup_map_inj_on {A B} (f : A -> B) : forall l,
  NoDup l -> (forall a b, In a l -> In b l -> f a = f b -> a = b) -> NoDup (map f l).
Proof.
  induction l as [|x l IH]; simpl; intros Hn Hi; [constructor|].
  inversion Hn as [|? ? Hx Hl]. subst. constructor.
  - intros I. apply in_map_iff in I as [y [E Iy]]. apply Hx.
    rewrite (Hi x y (or_introl eq_refl) (or_intror Iy) (eq_sym E)). exact Iy.
  - apply IH; [exact Hl|]. intros a b Ia Ib. apply Hi; right; assumption.
Qed.

Lemma sorted_mid {A} (R : A -> A -> Prop) : forall l1 x l2,
  StronglySorted R (l1 ++ x :: l2) -> Forall (R x) l2.
Proof.
  induction l1 as [|y l1 IH]; simpl; intros x l2 H; inversion H; subst; auto.
Qed.

Section Perm.
  Context {A : Type}.
  Variable cmp : A -> A -> option comparison.

  Lemma pinsert_perm x : forall l r, pinsert cmp x l = Ok r -> Permutation r (x :: l).
  Proof.
    induction l as [|y l IH]; intros r; cbn [pinsert].
    - intros [= <-]. apply Permutation_refl.
    - destruct (cmp x y) as [[| |]|]; try discriminate; try (intros [= <-]; apply Permutation_refl).
      destruct (pinsert cmp x l) as [r'|]; [|discriminate]. intros [= <-].
      eapply Permutation_trans; [apply perm_skip, IH; reflexivity | apply perm_swap].
  Qed.

  Lemma psort_perm : forall l r, psort cmp l = Ok r -> Permutation r l.
  Proof.
    induction l as [|x l IH]; intros r; cbn [psort].
    - intros [= <-]. apply Permutation_refl.
    - destruct (psort cmp l) as [r0|]; [|discriminate]. intros Q.
      eapply Permutation_trans; [apply (pinsert_perm x _ _ Q) | apply perm_skip, IH; reflexivity].
  Qed.
End Perm.

Definition depth_ge (a b : entry) : Prop := edepth b <= edepth a.

Lemma by_depth_psort l : psort depth_desc_cmp l = Ok (by_depth l).
Proof.
  unfold by_depth. destruct (psort_total depth_desc_cmp (fun a b => ltac:(discriminate)) l) as [r [E _]]. rewrite E. reflexivity.
Qed.

Lemma by_depth_perm l : Permutation (by_depth l) l.
Proof. apply (psort_perm depth_desc_cmp), by_depth_psort. Qed.

Lemma by_depth_In l x : In x (by_depth l) <-> In x l.
Proof.
  split; apply Permutation_in; [apply by_depth_perm | apply Permutation_sym, by_depth_perm].
Qed.

Lemma by_depth_sorted l : StronglySorted depth_ge (by_depth l).
Proof.
  apply (psort_sorted depth_desc_cmp depth_ge) with (l := l); [| | | |apply by_depth_psort]; unfold depth_ge.
  - discriminate.
  - intros x y z. lia.
  - intros x y [= E]. apply Nat.compare_gt_iff in E. lia.
  - intros x y c [= <-] Hc. destruct (Nat.compare (edepth y) (edepth x)) eqn:E;
      [apply Nat.compare_eq in E; lia | apply Nat.compare_lt_iff in E; lia | congruence].
Qed.

Lemma by_depth_before l l1 x l2 z : by_depth l = l1 ++ x :: l2 -> In z l -> edepth x < edepth z -> In z l1.
Proof.
  intros El Iz Hlt. apply by_depth_In in Iz. rewrite El in Iz. apply in_app_iff in Iz as [I | [<- | I]]; [exact I | lia |].
  pose proof (by_depth_sorted l) as Hs. rewrite El in Hs. apply sorted_mid in Hs.
  rewrite Forall_forall in Hs. specialize (Hs z I). unfold depth_ge in Hs. lia.
Qed.

(* what is printed once per key: [first_of_name] (the name, as pinned) and [first_of_product] (name and
   version, repaired) of Model/BuildOrder.v are both this filter.  (The mem_str of Model/BuildOrder.v has the
   body of the one in Base/Base.v: mem_str_In of Base/BaseLemmas.v applies to it by conversion.) *)
Section FirstBy.
  Context {K : Type} (key : entry -> K) (mem : K -> list K -> bool).
  Hypothesis mem_In : forall k l, mem k l = true <-> In k l.

  Fixpoint first_by (seen : list K) (l : list entry) : list entry :=
    match l with
    | [] => []
    | x :: r => if mem (key x) seen then first_by seen r else x :: first_by (key x :: seen) r
    end.

  Lemma first_by_sub : forall l seen x, In x (first_by seen l) -> In x l.
  Proof.
    induction l as [|y l IH]; simpl; intros seen x H; [exact H|].
    destruct (mem (key y) seen); [right; eapply IH; eauto|].
    destruct H as [-> | H]; [left; reflexivity | right; eapply IH; eauto].
  Qed.

  Lemma first_by_keys : forall l seen x, In x l ->
    In (key x) seen \/ exists x', In x' (first_by seen l) /\ key x' = key x.
  Proof.
    induction l as [|y l IH]; simpl; intros seen x H; [destruct H|].
    destruct (mem (key y) seen) eqn:E.
    - destruct H as [<- | H]; [left; apply mem_In, E | apply IH, H].
    - destruct H as [<- | H]; [right; exists y; split; [left; reflexivity | reflexivity]|].
      destruct (IH (key y :: seen) x H) as [[Q | Q] | [x' [I Q]]].
      + right. exists y. split; [left; reflexivity | exact Q].
      + left. exact Q.
      + right. exists x'. split; [right; exact I | exact Q].
  Qed.

  Lemma first_by_id : forall l seen,
    NoDup (map key l) -> (forall x, In x l -> ~ In (key x) seen) -> first_by seen l = l.
  Proof.
    induction l as [|y l IH]; simpl; intros seen Hn Hs; [reflexivity|].
    inversion Hn as [|? ? Hy Hl]. subst.
    destruct (mem (key y) seen) eqn:E.
    - apply mem_In in E. destruct (Hs y (or_introl eq_refl) E).
    - f_equal. apply IH; [exact Hl|]. intros x Ix [Q | Q].
      + apply Hy. rewrite Q. apply (in_map key), Ix.
      + apply (Hs x (or_intror Ix) Q).
  Qed.
End FirstBy.

Lemma first_of_name_sub : forall l seen x, In x (first_of_name seen l) -> In x l.
Proof. exact (first_by_sub (fun x => nname (enode x)) mem_str). Qed.

Lemma first_of_name_names : forall l seen x, In x l ->
  In (nname (enode x)) seen \/ exists x', In x' (first_of_name seen l) /\ nname (enode x') = nname (enode x).
Proof. exact (first_by_keys (fun x => nname (enode x)) mem_str mem_str_In). Qed.

Lemma first_of_name_id : forall l seen,
  NoDup (map (fun x => nname (enode x)) l) -> (forall x, In x l -> ~ In (nname (enode x)) seen) ->
  first_of_name seen l = l.
Proof. exact (first_by_id (fun x => nname (enode x)) mem_str mem_str_In). Qed.

Lemma mem_key_In x l : mem_key x l = true <-> In x l.
Proof.
  induction l as [|y l IH]; simpl; [split; [discriminate | intros []]|].
  destruct (ukey_eqb x y) eqn:E.
  - apply ukey_eqb_eq in E. subst. split; auto.
  - rewrite IH. split; [auto|]. intros [H | H]; [|exact H].
    subst. assert (X : ukey_eqb x x = true) by (apply ukey_eqb_eq; reflexivity). congruence.
Qed.

Lemma first_of_product_sub : forall l seen x, In x (first_of_product seen l) -> In x l.
Proof. exact (first_by_sub (fun x => ukey_of (enode x)) mem_key). Qed.

Lemma first_of_product_keys : forall l seen x, In x l ->
  In (ukey_of (enode x)) seen \/
  exists x', In x' (first_of_product seen l) /\ ukey_of (enode x') = ukey_of (enode x).
Proof. exact (first_by_keys (fun x => ukey_of (enode x)) mem_key mem_key_In). Qed.

Lemma first_of_product_id : forall l seen,
  NoDup (map (fun x => ukey_of (enode x)) l) -> (forall x, In x l -> ~ In (ukey_of (enode x)) seen) ->
  first_of_product seen l = l.
Proof. exact (first_by_id (fun x => ukey_of (enode x)) mem_key mem_key_In). Qed.
