(* Invariant (no tag points at an undeclared version) on the abstract transitions and carried to
   the files, and what the decisions of the commands consist of: the shape of a declaration's
   actions, and the local actions of every other command. *)
From Eupsv Require Import Base.Base Base.BaseLemmas Model.Db Proofs.DbLib Proofs.Db Proofs.DbSim.

Definition no_dangling (a : adb) : Prop :=
  forall s n t f v, a_tag a s n t f = Some v -> a_decl a s n v f <> None.

Lemma no_dangling_aeq a b : aeq a b -> no_dangling a -> no_dangling b.
Proof.
  intros [_ [Hd Ht]] H s n t f v Hv. rewrite <- Hd. apply (H s n t f v). rewrite Ht. exact Hv.
Qed.

(* a tag assignment is justified when the version it names is declared at that moment *)
Definition act_ok (a : adb) (x : aact) : Prop :=
  match x with
  | ASetTag s n t f v => a_decl a s n v f <> None
  | _ => True
  end.

Fixpoint acts_ok (a : adb) (xs : list aact) : Prop :=
  match xs with
  | [] => True
  | x :: r => act_ok a x /\ acts_ok (aapply x a) r
  end.

Lemma act_ok_aeq a b x : aeq a b -> act_ok a x -> act_ok b x.
Proof. intros [_ [H _]] K. destruct x; cbn in *; auto. rewrite <- H. exact K. Qed.

Lemma acts_ok_aeq xs : forall a b, aeq a b -> acts_ok a xs -> acts_ok b xs.
Proof.
  induction xs as [|x xs IH]; intros a b E H; [exact I|]. cbn [acts_ok] in *. destruct H as [H1 H2]. split.
  - eapply act_ok_aeq; eassumption.
  - eapply IH; [|exact H2]. apply aapply_aeq. exact E.
Qed.

Lemma acts_ok_app a xs ys : acts_ok a (xs ++ ys) <-> acts_ok a xs /\ acts_ok (aapply_all xs a) ys.
Proof.
  revert a. induction xs as [|x xs IH]; intro a; cbn [app acts_ok].
  - cbn. tauto.
  - rewrite IH, aapply_all_cons. tauto.
Qed.

Definition not_settag (x : aact) : Prop := match x with ASetTag _ _ _ _ _ => False | _ => True end.

Lemma acts_ok_trivial xs : Forall not_settag xs -> forall a, acts_ok a xs.
Proof.
  induction 1 as [|x xs Hx _ IH]; intro a; cbn; [exact I|]. split; [|apply IH].
  destruct x; cbn in *; auto.
Qed.

Lemma dkey_eqb_parts s n v f s' n' v' f' :
  dkey_eqb (s, n, v, f) (s', n', v', f') = str_eqb s s' && str_eqb n n' && str_eqb v v' && str_eqb f f'.
Proof. reflexivity. Qed.

Lemma aapply_no_dangling x a : no_dangling a -> act_ok a x -> no_dangling (aapply x a).
Proof.
  intros H Hok s n t f v Htag. rewrite a_tag_aapply in Htag. rewrite a_decl_aapply.
  destruct x as [s' n' v' f' r|s' n' v' f'|s' n' t' f' v'|s' n' t' f'].
  - destruct (mem_str s' (apath a) && dkey_eqb (s, n, v, f) (s', n', v', f')); [discriminate|].
    apply (H s n t f v Htag).
  - destruct (is_some (a_decl a s' n' v' f')) eqn:Ed; cbn [andb] in *; [|apply (H s n t f v Htag)].
    destruct (tag_points a s' n' f' v' (s, n, t, f)) eqn:Ep; [discriminate|].
    destruct (dkey_eqb (s, n, v, f) (s', n', v', f')) eqn:Ek; [|apply (H s n t f v Htag)].
    apply dkey_eqb_eq in Ek. inversion Ek. subst. exfalso.
    unfold tag_points in Ep. rewrite !str_eqb_refl, Htag in Ep. cbn in Ep. rewrite str_eqb_refl in Ep. discriminate.
  - cbn in Hok.
    destruct (mem_str s' (apath a) && dkey_eqb (s, n, t, f) (s', n', t', f')) eqn:E.
    + apply andb_true_iff in E. destruct E as [_ E]. apply dkey_eqb_eq in E. inversion E. subst.
      inversion Htag. subst. exact Hok.
    + apply (H s n t f v Htag).
  - destruct (dkey_eqb (s, n, t, f) (s', n', t', f')); [discriminate|]. apply (H s n t f v Htag).
Qed.

Lemma aapply_all_no_dangling xs : forall a, no_dangling a -> acts_ok a xs -> no_dangling (aapply_all xs a).
Proof.
  induction xs as [|x xs IH]; intros a H Hok; [exact H|].
  rewrite aapply_all_cons. destruct Hok as [H1 H2]. apply IH; [|exact H2]. apply aapply_no_dangling; assumption.
Qed.

Lemma find_exact_some a roots n v f s r :
  find_exact a roots n v f = Some (s, r) -> In s roots /\ a_decl a s n v f = Some r.
Proof.
  induction roots as [|s0 rs IH]; cbn; [discriminate|].
  destruct (a_decl a s0 n v f) as [x|] eqn:E.
  - intro H. inversion H. subst. auto.
  - intro H. destruct (IH H). auto.
Qed.

Lemma find_exact_none a roots n v f s :
  find_exact a roots n v f = None -> In s roots -> a_decl a s n v f = None.
Proof.
  induction roots as [|s0 rs IH]; cbn; [tauto|].
  destruct (a_decl a s0 n v f) as [x|] eqn:E; [discriminate|].
  intros H [->|Hin]; auto.
Qed.

(* eupsDirs = [eupsPathDirForRead, eupsPathDir] with both the target *)
Lemma find_exact_twice a tg n v f s r :
  find_exact a [tg; tg] n v f = Some (s, r) -> s = tg /\ a_decl a tg n v f = Some r.
Proof. intro E. apply find_exact_some in E. destruct E as [[<-|[<-|[]]] E]; auto. Qed.

Lemma declare_plan_target a o n v dir table t pl :
  declare_plan a o n v dir table t = Ok pl ->
  mem_str (dp_target pl) (apath a) = true /\
  dp_target pl = match o_stack o with Some s => s | None => hd generic (apath a) end.
Proof.
  intro H. destruct (declare_plan_ok _ _ _ _ _ _ _ _ H) as [d [tg [_ [Ht [Hm ->]]]]]. cbn [dp_target].
  split; [exact Hm|]. destruct (o_stack o); [|destruct (apath a)]; inversion Ht; reflexivity.
Qed.

Definition is_tag_act (x : aact) : Prop :=
  match x with ASetTag _ _ _ _ _ | ADelTag _ _ _ _ => True | _ => False end.

Lemma tag_acts_keep_decls xs : Forall is_tag_act xs ->
  forall a s n v f, a_decl (aapply_all xs a) s n v f = a_decl a s n v f.
Proof.
  induction 1 as [|x xs Hx _ IH]; intros a s n v f; [reflexivity|].
  rewrite aapply_all_cons, IH, a_decl_aapply. destruct x; cbn in Hx; try contradiction; reflexivity.
Qed.

Lemma deltags_Forall (P : aact -> Prop) rs n x f :
  (forall r, P (ADelTag r n x f)) -> Forall P (map (fun r => ADelTag r n x f) rs).
Proof. intro H. apply Forall_forall. intros y Hy. apply in_map_iff in Hy. destruct Hy as [r [<- _]]. apply H. Qed.

(* both orders of the tag move at once: the record (and the tag it carries), removals of the tag,
   ONE assignment in the target stack to the declared version, removals of the tag.  The pinned order
   has no removal after the assignment, the repaired order none before it *)
Lemma declare_finish_shape p a f n v pl acts :
  declare_finish p a f n v pl = Ok acts ->
  match dp_tag pl with
  | None => acts = declare_acts1 f n v pl
  | Some x => exists rs rs',
      acts = declare_acts1 f n v pl ++ map (fun r => ADelTag r n x f) rs ++
             (ASetTag (dp_target pl) n x f v :: map (fun r => ADelTag r n x f) rs') /\
      a_decl (aapply_all (declare_acts1 f n v pl) a) (dp_target pl) n v f <> None
  end.
Proof.
  unfold declare_finish. destruct p.
  - unfold declare_finish_old. destruct (dp_tag pl) as [x|]; [|intros [= <-]; reflexivity].
    cbv zeta. destruct (find_exact _ _ n v f) as [[s' r]|] eqn:Ef; [|discriminate].
    intros [= <-]. destruct (find_exact_twice _ _ _ _ _ _ _ Ef) as [-> Hd].
    rewrite (tag_acts_keep_decls _ (deltags_Forall _ _ _ _ _ (fun _ => I))) in Hd.
    eexists. exists []. split; [reflexivity|congruence].
  - unfold declare_finish_new. destruct (dp_tag pl) as [x|]; [|intros [= <-]; reflexivity].
    cbv zeta. destruct (find_exact _ _ n v f) as [[s' r]|] eqn:Ef; [|discriminate].
    intros [= <-]. destruct (find_exact_twice _ _ _ _ _ _ _ Ef) as [-> Hd].
    exists []. eexists. split; [reflexivity|congruence].
Qed.

Lemma declare_acts1_ok a f n v pl : mem_str (dp_target pl) (apath a) = true -> acts_ok a (declare_acts1 f n v pl).
Proof.
  intro Hm. unfold declare_acts1. destruct (dp_write pl); [|exact I]. cbn [acts_ok act_ok]. split; [exact I|].
  destruct (dp_tag pl); cbn [acts_ok act_ok]; [|exact I]. split; [|exact I].
  rewrite a_decl_aapply, Hm, dkey_eqb_refl. discriminate.
Qed.

Lemma declare_finish_ok p a f n v pl acts :
  mem_str (dp_target pl) (apath a) = true ->
  declare_finish p a f n v pl = Ok acts -> acts_ok a acts.
Proof.
  intros Hm H. apply declare_finish_shape in H.
  pose proof (declare_acts1_ok a f n v pl Hm) as H1.
  destruct (dp_tag pl) as [x|]; [|subst acts; exact H1].
  destruct H as [rs [rs' [-> Hd]]].
  apply acts_ok_app. split; [exact H1|]. apply acts_ok_app. split.
  - apply acts_ok_trivial. apply deltags_Forall. exact (fun _ => I).
  - cbn [acts_ok act_ok]. split.
    + rewrite (tag_acts_keep_decls _ (deltags_Forall _ _ _ _ _ (fun _ => I))). exact Hd.
    + apply acts_ok_trivial. apply deltags_Forall. exact (fun _ => I).
Qed.

Lemma assign_acts_ok a o t n v acts : assign_acts a o t n v = Ok acts ->
  exists s r, find_exact a (roots_of a (o_stack o)) n v (o_flavor o) = Some (s, r) /\
    acts = [ASetTag s n t (o_flavor o) v].
Proof.
  unfold assign_acts. destruct (find_exact a _ n v _) as [[s r]|]; [|discriminate].
  intro H. inversion H. eauto.
Qed.

Lemma unassign_acts_cases a o t n vo acts : unassign_acts a o t n vo = Ok acts ->
  acts = [] \/ o_noaction o = false /\ exists s, acts = [ADelTag s n t (o_flavor o)].
Proof.
  set (P := acts = [] \/ o_noaction o = false /\ exists s, acts = [ADelTag s n t (o_flavor o)]).
  assert (L : forall s, (if o_noaction o then Ok [] else Ok [ADelTag s n t (o_flavor o)]) = Ok acts -> P).
  { intro s. unfold P. destruct (o_noaction o); intros [= H]; eauto. }
  assert (Q : Ok [] = Ok acts -> P) by (intros [= H]; left; congruence).
  unfold unassign_acts. destruct vo as [v|].
  - destruct (find_exact a _ n v _) as [[s r]|]; [|discriminate]. destruct (opt_str_eqb _ v); [apply L|exact Q].
  - destruct (o_stack o) as [s|]; [apply L|].
    destruct (find_tagged a (apath a) n t _) as [[s v]|]; [apply L|].
    destruct (find_tagged a (apath a) n current _); [exact Q|discriminate].
Qed.

Lemma unassign_acts_shape a o t n vo acts :
  unassign_acts a o t n vo = Ok acts -> acts = [] \/ exists s, acts = [ADelTag s n t (o_flavor o)].
Proof. intro H. destruct (unassign_acts_cases _ _ _ _ _ _ H) as [E|[_ E]]; auto. Qed.

Lemma undeclare_acts_ok a o n vo acts : undeclare_acts a o n vo = Ok acts ->
  exists s v, undeclare_target a o n vo = Ok (s, v) /\
    acts = if o_noaction o then [] else [ADelDecl s n v (o_flavor o)].
Proof.
  unfold undeclare_acts. destruct (undeclare_target a o n vo) as [[s v]|]; [|discriminate].
  intro H. exists s, v. split; [reflexivity|]. destruct (o_noaction o); inversion H; reflexivity.
Qed.

Lemma remove_is_undeclare a o n v :
  remove_acts a o n v = undeclare_acts a (mkOpts (o_flavor o) None (o_force o) (o_noaction o)) n (Some v).
Proof.
  unfold remove_acts. destruct (find_exact a (apath a) n v (o_flavor o)) eqn:E; [reflexivity|].
  unfold undeclare_acts, undeclare_target. cbn [o_flavor o_stack roots_of]. rewrite E. reflexivity.
Qed.

(* what the commands other than declare do: nothing, or one tag assigned to a declared version, or a
   tag removed, a record removed, or both in that order -- in one stack, for the product and flavor of
   the command; and nothing at all in a dry run (Eups.assignTag apart, which never looks at the flag) *)
Inductive local_acts (a : adb) (s n f : str) : list aact -> Prop :=
| la_none : local_acts a s n f []
| la_set t v : a_decl a s n v f <> None -> local_acts a s n f [ASetTag s n t f v]
| la_deltag t : local_acts a s n f [ADelTag s n t f]
| la_deldecl v : local_acts a s n f [ADelDecl s n v f]
| la_both t v : local_acts a s n f [ADelTag s n t f; ADelDecl s n v f].

Definition other_than_declare (o : op) : Prop :=
  match o with Declare _ _ _ _ _ _ => False | _ => True end.

Lemma decide_local p a o acts : other_than_declare o -> decide p a o = Ok acts ->
  (exists s, local_acts a s (op_name o) (o_flavor (op_opts o)) acts) /\
  (o_noaction (op_opts o) = true -> acts = [] \/ exists o' t n v, o = AssignTag o' t n v).
Proof.
  pose (Q := fun (o : opts) n => (exists s, local_acts a s n (o_flavor o) acts) /\ (o_noaction o = true -> acts = [])).
  assert (U : forall o t n vo, unassign_acts a o t n vo = Ok acts -> Q o n).
  { intros o' t n vo H. destruct (unassign_acts_cases _ _ _ _ _ _ H) as [->|[Hn [s ->]]].
    - split; [exists generic; constructor|reflexivity].
    - split; [exists s; constructor|congruence]. }
  assert (D : forall o n vo, undeclare_acts a o n vo = Ok acts -> Q o n).
  { intros o' n vo H. destruct (undeclare_acts_ok _ _ _ _ _ H) as [s [v [_ ->]]].
    destruct (o_noaction o') eqn:En; (split; [exists s; constructor|congruence]). }
  destruct o as [o n v dir table t|o t n v|o t n vo|o n vo|o n vo t both|o n v];
    cbn [decide other_than_declare op_name op_opts]; intros Hd H; [contradiction|..].
  - destruct (assign_acts_ok _ _ _ _ _ _ H) as [s [r [Hr ->]]]. split; [|eauto 6].
    exists s. constructor. rewrite (proj2 (find_exact_some _ _ _ _ _ _ _ Hr)). discriminate.
  - destruct (U _ _ _ _ H). auto.
  - destruct (D _ _ _ H). auto.
  - unfold undeclare_tag_acts in H. destruct both; cbn [negb] in H.
    + destruct (undeclare_target a o n _) as [[s v]|]; [|discriminate].
      destruct (o_noaction o) eqn:En; inversion H.
      * split; [exists s; constructor|auto].
      * split; [|congruence]. exists s. destruct (opt_str_eqb _ _); constructor.
    + destruct (U _ _ _ _ H). auto.
  - rewrite remove_is_undeclare in H. destruct (D _ _ _ H). auto.
Qed.

Lemma local_acts_ok a s n f acts : local_acts a s n f acts -> acts_ok a acts.
Proof. destruct 1; cbn; auto. Qed.

Lemma decide_acts_ok p a o acts : decide p a o = Ok acts -> acts_ok a acts.
Proof.
  intro H. assert (L : other_than_declare o -> acts_ok a acts).
  { intro Ho. destruct (decide_local _ _ _ _ Ho H) as [[s L] _]. apply (local_acts_ok _ _ _ _ _ L). }
  destruct o as [o n v dir table t| | | | |]; try exact (L I). cbn [decide] in H. unfold declare_acts in H.
  destruct (declare_plan a o n v dir table t) as [pl|e] eqn:Ep; [|discriminate].
  destruct (o_noaction o); [inversion H; exact I|].
  apply (declare_finish_ok _ _ _ _ _ _ _ (proj1 (declare_plan_target _ _ _ _ _ _ _ _ Ep)) H).
Qed.

Lemma astep_total_no_dangling p a o : no_dangling a -> no_dangling (astep_total p a o).
Proof.
  intro H. unfold astep_total, astep_gen. destruct (decide p a o) as [acts|e] eqn:E; [|exact H].
  apply aapply_all_no_dangling; [exact H|]. apply (decide_acts_ok _ _ _ _ E).
Qed.

Lemma step_total_no_dangling p d o : no_dangling (view d) -> no_dangling (view (step_total p d o)).
Proof.
  intro H. apply (no_dangling_aeq _ _ (aeq_sym _ _ (step_total_refines p d o))).
  apply astep_total_no_dangling. exact H.
Qed.

Lemma db_decl_empty path s n v f : db_decl (empty_db path) s n v f = None.
Proof. exact (rec_at_empty vfiles path s n v f eq_refl). Qed.

Lemma db_tag_empty path s n t f : db_tag (empty_db path) s n t f = None.
Proof. exact (rec_at_empty cfiles path s n t f eq_refl). Qed.

Lemma no_dangling_empty path : no_dangling (view (empty_db path)).
Proof. intros s n t f v H. rewrite a_tag_view, db_tag_empty in H. discriminate. Qed.

Lemma run_no_dangling p ops : forall d, no_dangling (view d) -> no_dangling (view (run p d ops)).
Proof.
  unfold run. induction ops as [|o ops IH]; intros d H; cbn [fold_left]; [exact H|].
  apply IH. apply step_total_no_dangling. exact H.
Qed.
