(* Model/PathAlgScript.v (C12): a script splits at any point; an action whose value holds references acts as the
   action of the text they expand to when it runs *)
From Eupsv Require Import Base.Base Base.BaseLemmas Model.PathAlg Model.PathAlgScript Proofs.PathAlg.

Lemma script_env_app acts pre post e :
  script_env acts (pre ++ post) e = script_env acts post (script_env acts pre e).
Proof. revert e. induction pre as [|s r IH]; intro e; [reflexivity|]. cbn [app script_env]. apply IH. Qed.

Lemma run_script_app acts pre post e :
  run_script acts (pre ++ post) e = run_script acts pre e ++ run_script acts post (script_env acts pre e).
Proof.
  revert e. induction pre as [|s r IH]; intro e; [reflexivity|].
  cbn [app run_script script_env]. now rewrite IH.
Qed.

Lemma run_script_length acts steps e : length (run_script acts steps e) = length steps.
Proof. revert e. induction steps as [|s r IH]; intro e; [reflexivity|]. cbn [run_script length]. now rewrite IH. Qed.

Lemma run_script_nth acts pre s post e :
  nth_error (run_script acts (pre ++ s :: post) e) (length pre)
  = Some (exec_sstep acts s (script_env acts pre e)).
Proof.
  rewrite run_script_app. rewrite nth_error_app2 by (rewrite run_script_length; apply le_n).
  rewrite run_script_length, PeanoNat.Nat.sub_diag. reflexivity.
Qed.

Lemma script_env_inv (P : env -> Prop) acts steps :
  (forall s e, In s steps -> P e -> P (env_after acts s e)) ->
  forall e, P e -> P (script_env acts steps e).
Proof.
  induction steps as [|s r IH]; intros Hstep e HP; [exact HP|].
  cbn [script_env]. apply IH.
  - intros s0 e0 Hin. apply Hstep. now right.
  - apply Hstep; [now left|exact HP].
Qed.

Lemma exec_sstep_prepend acts i fwd ap var v d e e' :
  nth_error acts i = Some (PPrepend ap var v d) -> env_prepend ap fwd var v d e = Ok (Some e') ->
  exec_sstep acts (SExec i fwd) e = Ok e'.
Proof. intros Hi H. cbn [exec_sstep]. rewrite Hi. unfold exec_pact. now rewrite H. Qed.

Lemma env_prepend_expanded ap fwd var v x d e :
  mem_ascii d v = false -> expand_var e v = Ok (Some x) -> wf_elem d x = true ->
  env_prepend ap fwd var v d e = env_prepend ap fwd var x d e.
Proof.
  intros Hdv Hx Hwf. pose proof (wf_elem_good d x Hwf) as [_ [Hdx Hnx]].
  unfold env_prepend.
  rewrite (strip_lead_none d v Hdv), (strip_trail_none d v Hdv).
  rewrite (strip_lead_none d x Hdx), (strip_trail_none d x Hdx).
  rewrite Hx, (expand_nodollar e x Hnx). now destruct fwd.
Qed.
