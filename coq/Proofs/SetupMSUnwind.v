(* The unsetup traversal of Model/SetupMS.v reaches every declaration the environment records below the requested
   product (C02).  A name is recorded with one declaration, the one of the stack its SETUP_ value names (rec_);
   if every recorded declaration reachable from [top] - other than [top] itself - is named by a dependency line
   of the table of another recorded reachable declaration (PJ), and those tables have no -j line (NJ), then after
   unsetup top  (no --max-depth, no --just) no reachable name is recorded; and every alias that was accounted
   for by a recorded reachable declaration (alias_acc) is gone.

   The argument: the unsetup of a recorded x first removes its record, which leaves the products its table
   names justified only by the lines still to be processed; each line either finds its product unrecorded
   (nothing happens) or unsets it, with everything justified through it, recursively.  The records only shrink
   (PJ_transfer and AJ_transfer carry the two accountings across such a step).  At the end every recorded
   reachable name would have a recorded reachable parent, of higher rank, and [top], of highest rank, is not
   recorded. *)
From Eupsv Require Import Base.Base Base.BaseLemmas Model.PathAlg Proofs.PathAlg Model.Setup Model.SetupMS Proofs.SetupMSFrame
     Proofs.SetupMSInv Proofs.SetupMSOwn.
From Coq Require Import Lia.

Section Unwind.
Variable w : mworld.
Variable cfg : config.
Variable dl : str -> ascii.
Variable rank : str -> nat.
Variable top : str.
Variable Z : str -> Prop.
Hypothesis H : WF2 w dl rank.
Hypothesis Hdepth : c_max_depth cfg = None.

Notation has_name := (has_name w).
Notation known := (known w).
Notation nodollar_paths := (nodollar_paths w).

Definition reach (n : str) : Prop := touches w None top n.
Definition rec_ (e : amap str) (n : str) (q : mproduct) : Prop := mfind_setup_product w (c_flavor cfg) e n = Some q.

Definition NJ (e : amap str) : Prop :=
  forall n q o x j, reach n -> rec_ e n q -> In (ASetup o x j) (mp_actions q) -> j = false.
Definition PJ (A : str -> Prop) (e : amap str) : Prop :=
  forall k q, reach k -> rec_ e k q ->
    A k \/ exists n qn o j, reach n /\ rec_ e n qn /\ In (ASetup o k j) (mp_actions qn).
Definition shrinks (e e' : amap str) : Prop := forall k q, rec_ e' k q -> rec_ e k q.
Notation AJ := (alias_acc w cfg reach Z).

Definition targets (acts : list action) (k : str) : Prop := exists o j, In (ASetup o k j) acts.
Definition aliases_of (acts : list action) (k : str) : Prop := exists v, In (AAlias k v) acts.

Lemma shrinks_refl e : shrinks e e.
Proof. intros k q R. exact R. Qed.
Lemma shrinks_trans e1 e2 e3 : shrinks e1 e2 -> shrinks e2 e3 -> shrinks e1 e3.
Proof. intros A B k q R. apply A. now apply B. Qed.
Lemma NJ_shrinks e e' : shrinks e e' -> NJ e -> NJ e'.
Proof. intros S N n q o x j Rn Rq Hin. exact (N n q o x j Rn (S n q Rq) Hin). Qed.

Lemma reach_step n q o x j : reach n -> has_name n q -> In (ASetup o x j) (mp_actions q) -> reach x.
Proof.
  intros R Hq Hin. apply (touches_unbounded_trans w top n x R). apply (t_dep w None n x x I); [|constructor].
  exists q, o, j. split; assumption.
Qed.

Lemma cut_off_plain depth : cut_off cfg false depth = false.
Proof. unfold cut_off. now rewrite Hdepth. Qed.

Definition unwind_post (A B : str -> Prop) (st : state) (x : str) (r : mresult) : Prop :=
  match r with
  | MDone ok st' _ =>
      shrinks (s_env st) (s_env st') /\ nodollar_paths (s_env st') /\
      mfind_setup_product w (c_flavor cfg) (s_env st') x = None /\ PJ A (s_env st') /\ AJ B st' /\
      (ok = false -> st' = st)
  | MRaise _ _ => False
  | _ => True
  end.

Definition unwind_fn (rec : msetup_fn) : Prop :=
  forall (A B : str -> Prop) st ds x depth,
    reach x -> nodollar_paths (s_env st) -> NJ (s_env st) -> PJ A (s_env st) -> AJ B st ->
    unwind_post A B st x (rec st ds x false depth false).

Definition run_post (A B : str -> Prop) (st : state) (r : mresult) : Prop :=
  match r with
  | MDone _ st' _ => shrinks (s_env st) (s_env st') /\ nodollar_paths (s_env st') /\ PJ A (s_env st') /\ AJ B st'
  | MRaise _ _ => False
  | _ => True
  end.

(* carrying PJ from e to e' where the records only shrink: a name that is still recorded keeps its justification
   if what justified it is allowed afterwards, and a recorded parent either stays recorded or is made up for *)
Lemma PJ_transfer (A A' : str -> Prop) e e' :
  shrinks e e' ->
  (forall k, reach k -> (exists qk, rec_ e' k qk) ->
     (A k -> A' k) /\
     forall n qn o j, reach n -> rec_ e n qn -> In (ASetup o k j) (mp_actions qn) -> A' k \/ rec_ e' n qn) ->
  PJ A e -> PJ A' e'.
Proof.
  intros S T P k qk Rk Rq. destruct (T k Rk (ex_intro _ qk Rq)) as [TA TW].
  destruct (P k qk Rk (S k qk Rq)) as [Ak|[n [qn [o [j [Rn [Rqn Hin]]]]]]]; [left; now apply TA|].
  destruct (TW n qn o j Rn Rqn Hin) as [A'k|R']; [now left|right]. exists n, qn, o, j. split; [exact Rn|split; [exact R'|exact Hin]].
Qed.

Lemma AJ_transfer (B B' : str -> Prop) st st' :
  (forall k v, Z k -> alookup k (s_aliases st') = Some v ->
     (exists v0, alookup k (s_aliases st) = Some v0) /\ (B k -> B' k) /\
     forall n q v', reach n -> rec_ (s_env st) n q -> In (AAlias k v') (mp_actions q) -> B' k \/ rec_ (s_env st') n q) ->
  AJ B st -> AJ B' st'.
Proof.
  intros T HA k v Zk E O. destruct (T k v Zk E) as [[v0 E0] [TB TW]].
  destruct (HA k v0 Zk E0 O) as [Bk|[n [q [v' [Rn [Rq Hin]]]]]]; [left; now apply TB|].
  destruct (TW n q v' Rn Rq Hin) as [B'k|R']; [now left|right]. exists n, q, v'. split; [exact Rn|split; [exact R'|exact Hin]].
Qed.

Lemma run_unwind (rec : msetup_fn) (A B : str -> Prop) x q depth :
  unwind_fn rec -> has_name x q -> reach x ->
  (forall o y j, In (ASetup o y j) (mp_actions q) -> j = false) ->
  forall st ds, nodollar_paths (s_env st) -> NJ (s_env st) ->
    PJ (fun k => A k \/ targets (mp_actions q) k) (s_env st) -> AJ (fun k => B k \/ aliases_of (mp_actions q) k) st ->
    run_post A B st (mrun_actions cfg rec false depth false (mp_actions q) st ds).
Proof.
  intros HU Hq Rx Hj st0 ds0 Hnd0 HN0 HP0 HA0.
  apply (run_actions_rule cfg rec false depth false (mp_actions q)
           (fun todo st => shrinks (s_env st0) (s_env st) /\ nodollar_paths (s_env st) /\
                           PJ (fun k => A k \/ targets todo k) (s_env st) /\
                           AJ (fun k => B k \/ aliases_of todo k) st)
           (run_post A B st0)); [| | |apply incl_refl|split; [apply shrinks_refl|split; [assumption|split; assumption]]].
  - (* the end of the table: no target, no alias is pending *)
    intros st ds [S [D [P HA]]]. split; [exact S|split; [exact D|split]].
    + revert P. apply PJ_transfer; [apply shrinks_refl|].
      intros k _ _. split; [intros [Ak|[o [j []]]]; exact Ak|intros; now right].
    + revert HA. apply AJ_transfer.
      intros k v _ E. split; [now exists v|split; [intros [Bk|[v0 []]]; exact Bk|intros; now right]].
  - (* an action that is not a dependency: the records stay; an alias may go *)
    intros a todo st ds Ha Hns [S [D [P HA]]].
    destruct (simple_rel w dl rank H (eq x) x q false a st eq_refl Hq Ha Hns D) as [st1 [E [_ [D1 [Res Al]]]]].
    rewrite E.
    assert (Same : forall n qn, rec_ (s_env st1) n qn <-> rec_ (s_env st) n qn).
    { intros n qn. unfold rec_, mfind_setup_product. now rewrite (Res _ (res_reserved n _ (res_setup n))). }
    split; [intros k qk R; apply S; now apply Same|]. split; [assumption|]. split.
    + revert P. apply PJ_transfer; [intros k qk R; now apply Same|].
      intros k _ _. split; [|intros n qn o j _ R _; right; now apply Same].
      intros [Ak|[o [j [Eq|Hin]]]]; [now left|now elim (Hns o k j)|right; now exists o, j].
    + revert HA. apply AJ_transfer. intros k v _ E1.
      destruct Al as [[Hna EA]|[k0 [v0 [-> [EE EA]]]]]; rewrite EA in E1.
      * split; [now exists v|split; [|intros n qn v' _ R _; right; now apply Same]].
        intros [Bk|[v1 [Eq|Hin]]]; [now left|now elim (Hna k v1)|right; now exists v1].
      * destruct (str_eq_dec k k0) as [->|Nk]; [rewrite alookup_aremove_same in E1; discriminate|].
        rewrite alookup_aremove_other in E1 by assumption.
        split; [now exists v|split; [|intros n qn v' _ R _; right; now apply Same]].
        intros [Bk|[v1 [Eq|Hin]]]; [now left|injection Eq as Ek _; now elim Nk|right; now exists v1].
  - (* a dependency line: the call leaves its target unrecorded, so the line has done its part *)
    intros o y j todo st ds Ha [S [D [P HA]]]. pose proof (Hj o y j Ha) as ->. rewrite cut_off_plain.
    pose proof (HU _ _ st ds y (Datatypes.S depth) (reach_step x q o y false Rx Hq Ha) D (NJ_shrinks _ _ S HN0) P HA) as C.
    destruct (rec st ds y false (Datatypes.S depth) false) as [ok st' ds'|st' ds'| |];
      cbn [unwind_post andb] in *; try exact I; try contradiction.
    destruct C as [S1 [D1 [Ny [P1 [A1 Eqst]]]]].
    assert (Next : shrinks (s_env st0) (s_env st') /\ nodollar_paths (s_env st') /\
                   PJ (fun k => A k \/ targets todo k) (s_env st') /\ AJ (fun k => B k \/ aliases_of todo k) st').
    { split; [exact (shrinks_trans _ _ _ S S1)|]. split; [assumption|]. split.
      - revert P1. apply PJ_transfer; [apply shrinks_refl|]. intros k _ [qk Rq]. split; [|intros; now right].
        intros [Ak|[o0 [j0 [Eq|Hin]]]]; [now left| |right; now exists o0, j0].
        injection Eq as _ <- _. unfold rec_ in Rq. rewrite Ny in Rq. discriminate.
      - revert A1. apply AJ_transfer. intros k v _ E. split; [now exists v|split; [|intros; now right]].
        intros [Bk|[v1 [Eq|Hin]]]; [now left|discriminate|right; now exists v1]. }
    destruct ok; [exact Next|]. now rewrite <- (Eqst eq_refl).
Qed.

Lemma unwind_step (rec : msetup_fn) : unwind_fn rec -> unwind_fn (msetup_step w cfg rec).
Proof.
  intros HU A B st ds x depth Rx Hnd HN HP HA. unfold msetup_step.
  destruct (mfind_setup_product w (c_flavor cfg) (s_env st) x) as [q|] eqn:Hs.
  2:{ cbn [unwind_post]. split; [apply shrinks_refl|]. split; [assumption|]. split; [assumption|]. auto. }
  pose proof (mfind_setup_product_spec w cfg _ _ _ Hs) as Hq. pose proof (known_has_name w x q Hq) as Kx.
  set (st1 := unset_product_vars st x).
  destruct (unset_vars_framed w dl (wf_base w dl rank H) (eq x) x st eq_refl Hnd) as [_ D1]. fold st1 in D1.
  assert (Nx : mfind_setup_product w (c_flavor cfg) (s_env st1) x = None).
  { apply find_none_when_unset. exact (unset_vars_gone x st _ (res_setup x)). }
  (* the record of another name stays: its variables are not those of x *)
  assert (Keep : forall n qn, n <> x -> (rec_ (s_env st1) n qn <-> rec_ (s_env st) n qn)).
  { intros n qn Nn.
    assert (E : known n -> mfind_setup_product w (c_flavor cfg) (s_env st1) n = mfind_setup_product w (c_flavor cfg) (s_env st) n).
    { intro Kn. unfold mfind_setup_product, st1.
      now rewrite (only_res_other w dl rank H x n _ _ _ Kn Kx Nn (unset_vars_only_res x st) (res_setup n)). }
    unfold rec_. split; intro R; [rewrite <- E|rewrite E]; try exact R;
      exact (known_has_name w n qn (mfind_setup_product_spec w cfg _ n qn R)). }
  assert (S1 : shrinks (s_env st) (s_env st1)).
  { intros k qk R. destruct (str_eq_dec k x) as [->|Nk]; [unfold rec_ in R; rewrite Nx in R; discriminate|now apply Keep]. }
  pose proof (run_unwind rec A B x q depth HU Hq Rx (fun o y j Hin => HN x q o y j Rx Hs Hin)
                st1 ds D1 (NJ_shrinks _ _ S1 HN)) as R.
  (* what the record of x justified, the lines of its table now do *)
  assert (P1 : PJ (fun k => A k \/ targets (mp_actions q) k) (s_env st1)).
  { revert HP. apply PJ_transfer; [exact S1|]. intros k _ _. split; [now left|].
    intros n qn o j Rn Rqn Hin. destruct (str_eq_dec n x) as [->|Nn]; [left; right|right; now apply Keep].
    unfold rec_ in Rqn. rewrite Hs in Rqn. injection Rqn as <-. now exists o, j. }
  assert (A1' : AJ (fun k => B k \/ aliases_of (mp_actions q) k) st1).
  { revert HA. apply AJ_transfer. intros k v _ E.
    split; [exists v; exact E|split; [now left|]].
    intros n qn v' Rn Rqn Hin. destruct (str_eq_dec n x) as [->|Nn]; [left; right|right; now apply Keep].
    unfold rec_ in Rqn. rewrite Hs in Rqn. injection Rqn as <-. now exists v'. }
  specialize (R P1 A1').
  destruct (mrun_actions cfg rec false depth false (mp_actions q) st1 ds) as [ok st' ds'|st' ds'| |] eqn:ER;
    cbn [run_post unwind_post] in *; try exact I; try contradiction.
  destruct R as [S' [D' [P' A']]].
  split; [exact (shrinks_trans _ _ _ S1 S')|]. split; [assumption|]. split.
  - destruct (mfind_setup_product w (c_flavor cfg) (s_env st') x) as [qx|] eqn:E; [|reflexivity].
    pose proof (S' x qx E) as E1. unfold rec_ in E1. rewrite Nx in E1. discriminate.
  - split; [assumption|]. split; [assumption|].
    intro Eok. rewrite (run_actions_done_true cfg _ _ _ _ _ _ _ _ _ _ ER) in Eok. discriminate.
Qed.

Theorem unwind_setup fuel : unwind_fn (msetup w cfg fuel).
Proof.
  induction fuel as [|fuel IH].
  - intros A B st ds x depth _ _ _ _ _. exact I.
  - cbn [msetup]. now apply unwind_step.
Qed.

(* unsetup top: nothing reachable stays recorded, no accounted alias stays defined *)
Theorem unwind_clears fuel st1 ds ok st2 ds' :
  nodollar_paths (s_env st1) -> NJ (s_env st1) -> PJ (eq top) (s_env st1) -> AJ (fun _ => False) st1 ->
  msetup w cfg fuel st1 ds top false 0 false = MDone ok st2 ds' ->
  (forall k, reach k -> mfind_setup_product w (c_flavor cfg) (s_env st2) k = None) /\
  (forall k v, Z k -> alookup k (s_aliases st2) = Some v -> ~ exists n, reach n /\ own_alias w n k) /\
  shrinks (s_env st1) (s_env st2).
Proof.
  intros Hnd HN HP HA E.
  assert (Rtop : reach top) by constructor.
  pose proof (unwind_setup fuel (eq top) (fun _ => False) st1 ds top 0 Rtop Hnd HN HP HA) as U.
  rewrite E in U. cbn [unwind_post] in U. destruct U as [S [D [Ntop [P [A _]]]]].
  (* by induction on how far the rank of k lies below that of top: a recorded k has a recorded parent, nearer to top *)
  assert (Clear : forall d k q, rank top - rank k <= d -> reach k -> rec_ (s_env st2) k q -> False).
  { induction d as [|d IH]; intros k q Hd Rk Rq.
    - destruct (touches_rank w dl rank H None top k Rk) as [->|Lt]; [|lia].
      unfold rec_ in Rq. rewrite Ntop in Rq. discriminate.
    - destruct (P k q Rk Rq) as [<-|[n [qn [o [j [Rn [Rqn Hin]]]]]]].
      + unfold rec_ in Rq. rewrite Ntop in Rq. discriminate.
      + assert (Lt : rank k < rank n).
        { apply (wf_rank w dl rank H n k). exists qn, o, j. split; [|assumption].
          exact (mfind_setup_product_spec w cfg _ _ _ Rqn). }
        apply (IH n qn); [|assumption|assumption].
        destruct (touches_rank w dl rank H None top n Rn) as [->|Ln]; lia. }
  assert (None_ : forall k, reach k -> mfind_setup_product w (c_flavor cfg) (s_env st2) k = None).
  { intros k Rk. destruct (mfind_setup_product w (c_flavor cfg) (s_env st2) k) as [q|] eqn:Eq; [|reflexivity].
    exfalso. exact (Clear (rank top - rank k) k q (le_n _) Rk Eq). }
  split; [exact None_|]. split; [|exact S].
  intros k v Zk Ek O. destruct (A k v Zk Ek O) as [[]|[n [q [v1 [Rn [Rq _]]]]]].
  rewrite (None_ n Rn) in Rq. discriminate.
Qed.

End Unwind.
