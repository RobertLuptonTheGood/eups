(* The graph handed to topologicalSort (prepare) and what the cycle check says of it; the walk from the top
   product with its productDictionary; the hypotheses of the build-order theorems (wf_world, closure,
   acyclic_from) and the versions the repaired second walk pins; the listing in ascending depth; the
   hypotheses decided on a concrete world. *)
From Coq Require Import Lia Sorted.
From Eupsv Require Import Base.Base Base.BaseLemmas Model.Graph Proofs.GraphLib Proofs.GraphWalk
     Proofs.GraphListing Proofs.GraphLayers Proofs.GraphTarjan.

Definition prep1 (g : graph) : graph :=
  map (fun it => (fst it, filter (fun s => negb (node_eqb s (fst it))) (uniq_nodes (snd it)))) g.

Lemma prepare_eq g :
  prepare g = prep1 g ++ map (fun s => (s, []))
                             (filter (fun s => negb (mem_node s (gkeys (prep1 g)))) (uniq_nodes (flat_map snd (prep1 g)))).
Proof. reflexivity. Qed.

Lemma prep1_keys g : gkeys (prep1 g) = gkeys g.
Proof. unfold gkeys, prep1. rewrite map_map. reflexivity. Qed.

Lemma prep1_gedge g a b : gedge (prep1 g) a b <-> gedge g a b /\ a <> b.
Proof.
  unfold gedge, prep1. split.
  - intros [ss [I1 I2]]. apply in_map_iff in I1 as [[k l] [Q I1]]. simpl in Q. inversion Q. subst. clear Q.
    apply filter_In in I2 as [I2 I3]. rewrite uniq_nodes_In in I2. apply negb_true_iff, node_eqb_neq in I3.
    split; [exists l; auto | congruence].
  - intros [[l [I1 I2]] Ne]. eexists. split.
    + apply in_map_iff. exists (a, l). split; [reflexivity | exact I1].
    + simpl. apply filter_In. split; [apply uniq_nodes_In, I2|]. apply negb_true_iff, node_eqb_neq. congruence.
Qed.

Lemma gedge_app g1 g2 a b : gedge (g1 ++ g2) a b <-> gedge g1 a b \/ gedge g2 a b.
Proof.
  unfold gedge. split.
  - intros [ss [I1 I2]]. apply in_app_iff in I1 as [I1 | I1]; eauto.
  - intros [[ss [I1 I2]] | [ss [I1 I2]]]; exists ss; (split; [apply in_app_iff; auto | exact I2]).
Qed.

Lemma gedge_leaves l a b : ~ gedge (map (fun s : node => (s, @nil node)) l) a b.
Proof. intros [ss [I1 I2]]. apply in_map_iff in I1 as [s [Q _]]. inversion Q. subst. destruct I2. Qed.

Lemma prepare_gedge g a b : gedge (prepare g) a b <-> gedge g a b /\ a <> b.
Proof.
  rewrite prepare_eq, gedge_app, prep1_gedge. split; [|auto].
  intros [H | H]; [exact H | destruct (gedge_leaves _ _ _ H)].
Qed.

Lemma prepare_no_self g n ss : In (n, ss) (prepare g) -> ~ In n ss.
Proof.
  intros I H. assert (E : gedge (prepare g) n n) by (exists ss; auto).
  apply prepare_gedge in E as [_ E]. congruence.
Qed.

Lemma gedge_mentions (g : graph) a b : gedge g a b -> In a (gkeys g) /\ In b (flat_map snd g).
Proof.
  intros [ss [I1 I2]]. split.
  - apply in_map_iff. exists (a, ss). auto.
  - apply in_flat_map. exists (a, ss). auto.
Qed.

Lemma prepare_gkeys g :
  gkeys (prepare g) = gkeys g ++ filter (fun s => negb (mem_node s (gkeys g))) (uniq_nodes (flat_map snd (prep1 g))).
Proof.
  rewrite prepare_eq. unfold gkeys at 1. rewrite map_app, map_map. simpl. rewrite map_id.
  change (map fst (prep1 g)) with (gkeys (prep1 g)). rewrite !prep1_keys. reflexivity.
Qed.

Lemma prepare_keys g n : In n (gkeys (prepare g)) <-> In n (gkeys g) \/ exists k, gedge g k n.
Proof.
  assert (E : In n (gkeys (prepare g)) <->
              In n (gkeys g) \/ (In n (flat_map snd (prep1 g)) /\ ~ In n (gkeys g))).
  { rewrite prepare_gkeys, in_app_iff, filter_In, uniq_nodes_In, negb_true_iff, mem_node_not_In. reflexivity. }
  rewrite E. clear E. split.
  - intros [H | [H _]]; [auto|]. right. apply in_flat_map in H as [[k l] [I1 I2]]. exists k.
    apply (prep1_gedge g k n). exists l. auto.
  - intros [H | [k E]]; [auto|]. destruct (in_dec node_eq_dec n (gkeys g)) as [I | I]; [auto|]. right. split; [|exact I].
    assert (Ne : k <> n).
    { intros ->. apply I. apply (gedge_mentions g n n E). }
    apply (gedge_mentions (prep1 g) k n). apply prep1_gedge. auto.
Qed.

Lemma prepare_closed g : closed_graph (prepare g).
Proof.
  intros n ss s I1 I2. apply prepare_keys. right. exists n.
  apply (prepare_gedge g n s). exists ss. auto.
Qed.

Lemma topo_layers_with_inv cmp check g0 NL :
  topo_layers_with cmp check g0 = Ok NL ->
  exists cs L, scc (prepare g0) = Ok cs /\ comp_layers check (prepare g0) cs = Ok L /\ sort_layers cmp L = Ok NL.
Proof.
  unfold topo_layers_with. destruct (scc (prepare g0)) as [cs|]; [|discriminate].
  destruct (comp_layers check (prepare g0) cs) as [L|] eqn:E; [|discriminate].
  intros H. exists cs, L. auto.
Qed.

Lemma check_cycles_passes_acyclic g0 NL : check_cycles g0 = Ok NL -> acyclic (prepare g0).
Proof.
  intros H. apply topo_layers_with_inv in H as [cs [L [_ [H _]]]].
  eapply check_passes_acyclic; [|exact H]. apply prepare_no_self.
Qed.

Lemma sort_layers_total L : exists NL, sort_layers node_cmp L = Ok NL.
Proof.
  induction L as [|l r [NL IH]]; simpl; [eauto|].
  destruct (psort_total node_cmp node_cmp_total (concat l)) as [s [E _]]. rewrite E, IH. eauto.
Qed.

(* a graph with a cycle never passes: the call ends in an error, and not because the model ran out of fuel *)
Lemma cycle_is_reported g0 :
  ~ acyclic (prepare g0) -> exists e, check_cycles g0 = Err e /\ e <> OutOfFuel.
Proof.
  intros Hc. destruct (check_cycles g0) as [NL|e] eqn:E.
  - exfalso. apply Hc. eapply check_cycles_passes_acyclic; eauto.
  - exists e. split; [reflexivity|]. intros ->.
    unfold check_cycles, topo_layers, topo_layers_with in E.
    destruct (scc (prepare g0)) as [cs|e1] eqn:E1.
    + destruct (comp_layers true (prepare g0) cs) as [L|e2] eqn:E2.
      * destruct (sort_layers_total L) as [NL E3]. rewrite E3 in E. discriminate.
      * inversion E. subst. eapply comp_layers_fuel; eauto.
    + inversion E. subst. eapply scc_fuel; eauto.
Qed.

Lemma walk_top_full w pins top fuel es :
  length w < fuel -> node_table w top = Some es ->
  exists out st, walk_top fuel w pins top = Ok (out, st) /\
    (forall q, In q (map enode out) <-> reachP w pins top q) /\
    (forall k s, gedge (pd st) k s <-> (k = top \/ In k (vis st)) /\ stepP w pins k s) /\
    (forall k, In k (vis st) -> reachP w pins top k) /\
    (forall q, reachP w pins top q -> nreal q = true -> In q (vis st)) /\
    (forall k, In k (gkeys (pd st)) -> k = top \/ In k (vis st)).
Proof.
  intros Hf Ht. destruct (walk_top_ok w pins top fuel es Hf Ht) as [out [st [E Hok]]].
  destruct (walk_top_spec w pins top fuel Hf) as [out' [st' [E' Hreach]]].
  rewrite E in E'. inversion E'. subst out' st'. clear E'.
  exists out, st. split; [exact E|]. split; [exact Hreach|].
  destruct Hok as [M N L V S Em P1 P2 P3 P4 P5]. simpl in *.
  assert (Hnoedge : forall k s, ~ gedge [(top, @nil node)] k s).
  { intros k s [ss [[Q | []] I]]. inversion Q. subst. destruct I. }
  split; [|split; [|split]].
  - intros k s. split.
    + intros H. destruct (P2 k s H) as [H0 | [[-> [e [Ie ->]]] | [H1 [_ H3]]]].
      * destruct (Hnoedge _ _ H0).
      * split; [auto|]. exists es, e. auto.
      * auto.
    + intros [[-> | Hk] [es_k [e [Tk [Ie ->]]]]].
      * rewrite Ht in Tk. inversion Tk. subst. apply P3, Ie.
      * eapply P4; eauto.
  - intros k Hk. apply Hreach. apply Em; auto.
  - intros q Hq Hr. apply V; [apply Hreach, Hq | exact Hr].
  - intros k Hk. destruct (P5 k Hk) as [[<- | []] | [-> | [H _]]]; auto.
Qed.

(* the resolved edges are consistent with the declarations: what a line resolved to is declared, and an
   explicit version that did not resolve is not declared *)
Definition wf_world (w : world) : Prop :=
  forall n v es e, table_of w n v = Some es -> In e es ->
    (forall r, eres e = Some r -> declared w (ename e) r = true) /\
    (forall v', eres e = None -> evers e = Some v' -> declared w (ename e) v' = false).

Definition closure (w : world) (top q : node) : Prop := q = top \/ reach_plus w top q.

(* what the pinned tree took for granted (D16); Props/C13.v build_order_two_versions_inhabited refutes it on a
   world the theorems cover: it is a hypothesis of none of them *)
Definition one_version_per_name (w : world) (top : node) : Prop :=
  forall p q, closure w top p -> closure w top q -> nname p = nname q -> p = q.

Definition acyclic_from (w : world) (top : node) : Prop :=
  forall p, closure w top p -> ~ reach_plus w p p.

Lemma step_is_stepP w p q : step w p q <-> stepP w [] p q.
Proof. reflexivity. Qed.

Lemma closure_step w top p q : closure w top p -> step w p q -> closure w top q.
Proof.
  intros [-> | R] S; right.
  - apply rp_one. apply step_is_stepP, S.
  - eapply reachP_trans_step; [exact R | apply step_is_stepP, S].
Qed.

Lemma pin_of_Some pins n v : pin_of pins n = Some v -> In (n, v) pins.
Proof.
  induction pins as [|[k u] r IH]; simpl; [discriminate|].
  destruct (pin_of r n) as [x|] eqn:E.
  - intros Q. inversion Q. subst. right. apply IH. reflexivity.
  - destruct (str_eqb n k) eqn:G; [|discriminate]. apply str_eqb_eq in G. subst. intros Q. inversion Q. auto.
Qed.

Lemma node_table_inv w p es : node_table w p = Some es -> exists n v, p = (n, Some v, true) /\ table_of w n v = Some es.
Proof.
  destruct p as [[n ov] r]. unfold node_table, nreal, nver, nname. simpl.
  destruct r; [|discriminate]. destruct ov as [v|]; [|discriminate]. intros H. exists n, v. auto.
Qed.

Lemma own_target_name e : nname (own_target e) = ename e.
Proof. unfold own_target. destruct (eres e); reflexivity. Qed.

(* a name pinned by the repaired code is the name of exactly one listed product, which is not the top product *)
Lemma pins_fixed_In top dp n v :
  In (n, v) (pins_fixed top dp) ->
  n <> nname top /\ exists x, In x dp /\ nname (enode x) = n /\ nver (enode x) = v /\
                             forall y, In y dp -> nname (enode y) = n -> enode y = enode x.
Proof.
  unfold pins_fixed, pins_pinned. intros H. apply in_map_iff in H as [x [Q H]]. inversion Q. subst. clear Q.
  apply filter_In in H as [Ix Hs]. unfold sole_of_name in Hs. apply andb_true_iff in Hs as [H1 H2].
  split.
  - apply negb_true_iff in H1. intros Q. rewrite Q, str_eqb_refl in H1. discriminate.
  - exists x. split; [exact Ix|]. split; [reflexivity|]. split; [reflexivity|].
    intros y Iy Q. rewrite forallb_forall in H2. specialize (H2 y Iy). rewrite Q, str_eqb_refl in H2.
    simpl in H2. apply node_eqb_eq, H2.
Qed.

(* with resolved edges that agree with the declarations, the versions the repaired second walk pins are the
   versions the lines denote anyway: no hypothesis on the closure (two versions of a name, cycles) *)
Lemma pins_agree w top dp :
  wf_world w ->
  (forall q, In q (map enode dp) <-> q <> top /\ reach_plus w top q) ->
  forall p es e, closure w top p -> node_table w p = Some es -> In e es ->
    resolve w (pins_fixed top dp) e = own_target e.
Proof.
  intros Hwf Hdp p es e Cp Tp Ie.
  set (pins := pins_fixed top dp).
  set (t := own_target e).
  assert (St : step w p t) by (exists es, e; auto).
  assert (Ct : closure w top t) by (eapply closure_step; eauto).
  unfold resolve. fold pins. destruct (pin_of pins (ename e)) as [pv|] eqn:Epin; [|reflexivity].
  apply pin_of_Some in Epin. unfold pins in Epin. apply pins_fixed_In in Epin as [Nn [x [Ix [Nx [Vx Hsole]]]]].
  assert (Nt : t <> top).
  { intros Q. apply Nn. rewrite <- Q. unfold t. symmetry. apply own_target_name. }
  assert (Rt : reach_plus w top t) by (destruct Ct; [contradiction | assumption]).
  assert (Idp : In t (map enode dp)) by (apply Hdp; auto).
  apply in_map_iff in Idp as [y [Ey Iy]].
  assert (Ext : enode x = t).
  { rewrite <- (Hsole y Iy); [exact Ey|]. rewrite Ey. unfold t. apply own_target_name. }
  rewrite <- Vx, Ext. clear Vx Ext Hsole Ix Nx x Ey Iy y.
  destruct (node_table_inv _ _ _ Tp) as [n [v [-> Tn]]]. destruct (Hwf n v es e Tn Ie) as [W1 W2].
  unfold t, own_target in *. destruct (eres e) as [r|] eqn:Er; unfold nver; simpl.
  - rewrite (W1 r eq_refl). reflexivity.
  - destruct (evers e) as [v'|] eqn:Ev; simpl.
    + rewrite (W2 v' eq_refl eq_refl). reflexivity.
    + reflexivity.
Qed.

Lemma reach_agree w pins top :
  (forall p es e, closure w top p -> node_table w p = Some es -> In e es -> resolve w pins e = own_target e) ->
  (forall p q, closure w top p -> (stepP w pins p q <-> step w p q)) /\
  (forall p q, closure w top p -> (reachP w pins p q <-> reach_plus w p q)).
Proof.
  intros Hag.
  assert (Hs : forall p q, closure w top p -> (stepP w pins p q <-> step w p q)).
  { intros p q Cp. unfold stepP, step, tg. split; intros [es [e [T [I ->]]]]; exists es, e; (split; [exact T|]; split; [exact I|]).
    - apply Hag with (p := p) (es := es); auto.
    - symmetry. apply Hag with (p := p) (es := es); auto. }
  split; [exact Hs|]. intros p q Cp. split.
  - intros R. revert Cp. induction R as [p q S | p q r S R IH]; intros Cp.
    + apply rp_one, step_is_stepP, Hs; auto.
    + apply Hs in S; [|exact Cp]. eapply rp_more; [apply step_is_stepP, S|]. apply IH. eapply closure_step; eauto.
  - intros R. unfold reach_plus in R. revert Cp. induction R as [p q S | p q r S R IH]; intros Cp.
    + apply rp_one. apply Hs; [exact Cp | apply step_is_stepP, S].
    + apply step_is_stepP in S. eapply rp_more; [apply Hs; [exact Cp | exact S]|]. apply IH. eapply closure_step; eauto.
Qed.

Lemma reach_plus_last w top x : reach_plus w top x -> exists k, closure w top k /\ step w k x.
Proof.
  unfold reach_plus. intros R.
  assert (G : forall p q, reachP w [] p q -> closure w top p -> exists k, closure w top k /\ step w k q).
  { induction 1 as [p q S | p q r S R' IH]; intros Cp.
    - exists p. split; [exact Cp | apply step_is_stepP, S].
    - apply IH. eapply closure_step; [exact Cp | apply step_is_stepP, S]. }
  apply (G top x R). left. reflexivity.
Qed.

Lemma sort_layers_spec L : forall NL, sort_layers node_cmp L = Ok NL ->
  length NL = length L /\ forall i x, In x (nth i NL []) <-> In x (concat (nth i L [])).
Proof.
  induction L as [|l r IH]; intros NL; simpl.
  - intros Q. inversion Q. split; [reflexivity|]. intros [|i] x; simpl; tauto.
  - destruct (psort_total node_cmp node_cmp_total (concat l)) as [s [E [H _]]]. rewrite E.
    destruct (sort_layers node_cmp r) as [r'|]; [|discriminate].
    intros Q. inversion Q. subst NL. destruct (IH r' eq_refl) as [H1 H2]. split; [simpl; congruence|].
    intros [|i] x; simpl; [apply H | apply H2].
Qed.

Lemma keep_last_sub l x : In x (keep_last l) -> In x l.
Proof.
  induction l as [|y l IH]; simpl; [tauto|].
  destruct (mem_node (enode y) (map enode l)); [auto|]. intros [H | H]; auto.
Qed.

Lemma topo_finish_entry fx NL dp x :
  In x (topo_finish fx NL dp) ->
  exists y, In y dp /\ enode x = enode y /\
            edepth x = edepth (relabel (if fx then depth_by_node NL 0 (S (length NL)) [] else [])
                                       (depth_by_name NL 0 (S (length NL)) []) y).
Proof.
  unfold topo_finish, dedup. intros H. apply in_map_iff in H as [z [<- H]]. apply keep_last_sub in H.
  rewrite entry_sort_In in H. apply in_map_iff in H as [y [<- H]].
  exists y. split; [exact H|]. split; [apply relabel_node | reflexivity].
Qed.

Lemma reach_first_table w pins p q : reachP w pins p q -> exists es, node_table w p = Some es.
Proof. intros [p' q' [es [e [T _]]] | p' q' r [es [e [T _]]] _]; eauto. Qed.

Definition depth_le (a b : entry) : Prop := edepth a <= edepth b.

Lemma entry_cmp_gt a b : entry_cmp a b = Some Gt -> edepth b <= edepth a.
Proof.
  unfold entry_cmp, lex. destruct (Nat.compare (edepth a) (edepth b)) eqn:E.
  - apply Nat.compare_eq in E. lia.
  - discriminate.
  - apply Nat.compare_gt_iff in E. lia.
Qed.

Lemma entry_cmp_not_gt a b c : entry_cmp a b = Some c -> c <> Gt -> edepth a <= edepth b.
Proof.
  unfold entry_cmp, lex. destruct (Nat.compare (edepth a) (edepth b)) eqn:E.
  - apply Nat.compare_eq in E. lia.
  - apply Nat.compare_lt_iff in E. lia.
  - intros Q. inversion Q. congruence.
Qed.

Lemma entry_sort_sorted l : StronglySorted depth_le (entry_sort l).
Proof.
  unfold entry_sort. destruct (psort_total entry_cmp entry_cmp_total l) as [r [E _]]. rewrite E.
  apply (psort_sorted entry_cmp depth_le entry_cmp_total) with (l := l); [|exact entry_cmp_gt|exact entry_cmp_not_gt|exact E].
  intros a b c. unfold depth_le. lia.
Qed.

Lemma keep_last_sorted l : StronglySorted depth_le l -> StronglySorted depth_le (keep_last l).
Proof.
  induction l as [|x l IH]; simpl; [auto|]. intros Hs. inversion Hs as [|? ? Hs' Hall]. subst.
  destruct (mem_node (enode x) (map enode l)); [auto|].
  constructor; [auto|]. apply Forall_forall. intros z Hz. apply keep_last_sub in Hz.
  rewrite Forall_forall in Hall. auto.
Qed.

Lemma map_sorted (f : entry -> entry) l :
  (forall x, edepth (f x) = edepth x) -> StronglySorted depth_le l -> StronglySorted depth_le (map f l).
Proof.
  intros Hf. induction 1 as [|x l Hs IH Hall]; simpl; constructor; [exact IH|].
  apply Forall_forall. intros z Hz. apply in_map_iff in Hz as [z0 [<- Hz0]].
  rewrite Forall_forall in Hall. unfold depth_le. rewrite !Hf. apply Hall, Hz0.
Qed.

Lemma listing_sorted fx cmp fuel w top l :
  dependent_products_with fx cmp fuel w top true = Ok l -> StronglySorted depth_le l.
Proof.
  intros D. destruct (dependent_products_with_inv _ _ _ _ _ _ D) as [out1 [_ [_ [_ [NL [_ [_ [_ ->]]]]]]]].
  unfold topo_finish, dedup. apply map_sorted; [reflexivity|]. apply keep_last_sorted, entry_sort_sorted.
Qed.

Lemma sorted_suffix l1 : forall l2, StronglySorted depth_le (l1 ++ l2) -> StronglySorted depth_le l2.
Proof. induction l1 as [|x l1 IH]; simpl; intros l2 H; [exact H|]. inversion H. auto. Qed.

Definition closure_list (fuel : nat) (w : world) (top : node) : option (list node) :=
  match walk_top fuel w [] top with Ok (out, _) => Some (top :: map enode out) | Err _ => None end.

Definition one_version_b (l : list node) : bool :=
  forallb (fun p => forallb (fun q => implb (str_eqb (nname p) (nname q)) (node_eqb p q)) l) l.

Definition acyclic_b (fuel : nat) (w : world) (l : list node) : bool :=
  forallb (fun p => match walk_top fuel w [] p with
                    | Ok (out, _) => negb (mem_node p (map enode out))
                    | Err _ => false
                    end) l.

Definition wf_world_b (w : world) : bool :=
  forallb (fun it => forallb (fun e =>
    match eres e with
    | Some r => declared w (ename e) r
    | None => match evers e with Some v => negb (declared w (ename e) v) | None => true end
    end) (snd it)) w.

Definition step_b (w : world) (p q : node) : bool :=
  match node_table w p with
  | Some es => existsb (fun e => node_eqb (own_target e) q) es
  | None => false
  end.

Fixpoint path_b (w : world) (p : node) (through : list node) (q : node) : bool :=
  match through with
  | [] => step_b w p q
  | x :: r => step_b w p x && path_b w x r q
  end.

Lemma step_b_sound w p q : step_b w p q = true -> step w p q.
Proof.
  unfold step_b. destruct (node_table w p) as [es|] eqn:T; [|discriminate]. intros H.
  apply existsb_exists in H as [e [I E]]. apply node_eqb_eq in E. exists es, e. auto.
Qed.

Lemma path_b_sound w through : forall p q, path_b w p through q = true -> reach_plus w p q.
Proof.
  induction through as [|x r IH]; intros p q; simpl.
  - intros H. apply rp_one, step_is_stepP, step_b_sound, H.
  - intros H. apply andb_prop in H as [H1 H2]. eapply rp_more; [apply step_is_stepP, step_b_sound, H1 | apply IH, H2].
Qed.

Lemma wf_world_b_sound w : wf_world_b w = true -> wf_world w.
Proof.
  intros H n v es e T Ie. apply table_of_In in T. unfold wf_world_b in H. rewrite forallb_forall in H.
  specialize (H _ T). simpl in H. rewrite forallb_forall in H. specialize (H e Ie). split.
  - intros r Er. rewrite Er in H. exact H.
  - intros v' Er Ev. rewrite Er, Ev in H. apply negb_true_iff, H.
Qed.

Lemma hyps_by_computation fuel w top l :
  length w < fuel -> closure_list fuel w top = Some l ->
  acyclic_b fuel w l = true -> wf_world_b w = true ->
  wf_world w /\ acyclic_from w top.
Proof.
  intros Hf Hc H2 H3. unfold closure_list in Hc.
  destruct (walk_top_spec w [] top fuel Hf) as [out [st [E Hout]]]. rewrite E in Hc. inversion Hc. subst l. clear Hc.
  assert (Hcl : forall q, closure w top q -> In q (top :: map enode out)).
  { intros q [-> | R]; [left; reflexivity | right; apply Hout, R]. }
  split; [exact (wf_world_b_sound w H3)|].
  intros p Cp R. unfold acyclic_b in H2. rewrite forallb_forall in H2. specialize (H2 p (Hcl p Cp)).
  destruct (walk_top_spec w [] p fuel Hf) as [outp [stp [Ep Hp]]]. rewrite Ep in H2.
  apply negb_true_iff, mem_node_not_In in H2. apply H2, Hp, R.
Qed.
