(* Lemmas about Model/DbExt.v: the extended declaration decides on the view and the copies, the
   record-level actions are those of Db.v (so refinement, invariant and frame carry over), and a
   plan that goes through is characterised once ([xplanned]). *)
From Eupsv Require Import Base.Base Base.BaseLemmas Model.Db Model.DbExt
  Proofs.DbLib Proofs.Db Proofs.DbSim Proofs.DbInv Proofs.DbCor.

Definition xview (x : xdb) : xadb := mkXA (view (xd x)) (xfiles x).

Lemma xstep_ok e x o x' : xstep e x o = Ok x' ->
  exists acts cs, xdecide e (view (xd x)) (xfiles x) o = Ok (acts, cs) /\
    x' = mkX (apply (compile_all (xd x) acts) (xd x)) (write_files cs (xfiles x)).
Proof.
  unfold xstep. destruct (xdecide e (view (xd x)) (xfiles x) o) as [[acts cs]|k]; [|discriminate].
  intro H. inversion H. eauto.
Qed.

Lemma first_writable_In ro path w : first_writable ro path = Some w -> In w path /\ mem_str w ro = false.
Proof.
  induction path as [|s r IH]; cbn [first_writable]; [discriminate|].
  destruct (mem_str s ro) eqn:E.
  - intro H. destruct (IH H). split; [right; assumption|assumption].
  - intro H. inversion H. subst. split; [left; reflexivity|assumption].
Qed.

Lemma home_stack_In path dir h : home_stack path dir = Some h -> In h path /\ is_subpath dir (stack_dir h) = true.
Proof.
  induction path as [|s r IH]; cbn [home_stack]; [discriminate|].
  destruct (is_subpath dir (stack_dir s)) eqn:E.
  - intro H. inversion H. subst. split; [left; reflexivity|assumption].
  - intro H. destruct (IH H). split; [right; assumption|assumption].
Qed.

Lemma xtarget_sound e path o dir rd tg : xtarget e path o dir = Ok (rd, tg) ->
  mem_str tg path = true /\ mem_str tg (e_ro e) = false /\ mem_str rd path = true.
Proof.
  assert (W : forall w, first_writable (e_ro e) path = Some w -> mem_str w path = true /\ mem_str w (e_ro e) = false).
  { intros w Ew. apply first_writable_In in Ew. destruct Ew as [Hw Hr]. apply mem_str_In in Hw. auto. }
  unfold xtarget. destruct (o_stack o) as [s|].
  - destruct (mem_str s (e_ro e)) eqn:Er; [discriminate|]. destruct (mem_str s path) eqn:Ep; [|discriminate].
    intros [= <- <-]. auto.
  - destruct (home_stack path dir) as [h|] eqn:Eh.
    + apply home_stack_In in Eh. destruct Eh as [Hh _]. apply mem_str_In in Hh.
      destruct (mem_str h (e_ro e)) eqn:Er; [|intros [= <- <-]; auto].
      destruct (first_writable (e_ro e) path) as [w|]; [|discriminate].
      destruct (W w eq_refl). intros [= <- <-]. auto.
    + destruct (first_writable (e_ro e) path) as [w|]; [|discriminate].
      destruct (W w eq_refl). intros [= <- <-]. auto.
Qed.

Lemma resolve_table_named e xf tg f n v d tb tname full tc :
  resolve_table e xf tg f n v d tb = Ok (tname, full, tc) ->
  match tb with
  | TNone => tname = none_s
  | TDefault => tname = default_table d n
  | TPath p => is_subpath p (extra_dir tg f n v) = false -> tname = p
  | TStream text => tname = interned_table tg f n v /\ tc = [(lit "ups/" ++ n ++ lit ".table", intern_text text)]
  end.
Proof.
  destruct tb as [|p| |text]; cbn [resolve_table].
  - destruct (is_some _); [|discriminate]. intros [= <- _ _]. reflexivity.
  - intros H Hp. rewrite Hp in H. destruct (is_some _); [|discriminate]. injection H as <- _ _. reflexivity.
  - intros [= <- _ _]. reflexivity.
  - intros [= <- _ <-]. split; reflexivity.
Qed.

(* the extended plan in stages, as in DbSim.v: the directory is completed in the same way ([plan_dir])
   and the tag is the same ([plan_tag]) *)
Definition xplan_info (a : adb) (o : opts) (n v : str) (dir : option str) (tb : tspec) (t : option str)
  : option (str * vrec) :=
  match t with
  | None => None
  | Some _ =>
      if is_some dir && tspec_given tb then None
      else first_some (map (fun fl => find_exact a (roots_of a (o_stack o)) n v fl) (fallbacks (o_flavor o)))
  end.

Definition xplan_table (d : str) (tb : tspec) (info : option (str * vrec)) : tspec :=
  match tb with
  | TDefault => match info with
                | Some (_, r) => if str_eqb d (fst r)
                                 then (if is_real (snd r) then TPath (snd r) else TNone)
                                 else TDefault
                | None => TDefault
                end
  | _ => tb
  end.

(* the redeclaration check against the declaration [old] read from stack rd, the record going to tg *)
Definition xredeclare (force : bool) (differs : vrec -> bool) (rd d tname tg : str) (t1 : option str)
    (cs : list (str * str)) (old : option vrec) : res xplan :=
  match old with
  | Some r' =>
      if negb (str_eqb rd tg) then Err Undefined else
      if force then Ok (mkXPlan (mkPlan d tname tg t1 true) cs)
      else if differs r'
      then match t1 with
           | Some _ => Ok (mkXPlan (mkPlan d tname tg t1 false) cs)
           | None => Err Refused
           end
      else Ok (mkXPlan (mkPlan d tname tg t1 false) cs)
  | None => Ok (mkXPlan (mkPlan d tname tg t1 true) cs)
  end.

Lemma xdeclare_plan_stages e a xf o n v dir tb t ext :
  xdeclare_plan e a xf o n v dir tb t ext =
  let f := o_flavor o in
  let info := xplan_info a o n v dir tb t in
  match plan_dir dir info with
  | None => Err Refused
  | Some d =>
    match xtarget e (apath a) o d with
    | Err k => Err k
    | Ok (rd, tg) =>
      match resolve_table e xf tg f n v d (xplan_table d tb info), resolve_ext e xf ext with
      | Err k, _ => Err k
      | _, Err k => Err k
      | Ok (tname, full, tcopies), Ok ecopies =>
        let copies := ecopies ++ tcopies in
        let xdir := extra_dir tg f n v in
        xredeclare (o_force o)
          (fun r' => negb (str_eqb d (fst r')) || table_differs e xf tname full (snd r') || ext_differs xf xdir copies)
          rd d tname tg (plan_tag a o n t)
          (map (fun c : str * str => (xdir ++ slash ++ fst c, snd c)) copies)
          (a_decl a rd n v f)
      end
    end
  end.
Proof. reflexivity. Qed.

Lemma xredeclare_ok force differs rd d tname tg t1 cs old p :
  xredeclare force differs rd d tname tg t1 cs old = Ok p ->
  (old <> None -> rd = tg) /\
  p = mkXPlan (mkPlan d tname tg t1 match old with Some _ => force | None => true end) cs.
Proof.
  unfold xredeclare. destruct old as [r'|].
  - destruct (str_eqb_spec rd tg) as [E|]; [cbn [negb]|discriminate].
    destruct force; [|destruct (differs r'); [destruct t1; [|discriminate]|]]; intro H; inversion H; auto.
  - intro H. inversion H. split; [congruence|reflexivity].
Qed.

Inductive xplanned (e : env) (a : adb) (xf : amap str) (o : opts) (n v : str) (dir : option str) (tb : tspec)
    (t : option str) (ext : list (str * str)) : xplan -> Prop :=
| xplanned_intro d rd tg tname full tcopies ecopies :
    plan_dir dir (xplan_info a o n v dir tb t) = Some d ->
    xtarget e (apath a) o d = Ok (rd, tg) ->
    resolve_table e xf tg (o_flavor o) n v d (xplan_table d tb (xplan_info a o n v dir tb t)) = Ok (tname, full, tcopies) ->
    resolve_ext e xf ext = Ok ecopies ->
    (a_decl a rd n v (o_flavor o) <> None -> rd = tg) ->
    xplanned e a xf o n v dir tb t ext
      (mkXPlan (mkPlan d tname tg (plan_tag a o n t)
                  match a_decl a rd n v (o_flavor o) with Some _ => o_force o | None => true end)
         (map (fun c : str * str => (extra_dir tg (o_flavor o) n v ++ slash ++ fst c, snd c)) (ecopies ++ tcopies))).

Lemma xdeclare_plan_ok e a xf o n v dir tb t ext p :
  xdeclare_plan e a xf o n v dir tb t ext = Ok p -> xplanned e a xf o n v dir tb t ext p.
Proof.
  rewrite xdeclare_plan_stages. cbv zeta.
  destruct (plan_dir dir _) as [d|] eqn:Ed; [|discriminate].
  destruct (xtarget e (apath a) o d) as [[rd tg]|k] eqn:Et; [|discriminate].
  destruct (resolve_table e xf tg (o_flavor o) n v d _) as [[[tname full] tcopies]|k] eqn:Er; [|discriminate].
  destruct (resolve_ext e xf ext) as [ecopies|k] eqn:Ee; [|discriminate].
  intro H. destruct (xredeclare_ok _ _ _ _ _ _ _ _ _ _ H) as [Hrd ->]. econstructor; eassumption.
Qed.

Lemma xplan_table_given a o n v dir d tb t : tspec_given tb = true \/ t = None ->
  xplan_table d tb (xplan_info a o n v dir tb t) = tb.
Proof. intros [H| ->]; destruct tb; try reflexivity. discriminate. Qed.

Lemma xdeclare_plan_target e a xf o n v dir tb t ext p :
  xdeclare_plan e a xf o n v dir tb t ext = Ok p ->
  mem_str (dp_target (xp_plan p)) (apath a) = true /\ mem_str (dp_target (xp_plan p)) (e_ro e) = false.
Proof.
  intro H. destruct (xdeclare_plan_ok _ _ _ _ _ _ _ _ _ _ _ H) as [d rd tg tn fu tc ec _ Ht _ _ _].
  cbn [xp_plan dp_target]. destruct (xtarget_sound _ _ _ _ _ _ Ht) as [H1 [H2 _]]. auto.
Qed.

Definition xop_nf (o : xop) : str * str :=
  match o with
  | XDeclare o n _ _ _ _ _ => (n, o_flavor o)
  | XOld y => op_nf y
  end.

Lemma xdecide_acts e a xf o acts cs : xdecide e a xf o = Ok (acts, cs) ->
  acts_ok a acts /\ Forall (fun y => act_nf y = xop_nf o) acts.
Proof.
  destruct o as [o n v dir tb t ext|y]; cbn [xdecide xop_nf].
  - destruct (xdeclare_plan e a xf o n v dir tb t ext) as [p|k] eqn:Ep; [|discriminate].
    destruct (o_noaction o); [intro H; inversion H; split; constructor|].
    destruct (declare_finish false a (o_flavor o) n v (xp_plan p)) as [acts'|k] eqn:Ef; [|discriminate].
    intro H. inversion H. subst. split; [|apply (declare_finish_scope _ _ _ _ _ _ _ Ef)].
    apply (declare_finish_ok _ _ _ _ _ _ _ (proj1 (xdeclare_plan_target _ _ _ _ _ _ _ _ _ _ _ Ep)) Ef).
  - destruct (ro_refuses e y); [discriminate|].
    destruct (decide false a y) as [acts'|k] eqn:Ed; [|discriminate].
    intro H. inversion H. subst. split; [apply (decide_acts_ok _ _ _ _ Ed)|apply (decide_scope _ _ _ _ Ed)].
Qed.

Lemma xstep_total_no_dangling e x o : no_dangling (view (xd x)) -> no_dangling (view (xd (xstep_total e x o))).
Proof.
  intro Hnd. unfold xstep_total. destruct (xstep e x o) as [x'|k] eqn:E; [|exact Hnd].
  destruct (xstep_ok _ _ _ _ E) as [acts [cs [Hd ->]]]. cbn [xd].
  apply (no_dangling_aeq _ _ (aeq_sym _ _ (compile_all_refines acts (xd x)))).
  apply aapply_all_no_dangling; [exact Hnd|apply (xdecide_acts _ _ _ _ _ _ Hd)].
Qed.

Lemma xrun_no_dangling e os : forall x, no_dangling (view (xd x)) -> no_dangling (view (xd (xrun e x os))).
Proof.
  induction os as [|o r IH]; intros x H; [exact H|]. cbn [xrun fold_left].
  apply IH. apply xstep_total_no_dangling. exact H.
Qed.

Lemma write_files_other cs : forall xf p, (forall c, In c cs -> fst c <> p) ->
  alookup p (write_files cs xf) = alookup p xf.
Proof.
  induction cs as [|c r IH]; intros xf p H; [reflexivity|]. cbn [write_files fold_left].
  change (alookup p (write_files r (aset (fst c) (snd c) xf)) = alookup p xf).
  rewrite IH by (intros c' Hc; apply H; right; exact Hc).
  rewrite alookup_aset. destruct (str_eqb_spec p (fst c)) as [->|]; [|reflexivity].
  exfalso. apply (H c); [left; reflexivity|reflexivity].
Qed.

Lemma write_files_last cs k t xf : alookup k (write_files (cs ++ [(k, t)]) xf) = Some t.
Proof.
  unfold write_files. rewrite fold_left_app. cbn [fold_left fst snd]. rewrite alookup_aset, str_eqb_refl. reflexivity.
Qed.

Lemma starts_with_app_false p q x : starts_with p x = false -> starts_with (p ++ q) x = false.
Proof.
  revert x. induction p as [|c p IH]; intros x; cbn; [discriminate|].
  destruct x as [|c' x]; [reflexivity|]. destruct (ascii_eqb c c'); [apply IH|reflexivity].
Qed.

Lemma xdeclare_step e x o n v dir tb t ext x' :
  o_noaction o = false -> xstep e x (XDeclare o n v dir tb t ext) = Ok x' ->
  exists p acts,
    xdeclare_plan e (view (xd x)) (xfiles x) o n v dir tb t ext = Ok p /\
    declare_finish false (view (xd x)) (o_flavor o) n v (xp_plan p) = Ok acts /\
    has_stack (xd x) (dp_target (xp_plan p)) = true /\
    x' = mkX (apply (compile_all (xd x) acts) (xd x)) (write_files (xp_copies p) (xfiles x)).
Proof.
  intros Hn H. destruct (xstep_ok _ _ _ _ H) as [acts [cs [Hd ->]]]. cbn [xdecide] in Hd.
  destruct (xdeclare_plan e (view (xd x)) (xfiles x) o n v dir tb t ext) as [p|k] eqn:Ep; [|discriminate].
  rewrite Hn in Hd.
  destruct (declare_finish false (view (xd x)) (o_flavor o) n v (xp_plan p)) as [acts'|k] eqn:Ef; [|discriminate].
  inversion Hd. subst acts' cs. exists p, acts. repeat split; [exact Ef|].
  apply view_target_has_stack. apply (xdeclare_plan_target _ _ _ _ _ _ _ _ _ _ _ Ep).
Qed.

(* the tags after an extended declaration: [finish_tags] of DbCor.v for its plan *)
Lemma xdeclare_tags e x o n v dir tb t ext x' :
  no_dangling (view (xd x)) ->
  o_noaction o = false -> xstep e x (XDeclare o n v dir tb t ext) = Ok x' ->
  exists p, xdeclare_plan e (view (xd x)) (xfiles x) o n v dir tb t ext = Ok p /\
  forall s n' t' f',
    db_tag (xd x') s n' t' f' =
    match dp_tag (xp_plan p) with
    | None => db_tag (xd x) s n' t' f'
    | Some y =>
        if str_eqb n' n && str_eqb t' y && str_eqb f' (o_flavor o)
        then (if str_eqb s (dp_target (xp_plan p)) then Some v else None)
        else db_tag (xd x) s n' t' f'
    end.
Proof.
  intros Hnd Hn H. destruct (xdeclare_step _ _ _ _ _ _ _ _ _ _ Hn H) as [p [acts [Hp [Hf [Hs ->]]]]].
  exists p. split; [exact Hp|apply (finish_tags _ _ _ _ _ _ Hnd Hf Hs)].
Qed.

Lemma xstep_total_err e x o k : xstep e x o = Err k -> xstep_total e x o = x.
Proof. unfold xstep_total. intros ->. reflexivity. Qed.

(* a declaration raises while it is settling its arguments or not at all *)
Lemma xdeclare_error_is_planning_error e a xf o n v dir tb t ext k :
  xdecide e a xf (XDeclare o n v dir tb t ext) = Err k -> xdeclare_plan e a xf o n v dir tb t ext = Err k.
Proof.
  cbn [xdecide]. destruct (xdeclare_plan e a xf o n v dir tb t ext) as [p|k'] eqn:Ep; [|congruence].
  destruct (o_noaction o); [discriminate|].
  destruct (declare_finish_total false a (o_flavor o) n v (xp_plan p)
              (proj1 (xdeclare_plan_target _ _ _ _ _ _ _ _ _ _ _ Ep))) as [acts Ha]; [|rewrite Ha; discriminate].
  destruct (xdeclare_plan_ok _ _ _ _ _ _ _ _ _ _ _ Ep) as [d rd tg tn fu tc ec _ _ _ _ Hrd].
  cbn [xp_plan dp_target dp_write]. destruct (a_decl a rd n v (o_flavor o)) eqn:E; [|discriminate].
  intros _. rewrite <- Hrd, E; discriminate.
Qed.

Lemma kstep_unknown known e x o : unknown_tag known o = true ->
  kstep known e x o = Err (unknown_tag_error (view (xd x)) o) /\ kstep_total known e x o = x.
Proof. intro H. unfold kstep_total, kstep. rewrite H. split; reflexivity. Qed.

Lemma kstep_known known e x o : unknown_tag known o = false ->
  kstep known e x o = xstep e x o /\ kstep_total known e x o = xstep_total e x o.
Proof. intro H. unfold kstep_total, kstep, xstep_total. rewrite H. split; reflexivity. Qed.

(* a sibling of a stack: the path of the stack followed by a character other than the slash is not below it *)
Lemma str_eqb_app_cons (p : str) c r : str_eqb (p ++ c :: r) p = false.
Proof.
  induction p as [|a p IH]; cbn; [reflexivity|]. destruct (ascii_eqb a a); [exact IH|reflexivity].
Qed.

Lemma starts_with_sibling (p : str) c r : ascii_eqb "/"%char c = false -> starts_with (p ++ slash) (p ++ c :: r) = false.
Proof.
  intro H. induction p as [|a p IH].
  - change (starts_with ["/"%char] (c :: r) = false). cbn [starts_with]. rewrite H. reflexivity.
  - cbn [app starts_with]. destruct (ascii_eqb a a); [exact IH|reflexivity].
Qed.

Lemma is_subpath_sibling (root : str) c r : ascii_eqb "/"%char c = false -> is_subpath (root ++ c :: r) root = false.
Proof.
  intro H. unfold is_subpath. rewrite str_eqb_app_cons, (starts_with_sibling root c r H). reflexivity.
Qed.
