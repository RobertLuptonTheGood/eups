(* The whole eups remove command ([remove_x], [eups_remove] of Model/RemoveExt.v): the questions select a
   sub-list of the removal list and the destruction of Model/Remove.v runs on that sub-list.  Frame, exactness
   and refusal are proved here for two worlds (what _remove walks, what Eups.uses reads), any product set aside by
   the in-use check, and any answers; [remove] of Model/Remove.v is the command without questions in one world. *)
From Coq Require Import Lia.
From Eupsv Require Import Base.Base Base.BaseLemmas Model.Graph Model.Db Model.Remove Model.RemoveExt
     Proofs.GraphLib Proofs.GraphWalk Proofs.GraphListing Proofs.GraphOrder
     Proofs.DbLib Proofs.Db Proofs.DbInv Proofs.RemoveLib Proofs.RemoveDestroy Proofs.RemoveCollect Proofs.RemoveMain.

(* how the questioning ends, on top of what the destruction of the selected products returned *)
Definition finish (e : ending) (r : res unit * rstate) : res unit * rstate :=
  match r with
  | (Ok _, s) => (match e with Eof => Err Undefined | _ => Ok tt end, s)
  | (Err x, s) => (Err x, s)
  end.

(* asking while destroying = destroying what the answers select *)
Lemma destroy_i_select keep c a0 i : forall ps d ans removed st,
  destroy_i keep c a0 i ps d ans removed st =
  finish (snd (select i ps d ans)) (destroy keep c a0 (fst (select i ps d ans)) removed st).
Proof.
  induction ps as [|p ps IH]; intros d ans removed st; [reflexivity|].
  cbn [destroy_i select].
  destruct (if i then prompt d ans else (VYes, d, ans)) as [[vd d'] ans'].
  destruct vd.
  - destruct (select i ps d' ans') as [l e] eqn:S. cbn [fst snd destroy].
    destruct (undeclare c (rdb st) (nname p) (nver p)) as [a'|x]; [|reflexivity].
    destruct (dir_step keep c a0 a' p removed (rfs st)) as [[removed' fs']|x]; [|reflexivity].
    rewrite IH, S. reflexivity.
  - apply IH.
  - reflexivity.
  - reflexivity.
Qed.

Lemma select_incl i : forall ps d ans x, In x (fst (select i ps d ans)) -> In x ps.
Proof.
  induction ps as [|p ps IH]; intros d ans x; [intros []|]. cbn [select].
  destruct (if i then prompt d ans else (VYes, d, ans)) as [[vd d'] ans'].
  destruct vd; cbn [fst]; try (intros []).
  - destruct (select i ps d' ans') as [l e] eqn:S. cbn [fst]. intros [<-|I]; [left; reflexivity|].
    right. apply (IH d' ans'). rewrite S. exact I.
  - intro I. right. apply (IH d' ans' x I).
Qed.

Lemma select_NoDup i : forall ps d ans, NoDup ps -> NoDup (fst (select i ps d ans)).
Proof.
  induction ps as [|p ps IH]; intros d ans ND; [constructor|]. cbn [select]. inversion ND as [|? ? Hn ND']. subst.
  destruct (if i then prompt d ans else (VYes, d, ans)) as [[vd d'] ans'].
  destruct vd; cbn [fst]; try constructor.
  - destruct (select i ps d' ans') as [l e] eqn:S. cbn [fst]. constructor.
    + intro I. apply Hn. apply (select_incl i ps d' ans'). rewrite S. exact I.
    + specialize (IH d' ans' ND'). rewrite S in IH. exact IH.
  - apply IH, ND'.
Qed.

Lemma select_all i : forall ps d ans, i = false -> select i ps d ans = (ps, Done).
Proof.
  intros ps d ans ->. revert d ans. induction ps as [|p ps IH]; intros d ans; [reflexivity|].
  cbn [select]. rewrite IH. reflexivity.
Qed.

Lemma destroy_i_false keep c a0 ps d ans removed st :
  destroy_i keep c a0 false ps d ans removed st = destroy keep c a0 ps removed st.
Proof.
  rewrite destroy_i_select, select_all by reflexivity. cbn [fst snd].
  destruct (destroy keep c a0 ps removed st) as [[[]|e] s]; reflexivity.
Qed.

Lemma select_after_all : forall ps ans, select true ps ans_all ans = (ps, Done).
Proof.
  induction ps as [|p ps IH]; intros ans; [reflexivity|]. cbn [select]. unfold prompt.
  replace (str_eqb ans_all ans_all) with true by reflexivity. rewrite IH. reflexivity.
Qed.

Lemma remove_x_two_phases xall keep fuel ww wu c st k answers :
  remove_x xall keep fuel ww wu c st k answers =
  two_phases (k_check k) fuel ww wu c (top_of xall c (rdb st) (k_name k) (k_version k) (k_check k)) st
             (k_name k) (k_version k) (k_recursive k)
             (fun ps => destroy_i keep c (rdb st) (k_interactive k) ps ans_y answers [] st).
Proof. reflexivity. Qed.

Lemma two_members {A} (l : list A) x y : In x l -> In y l -> x <> y -> 1 < length l.
Proof.
  destruct l as [|a [|b r]]; cbn; intros Ix Iy N; [contradiction| |lia].
  destruct Ix as [<-|[]]. destruct Iy as [<-|[]]. contradiction.
Qed.

Lemma decl_places_In c a n v s f :
  In (s, f) (decl_places c a n v) <-> In s (apath a) /\ In f (fallbacks (rc_flavor c)) /\ a_decl a s n v f <> None.
Proof.
  unfold decl_places. rewrite filter_In, in_prod_iff. cbn [fst snd]. rewrite is_some_true. tauto.
Qed.

(* With the fix the in-use check does not set aside a product that has a declaration (stack s, flavor f) which stays:
   were it set aside, it would be declared once - at its home, which is doomed.  So Proofs/RemoveMain.collect_refuses
   applies to such a user, be it a second declaration of the very product named on the command line. *)
Lemma staying_user_not_set_aside ww c a n v recursive un uv s f :
  declared ww n v = true -> coherent ww c a ->
  In (s, f) (decl_places c a un uv) -> ~ doomed ww c a n v recursive s un uv f ->
  top_of true c a n v true <> Some (un, uv).
Proof.
  intros D Hco Ipl Ns. unfold top_of. cbn [andb].
  destruct (Nat.ltb 1 (length (decl_places c a n v))) eqn:L; [discriminate|].
  intro E. injection E as <- <-. apply Nat.ltb_ge in L.
  destruct (find_exact a (apath a) n v (rc_flavor c)) as [[s0 r0]|] eqn:F; [|exact (Hco _ _ D F)].
  destruct (find_exact_some _ _ _ _ _ _ _ F) as [Is0 Es0].
  assert (I0 : In (s0, rc_flavor c) (decl_places c a n v)).
  { apply decl_places_In. split; [exact Is0|]. split; [left; reflexivity|]. rewrite Es0. discriminate. }
  assert (Ne : (s, f) <> (s0, rc_flavor c)).
  { intro X. injection X as -> ->. apply Ns. split; [reflexivity|]. split; [left; reflexivity|exact (find_home _ _ _ _ _ _ F)]. }
  pose proof (two_members _ _ _ Ipl I0 Ne). lia.
Qed.

Section WholeCommand.
  Variables (xall keep : bool) (fuel : nat) (ww wu : world) (c : rconf) (st : rstate) (k : rcall) (answers : list str).
  Hypotheses (Hwf : wf_world ww) (Hdef : default_undeclared ww c) (Hdecl : declared ww (k_name k) (k_version k) = true).

(* the heart: either nothing was touched, or the destruction of Model/Remove.v ran on what the answers
   selected from a duplicate-free list of exactly the asked products *)
Lemma remove_x_core res st' :
  remove_x xall keep fuel ww wu c st k answers = (res, st') ->
  (exists e, res = Err e /\ st' = st) \/
  exists order, NoDup order /\
    (forall q, In q order <-> asked ww (k_name k) (k_version k) (k_recursive k) q) /\
    let sel := fst (select (k_interactive k) order ans_y answers) in
    NoDup sel /\ (forall q, In q sel -> asked ww (k_name k) (k_version k) (k_recursive k) q) /\
    exists r0, destroy_run keep c (rdb st) sel [] st r0 st' /\
               res = fst (finish (snd (select (k_interactive k) order ans_y answers)) (r0, st')).
Proof.
  intro H. rewrite remove_x_two_phases in H.
  destruct (two_phases_inv _ _ _ _ _ _ _ _ _ _ _ Hwf Hdef Hdecl _ _ H) as [E|[order [ND [LA Hd]]]]; [left; exact E|].
  right. exists order. split; [exact ND|]. split; [exact LA|]. cbv zeta.
  assert (LAs : forall q, In q (fst (select (k_interactive k) order ans_y answers)) ->
                          asked ww (k_name k) (k_version k) (k_recursive k) q).
  { intros q I. apply LA. exact (select_incl _ _ _ _ _ I). }
  split; [apply select_NoDup, ND|]. split; [exact LAs|].
  rewrite destroy_i_select in Hd.
  destruct (destroy keep c (rdb st) (fst (select (k_interactive k) order ans_y answers)) [] st) as [r0 s0] eqn:Ed.
  apply (destroy_runs _ _ _ _ _ _ _ _ (asked_all_real _ _ _ _ _ LAs)) in Ed.
  exists r0. unfold finish in Hd. destruct r0 as [u|x]; inversion Hd; subst; auto.
Qed.

Theorem remove_x_frame res st' :
  remove_x xall keep fuel ww wu c st k answers = (res, st') ->
  (forall s n' v' f', ~ doomed ww c (rdb st) (k_name k) (k_version k) (k_recursive k) s n' v' f' ->
     a_decl (rdb st') s n' v' f' = a_decl (rdb st) s n' v' f') /\
  (forall s n' t f', (forall v', a_tag (rdb st) s n' t f' = Some v' ->
                                 ~ doomed ww c (rdb st) (k_name k) (k_version k) (k_recursive k) s n' v' f') ->
     a_tag (rdb st') s n' t f' = a_tag (rdb st) s n' t f') /\
  (forall x, In x (rfs st') -> In x (rfs st)) /\
  (forall x, In x (rfs st) ->
     (forall q dir, asked ww (k_name k) (k_version k) (k_recursive k) q -> product_dir c (rdb st) q = Some dir ->
                    placeholder dir = false -> under dir x = false) ->
     In x (rfs st')).
Proof.
  intro H. destruct (remove_x_core _ _ H) as [[e [_ ->]]|[order [_ [_ X]]]].
  - repeat split; auto.
  - cbv zeta in X. set (sel := fst (select (k_interactive k) order ans_y answers)) in *.
    destruct X as [NDs [LAs [r0 [Hd _]]]].
    pose proof (fun s n' v' f' => gone_doomed ww c (rdb st) _ _ _ sel s n' v' f' LAs) as G.
    split; [|split; [|split]].
    + intros s n' v' f' N. apply (destroy_decl_frame _ _ _ _ _ _ _ _ Hd NDs). intro X. apply N, G, X.
    + intros s n' t f' N. apply (destroy_tag_frame _ _ _ _ _ _ _ _ Hd NDs). intros v' E X. apply (N v' E), G, X.
    + apply (destroy_fs_sub _ _ _ _ _ _ _ _ Hd).
    + intros x I N. apply (destroy_fs_keep _ _ _ _ _ _ _ _ Hd x I).
      intros p dir Ip. apply N, LAs, Ip.
Qed.

Theorem remove_x_frame_dirs res st' s0 m u f0 rs :
  wf_dirs (rdb st) ->
  remove_x xall keep fuel ww wu c st k answers = (res, st') ->
  a_decl (rdb st) s0 m u f0 = Some rs -> placeholder (fst rs) = false ->
  ~ doomed ww c (rdb st) (k_name k) (k_version k) (k_recursive k) s0 m u f0 ->
  forall x, under (fst rs) x = true -> (In x (rfs st') <-> In x (rfs st)).
Proof.
  intros Hd H Es Ps Ns x Ux. destruct (remove_x_frame _ _ H) as [_ [_ [F1 F2]]].
  split; [apply F1|]. intro I. apply (F2 x I). intros q dir Aq Pq Pd.
  apply (survivor_dir_apart ww c (rdb st) (k_name k) (k_version k) (k_recursive k) s0 m u f0 rs q dir x); assumption.
Qed.

Theorem remove_x_exact st' :
  remove_x xall keep fuel ww wu c st k answers = (Ok tt, st') ->
  exists order, NoDup order /\
    (forall q, In q order <-> asked ww (k_name k) (k_version k) (k_recursive k) q) /\
    let sel := fst (select (k_interactive k) order ans_y answers) in
    removed_exactly keep c st st' (gone c (rdb st) sel) (fun q => In q sel).
Proof.
  intro H. destruct (remove_x_core _ _ H) as [[e [E _]]|[order [ND [LA X]]]]; [discriminate|].
  exists order. split; [exact ND|]. split; [exact LA|]. cbv zeta in X |- *.
  destruct X as [NDs [_ [r0 [Hd Er]]]]. destruct r0 as [[]|x]; [|discriminate].
  exact (destroy_exact _ _ _ _ _ Hd NDs).
Qed.

Theorem remove_x_exact_plain st' :
  k_interactive k = false ->
  remove_x xall keep fuel ww wu c st k answers = (Ok tt, st') ->
  removed_exactly keep c st st' (doomed ww c (rdb st) (k_name k) (k_version k) (k_recursive k))
                  (asked ww (k_name k) (k_version k) (k_recursive k)).
Proof.
  intros Hi H. destruct (remove_x_exact _ H) as [order [_ [LA X]]]. cbv zeta in X.
  rewrite (select_all _ order ans_y answers Hi) in X. cbn [fst] in X.
  apply (removed_exactly_ext _ _ _ _ _ _ _ _ (fun s n v f => and_iff_compat_l _ (and_iff_compat_r _ (LA _))) LA X).
Qed.

Theorem remove_x_refusal_keeps_state st' :
  remove_x xall keep fuel ww wu c st k answers = (Err Refused, st') -> st' = st.
Proof.
  intro H. destruct (remove_x_core _ _ H) as [[e [_ E]]|[order [_ [_ [_ [_ [r0 [Hd Er]]]]]]]]; [exact E|].
  exfalso. destruct r0 as [[]|x].
  - destruct (snd (select (k_interactive k) order ans_y answers)); discriminate.
  - inversion Er. subst x. destruct (destroy_err _ _ _ _ _ _ _ _ Hd); discriminate.
Qed.

End WholeCommand.

Section KeepsDirectory.
  Variables (xall : bool) (fuel : nat) (ww wu : world) (c : rconf) (st : rstate) (k : rcall) (answers : list str).
  Hypotheses (Hwf : wf_world ww) (Hdef : default_undeclared ww c) (Hdecl : declared ww (k_name k) (k_version k) = true).

Theorem remove_x_frame_dirs_kept res st' s0 m u f0 rs :
  remove_x xall true fuel ww wu c st k answers = (res, st') ->
  a_decl (rdb st) s0 m u f0 = Some rs -> In s0 (apath (rdb st)) -> In f0 (fallbacks (rc_flavor c)) ->
  placeholder (fst rs) = false ->
  ~ doomed ww c (rdb st) (k_name k) (k_version k) (k_recursive k) s0 m u f0 ->
  forall x,
    (forall q dir, asked ww (k_name k) (k_version k) (k_recursive k) q -> product_dir c (rdb st) q = Some dir ->
                   placeholder dir = false -> under dir x = true -> under dir (fst rs) = true) ->
    (In x (rfs st') <-> In x (rfs st)).
Proof.
  intros H Es Is If Ps Ns x Hx.
  destruct (remove_x_core xall true fuel ww wu c st k answers Hwf Hdef Hdecl _ _ H) as [[e [_ ->]]|[order [_ [_ [NDs [LAs [r0 [Hd _]]]]]]]]; [tauto|].
  split; [apply (destroy_fs_sub _ _ _ _ _ _ _ _ Hd)|].
  intro I. apply (destroy_fs_protected _ _ _ _ _ _ _ Hd NDs x I).
  intros p dir Ip Pp Php Up. exists s0, m, u, f0, rs.
  split; [exact Is|]. split; [exact If|]. split; [exact Es|]. split; [exact Ps|].
  split; [apply (Hx p dir); auto|].
  intro G. exact (Ns (gone_doomed _ _ _ _ _ _ _ _ _ _ _ LAs G)).
Qed.
End KeepsDirectory.

Theorem remove_x_is_remove xall keep fuel w c st n v recursive chk answers :
  (xall = true -> chk = true -> length (decl_places c (rdb st) n v) <= 1) ->
  remove_x xall keep fuel w w c st (mkCall n v recursive chk false) answers = remove true true keep fuel w c st n v recursive chk.
Proof.
  intro H. unfold remove_x, remove. cbn [k_name k_version k_recursive k_check k_interactive].
  assert (T : top_of xall c (rdb st) n v chk = Some (n, v)).
  { unfold top_of. destruct xall, chk; cbn [andb]; try reflexivity.
    specialize (H eq_refl eq_refl). apply Nat.ltb_ge in H. rewrite H. reflexivity. }
  rewrite T. destruct (if chk then uses_index fuel w else Ok []) as [idx|e]; [|reflexivity].
  destruct (collect true true chk w idx c (Some (n, v)) fuel [] n (Some v) recursive) as [[l s']|e]; [|reflexivity].
  apply destroy_i_false.
Qed.

Corollary remove_is_remove_x keep fuel w c st n v recursive chk :
  remove true true keep fuel w c st n v recursive chk =
  remove_x false keep fuel w w c st (mkCall n v recursive chk false) [].
Proof. symmetry. apply remove_x_is_remove. discriminate. Qed.

Theorem front_end_exact xall keep fuel ww wu flavor dp st o p v rest answers :
  eups_remove xall keep fuel ww wu flavor dp st o (p :: v :: rest) answers =
  Some (remove_x xall keep fuel ww wu (mkRC flavor dp (ro_force o)) st
          (mkCall p v (ro_recursive o) (negb (ro_nocheck o))
                  (match ro_interactive o with Some b => b | None => false end)) answers).
Proof. reflexivity. Qed.

Theorem front_end_usage xall keep fuel ww wu flavor dp st o args answers :
  length args < 2 -> eups_remove xall keep fuel ww wu flavor dp st o args answers = None.
Proof. destruct args as [|p [|v r]]; cbn [length]; intro H; [reflexivity|reflexivity|lia]. Qed.
