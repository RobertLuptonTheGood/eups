(* The one-stack world of Model/Setup.v as a special case of the world with several stacks (Model/SetupMS.v embed):
   every declaration in the stack c_root cfg under the flavor flavor_of cfg, every decision naming that stack.
   Proved here: the value written in SETUP_NAME is the same, the look-up by decision is the same, and findSetupProduct
   agrees on every value Eups.setup of the one-stack model writes.  The equality of whole runs is checked by
   execution - on the example world below, and by the correspondence check on every generated one-stack scenario
   (harness/setupsim.py: one-stack-request-through-the-multi-stack-model); it is not proved in general: the one-stack
   model does not read the stack a SETUP_ value records, so the two differ on an environment whose record names
   another root, and the run equality needs the invariant that no such record arises. *)
From Eupsv Require Import Base.Base Base.BaseLemmas Model.PathAlg Proofs.PathAlg Model.Setup Model.SetupMS
     Proofs.SetupMSFrame Proofs.SetupMSInv Proofs.SetupExample.

Lemma embed_setup_string cfg p : ms_setup_string (embed_product cfg p) = setup_string cfg (p_name p) (p_version p).
Proof. reflexivity. Qed.

Lemma embed_find cfg w name v :
  find_pvr (embed cfg w) name (mkVref v (c_root cfg)) = option_map (embed_product cfg) (find_pv w name v).
Proof.
  induction w as [|p w IH]; [reflexivity|]. cbn [embed map find_pvr find_pv]. unfold mp_is.
  cbn [embed_product mp_name mp_version mp_root vr_version vr_root]. rewrite str_eqb_refl, andb_true_r.
  destruct (str_eqb (p_name p) name && str_eqb (p_version p) v); [reflexivity|exact IH].
Qed.

(* on the value the one-stack Eups.setup writes for a declared product, the two findSetupProduct agree *)
Lemma embed_find_setup_product cfg w e p :
  word (p_name p) -> word (p_version p) -> p_version p <> lit "-f" ->
  word (flavor_of cfg (p_name p) (p_version p)) -> root_ok (c_root cfg) ->
  alookup (setup_var (p_name p)) e = Some (setup_string cfg (p_name p) (p_version p)) ->
  find_pv w (p_name p) (p_version p) = Some p ->
  mfind_setup_product (embed cfg w) (c_flavor cfg) e (p_name p) =
  option_map (embed_product cfg) (find_setup_product w e (p_name p)).
Proof.
  intros Wn Wv Wf Wfl Wr E Hf. unfold mfind_setup_product, find_setup_product. rewrite E.
  rewrite <- (embed_setup_string cfg p).
  rewrite (recorded_setup_string (embed_product cfg p) Wn Wv Wf Wfl Wr).
  rewrite (embed_setup_string cfg p).
  assert (R : recorded_version (setup_string cfg (p_name p) (p_version p)) = Some (p_version p)).
  { unfold recorded_version.
    change (setup_string cfg (p_name p) (p_version p))
      with (p_name p ++ c_space :: (p_version p ++ c_space ::
              (lit "-f " ++ flavor_of cfg (p_name p) (p_version p) ++ lit " -Z " ++ encode_path (c_root cfg)))).
    rewrite (words_head (p_name p) _ Wn), (words_head (p_version p) _ Wv).
    destruct (str_eqb_spec (p_version p) (lit "-f")); [contradiction|reflexivity]. }
  rewrite R. cbn [embed_product mp_version mp_root]. rewrite embed_find, Hf. cbn [option_map embed_product mp_flavor].
  now rewrite str_eqb_refl.
Qed.

(* the example world of Proofs/SetupExample.v (diamond with conflicting versions): the same run in both models *)
Example embed_example_run :
  msetup (embed ex_cfg ex_world) ex_cfg 20 ex_st0 (map (embed_decision ex_cfg) ex_ds) (lit "app") true 0 false =
  embed_result ex_cfg (setup ex_world ex_cfg 20 ex_st0 ex_ds (lit "app") true 0 false) /\
  msetup (embed ex_cfg ex_world) ex_cfg 20 ex_final [] (lit "app") false 0 false =
  embed_result ex_cfg (setup ex_world ex_cfg 20 ex_final [] (lit "app") false 0 false).
Proof. split; vm_compute; reflexivity. Qed.
