(* C04, --keep, end to end on the composed model Model/SetupFull.v: with keep at the head of the VRO (and
   Eups.keep set, as the command line option does both), every product other than the requested one that
   the environment records before the request is recorded with the same version after it.

   Shape of the argument.  At the top level alreadySetupProducts is rebuilt from the environment, so it
   is in sync with it: every recorded product has an entry with the recorded version.  Below the top
   level the entry keep of the VRO returns the entry of the requested product whenever there is one
   (hypothesis keep_first, discharged in Props/C04.v by keep_retains_partial_resolver), so
     - a product that is recorded is decided at its recorded version and the call returns without
       touching anything (the setup half, cf. keep_retains_partial_setup);
     - the version stored in an entry never changes (so restoring the environment after a failed
       dependency keeps the dictionary in sync with the restored environment);
     - no unsetup ever happens below the top level.
   At the top level the replaced version of the requested product is unset without its dependencies
   (the fix 6851e7d: noRecursion or keep), which touches only its own variables. *)
From Eupsv Require Import Base.Base Base.BaseLemmas Model.PathAlg Proofs.PathAlg Model.Setup Proofs.SetupFrame
     Proofs.SetupInv Model.Resolve Model.ResolveSpec Proofs.ResolveLib Proofs.Resolve Model.SetupFull
     Proofs.SetupFull.

Section Keep.
Variable vcmp : str -> str -> comparison.
Variable vmatch : str -> str -> bool.
Variable fw : fworld.
Variable cfg : Setup.config.
Variable rc : Resolve.config.
Variable flavors : list str.
Variable dl : str -> ascii.
Variable rank : str -> nat.

Notation w := (fw_products fw).
Notation full := (setup_full vcmp vmatch fw cfg rc flavors).
Notation step_full := (setup_full_step vcmp vmatch fw cfg rc flavors).
Notation run_full := (run_actions_full cfg).
Notation db := (db_of cfg fw).
Notation recorded := (recorded fw).
Notation retains := (retains fw).
Notation install := (install fw cfg).
Notation unsetup_old := (unsetup_old fw cfg).
Notation resolve_call := (resolve_call vcmp vmatch fw cfg rc flavors).

Hypothesis H : WF2 w dl rank.
Hypothesis Hkeep : c_keep cfg = true.
Hypothesis Hflavors : flavors <> [].
(* the resolver half: keep_retains_partial_resolver of Props/C04.v *)
Hypothesis keep_first : forall op ox f d rest rq,
  find_from_vro vcmp vmatch rc db (Some (op, ox)) f (S d) (EKeep :: rest) rq = Some (op, (EKeep, None)).

Definition insync (e : amap str) (al : already) : Prop :=
  forall n q, recorded e n q -> exists fd r, alookup n al = Some (fd, r) /\ fd_version fd = p_version q.
Definition stable (al al' : already) : Prop :=
  forall n fd r, alookup n al = Some (fd, r) -> exists r', alookup n al' = Some (fd, r').

Lemma stable_refl al : stable al al.
Proof. intros n fd r E. now exists r. Qed.
Lemma stable_trans a1 a2 a3 : stable a1 a2 -> stable a2 a3 -> stable a1 a3.
Proof. intros A B n fd r E. destruct (A n fd r E) as [r' E']. exact (B n fd r' E'). Qed.
Lemma insync_stable e al al' : insync e al -> stable al al' -> insync e al'.
Proof.
  intros I S n q R. destruct (I n q R) as [fd [r [E V]]]. destruct (S n fd r E) as [r' E']. exists fd, r'. split; assumption.
Qed.
Lemma insync_retains e e' al : retains e' e -> insync e al -> insync e' al.
Proof. intros R I n q Rq. apply I. now apply R. Qed.

Lemma stable_aset al m fd why :
  (forall op ox, alookup m al = Some (op, ox) -> op = fd) -> stable al (aset m (fd, why) al).
Proof.
  intros Hm n fd0 r E. destruct (str_eq_dec n m) as [->|N].
  - exists why. rewrite alookup_aset_same. now rewrite (Hm fd0 r E).
  - exists r. now rewrite alookup_aset_other.
Qed.

Lemma resolve_keep op ox d rest rq :
  resolve_request vcmp vmatch rc db (c_keep cfg) (Some (op, ox)) flavors (S d) (EKeep :: rest) rq =
  Ok (Some (op, Some (EKeep, None))).
Proof.
  unfold resolve_request. destruct flavors as [|f fs]; [contradiction|]. cbn [flavor_loop].
  now rewrite (accept_deep vcmp vmatch rc db (c_keep cfg) (Some (op, ox)) f d (EKeep :: rest) rq
                 (length (EKeep :: rest)) op (EKeep, None) (keep_first op ox f d rest rq)).
Qed.

Lemma child_vro_keep rest : child_vro (EKeep :: rest) = EKeep :: EKeep :: rest.
Proof. reflexivity. Qed.

Definition keep_post (st : state) (al : already) (r : fresult) : Prop :=
  match r with
  | FDone true st' al' _ => retains (s_env st) (s_env st') /\ insync (s_env st') al' /\ stable al al' /\
                            nodollar_paths w (s_env st')
  | FDone false _ al' _ => stable al al'
  | FRaise _ al' _ => stable al al'
  | _ => True
  end.

Lemma keep_post_trace st al pre r : keep_post st al r -> keep_post st al (with_trace pre r).
Proof. destruct r as [[|] st' al' tr|st' al' tr|tr|tr]; exact (fun x => x). Qed.

Lemma keep_post_step st al st1 al1 r :
  retains (s_env st) (s_env st1) -> stable al al1 -> keep_post st1 al1 r -> keep_post st al r.
Proof.
  intros R S. destruct r as [[|] st' al' tr|st' al' tr|tr|tr]; cbn [keep_post]; auto.
  - intros [R' [I' [S' D']]]. split; [exact (retains_trans fw _ _ _ R R')|].
    split; [assumption|]. split; [exact (stable_trans _ _ _ S S')|assumption].
  - intro S'. exact (stable_trans _ _ _ S S').
  - intro S'. exact (stable_trans _ _ _ S S').
Qed.

Definition keep_fn (frec : full_fn) : Prop :=
  forall st al rest m li d jst,
    nodollar_paths w (s_env st) -> insync (s_env st) al ->
    keep_post st al (frec st al (EKeep :: rest) m li true (S d) jst).

Lemma run_keep frec name p depth just rest :
  keep_fn frec -> has_name w name p ->
  forall acts, (forall a, In a acts -> In a (p_actions p)) ->
  forall infos st al, nodollar_paths w (s_env st) -> insync (s_env st) al ->
    keep_post st al (run_full frec true depth just (EKeep :: rest) acts infos st al).
Proof.
  intros HK Hp. induction acts as [|a acts IH]; intros Hsub infos st al Hnd HI.
  - cbn [run_actions_full keep_post]. split; [apply retains_refl|]. split; [assumption|].
    split; [apply stable_refl|assumption].
  - assert (Hsub' : forall a0, In a0 acts -> In a0 (p_actions p)) by (intros; apply Hsub; now right).
    destruct (dep_dec a) as [[o [m [j ->]]]|Hns].
    + cbn [run_actions_full]. destruct (cut_off cfg just (S depth)); [now apply IH|]. rewrite child_vro_keep.
      (* the dependency failed: the environment is restored, and the dictionary is still in sync with it *)
      assert (Failed : forall al' tr, stable al al' ->
                keep_post st al (if true && negb o then FRaise st al' tr
                                 else with_trace tr (run_full frec true depth just (EKeep :: rest) acts (tl infos) st al'))).
      { intros al' tr S. destruct (true && negb o); [exact S|]. apply keep_post_trace.
        apply (keep_post_step st al st al' _ (retains_refl fw _) S). apply IH; auto. exact (insync_stable _ _ _ HI S). }
      pose proof (HK st al (EKeep :: rest) m (hd no_info infos) depth j Hnd HI) as C.
      destruct (frec st al (EKeep :: EKeep :: rest) m (hd no_info infos) true (S depth) j)
        as [[|] st' al' tr|st' al' tr|tr|tr]; cbn [keep_post] in C; try exact I.
      * destruct C as [R [I' [S D]]]. apply keep_post_trace.
        apply (keep_post_step st al st' al'); auto.
      * exact (Failed al' tr C).
      * exact (Failed al' tr C).
    + rewrite (run_full_simple cfg) by assumption.
      destruct (simple_records fw cfg dl rank H name p true a st Hp (Hsub a (or_introl eq_refl)) Hns Hnd)
        as [st' [E [D [F _]]]].
      rewrite E. destruct (same_records fw _ _ F) as [R R'].
      apply (keep_post_step st al st' al _ R (stable_refl al)). apply IH; auto. exact (insync_retains _ _ _ R' HI).
Qed.

Lemma table_keep frec st al m p fd why depth just rest :
  keep_fn frec -> find_pv w m (p_version p) = Some p -> fd_version fd = p_version p ->
  find_setup_product w (s_env st) m = None -> nodollar_paths w (s_env st) -> insync (s_env st) al ->
  (forall op ox, alookup m al = Some (op, ox) -> op = fd) ->
  keep_post st al (run_full frec true depth just (EKeep :: rest) (p_actions p) (lines_of fw p)
                            (set_product_vars cfg st m p) (aset m (fd, why) al)).
Proof.
  intros HK F V Hs Hnd HI HR.
  destruct (set_vars_records fw cfg dl rank H st m p F Hs Hnd) as [Self [Ret [Back Dn]]].
  pose proof (stable_aset al m fd why HR) as S.
  apply (keep_post_step st al (set_product_vars cfg st m p) (aset m (fd, why) al) _ Ret S).
  apply (run_keep frec m p depth just rest HK (proj1 (find_pv_spec w m _ p F)) (p_actions p) (fun a Ha => Ha));
    [assumption|].
  intros n q R. destruct (Back n q R) as [->|R0]; [|exact (insync_stable _ _ _ HI S n q R0)].
  rewrite <- (recorded_inj fw _ _ _ _ Self R). exists fd, why. split; [apply alookup_aset_same|assumption].
Qed.

Lemma keep_step frec : keep_fn frec -> keep_fn (step_full frec).
Proof.
  intros HK st al rest m li d jst Hnd HI.
  (* what the resolver returns is the entry of the dictionary, if there is one *)
  assert (HR : forall fd why op ox,
            resolve_call al (EKeep :: rest) m li (S d) = Ok (Some (fd, why)) ->
            alookup m al = Some (op, ox) -> op = fd).
  { intros fd why op ox R E. unfold SetupFull.resolve_call in R. rewrite E, resolve_keep in R. now injection R as -> _. }
  rewrite (step_full_below vcmp vmatch fw cfg rc flavors dl rank H).
  2:{ intros fd why q R Rq. destruct (HI m q Rq) as [fd0 [r [E0 V0]]]. now rewrite <- (HR fd why fd0 r R E0). }
  destruct (resolve_call al (EKeep :: rest) m li (S d)) as [[[fd why]|]|e]; try (cbn [keep_post]; apply stable_refl).
  destruct (find_pv w m (fd_version fd)) as [p|] eqn:F; [|exact I].
  destruct (find_pv_spec w m _ p F) as [_ Hv]. rewrite <- Hv in F.
  destruct (find_setup_product w (s_env st) m) as [q|] eqn:Hs.
  - (* recorded: decided at the recorded version, nothing is touched *)
    cbn [keep_post]. split; [apply retains_refl|]. split; [assumption|]. split; [apply stable_refl|assumption].
  - apply keep_post_trace. apply table_keep; auto. intros op ox. exact (HR fd why op ox eq_refl).
Qed.

Lemma keep_full fuel : keep_fn (full fuel).
Proof.
  induction fuel as [|fuel IH].
  - intros st al rest m li d jst _ _. exact I.
  - cbn [setup_full]. now apply keep_step.
Qed.

Lemma rebuild_insync e : insync e (rebuild w cfg e).
Proof.
  intros n q R. exists (found_of cfg q), None. split; [|reflexivity].
  apply rebuild_lookup; [|exact R]. apply uniq_In. apply in_map_iff.
  destruct (find_setup_product_spec w e n q R) as [Hin Hn]. exists q. split; assumption.
Qed.

Theorem keep_retains_lemma fuel st al0 rest name li just ok st' al' tr :
  nodollar_paths w (s_env st) ->
  full fuel st al0 (EKeep :: rest) name li true 0 just = FDone ok st' al' tr ->
  forall n q, n <> name -> recorded (s_env st) n q -> recorded (s_env st') n q.
Proof.
  intros Hnd E n q Hne R0.
  destruct fuel as [|fuel]; [discriminate|]. cbn [setup_full] in E. rewrite step_full_forward in E.
  destruct (resolve_call al0 (EKeep :: rest) name li 0) as [[[fd why]|]|e];
    try (injection E as _ <- _ _; exact R0).
  destruct (find_pv w name (fd_version fd)) as [p|] eqn:F; [|discriminate].
  cbn [Nat.eqb negb] in E. rewrite andb_false_r in E.
  destruct (with_trace_done _ _ _ _ _ _ E) as [tr1 E1]. unfold install in E1.
  set (al1 := aset name (fd, why) (rebuild w cfg (s_env st))) in E1.
  destruct (find_pv_spec w name _ p F) as [_ Hv]. rewrite <- Hv in F.
  (* the state after the replaced version (if any) has been unset *)
  pose proof (unsetup_old_just vcmp vmatch fw cfg rc flavors dl rank H fuel st al1 (EKeep :: rest) name 0 just) as U.
  rewrite Hkeep, orb_true_r in U. specialize (U eq_refl Hnd).
  destruct (unsetup_old (full fuel) st al1 (EKeep :: rest) name 0 just) as [ok1 st1 al2 tr0|st1 al2 tr0|tr0|tr0];
    try discriminate.
  destruct U as [-> [D1 [N1 O1]]]. destruct (with_trace_done _ _ _ _ _ _ E1) as [tr2 E2].
  assert (I1 : insync (s_env st1) al1).
  { intros n0 q0 R. destruct (str_eq_dec n0 name) as [->|N0]; [unfold SetupFull.recorded in R; congruence|].
    unfold SetupFull.recorded in R. rewrite (O1 n0 N0 (recorded_known fw _ n0 q0 R)) in R.
    destruct (rebuild_insync (s_env st) n0 q0 R) as [fd0 [r [E0 V0]]]. exists fd0, r.
    split; [|assumption]. unfold al1. now rewrite alookup_aset_other. }
  pose proof (table_keep (full fuel) st1 al1 name p fd why 0 just rest (keep_full fuel) F (eq_sym Hv) N1 D1 I1) as K.
  rewrite E2, (run_full_ok cfg _ _ _ _ _ _ _ _ _ _ _ _ _ E2) in K. destruct K as [Rk _].
  { intros op ox X. unfold al1 in X. rewrite alookup_aset_same in X. now injection X as <- _. }
  apply Rk. unfold SetupFull.recorded. rewrite (O1 n Hne (recorded_known fw _ n q R0)). exact R0.
Qed.

End Keep.
