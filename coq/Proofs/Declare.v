(* Relocation (C16): what Database.declare stores (canonicalizePaths, addFlavor and the trimDir
   loop of write on the declared forms), and what Database.findProduct makes of the stored block.
   The stack is named root (the name on EUPS_PATH, which every declared path inside the stack
   begins with); rroot is the directory that name resolves to.  Without symbolic links the
   two are the same. *)
From Eupsv Require Import Base.Base Base.BaseLemmas Model.Paths Model.Records
  Proofs.RecordsLib Proofs.PathsLib Proofs.Records Proofs.Paths Proofs.Links.
From Coq Require Import Lia.

(* o is not the stack root nor below it *)
Definition outside (root o : str) : bool :=
  negb (str_eqb o root) && negb (starts_with (root ++ [c_slash]) o).

Definition wf_place (root : str) (dk : dirk) : bool :=
  match dk with DOut o => outside root o | _ => true end.

Lemma if_same {A} (b : bool) (x : A) : (if b then x else x) = x.
Proof. now destruct b. Qed.

Lemma dir_stored_props dk : wf_dirk dk = true ->
  nonempty (dir_stored dk) = true /\ ends_slash (dir_stored dk) = false.
Proof.
  destruct dk as [d|o|]; cbn; intro H.
  - apply wf_rel_parts in H. tauto.
  - pose proof (wf_abs_nonempty _ H). apply wf_abs_parts in H. destruct o; [congruence|]. tauto.
  - split; reflexivity.
Qed.

Lemma dir_given_truthy root dk : wf_abs root = true -> wf_dirk dk = true ->
  truthy (Some (dir_given root dk)) = true.
Proof.
  intros HR Hd. destruct dk as [d|o|]; cbn [dir_given].
  - apply isabs_truthy, isabs_app. apply wf_abs_parts in HR. tauto.
  - apply isabs_truthy. cbn in Hd. apply wf_abs_parts in Hd. tauto.
  - reflexivity.
Qed.

Lemma canon_dir_dk root dk :
  wf_abs root = true -> wf_place root dk = true ->
  canon_dir root (Some (dir_given root dk)) = Some (dir_stored dk).
Proof.
  intros HR Hp. destruct dk as [d|o|]; cbn [dir_given dir_stored wf_place] in *.
  - unfold canon_dir. rewrite isabs_real by (apply isabs_app; apply wf_abs_parts in HR; tauto).
    rewrite starts_with_sep. cbn [andb]. f_equal. rewrite Nat.add_1_r. apply skipn_S_app_len.
  - unfold canon_dir. unfold outside in Hp. apply andb_true_iff in Hp. destruct Hp as [_ Hp].
    apply negb_true_iff in Hp. now rewrite Hp, andb_false_r.
  - reflexivity.
Qed.

(* the table file and ups dir forms that canonicalizePaths leaves alone *)
Definition canon_keeps (root : str) (t : str) (u : val) : Prop :=
  (isabs t = true /\ u = Some s_ups /\ starts_with (db_of root ++ [c_slash]) t = false)
  \/ (isabs t = false /\ match u with Some s => isabs s = false | None => True end).

Lemma canon_table_keeps root dir t u :
  canon_keeps root t u ->
  canon_table true dir (Some (db_of root)) (Some t) u = (Some t, u).
Proof.
  intros [[H1 [-> H3]] | [H1 H2]]; unfold canon_table.
  - rewrite H1, isabs_real by assumption. cbn [andb]. rewrite H3, andb_false_r.
    unfold strip_rel. change (is_real (Some s_ups)) with true. cbv iota.
    destruct (isabs_cons t H1) as [r ->]. reflexivity.
  - now rewrite H1, andb_false_r.
Qed.

Lemma canon_ups_keeps dir db t u root :
  canon_keeps root t u -> canon_ups dir db u = u.
Proof.
  intros [[_ [-> _]] | [_ H2]]; [reflexivity|]. destruct u as [s|]; [|reflexivity].
  unfold canon_ups. now rewrite H2, andb_false_r.
Qed.

Lemma canon_scenario n v f root dk t u :
  wf_abs root = true -> wf_dirk dk = true -> wf_place root dk = true -> canon_keeps root t u ->
  canon_gen true (prod_of n v f (Some (dir_given root dk)) (Some t) (Some (db_of root)) u)
  = prod_of n v f (Some (dir_stored dk)) (Some t) (Some (db_of root)) u.
Proof.
  intros HR Hd Hp Hk. unfold canon_gen, prod_of. rewrite stack_root_db by assumption.
  rewrite isabs_real by (apply wf_abs_parts in HR; tauto). cbn [negb].
  cbn [p_name p_version p_flavor p_dir p_table p_db p_ups canon_defaults fst snd].
  rewrite canon_table_keeps by assumption. cbn [fst snd].
  rewrite (canon_ups_keeps _ _ t u root) by assumption.
  now rewrite canon_dir_dk.
Qed.

Definition ups_word (u : val) : str := match u with Some s => s | None => s_none end.

(* the ups dir forms that addFlavor stores unchanged: a relative path without trailing slash, or None *)
Definition ups_plain (u : val) : Prop :=
  match u with Some s => nonempty s = true /\ isabs s = false /\ ends_slash s = false | None => True end.

Lemma af_dir_stored dk : wf_dirk dk = true ->
  af_dir (Some (dir_stored dk)) = ([(k_productDir, Some (dir_stored dk))], Some (dir_stored dk)).
Proof.
  intro H. destruct (dir_stored_props dk H) as [H1 H2]. unfold af_dir.
  destruct (dir_stored dk) as [|c x] eqn:E; [discriminate|]. now rewrite rstrip_slash_id.
Qed.

Lemma af_ups_plain inst u : ups_plain u -> af_ups inst u = Some (ups_word u).
Proof.
  destruct u as [s|]; [|reflexivity]. intros [H1 [H2 H3]]. unfold af_ups.
  destruct s as [|c x]; [discriminate|]. rewrite rstrip_slash_id by assumption.
  now rewrite H2, !andb_false_r.
Qed.

(* addFlavor's test for a table file it strips itself: the install dir is a real directory name and
   the table file lies below it *)
Definition under_dir (dS t : str) : bool :=
  is_real (Some dS) && isabs t && starts_with (dS ++ [c_slash]) t.

Lemma af_table_keep i1 dS u t : nonempty t = true -> under_dir dS t = false ->
  af_table i1 (Some dS) u (Some t) = (i1 ++ [(k_table_file, Some t)], u).
Proof.
  intros Ht H. unfold af_table. destruct t as [|c x]; [discriminate|].
  unfold under_dir in H. destruct (truthy (Some dS)); cbn [andb]; [rewrite H|]; reflexivity.
Qed.

Definition block_of (who now : str) (dS t U : str) : info :=
  [(k_productDir, Some dS); (k_table_file, Some t); (k_ups_dir, Some U);
   (k_declarer, Some who); (k_declared, Some now)].

Lemma block_of_wf who now dS t U :
  wf_value who = true -> wf_value now = true -> wf_value dS = true -> wf_value t = true ->
  wf_value U = true -> wf_info (block_of who now dS t U) = true.
Proof.
  intros Wwho Wnow Wd Wt Wu. unfold wf_info, printed, block_of. cbn [vf_fields flat_map printed_of].
  change (alookup k_declarer _) with (Some (Some who)).
  change (alookup k_declared _) with (Some (Some now)).
  change (alookup k_modifier _) with (@None val).
  change (alookup k_modified _) with (@None val).
  change (alookup k_productDir _) with (Some (Some dS)).
  change (alookup k_ups_dir _) with (Some (Some U)).
  change (alookup k_table_file _) with (Some (Some t)).
  cbv beta iota.
  assert (T : forall s, wf_value s = true -> truthy (Some s) = true)
    by (intros s W; destruct (wf_value_nonempty s W) as [? [? ->]]; reflexivity).
  rewrite !T by assumption. cbn [val_str app forallb snd]. rewrite Wwho, Wnow, Wd, Wt, Wu. reflexivity.
Qed.

Lemma add_flavor_fresh who now f dk t u r :
  wf_dirk dk = true -> alookup f (vf_info r) = None ->
  nonempty t = true -> under_dir (dir_stored dk) t = false -> ups_plain u ->
  add_flavor who now f (Some (dir_stored dk)) (Some t) u r
  = {| vf_name := vf_name r; vf_version := vf_version r;
       vf_info := vf_info r ++ [(f, block_of who now (dir_stored dk) t (ups_word u))] |}.
Proof.
  intros Hd Hf Ht Hu Hp. unfold add_flavor. rewrite Hf. unfold old_value.
  destruct (dir_stored_props dk Hd) as [D1 D2].
  rewrite !if_same. rewrite af_dir_stored by assumption. cbn [fst snd].
  rewrite af_table_keep by assumption. cbn [fst snd].
  rewrite af_ups_plain by assumption.
  rewrite aset_fresh by (apply alookup_None_notin in Hf; exact Hf). reflexivity.
Qed.

(* a table file in the ups directory of an outside product: stripped by addFlavor itself *)
Lemma af_table_ups_out i1 o tn :
  wf_abs o = true -> mem_ascii c_slash tn = false ->
  af_table i1 (Some o) (Some s_ups) (Some (o ++ c_slash :: s_ups ++ c_slash :: tn))
  = (i1 ++ [(k_table_file, Some tn)], Some s_ups).
Proof.
  intros Ho Hs. apply wf_abs_parts in Ho. destruct Ho as [O1 [O2 O3]].
  assert (Eabs : isabs (o ++ c_slash :: s_ups ++ c_slash :: tn) = true) by now apply isabs_app.
  unfold af_table. destruct (isabs_cons _ Eabs) as [rest Erest]. rewrite Erest. rewrite <- Erest.
  rewrite (isabs_truthy _ O1), (isabs_real _ O1), Eabs. cbn [andb].
  rewrite starts_with_sep. rewrite after_app. change (str_eqb s_ups s_none) with false. cbn [negb].
  rewrite dirname_app by (assumption || discriminate || reflexivity).
  rewrite basename_app by assumption.
  destruct s_ups as [|a l] eqn:E; [discriminate E|]. reflexivity.
Qed.

Lemma add_flavor_fresh_ups_out who now f o tn r :
  wf_abs o = true -> alookup f (vf_info r) = None -> mem_ascii c_slash tn = false ->
  add_flavor who now f (Some o) (Some (o ++ c_slash :: s_ups ++ c_slash :: tn)) (Some s_ups) r
  = {| vf_name := vf_name r; vf_version := vf_version r;
       vf_info := vf_info r ++ [(f, block_of who now o tn s_ups)] |}.
Proof.
  intros Ho Hf Hs. unfold add_flavor. rewrite Hf. unfold old_value. rewrite !if_same.
  pose proof (af_dir_stored (DOut o) Ho) as Ed. cbn [dir_stored] in Ed. rewrite Ed. cbn [fst snd].
  rewrite af_table_ups_out by assumption. cbn [fst snd].
  rewrite (af_ups_plain (Some o) (Some s_ups)) by (repeat split; reflexivity).
  rewrite aset_fresh by (apply alookup_None_notin in Hf; exact Hf). reflexivity.
Qed.

Definition rp (pe : penv) (s : str) : str := realpath (pe_links pe) s.

(* a value the loop leaves alone: it is relative, or it does not exist, or its resolved name
   is not below the resolved stack root *)
Definition inert_val (pe : penv) (ex : str -> bool) (rroot s : str) : Prop :=
  isabs s = false \/ ex s = false \/ subpath_abs (rp pe s) rroot = false.

Lemma trim_key_inert pe ex root rroot k (i : info) :
  isabs root = true -> rp pe root = rroot ->
  (forall s, alookup k i = Some (Some s) -> inert_val pe ex rroot s) ->
  trim_key true pe ex (Some root) k i = Ok i.
Proof.
  intros HA HR H. unfold trim_key. destruct (alookup k i) as [[s|]|] eqn:E; try reflexivity.
  cbn [andb]. destruct (isabs s) eqn:A; cbn [negb]; [|reflexivity].
  rewrite (abs_from_abs _ _ A).
  destruct (H s eq_refl) as [H1|[H1|H1]].
  - congruence.
  - now rewrite H1.
  - destruct (ex s); [|reflexivity]. cbn [negb]. destruct root as [|c r]; [reflexivity|].
    rewrite (abs_from_abs _ _ HA). unfold rp in *. rewrite HR, H1. reflexivity.
Qed.

Lemma trim_keys_inert pe ex root rroot keys (i : info) :
  isabs root = true -> rp pe root = rroot ->
  (forall k s, In k keys -> alookup k i = Some (Some s) -> inert_val pe ex rroot s) ->
  trim_keys true pe ex (Some root) keys i = Ok i.
Proof.
  intros HA HR H. induction keys as [|k ks IH]; [reflexivity|]. cbn [trim_keys].
  rewrite (trim_key_inert pe ex root rroot)
    by (assumption || (intros s E; exact (H k s (or_introl eq_refl) E))).
  apply IH. intros k' s Hk. apply H. now right.
Qed.

Lemma trim_all_inert pe ex root rroot (m : amap info) :
  isabs root = true -> rp pe root = rroot ->
  (forall g j, In (g, j) m -> forall k s, alookup k j = Some (Some s) -> inert_val pe ex rroot s) ->
  trim_all true pe ex (Some root) m = Ok m.
Proof.
  intros HA HR. induction m as [|[g j] m IH]; intro H; [reflexivity|]. cbn [trim_all].
  unfold trim_info_gen.
  rewrite (trim_keys_inert pe ex root rroot) by (assumption || (intros k s _; apply (H g j); now left)).
  cbn [bind]. rewrite IH; [reflexivity|]. intros g' j' Hin. apply (H g' j'). now right.
Qed.

Lemma trim_all_app_last pe ex root (m : amap info) f i i' :
  trim_all true pe ex (Some root) m = Ok m -> trim_info pe ex (Some root) i = Ok i' ->
  trim_all true pe ex (Some root) (m ++ [(f, i)]) = Ok (m ++ [(f, i')]).
Proof.
  induction m as [|[g j] m IH]; intros H T; cbn [app trim_all].
  - unfold trim_info in T. rewrite T. reflexivity.
  - cbn [trim_all] in H. destruct (trim_info_gen true pe ex (Some root) j) as [j'|]; [|discriminate].
    cbn [bind] in *. destruct (trim_all true pe ex (Some root) m) as [m'|] eqn:Em; [|discriminate].
    cbn [bind] in H. injection H as -> ->. rewrite (IH eq_refl T). reflexivity.
Qed.

Lemma subpath_abs_outside rroot p : wf_abs rroot = true -> outside rroot p = true ->
  subpath_abs p rroot = false.
Proof.
  intros HR H. pose proof (wf_abs_nonempty _ HR) as NR.
  apply wf_abs_parts in HR. destruct HR as [R1 [R2 _]].
  unfold outside in H. apply andb_true_iff in H. destruct H as [H1 H2]. apply negb_true_iff in H1, H2.
  unfold subpath_abs. rewrite path_join_nil by assumption. now rewrite H1, H2.
Qed.

(* an outside directory resolves to a place outside the resolved stack root *)
Definition out_dir (pe : penv) (rroot : str) (dk : dirk) : Prop :=
  match dk with DOut o => outside rroot (rp pe o) = true | _ => True end.

Lemma dir_stored_inert pe ex rroot dk :
  wf_abs rroot = true -> wf_dirk dk = true -> out_dir pe rroot dk ->
  inert_val pe ex rroot (dir_stored dk).
Proof.
  intros HR Hd Hp. destruct dk as [d|o|]; cbn [dir_stored wf_dirk out_dir] in *.
  - left. apply wf_rel_parts in Hd. tauto.
  - right. right. now apply subpath_abs_outside.
  - left. reflexivity.
Qed.

Lemma rel_inert pe ex rroot s : isabs s = false -> inert_val pe ex rroot s.
Proof. intro H. now left. Qed.

Lemma trim_block_inert pe ex root rroot who now dS t U :
  isabs root = true -> rp pe root = rroot ->
  inert_val pe ex rroot dS -> inert_val pe ex rroot t -> inert_val pe ex rroot U ->
  ex who = false -> ex now = false ->
  trim_info pe ex (Some root) (block_of who now dS t U) = Ok (block_of who now dS t U).
Proof.
  intros HA HR H1 H2 H3 H4 H5. unfold trim_info, trim_info_gen.
  apply (trim_keys_inert pe ex root rroot); [assumption|assumption|].
  intros k s _. unfold block_of. cbn [alookup].
  repeat match goal with
         | |- (if ?b then _ else _) = _ -> _ => destruct b
         end; intros [= <-]; auto; right; now left.
Qed.

(* rel as the loop rewrites it once more: relative to the directory dS/U when it lies in there *)
Definition rel_to_ups (dS U rel : str) : str :=
  let dn := path_join dS U in
  if subpath rel dn && starts_with (dn ++ [c_slash]) rel then after (length dn) rel else rel.

(* the table file exists below the stack root as it is named: its resolved name is cut after
   the resolved root, and made relative to the product's directory / ups directory if it lies
   in there *)
Lemma trim_key_table pe ex root rroot who now dS rel U :
  wf_abs root = true -> wf_abs rroot = true -> link_view (pe_links pe) root rroot ->
  nonempty dS = true -> ex (root ++ c_slash :: rel) = true ->
  trim_key true pe ex (Some root) k_table_file (block_of who now dS (root ++ c_slash :: rel) U)
  = Ok (block_of who now dS (rel_to_ups dS U rel) U).
Proof.
  intros HR HRR LV Hd He. pose proof (wf_abs_nonempty _ HR) as NR.
  pose proof (wf_abs_nonempty _ HRR) as NRR.
  apply wf_abs_parts in HR. destruct HR as [R1 [R2 R3]].
  apply wf_abs_parts in HRR. destruct HRR as [Q1 [Q2 Q3]].
  unfold trim_key.
  change (alookup k_table_file (block_of who now dS (root ++ c_slash :: rel) U))
    with (Some (Some (root ++ c_slash :: rel))).
  cbv beta iota.
  assert (A : isabs (root ++ c_slash :: rel) = true) by now apply isabs_app.
  rewrite A. cbn [negb andb]. rewrite (abs_from_abs _ _ A). rewrite He. cbn [negb].
  destruct root as [|c r] eqn:Er; [congruence|]. rewrite <- Er in *.
  rewrite (abs_from_abs _ _ R1). rewrite (link_view_root _ _ _ LV).
  rewrite (LV (c_slash :: rel)) by reflexivity.
  rewrite (subpath_abs_below rroot rel) by assumption. rewrite str_eqb_app_cons_false.
  cbn [negb andb]. rewrite after_app.
  change (aset k_table_file (Some rel) (block_of who now dS (root ++ c_slash :: rel) U))
    with (block_of who now dS rel U).
  change (str_eqb (lower_str k_table_file) k_table_file) with true. cbv iota.
  change (alookup k_productDir (block_of who now dS rel U)) with (Some (Some dS)).
  change (alookup k_ups_dir (block_of who now dS rel U)) with (Some (Some U)).
  destruct dS as [|dc dr]; [discriminate|]. unfold rel_to_ups. cbv zeta.
  destruct (subpath rel (path_join (dc :: dr) U) && starts_with (path_join (dc :: dr) U ++ [c_slash]) rel);
    reflexivity.
Qed.

Lemma trim_block_table pe ex root rroot who now dS rel U t' :
  wf_abs root = true -> wf_abs rroot = true -> link_view (pe_links pe) root rroot ->
  nonempty dS = true -> ex (root ++ c_slash :: rel) = true ->
  rel_to_ups dS U rel = t' ->
  inert_val pe ex rroot dS -> inert_val pe ex rroot U -> ex who = false -> ex now = false ->
  trim_info pe ex (Some root) (block_of who now dS (root ++ c_slash :: rel) U)
  = Ok (block_of who now dS t' U).
Proof.
  intros HR HRR LV Hd He Et H1 H3 H4 H5. unfold trim_info, trim_info_gen.
  assert (HA : isabs root = true) by (apply wf_abs_parts in HR; tauto).
  pose proof (link_view_root _ _ _ LV : rp pe root = rroot) as HRP.
  change (akeys (block_of who now dS (root ++ c_slash :: rel) U))
    with [k_productDir; k_table_file; k_ups_dir; k_declarer; k_declared].
  cbn [trim_keys].
  rewrite (trim_key_inert pe ex root rroot) by (assumption || (cbn; now intros s [= <-])).
  cbn [bind]. rewrite (trim_key_table pe ex root rroot) by assumption. rewrite Et. cbn [bind].
  apply (trim_keys_inert pe ex root rroot [k_ups_dir; k_declarer; k_declared]); [assumption|assumption|].
  intros k s [<-|[<-|[<-|[]]]]; cbn; intros [= <-]; auto; right; now left.
Qed.

(* no block already in the file holds an existing absolute path that resolves to the stack
   root or below it *)
Definition blocks_inert (pe : penv) (ex : str -> bool) (rroot : str) (m : amap info) : Prop :=
  forall g j, In (g, j) m -> forall k s, alookup k j = Some (Some s) -> inert_val pe ex rroot s.

(* Database.declare of a flavor new to the file, from its parts.  For the whole call: the stack root
   exists and resolves to rroot, no block already in the file needs trimming.  For the placement at
   hand: canonicalizePaths keeps table file and ups dir (t, u); t is not empty; addFlavor stores the
   block (dir, t', U) for them; the trimDir loop makes B of that block. *)
Lemma declare_rec_from_parts pe ex who now n v f root rroot r dk :
  wf_abs root = true -> rp pe root = rroot -> wf_dirk dk = true -> wf_place root dk = true ->
  ex root = true -> blocks_inert pe ex rroot (vf_info r) ->
  forall t u t' U B,
  canon_keeps root t u -> nonempty t = true ->
  add_flavor who now f (Some (dir_stored dk)) (Some t) u r
  = {| vf_name := vf_name r; vf_version := vf_version r;
       vf_info := vf_info r ++ [(f, block_of who now (dir_stored dk) t' U)] |} ->
  trim_info pe ex (Some root) (block_of who now (dir_stored dk) t' U) = Ok B ->
  declare_rec true pe ex who now
    (prod_of n v f (Some (dir_given root dk)) (Some t) (Some (db_of root)) u) r
  = Ok {| vf_name := vf_name r; vf_version := vf_version r; vf_info := vf_info r ++ [(f, B)] |}.
Proof.
  intros HR HRP Hd Hp Hex Hin t u t' U B Hk Ht Hadd HB. unfold declare_rec, clone.
  assert (HA : isabs root = true) by (apply wf_abs_parts in HR; tauto).
  cbn [prod_of p_name p_version p_flavor p_dir p_table p_db p_ups].
  rewrite mk_product_id by (apply dir_given_truthy || apply nonempty_truthy; assumption).
  rewrite canon_scenario by assumption.
  cbn [prod_of p_name p_version p_flavor p_dir p_table p_db p_ups].
  rewrite (nonempty_truthy t Ht). cbn [negb].
  rewrite Hadd.
  destruct (dir_stored_props dk Hd) as [D1 _]. rewrite (nonempty_truthy _ D1).
  fold (prod_of n v f (Some (dir_stored dk)) (Some t) (Some (db_of root)) u).
  unfold prod_of. rewrite stack_root_db by assumption.
  pose proof (wf_abs_nonempty _ HR) as NR. destruct root as [|c x] eqn:Er; [congruence|].
  rewrite <- Er in *. rewrite Hex. cbn [vf_info vf_name vf_version].
  rewrite (trim_all_app_last pe ex root (vf_info r) f _ B); [reflexivity| |assumption].
  now apply (trim_all_inert pe ex root rroot).
Qed.

Inductive tabk :=
| TUps (tn : str)             (* dir/ups/tn, the product's own ups directory *)
| TAbsIn (t : str)            (* root/t, elsewhere inside the stack *)
| TAbsOut (T : str)           (* the absolute path T outside the stack *)
| TInterned (e tn : str)      (* held in the database: UPS_DB/e/ups/tn, as Eups.declare passes it *)
| TNone.                      (* no table file *)

(* what Eups.declare hands to Database.declare: (table file, ups dir) *)
Definition table_given (root : str) (dk : dirk) (tk : tabk) : str * val :=
  match tk with
  | TUps tn => (dir_given root dk ++ c_slash :: s_ups ++ c_slash :: tn, Some s_ups)
  | TAbsIn t => (root ++ c_slash :: t, Some s_ups)
  | TAbsOut T => (T, Some s_ups)
  | TInterned e tn => (tn, Some (ups_in_db e))
  | TNone => (s_none, None)
  end.

(* where the table file is for a stack at root *)
Definition table_at (root : str) (dk : dirk) (tk : tabk) : str :=
  match tk with
  | TUps tn => dir_at root dk ++ c_slash :: s_ups ++ c_slash :: tn
  | TAbsIn t => root ++ c_slash :: t
  | TAbsOut T => T
  | TInterned e tn => db_of root ++ c_slash :: e ++ c_slash :: s_ups ++ c_slash :: tn
  | TNone => s_none
  end.

Definition table_stored (tk : tabk) : str * str :=
  match tk with
  | TUps tn => (tn, s_ups)
  | TAbsIn t => (t, s_ups)
  | TAbsOut T => (T, s_ups)
  | TInterned e tn => (tn, ups_in_db e)
  | TNone => (s_none, s_none)
  end.

Definition wf_name_part (tn : str) : bool := wf_rel tn && negb (mem_ascii c_slash tn).

(* outside directories and table files resolve to places outside the resolved stack root *)
Definition out_real (pe : penv) (rroot : str) (dk : dirk) (tk : tabk) : Prop :=
  out_dir pe rroot dk /\
  match tk with TAbsOut T => outside rroot (rp pe T) = true | _ => True end.

(* side conditions on the placement: everything is where its kind says, and nowhere more
   specific (a table inside the stack is not inside the database directory nor inside the
   product's own ups directory; a table outside is not inside an outside product) *)
Definition tab_ok (root : str) (dk : dirk) (tk : tabk) : bool :=
  match tk with
  | TUps tn =>
      wf_name_part tn &&
      match dk with
      | DIn d => negb (starts_with (db_of root ++ [c_slash]) (root ++ c_slash :: d ++ c_slash :: s_ups ++ c_slash :: tn))
      | DOut o => negb (starts_with (db_of root ++ [c_slash]) (o ++ c_slash :: s_ups ++ c_slash :: tn))
      | DNone => false
      end
  | TAbsIn t =>
      wf_rel t && negb (starts_with (db_of root ++ [c_slash]) (root ++ c_slash :: t)) &&
      match dk with
      | DOut o => negb (starts_with (o ++ [c_slash]) (root ++ c_slash :: t))
      | _ => negb (subpath t (path_join (dir_stored dk) s_ups) &&
                   starts_with (path_join (dir_stored dk) s_ups ++ [c_slash]) t)
      end
  | TAbsOut T =>
      wf_abs T && outside root T &&
      match dk with DOut o => negb (starts_with (o ++ [c_slash]) T) | _ => true end
  | TInterned e tn => wf_name_part tn && negb (has_dollar e)
  | TNone => true
  end.

(* the file system when the product is declared, by the names used in the declaration: the
   stack root and a table file inside the stack exist.  Nothing is asked of relative names,
   i.e. of the contents of the current directory. *)
Definition decl_ok (ex : str -> bool) (root : str) (dk : dirk) (tk : tabk) : Prop :=
  ex root = true /\
  match tk with
  | TUps tn => match dk with DIn _ => ex (table_at root dk tk) = true | _ => True end
  | TAbsIn t => ex (root ++ c_slash :: t) = true
  | _ => True
  end.

(* the file system when the product is looked up under root: the table file is where it
   belongs, and no file of the same relative name shadows it *)
Definition find_ok (ex : str -> bool) (root : str) (dk : dirk) (tk : tabk) : Prop :=
  match tk with
  | TUps tn => ex (table_at root dk tk) = true
  | TAbsIn t => ex (ups_at (dir_at root dk) ++ c_slash :: t) = false /\ ex (root ++ c_slash :: t) = true
  | TInterned e tn => ex (table_at root dk tk) = true
  | _ => True
  end.

Lemma wf_name_part_parts tn : wf_name_part tn = true ->
  wf_rel tn = true /\ mem_ascii c_slash tn = false /\ nonempty tn = true /\ isabs tn = false.
Proof.
  unfold wf_name_part. rewrite andb_true_iff, negb_true_iff. intros [H1 H2].
  pose proof (wf_rel_parts _ H1). tauto.
Qed.

Lemma ups_in_db_plain e : ups_plain (Some (ups_in_db e)).
Proof.
  unfold ups_plain. split; [reflexivity|]. split; [reflexivity|].
  unfold ups_in_db. now rewrite <- app_cons_app, ends_slash_app.
Qed.

Lemma under_dir_rel_abs d t : nonempty d = true -> isabs d = false -> isabs t = true -> under_dir d t = false.
Proof.
  intros Nd Hd Ht. unfold under_dir. destruct (isabs_cons t Ht) as [x ->].
  destruct d as [|c y]; [discriminate|]. cbn [app starts_with].
  cbn [isabs] in Hd. rewrite Hd. apply andb_false_r.
Qed.

Lemma under_dir_rel d t : isabs t = false -> under_dir d t = false.
Proof. intro H. unfold under_dir. now rewrite H, andb_false_r. Qed.

Lemma under_dir_abs dk T : wf_dirk dk = true -> isabs T = true ->
  (forall o, dk = DOut o -> starts_with (o ++ [c_slash]) T = false) -> under_dir (dir_stored dk) T = false.
Proof.
  intros Hd HT Ho. destruct dk as [d|o|]; cbn [dir_stored] in *.
  - apply wf_rel_parts in Hd. apply under_dir_rel_abs; tauto.
  - unfold under_dir. now rewrite (Ho o eq_refl), andb_false_r.
  - reflexivity.
Qed.

Lemma subpath_own_ups d tn :
  nonempty d = true -> isabs d = false -> ends_slash d = false ->
  rel_to_ups d s_ups (d ++ c_slash :: s_ups ++ c_slash :: tn) = tn.
Proof.
  intros Dn Dabs Dend. assert (Nd : d <> []) by (destruct d; [discriminate|congruence]).
  unfold rel_to_ups. rewrite path_join_rel by (assumption || reflexivity). cbv zeta.
  rewrite <- (app_cons_app d c_slash s_ups (c_slash :: tn)).
  assert (S : subpath ((d ++ c_slash :: s_ups) ++ c_slash :: tn) (d ++ c_slash :: s_ups) = true).
  { unfold subpath, subpath_abs.
    assert (A2 : isabs (d ++ c_slash :: s_ups) = false) by (destruct d; [discriminate|exact Dabs]).
    assert (A1 : isabs ((d ++ c_slash :: s_ups) ++ c_slash :: tn) = false)
      by (destruct d; [discriminate|exact Dabs]).
    rewrite A1, A2. cbn [Bool.eqb]. apply subpath_abs_below; [destruct d; discriminate|].
    now rewrite ends_slash_app. }
  rewrite S, starts_with_sep. cbn [andb]. now rewrite after_app.
Qed.

Theorem declare_stores pe ex who now n v f root rroot dk tk r :
  wf_abs root = true -> wf_abs rroot = true -> link_view (pe_links pe) root rroot ->
  wf_dirk dk = true -> wf_place root dk = true -> tab_ok root dk tk = true -> out_real pe rroot dk tk ->
  decl_ok ex root dk tk -> ex who = false -> ex now = false ->
  alookup f (vf_info r) = None -> blocks_inert pe ex rroot (vf_info r) ->
  declare_rec true pe ex who now
    (prod_of n v f (Some (dir_given root dk)) (Some (fst (table_given root dk tk)))
             (Some (db_of root)) (snd (table_given root dk tk))) r
  = Ok {| vf_name := vf_name r; vf_version := vf_version r;
          vf_info := vf_info r ++ [(f, block_of who now (dir_stored dk) (fst (table_stored tk))
                                                (snd (table_stored tk)))] |}.
Proof.
  intros HR HRR LV Hd Hp Ht [Odir Otab] [Hroot Hdecl] Hw Hn Hf Hin.
  pose proof (link_view_root _ _ _ LV : rp pe root = rroot) as HRP.
  pose proof (declare_rec_from_parts pe ex who now n v f root rroot r dk HR HRP Hd Hp Hroot Hin) as G.
  pose proof (dir_stored_inert pe ex rroot dk HRR Hd Odir) as Idir.
  destruct (dir_stored_props dk Hd) as [D1 _].
  assert (Rabs : isabs root = true) by (apply wf_abs_parts in HR; tauto).
  assert (UPups : ups_plain (Some s_ups)) by (repeat split; reflexivity).
  assert (Iups : inert_val pe ex rroot s_ups) by now apply rel_inert.
  destruct tk as [tn|t|T|e tn|]; cbn [table_given table_stored fst snd tab_ok] in *.
  - (* own ups directory *)
    apply andb_true_iff in Ht. destruct Ht as [Hn1 Ht].
    destruct (wf_name_part_parts tn Hn1) as [N1 [N2 [N3 N4]]].
    destruct dk as [d|o|]; [| |discriminate]; cbn [dir_given dir_stored] in *; apply negb_true_iff in Ht.
    + destruct (wf_rel_parts d Hd) as [Dn [Dabs [Dend _]]].
      set (T := (root ++ c_slash :: d) ++ c_slash :: s_ups ++ c_slash :: tn).
      assert (ET : T = root ++ c_slash :: (d ++ c_slash :: s_ups ++ c_slash :: tn))
        by apply app_cons_app.
      assert (Tabs : isabs T = true) by (unfold T; now apply isabs_app, isabs_app).
      eapply G.
      * left. repeat split; auto. rewrite ET. exact Ht.
      * now apply nonempty_abs.
      * apply (add_flavor_fresh who now f (DIn d)); auto using nonempty_abs, under_dir_rel_abs.
      * rewrite ET. apply (trim_block_table pe ex root rroot); auto.
        -- rewrite <- ET, <- Hdecl. reflexivity.
        -- now apply subpath_own_ups.
    + (* addFlavor itself strips the table file of an outside product *)
      assert (Tabs : isabs (o ++ c_slash :: s_ups ++ c_slash :: tn) = true)
        by (apply isabs_app; apply wf_abs_parts in Hd; tauto).
      eapply G.
      * left; auto.
      * now apply nonempty_abs.
      * now apply add_flavor_fresh_ups_out.
      * apply (trim_block_inert pe ex root rroot); auto. now apply rel_inert.
  - (* elsewhere inside the stack *)
    apply andb_true_iff in Ht. destruct Ht as [Ht Hdk]. apply andb_true_iff in Ht. destruct Ht as [T1 T2].
    apply negb_true_iff in T2.
    destruct (wf_rel_parts t T1) as [Tn [Tabs [Tend [Tdol Treal]]]].
    assert (TA : isabs (root ++ c_slash :: t) = true) by now apply isabs_app.
    eapply G.
    + left; repeat split; auto.
    + now apply nonempty_abs.
    + apply add_flavor_fresh; auto using nonempty_abs.
      apply under_dir_abs; [assumption|assumption|]. intros o ->. now apply negb_true_iff.
    + apply (trim_block_table pe ex root rroot); auto.
      (* the table file is not in the product's own ups directory *)
      unfold rel_to_ups. destruct dk as [d|o|]; cbn [dir_stored ups_word] in *; cbv zeta.
      * apply negb_true_iff in Hdk. now rewrite Hdk.
      * assert (A : isabs (path_join o s_ups) = true).
        { pose proof (wf_abs_nonempty _ Hd). apply wf_abs_parts in Hd. destruct Hd as [O1 [O2 _]].
          rewrite path_join_rel by (assumption || reflexivity). now apply isabs_app. }
        unfold subpath. now rewrite Tabs, A.
      * apply negb_true_iff in Hdk. now rewrite Hdk.
  - (* outside the stack *)
    apply andb_true_iff in Ht. destruct Ht as [Ht Hdk]. apply andb_true_iff in Ht. destruct Ht as [T1 T2].
    destruct (wf_abs_parts T T1) as [Tabs [Tend Tdol]].
    eapply G.
    + left. repeat split; auto.
      (* below the database directory would be below the stack *)
      destruct (starts_with (db_of root ++ [c_slash]) T) eqn:E; [|reflexivity].
      unfold db_of in E. rewrite (app_cons_middle root c_slash s_ups_db), <- app_assoc in E.
      apply starts_with_app_true in E. unfold outside in T2. apply andb_true_iff in T2.
      destruct T2 as [_ T2]. apply negb_true_iff in T2. now rewrite E in T2.
    + now apply nonempty_abs.
    + apply add_flavor_fresh; auto using nonempty_abs.
      apply under_dir_abs; [assumption|assumption|]. intros o ->. now apply negb_true_iff.
    + apply (trim_block_inert pe ex root rroot); auto. right. right. now apply subpath_abs_outside.
  - (* held in the database *)
    apply andb_true_iff in Ht. destruct Ht as [Hn1 He]. apply negb_true_iff in He.
    destruct (wf_name_part_parts tn Hn1) as [N1 [N2 [N3 N4]]].
    eapply G.
    + right; split; [assumption|reflexivity].
    + exact N3.
    + apply add_flavor_fresh; auto using ups_in_db_plain, under_dir_rel.
    + apply (trim_block_inert pe ex root rroot); auto; now apply rel_inert.
  - (* no table file *)
    eapply G.
    + right; split; [reflexivity|exact I].
    + reflexivity.
    + apply add_flavor_fresh; auto using under_dir_rel.
    + apply (trim_block_inert pe ex root rroot); auto; now apply rel_inert.
Qed.

Lemma out_real_nolinks pe root dk tk :
  pe_links pe = [] -> wf_place root dk = true -> tab_ok root dk tk = true -> out_real pe root dk tk.
Proof.
  intros E Hp Ht. unfold out_real, out_dir, rp. rewrite E. split.
  - destruct dk; auto.
  - destruct tk as [tn|t|T|e tn|]; auto. cbn [tab_ok] in Ht.
    apply andb_true_iff in Ht. destruct Ht as [Ht _]. apply andb_true_iff in Ht. tauto.
Qed.

Definition block_holds (B : info) (dS ts U : str) : Prop :=
  info_get B k_productDir = Some dS /\ info_get B k_table_file = Some ts /\ info_get B k_ups_dir = Some U.

Lemma block_of_holds who now dS ts U : block_holds (block_of who now dS ts U) dS ts U.
Proof. repeat split. Qed.

Lemma ups_at_abs D : wf_abs D = true -> ups_at D = D ++ c_slash :: s_ups.
Proof.
  intro H. unfold ups_at. destruct (str_eqb_spec D s_none) as [->|]; [discriminate|reflexivity].
Qed.

Lemma wf_dirk_at root dk : wf_abs root = true -> wf_dirk dk = true -> dk <> DNone ->
  wf_abs (dir_at root dk) = true.
Proof.
  intros HR Hd N. destruct dk as [d|o|]; cbn in *; [now apply wf_abs_join|assumption|congruence].
Qed.

(* the part of tab_ok that does not depend on where the stack is *)
Definition tab_wf (dk : dirk) (tk : tabk) : bool :=
  match tk with
  | TUps tn => wf_name_part tn && match dk with DNone => false | _ => true end
  | TAbsIn t => wf_rel t
  | TAbsOut T => wf_abs T
  | TInterned e tn => wf_name_part tn && negb (has_dollar e)
  | TNone => true
  end.

Lemma tab_ok_wf root dk tk : tab_ok root dk tk = true -> tab_wf dk tk = true.
Proof.
  destruct tk as [tn|t|T|e tn|]; cbn [tab_ok tab_wf]; intro H; try assumption.
  - apply andb_true_iff in H. destruct H as [H1 H2]. rewrite H1. destruct dk; [reflexivity|reflexivity|discriminate].
  - apply andb_true_iff in H. destruct H as [H _]. apply andb_true_iff in H. tauto.
  - apply andb_true_iff in H. destruct H as [H _]. apply andb_true_iff in H. tauto.
Qed.

Lemma table_stored_nonempty dk tk : tab_wf dk tk = true ->
  nonempty (fst (table_stored tk)) = true /\ nonempty (snd (table_stored tk)) = true.
Proof.
  destruct tk as [tn|t|T|e tn|]; cbn [table_stored fst snd tab_wf]; intro H.
  - apply andb_true_iff in H. destruct H as [H _]. apply wf_name_part_parts in H. split; [tauto|reflexivity].
  - apply wf_rel_parts in H. split; [tauto|reflexivity].
  - apply wf_abs_parts in H. split; [apply nonempty_abs; tauto|reflexivity].
  - apply andb_true_iff in H. destruct H as [H _]. apply wf_name_part_parts in H. split; [tauto|reflexivity].
  - split; reflexivity.
Qed.

Theorem find_resolves ex n v f root dk tk r B :
  wf_abs root = true -> wf_dirk dk = true -> tab_wf dk tk = true -> find_ok ex root dk tk ->
  vf_name r = Some n -> vf_version r = Some v ->
  alookup f (vf_info r) = Some B ->
  block_holds B (dir_stored dk) (fst (table_stored tk)) (snd (table_stored tk)) ->
  make_product ex r f (Some root) (Some (db_of root))
  = Some (prod_of n v f (Some (dir_at root dk)) (Some (table_at root dk tk)) (Some (db_of root))
                  (Some (match tk with
                         | TInterned e _ => ups_db_at root e
                         | TNone => s_none
                         | _ => ups_at (dir_at root dk)
                         end))).
Proof.
  intros HR Hd Ht Hfind En Ev EB [B1 [B2 B3]].
  rewrite (make_product_block ex r f B root EB), En, Ev, B1, B2, B3. cbn [val_str].
  destruct (dir_stored_props dk Hd) as [D1 _]. destruct (table_stored_nonempty dk tk Ht) as [T1 _].
  rewrite mk_product_id by (apply nonempty_truthy; assumption).
  destruct tk as [tn|t|T|e tn|]; cbn [table_stored fst snd tab_wf table_at find_ok] in *.
  - apply andb_true_iff in Ht. destruct Ht as [Hn1 Hdk].
    destruct (wf_name_part_parts tn Hn1) as [N1 [N2 [N3 N4]]].
    rewrite resolve_ups_rel by assumption. f_equal.
    assert (NN : dk <> DNone) by (destruct dk; [discriminate|discriminate|discriminate Hdk]).
    rewrite (ups_at_abs _ (wf_dirk_at root dk HR Hd NN)).
    unfold table_choice. rewrite app_cons_app, Hfind. reflexivity.
  - rewrite resolve_ups_rel by assumption. unfold table_choice. destruct Hfind as [F1 F2].
    now rewrite F1, F2.
  - now rewrite resolve_ups_abs.
  - apply andb_true_iff in Ht. destruct Ht as [Hn1 He]. apply negb_true_iff in He.
    destruct (wf_name_part_parts tn Hn1) as [N1 [N2 [N3 N4]]].
    rewrite resolve_interned by assumption. unfold table_choice, ups_db_at.
    rewrite !app_cons_app, Hfind. reflexivity.
  - now rewrite resolve_no_table.
Qed.

Lemma block_holds_norm B dS ts U :
  nonempty dS = true -> nonempty ts = true -> nonempty U = true ->
  block_holds B dS ts U -> block_holds (norm_info B) dS ts U.
Proof.
  intros N1 N2 N3 [B1 [B2 B3]]. unfold block_holds, info_get in *.
  assert (P : forall k s, nonempty s = true ->
                match alookup k B with Some v => v | None => None end = Some s ->
                printed_val B k = Some (Some s)).
  { intros k s Ns H. unfold printed_val. destruct (alookup k B) as [w|]; [|discriminate].
    subst w. destruct s; [discriminate|reflexivity]. }
  rewrite !alookup_norm_info.
  change (str_eqb k_productDir k_productDir) with true.
  change (str_eqb k_table_file k_productDir) with false.
  change (str_eqb k_table_file k_table_file) with true.
  change (str_eqb k_ups_dir k_productDir) with false.
  change (str_eqb k_ups_dir k_table_file) with false.
  change (str_eqb k_ups_dir k_ups_dir) with true. cbv iota.
  rewrite (P _ _ N1 B1), (P _ _ N2 B2), (P _ _ N3 B3). auto.
Qed.

Lemma db_declare_fresh pe ex who now p r' :
  nonempty (p_name p) = true -> nonempty (p_version p) = true -> nonempty (p_flavor p) = true ->
  declare_rec true pe ex who now p
    {| vf_name := Some (p_name p); vf_version := Some (p_version p); vf_info := [] |} = Ok r' ->
  db_declare pe ex who now p None = vf_lines r'.
Proof.
  intros H1 H2 H3 E. unfold db_declare, db_declare_gen. rewrite H1, H2, H3. cbn [andb negb].
  cbn [bind]. rewrite E. cbn [bind].
  unfold declare_rec in E.
  destruct (truthy (p_table (canon_gen true (clone ex p)))); [reflexivity|discriminate].
Qed.

Lemma trim_key_cwd pe pe' ex ex' td k (i : info) :
  isabs td = true -> pe_links pe = pe_links pe' -> (forall s, isabs s = true -> ex s = ex' s) ->
  trim_key true pe ex (Some td) k i = trim_key true pe' ex' (Some td) k i.
Proof.
  intros HA HL HE. unfold trim_key. destruct (alookup k i) as [[s|]|]; try reflexivity.
  cbn [andb]. destruct (isabs s) eqn:A; cbn [negb]; [|reflexivity].
  unfold abs_from. rewrite A. cbv iota. rewrite (HE s A). destruct td as [|c r]; [reflexivity|].
  rewrite HA, HL. reflexivity.
Qed.

Lemma trim_keys_cwd pe pe' ex ex' td keys (i : info) :
  isabs td = true -> pe_links pe = pe_links pe' -> (forall s, isabs s = true -> ex s = ex' s) ->
  trim_keys true pe ex (Some td) keys i = trim_keys true pe' ex' (Some td) keys i.
Proof.
  intros HA HL HE. revert i. induction keys as [|k ks IH]; intro i; [reflexivity|]. cbn [trim_keys].
  rewrite (trim_key_cwd pe pe' ex ex') by assumption.
  destruct (trim_key true pe' ex' (Some td) k i) as [j|]; [|reflexivity]. cbn [bind]. apply IH.
Qed.

Lemma trim_all_cwd pe pe' ex ex' td (m : amap info) :
  isabs td = true -> pe_links pe = pe_links pe' -> (forall s, isabs s = true -> ex s = ex' s) ->
  trim_all true pe ex (Some td) m = trim_all true pe' ex' (Some td) m.
Proof.
  intros HA HL HE. induction m as [|[g j] m IH]; [reflexivity|]. cbn [trim_all]. unfold trim_info_gen.
  rewrite (trim_keys_cwd pe pe' ex ex') by assumption. now rewrite IH.
Qed.
