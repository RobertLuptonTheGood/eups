(* C03 with the comparator of C10 (Model/ResolveReal.v).

   1. What the look-ups do under a comparator that is only a total PRE-order (distinct names may compare
      equal): find_latest = latest_tie, select_latest o find_by_expr = expr_tie.  No antisymmetry is used.
   2. The comparator of C10 on conventional names: a total preorder always, a total order exactly when no two
      names spell the same key - from the theorems of Props/C10.v (cmp_is_key_order, key_order_is_total_order,
      conv_trans, match_relop, match_other_prefix, match_alternatives).
   3. Hence the hypotheses total_order_on of Props/C03.v and of the composed-model theorems of Props/C01.v,
      C02.v are discharged for the real comparator.

   Observed on the real code (harness/c03.py, family versions): Database.findProducts returns the version files
   of one product sorted as strings, and a cache that is built from the database inherits that order; a cache
   that is written through by Eups.declare keeps the order of declaration instead.  The listing order is an
   input of the model (st_decl); it matters only for names that compare equal. *)
From Eupsv Require Import Base.Base Base.BaseLemmas Model.VersionCompare Model.VersionKey Model.PathAlg Model.Setup
     Model.Resolve Model.ResolveSpec Model.SetupFull Model.ResolveReal Proofs.ResolveLib Proofs.Resolve.
From Eupsv Require Props.C10.
From Coq Require Import Lia.

Lemma total_order_is_preorder vcmp l : total_order_on vcmp l -> total_preorder_on vcmp l.
Proof. intros [R [_ [S T]]]. repeat split; assumption. Qed.

Lemma total_preorder_sub vcmp l l' :
  (forall x, In x l' -> In x l) -> total_preorder_on vcmp l -> total_preorder_on vcmp l'.
Proof.
  intros H [R [S T]]. split; [|split].
  - intros x Hx. apply R. auto.
  - intros x y Hx Hy. apply S; auto.
  - intros x y z Hx Hy Hz. apply T; auto.
Qed.

Section Pre.
  Variable vcmp : str -> str -> comparison.
  Variable U : list str.
  Hypothesis HP : total_preorder_on vcmp U.

  Local Notation le := (ResolveLib.le vcmp).

  Lemma ple_refl x : In x U -> le x x.
  Proof. intro H. unfold ResolveLib.le. destruct HP as [R _]. rewrite R by assumption. discriminate. Qed.

  Lemma ple_trans x y z : In x U -> In y U -> In z U -> le x y -> le y z -> le x z.
  Proof. destruct HP as [_ [_ T]]. apply T. Qed.

  Lemma pflip x y : In x U -> In y U -> vcmp y x = CompOpp (vcmp x y).
  Proof. destruct HP as [_ [S _]]. apply S. Qed.

  Lemma pnotlt_le x y : In x U -> In y U -> vcmp y x <> Lt -> le x y.
  Proof.
    intros Hx Hy H. unfold ResolveLib.le. rewrite (pflip y x Hy Hx). destruct (vcmp y x); simpl; congruence.
  Qed.

  Lemma plt_gt x y : In x U -> In y U -> vcmp x y = Lt -> vcmp y x = Gt.
  Proof. intros Hx Hy H. now rewrite (pflip x y Hx Hy), H. Qed.

  Lemma pgt_lt x y : In x U -> In y U -> vcmp x y = Gt -> vcmp y x = Lt.
  Proof. intros Hx Hy H. now rewrite (pflip x y Hx Hy), H. Qed.

  Lemma pgt_le_gt w x y : In w U -> In x U -> In y U -> vcmp w y = Gt -> le x y -> vcmp w x = Gt.
  Proof.
    intros Hw Hx Hy G L. destruct (vcmp w x) eqn:E; [exfalso|exfalso|reflexivity].
    all: apply (ple_trans w x y Hw Hx Hy); [unfold ResolveLib.le; rewrite E; discriminate|exact L|exact G].
  Qed.

  Lemma plt_le_lt x y z : In x U -> In y U -> In z U -> vcmp x y = Lt -> le y z -> vcmp x z = Lt.
  Proof.
    intros Hx Hy Hz L1 L2.
    assert (G : vcmp z x = Gt).
    { destruct (vcmp z x) eqn:E; [exfalso|exfalso|reflexivity].
      all: assert (A : le y x) by (apply (ple_trans y z x); auto; unfold ResolveLib.le; rewrite E; discriminate).
      all: apply A; now apply plt_gt. }
    now apply pgt_lt.
  Qed.
  Lemma is_max_true l v : is_max vcmp l v = true <-> forall w, In w l -> le w v.
  Proof.
    unfold is_max. rewrite forallb_forall. split; intros H w Hw; specialize (H w Hw).
    - unfold ResolveLib.le. destruct (vcmp w v); congruence.
    - unfold ResolveLib.le in H. destruct (vcmp w v); congruence.
  Qed.

  Lemma is_max_false l v : is_max vcmp l v = false <-> exists w, In w l /\ vcmp w v = Gt.
  Proof.
    split.
    - intro H. unfold is_max in H. destruct (forallb _ l) eqn:E; [discriminate|].
      clear H. induction l as [|a l IH]; simpl in E; [discriminate|].
      destruct (vcmp a v) eqn:Ea; [| |exists a; split; [now left|exact Ea]].
      all: destruct (IH E) as [w [Hw G]]; exists w; split; [now right|exact G].
    - intros [w [Hw G]]. destruct (is_max vcmp l v) eqn:E; [|reflexivity].
      rewrite is_max_true in E. exfalso. now apply (E w Hw).
  Qed.
  Lemma last_max_fold_split r : forall b,
    In b U -> (forall q, In q r -> In q U) ->
    let m := fold_left (fun best y => match vcmp y best with Lt => best | _ => y end) r b in
    exists pre post, b :: r = pre ++ m :: post /\
                     (forall q, In q pre -> le q m) /\ (forall q, In q post -> vcmp q m = Lt).
  Proof.
    induction r as [|y r IH]; intros b Hb Hr; cbv zeta; simpl.
    - exists [], []. repeat split; simpl; tauto.
    - assert (Hy : In y U) by (apply Hr; now left).
      assert (Hr' : forall q, In q r -> In q U) by (intros q Hq; apply Hr; now right).
      assert (TAKE : vcmp y b <> Lt ->
                let m := fold_left (fun best y => match vcmp y best with Lt => best | _ => y end) r y in
                exists pre post, b :: y :: r = pre ++ m :: post /\
                                 (forall q, In q pre -> le q m) /\ (forall q, In q post -> vcmp q m = Lt)).
      { intro NL. destruct (IH y Hy Hr') as [pre [post [S [A B]]]]. cbv zeta in *.
        set (m := fold_left _ r y) in *.
        assert (Hm : In m U).
        { assert (I : In m (y :: r)) by (rewrite S; apply in_or_app; right; now left).
          destruct I as [<-|I]; auto. }
        exists (b :: pre), post. split; [simpl; now rewrite S|]. split; [|exact B].
        intros q [Eq|Hq]; [subst q|now apply A].
        apply (ple_trans b y m); auto; [now apply pnotlt_le|].
        destruct pre as [|a pre']; simpl in S; injection S as S1 S2.
        - rewrite <- S1. now apply ple_refl.
        - subst a. apply A. now left. }
      destruct (vcmp y b) eqn:E; [apply TAKE; discriminate| |apply TAKE; discriminate].
      destruct (IH b Hb Hr') as [pre [post [S [A B]]]]. cbv zeta in *.
      set (m := fold_left _ r b) in *.
      assert (Hm : In m U).
      { assert (I : In m (b :: r)) by (rewrite S; apply in_or_app; right; now left).
        destruct I as [<-|I]; auto. }
      destruct pre as [|a pre']; simpl in S.
      * injection S as S1 S2. exists [], (y :: post). split; [simpl; now rewrite <- S1, S2|].
        split; [simpl; tauto|]. intros q [Eq|Hq]; [subst q; now rewrite <- S1|now apply B].
      * injection S as S1 S2. subst a. exists (b :: y :: pre'), post.
        split; [simpl; now rewrite S2|].
        split; [|exact B].
        assert (Lb : le b m) by (apply A; now left).
        intros q [Eq|[Eq|Hq]]; [subst q; exact Lb| |apply A; now right].
        subst q. apply (ple_trans y b m); auto. unfold ResolveLib.le. rewrite E. discriminate.
  Qed.

End Pre.

Lemma find_rev_split {A} (P : A -> bool) pre v post :
  P v = true -> (forall q, In q post -> P q = false) -> find P (rev (pre ++ v :: post)) = Some v.
Proof.
  intros Hv Hp. rewrite rev_app_distr. simpl. rewrite <- app_assoc, find_app.
  assert (N : find P (rev post) = None).
  { apply find_none_iff. intros x Hx. apply Hp. now apply in_rev. }
  rewrite N. simpl. now rewrite Hv.
Qed.

Lemma find_rev_none {A} (P : A -> bool) l : (forall q, In q l -> P q = false) -> find P (rev l) = None.
Proof. intro H. apply find_none_iff. intros x Hx. apply H. now apply in_rev. Qed.

Lemma find_ext_in {A} (P Q : A -> bool) l : (forall x, In x l -> P x = Q x) -> find P l = find Q l.
Proof.
  induction l as [|a l IH]; intro H; simpl; [reflexivity|].
  rewrite (H a) by now left. destruct (Q a); [reflexivity|]. apply IH. intros x Hx. apply H. now right.
Qed.

Lemma first_some_ext_in {A B} (g h : A -> option B) l :
  (forall a, In a l -> g a = h a) -> first_some g l = first_some h l.
Proof.
  induction l as [|a l IH]; intro H; simpl; [reflexivity|].
  rewrite (H a) by now left. destruct (h a); [reflexivity|]. apply IH. intros x Hx. apply H. now right.
Qed.

Lemma is_max_app vcmp a b v : is_max vcmp (a ++ b) v = is_max vcmp a v && is_max vcmp b v.
Proof. unfold is_max. apply forallb_app. Qed.

Section Tie.
  Variable vcmp : str -> str -> comparison.
  Variable U : list str.
  Hypothesis HP : total_preorder_on vcmp U.

  Local Notation le := (ResolveLib.le vcmp).

  Lemma last_max_split l v :
    (forall q, In q l -> In q U) -> last_max vcmp l = Some v ->
    exists pre post, l = pre ++ v :: post /\
                     (forall q, In q pre -> le q v) /\ (forall q, In q post -> vcmp q v = Lt).
  Proof.
    destruct l as [|a l]; simpl; [discriminate|]. intros H E. injection E as <-.
    apply (last_max_fold_split vcmp U HP l a); [apply H; now left|intros q Hq; apply H; now right].
  Qed.

  Lemma last_max_nil l : last_max vcmp l = None -> l = [].
  Proof. destruct l; [reflexivity|discriminate]. Qed.

  Lemma split_is_max pre v post :
    (forall q, In q (pre ++ v :: post) -> In q U) ->
    (forall q, In q pre -> le q v) -> (forall q, In q post -> vcmp q v = Lt) ->
    forall w, In w (pre ++ v :: post) -> le w v.
  Proof.
    intros HU A B w Hw. apply in_app_or in Hw. destruct Hw as [Hw|[<-|Hw]].
    - now apply A.
    - apply (ple_refl vcmp U HP). apply HU. apply in_or_app. right. now left.
    - unfold ResolveLib.le. rewrite (B w Hw). discriminate.
  Qed.

  Lemma last_max_greatest l : (forall q, In q l -> In q U) -> last_max vcmp l = last_greatest vcmp l l.
  Proof.
    intro HU. unfold last_greatest. destruct (last_max vcmp l) as [v|] eqn:E.
    - destruct (last_max_split l v HU E) as [pre [post [S [A B]]]]. symmetry.
      rewrite S at 2. apply find_rev_split.
      + apply (is_max_true vcmp). rewrite S. apply split_is_max; auto. now rewrite <- S.
      + intros q Hq. apply (is_max_false vcmp). exists v. split.
        * rewrite S. apply in_or_app. right. now left.
        * apply (plt_gt vcmp U HP); [apply HU; rewrite S; apply in_or_app; right; now right
                                   |apply HU; rewrite S; apply in_or_app; right; now left|now apply B].
    - apply last_max_nil in E. subst. reflexivity.
  Qed.

End Tie.

Lemma existsb_version_mem out v :
  existsb (fun p => str_eqb (fd_version p) v) out = mem_str v (map fd_version out).
Proof.
  induction out as [|a out IH]; simpl; [reflexivity|].
  rewrite (str_eqb_sym (fd_version a) v), IH. destruct (str_eqb v (fd_version a)); reflexivity.
Qed.

Lemma add_new_versions s n f vs : forall out a,
  map fd_version out = uniq a -> map fd_version (add_new s n f vs out) = uniq (a ++ vs).
Proof.
  induction vs as [|v vs IH]; intros out a H; simpl.
  - now rewrite app_nil_r.
  - rewrite existsb_version_mem, H.
    replace (a ++ v :: vs) with ((a ++ [v]) ++ vs) by (rewrite <- app_assoc; reflexivity).
    destruct (mem_str v (uniq a)) eqn:M.
    + apply mem_str_In in M. rewrite uniq_In in M. apply IH. now rewrite uniq_app_present.
    + apply mem_str_not_In in M. rewrite uniq_In in M. apply IH.
      rewrite map_app, H. simpl. now rewrite uniq_app_fresh.
Qed.

Lemma matching_stack_versions vmatch n x f s :
  map fd_version (matching_stack vmatch n x f s) = filter (fun v => vmatch v x) (versions_in s n f).
Proof. unfold matching_stack. rewrite map_map. simpl. apply map_id. Qed.

Lemma fbe_versions vmatch n x f db : forall out a,
  map fd_version out = uniq a ->
  map fd_version (find_by_expr_from vmatch out db n x f) = uniq (a ++ map fd_version (matching vmatch n x f db)).
Proof.
  induction db as [|s db IH]; intros out a H; simpl.
  - now rewrite app_nil_r.
  - rewrite (IH _ (a ++ filter (fun v => vmatch v x) (versions_in s n f))) by now apply add_new_versions.
    now rewrite map_app, matching_stack_versions, app_assoc.
Qed.

Lemma expr_tie_spec vcmp vmatch db n x f :
  total_preorder_on vcmp (names_of db n) ->
  select_latest vcmp (find_by_expr vmatch db n x f) = expr_tie vcmp vmatch db n x f.
Proof.
  intro HP. unfold expr_tie. rewrite filter_candidates.
  set (L := matching vmatch n x f db). unfold find_by_expr.
  set (D := find_by_expr_from vmatch [] db n x f).
  assert (HF : forall v, find (verb v) D = find (verb v) L)
    by (intro v; unfold D; rewrite fbe_find; reflexivity).
  assert (HV : map fd_version D = uniq (map fd_version L))
    by (unfold D; now rewrite (fbe_versions vmatch n x f db [] [])).
  assert (HU : forall q, In q (uniq (map fd_version L)) -> In q (names_of db n)).
  { intros q Hq. rewrite uniq_In in Hq. apply in_map_iff in Hq. destruct Hq as [p [<- Hp]].
    unfold L in Hp. rewrite <- filter_candidates in Hp. apply filter_In in Hp.
    now apply candidates_names with f. }
  unfold select_latest. rewrite HV, (last_max_greatest vcmp (names_of db n) HP _ HU).
  destruct (last_greatest vcmp _ _) as [v|]; [|reflexivity]. exact (HF v).
Qed.

Section LatestTie.
  Variable vcmp : str -> str -> comparison.
  Variable U : list str.
  Hypothesis HP : total_preorder_on vcmp U.
  Variables n f : str.

  Local Notation le := (ResolveLib.le vcmp).

  Definition cnames (db : dbv) : list str := map fd_version (candidates db n f).
  Definition tie_pick (G : list str) (s : stackv) : option found :=
    match last_greatest vcmp G (versions_in s n f) with
    | Some v => Some (found_in s n v f)
    | None => None
    end.

  Lemma tie_pick_nil G s : versions_in s n f = [] -> tie_pick G s = None.
  Proof. intro E. unfold tie_pick, last_greatest. now rewrite E. Qed.

  Lemma cnames_cons s db : cnames (s :: db) = versions_in s n f ++ cnames db.
  Proof.
    unfold cnames. rewrite candidates_cons, map_app. f_equal. unfold cands_stack. rewrite map_map. simpl.
    apply map_id.
  Qed.

  Lemma cnames_in db s v : In s db -> In v (versions_in s n f) -> In v (cnames db).
  Proof.
    induction db as [|s0 db IH]; [intros []|]. rewrite cnames_cons. intros [->|Hs] Hv; apply in_or_app; auto.
  Qed.

  Lemma is_max_sub G G' x : (forall w, In w G' -> In w G) -> is_max vcmp G' x = false -> is_max vcmp G x = false.
  Proof.
    intros S H. apply (is_max_false vcmp) in H. destruct H as [w [Hw E]]. apply (is_max_false vcmp). eauto.
  Qed.

  (* the picks inside the remaining stacks do not change when the reference list changes between two lists
     with the same greatest elements *)
  Lemma tie_pick_ext G G' db :
    (forall x, In x (cnames db) -> is_max vcmp G x = is_max vcmp G' x) ->
    first_some (tie_pick G) db = first_some (tie_pick G') db.
  Proof.
    intro H. apply first_some_ext_in. intros s Hs. unfold tie_pick, last_greatest.
    rewrite (find_ext_in (is_max vcmp G) (is_max vcmp G') (rev (versions_in s n f))); [reflexivity|].
    intros x Hx. apply H. apply cnames_in with s; [assumption|]. now apply in_rev.
  Qed.

  (* a stack none of whose names beats the standing choice vo leaves it standing *)
  Lemma standing_leader s db vo (r : option found) :
    In vo U -> (forall w, In w (versions_in s n f ++ cnames db) -> In w U) ->
    (forall w, In w (versions_in s n f) -> le w vo) ->
    (if is_max vcmp (versions_in s n f ++ cnames db) vo then r
     else first_some (tie_pick (vo :: versions_in s n f ++ cnames db)) (s :: db)) =
    (if is_max vcmp (cnames db) vo then r else first_some (tie_pick (vo :: cnames db)) db).
  Proof.
    intros HO HU LV.
    assert (MV : is_max vcmp (versions_in s n f) vo = true) by now apply (is_max_true vcmp).
    rewrite is_max_app, MV. simpl.
    destruct (is_max vcmp (cnames db) vo) eqn:M; [reflexivity|].
    pose proof M as M'. apply (is_max_false vcmp) in M'. destruct M' as [z [Hz Ez]].
    assert (P : tie_pick (vo :: versions_in s n f ++ cnames db) s = None).
    { unfold tie_pick, last_greatest. rewrite find_rev_none; [reflexivity|].
      intros w Hw. apply (is_max_false vcmp). exists z. split; [right; apply in_or_app; now right|].
      apply (pgt_le_gt vcmp U HP z w vo); auto; apply HU, in_or_app; auto. }
    rewrite P. apply tie_pick_ext. intros x Hx.
    destruct (is_max vcmp (vo :: cnames db) x) eqn:Q.
    - apply (is_max_true vcmp). rewrite (is_max_true vcmp) in Q. intros w [<-|Hw]; [apply Q; now left|].
      apply in_app_or in Hw. destruct Hw as [Hw|Hw]; [|apply Q; now right].
      apply (ple_trans vcmp U HP w vo x); auto; [apply HU, in_or_app; auto|apply HU, in_or_app; auto|apply Q; now left].
    - apply (is_max_sub _ (vo :: cnames db)); [|exact Q].
      intros w [<-|Hw]; [now left|right; apply in_or_app; now right].
  Qed.

  (* a stack whose last greatest name vl beats everything seen so far (the names X) *)
  Lemma new_leader s db X vl pre post :
    (forall w, In w (X ++ versions_in s n f ++ cnames db) -> In w U) ->
    versions_in s n f = pre ++ vl :: post ->
    (forall q, In q pre -> le q vl) -> (forall q, In q post -> vcmp q vl = Lt) ->
    (forall w, In w X -> le w vl) ->
    first_some (tie_pick (X ++ versions_in s n f ++ cnames db)) (s :: db) =
    if is_max vcmp (cnames db) vl then Some (found_in s n vl f)
    else first_some (tie_pick (vl :: cnames db)) db.
  Proof.
    intros HU S A B HX. set (V := versions_in s n f) in *. set (N := cnames db) in *. set (G := X ++ V ++ N).
    assert (HvU : In vl U) by (apply HU; apply in_or_app; right; apply in_or_app; left; rewrite S;
                               apply in_or_app; right; now left).
    assert (HVU : forall w, In w V -> In w U) by (intros w Hw; apply HU; apply in_or_app; right; apply in_or_app; now left).
    assert (HNU : forall w, In w N -> In w U) by (intros w Hw; apply HU; apply in_or_app; right; apply in_or_app; now right).
    assert (HXU : forall w, In w X -> In w U) by (intros w Hw; apply HU; apply in_or_app; now left).
    assert (LV : forall w, In w V -> le w vl).
    { rewrite S. apply (split_is_max vcmp U HP); auto. rewrite <- S. exact HVU. }
    destruct (is_max vcmp N vl) eqn:M.
    - (* vl is a greatest name of everything: the stack s answers, with vl *)
      assert (P : tie_pick G s = Some (found_in s n vl f)).
      { unfold tie_pick, last_greatest. fold V. rewrite S. rewrite find_rev_split; [reflexivity| |].
        - apply (is_max_true vcmp). intros w Hw. unfold G in Hw. apply in_app_or in Hw. destruct Hw as [Hw|Hw]; [now apply HX|].
          apply in_app_or in Hw. destruct Hw as [Hw|Hw]; [now apply LV|].
          rewrite (is_max_true vcmp) in M. now apply M.
        - intros q Hq. apply (is_max_false vcmp). exists vl. split.
          + unfold G. apply in_or_app. right. apply in_or_app. left. rewrite S. apply in_or_app. right. now left.
          + apply (plt_gt vcmp U HP); auto. apply HVU. rewrite S. apply in_or_app. right. now right. }
      simpl first_some. now rewrite P.
    - (* a later stack holds something greater than vl: vl stands for X and for the names of s, and does not stand *)
      pose proof (standing_leader s db vl None HvU) as SL. fold V N in SL.
      rewrite is_max_app, M, andb_false_r in SL. rewrite <- SL; [|intros w Hw; apply HU, in_or_app; now right|exact LV].
      apply tie_pick_ext. intros x Hx. rewrite cnames_cons in Hx. fold V N in Hx.
      unfold G. change (vl :: V ++ N) with ([vl] ++ V ++ N). rewrite (is_max_app vcmp X), (is_max_app vcmp [vl]).
      destruct (is_max vcmp (V ++ N) x) eqn:Q; [|now rewrite !andb_false_r]. rewrite (is_max_true vcmp) in Q.
      assert (Lx : le vl x) by (apply Q, in_or_app; left; rewrite S; apply in_or_app; right; now left).
      assert (HxU : In x U) by (apply HU, in_or_app; now right).
      assert (E : forall Y, (forall w, In w Y -> In w U /\ le w vl) -> is_max vcmp Y x = true).
      { intros Y HY. apply (is_max_true vcmp). intros w Hw. destruct (HY w Hw). now apply (ple_trans vcmp U HP w vl x). }
      rewrite (E X), (E [vl]); [reflexivity| |]; intros w Hw.
      + destruct Hw as [<-|[]]. split; [exact HvU|now apply (ple_refl vcmp U HP)].
      + split; auto.
  Qed.

  Lemma find_latest_from_tie db : forall out,
    (forall s, In s db -> forall v, In v (versions_in s n f) -> In v U) ->
    match out with Some o => In (fd_version o) U | None => True end ->
    find_latest_from vcmp out db n f =
    match out with
    | Some o => if is_max vcmp (cnames db) (fd_version o) then Some o
                else first_some (tie_pick (fd_version o :: cnames db)) db
    | None => first_some (tie_pick (cnames db)) db
    end.
  Proof.
    induction db as [|s db IH]; intros out HS HO.
    - simpl. destruct out; reflexivity.
    - assert (HS' : forall s0, In s0 db -> forall v, In v (versions_in s0 n f) -> In v U)
        by (intros s0 H0; apply HS; now right).
      assert (Hs : forall v, In v (versions_in s n f) -> In v U) by (apply HS; now left).
      assert (HN : forall w, In w (cnames db) -> In w U).
      { intros w Hw. unfold cnames in Hw. apply in_map_iff in Hw. destruct Hw as [p [<- Hp]].
        unfold candidates in Hp. apply in_flat_map in Hp. destruct Hp as [s0 [H0 Hp]].
        apply in_map_iff in Hp. destruct Hp as [v [<- Hv]]. simpl. now apply (HS' s0). }
      simpl find_latest_from. unfold stack_latest. rewrite cnames_cons.
      destruct (last_max vcmp (versions_in s n f)) as [vl|] eqn:LM.
      + destruct (last_max_split vcmp U HP _ vl Hs LM) as [pre [post [S [A B]]]].
        assert (HvU : In vl U) by (apply Hs; rewrite S; apply in_or_app; right; now left).
        assert (LV : forall w, In w (versions_in s n f) -> le w vl).
        { rewrite S. apply (split_is_max vcmp U HP); auto. rewrite <- S. exact Hs. }
        destruct out as [o|].
        * cbn [fd_version found_in].
          destruct (vcmp vl (fd_version o)) eqn:E.
          1,2: (* not greater: the earlier choice stands *)
            rewrite (IH (Some o) HS' HO); symmetry; apply standing_leader; auto;
            [intros w Hw; apply in_app_or in Hw; destruct Hw; auto
            |intros w Hw; apply (ple_trans vcmp U HP w vl (fd_version o)); auto;
             unfold ResolveLib.le; rewrite E; discriminate].
          (* strictly greater: the stack s takes over *)
          rewrite (IH (Some (found_in s n vl f)) HS' HvU). cbn [fd_version found_in].
          assert (MO : is_max vcmp (versions_in s n f ++ cnames db) (fd_version o) = false).
          { apply (is_max_false vcmp). exists vl. split; [|exact E]. apply in_or_app. left. rewrite S.
            apply in_or_app. right. now left. }
          rewrite MO. symmetry.
          apply (new_leader s db [fd_version o] vl pre post); auto.
          -- intros w Hw. simpl in Hw. destruct Hw as [<-|Hw]; [exact HO|].
             apply in_app_or in Hw. destruct Hw as [Hw|Hw]; [now apply Hs|now apply HN].
          -- intros w [<-|[]]. unfold ResolveLib.le. rewrite (pgt_lt vcmp U HP vl (fd_version o)); auto. discriminate.
        * rewrite (IH (Some (found_in s n vl f)) HS' HvU). cbn [fd_version found_in]. symmetry.
          apply (new_leader s db [] vl pre post); auto.
          -- simpl. intros w Hw. apply in_app_or in Hw. destruct Hw as [Hw|Hw]; [now apply Hs|now apply HN].
          -- intros w [].
      + apply last_max_nil in LM. rewrite LM. simpl app. rewrite (IH out HS' HO).
        destruct out as [o|].
        * destruct (is_max vcmp (cnames db) (fd_version o)); [reflexivity|].
          simpl first_some. now rewrite (tie_pick_nil _ s LM).
        * simpl first_some. now rewrite (tie_pick_nil _ s LM).
  Qed.

End LatestTie.

Lemma latest_tie_spec vcmp db n f :
  total_preorder_on vcmp (names_of db n) ->
  find_latest vcmp db n f = latest_tie vcmp db n f.
Proof.
  intro HP. unfold find_latest, latest_tie.
  rewrite (find_latest_from_tie vcmp (names_of db n) HP n f db None); [reflexivity| |exact I].
  intros s Hs v Hv. eapply versions_in_names; eauto.
Qed.

Lemma expr_highest_pre vcmp vmatch db n x f p :
  total_preorder_on vcmp (names_of db n) ->
  select_latest vcmp (find_by_expr vmatch db n x f) = Some p ->
  In p (candidates db n f) /\ vmatch (fd_version p) x = true /\
  (forall q, In q (candidates db n f) -> vmatch (fd_version q) x = true ->
             vcmp (fd_version q) (fd_version p) <> Gt) /\
  find (fun q => str_eqb (fd_version q) (fd_version p))
       (filter (fun q => vmatch (fd_version q) x) (candidates db n f)) = Some p.
Proof.
  intros HP H. rewrite (expr_tie_spec vcmp vmatch db n x f HP) in H. unfold expr_tie in H.
  set (m := filter (fun p => vmatch (fd_version p) x) (candidates db n f)) in *.
  destruct (last_greatest vcmp (uniq (map fd_version m)) (uniq (map fd_version m))) as [v|] eqn:LG; [|discriminate].
  unfold last_greatest in LG. apply find_some in LG. destruct LG as [_ MX].
  pose proof (find_some _ _ H) as [Ip Vp]. apply str_eqb_eq in Vp.
  pose proof Ip as Ip'. unfold m in Ip'. apply filter_In in Ip'. destruct Ip' as [Ic Mp].
  split; [exact Ic|]. split; [exact Mp|]. split.
  - intros q Hq Mq. rewrite Vp.
    assert (PU : forall w, In w (uniq (map fd_version m)) -> ResolveLib.le vcmp w v).
    { apply (is_max_true vcmp). exact MX. }
    apply PU. rewrite uniq_In. apply in_map. unfold m. apply filter_In. now split.
  - rewrite Vp. exact H.
Qed.

Lemma first_some_split {A B} (g : A -> option B) l b :
  first_some g l = Some b ->
  exists l1 a l2, l = l1 ++ a :: l2 /\ g a = Some b /\ forall a', In a' l1 -> g a' = None.
Proof.
  induction l as [|a l IH]; simpl; [discriminate|].
  destruct (g a) as [b'|] eqn:E.
  - intro H. injection H as <-. exists [], a, l. repeat split; [exact E|intros a' []].
  - intro H. destruct (IH H) as [l1 [a0 [l2 [S [G N]]]]]. exists (a :: l1), a0, l2.
    split; [simpl; now rewrite S|]. split; [exact G|]. intros a' [<-|Ha]; auto.
Qed.

Lemma candidates_app db1 db2 n f : candidates (db1 ++ db2) n f = candidates db1 n f ++ candidates db2 n f.
Proof. unfold candidates. apply flat_map_app. Qed.

Lemma latest_highest_pre vcmp db n f p :
  total_preorder_on vcmp (names_of db n) ->
  find_latest vcmp db n f = Some p ->
  In p (candidates db n f) /\
  (forall q, In q (candidates db n f) -> vcmp (fd_version q) (fd_version p) <> Gt) /\
  find (fun q => str_eqb (fd_version q) (fd_version p)) (candidates db n f) = Some p.
Proof.
  intros HP H. rewrite (latest_tie_spec vcmp db n f HP) in H. unfold latest_tie in H.
  set (all := map fd_version (candidates db n f)) in *.
  apply first_some_split in H. destruct H as [db1 [s [db2 [S [G N]]]]].
  destruct (last_greatest vcmp all (versions_in s n f)) as [v|] eqn:LG; [|discriminate]. injection G as <-.
  unfold last_greatest in LG. apply find_some in LG. destruct LG as [Iv MX]. apply in_rev in Iv.
  assert (Is : In (found_in s n v f) (cands_stack s n f)) by (unfold cands_stack; apply in_map_iff; eauto).
  assert (Ic : In (found_in s n v f) (candidates db n f)).
  { rewrite S, candidates_app, candidates_cons. apply in_or_app. right. apply in_or_app. now left. }
  split; [exact Ic|]. split.
  - intros q Hq. simpl. rewrite (is_max_true vcmp) in MX. apply MX. unfold all. now apply in_map.
  - simpl. change (fun q => str_eqb (fd_version q) v) with (verb v).
    rewrite S, candidates_app, candidates_cons, !find_app.
    assert (N1 : find (verb v) (candidates db1 n f) = None).
    { apply find_none_iff. intros q Hq. unfold verb. destruct (str_eqb (fd_version q) v) eqn:E; [|reflexivity]. exfalso.
      apply str_eqb_eq in E. unfold candidates in Hq. apply in_flat_map in Hq. destruct Hq as [s' [Hs' Hq]].
      apply in_map_iff in Hq. destruct Hq as [w [<- Hw]]. simpl in E. subst w.
      specialize (N s' Hs'). cbv beta in N.
      destruct (last_greatest vcmp all (versions_in s' n f)) eqn:LG'; [discriminate|].
      unfold last_greatest in LG'. rewrite find_none_iff in LG'. rewrite (LG' v) in MX; [discriminate|].
      now apply -> in_rev. }
    rewrite N1. unfold cands_stack. rewrite find_verb_map. apply mem_str_In in Iv. now rewrite Iv.
Qed.

Lemma vcmp_real_key a b : conv a = true -> conv b = true -> vcmp_real a b = key_compare (key a) (key b).
Proof. intros A B. unfold vcmp_real. now rewrite (C10.cmp_is_key_order a b A B). Qed.

Lemma conv_names_forall l : conv_names l = true <-> forall x, In x l -> conv x = true.
Proof. unfold conv_names. apply forallb_forall. Qed.

Lemma conv_names_accepted l : conv_names l = true -> forallb accepts l = true.
Proof.
  rewrite conv_names_forall, forallb_forall. intros H x Hx. apply C10.conv_is_accepted. auto.
Qed.

Lemma real_preorder l : conv_names l = true -> total_preorder_on vcmp_real l.
Proof.
  intro C. rewrite conv_names_forall in C. destruct C10.key_order_is_total_order as [R [E [S T]]].
  split; [|split].
  - intros x Hx. rewrite vcmp_real_key by auto. apply R.
  - intros x y Hx Hy. rewrite !vcmp_real_key by auto. apply S.
  - intros x y z Hx Hy Hz. rewrite !vcmp_real_key by auto.
    destruct (C10.conv_trans x y z (C x Hx) (C y Hy) (C z Hz)) as [_ [T2 _]].
    rewrite (C10.cmp_is_key_order x y), (C10.cmp_is_key_order y z), (C10.cmp_is_key_order x z) in T2 by auto.
    intros H1 H2 H3. apply T2; congruence.
Qed.

Lemma vcmp_real_eq_key a b : conv a = true -> conv b = true -> (vcmp_real a b = Eq <-> key a = key b).
Proof.
  intros A B. rewrite vcmp_real_key by assumption. destruct C10.key_order_is_total_order as [R [E _]].
  split; [apply E|intros ->; apply R].
Qed.

Lemma key_injectiveb_spec l :
  key_injectiveb l = true <->
  forall x y, In x l -> In y l -> key_compare (key x) (key y) = Eq -> x = y.
Proof.
  unfold key_injectiveb. rewrite forallb_forall. split.
  - intros H x y Hx Hy E. specialize (H x Hx). rewrite forallb_forall in H. specialize (H y Hy).
    rewrite E in H. now apply str_eqb_eq.
  - intros H x Hx. apply forallb_forall. intros y Hy.
    destruct (key_compare (key x) (key y)) eqn:E; [|reflexivity|reflexivity].
    apply str_eqb_eq. now apply H.
Qed.

Lemma real_total_order l : real_names_ok l = true -> total_order_on vcmp_real l.
Proof.
  unfold real_names_ok. intro H. apply andb_true_iff in H. destruct H as [C J].
  destruct (real_preorder l C) as [R [S T]]. rewrite key_injectiveb_spec in J. rewrite conv_names_forall in C.
  split; [exact R|]. split; [|split; [exact S|exact T]].
  intros x y Hx Hy E. apply J; auto. now rewrite <- vcmp_real_key by auto.
Qed.

(* and conversely: on conventional names the hypothesis of Props/C03.v says exactly that no two declared
   names spell the same key *)
Lemma real_total_order_inv l : conv_names l = true -> total_order_on vcmp_real l -> real_names_ok l = true.
Proof.
  intros C [_ [E _]]. unfold real_names_ok. rewrite C. simpl. apply key_injectiveb_spec.
  rewrite conv_names_forall in C. intros x y Hx Hy K. apply E; auto. now rewrite vcmp_real_key by auto.
Qed.

Lemma vmatch_real_relop v op w :
  conv v = true -> conv w = true ->
  vmatch_real v (relop_text op ++ " "%char :: w) =
  str_eqb (prefix_of w) (prefix_of v) && rel op (key_compare (key v) (key w)).
Proof.
  intros Cv Cw. unfold vmatch_real. destruct (str_eqb_spec (prefix_of w) (prefix_of v)) as [P|P].
  - now rewrite (C10.match_relop v op w Cv Cw P).
  - now rewrite (C10.match_other_prefix v op w Cv Cw P).
Qed.

Lemma vmatch_real_alternatives v a l :
  conv v = true -> Forall (VersionCompareMatch.alt_conv v) (a :: l) ->
  vmatch_real v (print_expr (a :: l)) = existsb (alt_holds v) (a :: l).
Proof. intros Cv H. unfold vmatch_real. now rewrite (C10.match_alternatives v a l Cv H). Qed.

Lemma relop_expr_defined op w vs :
  conv_names vs = true -> conv w = true -> expr_defined (relop_text op ++ " "%char :: w) vs = true.
Proof.
  intros C Cw. rewrite conv_names_forall in C. unfold expr_defined. apply forallb_forall. intros v Hv.
  destruct (str_eqb_spec (prefix_of w) (prefix_of v)) as [P|P].
  - now rewrite (C10.match_relop v op w (C v Hv) Cw P).
  - now rewrite (C10.match_other_prefix v op w (C v Hv) Cw P).
Qed.

Lemma resolve_real_in_domain c db keep prev flavors depth vro rq :
  real_domain db rq = true ->
  resolve_real c db keep prev flavors depth vro rq =
  resolve_request vcmp_real vmatch_real c db keep prev flavors depth vro rq.
Proof. intro H. unfold resolve_real. now rewrite H. Qed.

Lemma walk_real_in_domain c db prev f depth vro rq :
  real_domain db rq = true ->
  walk_real c db prev f depth vro rq = Ok (find_from_vro vcmp_real vmatch_real c db prev f depth vro rq).
Proof. intro H. unfold walk_real. now rewrite H. Qed.

Lemma names_of_db_of_name cfg fw n v : In v (names_of (db_of cfg fw) n) -> In n (map p_name (fw_products fw)).
Proof.
  unfold names_of, db_of. simpl. rewrite app_nil_r. intro H. apply in_flat_map in H. destruct H as [[[n' v'] f'] [Hd Hv]].
  apply in_map_iff in Hd. destruct Hd as [p [Ep Hp]]. unfold decl_of in Ep. injection Ep as <- <- <-.
  destruct (str_eqb n (p_name p)) eqn:E; [|contradiction]. apply str_eqb_eq in E. subst n. now apply in_map.
Qed.

Lemma fw_real_ok_all cfg fw : fw_real_ok cfg fw = true -> forall n, real_names_ok (names_of (db_of cfg fw) n) = true.
Proof.
  intros H n. unfold fw_real_ok in H. rewrite forallb_forall in H.
  destruct (mem_str n (map p_name (fw_products fw))) eqn:M.
  - apply H. now apply mem_str_In.
  - apply mem_str_not_In in M. destruct (names_of (db_of cfg fw) n) as [|v r] eqn:E; [reflexivity|]. exfalso.
    apply M. apply (names_of_db_of_name cfg fw n v). rewrite E. now left.
Qed.

Lemma fw_real_ok_total cfg fw :
  fw_real_ok cfg fw = true -> forall n, total_order_on vcmp_real (names_of (db_of cfg fw) n).
Proof. intros H n. apply real_total_order. now apply fw_real_ok_all. Qed.
