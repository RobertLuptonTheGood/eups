(* Listings: what getDependentProducts returns, as a set; the uses index and its inverse law. *)
From Coq Require Import Lia Sorted.
From Eupsv Require Import Base.Base Base.BaseLemmas Model.Graph Proofs.GraphLib Proofs.GraphWalk.

Section Sort.
  Context {A : Type}.
  Variable cmp : A -> A -> option comparison.
  Hypothesis total : forall a b, cmp a b <> None.

  Lemma pinsert_total x l : exists r, pinsert cmp x l = Ok r /\ (forall y, In y r <-> In y (x :: l)) /\ length r = S (length l).
  Proof.
    induction l as [|z l IH]; simpl.
    - exists [x]. split; [reflexivity|]. split; [reflexivity | reflexivity].
    - destruct (cmp x z) as [c|] eqn:E; [|destruct (total x z E)].
      assert (Here : exists r, Ok (x :: z :: l) = Ok r /\ (forall y, In y r <-> x = y \/ z = y \/ In y l) /\ length r = S (S (length l))).
      { exists (x :: z :: l). split; [reflexivity|]. split; [reflexivity | reflexivity]. }
      destruct c; [exact Here | exact Here|].
      destruct IH as [r [E1 [E2 E3]]]. rewrite E1. exists (z :: r). split; [reflexivity|]. split.
      + intros y. simpl. rewrite E2. simpl. tauto.
      + simpl. rewrite E3. reflexivity.
  Qed.

  Lemma psort_total l : exists r, psort cmp l = Ok r /\ (forall y, In y r <-> In y l) /\ length r = length l.
  Proof.
    induction l as [|x l IH]; simpl.
    - exists []. split; [reflexivity|]. split; [reflexivity | reflexivity].
    - destruct IH as [r [E1 [E2 E3]]]. rewrite E1.
      destruct (pinsert_total x r) as [r' [F1 [F2 F3]]]. exists r'. split; [exact F1|]. split.
      + intros y. rewrite F2. simpl. rewrite E2. reflexivity.
      + rewrite F3, E3. reflexivity.
  Qed.
End Sort.

(* sorting with a comparison that refines a transitive relation R yields a list sorted by R *)
Section SortSorted.
  Context {A : Type}.
  Variables (cmp : A -> A -> option comparison) (R : A -> A -> Prop).
  Hypothesis total : forall a b, cmp a b <> None.
  Hypothesis Rtrans : forall a b c, R a b -> R b c -> R a c.
  Hypothesis cmp_gt : forall a b, cmp a b = Some Gt -> R b a.
  Hypothesis cmp_not_gt : forall a b c, cmp a b = Some c -> c <> Gt -> R a b.

  Lemma pinsert_sorted x : forall l r,
    StronglySorted R l -> pinsert cmp x l = Ok r -> StronglySorted R r.
  Proof.
    induction l as [|y l IH]; intros r Hs; cbn [pinsert].
    - intros Q. inversion Q. constructor; constructor.
    - destruct (cmp x y) as [c|] eqn:E; [|discriminate].
      inversion Hs as [|? ? Hs' Hall]. subst.
      assert (Hle : c <> Gt -> StronglySorted R (x :: y :: l)).
      { intros Hc. pose proof (cmp_not_gt x y c E Hc) as Hxy. constructor; [exact Hs|].
        constructor; [exact Hxy|]. eapply Forall_impl; [|exact Hall]. intros z Hz. exact (Rtrans _ _ _ Hxy Hz). }
      destruct c.
      + intros Q. inversion Q. apply Hle. discriminate.
      + intros Q. inversion Q. apply Hle. discriminate.
      + destruct (pinsert cmp x l) as [r'|] eqn:E'; [|discriminate]. intros Q. inversion Q. subst r.
        constructor; [apply IH; auto|].
        destruct (pinsert_total cmp total x l) as [r'' [F1 [F2 _]]].
        rewrite E' in F1. inversion F1. subst r''.
        apply Forall_forall. intros z Hz. apply F2 in Hz as [-> | Hz].
        * apply cmp_gt, E.
        * rewrite Forall_forall in Hall. apply Hall, Hz.
  Qed.

  Lemma psort_sorted : forall l r, psort cmp l = Ok r -> StronglySorted R r.
  Proof.
    induction l as [|x l IH]; intros r; simpl.
    - intros Q. inversion Q. constructor.
    - destruct (psort cmp l) as [r0|]; [|discriminate]. intros Q. eapply pinsert_sorted; [|exact Q]. apply IH. reflexivity.
  Qed.
End SortSorted.

Lemma entry_cmp_total a b : entry_cmp a b <> None.
Proof. discriminate. Qed.

Lemma node_cmp_total a b : node_cmp a b <> None.
Proof. discriminate. Qed.

Lemma entry_sort_In l x : In x (entry_sort l) <-> In x l.
Proof.
  unfold entry_sort.
  destruct (psort_total entry_cmp entry_cmp_total l) as [r [E [H _]]].
  rewrite E. apply H.
Qed.

Lemma keep_last_nodes l q : In q (map enode (keep_last l)) <-> In q (map enode l).
Proof.
  induction l as [|x l IH]; simpl; [tauto|].
  destruct (mem_node (enode x) (map enode l)) eqn:E.
  - rewrite IH. apply mem_node_In in E. split; [tauto|]. intros [<- | H]; auto.
  - simpl. rewrite IH. tauto.
Qed.

Lemma keep_last_NoDup l : NoDup (map enode (keep_last l)).
Proof.
  induction l as [|x l IH]; simpl; [constructor|].
  destruct (mem_node (enode x) (map enode l)) eqn:E; [exact IH|].
  simpl. constructor; [|exact IH]. rewrite keep_last_nodes. apply mem_node_not_In, E.
Qed.

Lemma dedup_nodes_eq l : map enode (dedup l) = map enode (keep_last l).
Proof. unfold dedup. rewrite map_map. reflexivity. Qed.

Lemma relabel_node tn td x : enode (relabel tn td x) = enode x.
Proof. unfold relabel, relabel_pinned. destruct (low_get tn _); [reflexivity|]. destruct (alookup _ td); reflexivity. Qed.

Lemma topo_finish_nodes fx L dp q : In q (map enode (topo_finish fx L dp)) <-> In q (map enode dp).
Proof.
  unfold topo_finish. rewrite dedup_nodes_eq, keep_last_nodes.
  rewrite !in_map_iff. split.
  - intros [x [E H]]. rewrite entry_sort_In in H. apply in_map_iff in H as [y [E2 H]].
    exists y. subst. rewrite relabel_node. auto.
  - intros [x [E H]]. eexists (relabel _ (depth_by_name L 0 (S (length L)) []) x). rewrite relabel_node. split; [exact E|].
    rewrite entry_sort_In. apply in_map. exact H.
Qed.

Lemma topo_finish_NoDup fx L dp : NoDup (map enode (topo_finish fx L dp)).
Proof. unfold topo_finish. rewrite dedup_nodes_eq. apply keep_last_NoDup. Qed.

Lemma resolve_nil w e : resolve w [] e = own_target e.
Proof. reflexivity. Qed.

Lemma walk_top_ok w pins top fuel es :
  length w < fuel -> node_table w top = Some es ->
  exists out st, walk_top fuel w pins top = Ok (out, st) /\ walk_ok w pins top (mkW [] [(top, [])]) es out st.
Proof.
  intros Hf Ht. unfold walk_top. rewrite Ht. apply walk_ok_all.
  pose proof (unvisited_le w (mkW [] [(top, [])])). lia.
Qed.

Lemma walk_top_spec w pins top fuel :
  length w < fuel ->
  exists out st, walk_top fuel w pins top = Ok (out, st) /\
                 forall q, In q (map enode out) <-> reachP w pins top q.
Proof.
  intros Hf. destruct (node_table w top) as [es|] eqn:Ht.
  - destruct (walk_top_ok w pins top fuel es Hf Ht) as [out [st [E Hok]]].
    exists out, st. split; [exact E|]. destruct Hok as [M N L V S _ _ _ _ _ _]. intros q. split.
    + apply (S (reachP w pins top)).
      * intros e Ie. apply rp_one. exists es, e. auto.
      * intros x y. apply reachP_trans_step.
    + assert (Hstep : forall p q', (p = top \/ In p (map enode out)) -> stepP w pins p q' -> In q' (map enode out)).
      { intros p q' Hp [es_p [e [Tp [Ie ->]]]]. destruct Hp as [-> | Hp].
        - rewrite Ht in Tp. inversion Tp. subst. apply L, Ie.
        - apply (N p) with (es_x := es_p); auto.
          apply V; auto. eapply node_table_real; eauto. }
      intros R. assert (G : forall p q', reachP w pins p q' -> (p = top \/ In p (map enode out)) -> In q' (map enode out)).
      { induction 1 as [p q' H | p q' r H H' IH]; intros Hp.
        - eapply Hstep; eauto.
        - apply IH. right. eapply Hstep; eauto. }
      apply (G top q R). auto.
  - exists [], (mkW [] []). unfold walk_top. rewrite Ht. split; [reflexivity|]. intros q. simpl. split; [tauto|].
    intros R. exfalso. assert (G : forall p q', reachP w pins p q' -> p = top -> False).
    { induction 1 as [p q' [es [e [T _]]] | p q' r [es [e [T _]]] _ _]; intros ->; congruence. }
    eapply G; eauto.
Qed.

Lemma drop_top_nodes top l q : In q (map enode (drop_top top l)) <-> q <> top /\ In q (map enode l).
Proof.
  unfold drop_top. rewrite !in_map_iff. split.
  - intros [x [<- H]]. apply filter_In in H as [H1 H2]. apply negb_true_iff, node_eqb_neq in H2. eauto.
  - intros [N [x [<- H]]]. exists x. split; [reflexivity|]. apply filter_In. split; [exact H|].
    apply negb_true_iff, node_eqb_neq. exact N.
Qed.

(* reachability in the world as resolved (nothing pinned) *)
Definition step (w : world) (p q : node) : Prop :=
  exists es e, node_table w p = Some es /\ In e es /\ q = own_target e.
Definition reach_plus (w : world) : node -> node -> Prop := reachP w [].

Lemma listing_plain w top fuel :
  length w < fuel ->
  exists l, dependent_products fuel w top false = Ok l /\
            forall q, In q (map enode l) <-> q <> top /\ reach_plus w top q.
Proof.
  intros Hf. unfold dependent_products, dependent_products_with.
  destruct (walk_top_spec w [] top fuel Hf) as [out [st [E H]]]. rewrite E. simpl.
  eexists. split; [reflexivity|]. intros q. rewrite drop_top_nodes, H. reflexivity.
Qed.

Lemma dependent_products_with_inv fx cmp fuel w top l :
  dependent_products_with fx cmp fuel w top true = Ok l ->
  exists out1 st1 out2 st2 NL,
    walk_top fuel w [] top = Ok (out1, st1) /\
    walk_top fuel w (pins_for fx top (drop_top top out1)) top = Ok (out2, st2) /\
    topo_layers_with cmp false (pd st2) = Ok NL /\
    l = topo_finish fx NL (drop_top top out1).
Proof.
  unfold dependent_products_with. destruct (walk_top fuel w [] top) as [[out1 st1]|]; [|discriminate].
  cbn [negb]. cbv zeta. destruct (walk_top fuel w _ top) as [[out2 st2]|] eqn:E2; [|discriminate].
  destruct (topo_layers_with cmp false (pd st2)) as [NL|] eqn:ET; [|discriminate].
  intros Q. inversion Q. exists out1, st1, out2, st2, NL. auto.
Qed.

Lemma listing_topological fx cmp w top fuel l :
  length w < fuel ->
  dependent_products_with fx cmp fuel w top true = Ok l ->
  (forall q, In q (map enode l) <-> q <> top /\ reach_plus w top q) /\ NoDup (map enode l).
Proof.
  intros Hf D. destruct (dependent_products_with_inv _ _ _ _ _ _ D) as [out1 [st1 [out2 [st2 [NL [E1 [_ [_ ->]]]]]]]].
  destruct (walk_top_spec w [] top fuel Hf) as [out [st [E H]]]. rewrite E1 in E. inversion E. subst out st.
  split; [|apply topo_finish_NoDup]. intros q. rewrite topo_finish_nodes, drop_top_nodes, H. reflexivity.
Qed.

Lemma ukey_eqb_eq a b : ukey_eqb a b = true <-> a = b.
Proof.
  destruct a as [an av], b as [bn bv]. unfold ukey_eqb. simpl.
  rewrite andb_true_iff, str_eqb_eq, ostr_eqb_eq. split; [intros [-> ->]; reflexivity | intros H; inversion H; auto].
Qed.

Lemma uniq_keys_In x l : In x (uniq_keys l) <-> In x l.
Proof.
  induction l as [|y l IH]; simpl; [tauto|].
  rewrite filter_In, IH. destruct (ukey_eqb x y) eqn:E; simpl.
  - apply ukey_eqb_eq in E. subst. tauto.
  - split; [tauto|]. intros [<- | H]; [|tauto]. rewrite (proj2 (ukey_eqb_eq y y) eq_refl) in E. discriminate.
Qed.

Lemma user_eqb_eq a b : user_eqb a b = true <-> a = b.
Proof.
  destruct a, b. unfold user_eqb. simpl. rewrite andb_true_iff, !str_eqb_eq.
  split; [intros [-> ->]; reflexivity | intros H; inversion H; auto].
Qed.

Lemma min_for_user u best l : cuser best = u -> cuser (min_for u best l) = u.
Proof.
  revert best. induction l as [|c r IH]; intros best H; simpl; [exact H|].
  destruct (user_eqb (cuser c) u && Nat.ltb (snd (cprops c)) (snd (cprops best))) eqn:E.
  - apply IH. apply andb_true_iff in E as [E _]. apply user_eqb_eq, E.
  - apply IH, H.
Qed.

Lemma min_for_In u best l : min_for u best l = best \/ In (min_for u best l) l.
Proof.
  revert best. induction l as [|c r IH]; intros best; simpl; [auto|].
  destruct (user_eqb (cuser c) u && Nat.ltb (snd (cprops c)) (snd (cprops best))).
  - destruct (IH c) as [-> | H]; auto.
  - destruct (IH best) as [-> | H]; auto.
Qed.

Lemma min_per_user_users l u : In u (map cuser (min_per_user l)) <-> In u (map cuser l).
Proof.
  induction l as [|c r IH]; simpl; [tauto|].
  rewrite min_for_user by reflexivity.
  split.
  - intros [H | H]; [auto|]. right. apply IH. apply in_map_iff in H as [d [<- H]].
    apply filter_In in H as [H _]. apply in_map, H.
  - intros [H | H]; [auto|]. destruct (user_eqb u (cuser c)) eqn:E.
    + apply user_eqb_eq in E. auto.
    + right. apply IH in H. apply in_map_iff in H as [d [<- H]]. apply in_map_iff. exists d. split; [reflexivity|].
      apply filter_In. split; [exact H|]. rewrite E. reflexivity.
Qed.

Lemma min_per_user_sub l c : In c (min_per_user l) -> In c l.
Proof.
  revert c. induction l as [|d r IH]; intros c; simpl; [tauto|].
  intros [<- | H].
  - destruct (min_for_In (cuser d) d r) as [-> | H]; auto.
  - apply filter_In in H as [H _]. auto.
Qed.

Lemma setup_by_users idx k u :
  In u (map cuser (setup_by idx k)) <->
  exists l, In (u, l) idx /\ exists x, In x l /\ ukey_of (enode x) = k.
Proof.
  unfold setup_by. rewrite in_map_iff. split.
  - intros [c [<- H]]. apply in_flat_map in H as [[u' l] [I H]]. simpl in H.
    apply in_map_iff in H as [x [<- H]]. apply filter_In in H as [H1 H2]. apply ukey_eqb_eq in H2.
    exists l. simpl. split; [exact I|]. exists x. auto.
  - intros [l [I [x [H1 H2]]]]. exists (u, (nver (enode x), eoptional x, edepth x)). split; [reflexivity|].
    apply in_flat_map. exists (u, l). split; [exact I|]. simpl. apply in_map_iff. exists x. split; [reflexivity|].
    apply filter_In. split; [exact H1|]. apply ukey_eqb_eq, H2.
Qed.

Lemma consumers_users idx x ov u :
  In u (map cuser (consumers idx x ov)) <->
  exists l, In (u, l) idx /\ exists e, In e l /\ key_matches x ov (ukey_of (enode e)) = true.
Proof.
  unfold consumers. rewrite in_map_iff. split.
  - intros [c [<- H]]. apply in_flat_map in H as [k [Hk H]]. apply filter_In in Hk as [_ Hm].
    assert (Hu : In (cuser c) (map cuser (min_per_user (setup_by idx k)))) by (apply in_map, H).
    apply min_per_user_users, setup_by_users in Hu as [l [I [e [H1 H2]]]].
    exists l. split; [exact I|]. exists e. split; [exact H1|]. rewrite H2. exact Hm.
  - intros [l [I [e [H1 H2]]]].
    assert (Hu : In u (map cuser (min_per_user (setup_by idx (ukey_of (enode e)))))).
    { apply min_per_user_users, setup_by_users. exists l. split; [exact I|]. exists e. auto. }
    apply in_map_iff in Hu as [c [Ec Hc]]. exists c. split; [exact Ec|].
    apply in_flat_map. exists (ukey_of (enode e)). split; [|exact Hc].
    apply filter_In. split; [|exact H2]. unfold index_keys. apply uniq_keys_In.
    apply in_flat_map. exists (u, l). split; [exact I|]. simpl. apply in_map_iff. exists e. auto.
Qed.

Lemma consumers_props idx x ov c :
  In c (consumers idx x ov) ->
  exists l e, In (cuser c, l) idx /\ In e l /\ key_matches x ov (ukey_of (enode e)) = true /\
              cprops c = (nver (enode e), eoptional e, edepth e).
Proof.
  unfold consumers. intros H. apply in_flat_map in H as [k [Hk H]]. apply filter_In in Hk as [_ Hm].
  apply min_per_user_sub in H. unfold setup_by in H. apply in_flat_map in H as [[u l] [I H]]. simpl in H.
  apply in_map_iff in H as [e [<- H]]. apply filter_In in H as [H1 H2]. apply ukey_eqb_eq in H2.
  exists l, e. simpl. rewrite H2. auto.
Qed.

Lemma consumer_cmp_total a b : consumer_cmp a b <> None.
Proof. discriminate. Qed.

Lemma users_total_ok idx x ov :
  exists us, users idx x ov = Ok us /\ (forall c, In c us <-> In c (consumers idx x ov)) /\
             length us = length (consumers idx x ov).
Proof. unfold users. apply psort_total. exact consumer_cmp_total. Qed.

Lemma listings_with_spec fx cmp fuel w ps idx :
  listings_with fx cmp fuel w ps = Ok idx ->
  forall u l, In (u, l) idx <->
              In u ps /\ dependent_products_with fx cmp fuel w (fst u, Some (snd u), true) true = Ok l.
Proof.
  revert idx. induction ps as [|[n v] r IH]; intros idx; simpl.
  - intros E. inversion E. simpl. tauto.
  - destruct (dependent_products_with fx cmp fuel w (n, Some v, true) true) as [l0|] eqn:E0; [|discriminate].
    destruct (listings_with fx cmp fuel w r) as [ls|]; [|discriminate].
    intros E. inversion E. subst. intros u l. simpl. rewrite (IH ls eq_refl). split.
    + intros [H | H]; [inversion H; subst; simpl; auto | tauto].
    + intros [[H | H] D]; [subst; simpl in D; left; congruence | right; auto].
Qed.

Lemma listings_with_keys fx cmp fuel w ps idx : listings_with fx cmp fuel w ps = Ok idx -> map fst idx = ps.
Proof.
  revert idx. induction ps as [|[n v] r IH]; intros idx; simpl.
  - intros E. inversion E. reflexivity.
  - destruct (dependent_products_with fx cmp fuel w (n, Some v, true) true) as [l0|]; [|discriminate].
    destruct (listings_with fx cmp fuel w r) as [ls|]; [|discriminate].
    intros E. inversion E. simpl. rewrite (IH ls eq_refl). reflexivity.
Qed.

Definition matches (x : str) (ov : option str) (q : node) : Prop :=
  nname q = x /\ match ov with None => True | Some v => nver q = Some v end.

Lemma key_matches_spec x ov q : key_matches x ov (ukey_of q) = true <-> matches x ov q.
Proof.
  unfold key_matches, matches, ukey_of. simpl. rewrite andb_true_iff, str_eqb_eq.
  destruct ov as [v|]; [rewrite ostr_eqb_eq|]; tauto.
Qed.

Definition pnode (y : str * str) : node := (fst y, Some (snd y), true).

Lemma uses_inverse_listing fuel w idx x ov us y :
  uses_index fuel w = Ok idx -> users idx x ov = Ok us ->
  (In y (map cuser us) <->
   In y (map fst w) /\
   exists l, dependent_products fuel w (pnode y) true = Ok l /\ exists q, In q (map enode l) /\ matches x ov q).
Proof.
  intros Hi Hu. destruct (users_total_ok idx x ov) as [us' [E [H _]]]. rewrite Hu in E. inversion E. subst us'.
  assert (Hm : In y (map cuser us) <-> In y (map cuser (consumers idx x ov))).
  { rewrite !in_map_iff. split; intros [c [Q I]]; exists c; (split; [exact Q | apply H, I]). }
  rewrite Hm, consumers_users. unfold uses_index in Hi.
  pose proof (listings_with_spec _ _ _ _ _ _ Hi) as Hs. split.
  - intros [l [I [e [Ie Mk]]]]. apply Hs in I as [I1 I2]. split; [exact I1|]. exists l. split; [exact I2|].
    exists (enode e). split; [apply in_map, Ie | apply key_matches_spec, Mk].
  - intros [I1 [l [I2 [q [Iq Mq]]]]]. exists l. split; [apply Hs; auto|].
    apply in_map_iff in Iq as [e [<- Ie]]. exists e. split; [exact Ie | apply key_matches_spec, Mq].
Qed.

Lemma uses_inverse_reach fuel w idx x ov us y :
  length w < fuel ->
  uses_index fuel w = Ok idx -> users idx x ov = Ok us ->
  (In y (map cuser us) <->
   In y (map fst w) /\ exists q, q <> pnode y /\ reach_plus w (pnode y) q /\ matches x ov q).
Proof.
  intros Hf Hi Hu. rewrite (uses_inverse_listing fuel w idx x ov us y Hi Hu). split.
  - intros [I [l [D [q [Iq Mq]]]]]. split; [exact I|]. exists q.
    destruct (listing_topological _ _ _ _ _ _ Hf D) as [HL _]. apply HL in Iq. tauto.
  - intros [I [q [Ne [R Mq]]]]. split; [exact I|].
    pose proof (listings_with_spec _ _ _ _ _ _ Hi) as Hs.
    apply in_map_iff in I as [[u es] [Eu Iw]]. simpl in Eu. subst u.
    assert (Il : In y (map fst idx)).
    { rewrite (listings_with_keys _ _ _ _ _ _ Hi). apply in_map_iff. exists (y, es). auto. }
    apply in_map_iff in Il as [[y' l] [Ey Il]]. simpl in Ey. subst y'.
    apply Hs in Il as [_ D]. exists l. split; [exact D|]. exists q. split; [|exact Mq].
    destruct (listing_topological _ _ _ _ _ _ Hf D) as [HL _]. apply HL. auto.
Qed.
