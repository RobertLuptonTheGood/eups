(* What Eups.declare settles on, written in stages (completion from an existing declaration,
   target stack, redeclaration check).  The decisions of the commands depend on the view only
   through lookups, so equivalent views take the same decisions, and so do the abstract runs. *)
From Eupsv Require Import Base.Base Base.BaseLemmas Model.Db Proofs.DbLib Proofs.Db.

(* the existing declaration that completes a request with a tag and without directory or table *)
Definition plan_info (a : adb) (o : opts) (n v : str) (dir table t : option str) : option (str * vrec) :=
  match t with
  | None => None
  | Some _ =>
      match dir, table with
      | Some _, Some _ => None
      | _, _ => first_some (map (fun fl => find_exact a (roots_of a (o_stack o)) n v fl) (fallbacks (o_flavor o)))
      end
  end.

Definition plan_dir (dir : option str) (info : option (str * vrec)) : option str :=
  match dir with
  | Some d => Some d
  | None => match info with Some (_, r) => Some (fst r) | None => None end
  end.

Definition plan_table (n d : str) (table : option str) (info : option (str * vrec)) : str :=
  match match table with
        | Some x => Some x
        | None => match info with
                  | Some (_, r) => if str_eqb d (fst r) then Some (snd r) else None
                  | None => None
                  end
        end with
  | Some x => x
  | None => default_table d n
  end.

Definition plan_tag (a : adb) (o : opts) (n : str) (t : option str) : option str :=
  match t with
  | Some x => Some x
  | None => if findable a n (fallbacks (o_flavor o)) then None else Some current
  end.

(* the redeclaration check, against the declaration [old] found in the target stack *)
Definition redeclare (force : bool) (d tb tg : str) (t1 : option str) (old : option vrec) : res dplan :=
  match old with
  | Some r' =>
      if force then Ok (mkPlan d tb tg t1 true)
      else if vrec_eqb (d, tb) r' then Ok (mkPlan d tb tg t1 false)
      else match t1 with
           | Some _ => Ok (mkPlan d tb tg t1 false)
           | None => Err Refused
           end
  | None => Ok (mkPlan d tb tg t1 true)
  end.

Lemma declare_plan_stages a o n v dir table t :
  declare_plan a o n v dir table t =
  let info := plan_info a o n v dir table t in
  match plan_dir dir info with
  | None => Err Refused
  | Some d =>
      match match o_stack o with Some s => Some s | None => hd_error (apath a) end with
      | None => Err Refused
      | Some tg =>
          if negb (mem_str tg (apath a)) then Err Refused
          else redeclare (o_force o) d (plan_table n d table info) tg (plan_tag a o n t)
                 (a_decl a tg n v (o_flavor o))
      end
  end.
Proof. reflexivity. Qed.

Lemma redeclare_ok force d tb tg t1 old pl : redeclare force d tb tg t1 old = Ok pl ->
  pl = mkPlan d tb tg t1 match old with Some _ => force | None => true end.
Proof.
  unfold redeclare. destruct old as [r'|]; [destruct force|].
  - intro H. inversion H. reflexivity.
  - destruct (vrec_eqb (d, tb) r'); [|destruct t1; [|discriminate]]; intro H; inversion H; reflexivity.
  - intro H. inversion H. reflexivity.
Qed.

Lemma declare_plan_ok a o n v dir table t pl : declare_plan a o n v dir table t = Ok pl ->
  let info := plan_info a o n v dir table t in
  exists d tg,
    plan_dir dir info = Some d /\
    match o_stack o with Some s => Some s | None => hd_error (apath a) end = Some tg /\
    mem_str tg (apath a) = true /\
    pl = mkPlan d (plan_table n d table info) tg (plan_tag a o n t)
           match a_decl a tg n v (o_flavor o) with Some _ => o_force o | None => true end.
Proof.
  rewrite declare_plan_stages. cbv zeta.
  destruct (plan_dir dir _) as [d|]; [|discriminate].
  destruct (match o_stack o with Some s => Some s | None => hd_error (apath a) end) as [tg|]; [|discriminate].
  destruct (mem_str tg (apath a)) eqn:Em; [|discriminate].
  intro H. exists d, tg. repeat split; [exact Em|]. apply (redeclare_ok _ _ _ _ _ _ _ H).
Qed.

Lemma roots_of_ext a b so : aeq a b -> roots_of a so = roots_of b so.
Proof. intros [Hp _]. destruct so; cbn; congruence. Qed.

Lemma find_exact_ext a b roots n v f : aeq a b -> find_exact a roots n v f = find_exact b roots n v f.
Proof. intros [_ [Hd _]]. induction roots as [|s r IH]; cbn; [reflexivity|]. rewrite Hd, IH. reflexivity. Qed.

Lemma find_tagged_ext a b roots n t f : aeq a b -> find_tagged a roots n t f = find_tagged b roots n t f.
Proof.
  intros [_ [Hd Ht]]. induction roots as [|s r IH]; cbn; [reflexivity|]. rewrite Ht, IH.
  destruct (a_tag b s n t f); [rewrite Hd|]; reflexivity.
Qed.

Lemma tagged_here_ext a b r n t fl : aeq a b -> tagged_here a r n t fl = tagged_here b r n t fl.
Proof.
  intros [_ [Hd Ht]]. unfold tagged_here. rewrite Ht. destruct (a_tag b r n t fl); [rewrite Hd|]; reflexivity.
Qed.

Lemma decl_versions_In a roots fls n v f :
  In (v, f) (decl_versions a roots fls n) <->
  exists s, mem_str s roots = true /\ mem_str f fls = true /\ a_decl a s n v f <> None.
Proof.
  unfold decl_versions. rewrite in_flat_map. split.
  - intros [[[[[s n'] v'] f'] r] [Hin Hx]]. cbn [fst] in Hx.
    destruct (str_eqb n' n && mem_str s roots && mem_str f' fls && is_some (a_decl a s n' v' f')) eqn:E;
      [|contradiction].
    destruct Hx as [[= <- <-]|[]].
    destruct (andb4_true _ _ _ _ E) as [E1 [E2 [E3 E4]]]. apply str_eqb_eq in E1. subst n'.
    exists s. repeat split; auto. apply is_some_true. exact E4.
  - intros [s [H1 [H2 H3]]]. destruct (a_decl a s n v f) as [r|] eqn:E; [|congruence].
    pose proof (glookup_In dkey_eqb dkey_eqb_eq _ _ _ E) as Hin.
    exists ((s, n, v, f), r). split; [exact Hin|]. cbn [fst].
    rewrite str_eqb_refl, H1, H2, E. cbn. left. reflexivity.
Qed.

Lemma has_family_true a r n fl : has_family a r n fl = true <-> exists v, a_decl a r n v fl <> None.
Proof.
  unfold has_family. rewrite existsb_exists. split.
  - intros [[[[[s n'] v'] f'] x] [Hin E]]. cbn [fst] in E.
    destruct (andb4_true _ _ _ _ E) as [E1 [E2 [E3 E4]]]. apply str_eqb_eq in E1, E2, E3. subst.
    exists v'. apply is_some_true. exact E4.
  - intros [v Hv]. destruct (a_decl a r n v fl) as [x|] eqn:E; [|congruence].
    pose proof (glookup_In dkey_eqb dkey_eqb_eq _ _ _ E) as Hin.
    exists ((r, n, v, fl), x). split; [exact Hin|]. cbn [fst]. rewrite !str_eqb_refl, E. reflexivity.
Qed.

Lemma has_family_ext a b r n fl : aeq a b -> has_family a r n fl = has_family b r n fl.
Proof.
  intros [_ [Hd _]]. apply eq_true_iff_eq. rewrite !has_family_true.
  split; intros [v Hv]; exists v; [rewrite <- Hd|rewrite Hd]; exact Hv.
Qed.

Lemma classify_cons x r : classify (x :: r) = if forallb (vf_eqb x) (x :: r) then One x else Many.
Proof. cbn. rewrite (proj2 (vf_eqb_eq x x) eq_refl). reflexivity. Qed.

(* utils.uniq then len: only the members matter *)
Lemma classify_ext l l' : (forall x, In x l <-> In x l') -> classify l = classify l'.
Proof.
  intro H. destruct l as [|x r], l' as [|y r'].
  - reflexivity.
  - exfalso. apply (proj2 (H y)). left. reflexivity.
  - exfalso. apply (proj1 (H x)). left. reflexivity.
  - rewrite !classify_cons, (forallb_members _ _ _ H).
    destruct (forallb (vf_eqb x) (y :: r')) eqn:E1.
    + assert (x = y) by (rewrite forallb_forall in E1; apply vf_eqb_eq, E1; left; reflexivity).
      subst y. rewrite E1. reflexivity.
    + destruct (forallb (vf_eqb y) (y :: r')) eqn:E2; [|reflexivity].
      assert (y = x) by (rewrite forallb_forall in E2; apply vf_eqb_eq, E2, H; left; reflexivity).
      subst y. congruence.
Qed.

Lemma decl_versions_ext a b roots fls n : aeq a b ->
  forall x, In x (decl_versions a roots fls n) <-> In x (decl_versions b roots fls n).
Proof.
  intros [_ [Hd _]] [v f]. rewrite !decl_versions_In.
  split; intros [s [H1 [H2 H3]]]; exists s; repeat split; auto; [rewrite <- Hd|rewrite Hd]; exact H3.
Qed.

Lemma findable_ext a b n fls : aeq a b -> findable a n fls = findable b n fls.
Proof.
  intro H. unfold findable. f_equal. rewrite (proj1 H).
  apply is_nil_ext. apply decl_versions_ext. exact H.
Qed.

Lemma find_tagged_raw_ext a b roots n t f : aeq a b -> find_tagged_raw a roots n t f = find_tagged_raw b roots n t f.
Proof.
  intro H. unfold find_tagged_raw. apply flat_map_ext. intro r. apply flat_map_ext. intro fl.
  rewrite (has_family_ext a b _ _ _ H), (tagged_here_ext a b _ _ _ _ H), (proj1 H), (find_tagged_ext a b _ _ _ _ H). reflexivity.
Qed.

Lemma occurrences_ext p a b n t f : aeq a b -> occurrences p a n t f = occurrences p b n t f.
Proof.
  intro H. unfold occurrences, find_tagged_all. rewrite (find_tagged_raw_ext a b _ _ _ _ H), (proj1 H).
  destruct p; [reflexivity|]. apply filter_ext. intro r. rewrite (find_tagged_ext a b _ _ _ _ H). reflexivity.
Qed.

Lemma declare_plan_ext a b o n v dir table t : aeq a b ->
  declare_plan a o n v dir table t = declare_plan b o n v dir table t.
Proof.
  intro H. rewrite !declare_plan_stages.
  replace (plan_info a o n v dir table t) with (plan_info b o n v dir table t)
    by (unfold plan_info; cbn [fallbacks map];
        rewrite (roots_of_ext a b _ H), !(find_exact_ext a b _ _ _ _ H); reflexivity).
  unfold plan_tag. rewrite (findable_ext a b _ _ H), (proj1 H). cbv zeta. destruct (plan_dir dir _) as [d|]; [|reflexivity].
  destruct (match o_stack o with Some s => Some s | None => hd_error (apath b) end) as [tg|]; [|reflexivity].
  rewrite (proj1 (proj2 H)). reflexivity.
Qed.

Lemma other_occurrences_ext a b s0 n t f : aeq a b -> other_occurrences a s0 n t f = other_occurrences b s0 n t f.
Proof.
  intro H. unfold other_occurrences. rewrite (proj1 H). apply filter_ext. intro r.
  rewrite (find_tagged_ext a b _ _ _ _ H). reflexivity.
Qed.

Lemma declare_finish_old_ext p a b f n v pl : aeq a b ->
  declare_finish_old p a f n v pl = declare_finish_old p b f n v pl.
Proof.
  intro H. unfold declare_finish_old.
  destruct (dp_tag pl) as [x|]; [|reflexivity].
  set (acts1 := declare_acts1 f n v pl).
  assert (H1 : aeq (aapply_all acts1 a) (aapply_all acts1 b)) by (apply aapply_all_aeq; exact H).
  rewrite (occurrences_ext p _ _ n x f H1).
  set (acts2 := map _ _).
  assert (H2 : aeq (aapply_all acts2 (aapply_all acts1 a)) (aapply_all acts2 (aapply_all acts1 b)))
    by (apply aapply_all_aeq; exact H1).
  rewrite (find_exact_ext _ _ _ _ _ _ H2). reflexivity.
Qed.

Lemma declare_finish_new_ext a b f n v pl : aeq a b ->
  declare_finish_new a f n v pl = declare_finish_new b f n v pl.
Proof.
  intro H. unfold declare_finish_new.
  destruct (dp_tag pl) as [x|]; [|reflexivity].
  set (acts1 := declare_acts1 f n v pl).
  assert (H1 : aeq (aapply_all acts1 a) (aapply_all acts1 b)) by (apply aapply_all_aeq; exact H).
  rewrite (find_exact_ext _ _ _ _ _ _ H1).
  destruct (find_exact (aapply_all acts1 b) _ n v f) as [[s' r]|]; [|reflexivity].
  rewrite (other_occurrences_ext _ _ s' n x f (aapply_aeq (ASetTag s' n x f v) _ _ H1)). reflexivity.
Qed.

Lemma declare_finish_ext p a b f n v pl : aeq a b -> declare_finish p a f n v pl = declare_finish p b f n v pl.
Proof.
  intro H. unfold declare_finish. destruct p; [apply declare_finish_old_ext|apply declare_finish_new_ext]; exact H.
Qed.

Lemma unassign_acts_ext a b o t n vo : aeq a b -> unassign_acts a o t n vo = unassign_acts b o t n vo.
Proof.
  intro H. unfold unassign_acts. destruct vo as [v|].
  - rewrite (roots_of_ext a b _ H), (find_exact_ext a b _ _ _ _ H).
    destruct (find_exact b _ n v _) as [[s' r]|]; [|reflexivity].
    rewrite (proj2 (proj2 H)). reflexivity.
  - rewrite (proj1 H), !(find_tagged_ext a b _ _ _ _ H). reflexivity.
Qed.

Lemma undeclare_target_ext a b o n vo : aeq a b -> undeclare_target a o n vo = undeclare_target b o n vo.
Proof.
  intro H. unfold undeclare_target.
  rewrite !(roots_of_ext a b _ H).
  destruct vo as [v|].
  - rewrite (find_exact_ext a b _ _ _ _ H). reflexivity.
  - rewrite (classify_ext _ _ (decl_versions_ext a b _ _ n H)).
    destruct (classify _); try reflexivity. rewrite (find_exact_ext a b _ _ _ _ H). reflexivity.
Qed.

Lemma decide_ext p a b o : aeq a b -> decide p a o = decide p b o.
Proof.
  intro H. destruct o as [o n v dir table t|o t n v|o t n vo|o n vo|o n vo t both|o n v]; cbn [decide].
  - unfold declare_acts. rewrite (declare_plan_ext a b _ _ _ _ _ _ H).
    destruct (declare_plan b o n v dir table t) as [pl|e]; [|reflexivity].
    destruct (o_noaction o); [reflexivity|]. apply declare_finish_ext. exact H.
  - unfold assign_acts. rewrite (roots_of_ext a b _ H), (find_exact_ext a b _ _ _ _ H). reflexivity.
  - apply unassign_acts_ext. exact H.
  - unfold undeclare_acts. rewrite (undeclare_target_ext a b _ _ _ H). reflexivity.
  - unfold undeclare_tag_acts. destruct both; cbn [negb]; [|apply unassign_acts_ext; exact H].
    unfold find_tagged_all. rewrite (roots_of_ext a b _ H), (find_tagged_raw_ext a b _ _ _ _ H).
    rewrite (undeclare_target_ext a b _ _ _ H).
    destruct (undeclare_target b o n _) as [[s' v']|e]; [|reflexivity].
    rewrite (proj2 (proj2 H)). reflexivity.
  - unfold remove_acts, undeclare_acts. rewrite (find_exact_ext a b _ _ _ _ H), (proj1 H).
    rewrite (undeclare_target_ext a b _ _ _ H). reflexivity.
Qed.

Lemma astep_total_aeq p a b o : aeq a b -> aeq (astep_total p a o) (astep_total p b o).
Proof.
  intro H. unfold astep_total, astep_gen. rewrite (decide_ext p a b o H).
  destruct (decide p b o); [apply aapply_all_aeq|]; exact H.
Qed.

Lemma arun_aeq p ops : forall a b, aeq a b -> aeq (arun p a ops) (arun p b ops).
Proof.
  unfold arun. induction ops as [|o ops IH]; intros a b H; cbn; [exact H|].
  apply IH. apply astep_total_aeq. exact H.
Qed.
