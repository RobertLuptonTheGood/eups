(* Several stacks: a look-up by relational expression (setupRequired(lib >= 1.1), setup lib ">= 1.1") in the composed
   model Model/SetupMSFull.v sees the declarations of EVERY stack the command selected - the database view mdb_of has
   one stack view per selected stack - and C03's expr_highest says that the product chosen is the highest satisfying
   declaration over all of them (C01: each product at the version the resolution order designates). *)
From Eupsv Require Import Base.Base Base.BaseLemmas Model.PathAlg Model.Setup Model.SetupMS Model.Resolve Model.ResolveSpec Model.SetupFull Model.SetupMSFull Proofs.Resolve.
From Eupsv Require Props.C03.

Lemma In_versions_of l n v f : In (n, v, f) l -> In v (versions_of l n f).
Proof.
  induction l as [|[[n' v'] f'] l IH]; intros H; [destruct H|].
  cbn [versions_of]. destruct H as [H|H].
  - injection H as -> -> ->. rewrite !str_eqb_refl. now left.
  - destruct (str_eqb n n' && str_eqb f f'); [right|]; now apply IH.
Qed.

Lemma ms_candidate fw q :
  In q (mfw_products fw) -> In (mp_root q) (mfw_path fw) ->
  exists c, In c (candidates (mdb_of fw) (mp_name q) (mp_flavor q)) /\ fd_version c = mp_version q.
Proof.
  intros Hq Hr. exists (found_in (stack_view fw (mp_root q)) (mp_name q) (mp_version q) (mp_flavor q)).
  split; [|reflexivity]. unfold candidates, mdb_of. apply in_flat_map.
  exists (stack_view fw (mp_root q)). split; [now apply in_map|].
  apply (in_map (fun v => found_in (stack_view fw (mp_root q)) (mp_name q) v (mp_flavor q))).
  unfold versions_in, stack_view. cbn [st_decl]. apply In_versions_of.
  change (mp_name q, mp_version q, mp_flavor q) with (mdecl_of q). apply in_map.
  apply filter_In. split; [assumption|apply str_eqb_refl].
Qed.

Lemma ms_expression_newest_lemma vcmp vmatch fw n x f p :
  total_order_on vcmp (names_of (mdb_of fw) n) ->
  select_latest vcmp (find_by_expr vmatch (mdb_of fw) n x f) = Some p ->
  vmatch (fd_version p) x = true /\
  forall q, In q (mfw_products fw) -> In (mp_root q) (mfw_path fw) -> mp_name q = n -> mp_flavor q = f ->
            vmatch (mp_version q) x = true -> vcmp (mp_version q) (fd_version p) <> Gt.
Proof.
  intros Ht Hs. destruct (Props.C03.expr_highest vcmp vmatch (mdb_of fw) n x f p Ht Hs) as [_ [Hm [Hh _]]].
  split; [exact Hm|]. intros q Hq Hr Hn Hf Hv.
  destruct (ms_candidate fw q Hq Hr) as [c [Hc Hcv]]. rewrite Hn, Hf in Hc.
  rewrite <- Hcv. apply Hh; [assumption|]. now rewrite Hcv.
Qed.
