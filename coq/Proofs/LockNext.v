(* C09 - the local lemmas: what one call [next] of one process does to the stack it is working on and
   to the private state of that process.  [next] is taken apart once, into the relation [call], which lists
   the calls by what they do; every later lemma is a case analysis of [call], and stops at the helper functions
   (raise_, retry, advance, give_next, give_crash, give_race, begin_release), whose facts are proved first. *)
From Eupsv Require Import Base.Base Model.Lock Proofs.LockLib.
From Coq Require Import Lia.

Definition gfile (g : gstep) : bool := match g with GIsdir | GExistsF | GRemove => true | _ => false end.

(* the positions of its path at which the process has its lock file in place *)
Definition owns (lo : local) (x : nat) : bool :=
  match lpc lo with
  | LValidate => x <=? lnl lo
  | LGive GBackoff g => if gfile g then x <=? lnl lo else x <? lnl lo
  | LGive _ g => (if gfile g then lcur lo <=? x else lcur lo <? x) && (x <? lnl lo)
  | LDone | LFailed | LCrashed => (lcur lo <=? x) && (x <? lnl lo)
  | _ => x <? lnl lo
  end.

(* the positions at which the lock is validated and kept: the process is still acquiring later stacks,
   or holds *)
Definition firm (lo : local) (x : nat) : bool :=
  match lpc lo with
  | LMkdir | LListAll | LListAll2 | LExists | LScanX | LScanX2 | LCreate | LValidate | LHeld
  | LGive GBackoff _ => x <? lnl lo
  | _ => false
  end.

(* the lock file on the stack being acquired exists but the second look has not cleared it *)
Definition unvalidated (l : loc) : bool :=
  match l with
  | LValidate | LGive GBackoff GIsdir | LGive GBackoff GExistsF | LGive GBackoff GRemove => true
  | _ => false
  end.

(* program counters of a process that is bound to create a file on the stack it is working on, or to
   remove that stack's lock directory if it is empty, before it does anything else *)
Definition resp (l : loc) : bool :=
  match l with
  | LScanX | LCreate | LGive _ GCount | LGive _ GRmdir => true
  | _ => false
  end.

Definition terminal (l : loc) : bool :=
  match l with LDone | LFailed | LCrashed => true | _ => false end.

Lemma unvalidated_widx lo : unvalidated (lpc lo) = true -> widx lo = lnl lo.
Proof. destruct lo as [l i n j]. cbn [lpc]. destruct l; try discriminate; [reflexivity|]. now destruct m. Qed.

Lemma unvalidated_give m g : unvalidated (LGive m g) = true -> gfile g = true.
Proof. destruct m, g; try discriminate; reflexivity. Qed.

Lemma ltb_drop x n : (x <? n) = (x <=? n) && negb (x =? n).
Proof. destruct (Nat.ltb_spec x n), (Nat.leb_spec x n), (Nat.eqb_spec x n); try reflexivity; lia. Qed.

Lemma leb_add x n : (x <=? n) = (x <? n) || (x =? n).
Proof. destruct (Nat.ltb_spec x n), (Nat.leb_spec x n), (Nat.eqb_spec x n); try reflexivity; lia. Qed.

Lemma empty_range a n x : (a <? n) = false -> (a <=? x) && (x <? n) = false.
Proof. intro A. apply Nat.ltb_ge in A. destruct (Nat.leb_spec a x), (Nat.ltb_spec x n); try reflexivity; lia. Qed.

(* what a process inside giveLocks owns once it is through with the lock it is busy with *)
Definition beyond (m : gmode) (lo : local) (x : nat) : bool :=
  match m with GBackoff => x <? lnl lo | _ => (lcur lo <? x) && (x <? lnl lo) end.

Lemma owns_beyond lo m g x : lpc lo = LGive m g -> gfile g = false -> owns lo x = beyond m lo x.
Proof. destruct lo as [l i n j]. cbn [lpc]. intros -> G. unfold owns. cbn [lpc]. rewrite G. now destruct m. Qed.

Lemma owns_drop lo m g x :
  lpc lo = LGive m g -> gfile g = true -> beyond m lo x = owns lo x && negb (x =? widx lo).
Proof.
  destruct lo as [l i n j]. cbn [lpc]. intros -> G. unfold owns, widx, beyond. cbn [lpc lnl lcur]. rewrite G.
  destruct m; [|apply ltb_drop|]; now rewrite (ltb_drop j x), (Nat.eqb_sym j x), <- !andb_assoc, (andb_comm (x <? n)).
Qed.

Section Helpers.
Variables (fx fr : bool) (cfg : config).

(* Where raise_, retry, give_next, give_crash, give_race and begin_release leave a process that was
   through with its lock in mode m (GBackoff: was not inside giveLocks on stacks it had locked). *)
Set Implicit Arguments.
Record lands (m : gmode) (lo lo' : local) : Prop := {
  l_owns : forall x, owns lo' x = beyond m lo x;
  l_resp : resp (lpc lo') = false;
  l_unvalidated : unvalidated (lpc lo') = false;
  l_nolock : lpc lo' <> LHeldNoLock;
  l_held : lpc lo' <> LHeld;
  l_lnl : lnl lo' <= lnl lo;
  l_firm : forall x, firm lo' x = true -> m = GBackoff /\ x < lnl lo }.
Unset Implicit Arguments.

Lemma lands_raise c lo : lands GBackoff lo (raise_ fr c lo).
Proof.
  unfold raise_, final_clean. destruct fr; [destruct (lnl lo =? 0) eqn:E; [apply Nat.eqb_eq in E|]|];
    destruct c; constructor; cbn; try rewrite E; try discriminate; auto using Nat.le_0_l.
Qed.

Lemma lands_retry p lo : lands GBackoff lo (retry fr cfg p lo).
Proof.
  unfold retry. destruct (ltry lo =? ntry_of cfg p); [exact (lands_raise false lo)|].
  constructor; cbn; try discriminate; auto. intros x F. now apply Nat.ltb_lt in F.
Qed.

Lemma lands_begin_release lo : lands GBackoff lo (begin_release lo).
Proof.
  unfold begin_release, final_clean. destruct (lnl lo =? 0) eqn:E; [apply Nat.eqb_eq in E|];
    constructor; cbn; try rewrite E; try discriminate; auto.
Qed.

Lemma firm_raise c lo x : firm (raise_ fr c lo) x = false.
Proof. unfold raise_. now destruct fr, (lnl lo =? 0), c. Qed.

Lemma firm_begin_release lo x : firm (begin_release lo) x = false.
Proof. unfold begin_release. now destruct (lnl lo =? 0). Qed.

Lemma lands_give_next m p lo : lands m lo (give_next fr cfg m p lo).
Proof.
  unfold give_next, final_clean.
  destruct m; [|destruct (kind_of cfg p); [apply lands_raise | apply lands_retry]|];
    (destruct (S (lcur lo) <? lnl lo) eqn:E; [|try destruct crashed]; constructor;
     try (intro x; symmetry; exact (empty_range _ _ x E)); cbn; try discriminate; auto using Nat.le_0_l).
Qed.

Lemma lands_give_crash m lo : lands m lo (give_crash fr m lo).
Proof. unfold give_crash. destruct m; try apply lands_raise; constructor; cbn; try discriminate; auto. Qed.

Lemma lands_give_race m p lo : lands m lo (give_race fx fr cfg m p lo).
Proof. unfold give_race. destruct fx; [apply lands_give_next | apply lands_give_crash]. Qed.

Lemma owns_advance p lo x : owns (advance cfg p lo) x = (x <=? lnl lo).
Proof. unfold advance. now destruct (S (lnl lo) =? length (path_of cfg p)). Qed.

Lemma lpc_advance p lo : resp (lpc (advance cfg p lo)) = false /\ lpc (advance cfg p lo) <> LHeldNoLock.
Proof. unfold advance. now destruct (S (lnl lo) =? length (path_of cfg p)). Qed.

Lemma firm_advance p lo x : firm (advance cfg p lo) x = true -> x <= lnl lo.
Proof.
  unfold advance. destruct (S (lnl lo) =? length (path_of cfg p)); unfold firm; cbn [lpc lnl]; intro H;
    apply Nat.ltb_lt in H; lia.
Qed.

Lemma lnl_advance p lo :
  lnl (advance cfg p lo) = S (lnl lo) /\
  (lpc (advance cfg p lo) = LHeld -> S (lnl lo) = length (path_of cfg p)).
Proof.
  unfold advance. destruct (S (lnl lo) =? length (path_of cfg p)) eqn:E; cbn.
  - apply Nat.eqb_eq in E. auto.
  - split; [reflexivity | discriminate].
Qed.

(* an end reached through a helper owns nothing: always for the clean ends; for raise_ when the stacks are
   given back first (fr) or when nothing was locked yet *)
Definition clean (lo : local) : Prop := terminal (lpc lo) = true -> lnl lo <= lcur lo.

Lemma clean_owns lo x : terminal (lpc lo) = true -> clean lo -> owns lo x = false.
Proof.
  destruct lo as [l i n j]. intros T C. specialize (C T). cbn [lnl lcur] in C.
  destruct l; try discriminate; apply empty_range, Nat.ltb_ge, C.
Qed.

Lemma clean_raise c lo : fr = true \/ lnl lo = 0 -> clean (raise_ fr c lo).
Proof.
  unfold raise_, final_clean, clean. intros [->|H].
  - destruct (lnl lo =? 0), c; cbn; intros; try discriminate; lia.
  - rewrite H. destruct fr, c; cbn; intros; lia.
Qed.

Lemma clean_retry p lo : fr = true \/ lnl lo = 0 -> clean (retry fr cfg p lo).
Proof.
  intro H. unfold retry. destruct (ltry lo =? ntry_of cfg p); [now apply clean_raise | discriminate].
Qed.

Lemma clean_advance p lo : clean (advance cfg p lo).
Proof. unfold advance. now destruct (S (lnl lo) =? length (path_of cfg p)). Qed.

Lemma clean_give_next m p lo : fr = true \/ lnl lo = 0 \/ m <> GBackoff -> clean (give_next fr cfg m p lo).
Proof.
  intro H. unfold give_next, final_clean.
  destruct m; [|destruct (kind_of cfg p); [apply clean_raise | apply clean_retry]; tauto|];
    (destruct (S (lcur lo) <? lnl lo); [discriminate | intros _; apply le_n]).
Qed.

Lemma clean_begin_release lo : clean (begin_release lo).
Proof. unfold begin_release, final_clean. destruct (lnl lo =? 0); [intros _; apply le_n | discriminate]. Qed.

End Helpers.

Lemma filter_cons {A} (f : A -> bool) l x r : filter f l = x :: r -> l <> [].
Proof. intros H E. subst. discriminate. Qed.

(* before its lock file on the stack exists the process owns the stacks before this one, and they are firm *)
Definition taking (l : loc) : bool :=
  match l with LMkdir | LListAll | LListAll2 | LExists | LScanX | LScanX2 | LCreate => true | _ => false end.

Lemma taking_spec lo :
  taking (lpc lo) = true ->
  (forall x, owns lo x = (x <? lnl lo)) /\ (forall x, firm lo x = (x <? lnl lo)) /\ widx lo = lnl lo /\
  unvalidated (lpc lo) = false /\ terminal (lpc lo) = false.
Proof. destruct lo as [l i n j]. destruct l; try discriminate; repeat split. Qed.

Section Next.
Variables (fx fr : bool) (cfg : config).
Notation nxt := (next fx fr cfg).

(* one call, by what it does.  [look]: the calls that change nothing but the program counter *)
Inductive look (d : bool) (fs : list pid) (p : pid) : loc -> loc -> Prop :=
| k_busy_ex : d = true -> look d fs p LMkdir LListAll
| k_busy_sh : d = true -> look d fs p LMkdir LExists
| k_root : look d fs p LListAll LScanX
| k_contended : look d fs p LListAll LListAll2
| k_exists : d = true -> look d fs p LExists LScanX
| k_trepid : fx = false -> look d fs p LExists LHeldNoLock
| k_none : look d fs p LScanX LCreate
| k_one : fs <> [] -> look d fs p LScanX LScanX2
| k_one_root : look d fs p LScanX2 LCreate
| k_conflict : conflict cfg p fs = true -> look d fs p LValidate (LGive GBackoff GIsdir)
| k_isdir m : d = true -> look d fs p (LGive m GIsdir) (LGive m GExistsF)
| k_there m : d && mem p fs = true -> look d fs p (LGive m GExistsF) (LGive m GRemove)
| k_empty m : d = true -> fs = [] -> look d fs p (LGive m GCount) (LGive m GRmdir).

Lemma look_owns d fs p lo l' x : look d fs p (lpc lo) l' -> owns (setpc lo l') x = owns lo x.
Proof. destruct lo as [l i n j]. cbn [lpc]. destruct 1; reflexivity. Qed.

Lemma look_widx d fs p lo l' : look d fs p (lpc lo) l' -> widx (setpc lo l') = widx lo.
Proof. destruct lo as [l i n j]. cbn [lpc]. destruct 1; reflexivity. Qed.

Lemma look_firm d fs p lo l' x : look d fs p (lpc lo) l' -> firm (setpc lo l') x = true -> firm lo x = true.
Proof. destruct lo as [l i n j]. cbn [lpc]. destruct 1; try (intro F; exact F); discriminate. Qed.

Lemma look_resp d fs p l l' : look d fs p l l' -> resp l = true -> fs <> [] \/ resp l' = true.
Proof. destruct 1; auto; discriminate. Qed.

Lemma look_lpc d fs p l l' : look d fs p l l' -> terminal l' = false /\ l' <> LHeld /\ (fx = true -> l' <> LHeldNoLock).
Proof. destruct 1; repeat split; congruence. Qed.

(* [call p d fs lo d' fs' lo']: directory, lock files and private state before and after *)
Inductive call (p : pid) : bool -> list pid -> local -> bool -> list pid -> local -> Prop :=
| c_look d fs lo l' (K : look d fs p (lpc lo) l') : call p d fs lo d fs (setpc lo l')
| c_gone d fs lo m (L : lpc lo = LGive m GExistsF) (A : d && mem p fs = false) :
    call p d fs lo d fs (setpc lo (LGive m GCount))
| c_mkdir fs lo (L : lpc lo = LMkdir) : call p false fs lo true fs (setpc lo LScanX)
| c_create fs lo lo' (L : lpc lo = LCreate) (E : lo' = if fx then setpc lo LValidate else advance cfg p lo) :
    call p true fs lo true (add p fs) lo'
| c_remove d fs lo m (L : lpc lo = LGive m GRemove) (A : d && mem p fs = true) :
    call p d fs lo d (rem p fs) (setpc lo (LGive m GCount))
| c_rmdir lo m (L : lpc lo = LGive m GRmdir) : call p true [] lo false [] (give_next fr cfg m p lo)
| c_retry d fs lo (T : taking (lpc lo) = true) (R : resp (lpc lo) = false) : call p d fs lo d fs (retry fr cfg p lo)
| c_raise d fs lo b (T : taking (lpc lo) = true) (R : resp (lpc lo) = true -> d = true -> fs <> []) :
    call p d fs lo d fs (raise_ fr b lo)
| c_advance d fs lo (L : lpc lo = LValidate) (A : conflict cfg p fs = false) : call p d fs lo d fs (advance cfg p lo)
| c_release d fs lo (L : lpc lo = LHeld \/ lpc lo = LHeldNoLock) : call p d fs lo d fs (begin_release lo)
| c_nodir fs lo m (L : lpc lo = LGive m GIsdir) : call p false fs lo false fs (give_next fr cfg m p lo)
| c_counted fs lo m (L : lpc lo = LGive m GCount) (A : fs <> []) : call p true fs lo true fs (give_next fr cfg m p lo)
| c_absent d fs lo m (L : lpc lo = LGive m GRemove) (A : d && mem p fs = false) :
    call p d fs lo d fs (give_crash fr m lo)
| c_race d fs lo m g (L : lpc lo = LGive m g) (G : gfile g = false) (A : d = true -> fs <> []) :
    call p d fs lo d fs (give_race fx fr cfg m p lo)
| c_ended d fs lo (T : terminal (lpc lo) = true) : call p d fs lo d fs lo.

Local Hint Constructors look : core.
Local Hint Resolve filter_cons : core.

Definition after (p : pid) d fs lo (r : bool * list pid * local) : Prop :=
  let '(d', fs', lo') := r in call p d fs lo d' fs' lo'.

(* Case analysis of [next]: the program counter, then every test the branch makes.  The helper functions are kept
   folded so that the shape of the result selects the constructor. *)
Lemma next_call d fs lo p c d' fs' lo' : next fx fr cfg d fs lo p c = (d', fs', lo') -> call p d fs lo d' fs' lo'.
Proof.
  intro N. change (after p d fs lo (d', fs', lo')). rewrite <- N. clear N.
  unfold next. destruct lo as [l i n j]. cbn [lpc].
  repeat match goal with |- after _ _ _ _ ?t =>
           match t with context [match ?x with _ => _ end] => destruct x eqn:? end
         end;
    with_strategy opaque [retry raise_ advance give_next give_crash give_race begin_release setpc]
      (econstructor; cbn [lpc]; eauto; try (now match goal with E : fx = _ |- _ => rewrite E end); intros; discriminate).
Qed.

Lemma call_owns p d fs lo d' fs' lo' :
  call p d fs lo d' fs' lo' ->
  (fs' = fs /\ forall x, owns lo' x = owns lo x) \/
  (d = true /\ fs' = add p fs /\ forall x, owns lo' x = owns lo x || (x =? widx lo)) \/
  (fs' = (if d && mem p fs then rem p fs else fs) /\ forall x, owns lo' x = owns lo x && negb (x =? widx lo)).
Proof.
  assert (B : forall m lo x, owns (setpc lo (LGive m GCount)) x = beyond m lo x).
  { intros m lo0 x. now apply (owns_beyond (setpc lo0 (LGive m GCount)) m GCount). }
  destruct 1;
    (* which of the three it is *)
    [left | right; right; rewrite A | left | right; left; split; [reflexivity|] | right; right; rewrite A | left
    | left | left | left | left | right; right | left | right; right; rewrite A | left | now left];
    (split; [reflexivity|]); intro x.
  - now apply (look_owns d fs p).
  - rewrite B. now apply (owns_drop lo m GExistsF).
  - destruct lo as [l i n j]. cbn [lpc] in L. now subst l.
  - assert (T : taking (lpc lo) = true) by now rewrite L.
    destruct (taking_spec lo T) as (O & _ & W & _). rewrite O, W, <- leb_add, E.
    destruct fx; [reflexivity | apply owns_advance].
  - rewrite B. now apply (owns_drop lo m GRemove).
  - rewrite (l_owns (lands_give_next fr cfg m p lo)). symmetry. now apply (owns_beyond lo m GRmdir).
  - rewrite (l_owns (lands_retry fr cfg p lo)). symmetry. now apply taking_spec.
  - rewrite (l_owns (lands_raise fr b lo)). symmetry. now apply taking_spec.
  - rewrite owns_advance. destruct lo as [l i n j]. cbn [lpc] in L. now subst l.
  - rewrite (l_owns (lands_begin_release lo)). destruct lo as [l i n j]. cbn [lpc] in L. now destruct L; subst l.
  - rewrite (l_owns (lands_give_next fr cfg m p lo)). now apply (owns_drop lo m GIsdir).
  - rewrite (l_owns (lands_give_next fr cfg m p lo)). symmetry. now apply (owns_beyond lo m GCount).
  - rewrite (l_owns (lands_give_crash fr m lo)). now apply (owns_drop lo m GRemove).
  - rewrite (l_owns (lands_give_race fx fr cfg m p lo)). symmetry. now apply (owns_beyond lo m g).
Qed.

Lemma call_I0 p d fs lo d' fs' lo' :
  call p d fs lo d' fs' lo' -> (forall x, In x fs -> d = true) -> forall x, In x fs' -> d' = true.
Proof.
  destruct 1; intros I x Hin; try reflexivity; try (now apply (I x)).
  - apply andb_true_iff in A. tauto.
  - contradiction.
Qed.

(* third alternative: the call has left the directory alone and this process was not the one bound to deal with
   it; whoever was, still is *)
Lemma call_IJ p d fs lo d' fs' lo' :
  call p d fs lo d' fs' lo' -> d' = true ->
  fs' <> [] \/ (resp (lpc lo') = true /\ widx lo' = widx lo) \/ (d = true /\ fs' = fs /\ resp (lpc lo) = false).
Proof.
  intros C D. destruct (resp (lpc lo)) eqn:R.
  - destruct C; try (rewrite L in R; discriminate); try discriminate.
    + destruct (look_resp _ _ _ _ _ K R); [now left|]. right. left. split; [assumption | now apply (look_widx d fs p)].
    + left. apply add_nonempty.
    + congruence.
    + auto.
    + destruct L as [L|L]; rewrite L in R; discriminate.
    + now left.
    + auto.
    + destruct lo as [l i n j]. cbn [lpc] in *. destruct l; discriminate.
  - destruct C; try discriminate; auto.
    + right. left. destruct lo as [l i n j]. cbn [lpc] in L. now subst l.
    + left. apply add_nonempty.
    + right. left. destruct lo as [l i n j]. cbn [lpc] in L. now subst l.
Qed.

Lemma call_local p d fs lo d' fs' lo' :
  call p d fs lo d' fs' lo' ->
  (lo' = lo /\ terminal (lpc lo) = true) \/ (exists m, lands m lo lo') \/
  (lo' = advance cfg p lo /\ (lpc lo = LCreate \/ lpc lo = LValidate)) \/
  (exists l', lo' = setpc lo l' /\ widx lo' = widx lo /\ terminal l' = false /\ l' <> LHeld /\
              (fx = true -> l' <> LHeldNoLock)).
Proof.
  assert (S : forall lo m g g', lpc lo = LGive m g -> widx (setpc lo (LGive m g')) = widx lo).
  { intros lo0 m g g' L. destruct lo0 as [l i n j]. cbn [lpc] in L. now subst l. }
  destruct 1;
    eauto 6 using lands_give_next, lands_retry, lands_raise, lands_begin_release, lands_give_crash, lands_give_race;
    right; right.
  - right. exists l'. destruct (look_lpc _ _ _ _ _ K) as (? & ? & ?). eauto 6 using look_widx.
  - right. exists (LGive m GCount). repeat split; try discriminate. now apply (S lo m GExistsF).
  - right. exists LScanX. repeat split; try discriminate. destruct lo as [l i n j]. cbn [lpc] in L. now subst l.
  - rewrite E. destruct fx; [right; exists LValidate; repeat split; try discriminate | auto].
    destruct lo as [l i n j]. cbn [lpc] in L. now subst l.
  - right. exists (LGive m GCount). repeat split; try discriminate. now apply (S lo m GRemove).
Qed.

Lemma call_resp_widx p d fs lo d' fs' lo' : call p d fs lo d' fs' lo' -> resp (lpc lo') = true -> widx lo' = widx lo.
Proof.
  intros C R. destruct (call_local _ _ _ _ _ _ _ C) as [[-> _] | [(m & []) | [(-> & _) | (l' & _ & W & _)]]]; try congruence.
  rewrite (proj1 (lpc_advance cfg p lo)) in R. discriminate.
Qed.

Lemma next_resp_widx d fs lo p c d' fs' lo' :
  nxt d fs lo p c = (d', fs', lo') -> resp (lpc lo') = true -> widx lo' = widx lo.
Proof. intro N. apply (call_resp_widx p d fs lo d' fs'). now apply (next_call _ _ _ _ c). Qed.

Lemma call_IW p d fs lo d' fs' lo' :
  call p d fs lo d' fs' lo' ->
  (lnl lo' <= lnl lo /\ lpc lo' <> LHeld) \/
  (lnl lo' = S (lnl lo) /\ widx lo = lnl lo /\ (lpc lo' = LHeld -> S (lnl lo) = length (path_of cfg p))).
Proof.
  intro C. destruct (call_local _ _ _ _ _ _ _ C) as [[-> T] | [(m & []) | [(-> & L) | (l' & -> & _ & _ & H & _)]]]; auto.
  - left. split; [apply le_n|]. intro E. now rewrite E in T.
  - right. destruct (lnl_advance cfg p lo). repeat split; try assumption.
    destruct lo as [l i n j]. cbn [lpc] in L. now destruct L; subst l.
Qed.
End Next.
