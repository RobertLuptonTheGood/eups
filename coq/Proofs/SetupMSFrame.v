(* Frame theorem for Model/SetupMS.v, the setup model with several stacks (C04, and the backbone of C01): a call of
   setup changes only what is owned by the product names it can reach within its depth budget.
   The induction over the loop of a table is made once (run_actions_rule), the induction over setup once for any
   relation between the states before and after that the single steps respect (setup_related): the frame here and
   the ownership relation of Proofs/SetupMSOwn.v are instances of the second, the invariant and the unwinding
   (Proofs/SetupMSInv.v, SetupMSUnwind.v) of the first.
   A name owns what any of its declarations, in any stack, contributes.  The reach is touches (a line counts
   whatever its -j flag): this model has no finer reach, so setup_related is stated for touches only. *)
From Eupsv Require Import Base.Base Base.BaseLemmas Model.PathAlg Proofs.PathAlg Model.Setup Model.SetupMS.
From Coq Require Import Lia.

Section Frame.
Variable w : mworld.
Variable cfg : config.
Variable dl : str -> ascii.            (* the delimiter each path variable is used with *)

Definition has_name (n : str) (p : mproduct) : Prop := In p w /\ mp_name p = n.

Definition own_var (n k : str) : Prop :=
  k = setup_var n \/ k = dir_var n \/ k = extra_var n \/
  exists p v, has_name n p /\ In (ASet k v) (mp_actions p).
Definition own_alias (n a : str) : Prop := exists p v, has_name n p /\ In (AAlias a v) (mp_actions p).
Definition own_elem (n var v : str) : Prop := exists p ap d, has_name n p /\ In (APath ap var v d) (mp_actions p).
Definition path_var (var : str) : Prop := exists p ap v d, In p w /\ In (APath ap var v d) (mp_actions p).
Definition set_var (k : str) : Prop := exists p v, In p w /\ In (ASet k v) (mp_actions p).
Definition reserved (k : str) : Prop := exists n, k = setup_var n \/ k = dir_var n \/ k = extra_var n.

Record WF : Prop := {
  wf_path : forall p ap var v d, In p w -> In (APath ap var v d) (mp_actions p) ->
            wf_delim d = true /\ wf_elem d v = true /\ d = dl var;
  wf_set : forall p k v, In p w -> In (ASet k v) (mp_actions p) -> v <> [] /\ mem_ascii c_dollar v = false;
  wf_nounset : forall p k, In p w -> ~ In (AUnset k) (mp_actions p);
  wf_path_not_set : forall var, path_var var -> ~ set_var var;
  wf_path_not_reserved : forall var, path_var var -> ~ reserved var;
  wf_set_not_reserved : forall k, set_var k -> ~ reserved k
}.

Definition dep_edge (n m : str) : Prop :=
  exists p opt j, has_name n p /\ In (ASetup opt m j) (mp_actions p).

(* budget: None = unbounded, Some k = k more levels of dependencies *)
Definition dec (b : option nat) : option nat :=
  match b with None => None | Some k => Some (pred k) end.
Definition positive (b : option nat) : Prop :=
  match b with None => True | Some k => 0 < k end.
Definition ble (a b : option nat) : Prop :=
  match a, b with
  | _, None => True
  | None, Some _ => False
  | Some x, Some y => x <= y
  end.

Inductive touches : option nat -> str -> str -> Prop :=
| t_self b n : touches b n n
| t_dep b n m k : positive b -> dep_edge n m -> touches (dec b) m k -> touches b n k.

Lemma ble_refl b : ble b b.
Proof. destruct b; simpl; auto. Qed.

Lemma ble_dec a b : ble a b -> ble (dec a) (dec b).
Proof. destruct a, b; simpl; auto; lia. Qed.

Lemma ble_positive a b : ble a b -> positive a -> positive b.
Proof. destruct a, b; simpl; intros; auto; try lia; try contradiction. Qed.

Lemma touches_mono a n k : touches a n k -> forall b, ble a b -> touches b n k.
Proof.
  induction 1 as [a n|a n m k Hp He Ht IH]; intros b Hb; [constructor|].
  apply (t_dep b n m k); [now apply (ble_positive a)|assumption|]. apply IH. now apply ble_dec.
Qed.

Lemma touches_unbounded_trans a b c : touches None a b -> touches None b c -> touches None a c.
Proof.
  intro Tab. remember (@None nat) as bud eqn:Eb. induction Tab as [b0 n0|b0 n0 m0 k0 Hpos He Ht IH]; intro Hc; [assumption|].
  subst b0. apply (t_dep None n0 m0 c I He). now apply IH.
Qed.

(* the budget of a call at a given depth *)
Definition levels (depth : nat) (just : bool) : option nat :=
  if just then Some 0 else
  match c_max_depth cfg with
  | None => None
  | Some m => Some (m - depth)
  end.

Definition depth_ok (depth : nat) : Prop :=
  match c_max_depth cfg with None => True | Some m => depth <= m end.

Lemma levels_just_le depth just k : ble (levels depth (just || k)) (levels depth just).
Proof.
  unfold levels. destruct just; cbn [orb]; [apply ble_refl|].
  destruct k; [|apply ble_refl]. destruct (c_max_depth cfg); simpl; auto. lia.
Qed.

Lemma cut_off_false_levels depth just jst :
  depth_ok depth -> cut_off cfg just (S depth) = false ->
  positive (levels depth just) /\ ble (levels (S depth) jst) (dec (levels depth just)) /\ depth_ok (S depth).
Proof.
  unfold cut_off, levels, depth_ok. intros Hd Hc. apply orb_false_iff in Hc. destruct Hc as [Hj Hm].
  subst just. destruct (c_max_depth cfg) as [m|]; simpl.
  - apply Nat.eqb_neq in Hm. assert (depth < m) by lia. repeat split; try lia.
    destruct jst; simpl; lia.
  - repeat split; auto. destruct jst; simpl; auto.
Qed.

Definition nodollar_paths (e : amap str) : Prop :=
  forall var, path_var var -> no_dollar (oldv var e) = true.

(* what a set N of product names may change between two environments *)
Record env_frame (N : str -> Prop) (e e' : amap str) : Prop := {
  ef_vars : forall k, ~ path_var k -> (forall n, N n -> ~ own_var n k) -> alookup k e' = alookup k e;
  ef_paths : forall var (keep : str -> bool), path_var var ->
             (forall n v, N n -> own_elem n var v -> keep v = false) ->
             uniq (filter keep (elems (dl var) (oldv var e'))) = uniq (filter keep (elems (dl var) (oldv var e)))
}.

Definition alias_frame (N : str -> Prop) (a a' : amap str) : Prop :=
  forall k, (forall n, N n -> ~ own_alias n k) -> alookup k a' = alookup k a.

Lemma env_frame_refl N e : env_frame N e e.
Proof. split; reflexivity. Qed.

Lemma env_frame_trans N e1 e2 e3 : env_frame N e1 e2 -> env_frame N e2 e3 -> env_frame N e1 e3.
Proof.
  intros [V1 P1] [V2 P2]. split.
  - intros k Hk Hn. rewrite V2, V1; auto.
  - intros var keep Hv Hn. rewrite (P2 var keep Hv Hn). now apply P1.
Qed.

Lemma env_frame_mono (N M : str -> Prop) e e' :
  (forall n, N n -> M n) -> env_frame N e e' -> env_frame M e e'.
Proof.
  intros H [V P]. split.
  - intros k Hk Hn. apply V; auto.
  - intros var keep Hv Hn. apply P; auto. intros n v Hin. apply Hn. auto.
Qed.

Lemma alias_frame_refl N a : alias_frame N a a.
Proof. intros k _. reflexivity. Qed.

Lemma alias_frame_trans N a1 a2 a3 : alias_frame N a1 a2 -> alias_frame N a2 a3 -> alias_frame N a1 a3.
Proof. intros H1 H2 k Hk. now rewrite (H2 k Hk), (H1 k Hk). Qed.

Lemma alias_frame_mono (N M : str -> Prop) a a' :
  (forall n, N n -> M n) -> alias_frame N a a' -> alias_frame M a a'.
Proof. intros H F k Hk. apply F. auto. Qed.

Lemma own_set m p k v : has_name m p -> In (ASet k v) (mp_actions p) -> own_var m k.
Proof. intros Hp Ha. right; right; right. exists p, v. split; assumption. Qed.

Lemma oldv_other k var x e : k <> var -> oldv var (aset k x e) = oldv var e.
Proof. intro N. unfold oldv. rewrite alookup_aset_other; auto. Qed.

Lemma oldv_other_remove k var e : k <> var -> oldv var (aremove k e) = oldv var e.
Proof. intro N. unfold oldv. rewrite alookup_aremove_other; auto. Qed.

Lemma frame_owned_keys (N K : str -> Prop) n e e' :
  N n -> (forall k, K k -> own_var n k /\ ~ path_var k) -> (forall k, ~ K k -> alookup k e' = alookup k e) ->
  env_frame N e e' /\ (nodollar_paths e -> nodollar_paths e').
Proof.
  intros Hn HK Hout.
  assert (Hold : forall var, path_var var -> oldv var e' = oldv var e).
  { intros var Hv. unfold oldv. rewrite Hout; [reflexivity|]. intro Kv. now apply (proj2 (HK var Kv)). }
  split; [split|].
  - intros k _ Hno. apply Hout. intro Kk. exact (Hno n Hn (proj1 (HK k Kk))).
  - intros var keep Hv _. now rewrite (Hold var Hv).
  - intros D var Hv. rewrite (Hold var Hv). now apply D.
Qed.

(* the three variables eups keeps for the product name n *)
Definition res_of (n k : str) : Prop := k = setup_var n \/ k = dir_var n \/ k = extra_var n.

Lemma res_setup n : res_of n (setup_var n).
Proof. now left. Qed.
Lemma res_dir n : res_of n (dir_var n).
Proof. right. now left. Qed.
Lemma res_extra n : res_of n (extra_var n).
Proof. right. now right. Qed.

Lemma res_own n k : res_of n k -> own_var n k.
Proof. intros [E|[E|E]]; [left|right; left|right; right; left]; exact E. Qed.

Lemma res_reserved n k : res_of n k -> reserved k.
Proof. intro R. now exists n. Qed.

Lemma res_not_path (H : WF) n k : res_of n k -> ~ path_var k.
Proof. intros R Hp. exact (wf_path_not_reserved H k Hp (res_reserved n k R)). Qed.

Lemma res_of_dec n k : res_of n k \/ ~ res_of n k.
Proof.
  destruct (str_eq_dec k (setup_var n)) as [E|N1]; [left; now left|].
  destruct (str_eq_dec k (dir_var n)) as [E|N2]; [left; right; now left|].
  destruct (str_eq_dec k (extra_var n)) as [E|N3]; [left; right; now right|].
  right. intros [E|[E|E]]; contradiction.
Qed.

(* the three differ by their lengths *)
Lemma res_vars_differ name :
  setup_var name <> dir_var name /\ setup_var name <> extra_var name /\ dir_var name <> extra_var name.
Proof.
  unfold setup_var, dir_var, extra_var.
  repeat split; intro E; apply (f_equal (@length ascii)) in E; rewrite !app_length in E; cbn in E; lia.
Qed.

(* e' is e except for the variables kept for the name n: what writing and removing the record of n does *)
Definition only_res (n : str) (e e' : amap str) : Prop := forall k, ~ res_of n k -> alookup k e' = alookup k e.

Lemma set_vars_only_res name p st : only_res name (s_env st) (s_env (mset_product_vars st name p)).
Proof.
  intros k NR. unfold mset_product_vars, set_env. cbn [s_env].
  rewrite !alookup_aset_other; [reflexivity| |]; intros ->; apply NR; [apply res_dir|apply res_setup].
Qed.

Lemma set_vars_setup name p st :
  alookup (setup_var name) (s_env (mset_product_vars st name p)) = Some (ms_setup_string p).
Proof. apply alookup_aset_same. Qed.

Lemma set_vars_dir name p st : alookup (dir_var name) (s_env (mset_product_vars st name p)) = Some (mp_dir p).
Proof.
  unfold mset_product_vars, set_env. cbn [s_env].
  rewrite alookup_aset_other by (apply not_eq_sym, res_vars_differ). apply alookup_aset_same.
Qed.

Lemma set_vars_extra name p st :
  alookup (extra_var name) (s_env (mset_product_vars st name p)) = alookup (extra_var name) (s_env st).
Proof.
  unfold mset_product_vars, set_env. cbn [s_env].
  destruct (res_vars_differ name) as [_ [N2 N3]]. rewrite !alookup_aset_other; auto.
Qed.

Lemma unset_vars_only_res name st : only_res name (s_env st) (s_env (unset_product_vars st name)).
Proof.
  intros k NR. unfold unset_product_vars, unset_env. cbn [s_env].
  rewrite !alookup_aremove_other; [reflexivity| | |]; intros ->; apply NR; [apply res_dir|apply res_setup|apply res_extra].
Qed.

Lemma unset_vars_gone name st k : res_of name k -> alookup k (s_env (unset_product_vars st name)) = None.
Proof.
  intro R. unfold unset_product_vars, unset_env. cbn [s_env].
  destruct (str_eq_dec k (extra_var name)) as [->|N3]; [apply alookup_aremove_same|].
  rewrite alookup_aremove_other by assumption.
  destruct (str_eq_dec k (setup_var name)) as [->|N1]; [apply alookup_aremove_same|].
  rewrite alookup_aremove_other by assumption.
  destruct R as [-> | [-> | ->]]; try contradiction. apply alookup_aremove_same.
Qed.

Lemma frame_path_step (H : WF) (N : str -> Prop) n p ap fwd var v d e :
  N n -> has_name n p -> In (APath ap var v d) (mp_actions p) -> nodollar_paths e ->
  exists e', env_prepend ap fwd var v d e = Ok (Some e') /\ env_frame N e e' /\ nodollar_paths e' /\
    (forall k, k <> var -> alookup k e' = alookup k e) /\
    elems d (oldv var e') = result_list ap fwd d v (oldv var e).
Proof.
  intros Hn [Hin Hnm] Ha Hnd.
  destruct (wf_path H p ap var v d Hin Ha) as [Hd [Hv Hdl]].
  assert (Hpv : path_var var) by (exists p, ap, v, d; auto).
  destruct (env_prepend_elems ap fwd var v d e Hd Hv (Hnd var Hpv)) as [e' [H1 [H2 [H3 H4]]]].
  exists e'. split; [assumption|]. split; [split|split; [|split; assumption]].
  - intros k Hk _. apply H4. intros ->. contradiction.
  - intros var' keep Hv' Hkeep. destruct (str_eq_dec var' var) as [->|Nv].
    + rewrite <- Hdl. rewrite H2.
      assert (Kv : keep v = false) by (apply (Hkeep n v Hn); exists p, ap, d; split; [split|]; auto).
      rewrite <- (filter_remove_str_absorb keep v (result_list ap fwd d v (oldv var e)) Kv).
      rewrite result_others. rewrite (filter_remove_str_absorb keep v _ Kv).
      rewrite <- uniq_filter. now rewrite uniq_idem.
    + unfold oldv. rewrite H4 by assumption. reflexivity.
  - intros var' Hv'. destruct (str_eq_dec var' var) as [->|Nv]; [assumption|].
    unfold oldv. rewrite H4 by assumption. now apply Hnd.
Qed.

Lemma frame_set_step (H : WF) (N : str -> Prop) n p (fwd : bool) k v e :
  N n -> has_name n p -> In (ASet k v) (mp_actions p) -> nodollar_paths e ->
  let e' := if fwd then aset k v e else aremove k e in
  env_set fwd k v e = Ok (Some e') /\ env_frame N e e' /\ nodollar_paths e'.
Proof.
  intros Hn Hp Ha Hnd e'. pose proof (proj1 Hp) as Hin.
  destruct (wf_set H p k v Hin Ha) as [Hne Hdol].
  destruct (frame_owned_keys N (eq k) n e e' Hn) as [F D].
  - intros k' <-. split; [exact (own_set n p k v Hp Ha)|].
    intro Pk. apply (wf_path_not_set H k Pk). exists p, v. split; assumption.
  - intros k' Nk. subst e'. destruct fwd; [apply alookup_aset_other|apply alookup_aremove_other]; congruence.
  - split; [|split; [exact F|exact (D Hnd)]]. subst e'. destruct fwd; [|reflexivity].
    rewrite (env_set_expanded k v v e (expand_nodollar e v Hdol) Hne).
    now rewrite (interp_nodollar e v Hdol).
Qed.

Lemma setup_or_simple a : (exists o m j, a = ASetup o m j) \/ (forall o m j, a <> ASetup o m j).
Proof. destruct a as [o m j| | | | |]; [left; now exists o, m, j|right; discriminate..]. Qed.

Lemma run_actions_simple (rec : msetup_fn) fwd depth just a acts st ds :
  (forall o m j, a <> ASetup o m j) ->
  mrun_actions cfg rec fwd depth just (a :: acts) st ds =
  match exec_simple fwd a st with
  | Ok st' => mrun_actions cfg rec fwd depth just acts st' ds
  | Err _ => MRaise st ds
  end.
Proof. intro Hns. destruct a as [o m j| | | | |]; try reflexivity. now elim (Hns o m j). Qed.

(* The induction over the actions of a table, made once for all the theorems about setup.  [I todo st] is what is
   known of the state when the actions [todo] of [table] are still to be executed, [Q] what is to be shown of the
   result.  A line that is not a dependency is executed by exec_simple; a dependency line is cut off or calls
   [rec], and the third premise follows the cases of mrun_actions on what that call returns. *)
Lemma run_actions_rule (rec : msetup_fn) fwd depth just (table : list action)
                       (I : list action -> state -> Prop) (Q : mresult -> Prop) :
  (forall st ds, I [] st -> Q (MDone true st ds)) ->
  (forall a todo st ds, In a table -> (forall o m j, a <> ASetup o m j) -> I (a :: todo) st ->
     match exec_simple fwd a st with Ok st' => I todo st' | Err _ => Q (MRaise st ds) end) ->
  (forall o m j todo st ds, In (ASetup o m j) table -> I (ASetup o m j :: todo) st ->
     if cut_off cfg just (S depth) then I todo st else
     match rec st ds m fwd (S depth) j with
     | MDone true st' _ => I todo st'
     | MDone false _ ds' | MRaise _ ds' => if fwd && negb o then Q (MRaise st ds') else I todo st
     | r => Q r
     end) ->
  forall todo, incl todo table -> forall st ds, I todo st -> Q (mrun_actions cfg rec fwd depth just todo st ds).
Proof.
  intros Hnil Hsimple Hdep. induction todo as [|a todo IH]; intros Hsub st ds HI; [now apply Hnil|].
  apply incl_cons_inv in Hsub. destruct Hsub as [Ha Hsub]. specialize (IH Hsub).
  destruct (setup_or_simple a) as [[o [m [j ->]]]|Hns].
  - specialize (Hdep o m j todo st ds Ha HI). cbn [mrun_actions]. destruct (cut_off cfg just (S depth)); [now apply IH|].
    destruct (rec st ds m fwd (S depth) j) as [[|] st' ds'|st' ds'| |]; try assumption; try (now apply IH);
      destruct (fwd && negb o); try assumption; now apply IH.
  - rewrite (run_actions_simple rec fwd depth just a todo st ds Hns). specialize (Hsimple a todo st ds Ha Hns HI).
    destruct (exec_simple fwd a st); [now apply IH|assumption].
Qed.

Lemma run_actions_done_true (rec : msetup_fn) fwd depth just acts :
  forall st ds ok st' ds', mrun_actions cfg rec fwd depth just acts st ds = MDone ok st' ds' -> ok = true.
Proof.
  intros st ds.
  apply (run_actions_rule rec fwd depth just acts (fun _ _ => True)
           (fun r => forall ok st' ds', r = MDone ok st' ds' -> ok = true)); [| | |apply incl_refl|exact I].
  - intros st0 ds0 _ ok st' ds' E. now injection E.
  - intros a todo st0 ds0 _ _ _. destruct (exec_simple fwd a st0); [exact I|discriminate].
  - intros o m j todo st0 ds0 _ _. destruct (cut_off cfg just (S depth)); [exact I|].
    destruct (rec st0 ds0 m fwd (S depth) j) as [[|] s1 d1|s1 d1| |]; try exact I; try discriminate;
      destruct (fwd && negb o); try exact I; discriminate.
Qed.

Lemma child_levels name p o m j depth just :
  has_name name p -> In (ASetup o m j) (mp_actions p) -> depth_ok depth -> cut_off cfg just (S depth) = false ->
  depth_ok (S depth) /\ forall k, touches (levels (S depth) j) m k -> touches (levels depth just) name k.
Proof.
  intros Hp Ha Hdepth Hc. destruct (cut_off_false_levels depth just j Hdepth Hc) as [Hpos [Hble Hd']].
  split; [assumption|]. intros k Hk. apply (t_dep (levels depth just) name m k Hpos).
  - exists p, o, j. split; assumption.
  - now apply (touches_mono (levels (S depth) j)).
Qed.

Lemma find_pvr_in (l : mworld) name v p :
  find_pvr l name v = Some p -> In p l /\ mp_name p = name /\ mp_version p = vr_version v /\ mp_root p = vr_root v.
Proof.
  induction l as [|q l IH]; cbn [find_pvr]; [discriminate|]. destruct (mp_is name v q) eqn:E.
  - intro Hq. injection Hq as <-. unfold mp_is in E.
    destruct (andb_prop _ _ E) as [E12 E3]. destruct (andb_prop _ _ E12) as [E1 E2].
    split; [now left|]. split; [now apply str_eqb_eq|split; now apply str_eqb_eq].
  - intro Hq. destruct (IH Hq) as [Hin Hr]. split; [now right|assumption].
Qed.

Lemma find_pvr_spec name v p :
  find_pvr w name v = Some p -> has_name name p /\ mp_version p = vr_version v /\ mp_root p = vr_root v.
Proof. intro Hq. destruct (find_pvr_in w name v p Hq) as [Hin [Hn Hv]]. split; [split|]; assumption. Qed.

Lemma mfind_setup_product_spec e name p : mfind_setup_product w (c_flavor cfg) e name = Some p -> has_name name p.
Proof.
  unfold mfind_setup_product. destruct (alookup (setup_var name) e); [|discriminate].
  destruct (recorded_fields s) as [[[v f] [root|]]|]; try discriminate.
  destruct (find_pvr w name (mkVref v root)) as [q|] eqn:Hq; [|discriminate].
  destruct (str_eqb (mp_flavor q) _); [|discriminate]. intro E. injection E as <-.
  now destruct (find_pvr_spec _ _ _ Hq).
Qed.

(* the forward branch of msetup_step first unsets the version that is set up, if there is one *)
Definition unset_old (rec : msetup_fn) st ds name depth just : mresult :=
  match mfind_setup_product w (c_flavor cfg) (s_env st) name with
  | Some _ => rec st ds name false depth (just || c_keep cfg)
  | None => MDone true st ds
  end.

Lemma unset_old_cases (rec : msetup_fn) (R : mresult -> Prop) st ds name depth just :
  (mfind_setup_product w (c_flavor cfg) (s_env st) name = None -> R (MDone true st ds)) ->
  (mfind_setup_product w (c_flavor cfg) (s_env st) name <> None -> R (rec st ds name false depth (just || c_keep cfg))) ->
  R (unset_old rec st ds name depth just).
Proof.
  intros R0 R1. unfold unset_old.
  destruct (mfind_setup_product w (c_flavor cfg) (s_env st) name); [apply R1; discriminate|now apply R0].
Qed.

(* The traversal, once for every relation R N st st' between the state before and after that the single steps on
   a product whose name is in N respect: R is reflexive, transitive and grows with N.  The frame (framed, below)
   and the ownership relation of Proofs/SetupMSOwn.v are the two instances. *)
Section Traversal.
Variable R : (str -> Prop) -> state -> state -> Prop.
Hypothesis R_refl : forall N st, R N st st.
Hypothesis R_trans : forall N s1 s2 s3, R N s1 s2 -> R N s2 s3 -> R N s1 s3.
Hypothesis R_mono : forall (N M : str -> Prop) st st', (forall n, N n -> M n) -> R N st st' -> R M st st'.
Hypothesis R_simple : forall (N : str -> Prop) n p fwd a st,
  N n -> has_name n p -> In a (mp_actions p) -> (forall o m j, a <> ASetup o m j) -> nodollar_paths (s_env st) ->
  exists st', exec_simple fwd a st = Ok st' /\ R N st st' /\ nodollar_paths (s_env st').
Hypothesis R_set : forall (N : str -> Prop) n p st, N n -> has_name n p -> nodollar_paths (s_env st) ->
  R N st (mset_product_vars st n p) /\ nodollar_paths (s_env (mset_product_vars st n p)).
Hypothesis R_unset : forall (N : str -> Prop) n p st, N n -> has_name n p -> nodollar_paths (s_env st) ->
  R N st (unset_product_vars st n) /\ nodollar_paths (s_env (unset_product_vars st n)).

(* of the state an exception leaves it says what it says of a final state *)
Definition related (N : str -> Prop) (st : state) (r : mresult) : Prop :=
  match r with
  | MDone _ st' _ | MRaise st' _ => R N st st' /\ nodollar_paths (s_env st')
  | _ => True
  end.

Definition fn_related (rec : msetup_fn) : Prop :=
  forall st ds name fwd depth just, nodollar_paths (s_env st) -> depth_ok depth ->
    related (touches (levels depth just) name) st (rec st ds name fwd depth just).

Lemma related_mono (N M : str -> Prop) st r : (forall n, N n -> M n) -> related N st r -> related M st r.
Proof.
  intro HNM. destruct r as [ok st' ds'|st' ds'| |]; cbn [related]; try (intros _; exact I);
    intros [A D]; exact (conj (R_mono N M st st' HNM A) D).
Qed.

Lemma run_actions_related (rec : msetup_fn) name p fwd depth just :
  fn_related rec -> has_name name p -> depth_ok depth ->
  forall st0 st ds, R (touches (levels depth just) name) st0 st -> nodollar_paths (s_env st) ->
    related (touches (levels depth just) name) st0 (mrun_actions cfg rec fwd depth just (mp_actions p) st ds).
Proof.
  intros Hrec Hp Hdepth st0 st1 ds1 R1 D1. set (N := touches (levels depth just) name) in *.
  apply (run_actions_rule rec fwd depth just (mp_actions p)
           (fun _ st => R N st0 st /\ nodollar_paths (s_env st)) (related N st0));
    [| | |apply incl_refl|exact (conj R1 D1)].
  - intros st ds HI. exact HI.
  - intros a todo st ds Ha Hns [R0 D].
    destruct (R_simple N name p fwd a st (t_self _ name) Hp Ha Hns D) as [st' [E [R' D']]]. rewrite E.
    exact (conj (R_trans N _ _ _ R0 R') D').
  - intros o m j todo st ds Ha [R0 D]. destruct (cut_off cfg just (S depth)) eqn:Hc; [exact (conj R0 D)|].
    destruct (child_levels name p o m j depth just Hp Ha Hdepth Hc) as [Hd' Hsubset].
    pose proof (related_mono _ N st _ Hsubset (Hrec st ds m fwd (S depth) j D Hd')) as C.
    destruct (rec st ds m fwd (S depth) j) as [[|] st' ds'|st' ds'| |]; try exact I;
      try (destruct (fwd && negb o); exact (conj R0 D)).
    exact (conj (R_trans N _ _ _ R0 (proj1 C)) (proj2 C)).
Qed.

Lemma setup_step_related (rec : msetup_fn) : fn_related rec -> fn_related (msetup_step w cfg rec).
Proof.
  intros Hrec st ds name fwd depth just Hnd Hdepth. set (N := touches (levels depth just) name).
  pose proof (t_self (levels depth just) name : N name) as HNself.
  pose proof (conj (R_refl N st) Hnd) as Same.
  unfold msetup_step. destruct fwd.
  - destruct ds as [|[v|] ds1]; [exact I| |exact Same].
    destruct (find_pvr w name v) as [p|] eqn:Hf; [|exact I].
    destruct (find_pvr_spec name v p Hf) as [Hp _].
    destruct (msame_product p (mfind_setup_product w (c_flavor cfg) (s_env st) name) && negb (depth =? 0)); [exact Same|].
    fold (unset_old rec st ds1 name depth just).
    (* within a budget that --keep can only lower *)
    assert (H0 : related N st (unset_old rec st ds1 name depth just)).
    { apply unset_old_cases; intros _; [exact Same|].
      apply (related_mono (touches (levels depth (just || c_keep cfg)) name) N); [|now apply Hrec].
      intros n Hn. apply (touches_mono _ _ _ Hn). apply levels_just_le. }
    destruct (unset_old rec st ds1 name depth just) as [ok st1 ds2|st1 ds2| |]; try exact H0.
    destruct H0 as [R0 D1]. destruct (R_set N name p st1 HNself Hp D1) as [R2 D2].
    exact (run_actions_related rec name p true depth just Hrec Hp Hdepth st _ ds2 (R_trans N _ _ _ R0 R2) D2).
  - destruct (mfind_setup_product w (c_flavor cfg) (s_env st) name) as [sp|] eqn:Hs; [|exact Same].
    pose proof (mfind_setup_product_spec _ _ _ Hs) as Hp.
    destruct (R_unset N name sp st HNself Hp Hnd) as [R1 D1].
    exact (run_actions_related rec name sp false depth just Hrec Hp Hdepth st _ ds R1 D1).
Qed.

Theorem setup_related fuel : fn_related (msetup w cfg fuel).
Proof.
  induction fuel as [|fuel IH].
  - intros st ds name fwd depth just _ _. exact I.
  - cbn [msetup]. now apply setup_step_related.
Qed.

End Traversal.

Definition good (N : str -> Prop) (st : state) (r : mresult) : Prop :=
  match r with
  | MDone _ st' _ => env_frame N (s_env st) (s_env st') /\ nodollar_paths (s_env st') /\
                     alias_frame N (s_aliases st) (s_aliases st')
  | MRaise st' _ => alias_frame N (s_aliases st) (s_aliases st')
  | _ => True
  end.

Definition fn_ok (rec : msetup_fn) : Prop :=
  forall st ds name fwd depth just, nodollar_paths (s_env st) -> depth_ok depth ->
    good (touches (levels depth just) name) st (rec st ds name fwd depth just).

Definition framed (N : str -> Prop) (st st' : state) : Prop :=
  env_frame N (s_env st) (s_env st') /\ alias_frame N (s_aliases st) (s_aliases st').

Lemma framed_refl N st : framed N st st.
Proof. split; [apply env_frame_refl|apply alias_frame_refl]. Qed.

Lemma framed_trans N s1 s2 s3 : framed N s1 s2 -> framed N s2 s3 -> framed N s1 s3.
Proof.
  intros [E1 A1] [E2 A2]. split; [exact (env_frame_trans N _ _ _ E1 E2)|exact (alias_frame_trans N _ _ _ A1 A2)].
Qed.

Lemma framed_mono (N M : str -> Prop) st st' : (forall n, N n -> M n) -> framed N st st' -> framed M st st'.
Proof. intros HNM [E A]. split; [now apply (env_frame_mono N M)|now apply (alias_frame_mono N M)]. Qed.

Lemma exec_simple_ok (H : WF) (N : str -> Prop) n p fwd a st :
  N n -> has_name n p -> In a (mp_actions p) -> (forall o m j, a <> ASetup o m j) ->
  nodollar_paths (s_env st) ->
  exists st', exec_simple fwd a st = Ok st' /\ framed N st st' /\ nodollar_paths (s_env st').
Proof.
  intros Hn Hp Ha Hns Hnd. destruct a as [o m j|ap var v d|k v|k|k v|]; cbn [exec_simple].
  - now elim (Hns o m j).
  - destruct (frame_path_step H N n p ap fwd var v d (s_env st) Hn Hp Ha Hnd) as [e' [H1 [H2 [H3 _]]]].
    rewrite H1. eexists. split; [reflexivity|]. split; [split; [exact H2|apply alias_frame_refl]|exact H3].
  - destruct (frame_set_step H N n p fwd k v (s_env st) Hn Hp Ha Hnd) as [H1 [H2 H3]].
    rewrite H1. eexists. split; [reflexivity|]. split; [split; [exact H2|apply alias_frame_refl]|exact H3].
  - now elim (wf_nounset H p k (proj1 Hp)).
  - eexists. split; [reflexivity|]. split; [split; [apply env_frame_refl|]|exact Hnd]. cbn [s_aliases].
    intros a Hno. assert (a <> k).
    { intros ->. apply (Hno n Hn). exists p, v. split; assumption. }
    destruct fwd; [now apply alookup_aset_other|now apply alookup_aremove_other].
  - exists st. split; [reflexivity|]. split; [apply framed_refl|exact Hnd].
Qed.

Lemma only_res_framed (H : WF) (N : str -> Prop) n st st' :
  N n -> only_res n (s_env st) (s_env st') -> s_aliases st' = s_aliases st -> nodollar_paths (s_env st) ->
  framed N st st' /\ nodollar_paths (s_env st').
Proof.
  intros Hn O A Hnd.
  destruct (frame_owned_keys N (res_of n) n _ _ Hn (fun k R => conj (res_own n k R) (res_not_path H n k R)) O) as [F D].
  split; [split; [exact F|rewrite A; apply alias_frame_refl]|exact (D Hnd)].
Qed.

Lemma set_vars_framed (H : WF) (N : str -> Prop) n p st : N n -> nodollar_paths (s_env st) ->
  framed N st (mset_product_vars st n p) /\ nodollar_paths (s_env (mset_product_vars st n p)).
Proof. intros Hn. exact (only_res_framed H N n st _ Hn (set_vars_only_res n p st) eq_refl). Qed.

Lemma unset_vars_framed (H : WF) (N : str -> Prop) n st : N n -> nodollar_paths (s_env st) ->
  framed N st (unset_product_vars st n) /\ nodollar_paths (s_env (unset_product_vars st n)).
Proof. intros Hn. exact (only_res_framed H N n st _ Hn (unset_vars_only_res n st) eq_refl). Qed.

(* the form in which the induction of Proofs/SetupMSInv.v takes the frame theorem for the nested calls *)
Definition fn_framed (rec : msetup_fn) : Prop := fn_related framed rec.

Lemma setup_step_ok (H : WF) (rec : msetup_fn) : fn_framed rec -> fn_framed (msetup_step w cfg rec).
Proof.
  exact (setup_step_related framed framed_refl framed_trans framed_mono (exec_simple_ok H)
           (fun N n p st Hn _ => set_vars_framed H N n p st Hn) (fun N n _ st Hn _ => unset_vars_framed H N n st Hn) rec).
Qed.

Theorem setup_frame_raise (H : WF) fuel : fn_framed (msetup w cfg fuel).
Proof.
  exact (setup_related framed framed_refl framed_trans framed_mono (exec_simple_ok H)
           (fun N n p st Hn _ => set_vars_framed H N n p st Hn) (fun N n _ st Hn _ => unset_vars_framed H N n st Hn) fuel).
Qed.

Theorem setup_frame (H : WF) fuel : fn_ok (msetup w cfg fuel).
Proof.
  intros st ds name fwd depth just Hnd Hd. pose proof (setup_frame_raise H fuel st ds name fwd depth just Hnd Hd) as G.
  destruct (msetup w cfg fuel st ds name fwd depth just) as [ok st' ds'|st' ds'| |]; try exact I;
    destruct G as [[E A] D]; [exact (conj E (conj D A))|exact A].
Qed.

End Frame.
