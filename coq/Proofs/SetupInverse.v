(* C02, the inverse clause, on the composed model Model/SetupFull.v: under the hypotheses of the closure
   theorem of C01 and from a state in which nothing that the reachable products own is set (fresh_for),
   setup top  followed by  unsetup top  restores every variable and every alias.

   Pieces: Proofs/SetupFullClosure.v says exactly which products the setup records (the closure, at the
   assigned versions; every recorded product other than top is named by a line of the table of a recorded
   one) and that every alias a reachable table defines is accounted for by a recorded product;
   Proofs/SetupUnwind.v says the unsetup then leaves no reachable product recorded and no such alias;
   the frame theorem (Proofs/SetupFrame.v) and the invariant (Proofs/SetupInv.v) give the path variables;
   Proofs/SetupOwn.v gives the variables the reachable products own. *)
From Eupsv Require Import Base.Base Base.BaseLemmas Model.PathAlg Proofs.PathAlg Model.Setup Proofs.SetupFrame
     Proofs.SetupInv Model.Resolve Model.ResolveSpec Model.SetupFull Proofs.SetupFull Proofs.SetupFullKeep
     Proofs.SetupFullClosure Proofs.SetupOwn Proofs.SetupUnwind.

(* nothing that a product reachable from top owns is set, and no alias such a product defines exists *)
Definition fresh_for (fw : fworld) (top : str) (st : state) : Prop :=
  (forall n k, reachN fw top n -> own_var (fw_products fw) n k -> alookup k (s_env st) = None) /\
  (forall n k, reachN fw top n -> own_alias (fw_products fw) n k -> alookup k (s_aliases st) = None).

(* Two environments related by the frame and by the ownership relation of a set N of names, the first fresh for
   N, the second with no product of N recorded and nothing of N present, are equal up to the order of the
   elements of the path variables. *)
Section Restored.
Variable w : world.
Variable cfg : Setup.config.
Variable dl : str -> ascii.
Variable rank : str -> nat.
Hypothesis H : WF2 w dl rank.
Variable N : str -> Prop.
Variables e e2 : amap str.

(* mask: the elements present before or after; those of the products of N are in neither *)
Lemma restored_paths :
  env_frame w dl N e e2 ->
  (forall n q, N n -> has_name w n q -> absent q e /\ absent q e2) ->
  forall var, path_var w var ->
    uniq (elems (dl var) (oldv var e2)) = uniq (elems (dl var) (oldv var e)).
Proof.
  intros [_ FP] Habs var Hv.
  set (l0 := elems (dl var) (oldv var e)). set (l2 := elems (dl var) (oldv var e2)).
  set (keep := fun v => mem_str v l0 || mem_str v l2).
  assert (K : forall l, (forall x, In x l -> mem_str x l0 = true \/ mem_str x l2 = true) -> filter keep l = l).
  { intros l Hl. apply forallb_filter_id, forallb_forall. intros x Hx. apply orb_true_iff. now apply Hl. }
  rewrite <- (K l2), <- (K l0).
  - apply FP; [assumption|].
    intros n v Rn [q [ap [d [Hq Ha]]]]. apply orb_false_iff.
    destruct (wf_path (wf_base w dl rank H) q ap var v d (proj1 Hq) Ha) as [_ [_ ->]].
    destruct (Habs n q Rn Hq) as [[A0 _] [A2 _]].
    split; apply mem_str_not_In; [exact (A0 ap var v (dl var) Ha)|exact (A2 ap var v (dl var) Ha)].
  - intros x Hx. left. now apply mem_str_In.
  - intros x Hx. right. now apply mem_str_In.
Qed.

Lemma restored_vars :
  own_rel w cfg N e e2 -> (forall n, N n -> known w n) ->
  (forall n k, N n -> own_var w n k -> alookup k e = None) ->
  (forall n, N n -> find_setup_product w e2 n = None) ->
  (forall n q, N n -> has_name w n q -> absent q e2) ->
  forall k, ~ path_var w k -> alookup k e2 = alookup k e.
Proof.
  intros [OC OS OR] Kreach FV Hafter Habs k Hk.
  destruct (OC k Hk) as [E|[n [Rn On]]]; [assumption|].
  rewrite (FV n k Rn On). pose proof (Kreach n Rn) as Kn. destruct (OR n Kn) as [RX RM].
  pose proof (fun k0 Hk0 => FV n k0 Rn (own_var_reserved w n k0 Hk0)) as Fr.
  (* SETUP_n does not hold the record of a product: none is recorded *)
  assert (NotWritten : forall p, has_name w n p ->
            alookup (setup_var n) e2 <> Some (setup_string cfg n (p_version p))).
  { intros p Hp Es. pose proof (find_setup_product_written w cfg dl rank H n p e2 Hp Es) as F.
    rewrite (Hafter n Rn) in F. discriminate. }
  destruct On as [->|[->|[->|[p [v [Hp Ha]]]]]].
  - destruct RM as [[S _]|[[S _]|[p [Hp [S _]]]]]; [|exact S|elim (NotWritten p Hp S)].
    rewrite S. apply Fr. now left.
  - destruct RM as [[_ Dv]|[[_ Dv]|[p [Hp [S _]]]]]; [|exact Dv|elim (NotWritten p Hp S)].
    rewrite Dv. apply Fr. right. now left.
  - destruct RX as [X|X]; [|exact X]. rewrite X. apply Fr. right. now right.
  - destruct (OS k (ex_intro _ p (ex_intro _ v (conj (proj1 Hp) Ha)))) as [E|[E|[p' [v' [Hin' [Ha' E]]]]]]; [|exact E|].
    + rewrite E. exact (FV n k Rn (own_set w n p k v Hp Ha)).
    + (* a value some table writes: the table is one of n, and nothing of n is present *)
      exfalso. pose proof (conj Hin' eq_refl : has_name w (p_name p') p') as Hp'.
      destruct (str_eq_dec (p_name p') n) as [Same|Ne].
      * rewrite Same in Hp'. exact (proj2 (Habs n p' Rn Hp') k v' Ha' E).
      * exact (wf_var_apart w dl rank H (p_name p') n k (known_has_name w _ p' Hp') Kn Ne
                 (own_set w _ p' k v' Hp' Ha') (own_set w n p k v Hp Ha)).
Qed.

End Restored.

Section Inverse.
Variable vcmp : str -> str -> comparison.
Variable vmatch : str -> str -> bool.
Variable fw : fworld.
Variable cfg : Setup.config.
Variable rc : Resolve.config.
Variable flavors : list str.
Variable dl : str -> ascii.
Variable rank : str -> nat.
Variable vro : list entry.
Variable top : str.
Variable D : str -> option str.

Notation w := (fw_products fw).
Notation full := (setup_full vcmp vmatch fw cfg rc flavors).
Notation reachN := (reachN fw top).
Notation reach_ok := (reach_ok fw D).

Hypothesis H : WF2 w dl rank.
Hypothesis Hdepth : c_max_depth cfg = None.
Hypothesis Hwfdb : wf_db (db_of cfg fw) = true.
Hypothesis Hto : forall n, total_order_on vcmp (names_of (db_of cfg fw) n).
Hypothesis Hnokeep : mem_entry EKeep vro = false.

Lemma lines_ok_nojust acts : forall infos o x j,
  lines_ok vcmp vmatch fw cfg rc flavors vro D acts infos -> In (ASetup o x j) acts -> j = false.
Proof.
  induction acts as [|a acts IH]; intros infos o x j L Hin; [contradiction|].
  destruct L as [La L']. destruct Hin as [->|Hin]; [now destruct La|exact (IH _ o x j L' Hin)].
Qed.

Lemma reach_ok_reach m k : reach_ok m k -> reachN m -> reachN k.
Proof.
  induction 1 as [m|m v p o x j k Dm Fm Hin Sx Ro IH]; intro Rm; [assumption|].
  apply IH. unfold SetupFullClosure.reachN in *. apply (touches_unbounded_trans w top m x Rm).
  apply (t_dep w None m x x I); [|constructor]. exists p, o, j. split; [|assumption].
  exact (proj1 (find_pv_spec w m v p Fm)).
Qed.

(* the last line of a path of the closure *)
Lemma reach_ok_last m k : reach_ok m k ->
  k = m \/ exists n v p o j, reach_ok m n /\ D n = Some v /\ find_pv w n v = Some p /\ In (ASetup o k j) (p_actions p).
Proof.
  induction 1 as [m|m v p o x j k Dm Fm Hin Sx Ro IH]; [now left|]. right.
  destruct IH as [->|[n [v' [p' [o' [j' [Rn [Dn [Fn Hin']]]]]]]]].
  - exists m, v, p, o, j. split; [constructor|]. auto.
  - exists n, v', p', o', j'. split; [|auto]. exact (ro_dep fw D m v p o x j n Dm Fm Hin Sx Rn).
Qed.

(* what the closure theorem says of the records is what the unwinding asks for: no -j in the tables of the
   recorded products, and every recorded product other than top is named by a line of a recorded one *)
Lemma closure_unwindable e1 :
  (forall n v p, reachN n -> D n = Some v -> find_pv w n v = Some p ->
     lines_ok vcmp vmatch fw cfg rc flavors vro D (p_actions p) (lines_of fw p)) ->
  (forall k, reach_ok top k -> exists v q, D k = Some v /\ find_pv w k v = Some q /\ find_setup_product w e1 k = Some q) ->
  (forall k q, reachN k -> find_setup_product w e1 k = Some q -> reach_ok top k /\ D k = Some (p_version q)) ->
  NJ w top e1 /\ PJ w top (eq top) e1.
Proof.
  intros CL C1 C2. split.
  - intros n q o x j Rn Rq Hin. destruct (C2 n q Rn Rq) as [_ Dn].
    exact (lines_ok_nojust _ _ o x j (CL n _ q Rn Dn (recorded_find_pv fw _ n q Rq)) Hin).
  - intros k q Rk Rq. destruct (C2 k q Rk Rq) as [Ro _].
    destruct (reach_ok_last top k Ro) as [->|[n [v [p [o [j [Rn [Dn [Fn Hin]]]]]]]]]; [now left|right].
    destruct (C1 n Rn) as [v' [q' [Dn' [Fn' Rq']]]]. rewrite Dn in Dn'. injection Dn' as <-.
    rewrite Fn in Fn'. injection Fn' as <-.
    exists n, p, o, j. split; [exact (reach_ok_reach top n Rn (t_self w None top))|]. split; assumption.
Qed.

Theorem inverse_lemma fuel fuel2 st li st1 al1 tr1 al vro2 li2 ok2 st2 al2 tr2 :
  conflict_free vcmp vmatch fw cfg rc flavors vro top li D ->
  nodollar_paths w (s_env st) -> Inv w (s_env st) -> fresh_for fw top st ->
  full fuel st [] vro top li true 0 false = FDone true st1 al1 tr1 ->
  full fuel2 st1 al vro2 top li2 false 0 false = FDone ok2 st2 al2 tr2 ->
  (forall n, reachN n -> find_setup_product w (s_env st2) n = None) /\
  (forall var, path_var w var ->
     uniq (elems (dl var) (oldv var (s_env st2))) = uniq (elems (dl var) (oldv var (s_env st)))) /\
  (forall k, ~ path_var w k -> alookup k (s_env st2) = alookup k (s_env st)) /\
  (forall k, alookup k (s_aliases st2) = alookup k (s_aliases st)).
Proof.
  intros [C0 CL] Hnd HI [FV FA] E1 E2.
  pose proof (depth_ok_top cfg) as Hd.
  assert (Lv : levels cfg 0 false = None) by (unfold levels; now rewrite Hdepth).
  assert (Hfresh : forall n, reachN n -> find_setup_product w (s_env st) n = None).
  { intros n Rn. apply find_none_when_unset, (FV n _ Rn), own_var_reserved. now left. }
  assert (AJ0 : AJ fw top (fun _ => True) st).
  { intros k v _ Ek [n [Rn On]]. rewrite (FA n k Rn On) in Ek. discriminate. }
  destruct (closure_lemma vcmp vmatch fw cfg rc flavors dl rank vro top D (fun _ => True) H Hdepth Hwfdb Hto Hnokeep CL
              fuel st li st1 al1 tr1 Hnd Hfresh C0 AJ0 E1) as [C1 [C2 [_ AJ1]]].
  destruct (setup_full_inv_lemma vcmp vmatch fw cfg rc flavors dl rank fuel st [] vro top li true 0 false true st1 al1 tr1
              H Hnd Hd HI E1) as [I1 D1].
  destruct (setup_full_inv_lemma vcmp vmatch fw cfg rc flavors dl rank fuel2 st1 al vro2 top li2 false 0 false ok2 st2 al2 tr2
              H D1 Hd I1 E2) as [I2 D2].
  (* top is known, hence every reachable name *)
  destruct (C1 top (ro_self fw D top)) as [vt [qt [Dt [Ft Rt]]]].
  pose proof (known_has_name w top qt (proj1 (find_pv_spec w top vt qt Ft))) as Ktop.
  pose proof (fun n Rn => touches_known w None top n Ktop Rn) as Kreach.
  destruct (closure_unwindable (s_env st1) CL C1 C2) as [HNJ HPJ].
  pose proof (full_done_setup vcmp vmatch fw cfg rc flavors fuel st [] vro top li true 0 false true st1 al1 tr1 E1) as S1.
  pose proof (full_done_setup vcmp vmatch fw cfg rc flavors fuel2 st1 al vro2 top li2 false 0 false ok2 st2 al2 tr2 E2) as S2.
  destruct (unwind_clears w cfg dl rank top (fun _ => True) H Hdepth fuel2 st1 tr2 ok2 st2 [] D1 HNJ HPJ AJ1 S2)
    as [Hafter [Agone _]].
  (* frames and ownership relations of both runs, composed *)
  pose proof (setup_frame w cfg dl (wf_base w dl rank H) fuel st tr1 top true 0 false Hnd Hd) as G1.
  pose proof (setup_frame w cfg dl (wf_base w dl rank H) fuel2 st1 tr2 top false 0 false D1 Hd) as G2.
  rewrite S1 in G1. rewrite S2 in G2. rewrite Lv in G1, G2.
  pose proof (env_frame_trans w dl _ _ _ _ (proj1 G1) (proj1 G2)) as F.
  pose proof (setup_own w cfg dl rank H fuel st tr1 top true 0 false Hnd Hd) as O1.
  pose proof (setup_own w cfg dl rank H fuel2 st1 tr2 top false 0 false D1 Hd) as O2.
  rewrite S1 in O1. rewrite S2 in O2. rewrite Lv in O1, O2.
  destruct (st_rel_trans w cfg _ _ _ _ O1 O2) as [O OA].
  pose proof (fun n q (Rn : reachN n) => clause_unrecorded w n (s_env st) (HI n) (Hfresh n Rn) q) as Abs0.
  pose proof (fun n q (Rn : reachN n) => clause_unrecorded w n (s_env st2) (I2 n) (Hafter n Rn) q) as Abs2.
  split; [exact Hafter|]. split; [|split].
  - exact (restored_paths w dl rank H _ _ _ F (fun n q Rn Hq => conj (Abs0 n q Rn Hq) (Abs2 n q Rn Hq))).
  - exact (restored_vars w cfg dl rank H _ _ _ O Kreach FV Hafter Abs2).
  - intro k. destruct (OA k) as [E|[n [Rn On]]]; [assumption|].
    rewrite (FA n k Rn On). destruct (alookup k (s_aliases st2)) as [v|] eqn:Ek; [|reflexivity].
    elim (Agone k v I Ek (ex_intro _ n (conj Rn On))).
Qed.

End Inverse.
