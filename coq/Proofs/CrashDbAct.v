(* C08, second layer, database side: a prefix of the FILE effects of a command reads as a prefix
   of record-level ACTIONS.

   Db.compile turns one action into several file effects only for ADelDecl (one rewrite per
   chain file that points at the version, then the version file).  [refine] spells that out as
   actions: ADelDecl s n v f = ADelTag s n t1 f; ...; ADelTag s n tk f; ADelDecl s n v f.  The
   refined list compiles to the very same effect list, and each of its actions changes at most
   one record.  Hence the view after any number of file effects is the view after a whole number
   of refined actions ([effect_prefix_is_action_prefix]), and the results of C06 about action
   lists (no_dangling, frame) hold at every file-effect prefix.

   Key by key ([same_or]): an action list in which no key gets two different values leaves every
   key old or final at each of its prefixes ([settles_old_or_final], [tame_old_or_final]); so does one
   action at every prefix of its file effects ([action_prefix_old_or_new]), hence a file-effect prefix
   lies between two action prefixes ([effect_prefix_between]). *)
From Eupsv Require Import Base.Base Base.BaseLemmas Model.Db Proofs.DbLib Proofs.Db Proofs.DbSim Proofs.DbInv Proofs.DbCor.
From Coq Require Import Lia.

Definition is_rec (e : fseffect) : bool := is_v_effect e || is_c_effect e.
Definition norec (es : list fseffect) : Prop := forallb (fun e => negb (is_rec e)) es = true.
Definition nrec (es : list fseffect) : nat := length (filter is_rec es).

Lemma norec_view es d : norec es -> aeq (view (apply es d)) (view d).
Proof.
  intro H. repeat split; intros.
  - rewrite !apath_view. apply path_apply.
  - rewrite !a_decl_view. apply db_decl_apply_other. revert H. apply forallb_impl.
    intros e. unfold is_rec. destruct (is_v_effect e); [discriminate|reflexivity].
  - rewrite !a_tag_view. apply db_tag_apply_other. revert H. apply forallb_impl.
    intros e. unfold is_rec. destruct (is_c_effect e); [rewrite orb_true_r; discriminate|reflexivity].
Qed.

(* at most one element of l satisfies p: every prefix has none, or the rest has none *)
Lemma filter_le1_split {A} (p : A -> bool) l i :
  length (filter p l) <= 1 -> filter p (firstn i l) = [] \/ filter p (skipn i l) = [].
Proof.
  intro H. rewrite <- (firstn_skipn i l), filter_app, app_length in H.
  destruct (filter p (firstn i l)); [now left|]. right. destruct (filter p (skipn i l)); [reflexivity|cbn in H; lia].
Qed.

Lemma nrec_zero es : filter is_rec es = [] -> norec es.
Proof.
  unfold norec. induction es as [|e es IH]; cbn; [reflexivity|].
  destruct (is_rec e); cbn; [discriminate|]. exact IH.
Qed.

Lemma one_rec_prefix es d m : nrec es <= 1 ->
  aeq (view (apply (firstn m es) d)) (view d) \/ aeq (view (apply (firstn m es) d)) (view (apply es d)).
Proof.
  intro H. destruct (filter_le1_split is_rec es m H) as [E|E].
  - left. apply norec_view. apply nrec_zero. exact E.
  - right. apply aeq_sym.
    replace (apply es d) with (apply (skipn m es) (apply (firstn m es) d)) by (now rewrite <- apply_app, firstn_skipn).
    apply norec_view. apply nrec_zero. exact E.
Qed.

Lemma compile_all_app xs : forall d ys,
  compile_all d (xs ++ ys) = compile_all d xs ++ compile_all (apply (compile_all d xs) d) ys.
Proof.
  induction xs as [|x xs IH]; intros d ys; [reflexivity|].
  cbn [app compile_all]. rewrite IH, apply_app, app_assoc. reflexivity.
Qed.

Lemma compile_all_one d x : compile_all d [x] = compile d x.
Proof. cbn [compile_all]. apply app_nil_r. Qed.

Definition deltags (s n f : str) (ts : list str) : list aact := map (fun t => ADelTag s n t f) ts.

Definition refine1 (d : db) (x : aact) : list aact :=
  match x with
  | ADelDecl s n v f =>
      if is_some (db_decl d s n v f) then deltags s n f (tags_on d s n v f) ++ [x] else [x]
  | _ => [x]
  end.

Fixpoint refine (d : db) (xs : list aact) : list aact :=
  match xs with
  | [] => []
  | x :: r => refine1 d x ++ refine (apply (compile d x) d) r
  end.

Lemma untag_effects_ext d0 d s n t f :
  db_cfile d0 s (n, t) = db_cfile d s (n, t) -> untag_effects d0 s n t f = untag_effects d s n t f.
Proof. intro H. unfold untag_effects. rewrite H. reflexivity. Qed.

Lemma deltags_compile d s n f ts : NoDup ts -> forall d0,
  (forall t, In t ts -> db_cfile d0 s (n, t) = db_cfile d s (n, t)) ->
  compile_all d0 (deltags s n f ts) = flat_map (fun t => untag_effects d s n t f) ts.
Proof.
  induction 1 as [|t1 ts Hnin Hnd IH]; intros d0 Hc; [reflexivity|].
  cbn [deltags map compile_all flat_map compile].
  rewrite (untag_effects_ext d0 d) by (apply Hc; left; reflexivity). f_equal.
  apply IH. intros t Ht. rewrite untag_effects_keeps_other.
  - apply Hc. right. exact Ht.
  - intros [= ->]. contradiction.
Qed.

Lemma db_vfile_apply_other es : forall d s k,
  forallb (fun e => negb (is_v_effect e)) es = true -> db_vfile (apply es d) s k = db_vfile d s k.
Proof.
  induction es as [|e es IH]; intros d s k H; [reflexivity|].
  cbn in H. apply andb_true_iff in H. destruct H as [H1 H2].
  rewrite apply_cons, IH by exact H2. rewrite db_vfile_apply1.
  destruct e; cbn in H1; try discriminate; reflexivity.
Qed.

Lemma no_member_nil (l : list str) : (forall t, mem_str t l = false) -> l = [].
Proof.
  destruct l as [|x l]; [reflexivity|]. intro H. specialize (H x). cbn in H.
  rewrite str_eqb_refl in H. discriminate.
Qed.

(* the version-file part of Database.undeclare *)
Definition vpart (s n v f : str) (c : vcontent) : list fseffect :=
  let c' := aremove f c in
  if is_nil c' then [RemoveV s (n, v); Rmdir s n] else [WriteV s (n, v) c'].

Lemma compile_deldecl d s n v f c : db_vfile d s (n, v) = Some c -> amem f c = true ->
  compile d (ADelDecl s n v f) =
  flat_map (fun t => untag_effects d s n t f) (tags_on d s n v f) ++ vpart s n v f c.
Proof. intros H1 H2. cbn [compile]. rewrite H1, H2. reflexivity. Qed.

Lemma declared_vfile d s n v f : is_some (db_decl d s n v f) = true ->
  exists c, db_vfile d s (n, v) = Some c /\ amem f c = true.
Proof.
  unfold db_decl, amem. destruct (db_vfile d s (n, v)) as [c|]; [|discriminate].
  intro H. exists c. split; [reflexivity|]. destruct (alookup f c); [reflexivity|discriminate].
Qed.

Lemma undeclared_compile d s n v f : is_some (db_decl d s n v f) = false -> compile d (ADelDecl s n v f) = [].
Proof.
  unfold db_decl, amem. cbn [compile]. destruct (db_vfile d s (n, v)) as [c|]; [|reflexivity].
  unfold amem. destruct (alookup f c); [discriminate|reflexivity].
Qed.

Lemma compile_deldecl_untagged d s n v f c : db_vfile d s (n, v) = Some c -> amem f c = true ->
  let dk := apply (flat_map (fun t => untag_effects d s n t f) (tags_on d s n v f)) d in
  compile dk (ADelDecl s n v f) = vpart s n v f c.
Proof.
  intros H1 H2 dk.
  assert (Hv : db_vfile dk s (n, v) = Some c).
  { unfold dk. rewrite db_vfile_apply_other by (apply forallb_flat_map; intro; apply untag_effects_c). exact H1. }
  rewrite (compile_deldecl dk s n v f c Hv H2).
  assert (Ht : tags_on dk s n v f = []).
  { apply no_member_nil. intro t. rewrite tags_on_mem. unfold dk.
    rewrite (db_tag_untag_list d s n f _ (tags_on_NoDup d s n v f) d) by reflexivity.
    rewrite !str_eqb_refl. cbn [andb]. rewrite tags_on_mem.
    destruct (opt_str_eqb (db_tag d s n t f) v) eqn:E; [reflexivity|exact E]. }
  rewrite Ht. reflexivity.
Qed.

Lemma refine1_compile d x : compile_all d (refine1 d x) = compile d x.
Proof.
  destruct x as [s n v f r|s n v f|s n t f v|s n t f]; try apply compile_all_one.
  cbn [refine1]. destruct (is_some (db_decl d s n v f)) eqn:E; [|apply compile_all_one].
  destruct (declared_vfile _ _ _ _ _ E) as [c [H1 H2]].
  rewrite compile_all_app, compile_all_one.
  rewrite (deltags_compile d s n f _ (tags_on_NoDup d s n v f) d) by reflexivity.
  rewrite (compile_deldecl_untagged d s n v f c H1 H2). symmetry. apply compile_deldecl; assumption.
Qed.

Lemma refine_compile xs : forall d, compile_all d (refine d xs) = compile_all d xs.
Proof.
  induction xs as [|x xs IH]; intro d; [reflexivity|].
  cbn [refine compile_all]. rewrite compile_all_app, refine1_compile, IH. reflexivity.
Qed.

Fixpoint all_small (d : db) (ys : list aact) : Prop :=
  match ys with
  | [] => True
  | y :: r => nrec (compile d y) <= 1 /\ all_small (apply (compile d y) d) r
  end.

Lemma all_small_app xs : forall d ys,
  all_small d xs -> all_small (apply (compile_all d xs) d) ys -> all_small d (xs ++ ys).
Proof.
  induction xs as [|x xs IH]; intros d ys Hx Hy; [exact Hy|].
  destruct Hx as [H1 H2]. cbn [compile_all] in Hy. rewrite apply_app in Hy.
  split; [exact H1|exact (IH _ _ H2 Hy)].
Qed.

Lemma nrec_untag d s n t f : nrec (untag_effects d s n t f) <= 1.
Proof.
  unfold untag_effects. destruct (db_cfile d s (n, t)) as [c|]; [|cbn; lia].
  destruct (amem f c); [|cbn; lia]. unfold write_or_remove_c. destruct (is_nil _); cbn; lia.
Qed.

Lemma nrec_vpart s n v f c : nrec (vpart s n v f c) <= 1.
Proof. unfold vpart. destruct (is_nil _); cbn; lia. Qed.

Lemma nrec_simple d x : (match x with ADelDecl _ _ _ _ => False | _ => True end) -> nrec (compile d x) <= 1.
Proof.
  destruct x as [s n v f r|s n v f|s n t f v|s n t f]; intro H; [|contradiction| |].
  - cbn [compile]. destruct (db_has_dir d s n); cbn; lia.
  - cbn; lia.
  - apply nrec_untag.
Qed.

Lemma deltags_small s n f ts : forall d, all_small d (deltags s n f ts).
Proof.
  induction ts as [|t ts IH]; intro d; cbn [deltags map all_small]; [exact I|].
  split; [apply nrec_untag|apply IH].
Qed.

Lemma refine1_small d x : all_small d (refine1 d x).
Proof.
  destruct x as [s n v f r|s n v f|s n t f v|s n t f];
    try (cbn [refine1 all_small]; split; [apply nrec_simple; exact I|exact I]).
  cbn [refine1]. destruct (is_some (db_decl d s n v f)) eqn:E.
  - destruct (declared_vfile _ _ _ _ _ E) as [c [H1 H2]].
    apply all_small_app; [apply deltags_small|].
    rewrite (deltags_compile d s n f _ (tags_on_NoDup d s n v f) d) by reflexivity.
    cbn [all_small]. split; [|exact I].
    rewrite (compile_deldecl_untagged d s n v f c H1 H2). apply nrec_vpart.
  - cbn [all_small]. rewrite undeclared_compile by exact E. cbn. split; [lia|exact I].
Qed.

Lemma refine_small xs : forall d, all_small d (refine d xs).
Proof.
  induction xs as [|x xs IH]; intro d; [exact I|].
  cbn [refine]. apply all_small_app; [apply refine1_small|].
  rewrite refine1_compile. apply IH.
Qed.

Lemma small_prefix ys : forall d m, all_small d ys ->
  exists i, i <= length ys /\
    aeq (view (apply (firstn m (compile_all d ys)) d)) (aapply_all (firstn i ys) (view d)).
Proof.
  induction ys as [|y r IH]; intros d m Hs.
  - exists 0. split; [cbn; lia|]. cbn [compile_all]. rewrite firstn_nil. apply aeq_refl.
  - destruct Hs as [H1 H2]. cbn [compile_all]. rewrite firstn_app.
    destruct (Nat.lt_ge_cases m (length (compile d y))) as [Hlt|Hge].
    + replace (m - length (compile d y)) with 0 by lia. cbn [firstn]. rewrite app_nil_r.
      destruct (one_rec_prefix (compile d y) d m H1) as [K|K].
      * exists 0. split; [cbn; lia|]. exact K.
      * exists 1. split; [cbn; lia|]. cbn [firstn]. rewrite aapply_all_cons.
        eapply aeq_trans; [exact K|]. apply compile_refines.
    + rewrite firstn_all2 by lia. rewrite apply_app.
      destruct (IH (apply (compile d y) d) (m - length (compile d y)) H2) as [i [Hi K]].
      exists (S i). split; [cbn; lia|]. cbn [firstn]. rewrite aapply_all_cons.
      eapply aeq_trans; [exact K|]. apply aapply_all_aeq. apply compile_refines.
Qed.

Lemma effect_prefix_is_action_prefix d acts j :
  exists i, i <= length (refine d acts) /\
    aeq (view (apply (firstn j (compile_all d acts)) d)) (aapply_all (firstn i (refine d acts)) (view d)).
Proof.
  rewrite <- (refine_compile acts d). apply small_prefix. apply refine_small.
Qed.

Lemma refine1_ok d x a : act_ok a x -> acts_ok a (refine1 d x).
Proof.
  intro H. destruct x as [s n v f r|s n v f|s n t f v|s n t f]; try (cbn; split; [exact H|exact I]).
  cbn [refine1]. destruct (is_some (db_decl d s n v f)); [|cbn; auto].
  apply acts_ok_trivial. apply Forall_app. split; [|repeat constructor].
  apply Forall_map, Forall_forall. intros t _. exact I.
Qed.

Lemma refine1_view d x : aeq (aapply_all (refine1 d x) (view d)) (aapply x (view d)).
Proof.
  eapply aeq_trans; [apply aeq_sym; apply compile_all_refines|].
  rewrite refine1_compile. apply compile_refines.
Qed.

Lemma refine_ok xs : forall d, acts_ok (view d) xs -> acts_ok (view d) (refine d xs).
Proof.
  induction xs as [|x xs IH]; intros d H; [exact I|]. destruct H as [H1 H2].
  cbn [refine]. apply acts_ok_app. split; [apply refine1_ok; exact H1|].
  apply (acts_ok_aeq _ (view (apply (compile d x) d))).
  - eapply aeq_trans; [apply compile_refines|]. apply aeq_sym. apply refine1_view.
  - apply IH. apply (acts_ok_aeq _ (aapply x (view d))); [|exact H2]. apply aeq_sym. apply compile_refines.
Qed.

Lemma acts_ok_firstn i xs a : acts_ok a xs -> acts_ok a (firstn i xs).
Proof.
  intro H. rewrite <- (firstn_skipn i xs) in H. apply acts_ok_app in H. exact (proj1 H).
Qed.

Lemma no_dangling_effect_prefix d acts j :
  no_dangling (view d) -> acts_ok (view d) acts ->
  no_dangling (view (apply (firstn j (compile_all d acts)) d)).
Proof.
  intros Hn Hok. destruct (effect_prefix_is_action_prefix d acts j) as [i [_ K]].
  apply (no_dangling_aeq _ _ (aeq_sym _ _ K)).
  apply aapply_all_no_dangling; [exact Hn|]. apply acts_ok_firstn. apply refine_ok. exact Hok.
Qed.

Definition same_or (a a0 a1 : adb) : Prop :=
  (forall s n v f, a_decl a s n v f = a_decl a0 s n v f \/ a_decl a s n v f = a_decl a1 s n v f) /\
  (forall s n t f, a_tag a s n t f = a_tag a0 s n t f \/ a_tag a s n t f = a_tag a1 s n t f).

Lemma same_or_left a a0 a1 : aeq a a0 -> same_or a a0 a1.
Proof. intros [_ [H1 H2]]. split; intros; left; auto. Qed.

Lemma same_or_right a a0 a1 : aeq a a1 -> same_or a a0 a1.
Proof. intros [_ [H1 H2]]. split; intros; right; auto. Qed.

(* an action settles a cell of the view (a projection g) on u when it leaves the cell as it is or gives it the value u:
   if every action of a list does, the cell is old up to the first change and final from then on *)
Section Cell.
  Context {X : Type} (g : adb -> X).

  Definition settles (u : X) (x : aact) : Prop := forall b, g (aapply x b) = g b \/ g (aapply x b) = u.

  Lemma settles_all u acts : Forall (settles u) acts -> forall a,
    g (aapply_all acts a) = g a \/ g (aapply_all acts a) = u.
  Proof.
    induction 1 as [|x acts Hx _ IH]; intro a; [left; reflexivity|]. rewrite aapply_all_cons.
    destruct (IH (aapply x a)) as [E|E]; rewrite E; auto.
  Qed.

  Lemma settles_old_or_final u acts : Forall (settles u) acts -> forall a i,
    g (aapply_all (firstn i acts) a) = g a \/ g (aapply_all (firstn i acts) a) = g (aapply_all acts a).
  Proof.
    induction 1 as [|x acts Hx Hr IH]; intros a i.
    - rewrite firstn_nil. left. reflexivity.
    - destruct i as [|i]; [left; reflexivity|]. cbn [firstn]. rewrite !aapply_all_cons.
      destruct (IH (aapply x a) i) as [E|E]; [|right; exact E]. rewrite E.
      destruct (Hx a) as [K|K]; [left; exact K|]. right.
      destruct (settles_all u acts Hr (aapply x a)) as [L|L]; congruence.
  Qed.
End Cell.

(* an action is tame for a key and a value when, if it writes that key at all, it gives it that value *)
Definition tame (fin : option str) (s n t f : str) (x : aact) : Prop :=
  match x with
  | ASetTag s' n' t' f' v' => (s', n', t', f') = (s, n, t, f) -> Some v' = fin
  | ADelTag s' n' t' f' => (s', n', t', f') = (s, n, t, f) -> fin = None
  | ADelDecl _ _ _ _ => fin = None
  | ASetDecl _ _ _ _ _ => True
  end.

Definition tame_d (fin : option vrec) (s n v f : str) (x : aact) : Prop :=
  match x with
  | ASetDecl s' n' v' f' r => (s', n', v', f') = (s, n, v, f) -> Some r = fin
  | ADelDecl s' n' v' f' => (s', n', v', f') = (s, n, v, f) -> fin = None
  | _ => True
  end.

Lemma tame_settles fin s n t f x : tame fin s n t f x -> settles (fun b => a_tag b s n t f) fin x.
Proof.
  intros H b. rewrite a_tag_aapply. destruct x as [s' n' v' f' r|s' n' v' f'|s' n' t' f' v'|s' n' t' f'].
  - left. reflexivity.
  - destruct (_ && _); [right; symmetry; exact H|left; reflexivity].
  - destruct (mem_str s' (apath b)); cbn [andb]; [|left; reflexivity].
    destruct (dkey_eqb (s, n, t, f) (s', n', t', f')) eqn:E; [|left; reflexivity].
    apply dkey_eqb_eq in E. right. apply H. symmetry. exact E.
  - destruct (dkey_eqb (s, n, t, f) (s', n', t', f')) eqn:E; [|left; reflexivity].
    apply dkey_eqb_eq in E. right. symmetry. apply H. symmetry. exact E.
Qed.

Lemma tame_d_settles fin s n v f x : tame_d fin s n v f x -> settles (fun b => a_decl b s n v f) fin x.
Proof.
  intros H b. rewrite a_decl_aapply. destruct x as [s' n' v' f' r|s' n' v' f'|s' n' t' f' v'|s' n' t' f'];
    try (left; reflexivity); destruct (_ && dkey_eqb (s, n, v, f) (s', n', v', f')) eqn:E; try (left; reflexivity);
    apply andb_true_iff in E; destruct E as [_ E]; apply dkey_eqb_eq in E; right.
  - apply H. symmetry. exact E.
  - symmetry. apply H. symmetry. exact E.
Qed.

Lemma tame_old_or_final acts a i :
  (forall s n t f, exists u, Forall (tame u s n t f) acts) ->
  (forall s n v f, exists u, Forall (tame_d u s n v f) acts) ->
  same_or (aapply_all (firstn i acts) a) a (aapply_all acts a).
Proof.
  intros Ht Hd. split; intros s n x f.
  - destruct (Hd s n x f) as [u T].
    apply (settles_old_or_final (fun b => a_decl b s n x f) u), (Forall_impl _ (tame_d_settles u s n x f) T).
  - destruct (Ht s n x f) as [u T].
    apply (settles_old_or_final (fun b => a_tag b s n x f) u), (Forall_impl _ (tame_settles u s n x f) T).
Qed.

(* a list of removals: every key it writes becomes None *)
Definition removal (x : aact) : Prop := match x with ADelDecl _ _ _ _ | ADelTag _ _ _ _ => True | _ => False end.

Lemma removals_old_or_final acts a i : Forall removal acts ->
  same_or (aapply_all (firstn i acts) a) a (aapply_all acts a).
Proof.
  intro R. apply tame_old_or_final; intros; exists None; revert R; apply Forall_impl;
    intros y Hy; destruct y; cbn in *; auto; contradiction.
Qed.

Lemma same_or_aeq a a0 a1 b0 b1 : aeq a0 b0 -> aeq a1 b1 -> same_or a a0 a1 -> same_or a b0 b1.
Proof.
  intros [_ [H1 H2]] [_ [K1 K2]] [S1 S2]. split; intros.
  - rewrite <- H1, <- K1. apply S1.
  - rewrite <- H2, <- K2. apply S2.
Qed.

Lemma same_or_aeq_l a b x y : aeq a b -> same_or b x y -> same_or a x y.
Proof. intros [_ [H1 H2]] [S1 S2]. split; intros; [rewrite H1; apply S1|rewrite H2; apply S2]. Qed.

Lemma action_prefix_old_or_new d x m :
  same_or (view (apply (firstn m (compile d x)) d)) (view d) (aapply x (view d)).
Proof.
  assert (Simple : nrec (compile d x) <= 1 ->
            same_or (view (apply (firstn m (compile d x)) d)) (view d) (aapply x (view d))).
  { intro H. destruct (one_rec_prefix (compile d x) d m H) as [K|K].
    - apply same_or_left. exact K.
    - apply same_or_right. eapply aeq_trans; [exact K|]. apply compile_refines. }
  destruct x as [s n v f r|s n v f|s n t f v|s n t f]; try (apply Simple; apply nrec_simple; exact I).
  (* ADelDecl: the view is that after a prefix of the refined list, which consists of removals *)
  pose proof (small_prefix (refine1 d (ADelDecl s n v f)) d m (refine1_small d _)) as [i [_ K]].
  rewrite refine1_compile in K. apply (same_or_aeq_l _ _ _ _ K).
  apply (same_or_aeq _ _ _ _ _ (aeq_refl _) (refine1_view d (ADelDecl s n v f))).
  apply removals_old_or_final. cbn [refine1]. destruct (is_some _); [|repeat constructor].
  apply Forall_app. split; [|repeat constructor].
  apply Forall_map, Forall_forall. intros t _. exact I.
Qed.

Lemma effect_prefix_between acts : forall d j,
  exists i, i <= length acts /\
    same_or (view (apply (firstn j (compile_all d acts)) d))
            (aapply_all (firstn i acts) (view d)) (aapply_all (firstn (S i) acts) (view d)).
Proof.
  induction acts as [|x r IH]; intros d j.
  - exists 0. split; [cbn; lia|]. cbn [compile_all]. rewrite firstn_nil. apply same_or_left. apply aeq_refl.
  - cbn [compile_all]. rewrite firstn_app.
    destruct (Nat.lt_ge_cases j (length (compile d x))) as [Hlt|Hge].
    + replace (j - length (compile d x)) with 0 by lia. cbn [firstn]. rewrite app_nil_r.
      exists 0. split; [cbn; lia|]. cbn [firstn]. apply action_prefix_old_or_new.
    + rewrite firstn_all2 by lia. rewrite apply_app.
      destruct (IH (apply (compile d x) d) (j - length (compile d x))) as [i [Hi K]].
      exists (S i). split; [cbn; lia|].
      change (firstn (S (S i)) (x :: r)) with (x :: firstn (S i) r).
      change (firstn (S i) (x :: r)) with (x :: firstn i r).
      rewrite !aapply_all_cons.
      eapply same_or_aeq; [| |exact K]; apply aapply_all_aeq; apply compile_refines.
Qed.

(* assignTag comes down to one assignment, to a version that is declared; every other command except declare only
   removes (undeclare --tag with undeclareVersionAndTag: the tag, then the version) *)
Lemma decide_shape_not_declare p a o acts : is_declare o = false -> decide p a o = Ok acts ->
  (exists o' t n v s, o = AssignTag o' t n v /\ a_decl a s n v (o_flavor o') <> None /\
                      acts = [ASetTag s n t (o_flavor o') v]) \/
  Forall removal acts.
Proof.
  intros Ho H. assert (Hd : other_than_declare o) by (destruct o; [discriminate|exact I..]).
  destruct (decide_local _ _ _ _ Hd H) as [[s L] _].
  destruct L as [|t v Hs| | |]; [right; constructor| |right; repeat constructor..].
  (* an assignment: the command is assignTag, the others only remove *)
  destruct o as [o n0 v0 dir table t0|o t0 n0 v0|o t0 n0 vo|o n0 vo|o n0 vo t0 both|o n0 v0];
    cbn [decide op_name op_opts] in *; [discriminate| |exfalso..].
  - left. exists o, t0, n0, v0, s. destruct (assign_acts_ok _ _ _ _ _ _ H) as [s' [r [_ [= -> -> ->]]]]. auto.
  - destruct (unassign_acts_shape _ _ _ _ _ _ H) as [E|[s' E]]; discriminate.
  - destruct (undeclare_acts_ok _ _ _ _ _ H) as [s' [v' [_ E]]]. destruct (o_noaction o); discriminate.
  - unfold undeclare_tag_acts in H. destruct both; cbn [negb] in H.
    + destruct (undeclare_target a o n0 _) as [[s' v']|]; [|discriminate].
      destruct (o_noaction o); [discriminate|]. destruct (opt_str_eqb _ _); discriminate.
    + destruct (unassign_acts_shape _ _ _ _ _ _ H) as [E|[s' E]]; discriminate.
  - rewrite remove_is_undeclare in H. destruct (undeclare_acts_ok _ _ _ _ _ H) as [s' [v' [_ E]]].
    cbn [o_noaction] in E. destruct (o_noaction o); discriminate.
Qed.
