(* C05, extension - lemmas about Model/ShellSession.v: three facts about one call, then the
   inductions over the calls of a session *)
From Eupsv Require Import Base.Base Base.BaseLemmas Model.Shell Model.ShellSession Proofs.ShellLib Proofs.Shell.

Lemma call_in_claim_call cur is_eups fwd new al oldal :
  call_in_claim cur (Call is_eups fwd new al oldal) = true ->
  in_claim is_eups fwd cur new = true /\ al = [] /\ oldal = [].
Proof.
  cbn [call_in_claim]. intros H. apply andb_true_iff in H. destruct H as [H1 H2].
  destruct al; [|discriminate]. destruct oldal; [|discriminate]. repeat split. exact H1.
Qed.

(* what a shell at S holds after sourcing the text of a call made by a process at cur *)
Definition call_shell (S cur : env) (c : apicall) : env :=
  match c with
  | Call is_eups fwd new _ _ => final_env_from S is_eups fwd cur new
  | Failed _ => S
  end.

Lemma call_sourced S cur c :
  call_in_claim cur c = true ->
  exists cmds, call_cmds cur c = Ok cmds /\ sh_source (render cmds) S = Ok (call_shell S cur c).
Proof.
  intros Hc. destruct c as [is_eups fwd new al oldal|lft].
  - destruct (call_in_claim_call _ _ _ _ _ _ Hc) as [Hin [Ea Eo]]. subst al oldal.
    exact (in_claim_sourced S _ _ _ _ _ Hin eq_refl).
  - exists emit_failed. split; [reflexivity|apply failed_changes_nothing].
Qed.

Lemma call_shell_sound S cur c :
  call_in_claim cur c = true -> env_equiv S cur ->
  env_equiv (call_shell S cur c) (call_shell_env S c).
Proof.
  intros Hc He. destruct c as [is_eups fwd new al oldal|lft]; [|intros k; reflexivity].
  destruct (call_in_claim_call _ _ _ _ _ _ Hc) as [Hin _].
  destruct (in_claim_elim _ _ _ _ Hin) as [_ [_ [Hnd [_ Hg]]]].
  exact (final_from_equiv_protect S _ _ _ _ (nodup_keys_NoDup _ Hnd) Hg (baseline_equiv _ _ _ He)).
Qed.

Lemma protect_keeps is_eups S cur new' :
  env_equiv S cur ->
  forallb (fun k => is_eups || negb (is_protected k) || amem k new') (akeys cur) = true ->
  env_equiv (protect is_eups S new') new'.
Proof.
  intros He H k. rewrite alookup_protect. destruct (alookup k new') as [v|] eqn:En; [reflexivity|].
  destruct (negb is_eups && is_protected k) eqn:Ep; [|reflexivity]. rewrite (He k).
  destruct (alookup k cur) as [v|] eqn:Ec; [|reflexivity]. exfalso.
  apply alookup_In, (in_map fst) in Ec. pose proof (proj1 (forallb_forall _ _) H _ Ec) as Hk. cbn [fst] in Hk.
  apply andb_true_iff in Ep. destruct Ep as [Ee Epk].
  unfold amem in Hk. rewrite En, Epk in Hk. destruct is_eups; discriminate.
Qed.

Lemma call_shell_keeps S cur c :
  call_in_claim cur c = true -> call_keeps cur c = true -> env_equiv S cur ->
  env_equiv (call_shell S cur c) (call_after c).
Proof.
  intros Hc Kc He k. rewrite (call_shell_sound S cur c Hc He k).
  destruct c as [is_eups fwd new al oldal|lft]; [|discriminate]. exact (protect_keeps _ _ _ _ He Kc k).
Qed.

Fixpoint steps_sound (cur : env) (steps : list (env * str)) (calls : list apicall) : Prop :=
  match steps, calls with
  | [], [] => True
  | (b, text) :: s, c :: r =>
      b = cur /\
      (exists env', sh_source text b = Ok env' /\ env_equiv env' (call_shell_env b c)) /\
      steps_sound (call_after c) s r
  | _, _ => False
  end.

Lemma api_session_sound_lemma calls : forall cur,
  session_in_claim cur calls = true ->
  exists steps, api_session cur calls = Ok steps /\ steps_sound cur steps calls.
Proof.
  induction calls as [|c r IH]; intros cur H.
  - exists []. split; [reflexivity|exact I].
  - cbn [session_in_claim] in H. apply andb_true_iff in H. destruct H as [Hc Hr].
    destruct (IH _ Hr) as [rest [Er Sr]]. destruct (call_sourced cur cur c Hc) as [cmds [Em Es]].
    exists ((cur, render cmds) :: rest). split.
    + cbn [api_session]. rewrite Em. cbn [bind]. rewrite Er. reflexivity.
    + cbn [steps_sound]. split; [reflexivity|]. split; [|exact Sr].
      exists (call_shell cur cur c). split; [exact Es|].
      exact (call_shell_sound cur cur c Hc (fun k => eq_refl)).
Qed.

(* what one shell that sources the texts of all the calls holds at the end *)
Fixpoint session_shell (S cur : env) (calls : list apicall) : env :=
  match calls with
  | [] => S
  | c :: r => session_shell (call_shell S cur c) (call_after c) r
  end.

Lemma api_session_chain calls : forall cur S steps env',
  session_in_claim cur calls = true -> api_session cur calls = Ok steps ->
  session_shell S cur calls = env' -> sh_chain (map snd steps) S = Ok env'.
Proof.
  induction calls as [|c r IH]; intros cur S steps env' H E <-; cbn [api_session] in E.
  - injection E as <-. reflexivity.
  - cbn [session_in_claim] in H. apply andb_true_iff in H. destruct H as [Hc Hr].
    destruct (call_sourced S cur c Hc) as [cmds [Em Es]]. rewrite Em in E. cbn [bind] in E.
    destruct (api_session (call_after c) r) as [rest|] eqn:Er; [|discriminate]. injection E as <-.
    cbn [map snd sh_chain]. rewrite Es. cbn [bind]. exact (IH _ _ _ _ Hr Er eq_refl).
Qed.

Lemma session_shell_final calls : forall cur S,
  session_in_claim cur calls = true -> session_keeps cur calls = true -> env_equiv S cur ->
  env_equiv (session_shell S cur calls) (session_final cur calls).
Proof.
  induction calls as [|c r IH]; intros cur S H K He; [exact He|].
  cbn [session_in_claim] in H. apply andb_true_iff in H. destruct H as [Hc Hr].
  cbn [session_keeps] in K. apply andb_true_iff in K. destruct K as [Kc Kr].
  exact (IH _ _ Hr Kr (call_shell_keeps S cur c Hc Kc He)).
Qed.

Lemma api_session_chained_lemma calls : forall cur S,
  session_in_claim cur calls = true -> session_keeps cur calls = true -> env_equiv S cur ->
  exists steps env',
    api_session cur calls = Ok steps /\
    sh_chain (map snd steps) S = Ok env' /\
    env_equiv env' (session_final cur calls).
Proof.
  intros cur S H K He. destruct (api_session_sound_lemma calls cur H) as [steps [Ea _]].
  exists steps, (session_shell S cur calls). split; [exact Ea|].
  split; [exact (api_session_chain calls cur S steps _ H Ea eq_refl)|exact (session_shell_final calls cur S H K He)].
Qed.
