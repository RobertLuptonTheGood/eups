(* Lemmas for the C05 development that are not about the shell model: a few facts on booleans and
   lists, and lookups in association lists through folds, filters and appends. *)
From Eupsv Require Import Base.Base Base.BaseLemmas Model.Shell.

Lemma and_keep (A B : Prop) : A -> (A -> B) -> A /\ B.
Proof. tauto. Qed.

Lemma fold_left_map {A B C} (f : A -> C -> A) (g : B -> C) l : forall a,
  fold_left f (map g l) a = fold_left (fun a x => f a (g x)) l a.
Proof. induction l as [|x l IH]; intros a; [reflexivity|exact (IH _)]. Qed.

Lemma amem_alookup {V} k (m : amap V) : amem k m = match alookup k m with Some _ => true | None => false end.
Proof. reflexivity. Qed.

Lemma mem_str_akeys {V} k (m : amap V) : mem_str k (akeys m) = amem k m.
Proof.
  unfold amem. induction m as [|[k1 v1] m IH]; [reflexivity|].
  cbn [akeys map fst mem_str alookup]. destruct (str_eqb k k1); [reflexivity|exact IH].
Qed.

Lemma alookup_notin {V} k (m : amap V) : ~ In k (akeys m) -> alookup k m = None.
Proof.
  intros Hn. apply mem_str_not_In in Hn. rewrite mem_str_akeys in Hn. unfold amem in Hn.
  destruct (alookup k m); [discriminate|reflexivity].
Qed.

Lemma alookup_filter_key {V} (q : str * V -> bool) (q' : str -> bool) k (m : amap V) :
  (forall kv, q kv = q' (fst kv)) ->
  alookup k (filter q m) = if q' k then alookup k m else None.
Proof.
  intros Hq. induction m as [|[k1 v1] m IH].
  - cbn. destruct (q' k); reflexivity.
  - cbn [filter]. rewrite Hq. cbn [fst]. destruct (q' k1) eqn:E1.
    + cbn [alookup]. destruct (str_eqb_spec k k1) as [->|Hne].
      * rewrite E1. reflexivity.
      * exact IH.
    + rewrite IH. cbn [alookup]. destruct (str_eqb_spec k k1) as [->|Hne].
      * rewrite E1. reflexivity.
      * reflexivity.
Qed.

Lemma nodup_keys_NoDup l : nodup_keys l = true -> NoDup l.
Proof.
  induction l as [|k l IH]; cbn [nodup_keys]; intros H; [constructor|].
  apply andb_true_iff in H. destruct H as [H1 H2].
  constructor; [|exact (IH H2)].
  apply negb_true_iff in H1. apply mem_str_not_In. exact H1.
Qed.

Definition set_all (kvs : amap str) (e : amap str) : amap str :=
  fold_left (fun e kv => aset (fst kv) (snd kv) e) kvs e.

(* with a key bound twice the last assignment would win, while alookup reads the first binding *)
Lemma alookup_set_all_filter (q : str * str -> bool) k (m e : amap str) :
  NoDup (akeys m) ->
  alookup k (set_all (filter q m) e) =
  match alookup k m with Some v => if q (k, v) then Some v else alookup k e | None => alookup k e end.
Proof.
  revert e. induction m as [|[k1 v1] m IH]; intros e Hnd; [reflexivity|].
  inversion Hnd as [|? ? Hn Hnd']; subst. apply alookup_notin in Hn.
  cbn [filter]. destruct (q (k1, v1)) eqn:E.
  - change (set_all ((k1, v1) :: filter q m) e) with (set_all (filter q m) (aset k1 v1 e)).
    rewrite (IH _ Hnd'). cbn [alookup]. destruct (str_eqb_spec k k1) as [->|Hne].
    + rewrite Hn, E. apply alookup_aset_same.
    + rewrite (alookup_aset_other _ _ _ _ Hne). reflexivity.
  - rewrite (IH _ Hnd'). cbn [alookup].
    destruct (str_eqb_spec k k1) as [->|_]; [rewrite Hn, E|]; reflexivity.
Qed.

Definition remove_all (ks : list str) (e : amap str) : amap str :=
  fold_left (fun e k => aremove k e) ks e.

Lemma alookup_remove_all k ks (e : amap str) :
  alookup k (remove_all ks e) = if mem_str k ks then None else alookup k e.
Proof.
  revert e. induction ks as [|k1 t IH]; intros e; [reflexivity|].
  unfold remove_all in *. cbn [fold_left mem_str]. rewrite IH.
  destruct (str_eqb_spec k k1) as [->|Hne].
  - destruct (mem_str k1 t); [reflexivity|]. apply alookup_aremove_same.
  - destruct (mem_str k t); [reflexivity|]. apply alookup_aremove_other. exact Hne.
Qed.

