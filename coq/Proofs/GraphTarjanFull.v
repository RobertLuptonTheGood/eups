(* Tarjan's algorithm as written in utils.stronglyConnectedComponents is correct on every graph
   (a python dict: distinct keys) that is closed under successors: [scc g] answers, and the answer
   is the partition of the nodes into strongly connected components, listed in reverse topological
   order (every edge stays inside its component or goes to a component listed earlier).

   The proof follows the usual invariant (Chen, Cohen, Levy, Merz, Thery): the numbered nodes are
   split into the stack and the finished components; the number of a node is its position in the
   list of numbered nodes (low is filled in visiting order and never shrinks); on the stack an earlier
   node reaches every later one; every stack node reaches a node that is still being visited
   ([gr], a ghost list) at or below it; the low link of a stack node is the number of a stack node it
   reaches; no finished node has an unnumbered successor. *)
From Coq Require Import Lia Permutation.
From Eupsv Require Import Base.Base Base.BaseLemmas Model.Graph Proofs.GraphLib Proofs.GraphLayers
     Proofs.GraphTarjan Proofs.GraphPartition Proofs.GraphTarjanLib.

Section Tarjan.
  Variable g : graph.
  Hypothesis Hnd : NoDup (gkeys g).
  Hypothesis Hclosed : closed_graph g.

  Definition lw (st : tstate) (x : node) : option nat := low_get (low st) x.

  Record Inv (st : tstate) (gr : list node) : Prop := {
    i_nodupD : NoDup (dom st);
    i_keys : incl (dom st) (gkeys g);
    i_perm : Permutation (dom st) (stack st ++ concat (comps st));
    i_gr : incl gr (stack st);
    i_lowC : forall x, In x (concat (comps st)) -> lw st x = Some (length g);
    i_lowS : forall x, In x (stack st) ->
               exists z, In z (stack st) /\ lw st x = Some (idx (dom st) z) /\
                         idx (dom st) z <= idx (dom st) x /\ gstar g x z;
    i_chain : forall x y, In x (stack st) -> In y (stack st) -> idx (dom st) x <= idx (dom st) y -> gstar g x y;
    i_togray : forall y, In y (stack st) ->
               exists z, In z gr /\ idx (dom st) z <= idx (dom st) y /\ gstar g y z;
    i_nbw : forall x y, In x (dom st) -> ~ In x gr -> gedge g x y -> In y (dom st);
    i_sc : forall c, In c (comps st) -> c <> [] /\ forall a b, In a c -> In b c -> gstar g a b;
    i_topo : forall x y, In x (concat (comps st)) -> gedge g x y ->
               In y (concat (comps st)) /\ cidx (comps st) y <= cidx (comps st) x
  }.

  Lemma inv_stack_dom st gr x : Inv st gr -> In x (stack st) -> In x (dom st).
  Proof.
    intros I H. apply (Permutation_in x (Permutation_sym (i_perm _ _ I))). apply in_or_app. auto.
  Qed.

  Lemma inv_comps_dom st gr x : Inv st gr -> In x (concat (comps st)) -> In x (dom st).
  Proof.
    intros I H. apply (Permutation_in x (Permutation_sym (i_perm _ _ I))). apply in_or_app. auto.
  Qed.

  Lemma inv_dom_split st gr x : Inv st gr -> In x (dom st) -> In x (stack st) \/ In x (concat (comps st)).
  Proof. intros I H. apply in_app_iff. apply (Permutation_in x (i_perm _ _ I)), H. Qed.

  Lemma inv_nodup_sc st gr : Inv st gr -> NoDup (stack st ++ concat (comps st)).
  Proof. intros I. eapply Permutation_NoDup; [apply (i_perm _ _ I) | apply (i_nodupD _ _ I)]. Qed.

  Lemma inv_nodupS st gr : Inv st gr -> NoDup (stack st).
  Proof. intros I. apply inv_nodup_sc, NoDup_app_inv in I. tauto. Qed.

  Lemma inv_nodupC st gr : Inv st gr -> NoDup (concat (comps st)).
  Proof. intros I. apply inv_nodup_sc, NoDup_app_inv in I. tauto. Qed.

  Lemma inv_disj st gr x : Inv st gr -> In x (stack st) -> ~ In x (concat (comps st)).
  Proof. intros I. apply inv_nodup_sc, NoDup_app_inv in I. apply I. Qed.

  Lemma inv_len st gr : Inv st gr -> length (dom st) <= length g.
  Proof.
    intros I. rewrite <- (map_length fst g). apply NoDup_incl_length; [apply (i_nodupD _ _ I) | apply (i_keys _ _ I)].
  Qed.

  Lemma inv_empty_stack st : Inv st [] -> stack st = [].
  Proof.
    intros I. destruct (stack st) as [|y r] eqn:E; [reflexivity|].
    destruct (i_togray _ _ I y) as [z [[] _]]. rewrite E. left. reflexivity.
  Qed.

  Lemma lw_dom st x v : lw st x = Some v -> In x (dom st).
  Proof. apply low_get_Some_In. Qed.

  Lemma dom_lw st x : In x (dom st) -> exists v, lw st x = Some v.
  Proof.
    intros H. unfold lw. destruct (low_get (low st) x) as [v|] eqn:E; [eauto|].
    apply low_get_None in E. contradiction.
  Qed.

  Lemma inv_low_le st gr x v : Inv st gr -> In x (stack st) -> lw st x = Some v -> v <= idx (dom st) x /\ v < length g.
  Proof.
    intros I Hx L. destruct (i_lowS _ _ I x Hx) as [z [_ [Lz [Le _]]]]. rewrite L in Lz. inversion Lz. subst v.
    split; [exact Le|]. pose proof (idx_lt (dom st) x (inv_stack_dom _ _ _ I Hx)). pose proof (inv_len _ _ I). lia.
  Qed.

  Lemma gedge_succs n ss t : succs_of g n = Some ss -> gedge g n t -> In t ss.
  Proof.
    intros E [ss' [I1 I2]]. rewrite (In_succs_of g n ss' Hnd I1) in E. inversion E. subst. exact I2.
  Qed.

  Lemma Inv_push st gr n :
    Inv st gr -> In n (gkeys g) -> ~ In n (dom st) -> (forall x, In x (stack st) -> gstar g x n) ->
    Inv (mkT (low_set (low st) n (length (low st))) (stack st ++ [n]) (comps st)) (gr ++ [n]).
  Proof.
    intros I K Nn R.
    assert (Dom : dom (mkT (low_set (low st) n (length (low st))) (stack st ++ [n]) (comps st)) = dom st ++ [n]).
    { unfold dom. cbn [low]. apply low_set_dom_new, Nn. }
    assert (Len : length (low st) = length (dom st)) by (unfold dom; rewrite map_length; reflexivity).
    assert (Old : forall x, In x (dom st) -> idx (dom st ++ [n]) x = idx (dom st) x) by (intros; apply idx_app_l; assumption).
    assert (New : idx (dom st ++ [n]) n = length (dom st)) by (apply idx_snoc_new, Nn).
    assert (LwOld : forall x, x <> n -> lw (mkT (low_set (low st) n (length (low st))) (stack st ++ [n]) (comps st)) x = lw st x).
    { intros x Ne. unfold lw. cbn [low]. apply low_get_set_other, Ne. }
    constructor; rewrite ?Dom; cbn [stack comps].
    - apply NoDup_snoc; [apply (i_nodupD _ _ I) | exact Nn].
    - intros x H. apply in_app_iff in H as [H | [<- | []]]; [apply (i_keys _ _ I), H | exact K].
    - rewrite <- app_assoc. eapply Permutation_trans; [apply Permutation_app_tail, (i_perm _ _ I)|].
      rewrite <- app_assoc. apply Permutation_app_head, Permutation_app_comm.
    - intros x H. apply in_app_iff in H as [H | H]; apply in_or_app; [left; apply (i_gr _ _ I), H | right; exact H].
    - intros x H. rewrite LwOld; [apply (i_lowC _ _ I), H|]. intros ->. apply Nn. eapply inv_comps_dom; eauto.
    - intros x H. apply in_app_iff in H as [H | [<- | []]].
      + destruct (i_lowS _ _ I x H) as [z [Hz [Lz [Le Rz]]]]. exists z.
        split; [apply in_or_app; left; exact Hz|].
        rewrite !Old by (eapply inv_stack_dom; eauto).
        rewrite LwOld; [auto|]. intros ->. apply Nn. eapply inv_stack_dom; eauto.
      + exists n. split; [apply in_or_app; right; left; reflexivity|].
        split; [|split; [lia | apply gs_refl]].
        unfold lw. cbn [low]. rewrite low_get_set_same, New, Len. reflexivity.
    - intros x y Hx Hy. apply in_app_iff in Hx as [Hx | [<- | []]]; apply in_app_iff in Hy as [Hy | [<- | []]].
      + rewrite !Old by (eapply inv_stack_dom; eauto). apply (i_chain _ _ I); assumption.
      + intros _. apply R, Hx.
      + rewrite New, Old by (eapply inv_stack_dom; eauto). intros Le.
        pose proof (idx_lt (dom st) y (inv_stack_dom _ _ _ I Hy)). lia.
      + intros _. apply gs_refl.
    - intros y H. apply in_app_iff in H as [H | [<- | []]].
      + destruct (i_togray _ _ I y H) as [z [Hz [Le Rz]]]. exists z. split; [apply in_or_app; left; exact Hz|].
        rewrite !Old; [auto | eapply inv_stack_dom; eauto | eapply inv_stack_dom; [exact I | apply (i_gr _ _ I), Hz]].
      + exists n. split; [apply in_or_app; right; left; reflexivity|]. split; [lia | apply gs_refl].
    - intros x y Hx Ng E. apply in_or_app. left.
      apply in_app_iff in Hx as [Hx | [<- | []]].
      + apply (i_nbw _ _ I x y Hx); [|exact E]. intros J. apply Ng. apply in_or_app. auto.
      + exfalso. apply Ng. apply in_or_app. right. left. reflexivity.
    - apply (i_sc _ _ I).
    - apply (i_topo _ _ I).
  Qed.

  Lemma Inv_low st gr n v :
    Inv st gr -> In n (stack st) ->
    (exists z, In z (stack st) /\ v = idx (dom st) z /\ idx (dom st) z <= idx (dom st) n /\ gstar g n z) ->
    Inv (mkT (low_set (low st) n v) (stack st) (comps st)) gr.
  Proof.
    intros I Hn [z [Hz [Ev [Le Rz]]]].
    assert (Dn : In n (dom st)) by (eapply inv_stack_dom; eauto).
    assert (Dom : dom (mkT (low_set (low st) n v) (stack st) (comps st)) = dom st).
    { unfold dom. cbn [low]. apply low_set_dom_in, Dn. }
    assert (LwOld : forall x, x <> n -> lw (mkT (low_set (low st) n v) (stack st) (comps st)) x = lw st x).
    { intros x Ne. unfold lw. cbn [low]. apply low_get_set_other, Ne. }
    constructor; rewrite ?Dom; cbn [stack comps]; try apply I.
    - intros x H. rewrite LwOld; [apply (i_lowC _ _ I), H|]. intros ->. apply (inv_disj _ _ _ I Hn H).
    - intros x H. destruct (node_eq_dec x n) as [-> | Ne].
      + exists z. split; [exact Hz|]. split; [|auto]. unfold lw. cbn [low]. rewrite low_get_set_same, Ev. reflexivity.
      + rewrite LwOld by exact Ne. apply (i_lowS _ _ I), H.
  Qed.

  (* the frame of one call of visit:
     S0, D0 are the stack and the numbered nodes when n was met; since then n and [nd] were numbered
     and n and [above] are on the stack *)
  Section Frame.
    Variables (st : tstate) (S0 D0 above nd : list node) (n : node).
    Hypothesis Fs : stack st = S0 ++ n :: above.
    Hypothesis Fd : dom st = D0 ++ n :: nd.
    Hypothesis Fa : incl above nd.
    Hypothesis F0 : incl S0 D0.
    Hypothesis Fn : NoDup (dom st).

    Lemma fr_n_notin : ~ In n D0.
    Proof. rewrite Fd in Fn. apply NoDup_remove_2 in Fn. intros H. apply Fn. apply in_or_app. auto. Qed.

    Lemma fr_nd_notin y : In y nd -> ~ In y D0 /\ y <> n.
    Proof.
      intros H. rewrite Fd in Fn. apply NoDup_app_inv in Fn as [_ [Fn2 Fn3]]. split.
      - intros J. apply (Fn3 y J). right. exact H.
      - intros ->. inversion Fn2. contradiction.
    Qed.

    Lemma fr_idx_n : idx (dom st) n = length D0.
    Proof. rewrite Fd. rewrite idx_app_r by apply fr_n_notin. simpl. rewrite node_eqb_refl. lia. Qed.

    Lemma fr_idx_old t : In t D0 -> idx (dom st) t = idx D0 t /\ idx (dom st) t < length D0.
    Proof. intros H. rewrite Fd, idx_app_l by exact H. split; [reflexivity | apply idx_lt, H]. Qed.

    Lemma fr_idx_new y : In y nd -> length D0 < idx (dom st) y.
    Proof.
      intros H. destruct (fr_nd_notin y H) as [H1 H2]. rewrite Fd, idx_app_r by exact H1. simpl.
      apply node_eqb_neq in H2. rewrite H2. lia.
    Qed.

    Lemma fr_below z : In z (stack st) -> idx (dom st) z < length D0 -> In z S0.
    Proof.
      intros Hz Hlt. rewrite Fs in Hz. apply in_app_iff in Hz as [Hz | [<- | Hz]]; [exact Hz | |].
      - rewrite fr_idx_n in Hlt. lia.
      - pose proof (fr_idx_new z (Fa z Hz)). lia.
    Qed.

    Lemma fr_above_idx y : In y (n :: above) -> length D0 <= idx (dom st) y.
    Proof. intros [<- | H]; [rewrite fr_idx_n; lia | pose proof (fr_idx_new y (Fa y H)); lia]. Qed.

    Lemma fr_S0_stack x : In x S0 -> In x (stack st).
    Proof. intros H. rewrite Fs. apply in_or_app. auto. Qed.

    Lemma fr_n_stack : In n (stack st).
    Proof. rewrite Fs. apply in_or_app. right. left. reflexivity. Qed.

    Lemma fr_above_stack y : In y above -> In y (stack st).
    Proof. intros H. rewrite Fs. apply in_or_app. right. right. exact H. Qed.

    Lemma fr_gr_old gr0 z : In z (gr0 ++ [n]) -> idx (dom st) z < length D0 -> In z gr0.
    Proof.
      intros Hz Hlt. apply in_app_iff in Hz as [Hz | [<- | []]]; [exact Hz|]. rewrite fr_idx_n in Hlt. lia.
    Qed.

    Lemma fr_n_dom : In n (dom st).
    Proof. rewrite Fd. apply in_or_app. right. left. reflexivity. Qed.
  End Frame.

  (* once the successors of n are numbered, n need not be being visited for [i_nbw] *)
  Lemma nbw_without st gr0 n : Inv st (gr0 ++ [n]) -> (forall t, gedge g n t -> In t (dom st)) ->
    forall x y, In x (dom st) -> ~ In x gr0 -> gedge g x y -> In y (dom st).
  Proof.
    intros I Hvis x y Hx Ng E. destruct (node_eq_dec x n) as [-> | Ne]; [apply Hvis, E|].
    apply (i_nbw _ _ I x y Hx); [|exact E]. intros J. apply in_app_iff in J as [J | [J | []]]; [contradiction | congruence].
  Qed.

  (* n is finished but is not a root *)
  Lemma Inv_ungray st gr0 n S0 D0 above nd :
    Inv st (gr0 ++ [n]) -> stack st = S0 ++ n :: above -> dom st = D0 ++ n :: nd -> incl above nd ->
    incl S0 D0 -> incl gr0 S0 ->
    (forall t, gedge g n t -> In t (dom st)) ->
    (forall v, lw st n = Some v -> v < length D0) ->
    Inv st gr0.
  Proof.
    intros I Fs Fd Fa F0 Fg Hvis Hlow.
    pose proof (i_nodupD _ _ I) as Fn.
    pose proof (fr_gr_old _ _ _ _ Fd Fn gr0) as GrOld.
    constructor; try apply I.
    - intros x H. apply (fr_S0_stack _ _ _ _ Fs), Fg, H.
    - intros y Hy. destruct (i_togray _ _ I y Hy) as [z [Hz [Le Rz]]].
      apply in_app_iff in Hz as [Hz | [<- | []]]; [exists z; auto|].
      pose proof (fr_n_stack _ _ _ _ Fs) as Sn.
      destruct (i_lowS _ _ I n Sn) as [z1 [Hz1 [L1 [Le1 R1]]]].
      specialize (Hlow _ L1).
      pose proof (fr_below _ _ _ _ _ _ Fs Fd Fa Fn z1 Hz1 Hlow) as Z1.
      destruct (i_togray _ _ I z1 Hz1) as [z2 [Hz2 [Le2 R2]]].
      assert (Z2 : In z2 gr0) by (apply GrOld; [exact Hz2 | lia]).
      exists z2. split; [exact Z2|]. split; [lia|].
      eapply gstar_trans; [exact Rz|]. eapply gstar_trans; [exact R1 | exact R2].
    - exact (nbw_without st gr0 n I Hvis).
  Qed.

  Lemma reach_top st gr0 n S0 D0 above nd :
    Inv st (gr0 ++ [n]) -> stack st = S0 ++ n :: above -> dom st = D0 ++ n :: nd ->
    incl S0 D0 -> incl gr0 S0 ->
    forall x, In x (stack st) -> gstar g x n.
  Proof.
    intros I Fs Fd F0 Fg x Hx. pose proof (i_nodupD _ _ I) as Fn.
    destruct (i_togray _ _ I x Hx) as [z [Hz [Le Rz]]]. eapply gstar_trans; [exact Rz|].
    apply (i_chain _ _ I); [apply (i_gr _ _ I), Hz | apply (fr_n_stack _ _ _ _ Fs)|].
    rewrite (fr_idx_n _ _ _ _ Fd Fn). apply in_app_iff in Hz as [Hz | [<- | []]].
    - pose proof (fr_idx_old _ _ _ _ Fd z (F0 z (Fg z Hz))). lia.
    - rewrite (fr_idx_n _ _ _ _ Fd Fn). lia.
  Qed.

  (* n is a root: its component leaves the stack *)
  Lemma cidx_last (cs : list (list node)) (c : list node) x : In x c -> ~ In x (concat cs) -> cidx (cs ++ [c]) x = length cs.
  Proof.
    intros H N. rewrite cidx_app_r by exact N. simpl. apply mem_node_In in H. rewrite H. apply Nat.add_0_r.
  Qed.

  Lemma Inv_emit st gr0 n S0 D0 above nd :
    Inv st (gr0 ++ [n]) -> stack st = S0 ++ n :: above -> dom st = D0 ++ n :: nd -> incl above nd ->
    incl S0 D0 -> incl gr0 S0 ->
    (forall t, gedge g n t -> In t (dom st)) ->
    (forall y t, In y (n :: above) -> In t S0 -> ~ gedge g y t) ->
    Inv (mkT (fold_left (fun lw it => low_set lw it (length g)) (n :: above) (low st)) S0
             (comps st ++ [n :: above])) gr0.
  Proof.
    intros I Fs Fd Fa F0 Fg Hvis Hno.
    pose proof (i_nodupD _ _ I) as Fn.
    set (cmpn := n :: above) in *.
    set (st' := mkT _ _ _).
    assert (CompS : forall x, In x cmpn -> In x (stack st)).
    { intros x H. rewrite Fs. apply in_or_app. right. exact H. }
    assert (Dom : dom st' = dom st).
    { unfold dom, st'. cbn [low]. apply fold_low_dom. intros x H. eapply inv_stack_dom; eauto. }
    assert (LwIn : forall x, In x cmpn -> lw st' x = Some (length g)).
    { intros x H. unfold lw, st'. cbn [low]. apply fold_low_get_in, H. }
    assert (LwOut : forall x, ~ In x cmpn -> lw st' x = lw st x).
    { intros x H. unfold lw, st'. cbn [low]. apply fold_low_get_out, H. }
    pose proof (inv_nodupS _ _ I) as NDS. rewrite Fs in NDS. apply NoDup_app_inv in NDS as [ND0 [NDc Disj]].
    assert (S0S : forall x, In x S0 -> In x (stack st)) by (intros x H; rewrite Fs; apply in_or_app; auto).
    assert (S0lt : forall x, In x S0 -> idx (dom st) x < length D0).
    { intros x H. apply (fr_idx_old _ _ _ _ Fd x (F0 x H)). }
    pose proof (fr_gr_old _ _ _ _ Fd Fn gr0) as GrOld.
    assert (CC : concat (comps st ++ [cmpn]) = concat (comps st) ++ cmpn).
    { rewrite concat_app. simpl. rewrite app_nil_r. reflexivity. }
    assert (Stk : stack st' = S0) by reflexivity.
    assert (Cmp : comps st' = comps st ++ [cmpn]) by reflexivity.
    constructor; rewrite ?Dom, ?Stk, ?Cmp.
    - exact Fn.
    - apply (i_keys _ _ I).
    - rewrite CC. eapply Permutation_trans; [apply (i_perm _ _ I)|]. rewrite Fs.
      rewrite <- app_assoc. apply Permutation_app_head, Permutation_app_comm.
    - exact Fg.
    - intros x H. rewrite CC in H. destruct (in_dec node_eq_dec x cmpn) as [J | J]; [apply LwIn, J|].
      rewrite LwOut by exact J. apply (i_lowC _ _ I). apply in_app_iff in H as [H | H]; [exact H | contradiction].
    - intros x H. rewrite LwOut by (apply Disj, H).
      destruct (i_lowS _ _ I x (S0S x H)) as [z [Hz [Lz [Le Rz]]]]. exists z. split; [|auto].
      apply (fr_below _ _ _ _ _ _ Fs Fd Fa Fn z Hz). pose proof (S0lt x H). lia.
    - intros x y Hx Hy. apply (i_chain _ _ I); auto.
    - intros y H. destruct (i_togray _ _ I y (S0S y H)) as [z [Hz [Le Rz]]]. exists z. split; [|auto].
      apply GrOld; [exact Hz|]. pose proof (S0lt y H). lia.
    - exact (nbw_without st gr0 n I Hvis).
    - intros c H. apply in_app_iff in H as [H | [<- | []]]; [apply (i_sc _ _ I), H|].
      split; [discriminate|]. intros a b Ha Hb.
      assert (Sn : In n (stack st)) by (apply CompS; left; reflexivity).
      eapply gstar_trans with (b := n).
      + exact (reach_top st gr0 n S0 D0 above nd I Fs Fd F0 Fg a (CompS a Ha)).
      + apply (i_chain _ _ I); [exact Sn | apply CompS, Hb|].
        rewrite (fr_idx_n _ _ _ _ Fd Fn). apply (fr_above_idx _ _ _ _ _ Fd Fa Fn b Hb).
    - intros x y Hx E. rewrite CC in Hx. rewrite CC.
      apply in_app_iff in Hx as [Hx | Hx].
      + destruct (i_topo _ _ I x y Hx E) as [Hy Le]. split; [apply in_or_app; left; exact Hy|].
        rewrite !cidx_app_l by assumption. exact Le.
      + assert (Nx : ~ In x (concat (comps st))) by (apply (inv_disj _ _ _ I), CompS, Hx).
        rewrite (cidx_last _ cmpn x Hx Nx).
        assert (Dy : In y (dom st)).
        { apply (nbw_without st gr0 n I Hvis x y); [eapply inv_stack_dom; [exact I | apply CompS, Hx] | | exact E].
          intros J. exact (Disj x (Fg x J) Hx). }
        destruct (inv_dom_split _ _ _ I Dy) as [Sy | Cy].
        * rewrite Fs in Sy. apply in_app_iff in Sy as [Sy | Sy]; [exfalso; apply (Hno x y Hx Sy E)|].
          assert (Ny : ~ In y (concat (comps st))) by (apply (inv_disj _ _ _ I), CompS, Sy).
          split; [apply in_or_app; right; exact Sy|]. rewrite (cidx_last _ cmpn y Sy Ny). lia.
        * split; [apply in_or_app; left; exact Cy|]. rewrite cidx_app_l by exact Cy.
          pose proof (cidx_lt _ _ Cy). lia.
  Qed.

  Record Post (gr : list node) (s : node) (st st' : tstate) : Prop := {
    p_inv : Inv st' gr;
    p_dom : exists e, dom st' = dom st ++ e;
    p_stack : exists ns, stack st' = stack st ++ ns /\ (forall y, In y ns -> ~ In y (dom st)) /\
                (forall v y t, lw st' s = Some v -> In y ns -> In t (stack st) -> gedge g y t ->
                               v <= idx (dom st') t);
    p_in : In s (dom st');
    p_low : forall x, In x (stack st) -> lw st' x = lw st x
  }.

  Definition rec_ok (rec : node -> tstate -> res tstate) : Prop :=
    forall gr s st st', rec s st = Ok st' -> Inv st gr -> In s (gkeys g) ->
      (forall x, In x (stack st) -> gstar g x s) -> Post gr s st st'.

  (* the loop over the successors of n *)
  Definition L (gr0 S0 D0 : list node) (n : node) (st : tstate) (v : nat) : Prop :=
    Inv st (gr0 ++ [n]) /\
    exists above nd, stack st = S0 ++ n :: above /\ dom st = D0 ++ n :: nd /\ incl above nd /\
      lw st n = Some v /\
      (forall y t, In y above -> In t S0 -> gedge g y t -> v <= idx (dom st) t).

  Lemma gedge_key a b : gedge g a b -> In b (gkeys g).
  Proof. intros [ss [I1 I2]]. eapply Hclosed; eauto. Qed.

  Lemma loop rec gr0 S0 D0 n : rec_ok rec -> incl S0 D0 -> incl gr0 S0 ->
    forall ss st v st',
      (forall s, In s ss -> gedge g n s) ->
      L gr0 S0 D0 n st v ->
      visit_succs rec n ss st = Ok st' ->
      exists v', L gr0 S0 D0 n st' v' /\ v' <= v /\
        (forall t, In t ss -> In t (dom st') /\ (In t S0 -> v' <= idx (dom st') t)) /\
        (forall x, In x S0 -> lw st' x = lw st x) /\
        (exists e, dom st' = dom st ++ e).
  Proof.
    intros Hrec F0 Fg. induction ss as [|s r IH]; intros st v st' Hss HL; cbn [visit_succs].
    - intros Q. inversion Q. subst st'. exists v. split; [exact HL|]. split; [lia|].
      split; [intros t []|]. split; [reflexivity|]. exists []. symmetry. apply app_nil_r.
    - destruct (rec s st) as [st1|] eqn:E1; [|discriminate].
      destruct (low_get (low st1) n) as [a|] eqn:La; [|discriminate].
      destruct (low_get (low st1) s) as [b|] eqn:Lb; [|discriminate].
      set (st2 := mkT (low_set (low st1) n (Nat.min a b)) (stack st1) (comps st1)).
      intros Q.
      destruct HL as [I [above [nd [Fs [Fd [Fa [Ln X]]]]]]].
      pose proof (i_nodupD _ _ I) as Fn.
      assert (Es : gedge g n s) by (apply Hss; left; reflexivity).
      assert (Pre : forall x, In x (stack st) -> gstar g x s).
      { intros x Hx. eapply gs_step; [|exact Es]. eapply reach_top; eauto. }
      pose proof (Hrec _ s st st1 E1 I (gedge_key _ _ Es) Pre) as P.
      pose proof (p_inv _ _ _ _ P) as I1.
      destruct (p_dom _ _ _ _ P) as [e1 De1].
      destruct (p_stack _ _ _ _ P) as [ns [Ss1 [Nns Xs]]].
      assert (Sn : In n (stack st)) by apply (fr_n_stack _ _ _ _ Fs).
      assert (Ea : a = v).
      { pose proof (p_low _ _ _ _ P n Sn) as H. unfold lw in H, Ln. rewrite La, Ln in H. inversion H. reflexivity. }
      subst a.
      assert (Fs1 : stack st1 = S0 ++ n :: (above ++ ns)).
      { rewrite Ss1, Fs, <- app_assoc. reflexivity. }
      assert (Fd1 : dom st1 = D0 ++ n :: (nd ++ e1)).
      { rewrite De1, Fd, <- app_assoc. reflexivity. }
      assert (Sn1 : In n (stack st1)) by apply (fr_n_stack _ _ _ _ Fs1).
      assert (Fa1 : incl (above ++ ns) (nd ++ e1)).
      { intros y Hy. apply in_app_iff in Hy as [Hy | Hy]; apply in_or_app; [left; apply Fa, Hy|right].
        assert (Dy : In y (dom st1)).
        { eapply inv_stack_dom; [exact I1|]. rewrite Ss1. apply in_or_app. auto. }
        rewrite De1 in Dy. apply in_app_iff in Dy as [Dy | Dy]; [destruct (Nns y Hy Dy) | exact Dy]. }
      assert (OldIdx : forall t, In t (dom st) -> idx (dom st1) t = idx (dom st) t).
      { intros t Ht. rewrite De1. apply idx_app_l, Ht. }
      destruct (inv_low_le _ _ n v I1 Sn1 La) as [Vle Vlt].
      assert (Wit : exists z, In z (stack st1) /\ Nat.min v b = idx (dom st1) z /\
                              idx (dom st1) z <= idx (dom st1) n /\ gstar g n z).
      { destruct (Nat.le_gt_cases v b) as [Hle | Hgt].
        - rewrite Nat.min_l by exact Hle. destruct (i_lowS _ _ I1 n Sn1) as [z [Hz [Lz [Le Rz]]]].
          exists z. unfold lw in Lz. rewrite La in Lz. inversion Lz. auto.
        - rewrite Nat.min_r by lia.
          destruct (inv_dom_split _ _ s I1 (p_in _ _ _ _ P)) as [Hs | Hs].
          + destruct (i_lowS _ _ I1 s Hs) as [z [Hz [Lz [Le Rz]]]]. unfold lw in Lz. rewrite Lb in Lz. inversion Lz.
            exists z. split; [exact Hz|]. split; [reflexivity|]. split; [lia|].
            eapply gstar_step_l; eauto.
          + pose proof (i_lowC _ _ I1 s Hs) as H. unfold lw in H. rewrite Lb in H. inversion H. lia. }
      pose proof (Inv_low st1 _ n (Nat.min v b) I1 Sn1 Wit) as I2. fold st2 in I2.
      assert (Dom2 : dom st2 = dom st1).
      { unfold dom, st2. cbn [low]. apply low_set_dom_in. eapply low_get_Some_In; eauto. }
      assert (L2 : L gr0 S0 D0 n st2 (Nat.min v b)).
      { split; [exact I2|]. exists (above ++ ns), (nd ++ e1). rewrite Dom2.
        split; [exact Fs1|]. split; [exact Fd1|]. split; [exact Fa1|].
        split; [unfold lw, st2; cbn [low]; apply low_get_set_same|].
        intros y t Hy Ht E.
        assert (St : In t (stack st)) by (apply (fr_S0_stack _ _ _ _ Fs), Ht).
        apply in_app_iff in Hy as [Hy | Hy].
        - rewrite OldIdx by (eapply inv_stack_dom; eauto). pose proof (X y t Hy Ht E). lia.
        - pose proof (Xs b y t Lb Hy St E). lia. }
      destruct (IH st2 (Nat.min v b) st' (fun s' H => Hss s' (or_intror H)) L2 Q)
        as [v' [HL' [Hle [Hexp [Hlow [e2 De2]]]]]].
      exists v'. split; [exact HL'|]. split; [lia|].
      split; [|split].
      + intros t [<- | Ht]; [|apply Hexp, Ht].
        assert (Ds : In s (dom st2)) by (rewrite Dom2; apply (p_in _ _ _ _ P)).
        split; [rewrite De2; apply in_or_app; left; exact Ds|].
        intros Hs0. rewrite De2, idx_app_l, Dom2 by exact Ds.
        assert (Ss : In s (stack st1)) by (apply (fr_S0_stack _ _ _ _ Fs1), Hs0).
        destruct (inv_low_le _ _ s b I1 Ss Lb) as [Ble _]. lia.
      + intros x Hx. rewrite Hlow by exact Hx.
        assert (Ne : x <> n).
        { intros ->. pose proof (inv_nodupS _ _ I) as ND. rewrite Fs in ND. apply NoDup_remove_2 in ND.
          apply ND. apply in_or_app. auto. }
        unfold lw, st2. cbn [low]. rewrite low_get_set_other by exact Ne.
        apply (p_low _ _ _ _ P). apply (fr_S0_stack _ _ _ _ Fs), Hx.
      + exists (e1 ++ e2). rewrite De2, Dom2, De1, <- app_assoc. reflexivity.
  Qed.

  Lemma Post_refl gr s st : Inv st gr -> In s (dom st) -> Post gr s st st.
  Proof.
    intros I H. constructor; auto.
    - exists []. symmetry. apply app_nil_r.
    - exists []. split; [symmetry; apply app_nil_r|]. split; intros; contradiction.
  Qed.

  Lemma visit_ok fuel : rec_ok (visit fuel g).
  Proof.
    induction fuel as [|f IH]; intros gr0 n st st'; [discriminate|].
    cbn [visit]. destruct (low_get (low st) n) as [v0|] eqn:Ln.
    - intros Q I _ _. inversion Q. subst st'. apply Post_refl; [exact I | eapply low_get_Some_In; eauto].
    - destruct (succs_of g n) as [ss|] eqn:Es; [|discriminate].
      set (num := length (low st)).
      set (st1 := mkT (low_set (low st) n num) (stack st ++ [n]) (comps st)).
      destruct (visit_succs (visit f g) n ss st1) as [st2|] eqn:E2; [|discriminate].
      destruct (low_get (low st2) n) as [l|] eqn:L2; [|discriminate].
      intros Q I K Pre.
      apply low_get_None in Ln as Nn. fold (dom st) in Nn.
      set (S0 := stack st) in *. set (D0 := dom st) in *.
      assert (Hnum : num = length D0) by (unfold num, D0, dom; rewrite map_length; reflexivity).
      assert (F0 : incl S0 D0) by (intros x Hx; eapply inv_stack_dom; eauto).
      assert (Fg : incl gr0 S0) by apply (i_gr _ _ I).
      pose proof (Inv_push st gr0 n I K Nn Pre) as I1. fold num in I1. fold st1 in I1.
      assert (L1 : L gr0 S0 D0 n st1 num).
      { split; [exact I1|]. exists [], []. split; [reflexivity|].
        split; [unfold dom, st1; cbn [low]; apply low_set_dom_new, Nn|]. split; [apply incl_refl|].
        split; [unfold lw, st1; cbn [low]; apply low_get_set_same|]. intros y t []. }
      assert (Hss : forall s, In s ss -> gedge g n s).
      { intros s Hs. exists ss. split; [apply succs_of_In, Es | exact Hs]. }
      destruct (loop (visit f g) gr0 S0 D0 n IH F0 Fg ss st1 num st2 Hss L1 E2)
        as [v' [[I2 [above [nd [Fs [Fd [Fa [Ln2 X]]]]]]] [Hle [Hexp [Hlow [e2 De2]]]]]].
      pose proof (i_nodupD _ _ I2) as Fn.
      assert (El : l = v') by (unfold lw in Ln2; rewrite L2 in Ln2; inversion Ln2; reflexivity). subst l.
      assert (Hvis : forall t, gedge g n t -> In t (dom st2)).
      { intros t E. apply Hexp. eapply gedge_succs; eauto. }
      assert (Low0 : forall x, In x S0 -> lw st2 x = lw st x).
      { intros x Hx. rewrite Hlow by exact Hx. unfold lw, st1. cbn [low]. apply low_get_set_other.
        intros ->. apply Nn, F0, Hx. }
      assert (Xall : forall y t, In y (n :: above) -> In t S0 -> gedge g y t -> v' <= idx (dom st2) t).
      { intros y t [<- | Hy] Ht E; [|eapply X; eauto]. apply Hexp; [eapply gedge_succs; eauto | exact Ht]. }
      rewrite Fs, skipn_length_app, firstn_length_app in Q. destruct (Nat.eqb num v') eqn:Eq.
      + (* n is a root *)
        apply Nat.eqb_eq in Eq. injection Q as Q. subst st'.
        assert (Hno : forall y t, In y (n :: above) -> In t S0 -> ~ gedge g y t).
        { intros y t Hy Ht E. pose proof (Xall y t Hy Ht E) as H1.
          pose proof (fr_idx_old _ _ _ _ Fd t (F0 t Ht)) as [_ H2]. lia. }
        pose proof (Inv_emit st2 gr0 n S0 D0 above nd I2 Fs Fd Fa F0 Fg Hvis Hno) as I3.
        set (st3 := mkT (fold_left _ _ _) _ _) in *.
        assert (Dom3 : dom st3 = dom st2).
        { unfold dom, st3. cbn [low]. apply fold_low_dom. intros x Hx. eapply inv_stack_dom; [exact I2|].
          rewrite Fs. apply in_or_app. right. exact Hx. }
        constructor.
        * exact I3.
        * exists (n :: nd). rewrite Dom3. exact Fd.
        * exists []. split; [symmetry; apply app_nil_r|]. split; intros; contradiction.
        * rewrite Dom3. apply (fr_n_dom _ _ _ _ Fd).
        * intros x Hx. rewrite <- (Low0 x Hx). unfold lw, st3. cbn [low]. apply fold_low_get_out.
          pose proof (inv_nodupS _ _ I2) as ND. rewrite Fs in ND. apply NoDup_app_inv in ND as [_ [_ ND]].
          apply ND, Hx.
      + (* n is not a root: it stays on the stack *)
        apply Nat.eqb_neq in Eq. inversion Q. subst st'. clear Q.
        assert (Hlt : forall v, lw st2 n = Some v -> v < length D0).
        { intros v Hv. rewrite Ln2 in Hv. inversion Hv. subst v. lia. }
        constructor.
        * eapply Inv_ungray; eauto.
        * exists (n :: nd). exact Fd.
        * exists (n :: above). split; [exact Fs|]. split.
          -- intros y [<- | Hy]; [exact Nn|]. apply (fr_nd_notin _ _ _ _ Fd Fn y (Fa y Hy)).
          -- intros v y t Hv Hy Ht E. rewrite Ln2 in Hv. inversion Hv. subst v. eapply Xall; eauto.
        * apply (fr_n_dom _ _ _ _ Fd).
        * exact Low0.
  Qed.

  Lemma Inv_init : Inv (mkT [] [] []) [].
  Proof.
    constructor; simpl; try (intros; contradiction); try constructor.
    - intros x [].
    - intros x [].
  Qed.

  Lemma visit_all_ok fuel : forall ns st st',
    visit_all fuel g ns st = Ok st' -> Inv st [] -> incl ns (gkeys g) ->
    Inv st' [] /\ (forall x, In x ns -> In x (dom st')).
  Proof.
    induction ns as [|n r IH]; intros st st'; cbn [visit_all].
    - intros Q I _. inversion Q. subst. split; [exact I | intros x []].
    - destruct (visit fuel g n st) as [st1|] eqn:E; [|discriminate]. intros Q I K.
      assert (Pre : forall x, In x (stack st) -> gstar g x n).
      { intros x Hx. rewrite (inv_empty_stack _ I) in Hx. destruct Hx. }
      pose proof (visit_ok fuel [] n st st1 E I (K n (or_introl eq_refl)) Pre) as P.
      destruct (IH st1 st' Q (p_inv _ _ _ _ P) (fun x H => K x (or_intror H))) as [I' H1].
      split; [exact I'|]. intros x [<- | Hx]; [|apply H1, Hx].
      apply (visit_all_dom_mono _ _ _ _ _ Q), (p_in _ _ _ _ P).
  Qed.

  Lemma visit_in_dom f n st st' : visit f g n st = Ok st' -> In n (dom st').
  Proof.
    destruct f as [|f]; [discriminate|]. cbn [visit].
    destruct (low_get (low st) n) as [v|] eqn:Ln.
    - intros Q. inversion Q. subst. eapply low_get_Some_In; eauto.
    - destruct (succs_of g n) as [ss|]; [|discriminate].
      set (st0 := mkT _ _ _).
      destruct (visit_succs (visit f g) n ss st0) as [std|] eqn:Ed; [|discriminate].
      apply (visit_succs_mono _ n (visit_dom_mono g f)) in Ed.
      assert (D0 : In n (dom st0)).
      { unfold st0, dom. cbn [low]. apply low_get_None in Ln. rewrite low_set_dom_new by exact Ln.
        apply in_or_app. right. left. reflexivity. }
      apply Ed in D0.
      destruct (low_get (low std) n) as [l|]; [|discriminate].
      destruct (Nat.eqb _ _); intros Q; inversion Q; subst; [|exact D0].
      unfold dom. cbn [low]. apply fold_low_set_dom. exact D0.
  Qed.

  Lemma visit_total f : forall n st, unnumbered g st < f -> In n (gkeys g) -> exists st', visit f g n st = Ok st'.
  Proof.
    induction f as [|f IH]; intros n st Hlt K; [lia|].
    cbn [visit]. destruct (low_get (low st) n) as [v|] eqn:Ln; [eauto|].
    destruct (succs_of_key g n K) as [ss Es]. rewrite Es.
    set (st1 := mkT _ _ _).
    apply low_get_None in Ln.
    assert (D1 : incl (n :: dom st) (dom st1)).
    { unfold st1, dom. cbn [low]. rewrite low_set_dom_new by exact Ln. intros x [<- | Hx]; apply in_or_app; simpl; auto. }
    assert (H1 : unnumbered g st1 < f).
    { pose proof (unnumbered_add g st st1 n K Ln D1). lia. }
    assert (Kss : forall s, In s ss -> In s (gkeys g)).
    { intros s Hs. apply succs_of_In in Es. eapply Hclosed; eauto. }
    assert (G : forall ss sta, (forall s, In s ss -> In s (gkeys g)) -> In n (dom sta) -> unnumbered g sta < f ->
                exists stb, visit_succs (visit f g) n ss sta = Ok stb /\ incl (dom sta) (dom stb)).
    { clear - IH. induction ss as [|s ss IHs]; intros sta Ks Dn Ha; simpl.
      - exists sta. split; [reflexivity | apply incl_refl].
      - destruct (IH s sta Ha (Ks s (or_introl eq_refl))) as [stc Ec]. rewrite Ec.
        pose proof (visit_dom_mono g f s sta stc Ec) as Mono.
        destruct (dom_lw stc n (Mono n Dn)) as [a La]. unfold lw in La. rewrite La.
        destruct (dom_lw stc s (visit_in_dom f s sta stc Ec)) as [b Lb]. unfold lw in Lb. rewrite Lb.
        set (std := mkT _ _ _).
        assert (Dom : dom std = dom stc).
        { unfold dom, std. cbn [low]. apply low_set_dom_in. eapply low_get_Some_In; eauto. }
        destruct (IHs std (fun s' H => Ks s' (or_intror H))) as [stb [Eb Mb]].
        + rewrite Dom. apply Mono, Dn.
        + pose proof (unnumbered_mono g sta stc Mono). unfold unnumbered in *. rewrite Dom. lia.
        + exists stb. split; [exact Eb|]. intros x Hx. apply Mb. rewrite Dom. apply Mono, Hx. }
    destruct (G ss st1 Kss (D1 n (or_introl eq_refl)) H1) as [st2 [E2 M2]]. rewrite E2.
    destruct (dom_lw st2 n (M2 n (D1 n (or_introl eq_refl)))) as [l Ll]. unfold lw in Ll. rewrite Ll.
    destruct (Nat.eqb _ _); eauto.
  Qed.

  Lemma visit_all_total fuel : length g < fuel -> forall ns st, incl ns (gkeys g) -> exists st', visit_all fuel g ns st = Ok st'.
  Proof.
    intros Hf. induction ns as [|n r IH]; intros st K; cbn [visit_all]; [eauto|].
    destruct (visit_total fuel n st) as [st1 E].
    - unfold unnumbered, gkeys. pose proof (filter_length_le_all (fun k => negb (mem_node k (dom st))) (map fst g)) as H.
      rewrite map_length in H. lia.
    - apply K. left. reflexivity.
    - rewrite E. apply IH. intros x Hx. apply K. right. exact Hx.
  Qed.
End Tarjan.

(* the component list is a partition of the nodes; every component is strongly connected; an edge
   leaving a component goes to a component listed earlier (reverse topological order) *)
Record scc_spec (g : graph) (cs : list (list node)) : Prop := {
  ss_nodup : NoDup (concat cs);
  ss_cover : forall n, In n (gkeys g) <-> In n (concat cs);
  ss_sc : forall c, In c cs -> c <> [] /\ forall a b, In a c -> In b c -> gstar g a b;
  ss_topo : forall x y, In x (concat cs) -> gedge g x y -> In y (concat cs) /\ cidx cs y <= cidx cs x
}.

Lemma scc_total g : closed_graph g -> exists st, visit_all (S (length g)) g (gkeys g) (mkT [] [] []) = Ok st /\ scc g = Ok (comps st).
Proof.
  intros Hc. unfold scc.
  destruct (visit_all_total g Hc (S (length g)) (Nat.lt_succ_diag_r _) (gkeys g) (mkT [] [] []) (incl_refl _)) as [st E].
  rewrite E. eauto.
Qed.

Theorem scc_correct g : NoDup (gkeys g) -> closed_graph g -> exists cs, scc g = Ok cs /\ scc_spec g cs.
Proof.
  intros Hnd Hc. destruct (scc_total g Hc) as [st [E Escc]]. rewrite Escc. exists (comps st). split; [reflexivity|].
  destruct (visit_all_ok g Hnd Hc _ _ _ _ E (Inv_init g) (incl_refl _)) as [I Hall].
  pose proof (inv_empty_stack g st I) as Es.
  pose proof (i_perm g _ _ I) as Perm. rewrite Es in Perm. simpl in Perm.
  constructor.
  - eapply inv_nodupC; eauto.
  - intros n. split.
    + intros H. apply (Permutation_in n Perm), Hall, H.
    + intros H. apply (i_keys g _ _ I). apply (Permutation_in n (Permutation_sym Perm)), H.
  - apply (i_sc g _ _ I).
  - apply (i_topo g _ _ I).
Qed.

Lemma scc_spec_star g cs : scc_spec g cs -> forall a b, gstar g a b -> In a (concat cs) ->
  In b (concat cs) /\ cidx cs b <= cidx cs a.
Proof.
  intros S a b H. induction H as [a | a b c H IH E]; intros Ha; [split; [exact Ha | lia]|].
  destruct (IH Ha) as [Hb Le]. destruct (ss_topo _ _ S b c Hb E) as [Hc Le']. split; [exact Hc | lia].
Qed.

(* two nodes are in one component exactly when each reaches the other: the components are the
   strongly connected components, in particular they are maximal *)
Theorem scc_spec_components g cs : scc_spec g cs ->
  forall a b, In a (gkeys g) -> In b (gkeys g) -> (same_comp cs a b <-> gstar g a b /\ gstar g b a).
Proof.
  intros S a b Ka Kb. split.
  - intros [c [Ic [Ia Ib]]]. destruct (ss_sc _ _ S c Ic) as [_ H]. auto.
  - intros [H1 H2]. apply (ss_cover _ _ S) in Ka, Kb.
    destruct (scc_spec_star g cs S a b H1 Ka) as [_ L1]. destruct (scc_spec_star g cs S b a H2 Kb) as [_ L2].
    assert (Eq : cidx cs a = cidx cs b) by lia.
    exists (nth (cidx cs a) cs []). split; [apply nth_In, cidx_lt, Ka|].
    split; [apply cidx_nth, Ka | rewrite Eq; apply cidx_nth, Kb].
Qed.

Corollary scc_spec_components_path g cs : scc_spec g cs ->
  forall a b, In a (gkeys g) -> In b (gkeys g) ->
    (same_comp cs a b <-> a = b \/ (gpath g a b /\ gpath g b a)).
Proof.
  intros S a b Ka Kb. rewrite (scc_spec_components g cs S a b Ka Kb). split.
  - intros [H1 H2]. destruct (node_eq_dec a b) as [-> | Ne]; [auto|]. right.
    destruct (gstar_path g a b H1) as [? | P1]; [contradiction|].
    destruct (gstar_path g b a H2) as [? | P2]; [congruence|]. auto.
  - intros [-> | [P1 P2]]; [split; apply gs_refl | split; apply gpath_star; assumption].
Qed.

