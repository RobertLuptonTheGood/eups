(* What is specific to several stacks in the setup model Model/SetupMS.v (C01, C02, C04):
     - the declaration that SETUP_NAME records is found in the stack it records, whatever the other stacks
       declare under the same name and version (recorded_product_found, Proofs/SetupMSInv.v), and the value
       recorded determines the declaration (record_determines_declaration);
     - unsetup executes the table of THAT declaration (unsetup_step_recorded);
     - a two-stack world with the same name and version in both stacks, on which the hypotheses of the theorems
       hold (ms_world ... used by the Examples of Props/C01.v, C02.v, C04.v). *)
From Eupsv Require Import Base.Base Base.BaseLemmas Model.PathAlg Proofs.PathAlg Model.Setup Model.SetupMS
     Proofs.SetupMSFrame Proofs.SetupMSInv.
From Coq Require Import Lia.

Definition key_of (p : mproduct) : vref := mkVref (mp_version p) (mp_root p).

(* two declarations of one name that are both recorded by the same value are the same declaration: the value
   determines version, flavor and stack *)
Lemma record_determines_declaration w dl rank p q :
  WF2 w dl rank -> In p w -> In q w -> mp_name p = mp_name q -> ms_setup_string p = ms_setup_string q -> p = q.
Proof.
  intros H Hp Hq Hn E.
  destruct (wf_words w dl rank H p Hp) as [Wn [Wv [Wf [Wfl Wr]]]].
  destruct (wf_words w dl rank H q Hq) as [Vn [Vv [Vf [Vfl Vr]]]].
  pose proof (recorded_setup_string p Wn Wv Wf Wfl Wr) as R1.
  pose proof (recorded_setup_string q Vn Vv Vf Vfl Vr) as R2.
  rewrite E, R2 in R1. injection R1 as E1 E2 E3. symmetry. now apply (wf_keys w dl rank H).
Qed.

(* the unsetup branch of Eups.setup: the table undone is the one of the recorded declaration *)
Lemma unsetup_step_recorded w cfg dl rank rec st ds depth just p :
  WF2 w dl rank -> In p w ->
  alookup (setup_var (mp_name p)) (s_env st) = Some (ms_setup_string p) ->
  msetup_step w cfg rec st ds (mp_name p) false depth just =
  mrun_actions cfg rec false depth just (mp_actions p) (unset_product_vars st (mp_name p)) ds.
Proof.
  intros H Hin E. unfold msetup_step.
  now rewrite (recorded_product_found w dl rank (c_flavor cfg) (s_env st) p H Hin E).
Qed.

Definition c_colon : ascii := ":"%char.

(* lib 1.0 is declared in the stack /sA and in the stack /s B (a blank in its root), with different directories
   and tables; lib 2.0 only in the second; app 1.0 (first stack) requires lib *)
Definition ms_libA : mproduct :=
  {| mp_name := lit "lib"; mp_version := lit "1.0"; mp_root := lit "/sA"; mp_flavor := lit "Linux64";
     mp_dir := lit "/sA/Linux64/lib/1.0";
     mp_actions := [APath false (lit "PATH") (lit "/sA/Linux64/lib/1.0/bin") c_colon;
                    ASet (lit "LIB_STACK") (lit "/sA/share")] |}.
Definition ms_libB : mproduct :=
  {| mp_name := lit "lib"; mp_version := lit "1.0"; mp_root := lit "/s B"; mp_flavor := lit "generic";
     mp_dir := lit "/s B/generic/lib/1.0";
     mp_actions := [APath false (lit "PATH") (lit "/s B/generic/lib/1.0/bin2") c_colon;
                    ASet (lit "LIB_STACK") (lit "/s B/ups_db/x");
                    AAlias (lit "run_lib") (lit "echo second")] |}.
Definition ms_lib2 : mproduct :=
  {| mp_name := lit "lib"; mp_version := lit "2.0"; mp_root := lit "/s B"; mp_flavor := lit "Linux64";
     mp_dir := lit "/s B/Linux64/lib/2.0";
     mp_actions := [APath false (lit "PATH") (lit "/s B/Linux64/lib/2.0/bin") c_colon] |}.
Definition ms_app : mproduct :=
  {| mp_name := lit "app"; mp_version := lit "1.0"; mp_root := lit "/sA"; mp_flavor := lit "Linux64";
     mp_dir := lit "/sA/Linux64/app/1.0";
     mp_actions := [ASetup false (lit "lib") false;
                    APath false (lit "PATH") (lit "/sA/Linux64/app/1.0/bin") c_colon] |}.

Definition ms_world : mworld := [ms_libA; ms_libB; ms_lib2; ms_app].
Definition ms_order : list str := [lit "lib"; lit "app"].
Definition ms_cfg : config :=
  {| c_flavor := lit "Linux64"; c_root := lit "/sA"; c_max_depth := None; c_keep := false; c_flavors := [] |}.
Definition ms_st0 : state := {| s_env := []; s_aliases := [] |}.

(* setup lib with the decision (1.0, second stack): found in the second stack although the first declares 1.0 too *)
Definition ms_stB : state :=
  {| s_env := [ (lit "LIB_DIR", lit "/s B/generic/lib/1.0");
                (lit "SETUP_LIB", lit "lib 1.0 -f generic -Z /s-+-B");
                (lit "PATH", lit "/s B/generic/lib/1.0/bin2");
                (lit "LIB_STACK", lit "/s B/ups_db/x") ];
     s_aliases := [ (lit "run_lib", lit "echo second") ] |}.

(* then setup app (decisions: app 1.0 of the first stack, lib 1.0 OF THE FIRST STACK): the dependency finds lib
   already set up - the same version - and SETUP_LIB keeps the second stack *)
Definition ms_stApp : state :=
  {| s_env := [ (lit "LIB_DIR", lit "/s B/generic/lib/1.0");
                (lit "SETUP_LIB", lit "lib 1.0 -f generic -Z /s-+-B");
                (lit "PATH", lit "/sA/Linux64/app/1.0/bin:/s B/generic/lib/1.0/bin2");
                (lit "LIB_STACK", lit "/s B/ups_db/x");
                (lit "APP_DIR", lit "/sA/Linux64/app/1.0");
                (lit "SETUP_APP", lit "app 1.0 -f Linux64 -Z /sA") ];
     s_aliases := [ (lit "run_lib", lit "echo second") ] |}.

(* setup lib at the top level with the decision (1.0, first stack) from ms_stB: the second stack's table is undone,
   the first stack's executed *)
Definition ms_stA : state :=
  {| s_env := [ (lit "PATH", lit "/sA/Linux64/lib/1.0/bin");
                (lit "LIB_DIR", lit "/sA/Linux64/lib/1.0");
                (lit "SETUP_LIB", lit "lib 1.0 -f Linux64 -Z /sA");
                (lit "LIB_STACK", lit "/sA/share") ];
     s_aliases := [] |}.

(* unsetup lib from ms_stB *)
Definition ms_stNone : state := {| s_env := [ (lit "PATH", []) ]; s_aliases := [] |}.
