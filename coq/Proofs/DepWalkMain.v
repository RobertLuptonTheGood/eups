(* The statements of Props/C13.v about the dependency walk with the resolver inside (Model/DepWalk.v): what is
   listed is what is reached, and getDependentProducts with the resolver inside is getDependentProducts over
   resolved edges (Model/Graph.v) on the world of the edges the resolver computes, without -j lines and on
   plain tables.  The step that needs work is the second, pinned walk: the versions the repaired code ties
   the listed names to are the versions the lines of the closure denote anyway, for the look-ups of
   Model/DepWalk.v as for Model/Graph.v. *)
From Eupsv Require Import Base.Base Base.BaseLemmas Model.Resolve Model.ResolveSpec Model.Graph Model.DepWalk
     Proofs.ResolveLib Proofs.Resolve Proofs.GraphLib Proofs.GraphWalk Proofs.GraphListing Proofs.GraphOrder
     Proofs.DepWalkConst Proofs.DepWalkSim Proofs.DepWalkComplete Proofs.DepWalkEdges.

Section Listing.
  Variable lvro : list ventry -> dline -> list ventry.
  Variable lk : list ventry -> dline -> option found.
  Variable lkp : list ventry -> dline -> option str -> option found.
  Variable pref_ok : bool.
  Variable vro : list ventry.

  (* reached from top through the lines as the look-ups resolve them under [vro] *)
  Definition reached (T : dtables) : node -> node -> Prop :=
    dreach (lk_under lvro lk vro) (lkp_under lvro lkp vro) T [].

  Lemma first_walk_listing fuel TA top :
    plain_tables lvro vro TA -> length TA < fuel ->
    exists out st, dwalk_top lvro lk lkp TA [] fuel vro top = Ok (out, st) /\
                   forall q, In q (map enode (drop_top top out)) <-> q <> top /\ reached TA top q.
  Proof.
    intros PA Hf. rewrite (dwalk_top_plain lvro lk lkp vro TA [] PA).
    destruct (dwalk_top_spec (lk_under lvro lk vro) (lkp_under lvro lkp vro) TA [] top fuel Hf) as [out [st [E H]]].
    exists out, st. split; [exact E|]. intros q. rewrite drop_top_nodes, H. reflexivity.
  Qed.

  Lemma listing_plain_general fuel TA TB top :
    plain_tables lvro vro TA -> length TA < fuel ->
    exists l, dep_products2 lvro lk lkp pref_ok vro fuel TA TB top false false = Ok l /\
              forall q, In q (map enode l) <-> q <> top /\ reached TA top q.
  Proof.
    intros PA Hf. destruct (first_walk_listing fuel TA top PA Hf) as [out [st [E Hdp]]].
    unfold dep_products2. rewrite E. eexists. split; [reflexivity | exact Hdp].
  Qed.

  Lemma listing_general fuel TA TB top topological check l :
    plain_tables lvro vro TA -> length TA < fuel ->
    dep_products2 lvro lk lkp pref_ok vro fuel TA TB top topological check = Ok l ->
    (forall q, In q (map enode l) <-> q <> top /\ reached TA top q) /\
    (topological || check = true -> NoDup (map enode l)).
  Proof.
    intros PA Hf H. destruct (first_walk_listing fuel TA top PA Hf) as [out [st [E Hdp]]].
    unfold dep_products2 in H. rewrite E in H.
    destruct (topological || check) eqn:B; cbn [negb] in H.
    - destruct (dep_second lvro lk lkp pref_ok vro fuel TB top (drop_top top out)) as [st2|]; [|discriminate].
      destruct (topo_layers_with node_cmp check (pd st2)) as [L|]; [|discriminate].
      inversion H. subst l. split.
      + intros q. rewrite topo_finish_nodes. apply Hdp.
      + intros _. apply topo_finish_NoDup.
    - inversion H. subst l. split; [exact Hdp | discriminate].
  Qed.
End Listing.

Lemma own_target_edge lk l : own_target (edge_of lk l) = tgt_of l (lk l).
Proof. unfold own_target, tgt_of. simpl. destruct (lk l); reflexivity. Qed.

Lemma step_edges_iff lk T p q :
  step (edges_world lk T) p q <-> exists l, dline_in T p l /\ q = tgt_of l (lk l).
Proof.
  unfold step, dline_in. split.
  - intros [es [e [Tp [Ie ->]]]]. rewrite node_table_edges in Tp.
    destruct (dnode_table T p) as [ls|]; [|discriminate]. simpl in Tp. inversion Tp. subst es.
    apply in_map_iff in Ie as [l [<- Il]]. exists l. split; [exists ls; auto | apply own_target_edge].
  - intros [l [[ls [Tp Il]] ->]]. exists (map (edge_of lk) ls), (edge_of lk l). split.
    + rewrite node_table_edges, Tp. reflexivity.
    + split; [apply in_map, Il | symmetry; apply own_target_edge].
Qed.

Lemma reached_is_reach_plus lk lkp T p q : no_just T ->
  (dreach lk lkp T [] p q <-> reach_plus (edges_world lk T) p q).
Proof.
  intros NJ. unfold reach_plus. split.
  - induction 1 as [p l D | p l r D J _ IH].
    + apply rp_one, step_is_stepP, step_edges_iff. exists l. split; [exact D | reflexivity].
    + eapply rp_more; [|exact IH]. apply step_is_stepP, step_edges_iff. exists l. split; [exact D | reflexivity].
  - induction 1 as [p q S | p q r S _ IH].
    + apply step_is_stepP, step_edges_iff in S as [l [D ->]]. apply (dr_one lk lkp T [] p l D).
    + apply step_is_stepP, step_edges_iff in S as [l [D ->]].
      apply (dr_more lk lkp T [] p l r D); [|exact IH].
      destruct D as [ls [Tp Il]]. destruct (dnode_table_inv _ _ _ Tp) as [n [v [_ Tn]]]. eapply NJ; eauto.
Qed.

Section Composed.
  Variable vcmp : str -> str -> comparison.
  Variable vmatch : str -> str -> bool.
  Variable c : config.
  Variable db : dbv.
  Variable flavors : list str.
  Variable pf : list str.
  Variable vro : list ventry.
  Variable T : dtables.
  Hypothesis OK : dworld_ok db flavors T.
  Hypothesis HT : vcmp_ok vcmp db.
  Hypothesis HV : existsb is_version_like vro = true.
  (* the pinned look-up tries the flavors the walk tries (the repaired code) *)
  Hypothesis PF1 : incl flavors pf.
  Hypothesis PF2 : incl pf flavors.
  Hypothesis NJ : no_just T.
  Hypothesis PL : plain_tables (line_vro c) vro T.

  Let lk := lookup_line vcmp vmatch c db flavors vro.
  Let lkp := lookup_pinned vcmp vmatch c db vro pf.
  Let w := edges_world lk T.

  (* findProduct(name, version) for the version a line of that name resolved to *)
  Lemma pinned_found l fd : lk l = Some fd ->
    exists fd', lkp l (Some (fd_version fd)) = Some fd' /\ fd_version fd' = fd_version fd.
  Proof.
    intros H. destruct (lookup_line_declared vcmp vmatch c db flavors vro T OK HT l fd H) as [f [s [Hf [Hs D]]]].
    unfold lkp, lookup_pinned, lookup_pinned_at.
    destruct (first_some (fun f0 => find_version db (dl_name l) (fd_version fd) f0) pf) as [fd'|] eqn:E.
    - exists fd'. split; [reflexivity|]. apply first_some_in in E as [f' [_ E]].
      rewrite find_version_spec in E. eapply version_designates_version; eauto.
    - exfalso. pose proof (first_some_none_inv _ _ E f (PF1 _ Hf)) as E1. cbv beta in E1.
      rewrite find_version_spec in E1. unfold version_designates in E1.
      pose proof (first_some_none_inv _ _ E1 s Hs) as E2. cbv beta in E2. rewrite D in E2. discriminate.
  Qed.

  (* ... for the version text of a line that did not resolve *)
  Lemma pinned_unresolved_version l v : lk l = None -> dl_version l = Some v -> lkp l (Some v) = None.
  Proof.
    intros H Ev. pose proof (lookup_line_unresolved vcmp vmatch c db flavors vro T OK HT HV l v H Ev) as Tn.
    unfold lkp, lookup_pinned, lookup_pinned_at. apply first_some_none. intros f Hf.
    rewrite find_version_spec. apply version_designates_none. intros s Hs.
    destruct (Resolve.declared s (dl_name l) v f) eqn:D; [|reflexivity]. exfalso.
    apply (dok_tables _ _ _ OK s _ _ f Hs (PF2 _ Hf) D). exact Tn.
  Qed.

  (* ... and findPreferredProduct for a bare line that did not resolve *)
  Lemma pinned_unresolved_bare l : lk l = None -> dl_version l = None -> lkp l None = None.
  Proof.
    intros H Ev. unfold lkp, lookup_pinned, lookup_pinned_at. unfold lk, lookup_line, lookup_at in H.
    rewrite (vro_lookup_walks vcmp vmatch c db (dok_wf _ _ _ OK) HT) in H |- *.
    (* without a version the request is classified by its name alone *)
    assert (E : classify (dreq l) = classify (mkRequest (dl_name l) None None)).
    { unfold classify, dreq. simpl. rewrite Ev. reflexivity. }
    rewrite E in H. apply first_some_none. intros f Hf. exact (first_some_none_inv _ _ H f (PF2 _ Hf)).
  Qed.

  Section Second.
    Variable top : node.
    Variable dp : list entry.
    Hypothesis Hdp : forall q, In q (map enode dp) <-> q <> top /\ reach_plus w top q.

    Let pins := pins_fixed top dp.

    Lemma step_edge p ls l : dnode_table T p = Some ls -> In l ls -> step w p (tgt_of l (lk l)).
    Proof. intros Tp Il. apply step_edges_iff. exists l. split; [exists ls; auto | reflexivity]. Qed.

    (* the pins change nothing on the lines of the closure *)
    Lemma dpins_agree p ls l :
      closure w top p -> dnode_table T p = Some ls -> In l ls ->
      cresolve lk lkp pins l = tgt_of l (lk l).
    Proof.
      intros Cp Tp Il. set (t := tgt_of l (lk l)).
      assert (St : step w p t) by (eapply step_edge; eauto).
      assert (Ct : closure w top t) by (eapply closure_step; eauto).
      unfold cresolve. destruct (pin_of pins (dl_name l)) as [pv|] eqn:Epin; [|reflexivity].
      apply pin_of_Some in Epin. unfold pins in Epin. apply pins_fixed_In in Epin as [Nn [x [Ix [Nx [Vx Hsole]]]]].
      assert (Name : nname t = dl_name l) by (unfold t, tgt_of; destruct (lk l); reflexivity).
      assert (Nt : t <> top) by (intros Q; apply Nn; rewrite <- Q; symmetry; exact Name).
      assert (Rt : reach_plus w top t) by (destruct Ct; [contradiction | assumption]).
      assert (Idp : In t (map enode dp)) by (apply Hdp; auto).
      apply in_map_iff in Idp as [y [Ey Iy]].
      assert (Ext : enode x = t) by (rewrite <- (Hsole y Iy); [exact Ey | rewrite Ey; exact Name]).
      rewrite <- Vx, Ext. unfold t. destruct (lk l) as [fd|] eqn:E.
      - change (nver (tgt_of l (Some fd))) with (Some (fd_version fd)).
        destruct (pinned_found l fd E) as [fd' [E1 E2]]. rewrite E1. unfold tgt_of. rewrite E2. reflexivity.
      - change (nver (tgt_of l None)) with (dl_version l).
        destruct (dl_version l) as [v|] eqn:Ev.
        + rewrite (pinned_unresolved_version l v E Ev). reflexivity.
        + rewrite (pinned_unresolved_bare l E Ev). reflexivity.
    Qed.

    Lemma closure_lines_ok t ls :
      closure w top t -> dnode_table T t = Some ls -> forall l, In l ls -> line_ok lk lkp T pins (closure w top) l.
    Proof.
      intros Ct Tt l Il. destruct (dnode_table_inv _ _ _ Tt) as [n [v [_ Tnv]]].
      pose proof (dpins_agree t ls l Ct Tt Il) as Ag.
      split; [eapply NJ; eauto|]. split.
      - unfold agrees. rewrite Ag. fold w. symmetry. rewrite <- own_target_edge.
        apply (pins_agree w top dp (edges_world_wf vcmp vmatch c db flavors vro T OK HT HV) Hdp t (map (edge_of lk) ls)); auto.
        + unfold w. rewrite node_table_edges, Tt. reflexivity.
        + apply in_map, Il.
      - rewrite Ag. eapply closure_step; [exact Ct | eapply step_edge; eauto].
    Qed.

    Lemma second_walk_is_graph_walk fuel :
      cwalk_top lk lkp T pins fuel top = walk_top fuel w pins top.
    Proof.
      apply (sim_walk_top lk lkp T pins (closure w top)).
      - intros t ls Ct Tt l Il. eapply closure_lines_ok; eauto.
      - left. reflexivity.
    Qed.
  End Second.

  (* both walks of getDependentProducts: whenever the model with the resolver inside answers (it refuses
     pinned relational expressions, and a VRO with warn entries), its walks are those of Model/Graph.v *)
  Lemma two_walks pref_ok fuel top : length T < fuel ->
    exists out1 st1,
      dwalk_top (line_vro c) (lookup_at vcmp vmatch c db flavors) (lookup_pinned_at vcmp vmatch c db pf)
                T [] fuel vro top = Ok (out1, st1) /\
      walk_top fuel w [] top = Ok (out1, st1) /\
      forall st, dep_second (line_vro c) (lookup_at vcmp vmatch c db flavors) (lookup_pinned_at vcmp vmatch c db pf)
                            pref_ok vro fuel T top (drop_top top out1) = Ok st ->
                 exists out2, walk_top fuel w (pins_fixed top (drop_top top out1)) top = Ok (out2, st).
  Proof.
    intros Hf. assert (Hf' : length w < fuel) by (unfold w, edges_world; rewrite map_length; exact Hf).
    destruct (walk_top_spec w [] top fuel Hf') as [out1 [st1 [E1 Hout1]]]. exists out1, st1.
    split; [rewrite (dwalk_top_plain _ _ _ _ _ _ PL); rewrite <- E1; exact (first_walk_is_graph_walk lk lkp T fuel top NJ)|].
    split; [exact E1|]. intros st. unfold dep_second.
    destruct (existsb expr_pin _); [discriminate|]. destruct (existsb none_pin _ && negb pref_ok); [discriminate|].
    assert (Hdp : forall q, In q (map enode (drop_top top out1)) <-> q <> top /\ reach_plus w top q).
    { intros q. rewrite drop_top_nodes, Hout1. reflexivity. }
    rewrite (dwalk_top_plain _ _ _ _ _ _ PL). change (cwalk_top _ _ T ?p fuel top) with (cwalk_top lk lkp T p fuel top).
    rewrite (second_walk_is_graph_walk top _ Hdp fuel).
    destruct (walk_top fuel w (pins_fixed _ _) top) as [[out2 st2]|]; [|discriminate]. intros Q. inversion Q. eauto.
  Qed.

  (* the world of the edges the resolver computes under the VRO of the command *)
  Definition resolved_world : world := edges_world (lookup_line vcmp vmatch c db flavors vro) T.

  Lemma composed_is_graph pref_ok fuel top topological l :
    length T < fuel ->
    dep_products2 (line_vro c) (lookup_at vcmp vmatch c db flavors) (lookup_pinned_at vcmp vmatch c db pf)
                  pref_ok vro fuel T T top topological false = Ok l ->
    dependent_products fuel resolved_world top topological = Ok l.
  Proof.
    intros Hf H. destruct (two_walks pref_ok fuel top Hf) as [out1 [st1 [E1 [E1' E2]]]].
    unfold dep_products2 in H. rewrite E1 in H.
    unfold dependent_products, dependent_products_with. change resolved_world with w. rewrite E1'.
    destruct topological; cbn [orb negb] in H |- *; [|exact H].
    destruct (dep_second _ _ _ _ _ _ _ _ _) as [st|]; [|discriminate].
    destruct (E2 st eq_refl) as [out2 E3]. unfold pins_for. rewrite E3. exact H.
  Qed.

  Lemma composed_graph_is_graph pref_ok fuel top g :
    length T < fuel ->
    dep_topo_graph (line_vro c) (lookup_at vcmp vmatch c db flavors) (lookup_pinned_at vcmp vmatch c db pf)
                   pref_ok vro fuel T T top = Ok g ->
    topo_graph fuel resolved_world top = Ok g.
  Proof.
    intros Hf H. destruct (two_walks pref_ok fuel top Hf) as [out1 [st1 [E1 [E1' E2]]]].
    unfold dep_topo_graph in H. rewrite E1 in H.
    unfold topo_graph, topo_graph_with. change resolved_world with w. rewrite E1'.
    destruct (dep_second _ _ _ _ _ _ _ _ _) as [st|]; [|discriminate].
    destruct (E2 st eq_refl) as [out2 E3]. unfold pins_for. rewrite E3. exact H.
  Qed.

  (* the index of Eups.uses *)
  Lemma composed_index_is_graph_index fuel idx :
    length T < fuel ->
    dep_uses_index vcmp vmatch c flavors pf (mkDworld db T T) vro fuel = Ok idx ->
    uses_index fuel resolved_world = Ok idx.
  Proof.
    intros Hf. unfold dep_uses_index, uses_index. cbn [dw_exact].
    assert (E : map fst resolved_world = map fst T).
    { unfold resolved_world, edges_world. rewrite map_map. reflexivity. }
    rewrite E. generalize (map fst T). intros ps. revert idx.
    induction ps as [|[n v] r IH]; intros idx H; simpl in *; [exact H|].
    destruct (dep_products vcmp vmatch c flavors pf (mkDworld db T T) vro true fuel (n, Some v, true) true false) as [l|] eqn:El; [|discriminate].
    unfold dep_products in El. cbn [dw_db dw_exact dw_inexact] in El.
    pose proof (composed_is_graph _ fuel (n, Some v, true) true l Hf El) as G. unfold dependent_products in G. rewrite G.
    destruct (dep_listings _ r) as [ls|]; [|discriminate]. rewrite (IH ls eq_refl). exact H.
  Qed.

  Lemma resolved_world_wf : wf_world resolved_world.
  Proof. exact (edges_world_wf vcmp vmatch c db flavors vro T OK HT HV). Qed.

  Lemma resolved_world_length : length resolved_world = length T.
  Proof. unfold resolved_world, edges_world. apply map_length. Qed.
End Composed.
