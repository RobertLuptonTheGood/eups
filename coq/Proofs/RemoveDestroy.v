(* The destruction phase of Eups.remove ([destroy]): what it does to declarations, tags and paths,
   for every outcome (frame) and for the completed run (exactness), and when it completes. *)
From Coq Require Import Lia.
From Eupsv Require Import Base.Base Base.BaseLemmas Model.Graph Model.Db Model.Remove
     Proofs.GraphLib Proofs.DbLib Proofs.Db Proofs.DbInv Proofs.RemoveLib.

Definition real_node (p : node) : Prop := exists n v, p = (n, Some v, true).
Definition all_real (ps : list node) : Prop := forall p, In p ps -> real_node p.

Lemma all_real_tail p ps : all_real (p :: ps) -> all_real ps.
Proof. intros H q I. apply H. right. exact I. Qed.

(* the declaration (s, n, v, f') is one that the run over ps removes *)
Definition gone (c : rconf) (a : adb) (ps : list node) (s n v f' : str) : Prop :=
  f' = rc_flavor c /\ In (n, Some v, true) ps /\ home c a n v = Some s.

Lemma find_home c a n v s rr : find_exact a (apath a) n v (rc_flavor c) = Some (s, rr) -> home c a n v = Some s.
Proof. intro F. unfold home. rewrite F. reflexivity. Qed.

Lemma gone_head c a n v ps s rr :
  find_exact a (apath a) n v (rc_flavor c) = Some (s, rr) -> gone c a ((n, Some v, true) :: ps) s n v (rc_flavor c).
Proof. intro F. split; [reflexivity|]. split; [left; reflexivity|exact (find_home _ _ _ _ _ _ F)]. Qed.

Lemma gone_after c a s1 n1 v1 ps s n v f' :
  ~ In (n1, Some v1, true) ps ->
  gone c (aapply (ADelDecl s1 n1 v1 (rc_flavor c)) a) ps s n v f' ->
  gone c a ((n1, Some v1, true) :: ps) s n v f'.
Proof.
  intros Hn [Hf [Hi Hh]]. assert (N : (n, v) <> (n1, v1)).
  { intro E. inversion E. subst. contradiction. }
  rewrite (home_after_other _ _ _ _ _ _ _ N) in Hh. split; [exact Hf|]. split; [right; exact Hi|exact Hh].
Qed.

Lemma gone_before c a s1 n1 v1 ps s n v f' :
  (n, v) <> (n1, v1) ->
  gone c a ((n1, Some v1, true) :: ps) s n v f' ->
  gone c (aapply (ADelDecl s1 n1 v1 (rc_flavor c)) a) ps s n v f'.
Proof.
  intros N [Hf [Hi Hh]]. split; [exact Hf|]. split.
  - destruct Hi as [E|Hi]; [inversion E; subst; contradiction|exact Hi].
  - rewrite (home_after_other _ _ _ _ _ _ _ N). exact Hh.
Qed.

Lemma decl_after_other c a n1 v1 ps s1 rr s n v f' :
  find_exact a (apath a) n1 v1 (rc_flavor c) = Some (s1, rr) -> ~ gone c a ((n1, Some v1, true) :: ps) s n v f' ->
  a_decl (aapply (ADelDecl s1 n1 v1 (rc_flavor c)) a) s n v f' = a_decl a s n v f'.
Proof.
  intros F NG. rewrite a_decl_aapply.
  destruct (dkey_eqb (s, n, v, f') (s1, n1, v1, rc_flavor c)) eqn:E; [|rewrite andb_false_r; reflexivity].
  apply dkey_eqb_eq in E. inversion E. subst. elim NG. exact (gone_head _ _ _ _ _ _ _ F).
Qed.

Lemma tag_points_true a s1 n1 f v1 s n t f' :
  tag_points a s1 n1 f v1 (s, n, t, f') = true <-> s = s1 /\ n = n1 /\ f' = f /\ a_tag a s n t f' = Some v1.
Proof.
  unfold tag_points. rewrite !andb_true_iff, !str_eqb_eq, opt_str_eqb_true. tauto.
Qed.

Lemma tag_after_other c a n1 v1 ps s1 rr s n t f' :
  find_exact a (apath a) n1 v1 (rc_flavor c) = Some (s1, rr) ->
  (forall v, a_tag a s n t f' = Some v -> ~ gone c a ((n1, Some v1, true) :: ps) s n v f') ->
  a_tag (aapply (ADelDecl s1 n1 v1 (rc_flavor c)) a) s n t f' = a_tag a s n t f'.
Proof.
  intros F NG. rewrite a_tag_aapply.
  destruct (tag_points a s1 n1 (rc_flavor c) v1 (s, n, t, f')) eqn:E; [|rewrite andb_false_r; reflexivity].
  apply tag_points_true in E as [-> [-> [-> E]]]. elim (NG v1 E). exact (gone_head _ _ _ _ _ _ _ F).
Qed.

Lemma dir_step_cases keep c a0 a1 p removed fs removed' fs' :
  dir_step keep c a0 a1 p removed fs = Ok (removed', fs') ->
  (removed' = removed /\ fs' = fs /\
     (In (product_dir c a0 p) removed \/
      (keep = true /\ exists dir, product_dir c a0 p = Some dir /\ placeholder dir = false /\ in_use c a1 dir = true))) \/
  (removed' = product_dir c a0 p :: removed /\ fs' = fs /\
     (product_dir c a0 p = None \/ exists dir, product_dir c a0 p = Some dir /\ placeholder dir = true)) \/
  (exists dir, product_dir c a0 p = Some dir /\ placeholder dir = false /\ In dir fs /\
               ~ In (Some dir) removed /\ removed' = Some dir :: removed /\ fs' = rmtree dir fs).
Proof.
  unfold dir_step. destruct (mem_odir (product_dir c a0 p) removed) eqn:M.
  - intro H. injection H as <- <-. left. apply mem_odir_In in M. auto.
  - apply mem_odir_not_In in M. destruct (product_dir c a0 p) as [dir|].
    + destruct (placeholder dir) eqn:Ph.
      * intro H. injection H as <- <-. right. left. split; [reflexivity|]. split; [reflexivity|]. right. exists dir. auto.
      * destruct (keep && in_use c a1 dir) eqn:KU.
        { intro H. injection H as <- <-. apply andb_true_iff in KU as [K1 K2]. left. split; [reflexivity|]. split; [reflexivity|].
          right. split; [exact K1|]. exists dir. auto. }
        destruct (mem_str dir fs) eqn:I; [|discriminate]. intro H. injection H as <- <-.
        right. right. exists dir. apply mem_str_In in I. exact (conj eq_refl (conj Ph (conj I (conj M (conj eq_refl eq_refl))))).
    + intro H. injection H as <- <-. right. left. auto.
Qed.

Lemma dir_step_fs_sub keep c a0 a1 p removed fs removed' fs' x :
  dir_step keep c a0 a1 p removed fs = Ok (removed', fs') -> In x fs' -> In x fs.
Proof.
  intro H. destruct (dir_step_cases _ _ _ _ _ _ _ _ _ H) as [[_ [-> _]]|[[_ [-> _]]|[dir [_ [_ [_ [_ [_ ->]]]]]]]]; auto.
  intro I. apply rmtree_In in I. tauto.
Qed.

Lemma dir_step_fs_keep keep c a0 a1 p removed fs removed' fs' x :
  dir_step keep c a0 a1 p removed fs = Ok (removed', fs') -> In x fs ->
  (forall dir, product_dir c a0 p = Some dir -> placeholder dir = false -> under dir x = false) -> In x fs'.
Proof.
  intros H I K. destruct (dir_step_cases _ _ _ _ _ _ _ _ _ H) as [[_ [-> _]]|[[_ [-> _]]|[dir [P [Ph [_ [_ [_ ->]]]]]]]]; auto.
  apply rmtree_In. split; [exact I|]. apply (K dir P Ph).
Qed.

Lemma dir_step_removed_mono keep c a0 a1 p removed fs removed' fs' d :
  dir_step keep c a0 a1 p removed fs = Ok (removed', fs') -> In d removed -> In d removed'.
Proof.
  intros H I. destruct (dir_step_cases _ _ _ _ _ _ _ _ _ H) as [[-> _]|[[-> _]|[dir [_ [_ [_ [_ [-> _]]]]]]]]; auto; right; exact I.
Qed.

(* what has been noted as removed really is not there any more *)
Definition fs_inv (removed : list (option str)) (fs : list str) : Prop :=
  forall d, In (Some d) removed -> placeholder d = false -> forall x, under d x = true -> ~ In x fs.

Lemma dir_step_inv keep c a0 a1 p removed fs removed' fs' :
  fs_inv removed fs -> dir_step keep c a0 a1 p removed fs = Ok (removed', fs') ->
  fs_inv removed' fs' /\
  (keep = false -> forall dir, product_dir c a0 p = Some dir -> placeholder dir = false ->
               forall x, under dir x = true -> ~ In x fs').
Proof.
  intros Inv H. destruct (dir_step_cases _ _ _ _ _ _ _ _ _ H) as [[-> [-> I]]|[[-> [-> K]]|[dir [P [Ph [I [N [-> ->]]]]]]]].
  - split; [exact Inv|]. intros Hk dir P Ph x U. destruct I as [I|[K _]]; [|congruence]. rewrite P in I. apply (Inv dir I Ph x U).
  - split.
    + intros d [E|I] Ph x U; [|apply (Inv d I Ph x U)].
      destruct K as [K|[dir [K1 K2]]]; [rewrite K in E; discriminate|].
      rewrite K1 in E. inversion E. subst. congruence.
    + intros _ dir P Ph. destruct K as [K|[dir' [K1 K2]]]; [rewrite K in P; discriminate|].
      rewrite K1 in P. inversion P. subst. congruence.
  - split.
    + intros d [E|I'] Ph' x U J; apply rmtree_In in J as [J1 J2].
      * inversion E. subst. congruence.
      * apply (Inv d I' Ph' x U J1).
    + intros _ dir' P' _ x U J. rewrite P in P'. inversion P'. subst. apply rmtree_In in J as [_ J]. congruence.
Qed.

Lemma dir_step_total keep c a0 a1 p removed fs :
  (forall dir, product_dir c a0 p = Some dir -> placeholder dir = false -> In (Some dir) removed \/ In dir fs) ->
  exists removed' fs', dir_step keep c a0 a1 p removed fs = Ok (removed', fs').
Proof.
  intro H. unfold dir_step. destruct (mem_odir (product_dir c a0 p) removed) eqn:M; [eauto|].
  destruct (product_dir c a0 p) as [dir|] eqn:P; [|eauto].
  destruct (placeholder dir) eqn:Ph; [eauto|].
  destruct (keep && in_use c a1 dir); [eauto|].
  destruct (H dir eq_refl Ph) as [I|I].
  - apply mem_odir_not_In in M. contradiction.
  - apply mem_str_In in I. rewrite I. eauto.
Qed.

Lemma dir_step_present keep c a0 a1 p removed fs removed' fs' dq :
  dir_step keep c a0 a1 p removed fs = Ok (removed', fs') -> In (Some dq) removed \/ In dq fs ->
  (forall dir, product_dir c a0 p = Some dir -> placeholder dir = false -> under dir dq = true -> dir = dq) ->
  In (Some dq) removed' \/ In dq fs'.
Proof.
  intros D [I|I] Hnest; [left; exact (dir_step_removed_mono _ _ _ _ _ _ _ _ _ _ D I)|].
  destruct (dir_step_cases _ _ _ _ _ _ _ _ _ D) as [[_ [-> _]]|[[_ [-> _]]|[dir [P [Ph [_ [_ [-> ->]]]]]]]];
    [right; exact I|right; exact I|].
  destruct (under dir dq) eqn:U.
  - left. left. f_equal. exact (Hnest dir P Ph U).
  - right. apply rmtree_In. split; assumption.
Qed.

Lemma dir_step_err keep c a0 a1 p removed fs e : dir_step keep c a0 a1 p removed fs = Err e -> e = Crash.
Proof.
  unfold dir_step. destruct (mem_odir (product_dir c a0 p) removed); [discriminate|].
  destruct (product_dir c a0 p) as [dir|]; [|discriminate].
  destruct (placeholder dir); [discriminate|]. destruct (keep && in_use c a1 dir); [discriminate|].
  destruct (mem_str dir fs); [discriminate|]. intro H. inversion H. reflexivity.
Qed.

Lemma in_use_true c a dir :
  in_use c a dir = true <->
  exists s n v f r, In s (apath a) /\ In f (fallbacks (rc_flavor c)) /\ a_decl a s n v f = Some r /\
                    placeholder (fst r) = false /\ under dir (fst r) = true.
Proof.
  unfold in_use. rewrite existsb_exists. split.
  - intros [[[[[s n] v] f] r0] [I H]]. cbn [fst] in H. apply andb_true_iff in H as [H H3]. apply andb_true_iff in H as [H1 H2].
    destruct (a_decl a s n v f) as [r|] eqn:E; [|discriminate]. apply andb_true_iff in H3 as [H3 H4].
    apply negb_true_iff in H3. apply mem_str_In in H1, H2. exists s, n, v, f, r. auto.
  - intros [s [n [v [f [r [Is [If [E [Ph U]]]]]]]]]. exists ((s, n, v, f), r). split.
    + unfold a_decl in E. apply (glookup_In dkey_eqb dkey_eqb_eq) in E. exact E.
    + cbn [fst]. rewrite E, Ph, U. rewrite (proj2 (mem_str_In _ _) Is), (proj2 (mem_str_In _ _) If). reflexivity.
Qed.

Lemma dir_step_in_use c a0 a1 p removed fs removed' fs' dir :
  dir_step true c a0 a1 p removed fs = Ok (removed', fs') ->
  product_dir c a0 p = Some dir -> placeholder dir = false -> in_use c a1 dir = true -> fs' = fs.
Proof.
  unfold dir_step. intros H P Ph U. rewrite P in H. destruct (mem_odir (Some dir) removed); [inversion H; reflexivity|].
  rewrite Ph, U in H. cbn [andb] in H. inversion H. reflexivity.
Qed.

Lemma dir_step_keep_irrelevant c a0 a1 p removed fs :
  (forall dir, product_dir c a0 p = Some dir -> placeholder dir = false -> in_use c a1 dir = false) ->
  dir_step true c a0 a1 p removed fs = dir_step false c a0 a1 p removed fs.
Proof.
  intro H. unfold dir_step. destruct (product_dir c a0 p) as [dir|]; [|reflexivity].
  destruct (placeholder dir) eqn:Ph; [reflexivity|]. rewrite (H dir eq_refl Ph). reflexivity.
Qed.

Lemma destroy_cons keep c a0 n v ps removed st :
  destroy keep c a0 ((n, Some v, true) :: ps) removed st =
  match find_exact (rdb st) (apath (rdb st)) n v (rc_flavor c) with
  | None => (Err NotFound, st)
  | Some (s, _) =>
      match dir_step keep c a0 (aapply (ADelDecl s n v (rc_flavor c)) (rdb st)) (n, Some v, true) removed (rfs st) with
      | Err e => (Err e, mkR (aapply (ADelDecl s n v (rc_flavor c)) (rdb st)) (rfs st))
      | Ok (removed', fs') => destroy keep c a0 ps removed' (mkR (aapply (ADelDecl s n v (rc_flavor c)) (rdb st)) fs')
      end
  end.
Proof.
  cbn [destroy]. unfold nname, nver. cbn [fst snd]. rewrite undeclare_some.
  destruct (find_exact (rdb st) (apath (rdb st)) n v (rc_flavor c)) as [[s rr]|]; reflexivity.
Qed.

(* A run of the loop on products with a version: it ends at the end of the list, at a product that is not declared
   any more, at a directory that cannot be deleted (the product has been undeclared by then), or goes on after one
   undeclare and one directory step. *)
Inductive destroy_run (keep : bool) (c : rconf) (a0 : adb)
  : list node -> list (option str) -> rstate -> res unit -> rstate -> Prop :=
| run_end removed st : destroy_run keep c a0 [] removed st (Ok tt) st
| run_not_found n v ps removed st :
    find_exact (rdb st) (apath (rdb st)) n v (rc_flavor c) = None ->
    destroy_run keep c a0 ((n, Some v, true) :: ps) removed st (Err NotFound) st
| run_crash n v ps removed st s rr e :
    find_exact (rdb st) (apath (rdb st)) n v (rc_flavor c) = Some (s, rr) ->
    dir_step keep c a0 (aapply (ADelDecl s n v (rc_flavor c)) (rdb st)) (n, Some v, true) removed (rfs st) = Err e ->
    destroy_run keep c a0 ((n, Some v, true) :: ps) removed st (Err e) (mkR (aapply (ADelDecl s n v (rc_flavor c)) (rdb st)) (rfs st))
| run_step n v ps removed st s rr removed' fs' r st' :
    find_exact (rdb st) (apath (rdb st)) n v (rc_flavor c) = Some (s, rr) ->
    dir_step keep c a0 (aapply (ADelDecl s n v (rc_flavor c)) (rdb st)) (n, Some v, true) removed (rfs st) = Ok (removed', fs') ->
    destroy_run keep c a0 ps removed' (mkR (aapply (ADelDecl s n v (rc_flavor c)) (rdb st)) fs') r st' ->
    destroy_run keep c a0 ((n, Some v, true) :: ps) removed st r st'.

Lemma destroy_runs keep c a0 : forall ps removed st r st',
  all_real ps -> destroy keep c a0 ps removed st = (r, st') -> destroy_run keep c a0 ps removed st r st'.
Proof.
  induction ps as [|p ps IH]; intros removed st r st' AR H.
  - injection H as <- <-. constructor.
  - destruct (AR p (or_introl eq_refl)) as [n [v ->]]. apply all_real_tail in AR. rewrite destroy_cons in H.
    destruct (find_exact (rdb st) (apath (rdb st)) n v (rc_flavor c)) as [[s rr]|] eqn:F.
    + destruct (dir_step keep c a0 (aapply (ADelDecl s n v (rc_flavor c)) (rdb st)) (n, Some v, true) removed (rfs st))
        as [[removed' fs']|e] eqn:D.
      * exact (run_step _ _ _ _ _ _ _ _ _ _ _ _ _ _ F D (IH _ _ _ _ AR H)).
      * injection H as <- <-. exact (run_crash _ _ _ _ _ _ _ _ _ _ _ F D).
    + injection H as <- <-. exact (run_not_found _ _ _ _ _ _ _ _ F).
Qed.

Lemma destroy_err keep c a0 ps removed st e st' :
  destroy_run keep c a0 ps removed st (Err e) st' -> e = NotFound \/ e = Crash.
Proof.
  intro R. remember (Err e) as r eqn:E. induction R as [| |n v ps removed st s rr e' F D|]; auto.
  - discriminate.
  - injection E as <-. left. reflexivity.
  - injection E as <-. right. exact (dir_step_err _ _ _ _ _ _ _ _ D).
Qed.

Lemma destroy_decl_frame keep c a0 ps removed st r st' :
  destroy_run keep c a0 ps removed st r st' -> NoDup ps ->
  forall s n v f', ~ gone c (rdb st) ps s n v f' -> a_decl (rdb st') s n v f' = a_decl (rdb st) s n v f'.
Proof.
  induction 1 as [removed st|n1 v1 ps removed st F|n1 v1 ps removed st s1 rr e F D|n1 v1 ps removed st s1 rr removed' fs' r st' F D R IH];
    intros ND s n v f' NG; [reflexivity|reflexivity| |].
  - exact (decl_after_other _ _ _ _ _ _ _ _ _ _ _ F NG).
  - apply NoDup_cons_iff in ND as [Hnotin ND].
    rewrite (IH ND s n v f'); [exact (decl_after_other _ _ _ _ _ _ _ _ _ _ _ F NG)|].
    intro G. exact (NG (gone_after _ _ _ _ _ _ _ _ _ _ Hnotin G)).
Qed.

Lemma destroy_decl_gone keep c a0 ps removed st st' :
  destroy_run keep c a0 ps removed st (Ok tt) st' -> NoDup ps ->
  forall s n v f', gone c (rdb st) ps s n v f' -> a_decl (rdb st') s n v f' = None.
Proof.
  intro R. remember (Ok tt) as r eqn:E.
  induction R as [removed st|n1 v1 ps removed st F|n1 v1 ps removed st s1 rr e F D|n1 v1 ps removed st s1 rr removed' fs' r st' F D R IH]; intros ND s n v f' G; try discriminate.
  - destruct G as [_ [[] _]].
  - apply NoDup_cons_iff in ND as [Hnotin ND].
    destruct (geqb_dec vf_eqb vf_eqb_eq (n, v) (n1, v1)) as [Q|N]; [|exact (IH E ND s n v f' (gone_before _ _ _ _ _ _ _ _ _ _ N G))].
    (* the declaration undeclared in this step: it is not touched again *)
    injection Q as -> ->. destruct G as [-> [_ Hh]]. rewrite (find_home _ _ _ _ _ _ F) in Hh. injection Hh as ->.
    rewrite (destroy_decl_frame _ _ _ _ _ _ _ _ R ND); [|intros [_ [I _]]; contradiction].
    cbn [rdb]. rewrite a_decl_aapply, dkey_eqb_refl, (proj2 (find_exact_some _ _ _ _ _ _ _ F)). reflexivity.
Qed.

Lemma destroy_tag_frame keep c a0 ps removed st r st' :
  destroy_run keep c a0 ps removed st r st' -> NoDup ps ->
  forall s n t f', (forall v, a_tag (rdb st) s n t f' = Some v -> ~ gone c (rdb st) ps s n v f') ->
  a_tag (rdb st') s n t f' = a_tag (rdb st) s n t f'.
Proof.
  induction 1 as [removed st|n1 v1 ps removed st F|n1 v1 ps removed st s1 rr e F D|n1 v1 ps removed st s1 rr removed' fs' r st' F D R IH];
    intros ND s n t f' NG; [reflexivity|reflexivity| |].
  - exact (tag_after_other _ _ _ _ _ _ _ _ _ _ _ F NG).
  - apply NoDup_cons_iff in ND as [Hnotin ND].
    pose proof (tag_after_other _ _ _ _ _ _ _ _ _ _ _ F NG) as Step.
    rewrite (IH ND s n t f'); [exact Step|]. cbn [rdb]. rewrite Step.
    intros v E G. exact (NG v E (gone_after _ _ _ _ _ _ _ _ _ _ Hnotin G)).
Qed.

Lemma destroy_tag_gone keep c a0 ps removed st st' :
  destroy_run keep c a0 ps removed st (Ok tt) st' -> NoDup ps ->
  forall s n t f' v, a_tag (rdb st) s n t f' = Some v -> gone c (rdb st) ps s n v f' ->
  a_tag (rdb st') s n t f' = None.
Proof.
  intro R. remember (Ok tt) as r eqn:Er.
  induction R as [removed st|n1 v1 ps removed st F|n1 v1 ps removed st s1 rr e F D|n1 v1 ps removed st s1 rr removed' fs' r st' F D R IH]; intros ND s n t f' v E G; try discriminate.
  - destruct G as [_ [[] _]].
  - apply NoDup_cons_iff in ND as [Hnotin ND].
    set (a1 := aapply (ADelDecl s1 n1 v1 (rc_flavor c)) (rdb st)) in *.
    assert (E1 : a_tag a1 s n t f' =
                 if tag_points (rdb st) s1 n1 (rc_flavor c) v1 (s, n, t, f') then None else a_tag (rdb st) s n t f').
    { unfold a1. rewrite a_tag_aapply, (proj2 (find_exact_some _ _ _ _ _ _ _ F)). reflexivity. }
    destruct (tag_points (rdb st) s1 n1 (rc_flavor c) v1 (s, n, t, f')) eqn:T.
    + (* the assignment went in this step, and none appears *)
      rewrite (destroy_tag_frame _ _ _ _ _ _ _ _ R ND s n t f'); cbn [rdb]; fold a1; rewrite E1; [reflexivity|discriminate].
    + (* it is still there, and still names a version to be removed *)
      apply (IH Er ND s n t f' v); cbn [rdb]; fold a1; [rewrite E1; exact E|].
      apply gone_before; [|exact G]. intro Q. injection Q as -> ->.
      destruct G as [-> [_ Hh]]. rewrite (find_home _ _ _ _ _ _ F) in Hh. injection Hh as ->.
      rewrite (proj2 (tag_points_true _ _ _ _ _ _ _ _ _) (conj eq_refl (conj eq_refl (conj eq_refl E)))) in T. discriminate.
Qed.

Lemma destroy_fs_sub keep c a0 ps removed st r st' :
  destroy_run keep c a0 ps removed st r st' -> forall x, In x (rfs st') -> In x (rfs st).
Proof.
  induction 1 as [| | |n v ps removed st s rr removed' fs' r st' F D R IH]; auto.
  intros x I. exact (dir_step_fs_sub _ _ _ _ _ _ _ _ _ _ D (IH x I)).
Qed.

Lemma destroy_fs_keep keep c a0 ps removed st r st' :
  destroy_run keep c a0 ps removed st r st' ->
  forall x, In x (rfs st) ->
  (forall p dir, In p ps -> product_dir c a0 p = Some dir -> placeholder dir = false -> under dir x = false) ->
  In x (rfs st').
Proof.
  induction 1 as [| | |n v ps removed st s rr removed' fs' r st' F D R IH]; auto.
  intros x I K. apply IH.
  - apply (dir_step_fs_keep _ _ _ _ _ _ _ _ _ _ D I). intros dir. apply K. left. reflexivity.
  - intros p dir Ip. apply K. right. exact Ip.
Qed.

Lemma destroy_fs_gone c a0 ps removed st st' :
  destroy_run false c a0 ps removed st (Ok tt) st' -> fs_inv removed (rfs st) ->
  forall p dir x, In p ps -> product_dir c a0 p = Some dir -> placeholder dir = false -> under dir x = true ->
  ~ In x (rfs st').
Proof.
  intro R. remember (Ok tt) as r eqn:E.
  induction R as [| | |n v ps removed st s rr removed' fs' r st' F D R IH]; intros Inv q dir x Iq P Ph U; try discriminate.
  - destruct Iq.
  - destruct (dir_step_inv _ _ _ _ _ _ _ _ _ Inv D) as [Inv' Hd].
    destruct Iq as [<-|Iq]; [|exact (IH E Inv' q dir x Iq P Ph U)].
    intro J. apply (destroy_fs_sub _ _ _ _ _ _ _ _ R) in J. exact (Hd eq_refl dir P Ph x U J).
Qed.

Lemma destroy_total keep c a0 : forall ps removed st,
  NoDup ps -> all_real ps ->
  (forall n v, In (n, Some v, true) ps -> find_exact (rdb st) (apath (rdb st)) n v (rc_flavor c) <> None) ->
  (forall p dir, In p ps -> product_dir c a0 p = Some dir -> placeholder dir = false ->
                 In (Some dir) removed \/ In dir (rfs st)) ->
  (forall p q dp dq, In p ps -> In q ps -> product_dir c a0 p = Some dp -> product_dir c a0 q = Some dq ->
                     placeholder dp = false -> placeholder dq = false -> under dp dq = true -> dp = dq) ->
  exists st', destroy keep c a0 ps removed st = (Ok tt, st').
Proof.
  induction ps as [|p ps IH]; intros removed st ND AR Hd Hdir Hnest.
  - exists st. reflexivity.
  - destruct (AR p (or_introl eq_refl)) as [n1 [v1 ->]]. apply NoDup_cons_iff in ND as [Hnotin ND].
    rewrite destroy_cons.
    destruct (find_exact (rdb st) (apath (rdb st)) n1 v1 (rc_flavor c)) as [[s1 rr]|] eqn:F;
      [|elim (Hd n1 v1 (or_introl eq_refl) F)].
    destruct (dir_step_total keep c a0 (aapply (ADelDecl s1 n1 v1 (rc_flavor c)) (rdb st)) (n1, Some v1, true) removed (rfs st)) as [removed' [fs' D]].
    { intros dir. apply Hdir. left. reflexivity. }
    rewrite D. apply IH; [exact ND|apply (all_real_tail _ _ AR)| | |].
    + intros n v I. cbn [rdb]. rewrite find_exact_after_other; [apply Hd; right; exact I|].
      intro E. injection E as -> ->. contradiction.
    + intros q dq Iq Pq Phq. cbn [rfs]. apply (dir_step_present _ _ _ _ _ _ _ _ _ _ D (Hdir q dq (or_intror Iq) Pq Phq)).
      intros dir P Ph U. exact (Hnest (n1, Some v1, true) q dir dq (or_introl eq_refl) (or_intror Iq) P Pq Ph Phq U).
    + intros p q dp dq Ip Iq. apply Hnest; right; assumption.
Qed.

(* a declaration that is there, that Eups._findDeclarations sees, and that is not one of those being removed,
   protects its directory and every directory that holds it *)
Definition protects (c : rconf) (a : adb) (ps : list node) (dir : str) : Prop :=
  exists s n v f r, In s (apath a) /\ In f (fallbacks (rc_flavor c)) /\ a_decl a s n v f = Some r /\
                    placeholder (fst r) = false /\ under dir (fst r) = true /\ ~ gone c a ps s n v f.

Lemma protects_in_use c a ps dir : protects c a ps dir -> in_use c a dir = true.
Proof. intros [s [n [v [f [r [Is [If [E [Ph [U _]]]]]]]]]]. apply in_use_true. exists s, n, v, f, r. auto. Qed.

Lemma protects_after c a n1 v1 ps s1 rr dir :
  find_exact a (apath a) n1 v1 (rc_flavor c) = Some (s1, rr) -> ~ In (n1, Some v1, true) ps ->
  protects c a ((n1, Some v1, true) :: ps) dir -> protects c (aapply (ADelDecl s1 n1 v1 (rc_flavor c)) a) ps dir.
Proof.
  intros F Hnotin [s [n [v [f [r [Is [If [E [Ph [U NG]]]]]]]]]]. exists s, n, v, f, r.
  split; [rewrite apath_aapply; exact Is|]. split; [exact If|].
  split; [rewrite (decl_after_other _ _ _ _ _ _ _ _ _ _ _ F NG); exact E|]. split; [exact Ph|]. split; [exact U|].
  intro G. exact (NG (gone_after _ _ _ _ _ _ _ _ _ _ Hnotin G)).
Qed.

Lemma destroy_fs_protected c a0 ps removed st r st' :
  destroy_run true c a0 ps removed st r st' -> NoDup ps ->
  forall x, In x (rfs st) ->
  (forall p dir, In p ps -> product_dir c a0 p = Some dir -> placeholder dir = false -> under dir x = true ->
                 protects c (rdb st) ps dir) ->
  In x (rfs st').
Proof.
  induction 1 as [| | |n1 v1 ps removed st s1 rr removed' fs' r st' F D R IH]; auto.
  intros ND x I K. apply NoDup_cons_iff in ND as [Hnotin ND].
  apply (IH ND x); cbn [rdb rfs].
  - (* the step deletes a directory that holds x only if nothing protects it *)
    destruct (product_dir c a0 (n1, Some v1, true)) as [dir|] eqn:P;
      [|apply (dir_step_fs_keep _ _ _ _ _ _ _ _ _ _ D I); intros dir' P'; rewrite P in P'; discriminate].
    destruct (placeholder dir) eqn:Ph;
      [apply (dir_step_fs_keep _ _ _ _ _ _ _ _ _ _ D I); intros dir' P' Ph'; rewrite P in P'; injection P' as <-; congruence|].
    destruct (under dir x) eqn:U;
      [|apply (dir_step_fs_keep _ _ _ _ _ _ _ _ _ _ D I); intros dir' P' _; rewrite P in P'; injection P' as <-; exact U].
    pose proof (protects_after _ _ _ _ _ _ _ _ F Hnotin (K _ dir (or_introl eq_refl) P Ph U)) as Pr.
    rewrite (dir_step_in_use _ _ _ _ _ _ _ _ _ D P Ph (protects_in_use _ _ _ _ Pr)). exact I.
  - intros q dir Iq Pq Phq Uq. exact (protects_after _ _ _ _ _ _ _ _ F Hnotin (K q dir (or_intror Iq) Pq Phq Uq)).
Qed.
