(* Lemmas about the os.path functions and the macro substitution of Model/Paths.v (C16) *)
From Eupsv Require Import Base.Base Base.BaseLemmas Model.Paths Model.Records Proofs.RecordsLib.
From Coq Require Import Lia.

Definition plain (s : str) : bool := negb (has_dollar s).

(* an absolute, normalised directory name without macro characters: the stack root,
   an outside location *)
Definition wf_abs (s : str) : bool := isabs s && negb (ends_slash s) && plain s.

(* a relative, normalised path without macro characters that is not a placeholder *)
Definition wf_rel (s : str) : bool :=
  nonempty s && negb (isabs s) && negb (ends_slash s) && plain s && is_real (Some s).

Lemma wf_abs_parts s : wf_abs s = true ->
  isabs s = true /\ ends_slash s = false /\ has_dollar s = false.
Proof. unfold wf_abs, plain. rewrite !andb_true_iff, !negb_true_iff. tauto. Qed.

Lemma wf_rel_parts s : wf_rel s = true ->
  nonempty s = true /\ isabs s = false /\ ends_slash s = false /\ has_dollar s = false /\
  is_real (Some s) = true.
Proof. unfold wf_rel, plain. rewrite !andb_true_iff, !negb_true_iff. tauto. Qed.

Lemma isabs_cons s : isabs s = true -> exists r, s = c_slash :: r.
Proof.
  destruct s as [|c r]; [discriminate|]. cbn. intro H. apply ascii_eqb_eq in H. subst. eauto.
Qed.

Lemma isabs_app a b : isabs a = true -> isabs (a ++ b) = true.
Proof. intro H. destruct (isabs_cons a H) as [r ->]. reflexivity. Qed.

Lemma isabs_real s : isabs s = true -> is_real (Some s) = true.
Proof. intro H. destruct (isabs_cons s H) as [r ->]. reflexivity. Qed.

Lemma isabs_truthy s : isabs s = true -> truthy (Some s) = true.
Proof. intro H. destruct (isabs_cons s H) as [r ->]. reflexivity. Qed.

Lemma nonempty_truthy s : nonempty s = true -> truthy (Some s) = true.
Proof. destruct s; [discriminate|reflexivity]. Qed.

Lemma nonempty_abs t : isabs t = true -> nonempty t = true.
Proof. intro H. destruct (isabs_cons t H) as [x ->]. reflexivity. Qed.

Lemma isabs_not_none_like s : isabs s = true -> none_like (Some s) = false.
Proof. intro H. destruct (isabs_cons s H) as [r ->]. reflexivity. Qed.

Lemma has_dollar_app a b : has_dollar (a ++ b) = has_dollar a || has_dollar b.
Proof. apply mem_ascii_app. Qed.

Lemma ends_slash_app a b : b <> [] -> ends_slash (a ++ b) = ends_slash b.
Proof. intro N. unfold ends_slash. now rewrite last_opt_app_r. Qed.

Lemma starts_macro_plain s : has_dollar s = false -> starts_macro s = false.
Proof.
  destruct s as [|c r]; [reflexivity|]. unfold has_dollar. rewrite mem_ascii_cons.
  intro H. apply orb_false_iff in H. destruct H as [H _].
  unfold starts_macro. cbn [lit String.list_ascii_of_string starts_with].
  change "$"%char with c_dollar. now rewrite H.
Qed.

Lemma starts_macro_abs s : isabs s = true -> starts_macro s = false.
Proof. intro H. destruct (isabs_cons s H) as [r ->]. reflexivity. Qed.

Lemma path_join_rel a b :
  a <> [] -> ends_slash a = false -> isabs b = false -> path_join a b = a ++ c_slash :: b.
Proof.
  intros Na Ha Hb. unfold path_join. rewrite Hb, Ha. destruct a; [congruence|reflexivity].
Qed.

Lemma path_join_abs a b : isabs b = true -> path_join a b = b.
Proof. intro H. unfold path_join. now rewrite H. Qed.

Lemma path_join_nil a : a <> [] -> ends_slash a = false -> path_join a [] = a ++ [c_slash].
Proof. intros. now apply path_join_rel. Qed.

Lemma subpath_abs_below root s :
  root <> [] -> ends_slash root = false -> subpath_abs (root ++ c_slash :: s) root = true.
Proof.
  intros Hn He. unfold subpath_abs. rewrite (path_join_nil root Hn He).
  rewrite starts_with_sep. apply orb_true_r.
Qed.

Lemma rstrip_slash_id s : ends_slash s = false -> rstrip_slash s = s.
Proof.
  induction s as [|c r IH]; [reflexivity|]. intro H. cbn [rstrip_slash].
  destruct r as [|d r'].
  - unfold ends_slash in H. cbn in H. cbn. now rewrite H.
  - assert (E : ends_slash (d :: r') = false).
    { unfold ends_slash in *. cbn [last_opt] in *. exact H. }
    rewrite (IH E). reflexivity.
Qed.

Lemma all_slash_false s : s <> [] -> ends_slash s = false -> all_slash s = false.
Proof.
  induction s as [|c r IH]; [congruence|]. intros _ H. cbn [all_slash forallb].
  destruct r as [|d r'].
  - unfold ends_slash in H. cbn in H. now rewrite H.
  - assert (E : ends_slash (d :: r') = false).
    { unfold ends_slash in *. cbn [last_opt] in *. exact H. }
    unfold all_slash in IH. rewrite IH by (congruence || assumption). apply andb_false_r.
Qed.

Lemma split_last_slash_none t : mem_ascii c_slash t = false -> split_last_slash t = None.
Proof.
  induction t as [|c r IH]; [reflexivity|]. rewrite mem_ascii_cons. intro H.
  apply orb_false_iff in H. destruct H as [H1 H2]. cbn. rewrite (IH H2).
  now rewrite ascii_eqb_sym, H1.
Qed.

Lemma split_last_slash_app a t :
  mem_ascii c_slash t = false -> split_last_slash (a ++ c_slash :: t) = Some (a, t).
Proof.
  intro H. induction a as [|c a IH]; cbn [app split_last_slash].
  - rewrite (split_last_slash_none t H), ascii_eqb_refl. reflexivity.
  - now rewrite IH.
Qed.

Lemma dirname_app a t :
  a <> [] -> ends_slash a = false -> mem_ascii c_slash t = false -> dirname (a ++ c_slash :: t) = a.
Proof.
  intros Na Ha Ht. unfold dirname. rewrite split_last_slash_app by assumption.
  rewrite all_slash_false by assumption. now apply rstrip_slash_id.
Qed.

Lemma basename_app a t : mem_ascii c_slash t = false -> basename (a ++ c_slash :: t) = t.
Proof. intro Ht. unfold basename. now rewrite split_last_slash_app. Qed.

Lemma dirname_rel_none t : mem_ascii c_slash t = false -> dirname t = [].
Proof. intro H. unfold dirname. now rewrite split_last_slash_none. Qed.

Lemma basename_rel_none t : mem_ascii c_slash t = false -> basename t = t.
Proof. intro H. unfold basename. now rewrite split_last_slash_none. Qed.

Definition db_of (root : str) : str := root ++ c_slash :: s_ups_db.

Lemma wf_abs_nonempty s : wf_abs s = true -> s <> [].
Proof. intro H. apply wf_abs_parts in H. destruct H as [H _]. destruct s; [discriminate|congruence]. Qed.

Lemma stack_root_db n v f d t u root :
  wf_abs root = true ->
  stack_root {| p_name := n; p_version := v; p_flavor := f; p_dir := d; p_table := t;
                p_db := Some (db_of root); p_ups := u |} = Some root.
Proof.
  intro H. assert (N := wf_abs_nonempty _ H). apply wf_abs_parts in H. destruct H as [_ [H2 _]].
  unfold stack_root, db_of. cbn [p_db].
  rewrite basename_app by reflexivity. change (str_eqb s_ups_db s_ups_db) with true. cbv iota.
  now rewrite dirname_app.
Qed.

Lemma db_of_abs root : wf_abs root = true -> isabs (db_of root) = true.
Proof. intro H. apply wf_abs_parts in H. apply isabs_app. tauto. Qed.

Lemma macro_text_dollar m : exists r, macro_text m = c_dollar :: r.
Proof. destruct m; eexists; reflexivity. Qed.

Lemma macro_at_not_dollar m c r : ascii_eqb c_dollar c = false -> macro_at (macro_text m) (c :: r) = false.
Proof.
  intro H. destruct (macro_text_dollar m) as [x ->]. unfold macro_at. cbn [starts_with]. now rewrite H.
Qed.

Lemma sub_all_plain m repl x : has_dollar x = false -> sub_all (macro_text m) repl 0 x = x.
Proof.
  induction x as [|c r IH]; [reflexivity|]. unfold has_dollar. rewrite mem_ascii_cons.
  intro H. apply orb_false_iff in H. destruct H as [H1 H2].
  cbn [sub_all]. rewrite macro_at_not_dollar by assumption. now rewrite IH.
Qed.

Lemma sub_prefix_no_dollar m repl x :
  match x with c :: _ => ascii_eqb c_dollar c = false | [] => True end ->
  sub_prefix (macro_text m) repl x = x.
Proof.
  intro H. unfold sub_prefix. destruct x as [|c r].
  - destruct (macro_text_dollar m) as [y ->]. reflexivity.
  - now rewrite macro_at_not_dollar.
Qed.

Lemma apply_macro_plain m repl x : has_dollar x = false -> apply_macro m repl x = x.
Proof.
  intro H. destruct m; cbn [apply_macro]; try (now apply sub_all_plain);
    apply sub_prefix_no_dollar; destruct x as [|c r]; auto;
    unfold has_dollar in H; rewrite mem_ascii_cons in H; apply orb_false_iff in H; tauto.
Qed.

Lemma resolve_val_plain md skip x : has_dollar x = false -> resolve_val md skip x = x.
Proof.
  intro H. unfold resolve_val. destruct x as [|c r]; [reflexivity|].
  set (y := c :: r) in *. clearbody y.
  induction md as [|[m data] md IH]; [reflexivity|]. cbn [fold_left].
  destruct (match skip with Some s => macro_eqb s m | None => false end); [exact IH|].
  destruct data as [[|a b]|]; try exact IH. now rewrite apply_macro_plain.
Qed.

(* prefix macros do nothing to an absolute path *)
Lemma sub_prefix_abs m repl x : isabs x = true -> sub_prefix (macro_text m) repl x = x.
Proof. intro H. destruct (isabs_cons x H) as [r ->]. now apply sub_prefix_no_dollar. Qed.

(* the stored ups dir of a table file held in the database: UPS_DB / e / ups *)
Definition ups_in_db (e : str) : str := s_UPS_DB ++ c_slash :: e ++ c_slash :: s_ups.

Lemma sub_all_flavor_upsdb repl rest :
  has_dollar rest = false ->
  sub_all (macro_text M_FLAVOR) repl 0 (s_UPS_DB ++ rest) = s_UPS_DB ++ rest.
Proof.
  intro H. change (s_UPS_DB ++ rest) with (c_dollar :: lit "UPS_DB" ++ rest).
  cbn [sub_all]. change (macro_at (macro_text M_FLAVOR) (c_dollar :: lit "UPS_DB" ++ rest)) with false.
  cbv iota. f_equal. apply sub_all_plain. unfold has_dollar in *. rewrite mem_ascii_app, H. reflexivity.
Qed.

Lemma sub_prefix_upsdb db rest :
  sub_prefix (macro_text M_UPS_DB) db (s_UPS_DB ++ c_slash :: rest) = db ++ c_slash :: rest.
Proof. reflexivity. Qed.

Lemma sub_prefix_other_upsdb m repl rest :
  m <> M_UPS_DB -> m <> M_FLAVOR -> sub_prefix (macro_text m) repl (s_UPS_DB ++ rest) = s_UPS_DB ++ rest.
Proof. intros N1 N2. destruct m; try congruence; reflexivity. Qed.
