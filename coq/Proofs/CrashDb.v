(* C08, second layer, store side: a store [represents] a database; applying a file effect of
   Db to the database corresponds to applying its image to the store; every file effect of a
   command with path-safe names is path-safe ([effects_ok]: it names a record that exists, whose
   names are safe because the database is, or one made from the names on the command line); the
   reader reads a represented database back; composed with the generic crash theorem. *)
From Eupsv Require Import Base.Base Base.BaseLemmas Model.Db Model.Crash Model.CrashDb
  Proofs.DbLib Proofs.Db Proofs.DbSim Proofs.DbInv Proofs.DbCor Proofs.Crash Proofs.CrashDbLib Proofs.CrashDbAct.

Definition vnode (o : option vcontent) : option node :=
  match o with Some c => Some (File (print_v c)) | None => None end.
Definition cnode (o : option ccontent) : option node :=
  match o with Some c => Some (File (print_c c)) | None => None end.

(* the store holds exactly the records of the database, printed, at their paths; no temporary
   file; every name in the database can be a path component *)
Record represents (f : fs) (d : db) : Prop := mkRep {
  rep_clean : clean f;
  rep_v : forall s k, has_stack d s = true -> segs_ok s k = true -> alookup (vpath s k) f = vnode (db_vfile d s k);
  rep_c : forall s k, has_stack d s = true -> segs_ok s k = true -> alookup (cpath s k) f = cnode (db_cfile d s k);
  rep_vok : forall s k, db_vfile d s k <> None -> key_ok s k = true;
  rep_cok : forall s k, db_cfile d s k <> None -> key_ok s k = true;
  rep_stacks : forall s, has_stack d s = true -> seg_ok s = true
}.

Definition names_ok (d : db) : Prop :=
  (forall s k, db_vfile d s k <> None -> key_ok s k = true) /\
  (forall s k, db_cfile d s k <> None -> key_ok s k = true) /\
  (forall s, has_stack d s = true -> seg_ok s = true).

Lemma represents_names_ok f d : represents f d -> names_ok d.
Proof. intro R. split; [apply (rep_vok _ _ R)|]. split; [apply (rep_cok _ _ R)|apply (rep_stacks _ _ R)]. Qed.

Lemma eff_ok_wf e : eff_ok e = true -> wf_effect (image e).
Proof.
  unfold wf_effect. destruct e as [s n|s n|s k c|s k|s k c|s k]; cbn [image effect_target eff_ok]; intro H.
  - rewrite is_tmp_dpath. apply andb_true_iff in H. destruct H as [_ H]. destruct (is_tmp n); [discriminate|reflexivity].
  - rewrite is_tmp_dpath. apply andb_true_iff in H. destruct H as [_ H]. destruct (is_tmp n); [discriminate|reflexivity].
  - apply is_tmp_vpath.
  - apply is_tmp_vpath.
  - apply is_tmp_cpath.
  - apply is_tmp_cpath.
Qed.

Lemma effs_ok_wf es : forallb eff_ok es = true -> Forall wf_effect (images es).
Proof.
  intro H. apply Forall_forall. intros x Hx. apply in_map_iff in Hx. destruct Hx as [e [<- He]].
  apply eff_ok_wf. apply (proj1 (forallb_forall _ _) H). exact He.
Qed.

Lemma eff_ok_dir s n : seg_ok s && seg_ok n && negb (is_tmp n) = true -> seg_ok s = true /\ seg_ok n = true.
Proof. intro H. apply andb_true_iff in H. destruct H as [H _]. apply andb_true_iff in H. exact H. Qed.

Lemma key_eqb_false_neq k k' : key_eqb k k' = false -> k <> k'.
Proof. intros H E. subst. rewrite key_eqb_refl in H. discriminate. Qed.

Lemma sk_neq s k s' k' : str_eqb s s' && key_eqb k k' = false -> ~ (s = s' /\ k = k').
Proof. intros H [-> ->]. rewrite str_eqb_refl, key_eqb_refl in H. discriminate. Qed.

Lemma sk_eq s k s' k' : str_eqb s s' && key_eqb k k' = true -> s = s' /\ k = k'.
Proof.
  intro H. apply andb_true_iff in H. destruct H as [H1 H2]. apply str_eqb_eq in H1. apply key_eqb_eq in H2. auto.
Qed.

Lemma names_ok_apply1 d e : names_ok d -> eff_ok e = true -> names_ok (apply1 e d).
Proof.
  intros [N1 [N2 N3]] Hok. split; [|split].
  - intros s k. rewrite db_vfile_apply1.
    destruct e as [s' n'|s' n'|s' k' c|s' k'|s' k' c|s' k']; cbn [eff_ok] in *; try apply N1;
      destruct (str_eqb s s' && key_eqb k k') eqn:E; try apply N1.
    + apply sk_eq in E. destruct E as [-> ->]. intros _. exact Hok.
    + intro H. congruence.
  - intros s k. rewrite db_cfile_apply1.
    destruct e as [s' n'|s' n'|s' k' c|s' k'|s' k' c|s' k']; cbn [eff_ok] in *; try apply N2;
      destruct (str_eqb s s' && key_eqb k k') eqn:E; try apply N2.
    + apply sk_eq in E. destruct E as [-> ->]. intros _. exact Hok.
    + intro H. congruence.
  - intros s. rewrite has_stack_apply1. apply N3.
Qed.

Lemma names_ok_apply es : forall d, names_ok d -> forallb eff_ok es = true -> names_ok (apply es d).
Proof.
  induction es as [|e es IH]; intros d N H; [exact N|].
  cbn [forallb] in H. apply andb_true_iff in H. destruct H as [H1 H2].
  rewrite apply_cons. apply IH; [apply names_ok_apply1; assumption|exact H2].
Qed.

(* the name an effect acts on is recognised as the entry the effect is about, so a record path is
   changed by the effects on that record and by no other *)
Definition entry_of (e : fseffect) : entry :=
  match e with
  | Mkdir s n | Rmdir s n => EntDir s n
  | WriteV s k _ | RemoveV s k => EntV s k
  | WriteC s k _ | RemoveC s k => EntC s k
  end.

Lemma classify_target e : eff_ok e = true -> classify (effect_target (image e)) = Some (entry_of e).
Proof.
  destruct e as [s n|s n|s k c|s k|s k c|s k]; cbn [image effect_target eff_ok entry_of]; intro H.
  - destruct (eff_ok_dir _ _ H). apply classify_dpath; assumption.
  - destruct (eff_ok_dir _ _ H). apply classify_dpath; assumption.
  - apply classify_vpath_ok. apply (key_ok_parts _ _ H).
  - apply classify_vpath_ok. apply (key_ok_parts _ _ H).
  - apply classify_cpath_ok. apply (key_ok_parts _ _ H).
  - apply classify_cpath_ok. apply (key_ok_parts _ _ H).
Qed.

Lemma other_entry_untouched f e p en : eff_ok e = true -> classify p = Some en -> en <> entry_of e ->
  alookup p (apply_effect f (image e)) = alookup p f.
Proof.
  intros Hok Hp N. apply apply_effect_other. intros ->. rewrite (classify_target e Hok) in Hp. congruence.
Qed.

Lemma represents_apply1 f d e : represents f d -> eff_ok e = true -> represents (apply_effect f (image e)) (apply1 e d).
Proof.
  intros R Hok. constructor.
  - apply clean_apply; [apply (rep_clean _ _ R)|apply eff_ok_wf; exact Hok].
  - (* version files: only a WriteV or RemoveV of this very key acts on vpath s k *)
    intros s k Hs Hk. rewrite has_stack_apply1 in Hs. rewrite db_vfile_apply1.
    pose proof (other_entry_untouched f e _ _ Hok (classify_vpath_ok s k Hk)) as Other.
    assert (Old : alookup (vpath s k) f = vnode (db_vfile d s k)) by (apply (rep_v _ _ R); assumption).
    destruct e as [s' n'|s' n'|s' k' c|s' k'|s' k' c|s' k']; cbn [entry_of] in Other;
      try (rewrite Other by discriminate; exact Old);
      destruct (str_eqb s s' && key_eqb k k') eqn:E;
      try (rewrite Other; [exact Old|intro X; injection X as -> ->; apply (sk_neq _ _ _ _ E); auto]);
      apply sk_eq in E; destruct E as [-> ->]; cbn [image apply_effect].
    + rewrite alookup_aset_same, Hs. reflexivity.
    + rewrite alookup_aremove_same. reflexivity.
  - intros s k Hs Hk. rewrite has_stack_apply1 in Hs. rewrite db_cfile_apply1.
    pose proof (other_entry_untouched f e _ _ Hok (classify_cpath_ok s k Hk)) as Other.
    assert (Old : alookup (cpath s k) f = cnode (db_cfile d s k)) by (apply (rep_c _ _ R); assumption).
    destruct e as [s' n'|s' n'|s' k' c|s' k'|s' k' c|s' k']; cbn [entry_of] in Other;
      try (rewrite Other by discriminate; exact Old);
      destruct (str_eqb s s' && key_eqb k k') eqn:E;
      try (rewrite Other; [exact Old|intro X; injection X as -> ->; apply (sk_neq _ _ _ _ E); auto]);
      apply sk_eq in E; destruct E as [-> ->]; cbn [image apply_effect].
    + rewrite alookup_aset_same, Hs. reflexivity.
    + rewrite alookup_aremove_same. reflexivity.
  - apply (names_ok_apply1 d e (represents_names_ok f d R) Hok).
  - apply (names_ok_apply1 d e (represents_names_ok f d R) Hok).
  - apply (names_ok_apply1 d e (represents_names_ok f d R) Hok).
Qed.

Lemma represents_apply es : forall f d, represents f d -> forallb eff_ok es = true ->
  represents (apply_effects f (images es)) (apply es d).
Proof.
  induction es as [|e es IH]; intros f d R H; [exact R|].
  cbn [forallb] in H. apply andb_true_iff in H. destruct H as [H1 H2].
  unfold apply_effects, images. cbn [map fold_left]. rewrite apply_cons.
  apply IH; [|exact H2]. apply represents_apply1; assumption.
Qed.

Lemma has_stack_empty path s : has_stack (empty_db path) s = mem_str s path.
Proof.
  unfold has_stack, empty_db. induction path as [|x path IH]; cbn; [reflexivity|].
  destruct (str_eqb s x); [reflexivity|exact IH].
Qed.

Lemma db_vfile_empty path s k : db_vfile (empty_db path) s k = None.
Proof.
  unfold db_vfile, empty_db. induction path as [|x path IH]; cbn; [reflexivity|].
  destruct (str_eqb s x); [reflexivity|exact IH].
Qed.

Lemma db_cfile_empty path s k : db_cfile (empty_db path) s k = None.
Proof.
  unfold db_cfile, empty_db. induction path as [|x path IH]; cbn; [reflexivity|].
  destruct (str_eqb s x); [reflexivity|exact IH].
Qed.

Lemma represents_empty path : forallb seg_ok path = true -> represents [] (empty_db path).
Proof.
  intro H. constructor.
  - apply clean_nil.
  - intros. rewrite db_vfile_empty. reflexivity.
  - intros. rewrite db_cfile_empty. reflexivity.
  - intros s k N. rewrite db_vfile_empty in N. congruence.
  - intros s k N. rewrite db_cfile_empty in N. congruence.
  - intros s Hs. rewrite has_stack_empty in Hs. apply (proj1 (forallb_forall _ _) H). apply mem_str_In. exact Hs.
Qed.

Lemma represents_built path es : forallb seg_ok path = true -> forallb eff_ok es = true ->
  represents (apply_effects [] (images es)) (apply es (empty_db path)).
Proof. intros H1 H2. apply represents_apply; [apply represents_empty; exact H1|exact H2]. Qed.

Definition act_safe (x : aact) : Prop :=
  match x with
  | ASetDecl s n v _ _ => key_ok s (n, v) = true
  | ASetTag s n t _ _ => key_ok s (n, t) = true
  | _ => True
  end.

Lemma key_ok_dir s n v : key_ok s (n, v) = true -> seg_ok s && seg_ok n && negb (is_tmp n) = true.
Proof.
  intro H. destruct (key_ok_parts _ _ H) as [H1 H2]. destruct (segs_ok_parts _ _ H1) as [Hs [Hn _]].
  cbn [fst] in *. rewrite Hs, Hn, H2. reflexivity.
Qed.

Lemma untag_effects_ok d s n t f : names_ok d -> forallb eff_ok (untag_effects d s n t f) = true.
Proof.
  intros [_ [N2 _]]. unfold untag_effects. destruct (db_cfile d s (n, t)) as [c|] eqn:E; [|reflexivity].
  destruct (amem f c); [|reflexivity].
  assert (K : key_ok s (n, t) = true) by (apply N2; congruence).
  unfold write_or_remove_c. destruct (is_nil _); cbn [forallb eff_ok]; rewrite K; reflexivity.
Qed.

Lemma compile_ok d x : names_ok d -> act_safe x -> forallb eff_ok (compile d x) = true.
Proof.
  intros N Hs. destruct x as [s n v f r|s n v f|s n t f v|s n t f]; cbn [compile act_safe] in *.
  - rewrite forallb_app. cbn [forallb eff_ok]. rewrite Hs.
    destruct (db_has_dir d s n); cbn [forallb eff_ok]; [reflexivity|]. rewrite (key_ok_dir _ _ _ Hs). reflexivity.
  - destruct (db_vfile d s (n, v)) as [c|] eqn:E; [|reflexivity].
    destruct (amem f c); [|reflexivity].
    assert (K : key_ok s (n, v) = true) by (destruct N as [N1 _]; apply N1; congruence).
    rewrite forallb_app. apply andb_true_iff. split.
    + apply forallb_flat_map. intro t. apply untag_effects_ok. exact N.
    + destruct (is_nil _); cbn [forallb eff_ok]; rewrite ?K, ?(key_ok_dir _ _ _ K); reflexivity.
  - cbn [forallb eff_ok]. rewrite Hs. reflexivity.
  - apply untag_effects_ok. exact N.
Qed.

Lemma compile_all_ok xs : forall d, names_ok d -> Forall act_safe xs -> forallb eff_ok (compile_all d xs) = true.
Proof.
  induction xs as [|x xs IH]; intros d N H; [reflexivity|]. inversion H as [|? ? Hx Hr]. subst.
  cbn [compile_all]. rewrite forallb_app. apply andb_true_iff. split.
  - apply compile_ok; assumption.
  - apply IH; [|exact Hr]. apply names_ok_apply; [exact N|]. apply compile_ok; assumption.
Qed.

Lemma plan_tag_ok a o n t : opt_ok t = true -> opt_ok (plan_tag a o n t) = true.
Proof. unfold plan_tag. destruct t; [auto|]. destruct (findable _ _ _); reflexivity. Qed.

Lemma op_ok_parts o : op_ok o = true ->
  seg_ok (op_name o) = true /\ is_tmp (op_name o) = false /\ opt_ok (op_version o) = true /\ opt_ok (op_tag o) = true.
Proof.
  unfold op_ok. intro H. apply andb_true_iff in H. destruct H as [H Ht]. apply andb_true_iff in H. destruct H as [H Hv].
  apply andb_true_iff in H. destruct H as [Hn Hnt]. destruct (is_tmp (op_name o)); [discriminate|]. auto.
Qed.

Lemma mk_key_ok s n k : seg_ok s = true -> seg_ok n = true -> is_tmp n = false -> seg_ok k = true ->
  key_ok s (n, k) = true.
Proof. intros H1 H2 H3 H4. unfold key_ok, segs_ok. cbn [fst snd]. rewrite H1, H2, H3, H4. reflexivity. Qed.

Lemma decide_safe p a o acts :
  (forall s, mem_str s (apath a) = true -> seg_ok s = true) ->
  (forall s n v f, a_decl a s n v f <> None -> seg_ok s = true) ->
  op_ok o = true -> decide p a o = Ok acts -> Forall act_safe acts.
Proof.
  intros Hp Hd Hok Hdec. destruct (op_ok_parts o Hok) as [Hn [Hnt [Hv Ht]]]. clear Hok.
  destruct (is_declare o) eqn:Ho.
  - destruct o as [o n v dir table t| | | | | ]; try discriminate.
    cbn [op_name op_version op_tag opt_ok decide] in *. revert Hdec.
    unfold declare_acts. destruct (declare_plan a o n v dir table t) as [pl|e] eqn:Ep; [|discriminate].
    destruct (o_noaction o); [intros [= <-]; constructor|].
    destruct (declare_plan_target _ _ _ _ _ _ _ _ Ep) as [Hm _]. apply Hp in Hm.
    assert (Htag : forall x, dp_tag pl = Some x -> seg_ok x = true).
    { destruct (declare_plan_ok _ _ _ _ _ _ _ _ Ep) as [d [tg [_ [_ [_ ->]]]]]. cbn [dp_tag]. intros x Hx.
      pose proof (plan_tag_ok a o n t Ht) as K. rewrite Hx in K. exact K. }
    assert (H1 : Forall act_safe (declare_acts1 (o_flavor o) n v pl)).
    { unfold declare_acts1. destruct (dp_write pl); [|constructor]. constructor.
      - cbn. apply mk_key_ok; assumption.
      - destruct (dp_tag pl) as [x|] eqn:Ex; [|constructor]. constructor; [|constructor].
        cbn. apply mk_key_ok; try assumption. apply Htag. reflexivity. }
    intro H. apply declare_finish_shape in H.
    destruct (dp_tag pl) as [x|] eqn:Ex; [|subst acts; exact H1].
    destruct H as [rs [rs' [-> _]]].
    assert (Hdel : forall l, Forall act_safe (map (fun r0 => ADelTag r0 n x (o_flavor o)) l)).
    { intro l. apply Forall_map, Forall_forall. intros r0 _. exact I. }
    apply Forall_app. split; [exact H1|]. apply Forall_app. split; [apply Hdel|].
    constructor; [|apply Hdel]. cbn.
    apply mk_key_ok; try assumption. apply Htag. reflexivity.
  - destruct (decide_shape_not_declare _ _ _ _ Ho Hdec) as [[o' [t [n [v [s [-> [Hs ->]]]]]]]|R].
    + cbn [op_name op_tag opt_ok] in *. constructor; [|constructor]. cbn.
      apply mk_key_ok; try assumption. exact (Hd _ _ _ _ Hs).
    + revert R. apply Forall_impl. intros x Hx. destruct x; cbn in *; auto; contradiction.
Qed.

Lemma effects_ok p d o es : names_ok d -> op_ok o = true -> effects_gen p d o = Ok es -> forallb eff_ok es = true.
Proof.
  intros N Hok. unfold effects_gen. destruct (decide p (view d) o) as [acts|e] eqn:E; [|discriminate].
  intros [= <-]. apply compile_all_ok; [exact N|].
  destruct N as [N1 [N2 N3]]. apply (decide_safe p (view d) o acts); try assumption.
  - intros s Hs. apply N3. rewrite apath_view, has_stack_path in Hs. exact Hs.
  - intros s n v f Hn. rewrite a_decl_view in Hn. apply N3.
    destruct (db_decl d s n v f) eqn:E2; [|congruence]. apply (db_decl_has_stack _ _ _ _ _ _ E2).
Qed.

Definition db_eq (d1 d2 : db) : Prop :=
  map fst d1 = map fst d2 /\
  (forall s k, db_vfile d1 s k = db_vfile d2 s k) /\
  (forall s k, db_cfile d1 s k = db_cfile d2 s k).

Lemma db_eq_view d1 d2 : db_eq d1 d2 -> aeq (view d1) (view d2).
Proof.
  intros [H1 [H2 H3]]. repeat split; intros.
  - rewrite !apath_view. exact H1.
  - rewrite !a_decl_view. unfold db_decl. rewrite H2. reflexivity.
  - rewrite !a_tag_view. unfold db_tag. rewrite H3. reflexivity.
Qed.

Lemma alookup_read_raw path f s :
  alookup s (read_raw path f) = if mem_str s path then Some (read_stack f s) else None.
Proof.
  unfold read_raw. induction path as [|x path IH]; cbn; [reflexivity|].
  destruct (str_eqb_spec s x) as [->|N]; [reflexivity|exact IH].
Qed.

Lemma path_read_raw path f : map fst (read_raw path f) = path.
Proof. unfold read_raw. rewrite map_map. cbn. apply map_id. Qed.

Lemma alookup_key {V} q (m : amap V) : alookup q m <> None -> In q (akeys m).
Proof.
  intro H. destruct (alookup q m) as [v|] eqn:E; [|congruence].
  apply alookup_In in E. unfold akeys. apply in_map_iff. exists (q, v). auto.
Qed.

Lemma glookup_exactly {C} (m : list (key * C)) (h : key -> option C) (P : key -> bool) :
  (forall k c, In (k, c) m <-> P k = true /\ h k = Some c) ->
  forall k, glookup key_eqb k m = if P k then h k else None.
Proof.
  intros H k. rewrite (glookup_functional key_eqb key_eqb_eq h) by (intros k' c' Hin; apply H in Hin; exact (proj2 Hin)).
  destruct (existsb _ m) eqn:E.
  - apply existsb_exists in E. destruct E as [[k' c'] [Hin Ek]]. apply key_eqb_eq in Ek. cbn in Ek. subst k'.
    apply H in Hin. destruct Hin as [-> _]. reflexivity.
  - destruct (P k) eqn:Pk; [|reflexivity]. destruct (h k) as [c|] eqn:Hk; [|reflexivity].
    assert (Hin : In (k, c) m) by (apply H; auto).
    pose proof (proj1 (existsb_false_forall _ _) E _ Hin) as F. cbn in F. rewrite key_eqb_refl in F. discriminate.
Qed.

Lemma In_vfiles f s k c : In (k, c) (vfiles (read_stack f s)) <-> segs_ok s k = true /\ fs_vfile f s k = Some c.
Proof.
  cbn [read_stack vfiles]. split.
  - intro H. apply in_flat_map in H. destruct H as [q [_ H]]. destruct (classify q) as [[s1 n1|s1 k1|s1 k1]|] eqn:Ec; try contradiction.
    destruct (str_eqb_spec s1 s) as [->|]; [|contradiction].
    destruct (fs_vfile f s k1) as [c1|] eqn:E1; [|contradiction]. destruct H as [[= -> ->]|[]].
    apply classify_inv in Ec. destruct Ec as [_ Ok]. auto.
  - intros [Ok Ev]. apply in_flat_map. exists (vpath s k). split.
    + apply alookup_key. unfold fs_vfile in Ev. destruct (alookup (vpath s k) f); [discriminate|discriminate Ev].
    + rewrite classify_vpath_ok by exact Ok. rewrite str_eqb_refl, Ev. left. reflexivity.
Qed.

Lemma db_vfile_read_raw path f s k :
  db_vfile (read_raw path f) s k = if mem_str s path && segs_ok s k then fs_vfile f s k else None.
Proof.
  unfold db_vfile. rewrite alookup_read_raw. destruct (mem_str s path); [|reflexivity]. cbn [andb].
  apply (glookup_exactly _ (fs_vfile f s) (segs_ok s)). intros. apply In_vfiles.
Qed.

Lemma In_cfiles f s k c : In (k, c) (cfiles (read_stack f s)) <-> segs_ok s k = true /\ fs_cfile f s k = Some c.
Proof.
  cbn [read_stack cfiles]. split.
  - intro H. apply in_flat_map in H. destruct H as [q [_ H]]. destruct (classify q) as [[s1 n1|s1 k1|s1 k1]|] eqn:Ec; try contradiction.
    destruct (str_eqb_spec s1 s) as [->|]; [|contradiction].
    destruct (fs_cfile f s k1) as [c1|] eqn:E1; [|contradiction]. destruct H as [[= -> ->]|[]].
    apply classify_inv in Ec. destruct Ec as [_ Ok]. auto.
  - intros [Ok Ev]. apply in_flat_map. exists (cpath s k). split.
    + apply alookup_key. unfold fs_cfile in Ev. destruct (alookup (cpath s k) f); [discriminate|discriminate Ev].
    + rewrite classify_cpath_ok by exact Ok. rewrite str_eqb_refl, Ev. left. reflexivity.
Qed.

Lemma db_cfile_read_raw path f s k :
  db_cfile (read_raw path f) s k = if mem_str s path && segs_ok s k then fs_cfile f s k else None.
Proof.
  unfold db_cfile. rewrite alookup_read_raw. destruct (mem_str s path); [|reflexivity]. cbn [andb].
  apply (glookup_exactly _ (fs_cfile f s) (segs_ok s)). intros. apply In_cfiles.
Qed.

Lemma read_db_raw path f : forallb (record_ok path f) (akeys f) = true -> read_db path f = Ok (read_raw path f).
Proof. unfold read_db. intros ->. reflexivity. Qed.

Lemma read_back g d f' :
  represents g d -> (forall q, is_tmp q = false -> alookup q f' = alookup q g) ->
  read_db (map fst d) f' = Ok (read_raw (map fst d) f') /\ db_eq (read_raw (map fst d) f') d.
Proof.
  intros R Hag. split.
  - apply read_db_raw. apply forallb_forall. intros q _. unfold record_ok.
    destruct (classify q) as [[s n|s k|s k]|] eqn:Ec; try reflexivity.
    + rewrite has_stack_path. destruct (has_stack d s) eqn:Hs; [|reflexivity].
      apply classify_inv in Ec. destruct Ec as [-> Ok].
      rewrite (Hag _ (is_tmp_vpath s k)), (rep_v _ _ R) by assumption.
      destruct (db_vfile d s k); cbn [vnode]; [rewrite parse_print_v|]; reflexivity.
    + rewrite has_stack_path. destruct (has_stack d s) eqn:Hs; [|reflexivity].
      apply classify_inv in Ec. destruct Ec as [-> Ok].
      rewrite (Hag _ (is_tmp_cpath s k)), (rep_c _ _ R) by assumption.
      destruct (db_cfile d s k); cbn [cnode]; [rewrite parse_print_c|]; reflexivity.
  - split; [apply path_read_raw|]. split; intros s k.
    + rewrite db_vfile_read_raw, has_stack_path.
      destruct (has_stack d s) eqn:Hs; cbn [andb].
      * destruct (segs_ok s k) eqn:Ok.
        -- unfold fs_vfile. rewrite (Hag _ (is_tmp_vpath s k)), (rep_v _ _ R) by assumption.
           destruct (db_vfile d s k); cbn [vnode]; [apply parse_print_v|reflexivity].
        -- destruct (db_vfile d s k) eqn:E; [|reflexivity]. exfalso.
           assert (K : key_ok s k = true) by (apply (rep_vok _ _ R); congruence).
           apply key_ok_parts in K. destruct K. congruence.
      * unfold db_vfile, has_stack in *. destruct (alookup s d); [discriminate|reflexivity].
    + rewrite db_cfile_read_raw, has_stack_path.
      destruct (has_stack d s) eqn:Hs; cbn [andb].
      * destruct (segs_ok s k) eqn:Ok.
        -- unfold fs_cfile. rewrite (Hag _ (is_tmp_cpath s k)), (rep_c _ _ R) by assumption.
           destruct (db_cfile d s k); cbn [cnode]; [apply parse_print_c|reflexivity].
        -- destruct (db_cfile d s k) eqn:E; [|reflexivity]. exfalso.
           assert (K : key_ok s k = true) by (apply (rep_cok _ _ R); congruence).
           apply key_ok_parts in K. destruct K. congruence.
      * unfold db_cfile, has_stack in *. destruct (alookup s d); [discriminate|reflexivity].
Qed.

Lemma forallb_firstn {A} (p : A -> bool) j l : forallb p l = true -> forallb p (firstn j l) = true.
Proof.
  intro H. apply forallb_forall. intros x Hx. apply (proj1 (forallb_forall _ _) H). apply (In_firstn _ j). exact Hx.
Qed.

Lemma crash_reads_effect_prefix f d es k :
  represents f d -> forallb eff_ok es = true ->
  exists j, j <= length es /\
    read_db (map fst d) (crash_fs f es k) = Ok (read_raw (map fst d) (crash_fs f es k)) /\
    db_eq (read_raw (map fst d) (crash_fs f es k)) (apply (firstn j es) d).
Proof.
  intros R Hok.
  destruct (crash_is_effect_prefix_gen (images es) f k (rep_clean _ _ R) (effs_ok_wf es Hok)) as [j [Hj Hq]].
  unfold images in Hj. rewrite map_length in Hj. exists j. split; [exact Hj|].
  unfold images in Hq. rewrite firstn_map in Hq. fold (images (firstn j es)) in Hq.
  pose proof (represents_apply (firstn j es) f d R (forallb_firstn _ j es Hok)) as Rj.
  rewrite <- (path_apply (firstn j es) d). apply (read_back _ _ _ Rj). exact Hq.
Qed.
