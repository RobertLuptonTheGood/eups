(* Relocation (C16): resolvePaths and makeProduct on the stored forms of product directory, ups
   directory and table file, under any stack root.  What Database.declare stores is in
   Proofs/Declare.v. *)
From Eupsv Require Import Base.Base Base.BaseLemmas Model.Paths Model.Records
  Proofs.RecordsLib Proofs.PathsLib.
From Coq Require Import Lia.

Inductive dirk :=
| DIn (d : str)      (* inside the stack: root / d *)
| DOut (o : str)     (* at the absolute location o, outside the stack *)
| DNone.             (* no directory: the word none *)

Definition wf_dirk (dk : dirk) : bool :=
  match dk with DIn d => wf_rel d | DOut o => wf_abs o | DNone => true end.

(* as given to declare for a stack at root, as stored, and as expected back for a stack at root *)
Definition dir_given (root : str) (dk : dirk) : str :=
  match dk with DIn d => root ++ c_slash :: d | DOut o => o | DNone => s_none end.
Definition dir_stored (dk : dirk) : str :=
  match dk with DIn d => d | DOut o => o | DNone => s_none end.
Definition dir_at (root : str) (dk : dirk) : str := dir_given root dk.

Definition md0 (f root : str) : mdata :=
  [(M_FLAVOR, Some f); (M_PROD_ROOT, Some root); (M_UPS_DB, Some (db_of root))].

Lemma wf_abs_join root d : wf_abs root = true -> wf_rel d = true -> wf_abs (root ++ c_slash :: d) = true.
Proof.
  intros HR Hd. apply wf_abs_parts in HR. destruct HR as [R1 [R2 R3]].
  apply wf_rel_parts in Hd. destruct Hd as [D1 [D2 [D3 [D4 D5]]]].
  unfold wf_abs, plain. rewrite isabs_app by assumption.
  change (root ++ c_slash :: d) with (root ++ [c_slash] ++ d). rewrite app_assoc.
  rewrite ends_slash_app by (destruct d; [discriminate|congruence]). rewrite D3.
  rewrite has_dollar_app, has_dollar_app, R3, D4. reflexivity.
Qed.

Lemma dir_at_cases root dk : wf_abs root = true -> wf_dirk dk = true ->
  wf_abs (dir_at root dk) = true \/ dir_at root dk = s_none.
Proof.
  intros HR Hd. destruct dk as [d|o|]; cbn in *; [left; now apply wf_abs_join|now left|now right].
Qed.

Definition md_shape (f root : str) (D : str) (md : mdata) : Prop :=
  md = md0 f root \/ md = md0 f root ++ [(M_PROD_DIR, Some D)].

Lemma res_dir_dk root f dk : wf_abs root = true -> wf_dirk dk = true ->
  exists md1, res_dir (Some root) (md0 f root) (Some (dir_stored dk)) = (Some (dir_at root dk), md1)
              /\ md_shape f root (dir_at root dk) md1.
Proof.
  intros HR Hd. destruct dk as [d|o|]; cbn [dir_stored dir_at dir_given wf_dirk] in *.
  - pose proof (wf_abs_join _ _ HR Hd) as HJ. apply wf_abs_parts in HJ. destruct HJ as [_ [_ J3]].
    pose proof (wf_abs_nonempty _ HR) as NR.
    apply wf_abs_parts in HR. destruct HR as [R1 [R2 R3]].
    apply wf_rel_parts in Hd. destruct Hd as [D1 [D2 [D3 [D4 D5]]]].
    unfold res_dir. rewrite D5, D2. cbn [negb andb].
    rewrite starts_macro_plain, isabs_not_none_like by assumption. cbn [negb andb].
    rewrite path_join_rel by assumption. rewrite resolve_val_plain by assumption.
    eexists. split; [reflexivity|]. right. reflexivity.
  - apply wf_abs_parts in Hd. destruct Hd as [O1 _].
    unfold res_dir. rewrite O1, andb_false_r. eexists. split; [reflexivity|]. now left.
  - unfold res_dir. change (is_real (Some s_none)) with false. cbn [andb].
    eexists. split; [reflexivity|]. now left.
Qed.

Lemma res_last_dir_plain md x : has_dollar x = false -> res_last_dir md (Some x) = (Some x, md).
Proof. intro H. unfold res_last_dir. now rewrite H, andb_false_r. Qed.

Lemma dir_at_plain root dk : wf_abs root = true -> wf_dirk dk = true -> has_dollar (dir_at root dk) = false.
Proof.
  intros HR Hd. destruct (dir_at_cases root dk HR Hd) as [H| ->]; [|reflexivity].
  apply wf_abs_parts in H. tauto.
Qed.

(* ups dir stored as the word ups *)
Definition ups_at (D : str) : str := if str_eqb D s_none then s_ups else D ++ c_slash :: s_ups.

Lemma res_ups_ups D md :
  (wf_abs D = true \/ D = s_none) ->
  exists md2, res_ups (Some D) md (Some s_ups) = (Some (ups_at D), md2).
Proof.
  intros [H| ->].
  - pose proof (wf_abs_nonempty _ H) as ND. apply wf_abs_parts in H. destruct H as [H1 [H2 H3]].
    unfold res_ups. change (is_real (Some s_ups) && negb (isabs s_ups)) with true. cbv iota.
    change (starts_macro s_ups) with false. rewrite isabs_not_none_like by assumption. cbn [negb andb].
    rewrite path_join_rel by (assumption || reflexivity).
    rewrite resolve_val_plain.
    2:{ rewrite has_dollar_app, H3. reflexivity. }
    unfold ups_at. destruct (str_eqb_spec D s_none) as [->|_]; [discriminate|]. eauto.
  - unfold res_ups. change (is_real (Some s_ups) && negb (isabs s_ups)) with true. cbv iota.
    change (negb (starts_macro s_ups) && negb (none_like (Some s_none))) with false. cbv iota.
    rewrite resolve_val_plain by reflexivity. unfold ups_at. eauto.
Qed.

Lemma ups_at_real D : is_real (Some (ups_at D)) = true.
Proof.
  unfold ups_at. destruct (str_eqb D s_none); [reflexivity|].
  (* a path whose last letter is that of ups is none of the placeholders *)
  assert (N : forall x, last_opt x <> last_opt (c_slash :: s_ups) ->
                        str_eqb (D ++ c_slash :: s_ups) x = false).
  { intros x Hx. apply str_eqb_neq. intros <-. apply Hx, last_opt_app_r. discriminate. }
  unfold is_real. now rewrite !N by discriminate.
Qed.

(* the fold inside Product._resolve *)
Definition rv_step (v : str) (en : macro * val) : str :=
  let (m, data) := en in
  match data with Some (c :: r) => apply_macro m (c :: r) v | _ => v end.
Definition rv_fold (md : mdata) (x : str) : str := fold_left rv_step md x.

Lemma resolve_val_fold md x : x <> [] -> resolve_val md None x = rv_fold md x.
Proof. intro N. unfold resolve_val. destruct x; [congruence|reflexivity]. Qed.

Lemma rv_fold_cons_some m s md x : s <> [] ->
  rv_fold ((m, Some s) :: md) x = rv_fold md (apply_macro m s x).
Proof. intro N. destruct s; [congruence|reflexivity]. Qed.

Lemma rv_fold_cons_empty m md x : rv_fold ((m, Some []) :: md) x = rv_fold md x.
Proof. reflexivity. Qed.

Lemma rv_fold_app a b x : rv_fold (a ++ b) x = rv_fold b (rv_fold a x).
Proof. apply fold_left_app. Qed.

(* where a table file held in the database has its ups directory: UPS_DB / e / ups under the root *)
Definition ups_db_at (root e : str) : str := db_of root ++ c_slash :: e ++ c_slash :: s_ups.

Lemma resolve_val_upsdb f root e md :
  wf_abs root = true -> has_dollar e = false ->
  (md = md0 f root \/ exists D, isabs D = true /\ md = md0 f root ++ [(M_PROD_DIR, Some D)]) ->
  resolve_val md None (ups_in_db e) = ups_db_at root e.
Proof.
  intros HR He Hmd.
  assert (HP : has_dollar (c_slash :: e ++ c_slash :: s_ups) = false).
  { change (c_slash :: e ++ c_slash :: s_ups) with ([c_slash] ++ e ++ c_slash :: s_ups).
    rewrite !has_dollar_app, He. reflexivity. }
  assert (Hdb : isabs (db_of root) = true) by now apply db_of_abs.
  assert (Core : rv_fold (md0 f root) (ups_in_db e) = db_of root ++ c_slash :: e ++ c_slash :: s_ups).
  { unfold md0.
    assert (E1 : rv_fold [(M_FLAVOR, Some f)] (ups_in_db e) = ups_in_db e).
    { destruct f as [|c r]; [reflexivity|]. unfold rv_fold, rv_step. cbn [fold_left apply_macro].
      unfold ups_in_db. now apply sub_all_flavor_upsdb. }
    change [(M_FLAVOR, Some f); (M_PROD_ROOT, Some root); (M_UPS_DB, Some (db_of root))]
      with ([(M_FLAVOR, Some f)] ++ [(M_PROD_ROOT, Some root); (M_UPS_DB, Some (db_of root))]).
    rewrite rv_fold_app, E1.
    rewrite rv_fold_cons_some by (destruct root; [discriminate|congruence]).
    cbn [apply_macro]. unfold ups_in_db at 1. rewrite sub_prefix_other_upsdb by discriminate.
    rewrite rv_fold_cons_some by (unfold db_of; destruct root; discriminate).
    cbn [apply_macro]. rewrite sub_prefix_upsdb. reflexivity. }
  rewrite resolve_val_fold by discriminate.
  destruct Hmd as [-> | [D [HD ->]]]; [exact Core|].
  rewrite rv_fold_app, Core.
  rewrite rv_fold_cons_some by (destruct D; [discriminate|congruence]).
  cbn [apply_macro rv_fold fold_left]. apply sub_prefix_abs. now apply isabs_app.
Qed.

Lemma res_ups_interned f root e D md1 dir1 :
  wf_abs root = true -> has_dollar e = false -> md_shape f root D md1 ->
  (wf_abs D = true \/ D = s_none) ->
  exists md2, res_ups dir1 md1 (Some (ups_in_db e))
              = (Some (ups_db_at root e), md2).
Proof.
  intros HR He Hmd HD. unfold res_ups.
  change (is_real (Some (ups_in_db e)) && negb (isabs (ups_in_db e))) with true. cbv iota.
  change (starts_macro (ups_in_db e)) with true. cbn [negb andb].
  destruct Hmd as [-> | ->].
  - rewrite (resolve_val_upsdb f root e) by auto. eauto.
  - destruct HD as [HD | ->].
    + rewrite (resolve_val_upsdb f root e); [eauto|assumption|assumption|].
      right. exists D. split; [apply wf_abs_parts in HD; tauto|reflexivity].
    + (* the directory is the word none: the extra entry is not an absolute path, but a
         prefix macro still cannot match a text that starts with a slash *)
      rewrite resolve_val_fold by discriminate. rewrite rv_fold_app.
      pose proof (resolve_val_upsdb f root e (md0 f root) HR He (or_introl eq_refl)) as C.
      rewrite resolve_val_fold in C by discriminate. rewrite C.
      rewrite rv_fold_cons_some by discriminate. cbn [apply_macro rv_fold fold_left].
      rewrite sub_prefix_abs; [eauto|]. apply isabs_app. now apply db_of_abs.
Qed.

Lemma res_ups_none dir1 md1 : res_ups dir1 md1 (Some s_none) = (Some s_none, md1).
Proof. reflexivity. Qed.

Lemma res_table_none ex root dir1 ups1 md2 :
  res_table ex root dir1 ups1 md2 (Some s_none) = (Some s_none, ups1).
Proof. reflexivity. Qed.

Lemma res_table_abs ex root dir1 ups1 md2 t : isabs t = true ->
  res_table ex root dir1 ups1 md2 (Some t) = (Some t, ups1).
Proof. intro H. unfold res_table. now rewrite H, andb_false_r. Qed.

(* a relative table file under a real ups dir U: U/t if that exists, else root/t if that
   exists, else U/t *)
Definition table_choice (ex : str -> bool) (root U t : str) : str :=
  let nt := U ++ c_slash :: t in
  if ex nt then nt else if ex (root ++ c_slash :: t) then root ++ c_slash :: t else nt.

Lemma res_table_rel ex root dir1 U md2 t :
  wf_abs root = true -> wf_rel t = true ->
  is_real (Some U) = true -> U <> [] -> ends_slash U = false -> has_dollar U = false ->
  res_table ex (Some root) dir1 (Some U) md2 (Some t) = (Some (table_choice ex root U t), Some U).
Proof.
  intros HR Ht HU NU EU DU.
  pose proof (wf_abs_nonempty _ HR) as NR.
  apply wf_abs_parts in HR. destruct HR as [R1 [R2 R3]].
  apply wf_rel_parts in Ht. destruct Ht as [T1 [T2 [T3 [T4 T5]]]].
  unfold res_table. rewrite T5, T2. cbn [negb andb].
  rewrite starts_macro_plain by assumption. cbn [negb]. rewrite HU.
  rewrite path_join_rel by assumption.
  destruct (isabs_cons root R1) as [rr Er].
  assert (J : path_join root t = root ++ c_slash :: t) by now apply path_join_rel.
  unfold table_choice.
  destruct (ex (U ++ c_slash :: t)) eqn:E1.
  - rewrite resolve_val_plain; [reflexivity|]. rewrite has_dollar_app, DU. cbn. exact T4.
  - rewrite Er at 1. rewrite <- Er. rewrite J.
    destruct (ex (root ++ c_slash :: t)) eqn:E2.
    + rewrite resolve_val_plain; [reflexivity|]. rewrite has_dollar_app, R3. cbn. exact T4.
    + rewrite resolve_val_plain; [reflexivity|]. rewrite has_dollar_app, DU. cbn. exact T4.
Qed.

Lemma res_last_table_plain md t : has_dollar t = false -> res_last_table md (Some t) = Some t.
Proof. intro H. unfold res_last_table. now rewrite H, andb_false_r. Qed.

Lemma ups_at_props D : (wf_abs D = true \/ D = s_none) ->
  ups_at D <> [] /\ ends_slash (ups_at D) = false /\ has_dollar (ups_at D) = false.
Proof.
  intros [H | ->]; [|repeat split; discriminate].
  unfold ups_at. destruct (str_eqb D s_none); [repeat split; discriminate|].
  apply wf_abs_parts in H. destruct H as [_ [_ H3]]. repeat split.
  - destruct D; discriminate.
  - now rewrite ends_slash_app.
  - rewrite has_dollar_app, H3. reflexivity.
Qed.

Lemma table_choice_plain ex root U t :
  has_dollar root = false -> has_dollar U = false -> has_dollar t = false ->
  has_dollar (table_choice ex root U t) = false.
Proof.
  intros H1 H2 H3. unfold table_choice.
  destruct (ex _); [|destruct (ex _)]; rewrite has_dollar_app; cbn; try rewrite H1; try rewrite H2; exact H3.
Qed.

Definition prod_of (n v f : str) (d t db u : val) : product :=
  {| p_name := n; p_version := v; p_flavor := f; p_dir := d; p_table := t; p_db := db; p_ups := u |}.

(* resolvePaths on a stored product: the directory, then the ups directory, then the table file;
   the last two passes find nothing to substitute in results without macro characters *)
Lemma resolve_stored ex n v f root dk t u U T :
  wf_abs root = true -> wf_dirk dk = true ->
  (forall md1, md_shape f root (dir_at root dk) md1 ->
     exists md2, res_ups (Some (dir_at root dk)) md1 (Some u) = (Some U, md2)) ->
  (forall md2, res_table ex (Some root) (Some (dir_at root dk)) (Some U) md2 (Some t) = (Some T, Some U)) ->
  has_dollar T = false ->
  resolve_paths ex (prod_of n v f (Some (dir_stored dk)) (Some t) (Some (db_of root)) (Some u))
  = prod_of n v f (Some (dir_at root dk)) (Some T) (Some (db_of root)) (Some U).
Proof.
  intros HR Hd Hu Ht HT. unfold resolve_paths, prod_of. rewrite stack_root_db by assumption.
  cbn [p_dir p_ups p_table p_name p_flavor p_db p_version].
  change (md_init _ (Some root)) with (md0 f root).
  destruct (res_dir_dk root f dk HR Hd) as [md1 [E1 S]]. rewrite E1. cbn [fst snd].
  destruct (Hu md1 S) as [md2 E2]. rewrite E2. cbn [fst snd res_table0].
  rewrite Ht. cbn [fst snd].
  rewrite res_last_dir_plain by now apply dir_at_plain. cbn [fst snd].
  now rewrite res_last_table_plain.
Qed.

Lemma resolve_ups_rel ex n v f root dk t :
  wf_abs root = true -> wf_dirk dk = true -> wf_rel t = true ->
  resolve_paths ex (prod_of n v f (Some (dir_stored dk)) (Some t) (Some (db_of root)) (Some s_ups))
  = prod_of n v f (Some (dir_at root dk))
            (Some (table_choice ex root (ups_at (dir_at root dk)) t))
            (Some (db_of root)) (Some (ups_at (dir_at root dk))).
Proof.
  intros HR Hd Ht. pose proof (dir_at_cases root dk HR Hd) as HC.
  destruct (ups_at_props _ HC) as [U1 [U2 U3]].
  apply resolve_stored; try assumption.
  - intros md1 _. now apply res_ups_ups.
  - intro md2. apply res_table_rel; auto using ups_at_real.
  - apply table_choice_plain; try assumption; [apply wf_abs_parts in HR|apply wf_rel_parts in Ht]; tauto.
Qed.

Lemma resolve_ups_abs ex n v f root dk T :
  wf_abs root = true -> wf_dirk dk = true -> wf_abs T = true ->
  resolve_paths ex (prod_of n v f (Some (dir_stored dk)) (Some T) (Some (db_of root)) (Some s_ups))
  = prod_of n v f (Some (dir_at root dk)) (Some T) (Some (db_of root))
            (Some (ups_at (dir_at root dk))).
Proof.
  intros HR Hd HT. apply wf_abs_parts in HT. destruct HT as [T1 [T2 T3]].
  apply resolve_stored; try assumption.
  - intros md1 _. apply res_ups_ups. now apply dir_at_cases.
  - intro md2. now apply res_table_abs.
Qed.

Lemma ups_db_at_props root e : wf_abs root = true -> has_dollar e = false ->
  isabs (ups_db_at root e) = true /\ ups_db_at root e <> [] /\
  ends_slash (ups_db_at root e) = false /\ has_dollar (ups_db_at root e) = false.
Proof.
  intros HR He. pose proof (db_of_abs root HR) as A.
  apply wf_abs_parts in HR. destruct HR as [R1 [R2 R3]]. unfold ups_db_at. repeat split.
  - now apply isabs_app.
  - destruct (db_of root); discriminate.
  - now rewrite <- app_cons_app, ends_slash_app.
  - unfold db_of. rewrite !has_dollar_app, R3. cbn. rewrite has_dollar_app, He. reflexivity.
Qed.

Lemma resolve_interned ex n v f root dk e t :
  wf_abs root = true -> wf_dirk dk = true -> has_dollar e = false -> wf_rel t = true ->
  resolve_paths ex (prod_of n v f (Some (dir_stored dk)) (Some t) (Some (db_of root)) (Some (ups_in_db e)))
  = prod_of n v f (Some (dir_at root dk))
            (Some (table_choice ex root (ups_db_at root e) t))
            (Some (db_of root)) (Some (ups_db_at root e)).
Proof.
  intros HR Hd He Ht. pose proof (dir_at_cases root dk HR Hd) as HC.
  destruct (ups_db_at_props root e HR He) as [U0 [U1 [U2 U3]]].
  apply resolve_stored; try assumption.
  - intros md1 S. now apply (res_ups_interned f root e (dir_at root dk)).
  - intro md2. apply res_table_rel; auto using isabs_real.
  - apply table_choice_plain; try assumption; [apply wf_abs_parts in HR|apply wf_rel_parts in Ht]; tauto.
Qed.

Lemma resolve_no_table ex n v f root dk :
  wf_abs root = true -> wf_dirk dk = true ->
  resolve_paths ex (prod_of n v f (Some (dir_stored dk)) (Some s_none) (Some (db_of root)) (Some s_none))
  = prod_of n v f (Some (dir_at root dk)) (Some s_none) (Some (db_of root)) (Some s_none).
Proof.
  intros HR Hd. apply resolve_stored; try assumption.
  - intros md1 _. exists md1. apply res_ups_none.
  - intro md2. apply res_table_none.
  - reflexivity.
Qed.

Lemma mk_product_id ex n v f d t db u :
  truthy d = true -> truthy t = true -> mk_product ex n v f d t db u = prod_of n v f d t db u.
Proof. intros Hd Ht. unfold mk_product, prod_of. now rewrite Hd, Ht. Qed.

Lemma make_product_block ex r f i root :
  alookup f (vf_info r) = Some i ->
  make_product ex r f (Some root) (Some (db_of root))
  = Some (resolve_paths ex
            (mk_product ex (val_str (vf_name r)) (val_str (vf_version r)) f
               (info_get i k_productDir) (info_get i k_table_file) (Some (db_of root))
               (info_get i k_ups_dir))).
Proof.
  intro E. unfold make_product. rewrite E.
  assert (T : truthy (Some (db_of root)) = true) by (unfold db_of; destruct root; reflexivity).
  rewrite T, andb_false_r. reflexivity.
Qed.
