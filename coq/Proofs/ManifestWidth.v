(* C18: the padded columns of the two writers, for fields of ANY length.

   TaggedProductList.write prints "%-20s %-10s %s" (+ "  %s" per extra column), Manifest.write prints
   "%-15s %-12s %-10s %-25s %-30s %s".  python's %-Ns pads a short field to N characters and prints a
   field of N or more characters as it is: the padding separates nothing once the field fills the column.
   What separates two columns is the literal blank of the format.  The lemmas below state this for every
   width and every field length; the print-parse theorems (tl_read_write, m_read_write) rest on
   words_ljust, which has no hypothesis on lengths either. *)
From Coq Require Import Lia.
From Eupsv Require Import Base.Base Base.BaseLemmas Model.Manifest Model.ManifestSpec
  Proofs.ManifestLib.

Lemma ljust_length n s : length (ljust n s) = Nat.max n (length s).
Proof. unfold ljust. rewrite app_length, repeat_length. lia. Qed.

Lemma ljust_narrow n s : length s <= n -> length (ljust n s) = n.
Proof. intros. rewrite ljust_length. lia. Qed.

Lemma ljust_wide n s : n <= length s -> ljust n s = s.
Proof. intros H. unfold ljust. replace (n - length s) with 0 by lia. apply app_nil_r. Qed.

Lemma repeat_snoc {A} (a : A) k x : repeat a k ++ a :: x = a :: repeat a k ++ x.
Proof. induction k as [|k IH]; cbn [repeat app]; [reflexivity|]. now rewrite IH. Qed.

Lemma column_shape n s x : ljust n s ++ c_sp :: x = s ++ repeat c_sp (S (n - length s)) ++ x.
Proof. unfold ljust. rewrite <- app_assoc. cbn [repeat app]. now rewrite repeat_snoc. Qed.

Lemma column_wide n s x : n <= length s -> ljust n s ++ c_sp :: x = s ++ c_sp :: x.
Proof. intros H. now rewrite ljust_wide. Qed.

Lemma words_glued n a b : word a -> word b -> n <= length a -> words (ljust n a ++ b) = [a ++ b].
Proof.
  intros [Ha Na] [Hb Nb] H. rewrite ljust_wide by assumption.
  apply words_word. split; [destruct a; [contradiction|discriminate] | now apply nosp_app].
Qed.

Definition tl_flav (fa : option str) (f : str) : str := match fa with Some g => g | None => f end.
