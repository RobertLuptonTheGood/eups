(* The edges the dependency walk follows are the products the Version Resolution Order designates (C03),
   and the world of those edges satisfies wf_world of C13: what a line resolved to is declared, an explicit
   version that did not resolve is not.  At the end, sound decidable forms of the hypotheses of the theorems
   about Model/DepWalk.v, for concrete worlds (the examples of Props/C13.v). *)
From Eupsv Require Import Base.Base Base.BaseLemmas Model.Resolve Model.ResolveSpec Model.Graph Model.DepWalk
     Proofs.ResolveLib Proofs.Resolve Proofs.GraphLib Proofs.GraphWalk Proofs.GraphListing Proofs.GraphOrder
     Proofs.DepWalkConst Proofs.DepWalkSim.

Lemma designates_top_dependency vcmp vmatch c db n vr f d vro :
  designates_top vcmp vmatch c db n vr f (S d) vro = designates_in vcmp vmatch c db n vr f vro.
Proof.
  induction vro as [|e l IH]; simpl; [reflexivity|].
  destruct (clause vcmp vmatch c db n vr f e l) as [p| |]; [|reflexivity|exact IH].
  unfold acceptable. destruct vr; reflexivity.
Qed.

Lemma first_some_ext {A B} (g h : A -> option B) l :
  (forall a, In a l -> g a = h a) -> first_some g l = first_some h l.
Proof.
  induction l as [|a l IH]; intros H; simpl; [reflexivity|].
  rewrite (H a) by (left; reflexivity). destruct (h a); [reflexivity|]. apply IH. intros b Hb. apply H. right. exact Hb.
Qed.

Lemma first_some_none_inv {A B} (g : A -> option B) l : first_some g l = None -> forall a, In a l -> g a = None.
Proof.
  induction l as [|x l IH]; simpl; [tauto|]. destruct (g x) eqn:E; [discriminate|].
  intros H a [<- | Ha]; [exact E | apply IH; assumption].
Qed.

Lemma decl_is_In l n v f : existsb (decl_is n v f) l = true <-> In (n, v, f) l.
Proof.
  rewrite existsb_exists. split.
  - intros [[[n' v'] f'] [Hin Hd]]. unfold decl_is in Hd. apply andb_true_iff in Hd as [Hd Hd3].
    apply andb_true_iff in Hd as [Hd1 Hd2]. apply str_eqb_eq in Hd1, Hd2, Hd3. subst. exact Hin.
  - intros H. exists (n, v, f). split; [exact H|]. unfold decl_is. rewrite !str_eqb_refl. reflexivity.
Qed.

(* the comparator is a total order on the version names of every product *)
Definition vcmp_ok (vcmp : str -> str -> comparison) (db : dbv) : Prop :=
  forall n, total_order_on vcmp (names_of db n).

Section Designation.
  Variable vcmp : str -> str -> comparison.
  Variable vmatch : str -> str -> bool.
  Variable c : config.
  Variable db : dbv.
  Hypothesis WF : wf_db db = true.
  Hypothesis HT : vcmp_ok vcmp db.

  (* under every flavor findProductFromVRO is the plain walk of C03 *)
  Lemma vro_lookup_walks fl lv rq :
    vro_lookup vcmp vmatch c db fl lv rq =
    first_some (fun f => designates_in vcmp vmatch c db (rq_name rq) (classify rq) f lv) fl.
  Proof.
    unfold vro_lookup. apply first_some_ext. intros f _.
    exact (walk_designates vcmp vmatch c db rq f 0 WF (HT (rq_name rq)) lv).
  Qed.

  (* the loop over the flavors around findProductFromVRO = the designation of C03 for a dependency *)
  Lemma vro_lookup_designates fl lv rq d :
    vro_lookup vcmp vmatch c db fl lv rq = designates vcmp vmatch c db fl (S d) lv rq.
  Proof.
    rewrite vro_lookup_walks. unfold designates. apply first_some_ext. intros f _.
    symmetry. apply designates_top_dependency.
  Qed.

  Definition declared_found (n f : str) (p : found) : Prop :=
    exists s, In s db /\ Resolve.declared s n (fd_version p) f = true /\ fd_name p = n /\ fd_flavor p = f.

  Lemma clause_declared n vr f e later p :
    clause vcmp vmatch c db n vr f e later = Yield p -> declared_found n f p.
  Proof.
    apply clause_yield. intros s v Hs H. exists s. simpl. split; [exact Hs|]. split; [|auto].
    destruct H as [Hv|D]; [apply decl_is_In, versions_of_In, Hv|exact D].
  Qed.

  Lemma designates_in_declared n vr f vro p :
    designates_in vcmp vmatch c db n vr f vro = Some p -> declared_found n f p.
  Proof.
    induction vro as [|e l IH]; simpl; [discriminate|].
    destruct (clause vcmp vmatch c db n vr f e l) as [q| |] eqn:E; [|discriminate|exact IH].
    intro H. injection H as ->. eapply clause_declared; eauto.
  Qed.

  Lemma vro_lookup_declared fl lv rq p :
    vro_lookup vcmp vmatch c db fl lv rq = Some p ->
    exists f, In f fl /\ declared_found (rq_name rq) f p.
  Proof.
    rewrite vro_lookup_walks. intros H. apply first_some_in in H as [f [Hf H]]. exists f. split; [exact Hf|].
    eapply designates_in_declared; eauto.
  Qed.

  Lemma named_unresolved n v ox f vro :
    existsb is_version_like vro = true ->
    designates_in vcmp vmatch c db n (Named v ox) f vro = None ->
    version_designates db n v f = None.
  Proof.
    induction vro as [|e l IH]; simpl; [discriminate|]. intros HV.
    (* an entry that is not a version entry is passed over; a version entry finds the version if it is declared *)
    assert (HO : forall k : option found,
               match or_fail (version_designates db n v f) l with Yield p => Some p | Fail => None | Next => k end = None ->
               version_designates db n v f = None).
    { intros k. unfold or_fail. destruct (version_designates db n v f); [discriminate | reflexivity]. }
    destruct e; cbn [clause is_version_like orb] in *; try (apply IH, HV); try apply HO.
    - destruct (match ox with Some x => expr_designates vcmp vmatch db n x f | None => None end); [discriminate | apply HO].
    - destruct (recognized c t); [|apply IH, HV].
      destruct (str_eqb t (lit "latest")).
      + destruct (highest vcmp (candidates db n f)); simpl; [discriminate | apply IH, HV].
      + destruct (str_eqb t (lit "setup")); [apply IH, HV|].
        destruct (tag_designates db n t f); simpl; [discriminate | apply IH, HV].
  Qed.
End Designation.

(* every product the resolver can return (declared in some stack for a flavor of the list) has a table, and
   every table belongs to such a product; version names are not empty *)
Record dworld_ok (db : dbv) (flavors : list str) (T : dtables) : Prop := {
  dok_wf : wf_db db = true;
  dok_tables : forall s n v f, In s db -> In f flavors -> Resolve.declared s n v f = true -> dtable_of T n v <> None;
  dok_declared : forall n v ls, dtable_of T n v = Some ls ->
                 v <> [] /\ exists s f, In s db /\ In f flavors /\ Resolve.declared s n v f = true
}.

Lemma declared_not_expr db s n v f : wf_db db = true -> In s db -> Resolve.declared s n v f = true -> is_expr v = false.
Proof.
  intros Hwf Hs D. unfold wf_db in Hwf. rewrite forallb_forall in Hwf. specialize (Hwf s Hs).
  unfold wf_stack in Hwf. apply andb_true_iff in Hwf as [Hwf _]. rewrite forallb_forall in Hwf.
  apply decl_is_In in D. specialize (Hwf _ D). simpl in Hwf. apply negb_true_iff in Hwf. exact Hwf.
Qed.

Lemma graph_declared_edges lk T n v :
  Graph.declared (edges_world lk T) n v = match dtable_of T n v with Some _ => true | None => false end.
Proof. unfold Graph.declared. rewrite table_of_edges. destruct (dtable_of T n v); reflexivity. Qed.

Lemma line_vro_version_like c vro l :
  existsb is_version_like vro = true -> existsb is_version_like (line_vro c vro l) = true.
Proof.
  intros H. unfold line_vro. set (tags := map parse_entry (filter (recognized c) (dl_tags l))).
  assert (H2 : existsb is_version_like (tags ++ vro) = true) by (rewrite existsb_app, H; apply orb_true_r).
  destruct (dl_keep l || mem_entry EKeep vro); [simpl; exact H2 | exact H2].
Qed.

Lemma classify_named n v x : v <> [] -> is_expr v = false -> exists ox, classify (mkRequest n (Some v) x) = Named v ox.
Proof.
  intros Hv He. unfold classify. simpl. destruct v as [|a r]; [congruence|]. rewrite He. eauto.
Qed.

Section World.
  Variable vcmp : str -> str -> comparison.
  Variable vmatch : str -> str -> bool.
  Variable c : config.
  Variable db : dbv.
  Variable flavors : list str.
  Variable vro : list ventry.
  Variable T : dtables.
  Hypothesis OK : dworld_ok db flavors T.
  Hypothesis HT : vcmp_ok vcmp db.
  Hypothesis HV : existsb is_version_like vro = true.

  Let lk := lookup_line vcmp vmatch c db flavors vro.
  Let w := edges_world lk T.

  Lemma lookup_line_declared l fd : lk l = Some fd ->
    exists f s, In f flavors /\ In s db /\ Resolve.declared s (dl_name l) (fd_version fd) f = true.
  Proof.
    intros H. unfold lk, lookup_line, lookup_at in H.
    destruct (vro_lookup_declared vcmp vmatch c db (dok_wf _ _ _ OK) HT _ _ _ _ H) as [f [Hf [s [Hs [D _]]]]].
    exists f, s. auto.
  Qed.

  Lemma lookup_line_unresolved l v : lk l = None -> dl_version l = Some v -> dtable_of T (dl_name l) v = None.
  Proof.
    intros H Ev. destruct (dtable_of T (dl_name l) v) as [ls|] eqn:Tv; [|reflexivity]. exfalso.
    destruct (dok_declared _ _ _ OK _ _ _ Tv) as [Hne [s [f [Hs [Hf D]]]]].
    pose proof (declared_not_expr db s _ _ _ (dok_wf _ _ _ OK) Hs D) as Hx.
    unfold lk, lookup_line, lookup_at in H. rewrite (vro_lookup_walks vcmp vmatch c db (dok_wf _ _ _ OK) HT) in H.
    pose proof (first_some_none_inv _ _ H f Hf) as H1. cbv beta in H1.
    destruct (classify_named (dl_name l) v (dl_expr l) Hne Hx) as [ox Ec].
    assert (Ec2 : classify (dreq l) = Named v ox) by (unfold dreq; rewrite Ev; exact Ec).
    rewrite Ec2 in H1. change (rq_name (dreq l)) with (dl_name l) in H1.
    apply named_unresolved in H1; [|apply line_vro_version_like, HV].
    unfold version_designates in H1. pose proof (first_some_none_inv _ _ H1 s Hs) as H2. cbv beta in H2.
    rewrite D in H2. discriminate.
  Qed.

  Theorem edges_world_wf : wf_world w.
  Proof.
    intros n v es e Tn Ie. unfold w in Tn. rewrite table_of_edges in Tn.
    destruct (dtable_of T n v) as [ls|] eqn:Tl; [|discriminate]. simpl in Tn. inversion Tn. subst es. clear Tn.
    apply in_map_iff in Ie as [l [<- Il]]. split.
    - intros r Er. simpl in Er. destruct (lk l) as [fd|] eqn:E; [|discriminate]. simpl in Er. inversion Er. subst r.
      unfold w. rewrite graph_declared_edges. simpl.
      destruct (lookup_line_declared l fd E) as [f [s [Hf [Hs D]]]]. pose proof (dok_tables _ _ _ OK s _ _ f Hs Hf D) as Hn.
      destruct (dtable_of T (dl_name l) (fd_version fd)); [reflexivity | congruence].
    - intros v' Er Ev. simpl in Er, Ev. destruct (lk l) as [fd|] eqn:E; [discriminate|].
      unfold w. rewrite graph_declared_edges. simpl. rewrite (lookup_line_unresolved l v' E Ev). reflexivity.
  Qed.
End World.

(* sound decidable forms of the hypotheses, for concrete worlds *)

Lemma dworld_ok_b_sound db flavors T : dworld_ok_b db flavors T = true -> dworld_ok db flavors T.
Proof.
  unfold dworld_ok_b. intros H. apply andb_true_iff in H as [H H3]. apply andb_true_iff in H as [H1 H2].
  rewrite forallb_forall in H2, H3. constructor.
  - exact H1.
  - intros s n v f Hs Hf D. specialize (H2 s Hs). rewrite forallb_forall in H2.
    apply decl_is_In in D. specialize (H2 _ D). cbv beta iota in H2.
    apply mem_str_In in Hf. rewrite Hf in H2. destruct (dtable_of T n v); discriminate.
  - intros n v ls Tn. apply dtable_of_In in Tn. specialize (H3 _ Tn). cbv beta iota in H3.
    apply andb_true_iff in H3 as [Hv He]. split; [intros Q; subst; discriminate|].
    apply existsb_exists in He as [s [Hs He]]. apply existsb_exists in He as [f [Hf D]]. exists s, f. auto.
Qed.

Lemma names_of_name db n v : In v (names_of db n) -> In n (db_names db).
Proof.
  unfold names_of, db_names. intros H. apply in_flat_map in H as [s [Hs H]]. apply in_flat_map in H as [[[n' v'] f] [Hd H]].
  destruct (str_eqb n n') eqn:E; [|destruct H]. apply str_eqb_eq in E. subst n'.
  apply in_flat_map. exists s. split; [exact Hs|]. apply in_map_iff. exists (n, v', f). auto.
Qed.

Lemma vcmp_ok_b_sound vcmp db : vcmp_ok_b vcmp db = true -> vcmp_ok vcmp db.
Proof.
  unfold vcmp_ok_b, vcmp_ok. intros H n. rewrite forallb_forall in H.
  destruct (names_of db n) as [|v r] eqn:E.
  - repeat split; intros; match goal with H : In _ [] |- _ => destruct H end.
  - rewrite <- E. apply total_orderb_sound, H. apply (names_of_name db n v). rewrite E. left. reflexivity.
Qed.

Lemma no_just_b_sound T : no_just_b T = true -> no_just T.
Proof.
  unfold no_just_b, no_just. intros H n v ls l Tn Il. apply dtable_of_In in Tn. rewrite forallb_forall in H.
  specialize (H _ Tn). simpl in H. rewrite forallb_forall in H. specialize (H l Il). apply negb_true_iff, H.
Qed.

Lemma plain_tables_b_sound c vro T : plain_tables_b c vro T = true -> plain_tables (line_vro c) vro T.
Proof.
  unfold plain_tables_b, plain_tables. intros H n v ls l Tn Il. apply andb_true_iff in H as [Hk H].
  apply dtable_of_In in Tn. rewrite forallb_forall in H. specialize (H _ Tn). simpl in H.
  rewrite forallb_forall in H. specialize (H l Il). unfold plain_line_b in H. apply andb_true_iff in H as [H1 H2].
  unfold line_vro. apply negb_true_iff in H1, Hk. rewrite H1, Hk. simpl.
  destruct (filter (recognized c) (dl_tags l)); [reflexivity | discriminate].
Qed.
