(* C17, the exact-reproduction clause in full: the build is a run of the composed model (Model/SetupFull.v:
   Eups.setup with C03's resolver), its closure theorem (Proofs/SetupFullClosure.v closure_lemma, C01's
   closure_exact) says what is set up afterwards, the expansion (Model/Expand.v) pins all of it
   (Proofs/Expand.v block_complete_open), and the replay through Model/Setup.v with the decisions forced by the
   exact block (Proofs/ExpandSetup.v replay_records) records it again. *)
From Eupsv Require Import Base.Base Base.BaseLemmas Model.PathAlg Model.Setup Model.Resolve Model.ResolveSpec
     Model.SetupFull Model.Expand.
From Eupsv Require Import Proofs.PathAlg Proofs.SetupFrame Proofs.SetupInv Proofs.SetupFull Proofs.SetupFullClosure
     Proofs.Expand Proofs.ExpandSetup.

(* What ties the dependency lists to the world.  The lists rd are what Table.dependencies(recursive) returns for the
   products the table's own lines name (an input of Model/Expand.v: the walk is not modelled there); the closure
   reach_ok fw D top is defined on the tables of the composed model.  [lists_cover]: every member of the closure
   other than top is named by a setup line of the table, or listed below a line (without -j) that names a member
   of the closure, in the list of that product's assigned version. *)
Definition lists_cover (fw : fworld) (D : str -> option str) (top : str) (rd : rawdeps) (ls : list tline) : Prop :=
  forall k, reach_ok fw D top k -> k <> top ->
    exists s va, In (LSetup s) ls /\ sl_name s <> top /\ reach_ok fw D top (sl_name s) /\ D (sl_name s) = Some va /\
      (k = sl_name s \/
       (mem_str (lit "-j") (sl_flags s) = false /\ exists d, In d (lookup_raw rd (sl_name s) va) /\ d_name d = k)).

Lemma reach_ok_assigned fw D m k : reach_ok fw D m k ->
  k = m \/ exists v p, D k = Some v /\ find_pv (fw_products fw) k v = Some p.
Proof.
  induction 1 as [m|m v p o x j k Dm Fm Ia Sx R IH]; [now left|]. right.
  destruct IH as [->|E]; [|exact E]. inversion Sx as [n v' p' Dn Fn _]; subst. now exists v', p'.
Qed.

Definition pin_is (k v : str) (x : nvo) : bool := str_eqb (fst (fst x)) k && str_eqb (snd (fst x)) v.

Lemma pin_is_true k v x : pin_is k v x = true -> exists o, x = (k, v, o).
Proof.
  destruct x as [[n u] o]. unfold pin_is. simpl. rewrite andb_true_iff, !str_eqb_eq. intros [-> ->]. now exists o.
Qed.

Lemma recorded_fun e n v v' : recorded e n v -> recorded e n v' -> v = v'.
Proof. unfold recorded. intros A B. rewrite A in B. now injection B. Qed.

Section Full.
Variable vcmp : str -> str -> comparison.
Variable vmatch : str -> str -> bool.
Variable fw : fworld.
Variable cfg : Setup.config.
Variable rc : Resolve.config.
Variable flavors : list str.
Variable dl : str -> ascii.
Variable rank : str -> nat.
Variable vro : list entry.
Variable top : str.
Variable version : option str.
Variable D : str -> option str.
Notation w := (fw_products fw).

Hypothesis H : WF2 w dl rank.
Hypothesis Hdepth : c_max_depth cfg = None.
Hypothesis Hwfdb : wf_db (db_of cfg fw) = true.
Hypothesis Hto : forall n, total_order_on vcmp (names_of (db_of cfg fw) n).
Hypothesis Hvro : select_vro rc (request_opts cfg version) = Ok vro.
Hypothesis Hnokeep : mem_entry EKeep vro = false.
Hypothesis Hcf : conflict_free vcmp vmatch fw cfg rc flavors vro top {| li_version := version; li_expr := None |} D.

Variables (fuel : nat) (st0 stb : state) (tr : list decision).
Hypothesis Hnd : nodollar_paths w (s_env st0).
Hypothesis Hempty : forall m, alookup (setup_var m) (s_env st0) = None.      (* a shell in which nothing is set up *)
Hypothesis Hbuild : request_full vcmp vmatch fw cfg rc flavors fuel st0 top version true false = Ok (Some stb, tr).

(* C01's closure clause for this build *)
Lemma build_closure :
  (forall k, reach_ok fw D top k ->
     exists v q, D k = Some v /\ find_pv w k v = Some q /\ find_setup_product w (s_env stb) k = Some q) /\
  (forall k q, reachN fw top k -> find_setup_product w (s_env stb) k = Some q ->
     reach_ok fw D top k /\ D k = Some (p_version q)) /\
  (forall k, known w k -> ~ reachN fw top k -> find_setup_product w (s_env stb) k = None).
Proof.
  unfold request_full in Hbuild. rewrite Hvro in Hbuild.
  destruct (setup_full vcmp vmatch fw cfg rc flavors fuel st0 [] vro top _ true 0 false)
    as [[|] st1 al1 tr1|st1 al1 tr1|tr1|tr1] eqn:X; try discriminate.
  injection Hbuild as <- _.
  destruct Hcf as [C0 CL].
  assert (Hfresh : forall n, reachN fw top n -> find_setup_product w (s_env st0) n = None).
  { intros n _. apply find_none_when_unset. apply Hempty. }
  destruct (closure_lemma vcmp vmatch fw cfg rc flavors dl rank vro top D (fun _ => False) H Hdepth Hwfdb Hto Hnokeep CL
              fuel st0 _ st1 al1 tr1 Hnd Hfresh C0 (fun k v (Zk : False) => match Zk with end) X) as [A [B [C _]]].
  split; [exact A|]. split; [exact B|].
  intros k K NR. rewrite (C k K NR). apply find_none_when_unset. apply Hempty.
Qed.

Lemma build_top topv : D top = Some topv ->
  exists q, find_pv w top topv = Some q /\ find_setup_product w (s_env stb) top = Some q.
Proof.
  intro Dt. destruct build_closure as [A _]. destruct (A top (ro_self fw D top)) as [v [q [Dv [Fq Fs]]]].
  assert (v = topv) by congruence. subst v. now exists q.
Qed.

Variables (force : bool) (rd : rawdeps) (ls : list tline) (out : list oline).
Hypothesis Hexp : expand w (s_env stb) top [] force rd ls = Ok out.
Hypothesis Hcover : lists_cover fw D top rd ls.

(* the second premise of reproduces, derived: every product the build left set up, other than top, is pinned at its build-time version.
   (Membership in the list of pins is decidable, so the case distinction on reachability - which is not - can be
   made under a double negation.) *)
Lemma build_is_pinned k q :
  known w k -> k <> top -> find_setup_product w (s_env stb) k = Some q ->
  exists o, In (k, p_version q, o) (pins_of out).
Proof.
  intros K Nk F.
  destruct (find (pin_is k (p_version q)) (pins_of out)) as [x|] eqn:X.
  { apply find_some in X. destruct X as [Ix Px]. apply pin_is_true in Px. destruct Px as [o ->]. now exists o. }
  exfalso. pose proof (find_none _ _ X) as NP.
  destruct build_closure as [A [B C]].
  assert (NNR : ~ ~ reachN fw top k).
  { intro NR. rewrite (C k K NR) in F. discriminate F. }
  apply NNR. intro R.
  destruct (B k q R F) as [RO Dk].
  destruct (Hcover k RO Nk) as [s [va [Is [Nt [ROa [Da Hor]]]]]].
  destruct (A (sl_name s) ROa) as [v [qa [Da' [Fpa Fsa]]]].
  assert (v = va) by congruence. subst v.
  destruct (find_pv_in w (sl_name s) va qa Fpa) as [Iqa [_ Vqa]].
  destruct (find_setup_product_recorded w (s_env stb) (sl_name s) qa Fsa) as [_ Ra]. rewrite Vqa in Ra.
  assert (Vne : va <> []).
  { destruct (wf_words w dl rank H qa Iqa) as [_ [[Wv _] _]]. now rewrite Vqa in Wv. }
  assert (Hn : k = sl_name s \/
               (mem_str (lit "-j") (sl_flags s) = false /\ find_pv w (sl_name s) va <> None /\
                exists d p, In d (lookup_raw rd (sl_name s) va) /\ d_name d = k /\
                            find_setup_product w (s_env stb) k = Some p)).
  { destruct Hor as [->|[J [d [Id Dn]]]]; [now left|]. right. split; [exact J|]. split; [congruence|].
    exists d, q. repeat split; assumption. }
  destruct (block_complete_open w (s_env stb) top force rd ls out s k va Hexp Is Nt Ra Vne Hn) as [o [v' [Ip Rk]]].
  destruct (find_setup_product_recorded w (s_env stb) k q F) as [_ Rq].
  pose proof (recorded_fun _ _ _ _ Rk Rq) as ->.
  apply pins_of_iff, NP in Ip. unfold pin_is in Ip. cbn [fst snd] in Ip. now rewrite !str_eqb_refl in Ip.
Qed.

Variables (w' : world) (cfg' : Setup.config) (interp : str -> list action) (ptop : product) (topv : str)
          (absent : list str) (fuel' : nat) (st1 : state).
Hypothesis Hmd' : c_max_depth cfg' = None.
Hypothesis Htop : find_pv w' top topv = Some ptop.
Hypothesis Htable : p_actions ptop = exact_actions interp (exact_view out) ++ map absent_action absent.
Hypothesis Hinterp : forall t, Forall simple_action (interp t).
Hypothesis Hdecl : forall n v o, In (n, v, o) (pins_of out) ->
                     exists p, find_pv w' n v = Some p /\ Forall quiet_action (p_actions p).
Hypothesis Hsane : sane top.
Hypothesis Hsanes : forall x, In x (pins_of out) -> sane (pin_name x).
Hypothesis Hnodup : NoDup (upper_str top :: map (fun x => upper_str (pin_name x)) (pins_of out)).
Hypothesis Hempty1 : forall m, alookup (setup_var m) (s_env st1) = None.
Hypothesis Hfuel : 2 <= fuel'.

Lemma reproduces_full :
  exists st',
    setup w' cfg' fuel' st1 (forced_decisions topv (pins_of out) absent) top true 0 false = RDone true st' [] /\
    alookup (setup_var top) (s_env st') = Some (setup_string cfg' top topv) /\
    (forall k q, known w k -> k <> top -> find_setup_product w (s_env stb) k = Some q ->
       alookup (setup_var k) (s_env st') = Some (setup_string cfg' k (p_version q))) /\
    (forall m, alookup (setup_var m) (s_env st') <> None -> upper_str m <> upper_str top ->
       exists n v, setup_var n = setup_var m /\ recorded (s_env stb) n v /\
                   alookup (setup_var m) (s_env st') = Some (setup_string cfg' n v)).
Proof.
  destruct (replay_records true true true w (s_env stb) top [] force rd ls out w' cfg' interp ptop topv absent fuel' st1)
    as [st' [R [Rt [Rp Ro]]]]; auto.
  exists st'. split; [exact R|]. split; [exact Rt|]. split.
  - intros k q K Nk F. destruct (build_is_pinned k q K Nk F) as [o I]. apply (Rp k (p_version q) o I).
  - exact (recorded_is_pinned (s_env stb) cfg' top _ _ _ Rp Ro Hempty1).
Qed.

End Full.
