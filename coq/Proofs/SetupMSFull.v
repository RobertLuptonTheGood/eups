(* Several stacks: the composed model (setup + resolver, Model/SetupMSFull.v) is Model/SetupMS.v run on the decisions
   it takes (setup_full_agrees); from it the frame theorem and the invariant for the composed model, and what a
   top-level request records: the product the resolver returned, with its stack (top_level_records_decision,
   explicit_version_lemma). *)
From Eupsv Require Import Base.Base Base.BaseLemmas Model.PathAlg Proofs.PathAlg Model.Setup Model.SetupMS Proofs.SetupMSFrame
     Proofs.SetupMSInv Model.Resolve Model.ResolveSpec Proofs.ResolveLib Proofs.Resolve Model.SetupFull Model.SetupMSFull.
From Coq Require Import Lia.

Lemma trace_with_trace pre r : mtrace_of (mwith_trace pre r) = pre ++ mtrace_of r.
Proof. destruct r; reflexivity. Qed.

Lemma erase_with_trace rest pre r : merase rest (mwith_trace pre r) = merase rest r.
Proof. destruct r; reflexivity. Qed.

Section Agree.
Variable vcmp : str -> str -> comparison.
Variable vmatch : str -> str -> bool.
Variable fw : mfworld.
Variable cfg : Setup.config.
Variable rc : Resolve.config.
Variable flavors : list str.

Notation w := (mfw_products fw).
Notation run_full := (mrun_actions_full cfg).
Notation step_full := (msetup_full_step vcmp vmatch fw cfg rc flavors).

(* [frec] run without decisions does what [rec] does on the decisions [frec] takes, whatever follows them *)
Definition agrees (frec : mfull_fn) (rec : msetup_fn) : Prop :=
  forall st al vro name li fwd depth just rest,
    rec st (mtrace_of (frec st al vro name li fwd depth just) ++ rest) name fwd depth just =
    merase rest (frec st al vro name li fwd depth just).

Lemma run_full_simple (frec : mfull_fn) fwd depth just vro a acts infos st al :
  (forall o m j, a <> ASetup o m j) ->
  run_full frec fwd depth just vro (a :: acts) infos st al =
  match exec_simple fwd a st with
  | Ok st' => run_full frec fwd depth just vro acts (tl infos) st' al
  | Err _ => MFRaise st al []
  end.
Proof. intro Hns. destruct a; try reflexivity. now elim (Hns optional name just0). Qed.

Lemma run_actions_agree frec rec fwd depth just vro :
  agrees frec rec ->
  forall acts infos st al rest,
    mrun_actions cfg rec fwd depth just acts st
                (mtrace_of (run_full frec fwd depth just vro acts infos st al) ++ rest) =
    merase rest (run_full frec fwd depth just vro acts infos st al).
Proof.
  intro HA. induction acts as [|a acts IH]; intros infos st al rest; [reflexivity|].
  destruct (setup_or_simple a) as [[o [m [j ->]]]|Hns].
  2:{ rewrite (run_full_simple frec fwd depth just vro a acts infos st al Hns), (run_actions_simple cfg rec fwd depth just a acts st _ Hns).
      destruct (exec_simple fwd a st); [apply IH|reflexivity]. }
  cbn [mrun_actions mrun_actions_full].
  destruct (cut_off cfg just (S depth)); [apply IH|].
  pose proof (HA st al (child_vro vro) m (hd no_info infos) fwd (S depth) j) as HC.
  destruct (frec st al (child_vro vro) m (hd no_info infos) fwd (S depth) j) as [ok st' al' tr|st' al' tr|tr|tr];
    cbn [mtrace_of merase] in HC.
  - destruct ok.
    + rewrite trace_with_trace, erase_with_trace, <- app_assoc, HC. apply IH.
    + destruct (fwd && negb o).
      * cbn [mtrace_of merase]. now rewrite HC.
      * rewrite trace_with_trace, erase_with_trace, <- app_assoc, HC. apply IH.
  - destruct (fwd && negb o).
    + cbn [mtrace_of merase]. now rewrite HC.
    + rewrite trace_with_trace, erase_with_trace, <- app_assoc, HC. apply IH.
  - cbn [mtrace_of merase]. now rewrite HC.
  - cbn [mtrace_of merase]. now rewrite HC.
Qed.

Lemma setup_step_agree frec rec : agrees frec rec -> agrees (step_full frec) (msetup_step w cfg rec).
Proof.
  intros HA st al vro name li fwd depth just rest. unfold msetup_full_step, msetup_step. destruct fwd.
  - destruct (resolve_request vcmp vmatch rc (mdb_of fw) (c_keep cfg) (alookup name al) flavors depth vro
                              (mkRequest name (li_version li) (li_expr li))) as [[[fd why]|]|e]; try reflexivity.
    set (al1 := if depth =? 0 then aset name (fd, why) (mrebuild w (c_flavor cfg) (s_env st)) else al).
    destruct (find_pvr w name (vref_of fd)) as [p|] eqn:Hf.
    2:{ cbn [mtrace_of app merase]. now rewrite Hf. }
    destruct (msame_product p (mfind_setup_product w (c_flavor cfg) (s_env st) name) && negb (depth =? 0)) eqn:Hs.
    { cbn [mtrace_of app merase]. now rewrite Hf, Hs. }
    destruct (mfind_setup_product w (c_flavor cfg) (s_env st) name) as [sp|] eqn:Hsp.
    + pose proof (HA st al1 vro name no_info false depth (just || c_keep cfg)) as H0.
      destruct (frec st al1 vro name no_info false depth (just || c_keep cfg)) as [ok st1 al2 tr0|st1 al2 tr0|tr0|tr0];
        cbn [mtrace_of merase] in H0.
      * rewrite trace_with_trace, erase_with_trace. cbn [app]. rewrite Hf, Hs. rewrite <- app_assoc, H0.
        apply run_actions_agree. exact HA.
      * cbn [mwith_trace mtrace_of app merase]. now rewrite Hf, Hs, H0.
      * cbn [mwith_trace mtrace_of app merase]. now rewrite Hf, Hs, H0.
      * cbn [mwith_trace mtrace_of app merase]. now rewrite Hf, Hs, H0.
    + rewrite trace_with_trace, erase_with_trace. cbn [app]. rewrite Hf, Hs.
      apply run_actions_agree. exact HA.
  - destruct (mfind_setup_product w (c_flavor cfg) (s_env st) name) as [sp|]; [|reflexivity].
    apply run_actions_agree. exact HA.
Qed.

Theorem setup_full_agrees fuel : agrees (msetup_full vcmp vmatch fw cfg rc flavors fuel) (msetup w cfg fuel).
Proof.
  induction fuel as [|fuel IH].
  - intros st al vro name li fwd depth just rest. reflexivity.
  - cbn [msetup_full msetup]. now apply setup_step_agree.
Qed.

End Agree.

Section Consequences.
Variable vcmp : str -> str -> comparison.
Variable vmatch : str -> str -> bool.
Variable fw : mfworld.
Variable cfg : Setup.config.
Variable rc : Resolve.config.
Variable flavors : list str.

Notation w := (mfw_products fw).
Notation full := (msetup_full vcmp vmatch fw cfg rc flavors).
Notation step_full := (msetup_full_step vcmp vmatch fw cfg rc flavors).

(* every run of the composed model is the run of Model/SetupMS.v on the decisions it took *)
Theorem setup_full_is_setup_lemma fuel st al vro name li fwd depth just :
  msetup w cfg fuel st (mtrace_of (full fuel st al vro name li fwd depth just)) name fwd depth just =
  merase [] (full fuel st al vro name li fwd depth just).
Proof.
  pose proof (setup_full_agrees vcmp vmatch fw cfg rc flavors fuel st al vro name li fwd depth just []) as H.
  now rewrite app_nil_r in H.
Qed.

Lemma full_done_setup fuel st al vro name li fwd depth just ok st' al' tr :
  full fuel st al vro name li fwd depth just = MFDone ok st' al' tr ->
  msetup w cfg fuel st tr name fwd depth just = MDone ok st' [].
Proof.
  intro E. pose proof (setup_full_is_setup_lemma fuel st al vro name li fwd depth just) as H.
  now rewrite E in H.
Qed.

Lemma setup_full_frame_lemma dl fuel st al vro name li fwd depth just :
  WF w dl -> nodollar_paths w (s_env st) -> depth_ok cfg depth ->
  good w dl (touches w (levels cfg depth just) name) st (merase [] (full fuel st al vro name li fwd depth just)).
Proof.
  intros H Hnd Hd. rewrite <- setup_full_is_setup_lemma. now apply (setup_frame w cfg dl H fuel).
Qed.

Lemma setup_full_inv_lemma dl rank fuel st al vro name li fwd depth just ok st' al' tr :
  WF2 w dl rank -> nodollar_paths w (s_env st) -> depth_ok cfg depth -> Inv w cfg (s_env st) ->
  full fuel st al vro name li fwd depth just = MFDone ok st' al' tr ->
  Inv w cfg (s_env st') /\ nodollar_paths w (s_env st').
Proof.
  intros H Hnd Hd HI E.
  exact (setup_preserves_Inv w cfg dl rank H fuel st tr name fwd depth just ok st' [] Hnd Hd HI
           (full_done_setup _ _ _ _ _ _ _ _ _ _ _ _ _ E)).
Qed.

Lemma step_trace_head frec st al vro name li depth just fd why :
  resolve_request vcmp vmatch rc (mdb_of fw) (c_keep cfg) (alookup name al) flavors depth vro
                  (mkRequest name (li_version li) (li_expr li)) = Ok (Some (fd, why)) ->
  exists tr, mtrace_of (step_full frec st al vro name li true depth just) = Some (vref_of fd) :: tr.
Proof.
  intro E. unfold msetup_full_step. rewrite E.
  destruct (find_pvr w name (vref_of fd)) as [p|]; [|now exists []].
  destruct (msame_product p (mfind_setup_product w (c_flavor cfg) (s_env st) name) && negb (depth =? 0)); [now exists []|].
  destruct (mfind_setup_product w (c_flavor cfg) (s_env st) name).
  - match goal with |- context [match ?X with MFDone _ _ _ _ => _ | _ => _ end] => destruct X end;
      rewrite trace_with_trace; cbn [app]; eauto.
  - rewrite trace_with_trace; cbn [app]; eauto.
Qed.

Lemma step_success_resolved frec st al vro name li depth just st' al' tr :
  step_full frec st al vro name li true depth just = MFDone true st' al' tr ->
  exists fd why,
    resolve_request vcmp vmatch rc (mdb_of fw) (c_keep cfg) (alookup name al) flavors depth vro
                    (mkRequest name (li_version li) (li_expr li)) = Ok (Some (fd, why)).
Proof.
  unfold msetup_full_step.
  destruct (resolve_request vcmp vmatch rc (mdb_of fw) (c_keep cfg) (alookup name al) flavors depth vro
                            (mkRequest name (li_version li) (li_expr li))) as [[[fd why]|]|e]; try discriminate.
  intros _. now exists fd, why.
Qed.

(* C01 setup_records_the_stack_found: what SETUP_NAME records after a top-level request is the product the resolver
   returned - its version and ITS STACK *)
Lemma top_level_records_decision dl rank fuel st al vro name li just st' al' tr :
  WF2 w dl rank -> nodollar_paths w (s_env st) -> Inv w cfg (s_env st) ->
  full fuel st al vro name li true 0 just = MFDone true st' al' tr ->
  exists fd why p,
    resolve_request vcmp vmatch rc (mdb_of fw) (c_keep cfg) (alookup name al) flavors 0 vro
                    (mkRequest name (li_version li) (li_expr li)) = Ok (Some (fd, why)) /\
    find_pvr w name (vref_of fd) = Some p /\ mp_version p = fd_version fd /\ mp_root p = fd_stack fd /\
    mfind_setup_product w (c_flavor cfg) (s_env st') name = Some p /\
    alookup (setup_var name) (s_env st') = Some (ms_setup_string p).
Proof.
  intros H Hnd HI E.
  destruct fuel as [|fuel]; [discriminate|]. cbn [msetup_full] in E.
  destruct (step_success_resolved _ _ _ _ _ _ _ _ _ _ _ E) as [fd [why R]].
  destruct (step_trace_head (full fuel) st al vro name _ 0 just fd why R) as [tr0 T].
  rewrite E in T. cbn [mtrace_of] in T. subst tr.
  pose proof (full_done_setup (S fuel) st al vro name _ true 0 just true st' al' _ E) as S0.
  assert (Hd : depth_ok cfg 0) by (unfold depth_ok; destruct (c_max_depth cfg); lia).
  pose proof (setup_inv w cfg dl rank H (S fuel) st (Some (vref_of fd) :: tr0) name true 0 just Hnd Hd (fun n _ => HI n)) as I0.
  (* S0 and I0 write the type of the decisions differently (mdecision, option vref): unfolded so that the rewrite
     finds its term *)
  unfold mdecision, str in *. rewrite S0 in I0. destruct I0 as [_ [_ T0]].
  destruct (T0 eq_refl eq_refl (vref_of fd) tr0 eq_refl) as [p [Hf [[Hs Hr]|[Hz _]]]]; [|now elim Hz].
  exists fd, why, p. destruct (find_pvr_spec w name _ p Hf) as [_ [Hv Hroot]].
  repeat split; assumption.
Qed.

(* C01: a top-level request that names an explicit version sets that version up or fails *)
Lemma explicit_version_lemma dl rank fuel st al vro name v x just st' al' tr :
  WF2 w dl rank -> nodollar_paths w (s_env st) -> Inv w cfg (s_env st) ->
  v <> [] -> is_expr v = false ->
  full fuel st al vro name {| li_version := Some v; li_expr := x |} true 0 just = MFDone true st' al' tr ->
  exists p, mp_version p = v /\ mfind_setup_product w (c_flavor cfg) (s_env st') name = Some p.
Proof.
  intros H Hnd HI Hne Hx E.
  destruct (top_level_records_decision dl rank fuel st al vro name _ just st' al' tr H Hnd HI E)
    as [fd [why [p [R [Hf [Hv [Hr [Hs _]]]]]]]].
  cbn [li_version li_expr] in R.
  assert (V : fd_version fd = v).
  { apply (resolve_version vcmp vmatch rc (mdb_of fw) (c_keep cfg) (alookup name al) flavors vro
             (mkRequest name (Some v) x) v fd why); auto.
    cbn [rq_version truthy]. destruct v; [contradiction|reflexivity]. }
  exists p. split; [congruence|assumption].
Qed.

End Consequences.
