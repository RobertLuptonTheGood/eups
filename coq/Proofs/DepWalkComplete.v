(* The walk with the resolver inside (Model/DepWalk.v), -j lines included: it answers on every world
   (cycles or not) with fuel above the number of tables, and what it lists is exactly what can be reached
   through the lines as the look-ups resolve them, a -j line being followed to its product and no further. *)
From Coq Require Import Lia.
From Eupsv Require Import Base.Base Base.BaseLemmas Model.Resolve Model.Graph Model.DepWalk
     Proofs.GraphLib Proofs.GraphWalk Proofs.DepWalkConst.

Section Walk.
  Variable lk : dline -> option found.
  Variable lkp : dline -> option str -> option found.
  Variable T : dtables.
  Variable pins : list (str * option str).

  Definition dtg (l : dline) : node := cresolve lk lkp pins l.

  (* l is a line of the table of p *)
  Definition dline_in (p : node) (l : dline) : Prop := exists ls, dnode_table T p = Some ls /\ In l ls.

  (* q is reached from p: through lines without -j, then one line of any kind *)
  Inductive dreach : node -> node -> Prop :=
  | dr_one p l : dline_in p l -> dreach p (dtg l)
  | dr_more p l r : dline_in p l -> dl_just l = false -> dreach (dtg l) r -> dreach p r.

  (* q is the product of one of the lines [ls], or reached from it when the line has no -j *)
  Definition from_lines (ls : list dline) (q : node) : Prop :=
    exists l, In l ls /\ (q = dtg l \/ (dl_just l = false /\ dreach (dtg l) q)).

  Lemma dreach_lines p ls q : dnode_table T p = Some ls -> (dreach p q <-> from_lines ls q).
  Proof.
    intros Tp. split.
    - intros R. inversion R as [p' l [ls' [Tp' Il]] | p' l r [ls' [Tp' Il]] J Rr]; subst;
        rewrite Tp in Tp'; inversion Tp'; subst ls'; exists l; auto.
    - intros [l [Il [-> | [J R]]]]; [apply dr_one | eapply dr_more; eauto]; exists ls; auto.
  Qed.

  Lemma dline_in_real p l : dline_in p l -> nreal p = true.
  Proof. intros [ls [H _]]. unfold dnode_table in H. destruct (nreal p); [reflexivity | discriminate]. Qed.

  Lemma dreach_first_real p q : dreach p q -> nreal p = true.
  Proof. intros H. destruct H; eapply dline_in_real; eauto. Qed.

  (* the measure of Proofs/GraphWalk.v - the tables not walked yet - on any world with the keys of T *)
  Let w := edges_world lk T.

  Lemma dnode_table_world p ls : dnode_table T p = Some ls -> In p (world_nodes w).
  Proof.
    intros H. apply (node_table_world_nodes w p (map (edge_of lk) ls)).
    unfold w. rewrite node_table_edges, H. reflexivity.
  Qed.

  (* what a line contributes: its product is listed, and walked unless the line says -j or it is a stub *)
  Definition line_done (out : list entry) (st' : wstate) (l : dline) : Prop :=
    In (dtg l) (map enode out) /\ (dl_just l = false -> nreal (dtg l) = true -> In (dtg l) (vis st')).

  Record dwalk_ok (st : wstate) (ls : list dline) (out : list entry) (st' : wstate) : Prop := {
    dwo_mono : incl (vis st) (vis st');
    dwo_new : forall x, In x (vis st') -> ~ In x (vis st) -> forall l, dline_in x l -> line_done out st' l;
    dwo_lines : forall l, In l ls -> line_done out st' l;
    dwo_sound : forall t, In t (map enode out) -> from_lines ls t
  }.

  Definition drec_ok (rec : list ventry -> node -> nat -> list dline -> wstate -> res (list entry * wstate)) (n : nat) : Prop :=
    forall t d ls st, unvisited w st < n -> exists out st', rec [] t d ls st = Ok (out, st') /\ dwalk_ok st ls out st'.

  Record dsub_ok (st : wstate) (l : dline) (l1 : list entry) (st2 : wstate) : Prop := {
    dso_mono : incl (vis st) (vis st2);
    dso_vis : dl_just l = false -> nreal (dtg l) = true -> In (dtg l) (vis st2);
    dso_new : forall x, In x (vis st2) -> ~ In x (vis st) -> forall l', dline_in x l' -> line_done l1 st2 l';
    dso_sound : forall q, In q (map enode l1) -> dl_just l = false /\ dreach (dtg l) q
  }.

  Lemma line_done_app e l1 l2 st' st'' l :
    incl (vis st') (vis st'') -> line_done l1 st' l \/ line_done l2 st' l -> line_done (e :: l1 ++ l2) st'' l.
  Proof.
    intros H [[A B] | [A B]]; (split; [simpl; rewrite map_app, in_app_iff; auto | intros J Rl; apply H, B; assumption]).
  Qed.

  (* a line that is not followed: -j, a stub, or a product walked before *)
  Lemma dsub_idle st l : (dl_just l = false -> nreal (dtg l) = true -> In (dtg l) (vis st)) -> dsub_ok st l [] st.
  Proof. intros V. constructor; [apply incl_refl | exact V | tauto | intros q []]. Qed.

  Lemma dsub_call_ok rec n : drec_ok rec n -> forall l depth st, unvisited w st <= n ->
    exists l1 st2, dwalk_sub T rec [] (dtg l) depth (dl_just l) st = Ok (l1, st2) /\ dsub_ok st l l1 st2.
  Proof.
    intros Hrec l depth st Hn. unfold dwalk_sub. set (t := dtg l).
    destruct (nreal t && negb (dl_just l) && negb (mem_node t (vis st))) eqn:C.
    2:{ exists [], st. split; [reflexivity|]. apply dsub_idle. fold t. intros J Rl. rewrite J, Rl in C.
        apply mem_node_In, negb_false_iff, C. }
    apply andb_true_iff in C as [C Hm]. apply andb_true_iff in C as [Hr Hj].
    apply negb_true_iff in Hj, Hm. apply mem_node_not_In in Hm.
    destruct (dnode_table T t) as [ls'|] eqn:Ht.
    - assert (Hlt : unvisited w (pd_ensure t (mark t st)) < n)
        by exact (Nat.lt_le_trans _ _ _ (unvisited_mark w t st (dnode_table_world _ _ Ht) Hm) Hn).
      destruct (Hrec t (S depth) ls' _ Hlt) as [l1 [st2 [E Hok]]].
      exists l1, st2. split; [exact E|].
      destruct Hok as [M N L S]. simpl in M, N.
      constructor.
      + intros x Hx. apply M. simpl. auto.
      + intros _ _. apply M. simpl. auto.
      + intros x Hx Hnx l' [ls'' [Tx Il']]. destruct (node_eq_dec x t) as [-> | Ne].
        * rewrite Ht in Tx. inversion Tx. subst. apply L, Il'.
        * apply (N x Hx); [intros [Q | Q]; [exact (Ne (eq_sym Q)) | exact (Hnx Q)] | exists ls''; auto].
      + intros q Hq. split; [exact Hj | apply (dreach_lines t ls' q Ht), S, Hq].
    - exists [], (mark t st). split; [reflexivity|]. constructor; simpl; try (intros; tauto).
      + intros x Hx. simpl. auto.
      + intros x [<- | Hx] Hnx l' [ls'' [Tx _]]; [congruence | tauto].
  Qed.

  Lemma dwalk_lines_ok rec n :
    drec_ok rec n ->
    forall ls tp depth st, unvisited w st <= n ->
      exists out st', cwalk_lines lk lkp T pins rec tp depth ls st = Ok (out, st') /\ dwalk_ok st ls out st'.
  Proof.
    intros Hrec. induction ls as [|l r IH]; intros tp depth st Hn.
    - exists [], st. split; [reflexivity|]. constructor; simpl; try tauto. apply incl_refl.
    - rewrite cwalk_lines_cons. fold (dtg l). set (t := dtg l).
      destruct (dsub_call_ok rec n Hrec l depth st Hn) as [l1 [st2 [E Hs]]]. fold t in E. rewrite E.
      destruct Hs as [M2 V2 N2 S2]. fold t in V2. cbn [walk_after].
      assert (Hn2 : unvisited w (pd_add tp t st2) <= n) by exact (Nat.le_trans _ _ _ (unvisited_mono w st st2 M2) Hn).
      destruct (IH tp depth (pd_add tp t st2) Hn2) as [l2 [st3 [E3 Hok3]]]. rewrite E3.
      exists ((t, dl_optional l, depth) :: l1 ++ l2), st3. split; [reflexivity|].
      destruct Hok3 as [M3 N3 L3 S3]. simpl in M3, N3.
      constructor.
      + intros x Hx. apply M3, M2, Hx.
      + intros x Hx Hnx l' Il'.
        destruct (in_dec node_eq_dec x (vis st2)) as [J | J].
        * apply (line_done_app _ l1 l2 st2); [exact M3 | left; eapply N2; eauto].
        * apply (line_done_app _ l1 l2 st3); [apply incl_refl | right; eapply N3; eauto].
      + intros l' [<- | Il'].
        * split; [simpl; left; reflexivity|]. intros J Rl. apply M3. apply V2; assumption.
        * apply (line_done_app _ l1 l2 st3); [apply incl_refl | right; apply L3, Il'].
      + intros q Hq. simpl in Hq. rewrite map_app, in_app_iff in Hq.
        destruct Hq as [<- | [Hq | Hq]].
        * exists l. split; [left; reflexivity | left; reflexivity].
        * exists l. split; [left; reflexivity | right; exact (S2 q Hq)].
        * destruct (S3 q Hq) as [l' [Il' Hl']]. exists l'. split; [right; exact Il' | exact Hl'].
  Qed.

  Lemma dwalk_ok_all fuel : drec_ok (cwalk lk lkp T pins fuel) fuel.
  Proof.
    induction fuel as [|f IH]; intros t d ls st Hlt; [lia|].
    apply (dwalk_lines_ok (cwalk lk lkp T pins f) f); [exact IH | lia].
  Qed.

  Lemma dwalk_top_spec top fuel :
    length T < fuel ->
    exists out st, cwalk_top lk lkp T pins fuel top = Ok (out, st) /\
                   forall q, In q (map enode out) <-> dreach top q.
  Proof.
    intros Hf. unfold cwalk_top, dwalk_top. destruct (dnode_table T top) as [ls|] eqn:Tt.
    - set (st0 := mkW [] [(top, [])]).
      assert (H0 : unvisited w st0 < fuel).
      { pose proof (unvisited_le w st0) as H0. unfold w, edges_world in H0. rewrite map_length in H0. exact (Nat.le_lt_trans _ _ _ H0 Hf). }
      destruct (dwalk_ok_all fuel top 1 ls st0 H0) as [out [st [E [M N L S]]]].
      exists out, st. split; [exact E|]. intros q. rewrite (dreach_lines top ls q Tt). split; [apply S|].
      (* what is reached from a product that was walked is listed *)
      assert (G : forall x z, dreach x z -> In x (vis st) -> In z (map enode out)).
      { induction 1 as [x l D | x l r D J Rr IH]; intros Hx.
        - apply (N x Hx (fun F => F) l D).
        - apply IH. destruct (N x Hx (fun F => F) l D) as [_ W]. apply W; [exact J|].
          eapply dreach_first_real; eauto. }
      intros [l [Il [-> | [J R]]]]; destruct (L l Il) as [Hl W]; [exact Hl|].
      apply (G _ _ R), W; [exact J | eapply dreach_first_real; eauto].
    - exists [], (mkW [] []). split; [reflexivity|]. intros q. simpl. split; [tauto|].
      intros R. exfalso. inversion R as [p l [ls [Tt' _]] | p l r [ls [Tt' _]] _ _]; subst; congruence.
  Qed.
End Walk.
