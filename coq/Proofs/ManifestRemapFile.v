(* C18: Manifest._readRemapFile - the rows a file names; reading back what Mapping.__str__ prints. *)
From Eupsv Require Import Base.Base Base.BaseLemmas Model.Manifest Model.ManifestSpec
  Proofs.ManifestLib Proofs.ManifestMap Proofs.ManifestInv Proofs.ManifestMerge.

Lemma read_lines_rows strict ow mode ls : forall m,
  read_remap_lines strict ow mode ls m =
  match file_rows strict mode ls with
  | Ok rows => Ok (fold_left (add_row_ow ow) rows m)
  | Err e => Err e
  end.
Proof.
  induction ls as [|l ls IH]; intros m; cbn [read_remap_lines file_rows]; [reflexivity|].
  destruct (remap_line strict mode l) as [[r|]|e]; [| apply IH | reflexivity].
  rewrite IH. destruct (file_rows strict mode ls); reflexivity.
Qed.

Lemma read_remap_rows ow mode text m :
  read_remap ow mode text m =
  match remap_rows mode text with
  | Ok rows => Ok (fold_left (add_row_ow ow) rows m)
  | Err e => Err e
  end.
Proof. apply read_lines_rows. Qed.

(* the pinned reader takes the rows of every line, whatever the mode *)
Lemma read_remap_pinned_rows mode text m :
  read_remap_pinned mode text m =
  match file_rows false None (lines_of text) with
  | Ok rows => Ok (fold_left (add_row_ow (truthy mode)) rows m)
  | Err e => Err e
  end.
Proof. apply read_lines_rows. Qed.

Lemma read_files_rows mode texts : forall m,
  read_remap_files mode texts m =
  match files_rows mode texts with
  | Ok rows => Ok (fold_left add_row rows m)
  | Err e => Err e
  end.
Proof.
  induction texts as [|t ts IH]; intros m; cbn [read_remap_files files_rows]; [reflexivity|].
  rewrite read_remap_rows. destruct (remap_rows mode t) as [a|e]; [|reflexivity].
  rewrite IH. destruct (files_rows mode ts) as [b|e]; [|reflexivity].
  now rewrite fold_left_app.
Qed.

Lemma remap_entries_says ex texts mode fl ds frows :
  files_rows mode texts = Ok frows ->
  remap_entries true (m_of_rows ex) texts mode fl ds =
  Ok (m_merge (m_of_rows ex) (m_of_rows frows) false, spec_remap (frows ++ ex) fl ds).
Proof.
  intros H. unfold remap_entries. rewrite read_files_rows, H.
  change (fold_left add_row frows empty_mapping) with (m_of_rows frows).
  now rewrite remap_merged_says.
Qed.

Lemma before_hash_none x : mem_ascii c_hash x = false -> before_hash x = None.
Proof.
  induction x as [|c x IH]; cbn [before_hash]; [reflexivity|]. intros H.
  apply mem_ascii_cons_false in H. destruct H as [Hne H].
  destruct (ascii_eqb_spec c c_hash) as [->|_]; [congruence|]. now rewrite IH.
Qed.

Lemma cut_comment_nohash x : mem_ascii c_hash x = false -> cut_comment x = x.
Proof. intros H. unfold cut_comment. now rewrite before_hash_none. Qed.

Lemma rstrip_word_end x w : word w -> rstrip (x ++ w) = x ++ w.
Proof.
  intros [Hne Hn]. destruct (exists_last Hne) as [w' [c ->]].
  unfold nosp in Hn. apply Forall_app in Hn. destruct Hn as [_ Hc]. inversion Hc; subst.
  unfold rstrip. rewrite app_assoc, rev_unit, dropw_nosp by assumption.
  change (c :: rev (x ++ w')) with ([c] ++ rev (x ++ w')). rewrite rev_app_distr, rev_involutive. reflexivity.
Qed.

Lemma strip_word_ends w x u : word w -> word u -> strip (w ++ x ++ u) = w ++ x ++ u.
Proof.
  intros [Hne Hn] Hu. unfold strip. destruct w as [|c w]; [congruence|].
  inversion Hn; subst. cbn [app]. rewrite dropw_nosp by assumption.
  change (c :: w ++ x ++ u) with ((c :: w) ++ x ++ u). rewrite app_assoc. now apply rstrip_word_end.
Qed.

Lemma strip_line3 A X f : word A -> word f -> strip (A ++ k_4sp ++ X ++ k_4sp ++ f) = A ++ k_4sp ++ X ++ k_4sp ++ f.
Proof.
  intros HA Hf. replace (k_4sp ++ X ++ k_4sp ++ f) with ((k_4sp ++ X ++ k_4sp) ++ f) by (now rewrite <- !app_assoc).
  now apply strip_word_ends.
Qed.

Lemma span_until_run d a x : mem_ascii d a = false -> match x with [] => True | c :: _ => c = d end ->
  span_until d (a ++ x) = (a, x).
Proof.
  intros H Hx. induction a as [|c a IH]; cbn [app span_until].
  - destruct x as [|c x]; [reflexivity|]. subst c. cbn [span_until]. now rewrite ascii_eqb_refl.
  - apply mem_ascii_cons_false in H. destruct H as [Hne H].
    destruct (ascii_eqb_spec c d) as [->|_]; [congruence|]. now rewrite IH.
Qed.

Lemma span_until_all d a : mem_ascii d a = false -> span_until d a = (a, []).
Proof. intros H. pose proof (span_until_run d a [] H I) as E. now rewrite app_nil_r in E. Qed.

Lemma split_colon_pair a b : a <> [] -> mem_ascii c_colon a = false ->
  split_colon (a ++ c_colon :: b) = Some (a, Some b).
Proof.
  intros Hne H. unfold split_colon. rewrite span_until_run by (assumption || reflexivity). destruct a; [congruence|reflexivity].
Qed.

Lemma words3 A X f : word A -> word X -> word f -> words (A ++ k_4sp ++ X ++ k_4sp ++ f) = [A; X; f].
Proof.
  intros WA WX Wf. change k_4sp with (repeat c_sp 4).
  rewrite words_run, words_spaces by (assumption || reflexivity).
  rewrite words_run, words_spaces by (assumption || reflexivity).
  now rewrite words_word.
Qed.

(* stripping a colon-free prefix off a name followed by a colon leaves an end of the name and the colon *)
Lemma strip_prefix_before_colon k : mem_ascii c_colon k = false -> forall p rest r,
  strip_prefix k (p ++ c_colon :: rest) = Some r -> exists p2, r = p2 ++ c_colon :: rest /\ incl p2 p.
Proof.
  induction k as [|c k IH]; intros Hk p rest r H.
  - cbn [strip_prefix] in H. injection H as <-. exists p. split; [reflexivity|apply incl_refl].
  - apply mem_ascii_cons_false in Hk. destruct Hk as [Hc Hk]. destruct p as [|d p]; cbn [app strip_prefix] in H.
    + destruct (ascii_eqb_spec c c_colon); [congruence|discriminate].
    + destruct (ascii_eqb c d); [|discriminate]. destruct (IH Hk _ _ _ H) as [p2 [-> Hi]].
      exists p2. split; [reflexivity|now apply incl_tl].
Qed.

Lemma not_verbose p rest : word p -> mem_ascii c_eq p = false ->
  is_verbose_line (p ++ c_colon :: rest) = false.
Proof.
  intros [_ Hn] Heq. unfold is_verbose_line.
  (* a text that begins inside the name or at its colon begins with neither a blank nor the equals sign *)
  assert (Hstart : forall p2, incl p2 p -> exists c x,
            p2 ++ c_colon :: rest = c :: x /\ is_pyspace c = false /\ ascii_eqb c c_eq = false).
  { intros [|c p2] Hi; [exists c_colon, rest; auto|]. exists c, (p2 ++ c_colon :: rest).
    assert (Hc : In c p) by (apply Hi; now left). split; [reflexivity|]. split.
    - unfold nosp in Hn. rewrite Forall_forall in Hn. now apply Hn.
    - destruct (ascii_eqb_spec c c_eq) as [->|]; [|reflexivity]. apply mem_ascii_In in Hc. congruence. }
  destruct (Hstart p (incl_refl p)) as (c & x & E & Hc & _). rewrite E, dropw_nosp, <- E by assumption.
  destruct (strip_prefix k_verbose (p ++ c_colon :: rest)) as [r|] eqn:Er; [|reflexivity].
  apply strip_prefix_before_colon in Er; [|reflexivity]. destruct Er as (p2 & -> & Hi).
  destruct (Hstart p2 Hi) as (c' & x' & -> & Hc' & He'). rewrite dropw_nosp by assumption. now rewrite He'.
Qed.

Definition midf (q : str) (w : option str) : str :=
  match w with None => k_cap_none | Some w' => q ++ c_colon :: w' end.

Lemma row_line_eq f p v q w :
  row_line (f, p, v, q, w) = (p ++ c_colon :: v) ++ k_4sp ++ midf q w ++ k_4sp ++ f.
Proof. unfold row_line, midf. rewrite <- app_assoc. cbn [app]. destruct w; reflexivity. Qed.

Lemma wf_field_parts s : wf_field s = true -> word s /\ mem_ascii c_hash s = false.
Proof.
  unfold wf_field, no_char. intros H. apply andb_true_iff in H. destruct H as [H1 H2].
  split; [now apply wf_word_word|now apply negb_true_iff in H2].
Qed.

Lemma word_join a c b : word a -> is_pyspace c = false -> nosp b -> word (a ++ c :: b).
Proof.
  intros [H1 H2] Hc Hb. split; [destruct a; [congruence|discriminate]|].
  apply nosp_app; [assumption|]. constructor; assumption.
Qed.

(* a removal row carries its in-product; a replacement names nothing the reader takes for a keyword *)
Definition wf_out (p q : str) (w : option str) : Prop :=
  match w with
  | None => q = p
  | Some w' => q <> [] /\ w' <> [] /\ mem_ascii c_colon q = false /\
               str_eqb w' s_any = false /\ str_eqb w' k_low_none = false /\
               str_eqb w' k_cap_none = false /\ is_noreinstall (Some w') = false
  end.

Record wf_parts (f p v q : str) (w : option str) : Prop := {
  wp_f : word f; wp_fh : mem_ascii c_hash f = false;
  wp_p : word p; wp_ph : mem_ascii c_hash p = false; wp_pc : mem_ascii c_colon p = false;
  wp_pe : mem_ascii c_eq p = false; wp_pb : forall c r, p = c :: r -> ascii_eqb c c_lbr = false;
  wp_v : word v; wp_vh : mem_ascii c_hash v = false; wp_vA : str_eqb v k_cap_any = false;
  wp_mid : word (midf q w); wp_midh : mem_ascii c_hash (midf q w) = false;
  wp_w : wf_out p q w }.

Lemma no_char_false c s : no_char c s = true -> mem_ascii c s = false.
Proof. unfold no_char. apply negb_true_iff. Qed.

Lemma wf_mrow_parts f p v q w : wf_mrow (f, p, v, q, w) = true -> wf_parts f p v q w.
Proof.
  cbn [wf_mrow]. rewrite !andb_true_iff, !negb_true_iff. intros [[[[Hf0 Hp0] Hv0] HA] Hw].
  destruct (wf_field_parts _ Hf0) as [Hf Hfh]. destruct (wf_field_parts _ Hv0) as [Hv Hvh].
  unfold wf_inproduct in Hp0. rewrite !andb_true_iff in Hp0. destruct Hp0 as [[[Hp1 Hp2] Hp3] Hp4].
  destruct (wf_field_parts _ Hp1) as [Hp Hph].
  assert (Hmid : word (midf q w) /\ mem_ascii c_hash (midf q w) = false /\ wf_out p q w).
  { destruct w as [w'|]; cbn [midf wf_out].
    - rewrite !andb_true_iff, !negb_true_iff in Hw. destruct Hw as [[[[[[Hq Hqc] Hw'] E1] E2] E3] Hno].
      destruct (wf_field_parts _ Hq) as [Hqw Hqh]. destruct (wf_field_parts _ Hw') as [Hww Hwh].
      split; [apply word_join; [assumption|reflexivity|apply Hww]|].
      split; [rewrite mem_ascii_app, Hqh; cbn [orb mem_ascii]; exact Hwh|].
      repeat split; try assumption; [apply Hqw | apply Hww | now apply no_char_false].
    - split; [apply wf_word_word; reflexivity|]. split; [reflexivity|now apply str_eqb_eq]. }
  constructor; try tauto; try (now apply no_char_false).
  intros c r ->. now apply negb_true_iff in Hp4.
Qed.

Lemma remap_line_core L c l r :
  L = c :: l -> ascii_eqb c c_lbr = false -> strip L = L -> mem_ascii c_hash L = false ->
  is_verbose_line L = false -> row_of_words (words L) = r ->
  remap_line true None L = r.
Proof.
  intros EL Hc Hs Hh Hv Hr. subst L. unfold remap_line. rewrite Hs, cut_comment_nohash by assumption.
  unfold select_line, parse_mode_prefix. rewrite Hc. cbn [truthy]. now rewrite Hv.
Qed.

Lemma remap_line_row_line f p v q w :
  wf_mrow (f, p, v, q, w) = true ->
  remap_line true None (row_line (f, p, v, q, w)) = Ok (Some (row_of_mrow (f, p, v, q, w))).
Proof.
  intros Hwf. destruct (wf_mrow_parts _ _ _ _ _ Hwf) as [Wf Wfh Wp Wph Wpc Wpe Wpb Wv Wvh WvA Wmid Wmidh Ww].
  assert (HA : word (p ++ c_colon :: v)) by (apply word_join; [assumption|reflexivity|apply Wv]).
  rewrite row_line_eq.
  assert (Hpne : p <> []) by apply Wp.
  destruct p as [|c p'] eqn:Ep; [congruence|]. rewrite <- Ep in *.
  eapply remap_line_core with (c := c).
  - rewrite Ep. cbn [app]. reflexivity.
  - exact (Wpb c p' Ep).
  - now apply strip_line3.
  - rewrite !mem_ascii_app, Wph, Wmidh, Wfh. cbn [mem_ascii orb]. rewrite Wvh. reflexivity.
  - rewrite <- app_assoc. cbn [app]. now apply not_verbose.
  - rewrite words3 by assumption. unfold row_of_words.
    rewrite split_colon_pair by assumption.
    assert (Hinv : (if str_eqb v s_any || str_eqb v k_cap_any then s_any else v) = v).
    { rewrite WvA, orb_false_r. destruct (str_eqb_spec v s_any) as [->|]; reflexivity. }
    rewrite Hinv. cbn [row_of_mrow].
    destruct w as [w'|]; cbn [midf].
    + destruct Ww as (Hqne & Hwne & Hqc & E1 & E2 & E3 & _).
      rewrite split_colon_pair by assumption.
      destruct w' as [|d w'']; [congruence|]. cbn [truthy].
      rewrite E1, E2, E3. reflexivity.
    + cbn [wf_out] in Ww. subst q. reflexivity.
Qed.

Lemma nonl_row_line f p v q w : wf_mrow (f, p, v, q, w) = true -> nonl (row_line (f, p, v, q, w)).
Proof.
  intros Hwf. destruct (wf_mrow_parts _ _ _ _ _ Hwf) as [Wf Wfh Wp Wph Wpc Wpe Wpb Wv Wvh WvA Wmid Wmidh Ww].
  rewrite row_line_eq.
  assert (H4 : nonl k_4sp) by (apply no_nl_nonl; reflexivity).
  repeat apply nonl_app; try assumption; try (apply nosp_nonl; apply Wf || apply Wmid || apply Wp).
  apply nonl_cons; [reflexivity|reflexivity|]. apply nosp_nonl. apply Wv.
Qed.

Lemma file_rows_printed R :
  forallb wf_mrow R = true -> file_rows true None (map row_line R) = Ok (map row_of_mrow R).
Proof.
  induction R as [|[[[[f p] v] q] w] R IH]; cbn [forallb map file_rows]; [reflexivity|].
  intros H. apply andb_true_iff in H. destruct H as [Hr HR].
  rewrite remap_line_row_line by assumption. now rewrite IH.
Qed.

Lemma remap_rows_print m : wf_table m = true -> remap_rows None (m_print m) = Ok (rows_of m).
Proof.
  intros H. unfold remap_rows, m_print, rows_of, wf_table in *.
  rewrite lines_of_unlines; [now apply file_rows_printed|].
  apply Forall_forall. intros l Hl. apply in_map_iff in Hl. destruct Hl as [[[[[f p] v] q] w] [<- Hin]].
  apply nonl_row_line. rewrite forallb_forall in H. now apply H.
Qed.

Lemma row_val_of_mrow f p v q w : wf_mrow (f, p, v, q, w) = true ->
  row_val (row_of_mrow (f, p, v, q, w)) = (q, w) /\ is_noreinstall (r_outV (row_of_mrow (f, p, v, q, w))) = false.
Proof.
  intros Hwf. destruct (wf_mrow_parts _ _ _ _ _ Hwf) as [Wf Wfh Wp Wph Wpc Wpe Wpb Wv Wvh WvA Wmid Wmidh Ww].
  unfold row_val. cbn [row_of_mrow r_outP r_outV r_inP].
  destruct w as [w'|].
  - destruct Ww as (Hqne & Hwne & _ & _ & _ & _ & Hno).
    destruct q; [congruence|]. destruct w'; [congruence|]. cbn [out_version].
    split; [reflexivity|exact Hno].
  - cbn [wf_out] in Ww. subst q. destruct Wp as [Hpne _].
    destruct p; [congruence|]. split; reflexivity.
Qed.

Lemma rows_of_equiv m : wf_table m = true -> fm_nodup (mp_map m) ->
  fm_equiv (mp_map (m_of_rows (rows_of m))) (mp_map m).
Proof.
  intros Hwf Hnd. apply fm_equiv_of_mget. intros f p k. rewrite mget_m_of_rows.
  unfold wf_table in Hwf. rewrite forallb_forall in Hwf. unfold lastval.
  destruct (last_row (rows_of m) f p k) as [r|] eqn:E.
  - pose proof (last_row_names _ _ _ _ _ E) as Hn. apply last_row_In in E.
    unfold rows_of in E. apply in_map_iff in E. destruct E as [[[[[f' p'] v'] q'] w'] [<- Hin]].
    destruct (row_val_of_mrow _ _ _ _ _ (Hwf _ Hin)) as [Hv _]. rewrite Hv.
    rewrite names_spec in Hn. cbn [row_of_mrow r_fl r_inP r_inV] in Hn.
    do 3 (apply andb_true_iff in Hn; destruct Hn as [Hn ?]). apply str_eqb_eq in Hn, H1, H0. subst f' p' v'.
    symmetry. now apply In_rows_mget.
  - destruct (mget (mp_map m) f p k) as [[q w]|] eqn:Em; [|reflexivity].
    apply mget_In_rows in Em. exfalso.
    assert (Hin : In (row_of_mrow (f, p, k, q, w)) (rows_of m)) by (unfold rows_of; now apply in_map).
    pose proof (last_row_None_In _ _ _ _ _ E Hin) as Hn. rewrite names_spec in Hn.
    destruct (row_val_of_mrow _ _ _ _ _ (Hwf _ Em)) as [_ Hno]. rewrite Hno in Hn.
    cbn [row_of_mrow r_fl r_inP r_inV negb] in Hn. rewrite !str_eqb_refl in Hn. discriminate.
Qed.

Lemma m_of_rows_nore rows :
  (forall r, In r rows -> is_noreinstall (r_outV r) = false) -> mp_nore (m_of_rows rows) = [].
Proof.
  induction rows as [|r rows IH] using rev_ind; intros H; [reflexivity|].
  rewrite m_of_rows_snoc. unfold add_row, add_row_ow, m_add.
  rewrite (H r) by (apply in_or_app; right; now left). cbn [mp_nore]. apply IH.
  intros r' Hr'. apply H. apply in_or_app. now left.
Qed.

Lemma print_parse_lemma m : wf_table m = true -> fm_nodup (mp_map m) ->
  exists m', read_remap true None (m_print m) empty_mapping = Ok m' /\
             fm_equiv (mp_map m') (mp_map m) /\ mp_nore m' = [].
Proof.
  intros Hwf Hnd. exists (m_of_rows (rows_of m)). split; [|split].
  - rewrite read_remap_rows, remap_rows_print by assumption. reflexivity.
  - now apply rows_of_equiv.
  - apply m_of_rows_nore. intros r Hin. unfold rows_of in Hin. apply in_map_iff in Hin.
    destruct Hin as [[[[[f p] v] q] w] [<- Hin]]. unfold wf_table in Hwf. rewrite forallb_forall in Hwf.
    now destruct (row_val_of_mrow _ _ _ _ _ (Hwf _ Hin)).
Qed.
