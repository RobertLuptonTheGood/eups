(* Calls at depth 0 (a whole command): what the frame theorems say of a call that returns, for Model/Setup.v with either reach (touches, touches_j) and for Model/SetupMS.v; a command of the
   composed model that succeeds is such a call. *)
From Eupsv Require Import Base.Base Model.Setup Proofs.SetupFrame Model.SetupMS Model.Resolve Model.SetupFull.
From Eupsv Require Proofs.SetupMSFrame.

(* SetupMSFrame.depth_ok is SetupFrame.depth_ok, defined a second time *)
Lemma ms_depth_ok_top cfg : SetupMSFrame.depth_ok cfg 0.
Proof. exact (depth_ok_top cfg). Qed.

(* [reach] is touches w for setup_frame, touches_j w for setup_frame_j *)
Lemma top_level_frame w cfg dl (reach : option nat -> str -> str -> Prop) (rec : setup_fn) st ds name fwd just ok st' ds' :
  (forall st ds name fwd depth just, nodollar_paths w (s_env st) -> depth_ok cfg depth ->
     good w dl (reach (levels cfg depth just) name) st (rec st ds name fwd depth just)) ->
  nodollar_paths w (s_env st) -> rec st ds name fwd 0 just = RDone ok st' ds' ->
  env_frame w dl (reach (levels cfg 0 just) name) (s_env st) (s_env st') /\ nodollar_paths w (s_env st').
Proof.
  intros F Hnd Hrun. pose proof (F st ds name fwd 0 just Hnd (depth_ok_top cfg)) as G. rewrite Hrun in G.
  split; apply G.
Qed.

Lemma ms_top_level_frame w cfg dl fuel st ds name fwd just ok st' ds' :
  SetupMSFrame.WF w dl -> SetupMSFrame.nodollar_paths w (s_env st) ->
  msetup w cfg fuel st ds name fwd 0 just = MDone ok st' ds' ->
  SetupMSFrame.env_frame w dl (SetupMSFrame.touches w (SetupMSFrame.levels cfg 0 just) name) (s_env st) (s_env st') /\
  SetupMSFrame.nodollar_paths w (s_env st').
Proof.
  intros H Hnd Hrun. pose proof (SetupMSFrame.setup_frame w cfg dl H fuel st ds name fwd 0 just Hnd (ms_depth_ok_top cfg)) as G.
  rewrite Hrun in G. split; apply G.
Qed.

Lemma request_full_done vcmp vmatch fw cfg rc flavors fuel st name version fwd just st' tr :
  request_full vcmp vmatch fw cfg rc flavors fuel st name version fwd just = Ok (Some st', tr) ->
  exists vro al, select_vro rc (request_opts cfg version) = Ok vro /\
    setup_full vcmp vmatch fw cfg rc flavors fuel st [] vro name {| li_version := version; li_expr := None |} fwd 0 just
      = FDone true st' al tr.
Proof.
  unfold request_full. destruct (select_vro rc (request_opts cfg version)) as [vro|]; [|discriminate].
  destruct (setup_full _ _ _ _ _ _ _ _ _ vro _ _ _ _ _) as [[|] s a t|s a t|t|t] eqn:R; try discriminate.
  intro E. injection E as <- <-. now exists vro, a.
Qed.
