(* C10: the latest version of one stack, and over several stacks (Model/VersionStacks.v), is a maximum of the
   versions declared under the key order, on conventional names. *)
From Coq Require Import List Ascii Arith Lia.
Import ListNotations.
From Eupsv Require Import Base.Base Base.BaseLemmas Model.VersionCompare Model.VersionKey Model.VersionStacks
  Proofs.VersionCompareLib Proofs.VersionCompare Proofs.VersionCompareKey.

Definition conv_list (l : list str) : Prop := Forall (fun x => conv x = true) l.
Definition conv_stacks (s : list (list str)) : Prop := Forall conv_list s.
Definition conv_min (minver : option str) : Prop :=
  match minver with Some m => conv m = true | None => True end.
Definition key_lt (a b : vkey) : Prop := key_compare a b = Lt.

Lemma kle_refl a : key_le a a.
Proof. unfold key_le. rewrite (ok_refl _ ord_ok_key). discriminate. Qed.

Lemma kle_trans a b c : key_le a b -> key_le b c -> key_le a c.
Proof. apply (ok_le_trans _ ord_ok_key). Qed.

Lemma klt_le a b : key_lt a b -> key_le a b.
Proof. unfold key_lt, key_le. intros ->. discriminate. Qed.

Lemma kle_lt_trans a b c : key_le a b -> key_lt b c -> key_lt a c.
Proof.
  unfold key_le, key_lt. intros H1 H2. destruct (key_compare a b) eqn:C; [| |congruence].
  - apply (ok_eq _ ord_ok_key) in C. now subst.
  - exact (ok_trans _ ord_ok_key a b c C H2).
Qed.

Lemma klt_le_trans a b c : key_lt a b -> key_le b c -> key_lt a c.
Proof.
  unfold key_le, key_lt. intros H1 H2. destruct (key_compare b c) eqn:C; [| |congruence].
  - apply (ok_eq _ ord_ok_key) in C. now subst.
  - exact (ok_trans _ ord_ok_key a b c H1 C).
Qed.

Lemma kgt_lt a b : key_compare a b = Gt -> key_lt b a.
Proof. intro H. now apply (ok_gt_lt _ ord_ok_key). Qed.

Lemma knotlt_le a b : key_compare a b <> Lt -> key_le b a.
Proof.
  unfold key_le. rewrite (ok_anti _ ord_ok_key a b). destruct (key_compare a b); simpl; congruence.
Qed.

Lemma latest_from_spec l : forall best,
  conv best = true -> Forall (fun x => conv x = true) l ->
  exists m, latest_from best l = Ok m /\ In m (best :: l) /\ forall x, In x (best :: l) -> key_le (key x) (key m).
Proof.
  induction l as [|x r IH]; intros best Cb Hl.
  - exists best. split; [reflexivity|]. split; [now left|]. intros y [<-|[]]. apply kle_refl.
  - inversion Hl as [|? ? Cx Hr]; subst. cbn [latest_from]. rewrite (cmp_key_order x best Cx Cb).
    (* x is taken unless it is below best *)
    assert (TAKE : key_le (key best) (key x) ->
              exists m, latest_from x r = Ok m /\ In m (best :: x :: r) /\
                        forall y, In y (best :: x :: r) -> key_le (key y) (key m)).
    { intro L. destruct (IH x Cx Hr) as [m (E & I & M)]. exists m. split; [assumption|]. split; [now right|].
      intros y [<-|Hy]; [|now apply M]. apply (kle_trans _ (key x)); [assumption|apply M; now left]. }
    destruct (key_compare (key x) (key best)) eqn:K.
    + apply TAKE, knotlt_le. congruence.
    + destruct (IH best Cb Hr) as [m (E & I & M)]. exists m. split; [assumption|]. split.
      * destruct I as [<-|I]; [now left|right; now right].
      * intros y [<-|[<-|Hy]]; [apply M; now left| |apply M; now right].
        apply (kle_trans _ (key best)); [now apply klt_le|apply M; now left].
    + apply TAKE, knotlt_le. congruence.
Qed.

Lemma latest_spec l :
  Forall (fun x => conv x = true) l -> l <> [] ->
  exists m, latest l = Ok (Some m) /\ In m l /\ forall x, In x l -> key_le (key x) (key m).
Proof.
  intros H N. destruct l as [|x r]; [congruence|]. inversion H as [|? ? Cx Hr]; subst.
  destruct (latest_from_spec r x Cx Hr) as [m (E & I & M)]. exists m. cbn [latest]. now rewrite E.
Qed.

Lemma below_minimum_conv minver v :
  conv_min minver -> conv v = true ->
  below_minimum minver v = Ok (match minver with
                              | Some m => match key_compare (key v) (key m) with Lt => true | _ => false end
                              | None => false
                              end).
Proof.
  intros Hm Cv. destruct minver as [m|]; [|reflexivity]. cbn [conv_min] in Hm.
  destruct m as [|c m]; [discriminate Hm|].
  cbn [below_minimum]. rewrite (cmp_key_order v (c :: m) Cv Hm).
  now destruct (key_compare (key v) (key (c :: m))).
Qed.

Lemma replaces_conv i o v :
  conv o = true -> conv v = true ->
  replaces (Some (i, o)) v = Ok (match key_compare (key v) (key o) with Gt => true | _ => false end).
Proof.
  intros Co Cv. cbn [replaces]. rewrite (cmp_key_order v o Cv Co). now destruct (key_compare (key v) (key o)).
Qed.

(* what is known of the version kept so far after the stacks seen were visited *)
Definition kept_ok (minver : option str) (seen : list (list str)) (out : option (nat * str)) : Prop :=
  match out with
  | Some (i, m) =>
      conv m = true /\
      (exists vs, nth_error seen i = Some vs /\ In m vs) /\
      (forall x, In x (concat seen) -> key_le (key x) (key m)) /\
      (forall mv, minver = Some mv -> key_le (key mv) (key m))
  | None =>
      forall x, In x (concat seen) ->
        match minver with Some mv => key_lt (key x) (key mv) | None => False end
  end.

(* a stack that does not change what is kept: every version of it is bounded as the invariant asks *)
Lemma kept_ok_pass minver seen out vs :
  kept_ok minver seen out ->
  (forall x, In x vs ->
     match out with
     | Some (_, m) => key_le (key x) (key m)
     | None => match minver with Some mv => key_lt (key x) (key mv) | None => False end
     end) ->
  kept_ok minver (seen ++ [vs]) out.
Proof.
  intros K B. destruct out as [[i m]|]; cbn [kept_ok] in *.
  - destruct K as (Cm & (ws & N & I) & M & Mn). split; [assumption|]. split.
    + exists ws. split; [|assumption]. rewrite nth_error_app1; [assumption|]. apply nth_error_Some. congruence.
    + split; [|assumption]. intros x Hx. rewrite concat_snoc in Hx. apply in_app_iff in Hx as [Hx|Hx]; [now apply M|].
      exact (B x Hx).
  - intros x Hx. rewrite concat_snoc in Hx. apply in_app_iff in Hx as [Hx|Hx]; [now apply K|exact (B x Hx)].
Qed.

(* a stack whose latest version l is taken: l is above the minimum, and above the version kept so far *)
Lemma kept_ok_take minver seen out vs l :
  kept_ok minver seen out -> conv l = true -> In l vs -> (forall x, In x vs -> key_le (key x) (key l)) ->
  (forall mv, minver = Some mv -> key_le (key mv) (key l)) ->
  match out with Some (_, m) => key_lt (key m) (key l) | None => True end ->
  kept_ok minver (seen ++ [vs]) (Some (length seen, l)).
Proof.
  intros K Cl Il Ml Lmin Lout. cbn [kept_ok]. split; [assumption|]. split; [|split; [|assumption]].
  - exists vs. split; [|assumption]. now rewrite nth_error_app2, Nat.sub_diag.
  - intros x Hx. rewrite concat_snoc in Hx. apply in_app_iff in Hx as [Hx|Hx]; [|now apply Ml].
    apply klt_le. destruct out as [[i m]|]; cbn [kept_ok] in K.
    + destruct K as (_ & _ & M & _). apply (kle_lt_trans _ (key m)); [now apply M|assumption].
    + specialize (K x Hx). destruct minver as [mv|]; [|destruct K]. apply (klt_le_trans _ (key mv)); auto.
Qed.

Lemma latest_stacks_from_spec minver : conv_min minver -> forall stacks seen out,
  conv_stacks stacks -> kept_ok minver seen out ->
  exists r, latest_stacks_from minver out (length seen) stacks = Ok r /\ kept_ok minver (seen ++ stacks) r.
Proof.
  intro Hm. induction stacks as [|vs rest IH]; intros seen out Hs K.
  - exists out. rewrite app_nil_r. now split.
  - inversion Hs as [|? ? Cvs Crest]; subst.
    specialize (IH (seen ++ [vs])). rewrite app_length, Nat.add_1_r, <- app_assoc in IH. cbn [app] in IH.
    cbn [latest_stacks_from].
    destruct vs as [|v0 vr].
    + (* the product is not declared in this stack *)
      cbn [latest]. apply (IH _ Crest). apply kept_ok_pass; [assumption|]. intros x [].
    + destruct (latest_spec (v0 :: vr) Cvs ltac:(discriminate)) as [l (El & Il & Ml)].
      rewrite El.
      assert (Cl : conv l = true) by (unfold conv_list in Cvs; rewrite Forall_forall in Cvs; now apply Cvs).
      rewrite (below_minimum_conv minver l Hm Cl).
      destruct (match minver with Some m => _ | None => false end) eqn:B.
      * (* below the minimum: the stack is passed over *)
        destruct minver as [mv|]; [|discriminate]. destruct (key_compare (key l) (key mv)) eqn:Cmin; try discriminate.
        apply (IH _ Crest). apply kept_ok_pass; [assumption|]. intros x Hx.
        assert (Xl : key_lt (key x) (key mv)) by (apply (kle_lt_trans _ (key l)); [now apply Ml|exact Cmin]).
        destruct out as [[i m]|]; [|assumption].
        destruct K as (_ & _ & _ & Mn). apply klt_le. apply (klt_le_trans _ (key mv)); [assumption|now apply Mn].
      * assert (Lmin : forall mv, minver = Some mv -> key_le (key mv) (key l)).
        { intros mv ->. apply knotlt_le. intro C. rewrite C in B. discriminate. }
        destruct out as [[i m]|]; [|apply (IH _ Crest); now apply (kept_ok_take _ _ None)].
        pose proof K as (Cm & _). rewrite (replaces_conv i m l Cm Cl).
        destruct (key_compare (key l) (key m)) eqn:Cout.
        3: { apply (IH _ Crest), (kept_ok_take _ _ (Some (i, m))); auto. now apply kgt_lt. }
        (* l is not above the version kept, which stays *)
        all: apply (IH _ Crest), kept_ok_pass; [assumption|]; intros x Hx;
          apply (kle_trans _ (key l)); [now apply Ml|]; unfold key_le; congruence.
Qed.

Lemma latest_over_stacks_spec minver stacks :
  conv_min minver -> conv_stacks stacks ->
  exists r, latest_over_stacks minver stacks = Ok r /\ kept_ok minver stacks r.
Proof.
  intros Hm Hs. unfold latest_over_stacks.
  destruct (latest_stacks_from_spec minver Hm stacks [] None Hs) as [r [E K]].
  - cbn [kept_ok concat]. intros x [].
  - exists r. now split.
Qed.

Lemma kept_in minver seen i m : kept_ok minver seen (Some (i, m)) -> In m (concat seen).
Proof. intros (_ & (vs & N & Im) & _). apply nth_error_In in N. apply in_concat. eauto. Qed.

Lemma latest_per_stack_spec stacks :
  conv_stacks stacks ->
  exists r, latest_per_stack stacks = Ok r /\ length r = length stacks /\
    forall i vs, nth_error stacks i = Some vs ->
      match vs with
      | [] => nth_error r i = Some None
      | _ => exists m, nth_error r i = Some (Some m) /\ In m vs /\ forall x, In x vs -> key_le (key x) (key m)
      end.
Proof.
  induction stacks as [|vs rest IH]; intro Hs.
  - exists []. split; [reflexivity|]. split; [reflexivity|]. intros [|i] vs H; discriminate.
  - inversion Hs as [|? ? Cvs Crest]; subst. destruct (IH Crest) as [r (E & L & S)].
    cbn [latest_per_stack]. rewrite E. destruct vs as [|v0 vr].
    + cbn [latest]. exists (None :: r). split; [reflexivity|]. split; [cbn [length]; now rewrite L|].
      intros [|i] ws H; cbn [nth_error] in *; [now injection H as <-|now apply S].
    + destruct (latest_spec (v0 :: vr) Cvs ltac:(discriminate)) as [l (El & Il & Ml)]. rewrite El.
      exists (Some l :: r). split; [reflexivity|]. split; [cbn [length]; now rewrite L|].
      intros [|i] ws H; cbn [nth_error] in *; [injection H as <-; eauto|now apply S].
Qed.

Lemma listing_from_sound l : forall i seen j v,
  In (j, v) (listing_from i seen l) -> i <= j /\ nth_error l (j - i) = Some (Some v).
Proof.
  induction l as [|o r IH]; intros i seen j v H; cbn [listing_from] in H; [destruct H|].
  assert (S : forall seen', In (j, v) (listing_from (S i) seen' r) -> i <= j /\ nth_error (o :: r) (j - i) = Some (Some v)).
  { intros seen' H'. destruct (IH _ _ _ _ H') as [L N]. split; [lia|]. replace (j - i) with (S (j - S i)) by lia. exact N. }
  destruct o as [w|]; [|eauto]. destruct (mem_str w seen); [eauto|]. destruct H as [[= <- <-]|H]; [|eauto].
  now rewrite Nat.sub_diag.
Qed.

Lemma listing_from_complete l : forall i seen k v,
  nth_error l k = Some (Some v) ->
  mem_str v seen = true \/ In v (map snd (listing_from i seen l)).
Proof.
  induction l as [|[w|] r IH]; intros i seen k v H.
  - destruct k; discriminate.
  - cbn [listing_from]. destruct k as [|k]; cbn [nth_error] in H.
    + injection H as ->. destruct (mem_str v seen); [now left|right; now left].
    + destruct (mem_str w seen) eqn:Mw.
      * exact (IH (S i) seen k v H).
      * destruct (IH (S i) (w :: seen) k v H) as [M|M].
        -- cbn [mem_str] in M. destruct (str_eqb v w) eqn:E; [|now left].
           apply str_eqb_eq in E. subst. right. now left.
        -- right. now right.
  - cbn [listing_from]. destruct k as [|k]; cbn [nth_error] in H; [discriminate|]. exact (IH (S i) seen k v H).
Qed.
