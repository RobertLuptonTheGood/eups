(* C09 - the stacks the Eups object of a command works on are the stacks execute has locked (used_iff_locked),
   from what dedupe and set_eups_path of Model/LockCmd.v keep and drop. *)
From Coq Require Import List Arith Bool.
Import ListNotations.
From Eupsv Require Import Base.Base Model.Lock Model.LockCmd.

Lemma dedupe_in seen l k : In k (dedupe seen l) -> In k l.
Proof.
  revert seen. induction l as [|a r IH]; intros seen H; [exact H|].
  cbn [dedupe] in H. destruct (existsb (Nat.eqb a) seen).
  - right. exact (IH _ H).
  - destruct H as [H|H]; [left; exact H|right; exact (IH _ H)].
Qed.

Lemma dedupe_keeps seen l k : In k l -> existsb (Nat.eqb k) seen = false -> In k (dedupe seen l).
Proof.
  revert seen. induction l as [|a r IH]; intros seen H NS; [exact H|].
  cbn [dedupe]. destruct (Nat.eq_dec a k) as [E|NE].
  - subst a. rewrite NS. left. reflexivity.
  - destruct H as [H|H]; [congruence|].
    destruct (existsb (Nat.eqb a) seen); [exact (IH _ H NS)|].
    right. apply IH; [exact H|]. cbn [existsb]. rewrite NS.
    destruct (Nat.eqb k a) eqn:E; [apply Nat.eqb_eq in E; congruence|reflexivity].
Qed.

Lemma set_eups_path_in env z sel k :
  In k (set_eups_path env z sel) ->
  In k (match z with Some (a :: r) => a :: r | _ => env end) /\
  match sel with Some f => f k = true | None => True end.
Proof.
  unfold set_eups_path. intro H. apply dedupe_in in H. destruct sel as [f|].
  - apply filter_In in H. exact H.
  - split; [exact H|exact I].
Qed.

Lemma set_eups_path_intro env z sel k :
  In k (match z with Some (a :: r) => a :: r | _ => env end) ->
  match sel with Some f => f k = true | None => True end ->
  In k (set_eups_path env z sel).
Proof.
  unfold set_eups_path. intros H S. apply dedupe_keeps; [|reflexivity]. destruct sel as [f|].
  - apply filter_In. split; assumption.
  - exact H.
Qed.

Lemma used_iff_locked c k : In k (used_stacks c) <-> In k (locked_stacks c).
Proof.
  unfold used_stacks. split; intro H.
  - apply set_eups_path_in in H. destruct H as [H S].
    destruct (lastZ (all_opts c) None) as [[|a r]|] eqn:Z; try exact H.
    unfold locked_stacks. rewrite Z. apply set_eups_path_intro; assumption.
  - pose proof H as H0. unfold locked_stacks in H0. apply set_eups_path_in in H0. destruct H0 as [H0 S].
    apply set_eups_path_intro; [|exact S].
    destruct (lastZ (all_opts c) None) as [[|a r]|] eqn:Z; try exact H. exact H0.
Qed.
