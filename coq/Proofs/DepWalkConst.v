(* The walk of Model/DepWalk.v, one line at a time; the VRO of a line stays in force for the table walked
   below it.  When every line hands down the VRO it received (no line carries a recognised -t tag or -k)
   the look-ups do not depend on the way a table was reached: the walk is then the walk over fixed
   look-ups [cwalk]. *)
From Eupsv Require Import Base.Base Base.BaseLemmas Model.Resolve Model.Graph Model.DepWalk.

Lemma dnode_table_inv T p ls : dnode_table T p = Some ls ->
  exists n v, p = (n, Some v, true) /\ dtable_of T n v = Some ls.
Proof.
  destruct p as [[n ov] r]. unfold dnode_table, nreal, nver, nname. simpl.
  destruct r; [|discriminate]. destruct ov as [v|]; [|discriminate]. intros H. exists n, v. auto.
Qed.

Lemma dtable_of_In T n v ls : dtable_of T n v = Some ls -> In ((n, v), ls) T.
Proof.
  induction T as [|[[n' v'] ls'] r IH]; simpl; [discriminate|].
  destruct (str_eqb n n' && str_eqb v v') eqn:E.
  - apply andb_true_iff in E as [E1 E2]. apply str_eqb_eq in E1, E2. subst. intros H. inversion H. auto.
  - auto.
Qed.

Lemma table_of_edges lk T n v :
  table_of (edges_world lk T) n v = option_map (map (edge_of lk)) (dtable_of T n v).
Proof.
  unfold edges_world. induction T as [|[[n' v'] ls] r IH]; simpl; [reflexivity|].
  destruct (str_eqb n n' && str_eqb v v'); [reflexivity | exact IH].
Qed.

Lemma node_table_edges lk T t :
  node_table (edges_world lk T) t = option_map (map (edge_of lk)) (dnode_table T t).
Proof.
  unfold node_table, dnode_table. destruct (nreal t); [|reflexivity].
  destruct (nver t); [apply table_of_edges | reflexivity].
Qed.

(* the entry of a line, then what the walk below it lists ([sub]), then the rest of the table ([k]) *)
Definition walk_after (e : entry) (sub : res (list entry * wstate)) (k : wstate -> res (list entry * wstate))
  : res (list entry * wstate) :=
  match sub with
  | Err x => Err x
  | Ok (l1, st2) => match k st2 with
                    | Err x => Err x
                    | Ok (l2, st3) => Ok (e :: l1 ++ l2, st3)
                    end
  end.

Lemma walk_after_ok e sub k es st' : walk_after e sub k = Ok (es, st') ->
  exists l1 st2 l2, sub = Ok (l1, st2) /\ k st2 = Ok (l2, st') /\ es = e :: l1 ++ l2.
Proof.
  unfold walk_after. destruct sub as [[l1 st2]|x]; [|discriminate].
  destruct (k st2) as [[l2 st3]|x] eqn:E; [|discriminate]. intros [= <- <-]. exists l1, st2, l2. auto.
Qed.

Lemma walk_after_ext e sub k k' : (forall l1 st2, sub = Ok (l1, st2) -> k st2 = k' st2) ->
  walk_after e sub k = walk_after e sub k'.
Proof. intros H. unfold walk_after. destruct sub as [[l1 st2]|x]; [|reflexivity]. rewrite (H l1 st2 eq_refl). reflexivity. Qed.

Section Line.
  Variable lvro : list ventry -> dline -> list ventry.
  Variable lk : list ventry -> dline -> option found.
  Variable lkp : list ventry -> dline -> option str -> option found.
  Variable T : dtables.
  Variable pins : list (str * option str).

  (* what a line adds below its own entry: the table of its product [t], walked under the VRO [lv] of the
     line, unless the line says -j ([just]), [t] is a stub or [t] was walked before *)
  Definition dwalk_sub (rec : list ventry -> node -> nat -> list dline -> wstate -> res (list entry * wstate))
             (lv : list ventry) (t : node) (depth : nat) (just : bool) (st : wstate) : res (list entry * wstate) :=
    if nreal t && negb just && negb (mem_node t (vis st)) then
      match dnode_table T t with
      | Some ls' => rec lv t (S depth) ls' (pd_ensure t (mark t st))
      | None => Ok ([], mark t st)
      end
    else Ok ([], st).

  Lemma dwalk_lines_cons rec vro tp depth l r st :
    dwalk_lines lvro lk lkp T pins rec vro tp depth (l :: r) st =
    walk_after (dresolve lk lkp pins (lvro vro l) l, dl_optional l, depth)
               (dwalk_sub rec (lvro vro l) (dresolve lk lkp pins (lvro vro l) l) depth (dl_just l) st)
               (fun st2 => dwalk_lines lvro lk lkp T pins rec vro tp depth r
                                       (pd_add tp (dresolve lk lkp pins (lvro vro l) l) st2)).
  Proof. reflexivity. Qed.

  Lemma dwalk_head fuel vro tp depth l r st es st' :
    dwalk lvro lk lkp T pins (S fuel) vro tp depth (l :: r) st = Ok (es, st') ->
    exists rest, es = (dresolve lk lkp pins (lvro vro l) l, dl_optional l, depth) :: rest.
  Proof.
    cbn [dwalk]. rewrite dwalk_lines_cons. intros H.
    apply walk_after_ok in H as [l1 [_ [l2 [_ [_ ->]]]]]. eexists. reflexivity.
  Qed.

  (* the table of the product a line denotes is walked under the VRO of THAT LINE, one level deeper, and what
     it lists follows the line's own entry *)
  Lemma dwalk_line_below fuel vro tp depth l r st es st' ls' :
    dwalk lvro lk lkp T pins (S fuel) vro tp depth (l :: r) st = Ok (es, st') ->
    nreal (dresolve lk lkp pins (lvro vro l) l) = true -> dl_just l = false ->
    mem_node (dresolve lk lkp pins (lvro vro l) l) (vis st) = false ->
    dnode_table T (dresolve lk lkp pins (lvro vro l) l) = Some ls' ->
    exists l1 st2 l2,
      dwalk lvro lk lkp T pins fuel (lvro vro l) (dresolve lk lkp pins (lvro vro l) l) (S depth) ls'
            (pd_ensure (dresolve lk lkp pins (lvro vro l) l) (mark (dresolve lk lkp pins (lvro vro l) l) st)) = Ok (l1, st2) /\
      es = (dresolve lk lkp pins (lvro vro l) l, dl_optional l, depth) :: l1 ++ l2.
  Proof.
    cbn [dwalk]. rewrite dwalk_lines_cons. intros H R J V Tb. apply walk_after_ok in H as [l1 [st2 [l2 [H [_ ->]]]]].
    unfold dwalk_sub in H. rewrite R, J, V, Tb in H. exists l1, st2, l2. auto.
  Qed.
End Line.

Section Levels.
  Variable lvro : list ventry -> dline -> list ventry.
  Variable lk : list ventry -> dline -> option found.
  Variable lkp : list ventry -> dline -> option str -> option found.
  Variable T : dtables.

  Lemma inherit_two_levels fuel vro top l r l2 r2 es st :
    dnode_table T top = Some (l :: r) ->
    nreal (tgt_of l (lk (lvro vro l) l)) = true -> dl_just l = false ->
    dnode_table T (tgt_of l (lk (lvro vro l) l)) = Some (l2 :: r2) ->
    dwalk_top lvro lk lkp T [] (S (S fuel)) vro top = Ok (es, st) ->
    exists rest, es = (tgt_of l (lk (lvro vro l) l), dl_optional l, 1)
                      :: (tgt_of l2 (lk (lvro (lvro vro l) l2) l2), dl_optional l2, 2) :: rest.
  Proof.
    intros Tt R J T1 H. unfold dwalk_top in H. rewrite Tt in H.
    destruct (dwalk_line_below lvro lk lkp T [] _ _ _ _ _ _ _ _ _ _ H R J eq_refl T1) as [l1 [st2 [l2' [H1 ->]]]].
    destruct (dwalk_head lvro lk lkp T [] _ _ _ _ _ _ _ _ _ H1) as [rest ->].
    eexists. reflexivity.
  Qed.

  Lemma inherit_three_levels fuel vro top l r l2 r2 l3 r3 es st :
    let lv1 := lvro vro l in let t1 := tgt_of l (lk lv1 l) in
    let lv2 := lvro lv1 l2 in let t2 := tgt_of l2 (lk lv2 l2) in
    dnode_table T top = Some (l :: r) ->
    nreal t1 = true -> dl_just l = false -> dnode_table T t1 = Some (l2 :: r2) ->
    nreal t2 = true -> dl_just l2 = false -> node_eqb t2 t1 = false -> dnode_table T t2 = Some (l3 :: r3) ->
    dwalk_top lvro lk lkp T [] (S (S (S fuel))) vro top = Ok (es, st) ->
    exists rest, es = (t1, dl_optional l, 1) :: (t2, dl_optional l2, 2)
                      :: (tgt_of l3 (lk (lvro lv2 l3) l3), dl_optional l3, 3) :: rest.
  Proof.
    intros lv1 t1 lv2 t2 Tt R1 J1 T1 R2 J2 N T2 H. unfold dwalk_top in H. rewrite Tt in H.
    destruct (dwalk_line_below lvro lk lkp T [] _ _ _ _ _ _ _ _ _ _ H R1 J1 eq_refl T1) as [l1 [st2 [l2' [H1 ->]]]].
    assert (V : mem_node t2 (vis (pd_ensure t1 (mark t1 (mkW [] [(top, [])])))) = false)
      by (cbn [vis pd_ensure mark mem_node]; rewrite N; reflexivity).
    destruct (dwalk_line_below lvro lk lkp T [] _ _ _ _ _ _ _ _ _ _ H1 R2 J2 V T2) as [l1' [st2' [l2'' [H2 ->]]]].
    destruct (dwalk_head lvro lk lkp T [] _ _ _ _ _ _ _ _ _ H2) as [rest ->].
    eexists. reflexivity.
  Qed.
End Levels.

(* the VRO handed down is never changed and never read: the walk of Model/DepWalk.v on look-ups that
   ignore it, started with an empty one *)
Section CWalk.
  Variable lk : dline -> option found.
  Variable lkp : dline -> option str -> option found.
  Variable T : dtables.
  Variable pins : list (str * option str).

  Definition cresolve (l : dline) : node :=
    match pin_of pins (dl_name l) with
    | None => tgt_of l (lk l)
    | Some pv => tgt_of l (lkp l pv)
    end.

  Definition cwalk_lines rec := dwalk_lines (fun v _ => v) (fun _ => lk) (fun _ => lkp) T pins rec [].
  Definition cwalk (fuel : nat) := dwalk (fun v _ => v) (fun _ => lk) (fun _ => lkp) T pins fuel.
  Definition cwalk_top (fuel : nat) := dwalk_top (fun v _ => v) (fun _ => lk) (fun _ => lkp) T pins fuel [].

  Lemma cwalk_lines_cons rec tp depth l r st :
    cwalk_lines rec tp depth (l :: r) st =
    walk_after (cresolve l, dl_optional l, depth) (dwalk_sub T rec [] (cresolve l) depth (dl_just l) st)
               (fun st2 => cwalk_lines rec tp depth r (pd_add tp (cresolve l) st2)).
  Proof. reflexivity. Qed.
End CWalk.

(* every line of every table hands down the VRO it received *)
Definition plain_tables (lvro : list ventry -> dline -> list ventry) (vro : list ventry) (T : dtables) : Prop :=
  forall n v ls l, dtable_of T n v = Some ls -> In l ls -> lvro vro l = vro.

Lemma plain_node_table lvro vro T t ls l :
  plain_tables lvro vro T -> dnode_table T t = Some ls -> In l ls -> lvro vro l = vro.
Proof. intros PL Tt Il. destruct (dnode_table_inv _ _ _ Tt) as [n [v [_ Tnv]]]. eapply PL; eauto. Qed.

Section Plain.
  Variable lvro : list ventry -> dline -> list ventry.
  Variable lk : list ventry -> dline -> option found.
  Variable lkp : list ventry -> dline -> option str -> option found.
  Variable vro : list ventry.

  (* the look-ups of the walk when [vro] is in force *)
  Definition lk_under : dline -> option found := fun l => lk (lvro vro l) l.
  Definition lkp_under : dline -> option str -> option found := fun l pv => lkp (lvro vro l) l pv.

  Variable T : dtables.
  Variable pins : list (str * option str).
  Hypothesis PL : plain_tables lvro vro T.

  Lemma dwalk_lines_plain rec1 rec2 :
    (forall t d ls st, dnode_table T t = Some ls -> rec1 vro t d ls st = rec2 [] t d ls st) ->
    forall ls tp depth st, (forall l, In l ls -> lvro vro l = vro) ->
      dwalk_lines lvro lk lkp T pins rec1 vro tp depth ls st =
      cwalk_lines lk_under lkp_under T pins rec2 tp depth ls st.
  Proof.
    intros Hrec. induction ls as [|l r IH]; intros tp depth st Hl; [reflexivity|].
    rewrite dwalk_lines_cons, cwalk_lines_cons.
    change (dresolve lk lkp pins (lvro vro l) l) with (cresolve lk_under lkp_under pins l).
    set (t := cresolve lk_under lkp_under pins l).
    rewrite (Hl l (or_introl eq_refl)).
    assert (Hsub : dwalk_sub T rec1 vro t depth (dl_just l) st = dwalk_sub T rec2 [] t depth (dl_just l) st).
    { unfold dwalk_sub. destruct (nreal t && negb (dl_just l) && negb (mem_node t (vis st))); [|reflexivity].
      destruct (dnode_table T t) as [ls'|] eqn:E; [|reflexivity]. apply Hrec, E. }
    rewrite Hsub. apply walk_after_ext. intros _ st2 _. apply IH. intros l' Hl'. apply Hl. right. exact Hl'.
  Qed.

  Lemma dwalk_plain fuel : forall tp depth ls st, (forall l, In l ls -> lvro vro l = vro) ->
    dwalk lvro lk lkp T pins fuel vro tp depth ls st = cwalk lk_under lkp_under T pins fuel [] tp depth ls st.
  Proof.
    induction fuel as [|f IH]; intros tp depth ls st Hl; [reflexivity|].
    apply (dwalk_lines_plain (dwalk lvro lk lkp T pins f) (cwalk lk_under lkp_under T pins f)); [|exact Hl].
    intros t d ls' st' Tt. apply IH. intros l Il. exact (plain_node_table _ _ _ _ _ _ PL Tt Il).
  Qed.

  Lemma dwalk_top_plain fuel top :
    dwalk_top lvro lk lkp T pins fuel vro top = cwalk_top lk_under lkp_under T pins fuel top.
  Proof.
    unfold cwalk_top, dwalk_top. destruct (dnode_table T top) as [ls|] eqn:Tt; [|reflexivity].
    apply dwalk_plain. intros l Il. exact (plain_node_table _ _ _ _ _ _ PL Tt Il).
  Qed.
End Plain.
