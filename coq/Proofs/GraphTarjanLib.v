(* Helper lemmas for the general correctness proof of Tarjan's algorithm (Proofs/GraphTarjanFull.v):
   positions in the list of numbered nodes, positions in the component list, the loop that marks a
   finished component, edges of a graph whose keys are distinct. *)
From Coq Require Import Lia.
From Eupsv Require Import Base.Base Base.BaseLemmas Model.Graph Proofs.GraphLib Proofs.GraphLayers
     Proofs.GraphTarjan Proofs.GraphPartition.

Fixpoint idx (D : list node) (x : node) : nat :=
  match D with
  | [] => 0
  | y :: r => if node_eqb x y then 0 else S (idx r x)
  end.

Lemma idx_lt D x : In x D -> idx D x < length D.
Proof.
  induction D as [|y D IH]; simpl; [tauto|]. intros H.
  destruct (node_eqb x y) eqn:E; [lia|]. apply node_eqb_neq in E.
  destruct H as [H | H]; [congruence|]. specialize (IH H). lia.
Qed.

Lemma idx_notin D x : ~ In x D -> idx D x = length D.
Proof.
  induction D as [|y D IH]; simpl; [reflexivity|]. intros H.
  destruct (node_eqb x y) eqn:E; [apply node_eqb_eq in E; subst; tauto|]. rewrite IH; tauto.
Qed.

Lemma idx_app_l A B x : In x A -> idx (A ++ B) x = idx A x.
Proof.
  induction A as [|y A IH]; simpl; [tauto|]. intros H.
  destruct (node_eqb x y) eqn:E; [reflexivity|]. apply node_eqb_neq in E.
  destruct H as [H | H]; [congruence|]. rewrite IH; auto.
Qed.

Lemma idx_app_r A B x : ~ In x A -> idx (A ++ B) x = length A + idx B x.
Proof.
  induction A as [|y A IH]; simpl; [reflexivity|]. intros H.
  destruct (node_eqb x y) eqn:E; [apply node_eqb_eq in E; subst; tauto|]. rewrite IH; tauto.
Qed.

Lemma idx_lt_In A B x : idx (A ++ B) x < length A -> In x A.
Proof.
  intros H. destruct (in_dec node_eq_dec x A) as [I | I]; [exact I|].
  rewrite idx_app_r in H by exact I. lia.
Qed.

Lemma idx_inj D x y : In x D -> idx D x = idx D y -> x = y.
Proof.
  induction D as [|z D IH]; simpl; [tauto|]. intros H.
  destruct (node_eqb x z) eqn:E1; destruct (node_eqb y z) eqn:E2; try discriminate.
  - apply node_eqb_eq in E1, E2. congruence.
  - intros Q. apply node_eqb_neq in E1. destruct H as [H | H]; [congruence|]. apply IH; [exact H | lia].
Qed.

Lemma idx_snoc_new D n : ~ In n D -> idx (D ++ [n]) n = length D.
Proof. intros H. rewrite idx_app_r by exact H. simpl. rewrite node_eqb_refl. lia. Qed.

Fixpoint cidx (cs : list (list node)) (x : node) : nat :=
  match cs with
  | [] => 0
  | c :: r => if mem_node x c then 0 else S (cidx r x)
  end.

Lemma cidx_lt cs x : In x (concat cs) -> cidx cs x < length cs.
Proof.
  induction cs as [|c r IH]; simpl; [tauto|]. intros H.
  destruct (mem_node x c) eqn:M; [lia|]. apply mem_node_not_In in M.
  apply in_app_iff in H as [H | H]; [contradiction|]. specialize (IH H). lia.
Qed.

Lemma cidx_app_l A B x : In x (concat A) -> cidx (A ++ B) x = cidx A x.
Proof.
  induction A as [|c A IH]; simpl; [tauto|]. intros H.
  destruct (mem_node x c) eqn:M; [reflexivity|]. apply mem_node_not_In in M.
  apply in_app_iff in H as [H | H]; [contradiction|]. rewrite IH; auto.
Qed.

Lemma cidx_app_r A B x : ~ In x (concat A) -> cidx (A ++ B) x = length A + cidx B x.
Proof.
  induction A as [|c A IH]; simpl; [reflexivity|]. intros H.
  destruct (mem_node x c) eqn:M.
  - apply mem_node_In in M. exfalso. apply H. apply in_or_app. auto.
  - rewrite IH; [reflexivity|]. intros I. apply H. apply in_or_app. auto.
Qed.

Lemma cidx_nth cs x : In x (concat cs) -> In x (nth (cidx cs x) cs []).
Proof.
  induction cs as [|c r IH]; simpl; [tauto|]. intros H.
  destruct (mem_node x c) eqn:M; [apply mem_node_In, M|]. apply mem_node_not_In in M.
  apply in_app_iff in H as [H | H]; [contradiction|]. apply IH, H.
Qed.

Lemma nth_In_concat (cs : list (list node)) i x : In x (nth i cs []) -> In x (concat cs).
Proof.
  revert i. induction cs as [|c r IH]; intros [|i]; simpl; try tauto.
  - intros H. apply in_or_app. auto.
  - intros H. apply in_or_app. right. eapply IH; eauto.
Qed.

Lemma cidx_unique cs c x : NoDup (concat cs) -> In c cs -> In x c -> nth (cidx cs x) cs [] = c.
Proof.
  induction cs as [|c0 r IH]; simpl; [tauto|]. intros ND Ic Ix.
  destruct (mem_node x c0) eqn:M.
  - destruct Ic as [-> | Ic]; [reflexivity|]. apply mem_node_In in M. exfalso.
    apply NoDup_app_inv in ND as [_ [_ ND]]. apply (ND x M). apply in_concat. exists c. auto.
  - apply mem_node_not_In in M. destruct Ic as [-> | Ic]; [contradiction|].
    apply IH; auto. apply NoDup_app_inv in ND. tauto.
Qed.

Lemma cidx_same cs c x y : NoDup (concat cs) -> In c cs -> In x c -> In y c -> cidx cs x = cidx cs y.
Proof.
  induction cs as [|c0 r IH]; simpl; [tauto|]. intros ND [-> | Ic] Hx Hy.
  - apply mem_node_In in Hx, Hy. rewrite Hx, Hy. reflexivity.
  - apply NoDup_app_inv in ND as [_ [ND2 Disj]].
    assert (Nx : mem_node x c0 = false).
    { apply mem_node_not_In. intros J. apply (Disj x J). apply in_concat. exists c. auto. }
    assert (Ny : mem_node y c0 = false).
    { apply mem_node_not_In. intros J. apply (Disj y J). apply in_concat. exists c. auto. }
    rewrite Nx, Ny. f_equal. apply IH; auto.
Qed.

Lemma comp_of_nth cs n c : NoDup (concat cs) -> comp_of cs n = Some c -> nth (cidx cs n) cs [] = c.
Proof. intros ND H. apply comp_of_In in H as [H1 H2]. apply cidx_unique; auto. Qed.

Lemma fold_low_get_out comp v : forall lw x,
  ~ In x comp -> low_get (fold_left (fun lw it => low_set lw it v) comp lw) x = low_get lw x.
Proof.
  induction comp as [|c comp IH]; intros lw x H; simpl; [reflexivity|].
  rewrite IH by (intros J; apply H; right; exact J).
  apply low_get_set_other. intros ->. apply H. left. reflexivity.
Qed.

Lemma fold_low_get_in comp v : forall lw x,
  In x comp -> low_get (fold_left (fun lw it => low_set lw it v) comp lw) x = Some v.
Proof.
  induction comp as [|c comp IH]; intros lw x; simpl; [tauto|]. intros H.
  destruct (in_dec node_eq_dec x comp) as [I | I]; [apply IH, I|].
  destruct H as [-> | H]; [|contradiction].
  rewrite fold_low_get_out by exact I. apply low_get_set_same.
Qed.

Lemma fold_low_dom comp v : forall lw,
  incl comp (map fst lw) -> map fst (fold_left (fun lw it => low_set lw it v) comp lw) = map fst lw.
Proof.
  induction comp as [|c comp IH]; intros lw H; simpl; [reflexivity|].
  assert (Hc : In c (map fst lw)) by (apply H; left; reflexivity).
  rewrite IH.
  - apply low_set_dom_in, Hc.
  - rewrite low_set_dom_in by exact Hc. intros y Hy. apply H. right. exact Hy.
Qed.

Lemma In_succs_of g n ss : NoDup (gkeys g) -> In (n, ss) g -> succs_of g n = Some ss.
Proof.
  induction g as [|[k l] g IH]; simpl; [tauto|]. intros ND H. inversion ND as [|? ? Nk ND']. subst.
  destruct (node_eqb n k) eqn:E.
  - apply node_eqb_eq in E. subst k. destruct H as [H | H]; [congruence|].
    exfalso. apply Nk. apply in_map_iff. exists (n, ss). auto.
  - apply node_eqb_neq in E. destruct H as [H | H]; [congruence|]. apply IH; auto.
Qed.

Lemma succs_of_key g n : In n (gkeys g) -> exists ss, succs_of g n = Some ss.
Proof.
  induction g as [|[k l] g IH]; simpl; [tauto|]. intros H.
  destruct (node_eqb n k) eqn:E; [eauto|]. apply node_eqb_neq in E.
  destruct H as [H | H]; [congruence|]. apply IH, H.
Qed.
