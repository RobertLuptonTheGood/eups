(* Soundness of the checker of Model/SetupMSWf.v: a mworld that passes it satisfies the hypotheses WF
   (Proofs/SetupMSFrame.v) and WF2 (Proofs/SetupMSInv.v) of the setup theorems, with the delimiter function
   and the rank function the checker computes. *)
From Eupsv Require Import Base.Base Base.BaseLemmas Model.PathAlg Proofs.PathAlg Model.Setup Model.SetupMS.
From Eupsv Require Import Proofs.SetupMSFrame Proofs.SetupMSInv Model.SetupMSWf.
From Coq Require Import Lia.

Lemma path_entries_In p var v d :
  In (var, v, d) (mpath_entries p) <-> exists ap, In (APath ap var v d) (mp_actions p).
Proof.
  unfold mpath_entries. rewrite in_flat_map. split.
  - intros [a [Ha Hx]]. destruct a as [o n j|ap var' v' d'|k x|k|k x|]; cbn [In] in Hx; try contradiction.
    destruct Hx as [E|[]]. injection E as -> -> ->. now exists ap.
  - intros [ap Ha]. exists (APath ap var v d). split; [assumption|now left].
Qed.

Lemma set_entries_In p k v : In (k, v) (mset_entries p) <-> In (ASet k v) (mp_actions p).
Proof.
  unfold mset_entries. rewrite in_flat_map. split.
  - intros [a [Ha Hx]]. destruct a as [o n j|ap var' v' d'|k' x|k'|k' x|]; cbn [In] in Hx; try contradiction.
    destruct Hx as [E|[]]. injection E as -> ->. assumption.
  - intro Ha. exists (ASet k v). split; [assumption|now left].
Qed.

Lemma dep_targets_In p m : In m (mdep_targets p) <-> exists o j, In (ASetup o m j) (mp_actions p).
Proof.
  unfold mdep_targets. rewrite in_flat_map. split.
  - intros [a [Ha Hx]]. destruct a as [o n j|ap var' v' d'|k' x|k'|k' x|]; cbn [In] in Hx; try contradiction.
    destruct Hx as [E|[]]. subst n. now exists o, j.
  - intros [o [j Ha]]. exists (ASetup o m j). split; [assumption|now left].
Qed.

Lemma elem_pairs_In p var v :
  In (var, v) (melem_pairs p) <-> exists ap d, In (APath ap var v d) (mp_actions p).
Proof.
  unfold melem_pairs. rewrite in_map_iff. split.
  - intros [[[a b] c] [E Hin]]. cbn [fst snd] in E. injection E as -> ->.
    apply path_entries_In in Hin. destruct Hin as [ap Ha]. now exists ap, c.
  - intros [ap [d Ha]]. exists (var, v, d). split; [reflexivity|]. apply path_entries_In. now exists ap.
Qed.

Lemma forallb2_In {A B} (f : A -> B -> bool) (g : A -> list B) l :
  forallb (fun x => forallb (f x) (g x)) l = true -> forall x y, In x l -> In y (g x) -> f x y = true.
Proof.
  intros H x y Hx Hy. rewrite forallb_forall in H. specialize (H x Hx). rewrite forallb_forall in H. now apply H.
Qed.

Lemma pair_eqb_eq a b : mpair_eqb a b = true <-> a = b.
Proof.
  destruct a as [a1 a2], b as [b1 b2]. unfold mpair_eqb. cbn [fst snd].
  rewrite andb_true_iff, !str_eqb_eq. split; [intros [-> ->]; reflexivity|intro E; injection E; auto].
Qed.

Lemma disjoint_str_spec a b : mdisjoint_str a b = true -> forall x, In x a -> In x b -> False.
Proof.
  unfold mdisjoint_str. rewrite forallb_forall. intros H x Ha Hb.
  specialize (H x Ha). apply negb_true_iff in H. apply mem_str_not_In in H. contradiction.
Qed.

Lemma disjoint_pair_spec a b : mdisjoint_pair a b = true -> forall x, In x a -> In x b -> False.
Proof.
  unfold mdisjoint_pair. rewrite forallb_forall. intros H x Ha Hb.
  specialize (H x Ha). apply negb_true_iff in H.
  assert (T : existsb (mpair_eqb x) b = true) by (apply existsb_exists; exists x; split; [assumption|now apply pair_eqb_eq]).
  rewrite T in H. discriminate.
Qed.

Lemma ends_with_refl p x : ends_with p (x ++ p) = true.
Proof. unfold ends_with. rewrite rev_app_distr. apply starts_with_refl. Qed.

Lemma reserved_maybe k : reserved k -> mmaybe_reserved k = true.
Proof.
  intros [n [E|[E|E]]]; subst k; unfold mmaybe_reserved, setup_var, dir_var, extra_var.
  - now rewrite starts_with_refl.
  - rewrite (ends_with_refl (lit "_DIR")). now rewrite orb_true_r.
  - rewrite (ends_with_refl (lit "_DIR_EXTRA")). now rewrite !orb_true_r.
Qed.

Lemma keys_sound (l : mworld) :
  mcheck_keys l = true ->
  forall p q, In p l -> In q l -> mp_name p = mp_name q -> mp_version p = mp_version q -> mp_root p = mp_root q -> p = q.
Proof.
  induction l as [|a l IH]; cbn [mcheck_keys]; [intros _ p q []|].
  intro H. apply andb_true_iff in H. destruct H as [Hn Hl]. apply negb_true_iff in Hn.
  assert (Hno : forall x, In x l -> mp_name x = mp_name a -> mp_version x = mp_version a -> mp_root x = mp_root a -> False).
  { intros x Hx E1 E2 E3.
    assert (T : existsb (fun q => str_eqb (mp_name q) (mp_name a) && str_eqb (mp_version q) (mp_version a) &&
                                  str_eqb (mp_root q) (mp_root a)) l = true).
    { apply existsb_exists. exists x. split; [assumption|]. rewrite E1, E2, E3, !str_eqb_refl. reflexivity. }
    rewrite T in Hn. discriminate. }
  intros p q [<-|Hp] [<-|Hq] En Ev Er.
  - reflexivity.
  - exfalso. now apply (Hno q Hq).
  - exfalso. now apply (Hno p Hp).
  - now apply IH.
Qed.

Lemma word_ok_word x : mword_ok x = true -> word x.
Proof.
  unfold mword_ok, word. intro H. apply andb_true_iff in H. destruct H as [H1 H2]. split.
  - intros ->. discriminate.
  - now apply negb_true_iff.
Qed.

Section Sound.
Variable w : mworld.
Variable order : list str.

Lemma actions_sound :
  mcheck_actions w = true -> forall p a, In p w -> In a (mp_actions p) -> maction_ok w a = true.
Proof.
  intros H p a. exact (forallb2_In _ _ _ H p a).
Qed.

Lemma path_var_In var : path_var w var -> In var (mpath_vars w).
Proof.
  unfold path_var, mpath_vars. intros [p [ap [v [d [Hp Ha]]]]].
  apply in_map_iff. exists (var, v, d). split; [reflexivity|].
  apply in_flat_map. exists p. split; [assumption|]. apply path_entries_In. now exists ap.
Qed.

Lemma set_var_In k : set_var w k -> In k (mset_vars w).
Proof.
  unfold set_var, mset_vars. intros [p [v [Hp Ha]]].
  apply in_map_iff. exists (k, v). split; [reflexivity|].
  apply in_flat_map. exists p. split; [assumption|]. now apply set_entries_In.
Qed.

Lemma wf_sound : mcheck_actions w = true -> mcheck_vars w = true -> WF w (mdl_of w).
Proof.
  intros HA HV. unfold mcheck_vars in HV. apply andb_true_iff in HV. destruct HV as [HP HS].
  rewrite forallb_forall in HP, HS.
  split.
  - intros p ap var v d Hp Ha. pose proof (actions_sound HA p _ Hp Ha) as X. cbn [maction_ok] in X.
    apply andb_true_iff in X. destruct X as [X X3]. apply andb_true_iff in X. destruct X as [X1 X2].
    split; [assumption|split; [assumption|]]. now apply ascii_eqb_eq.
  - intros p k v Hp Ha. pose proof (actions_sound HA p _ Hp Ha) as X. cbn [maction_ok] in X.
    apply andb_true_iff in X. destruct X as [X1 X2]. split.
    + intros ->. discriminate.
    + now apply negb_true_iff.
  - intros p k Hp Ha. pose proof (actions_sound HA p _ Hp Ha) as X. discriminate.
  - intros var Hv Hs. apply path_var_In in Hv. apply set_var_In in Hs.
    specialize (HP var Hv). apply andb_true_iff in HP. destruct HP as [X _].
    apply negb_true_iff in X. apply mem_str_not_In in X. contradiction.
  - intros var Hv Hr. apply path_var_In in Hv.
    specialize (HP var Hv). apply andb_true_iff in HP. destruct HP as [_ X].
    rewrite (reserved_maybe var Hr) in X. discriminate.
  - intros k Hs Hr. apply set_var_In in Hs. specialize (HS k Hs).
    rewrite (reserved_maybe k Hr) in HS. discriminate.
Qed.

Lemma rank_sound :
  mcheck_rank w order = true -> forall n m, dep_edge w n m -> mrank_of order m < mrank_of order n.
Proof.
  intros H n m [p [o [j [[Hp Hn] Ha]]]]. subst n. apply Nat.ltb_lt.
  apply (forallb2_In _ _ _ H p m Hp). apply dep_targets_In. now exists o, j.
Qed.

Lemma known_In n : known w n -> In n (mknown_names w).
Proof.
  intros [p [Hp [E|[o [j Ha]]]]]; unfold mknown_names; apply uniq_In; apply in_flat_map; exists p;
    (split; [assumption|]).
  - now left.
  - right. apply dep_targets_In. now exists o, j.
Qed.

Lemma own_var_In n k : own_var w n k -> In k (mown_vars w n).
Proof.
  unfold own_var, mown_vars. intros [E|[E|[E|[p [v [[Hp Hn] Ha]]]]]]; apply in_or_app.
  - left. left. now symmetry.
  - left. right. left. now symmetry.
  - left. right. right. left. now symmetry.
  - right. apply in_map_iff. exists (k, v). split; [reflexivity|]. apply in_flat_map. exists p. split.
    + apply filter_In. split; [assumption|]. now apply str_eqb_eq.
    + now apply set_entries_In.
Qed.

Lemma var_apart_sound :
  mcheck_var_apart w = true ->
  forall n m k, known w n -> known w m -> n <> m -> own_var w n k -> ~ own_var w m k.
Proof.
  intros H n m k Kn Km Hne On Om.
  pose proof (forallb2_In _ (fun _ => mknown_names w) _ H n m (known_In n Kn) (known_In m Km)) as X.
  apply orb_true_iff in X. destruct X as [E|D].
  - apply str_eqb_eq in E. contradiction.
  - apply (disjoint_str_spec _ _ D k); now apply own_var_In.
Qed.

Lemma elem_apart_sound :
  mcheck_elem_apart w = true ->
  forall n m var v, n <> m -> own_elem w n var v -> ~ own_elem w m var v.
Proof.
  intros H n m var v Hne [p [ap [d [[Hp Hn] Ha]]]] [q [ap' [d' [[Hq Hm] Ha']]]].
  pose proof (forallb2_In _ (fun _ => w) _ H p q Hp Hq) as X. apply orb_true_iff in X. destruct X as [E|D].
  - apply str_eqb_eq in E. congruence.
  - apply (disjoint_pair_spec _ _ D (var, v)); apply elem_pairs_In; eauto.
Qed.

Lemma versions_sound :
  mcheck_versions w = true -> mcheck_keys w = true ->
  forall p q, In p w -> In q w -> mp_name p = mp_name q -> p <> q ->
  mdisjoint_pair (melem_pairs p) (melem_pairs q) = true /\ mdisjoint_pair (mset_entries p) (mset_entries q) = true.
Proof.
  intros H0 K p q Hp Hq Hn Hne. pose proof (forallb2_In _ (fun _ => w) _ H0 p q Hp Hq) as H.
  apply orb_true_iff in H. destruct H as [H|H]; [apply orb_true_iff in H; destruct H as [H|H]|].
  - rewrite Hn, str_eqb_refl in H. discriminate.
  - apply andb_true_iff in H. destruct H as [H H']. apply str_eqb_eq in H. apply str_eqb_eq in H'.
    exfalso. apply Hne. now apply (keys_sound w K).
  - now apply andb_true_iff in H.
Qed.

Lemma set_once_sound :
  mcheck_set_once w = true ->
  forall p k v v', In p w -> In (ASet k v) (mp_actions p) -> In (ASet k v') (mp_actions p) -> v = v'.
Proof.
  intros H p k v v' Hp Ha Hb. unfold mcheck_set_once in H. rewrite forallb_forall in H.
  specialize (H p Hp). rewrite forallb_forall in H.
  apply set_entries_In in Ha. apply set_entries_In in Hb.
  specialize (H (k, v) Ha). rewrite forallb_forall in H. specialize (H (k, v') Hb). cbn [fst snd] in H.
  rewrite str_eqb_refl in H. cbn [negb orb] in H. now apply str_eqb_eq.
Qed.

Lemma words_sound :
  mcheck_words w = true ->
  forall p, In p w -> word (mp_name p) /\ word (mp_version p) /\ mp_version p <> lit "-f" /\
                       word (mp_flavor p) /\ root_ok (mp_root p).
Proof.
  intros H p Hp. unfold mcheck_words in H. rewrite forallb_forall in H. specialize (H p Hp).
  apply andb_true_iff in H. destruct H as [H H6]. apply andb_true_iff in H. destruct H as [H H5].
  apply andb_true_iff in H. destruct H as [H H4].
  apply andb_true_iff in H. destruct H as [H H3]. apply andb_true_iff in H. destruct H as [H1 H2].
  split; [now apply word_ok_word|split; [now apply word_ok_word|split; [|split; [now apply word_ok_word|split]]]].
  - apply negb_true_iff in H3. now apply str_eqb_neq.
  - intros E. rewrite E in H5. discriminate.
  - now apply str_eqb_eq.
Qed.

Theorem wf2_check_sound : mwf2_check w order = true -> WF2 w (mdl_of w) (mrank_of order).
Proof.
  unfold mwf2_check. intro C.
  destruct (andb_prop _ _ C) as [C8 H9]. destruct (andb_prop _ _ C8) as [C7 H8]. destruct (andb_prop _ _ C7) as [C6 H7].
  destruct (andb_prop _ _ C6) as [C5 H6]. destruct (andb_prop _ _ C5) as [C4 H5]. destruct (andb_prop _ _ C4) as [C3 H4].
  destruct (andb_prop _ _ C3) as [C2 H3]. destruct (andb_prop _ _ C2) as [H1 H2]. split.
  - now apply wf_sound.
  - now apply rank_sound.
  - now apply elem_apart_sound.
  - now apply var_apart_sound.
  - intros p q ap var v d ap' d' Hp Hq Hn Hne Ha Hb.
    destruct (versions_sound H6 H8 p q Hp Hq Hn Hne) as [D _].
    apply (disjoint_pair_spec _ _ D (var, v)); apply elem_pairs_In; eauto.
  - intros p q k v Hp Hq Hn Hne Ha Hb.
    destruct (versions_sound H6 H8 p q Hp Hq Hn Hne) as [_ D].
    apply (disjoint_pair_spec _ _ D (k, v)); now apply set_entries_In.
  - now apply set_once_sound.
  - now apply (keys_sound w).
  - now apply words_sound.
Qed.

Corollary wf_check_sound : mwf2_check w order = true -> WF w (mdl_of w).
Proof. intro H. exact (wf_base w (mdl_of w) (mrank_of order) (wf2_check_sound H)). Qed.

End Sound.

Lemma Inv_nil w cfg : Inv w cfg [].
Proof.
  intro name. unfold clause, mfind_setup_product. cbn [alookup].
  intros q _. split.
  - intros ap var v d _ Hin. exact Hin.
  - intros k v _. discriminate.
Qed.

Lemma nodollar_nil w : nodollar_paths w [].
Proof. intros var _. reflexivity. Qed.

Print Assumptions wf2_check_sound.
Print Assumptions wf_check_sound.
