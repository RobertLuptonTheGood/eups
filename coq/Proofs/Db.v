(* Lemmas about Model/Db.v: what the primitive effects do to record lookups, the view
   agrees with the records, every record-level action refines its one-line abstract
   transition, hence every command and every history does. *)
From Eupsv Require Import Base.Base Base.BaseLemmas Model.Db Proofs.DbLib.

Local Notation klookup := (glookup key_eqb).
Local Notation dlookup := (glookup dkey_eqb).

Definition has_stack (d : db) (s : str) : bool := is_some (alookup s d).

Lemma alookup_apply1 e d s :
  alookup s (apply1 e d) =
  match alookup s d with
  | Some st => Some (if str_eqb s (eff_stack e) then apply_stack e st else st)
  | None => None
  end.
Proof.
  unfold apply1. induction d as [|[s' st] d IH]; cbn; [reflexivity|].
  destruct (str_eqb s' (eff_stack e)) eqn:E1; cbn.
  - destruct (str_eqb s s') eqn:E2; [|exact IH].
    apply str_eqb_eq in E2. subst s'. rewrite E1. reflexivity.
  - destruct (str_eqb s s') eqn:E2; [|exact IH].
    apply str_eqb_eq in E2. subst s'. rewrite E1. reflexivity.
Qed.

Lemma path_apply1 e d : map fst (apply1 e d) = map fst d.
Proof.
  unfold apply1. induction d as [|[s st] d IH]; cbn; [reflexivity|].
  destruct (str_eqb s (eff_stack e)); cbn; rewrite IH; reflexivity.
Qed.

Lemma path_apply es d : map fst (apply es d) = map fst d.
Proof.
  unfold apply. revert d. induction es as [|e es IH]; intro d; cbn; [reflexivity|].
  rewrite IH. apply path_apply1.
Qed.

Lemma has_stack_apply1 e d s : has_stack (apply1 e d) s = has_stack d s.
Proof. unfold has_stack. rewrite alookup_apply1. destruct (alookup s d); reflexivity. Qed.

Lemma has_stack_path d s : mem_str s (map fst d) = has_stack d s.
Proof.
  unfold has_stack. induction d as [|[s' st] d IH]; cbn; [reflexivity|].
  destruct (str_eqb s s'); [reflexivity|exact IH].
Qed.

Lemma apply_app es1 es2 d : apply (es1 ++ es2) d = apply es2 (apply es1 d).
Proof. unfold apply. apply fold_left_app. Qed.

Lemma apply_cons e es d : apply (e :: es) d = apply es (apply1 e d).
Proof. reflexivity. Qed.

Lemma db_vfile_apply1 e d s k :
  db_vfile (apply1 e d) s k =
  match e with
  | WriteV s' k' c => if str_eqb s s' && key_eqb k k' then (if has_stack d s then Some c else None) else db_vfile d s k
  | RemoveV s' k' => if str_eqb s s' && key_eqb k k' then None else db_vfile d s k
  | _ => db_vfile d s k
  end.
Proof.
  unfold db_vfile, has_stack. rewrite alookup_apply1.
  destruct (alookup s d) as [st|] eqn:Es.
  - destruct e as [s' n'|s' n'|s' k' c|s' k'|s' k' c|s' k']; cbn [eff_stack apply_stack is_some];
      destruct (str_eqb s s') eqn:E; cbn [andb]; try reflexivity.
    + destruct (mem_str n' (dirs st)); reflexivity.
    + destruct (has_files n' st); reflexivity.
    + cbn [vfiles]. rewrite (glookup_gset key_eqb key_eqb_eq). destruct (key_eqb k k'); reflexivity.
    + cbn [vfiles]. rewrite (glookup_gremove key_eqb key_eqb_eq). destruct (key_eqb k k'); reflexivity.
  - destruct e as [s' n'|s' n'|s' k' c|s' k'|s' k' c|s' k']; cbn [is_some]; try reflexivity;
      destruct (str_eqb s s' && key_eqb k k'); reflexivity.
Qed.

Lemma db_cfile_apply1 e d s k :
  db_cfile (apply1 e d) s k =
  match e with
  | WriteC s' k' c => if str_eqb s s' && key_eqb k k' then (if has_stack d s then Some c else None) else db_cfile d s k
  | RemoveC s' k' => if str_eqb s s' && key_eqb k k' then None else db_cfile d s k
  | _ => db_cfile d s k
  end.
Proof.
  unfold db_cfile, has_stack. rewrite alookup_apply1.
  destruct (alookup s d) as [st|] eqn:Es.
  - destruct e as [s' n'|s' n'|s' k' c|s' k'|s' k' c|s' k']; cbn [eff_stack apply_stack is_some];
      destruct (str_eqb s s') eqn:E; cbn [andb]; try reflexivity.
    + destruct (mem_str n' (dirs st)); reflexivity.
    + destruct (has_files n' st); reflexivity.
    + cbn [cfiles]. rewrite (glookup_gset key_eqb key_eqb_eq). destruct (key_eqb k k'); reflexivity.
    + cbn [cfiles]. rewrite (glookup_gremove key_eqb key_eqb_eq). destruct (key_eqb k k'); reflexivity.
  - destruct e as [s' n'|s' n'|s' k' c|s' k'|s' k' c|s' k']; cbn [is_some]; try reflexivity;
      destruct (str_eqb s s' && key_eqb k k'); reflexivity.
Qed.

Definition is_v_effect (e : fseffect) : bool :=
  match e with WriteV _ _ _ | RemoveV _ _ => true | _ => false end.
Definition is_c_effect (e : fseffect) : bool :=
  match e with WriteC _ _ _ | RemoveC _ _ => true | _ => false end.

Lemma db_decl_apply1_other e d s n v f : is_v_effect e = false -> db_decl (apply1 e d) s n v f = db_decl d s n v f.
Proof. intro H. unfold db_decl. rewrite db_vfile_apply1. destruct e; cbn in H; try discriminate; reflexivity. Qed.

Lemma db_tag_apply1_other e d s n t f : is_c_effect e = false -> db_tag (apply1 e d) s n t f = db_tag d s n t f.
Proof. intro H. unfold db_tag. rewrite db_cfile_apply1. destruct e; cbn in H; try discriminate; reflexivity. Qed.

Lemma db_decl_apply_other es d s n v f :
  forallb (fun e => negb (is_v_effect e)) es = true -> db_decl (apply es d) s n v f = db_decl d s n v f.
Proof.
  revert d. induction es as [|e es IH]; intros d H; [reflexivity|].
  cbn in H. apply andb_true_iff in H. destruct H as [H1 H2].
  rewrite apply_cons, IH by exact H2. apply db_decl_apply1_other. destruct (is_v_effect e); [discriminate|reflexivity].
Qed.

Lemma db_tag_apply_other es d s n t f :
  forallb (fun e => negb (is_c_effect e)) es = true -> db_tag (apply es d) s n t f = db_tag d s n t f.
Proof.
  revert d. induction es as [|e es IH]; intros d H; [reflexivity|].
  cbn in H. apply andb_true_iff in H. destruct H as [H1 H2].
  rewrite apply_cons, IH by exact H2. apply db_tag_apply1_other. destruct (is_c_effect e); [discriminate|reflexivity].
Qed.

Lemma db_tag_write_or_remove d s' k' c s n t f :
  db_tag (apply1 (write_or_remove_c s' k' c) d) s n t f =
  if str_eqb s s' && key_eqb (n, t) k' then (if has_stack d s then alookup f c else None) else db_tag d s n t f.
Proof.
  unfold db_tag, write_or_remove_c.
  destruct (is_nil c) eqn:En; [apply is_nil_true in En; subst c|]; rewrite db_cfile_apply1;
    (destruct (str_eqb s s' && key_eqb (n, t) k'); [|reflexivity]); destruct (has_stack d s); reflexivity.
Qed.

Lemma db_decl_write_or_remove d s' k' c s n v f :
  db_decl (apply1 (write_or_remove_v s' k' c) d) s n v f =
  if str_eqb s s' && key_eqb (n, v) k' then (if has_stack d s then alookup f c else None) else db_decl d s n v f.
Proof.
  unfold db_decl, write_or_remove_v.
  destruct (is_nil c) eqn:En; [apply is_nil_true in En; subst c|]; rewrite db_vfile_apply1;
    (destruct (str_eqb s s' && key_eqb (n, v) k'); [|reflexivity]); destruct (has_stack d s); reflexivity.
Qed.

(* declarations and tag assignments are kept, read and listed in the same way: [files] is
   [vfiles] or [cfiles], [rec_at] then [db_decl] or [db_tag], [rec_view] is [view_decls] or [view_tags] *)
Section Records.
  Context {V : Type} (files : stack -> list (key * amap V)).

  Definition rec_at (d : db) (s n v f : str) : option V :=
    match match alookup s d with Some st => klookup (n, v) (files st) | None => None end with
    | Some c => alookup f c
    | None => None
    end.

  Definition rec_view (d : db) : list (dkey * V) :=
    flat_map (fun p : str * stack =>
      flat_map (fun kv : key * amap V =>
        flat_map (fun fr : str * V =>
          match rec_at d (fst p) (fst (fst kv)) (snd (fst kv)) (fst fr) with
          | Some r => [((fst p, fst (fst kv), snd (fst kv), fst fr), r)]
          | None => []
          end) (snd kv)) (files (snd p))) d.

  Lemma rec_at_has_stack d s n v f r : rec_at d s n v f = Some r -> has_stack d s = true.
  Proof. unfold rec_at, has_stack. destruct (alookup s d); [reflexivity|discriminate]. Qed.

  Lemma rec_at_no_stack d s n v f : has_stack d s = false -> rec_at d s n v f = None.
  Proof. unfold rec_at, has_stack. destruct (alookup s d); [discriminate|reflexivity]. Qed.

  Lemma rec_at_empty path s n v f : files empty_stack = [] -> rec_at (empty_db path) s n v f = None.
  Proof.
    intro He. unfold rec_at, empty_db.
    destruct (alookup s (map (fun s0 => (s0, empty_stack)) path)) as [st|] eqn:E; [|reflexivity].
    apply alookup_In in E. apply in_map_iff in E. destruct E as [s0 [E _]]. inversion E. rewrite He. reflexivity.
  Qed.

  Lemma rec_view_sound d k r : In (k, r) (rec_view d) ->
    let '(s, n, v, f) := k in rec_at d s n v f = Some r.
  Proof.
    unfold rec_view. intro H.
    apply in_flat_map in H. destruct H as [[s st] [_ H]].
    apply in_flat_map in H. destruct H as [[[n v] c] [_ H]].
    apply in_flat_map in H. destruct H as [[f r0] [_ H]]. cbn [fst snd] in H.
    destruct (rec_at d s n v f) eqn:E; [|contradiction].
    destruct H as [[= <- <-]|[]]. exact E.
  Qed.

  Lemma rec_view_complete d s n v f r : rec_at d s n v f = Some r -> In ((s, n, v, f), r) (rec_view d).
  Proof.
    intro H. pose proof H as H0. unfold rec_at in H.
    destruct (alookup s d) as [st|] eqn:Es; [|discriminate].
    destruct (klookup (n, v) (files st)) as [c|] eqn:Ek; [|discriminate].
    apply alookup_In in Es. apply (glookup_In key_eqb key_eqb_eq) in Ek. apply alookup_In in H.
    unfold rec_view. apply in_flat_map. exists (s, st). split; [exact Es|].
    apply in_flat_map. exists ((n, v), c). split; [exact Ek|].
    apply in_flat_map. exists (f, r). split; [exact H|]. cbn [fst snd]. rewrite H0. left. reflexivity.
  Qed.

  Lemma rec_view_lookup d s n v f : dlookup (s, n, v, f) (rec_view d) = rec_at d s n v f.
  Proof.
    rewrite (glookup_functional dkey_eqb dkey_eqb_eq (fun k : dkey => let '(s, n, v, f) := k in rec_at d s n v f)).
    - destruct (existsb _ (rec_view d)) eqn:E; [reflexivity|].
      destruct (rec_at d s n v f) as [r|] eqn:Ed; [|reflexivity].
      apply rec_view_complete in Ed.
      rewrite existsb_false_forall in E. specialize (E _ Ed). cbn [fst] in E.
      rewrite dkey_eqb_refl in E. discriminate.
    - intros k' r H. apply rec_view_sound in H. destruct k' as [[[s' n'] v'] f']. exact H.
  Qed.
End Records.

Lemma db_decl_has_stack d s n v f r : db_decl d s n v f = Some r -> has_stack d s = true.
Proof. exact (rec_at_has_stack vfiles d s n v f r). Qed.

Lemma db_tag_has_stack d s n t f v : db_tag d s n t f = Some v -> has_stack d s = true.
Proof. exact (rec_at_has_stack cfiles d s n t f v). Qed.

Lemma db_decl_no_stack d s n v f : has_stack d s = false -> db_decl d s n v f = None.
Proof. exact (rec_at_no_stack vfiles d s n v f). Qed.

Lemma db_tag_no_stack d s n t f : has_stack d s = false -> db_tag d s n t f = None.
Proof. exact (rec_at_no_stack cfiles d s n t f). Qed.

Lemma view_decls_sound d k r : In (k, r) (view_decls d) ->
  let '(s, n, v, f) := k in db_decl d s n v f = Some r.
Proof. exact (rec_view_sound vfiles d k r). Qed.

Lemma view_decls_complete d s n v f r : db_decl d s n v f = Some r -> In ((s, n, v, f), r) (view_decls d).
Proof. exact (rec_view_complete vfiles d s n v f r). Qed.

Lemma a_decl_view d s n v f : a_decl (view d) s n v f = db_decl d s n v f.
Proof. exact (rec_view_lookup vfiles d s n v f). Qed.

Lemma view_tags_sound d k v : In (k, v) (view_tags d) ->
  let '(s, n, t, f) := k in db_tag d s n t f = Some v.
Proof. exact (rec_view_sound cfiles d k v). Qed.

Lemma view_tags_complete d s n t f v : db_tag d s n t f = Some v -> In ((s, n, t, f), v) (view_tags d).
Proof. exact (rec_view_complete cfiles d s n t f v). Qed.

Lemma a_tag_view d s n t f : a_tag (view d) s n t f = db_tag d s n t f.
Proof. exact (rec_view_lookup cfiles d s n t f). Qed.

Lemma apath_view d : apath (view d) = map fst d.
Proof. reflexivity. Qed.

Definition aeq (a b : adb) : Prop :=
  apath a = apath b /\
  (forall s n v f, a_decl a s n v f = a_decl b s n v f) /\
  (forall s n t f, a_tag a s n t f = a_tag b s n t f).

Lemma aeq_refl a : aeq a a.
Proof. repeat split. Qed.

Lemma aeq_sym a b : aeq a b -> aeq b a.
Proof. intros [H1 [H2 H3]]. repeat split; intros; symmetry; auto. Qed.

Lemma aeq_trans a b c : aeq a b -> aeq b c -> aeq a c.
Proof.
  intros [H1 [H2 H3]] [K1 [K2 K3]]. repeat split; intros.
  - congruence.
  - rewrite H2. apply K2.
  - rewrite H3. apply K3.
Qed.

Lemma apath_aapply x a : apath (aapply x a) = apath a.
Proof.
  destruct x; cbn.
  - destruct (mem_str s (apath a)); reflexivity.
  - destruct (is_some (a_decl a s n v f)); reflexivity.
  - destruct (mem_str s (apath a)); reflexivity.
  - reflexivity.
Qed.

Lemma apath_aapply_all xs a : apath (aapply_all xs a) = apath a.
Proof.
  unfold aapply_all. revert a. induction xs as [|x xs IH]; intro a; cbn; [reflexivity|].
  rewrite IH. apply apath_aapply.
Qed.

Lemma a_decl_aapply x a s n v f :
  a_decl (aapply x a) s n v f =
  match x with
  | ASetDecl s' n' v' f' r =>
      if mem_str s' (apath a) && dkey_eqb (s, n, v, f) (s', n', v', f') then Some r else a_decl a s n v f
  | ADelDecl s' n' v' f' =>
      if is_some (a_decl a s' n' v' f') && dkey_eqb (s, n, v, f) (s', n', v', f') then None else a_decl a s n v f
  | _ => a_decl a s n v f
  end.
Proof.
  destruct x as [s' n' v' f' r|s' n' v' f'|s' n' t' f' v'|s' n' t' f']; cbn [aapply]; try reflexivity.
  - destruct (mem_str s' (apath a)); cbn [andb]; [|reflexivity].
    unfold a_decl. cbn [adecls]. apply (glookup_gset dkey_eqb dkey_eqb_eq).
  - destruct (is_some (a_decl a s' n' v' f')); cbn [andb]; [|reflexivity].
    unfold a_decl. cbn [adecls]. apply (glookup_gremove dkey_eqb dkey_eqb_eq).
  - destruct (mem_str s' (apath a)); reflexivity.
Qed.

Lemma a_tag_aapply x a s n t f :
  a_tag (aapply x a) s n t f =
  match x with
  | ASetTag s' n' t' f' v' =>
      if mem_str s' (apath a) && dkey_eqb (s, n, t, f) (s', n', t', f') then Some v' else a_tag a s n t f
  | ADelTag s' n' t' f' => if dkey_eqb (s, n, t, f) (s', n', t', f') then None else a_tag a s n t f
  | ADelDecl s' n' v' f' =>
      if is_some (a_decl a s' n' v' f') && tag_points a s' n' f' v' (s, n, t, f) then None else a_tag a s n t f
  | ASetDecl _ _ _ _ _ => a_tag a s n t f
  end.
Proof.
  destruct x as [s' n' v' f' r|s' n' v' f'|s' n' t' f' v'|s' n' t' f']; cbn [aapply].
  - destruct (mem_str s' (apath a)); reflexivity.
  - destruct (is_some (a_decl a s' n' v' f')); cbn [andb]; [|reflexivity].
    unfold a_tag at 1. cbn [atags]. rewrite (glookup_gfilterk dkey_eqb dkey_eqb_eq).
    destruct (tag_points a s' n' f' v' (s, n, t, f)); reflexivity.
  - destruct (mem_str s' (apath a)); cbn [andb]; [|reflexivity].
    unfold a_tag. cbn [atags]. apply (glookup_gset dkey_eqb dkey_eqb_eq).
  - unfold a_tag. cbn [atags]. apply (glookup_gremove dkey_eqb dkey_eqb_eq).
Qed.

Lemma tag_points_aeq a b s n f v k : aeq a b -> tag_points a s n f v k = tag_points b s n f v k.
Proof.
  intros [_ [_ H3]]. destruct k as [[[s' n'] t'] f']. unfold tag_points. rewrite H3. reflexivity.
Qed.

Lemma aapply_aeq x a b : aeq a b -> aeq (aapply x a) (aapply x b).
Proof.
  intro H. pose proof H as [H1 [H2 H3]]. repeat split; intros.
  - rewrite !apath_aapply. exact H1.
  - rewrite !a_decl_aapply. destruct x; [rewrite H1, H2|rewrite !H2|rewrite H2|rewrite H2]; reflexivity.
  - rewrite !a_tag_aapply.
    destruct x; [rewrite H3|rewrite H2, (tag_points_aeq a b _ _ _ _ _ H), H3|rewrite H1, H3|rewrite H3]; reflexivity.
Qed.

Lemma aapply_all_aeq xs a b : aeq a b -> aeq (aapply_all xs a) (aapply_all xs b).
Proof.
  unfold aapply_all. revert a b. induction xs as [|x xs IH]; intros a b H; cbn; [exact H|].
  apply IH. apply aapply_aeq. exact H.
Qed.

Lemma aapply_all_app xs ys a : aapply_all (xs ++ ys) a = aapply_all ys (aapply_all xs a).
Proof. unfold aapply_all. apply fold_left_app. Qed.

Lemma aapply_all_cons x xs a : aapply_all (x :: xs) a = aapply_all xs (aapply x a).
Proof. reflexivity. Qed.

Lemma dkey_eqb_split s n v f s' n' v' f' :
  dkey_eqb (s, n, v, f) (s', n', v', f') = str_eqb s s' && key_eqb (n, v) (n', v') && str_eqb f f'.
Proof. unfold dkey_eqb, key_eqb. cbn [fst snd]. rewrite andb_assoc. reflexivity. Qed.

Lemma same_file s n v s' n' v' : str_eqb s s' && key_eqb (n, v) (n', v') = true -> s = s' /\ n = n' /\ v = v'.
Proof.
  intro E. apply andb_true_iff in E. destruct E as [E1 E2]. apply str_eqb_eq in E1. apply key_eqb_eq in E2.
  inversion E2. auto.
Qed.

Lemma db_tag_untag_effects d0 d s' n' t' f' s n t f :
  db_cfile d0 s' (n', t') = db_cfile d s' (n', t') -> has_stack d0 s' = has_stack d s' ->
  db_tag (apply (untag_effects d s' n' t' f') d0) s n t f =
  if dkey_eqb (s, n, t, f) (s', n', t', f') then None else db_tag d0 s n t f.
Proof.
  intros Hc Hs. unfold untag_effects.
  destruct (db_cfile d s' (n', t')) as [c|] eqn:Ec; [destruct (amem f' c) eqn:Em|].
  - cbn [apply fold_left]. rewrite db_tag_write_or_remove, dkey_eqb_split.
    destruct (str_eqb s s' && key_eqb (n, t) (n', t')) eqn:E; cbn [andb]; [|reflexivity].
    destruct (same_file _ _ _ _ _ _ E) as [-> [-> ->]].
    assert (Hst : has_stack d0 s' = true).
    { unfold db_cfile, has_stack in *. destruct (alookup s' d0); [reflexivity|discriminate]. }
    rewrite Hst, alookup_aremove. destruct (str_eqb f f'); [reflexivity|].
    unfold db_tag. rewrite Hc. reflexivity.
  - cbn [apply fold_left]. destruct (dkey_eqb (s, n, t, f) (s', n', t', f')) eqn:E; [|reflexivity].
    apply dkey_eqb_eq in E. inversion E. subst.
    unfold db_tag. rewrite Hc. unfold amem in Em. destruct (alookup f' c); [discriminate|reflexivity].
  - cbn [apply fold_left]. destruct (dkey_eqb (s, n, t, f) (s', n', t', f')) eqn:E; [|reflexivity].
    apply dkey_eqb_eq in E. inversion E. subst. unfold db_tag. rewrite Hc. reflexivity.
Qed.

Lemma untag_effects_c d s n t f : forallb (fun e => negb (is_v_effect e)) (untag_effects d s n t f) = true.
Proof.
  unfold untag_effects. destruct (db_cfile d s (n, t)); [|reflexivity].
  destruct (amem f c); [|reflexivity]. unfold write_or_remove_c. destruct (is_nil _); reflexivity.
Qed.

Lemma untag_effects_keeps_other d0 d s' n' t' f' k :
  k <> (n', t') -> db_cfile (apply (untag_effects d s' n' t' f') d0) s' k = db_cfile d0 s' k.
Proof.
  intro N. unfold untag_effects. destruct (db_cfile d s' (n', t')); [|reflexivity].
  destruct (amem f' c); [|reflexivity]. cbn [apply fold_left].
  unfold write_or_remove_c. destruct (is_nil _); rewrite db_cfile_apply1;
    rewrite (geqb_neq key_eqb key_eqb_eq k (n', t') N), andb_false_r; reflexivity.
Qed.

Lemma has_stack_apply es d s : has_stack (apply es d) s = has_stack d s.
Proof.
  revert d. induction es as [|e es IH]; intro d; [reflexivity|].
  rewrite apply_cons, IH. apply has_stack_apply1.
Qed.

(* removing the entry of flavor f from every listed chain file of product n, each
   effect computed on the snapshot d *)
Lemma db_tag_untag_list d s' n' f' ts : NoDup ts -> forall d0,
  (forall t, In t ts -> db_cfile d0 s' (n', t) = db_cfile d s' (n', t)) ->
  has_stack d0 s' = has_stack d s' ->
  forall s n t f,
  db_tag (apply (flat_map (fun t => untag_effects d s' n' t f') ts) d0) s n t f =
  if str_eqb s s' && str_eqb n n' && str_eqb f f' && mem_str t ts then None else db_tag d0 s n t f.
Proof.
  induction 1 as [|t1 ts Hnin Hnd IH]; intros d0 Hc Hs s n t f.
  - cbn. rewrite andb_false_r. reflexivity.
  - cbn [flat_map]. rewrite apply_app. rewrite IH.
    + cbn [mem_str].
      rewrite db_tag_untag_effects by (auto using in_eq).
      destruct (dkey_eqb (s, n, t, f) (s', n', t1, f')) eqn:E2.
      * apply dkey_eqb_eq in E2. inversion E2. subst. rewrite !str_eqb_refl. cbn [andb].
        destruct (mem_str t1 ts); reflexivity.
      * destruct (str_eqb s s' && str_eqb n n' && str_eqb f f') eqn:E; cbn [andb]; [|reflexivity].
        destruct (str_eqb t t1) eqn:E1; [|reflexivity].
        apply andb_true_iff in E. destruct E as [E Ef]. apply andb_true_iff in E. destruct E as [Es En].
        apply str_eqb_eq in E1, Ef, Es, En. subst. rewrite dkey_eqb_refl in E2. discriminate.
    + intros t0 Ht0. rewrite untag_effects_keeps_other.
      * apply Hc. right. exact Ht0.
      * intro H. inversion H. subst. contradiction.
    + rewrite has_stack_apply. exact Hs.
Qed.

Lemma forallb_flat_map {A B} (p : B -> bool) (g : A -> list B) l :
  (forall x, forallb p (g x) = true) -> forallb p (flat_map g l) = true.
Proof.
  intro H. induction l as [|x l IH]; cbn; [reflexivity|]. rewrite forallb_app, H, IH. reflexivity.
Qed.

Lemma tags_on_NoDup d s n v f : NoDup (tags_on d s n v f).
Proof. unfold tags_on. destruct (alookup s d); [apply uniq_NoDup|constructor]. Qed.

Lemma tags_on_mem d s n v f t : mem_str t (tags_on d s n v f) = opt_str_eqb (db_tag d s n t f) v.
Proof.
  destruct (opt_str_eqb (db_tag d s n t f) v) eqn:E.
  - apply mem_str_In. unfold tags_on.
    pose proof E as E0. apply opt_str_eqb_true in E.
    pose proof E as E1. unfold db_tag, db_cfile in E1.
    destruct (alookup s d) as [st|] eqn:Es; [|discriminate].
    destruct (glookup key_eqb (n, t) (cfiles st)) as [c|] eqn:Ek; [|discriminate].
    apply (glookup_In key_eqb key_eqb_eq) in Ek.
    apply (proj2 (uniq_In _ _)). apply in_flat_map. exists ((n, t), c). split; [exact Ek|].
    cbn [fst snd]. rewrite str_eqb_refl, E0. left. reflexivity.
  - apply mem_str_not_In. intro H. unfold tags_on in H.
    destruct (alookup s d) as [st|] eqn:Es; [|contradiction].
    apply (proj1 (uniq_In _ _)) in H. apply in_flat_map in H. destruct H as [[[n1 t1] c] [_ H]]. cbn [fst snd] in H.
    destruct (str_eqb n1 n && opt_str_eqb (db_tag d s n t1 f) v) eqn:E2; [|contradiction].
    destruct H as [H|[]]. subst t1. apply andb_true_iff in E2. destruct E2 as [_ E2]. congruence.
Qed.

Lemma path_compile d x : map fst (apply (compile d x) d) = map fst d.
Proof. apply path_apply. Qed.

Lemma db_decl_compile d x s n v f :
  db_decl (apply (compile d x) d) s n v f = a_decl (aapply x (view d)) s n v f.
Proof.
  rewrite a_decl_aapply.
  destruct x as [s' n' v' f' r|s' n' v' f'|s' n' t' f' v'|s' n' t' f']; cbn [compile]; rewrite !a_decl_view.
  - (* ASetDecl: the directory if need be, then the block of the flavor in the version file *)
    rewrite apath_view, has_stack_path, dkey_eqb_split, apply_app. set (d1 := apply (if db_has_dir d s' n' then [] else [Mkdir s' n']) d).
    assert (H1 : forall k, db_vfile d1 s k = db_vfile d s k).
    { intro k. unfold d1. destruct (db_has_dir d s' n'); [reflexivity|].
      cbn [apply fold_left]. rewrite db_vfile_apply1. reflexivity. }
    cbn [apply fold_left]. unfold db_decl at 1. rewrite db_vfile_apply1, H1. unfold d1. rewrite has_stack_apply.
    destruct (str_eqb s s' && key_eqb (n, v) (n', v')) eqn:E; cbn [andb]; [|rewrite andb_false_r; reflexivity].
    destruct (same_file _ _ _ _ _ _ E) as [-> [-> ->]].
    destruct (has_stack d s') eqn:Hs; cbn [andb]; [|symmetry; apply db_decl_no_stack; exact Hs].
    rewrite alookup_aset. destruct (str_eqb f f'); [reflexivity|].
    unfold db_decl. destruct (db_vfile d s' (n', v')); reflexivity.
  - (* ADelDecl: the tags that name the version, then the block; an empty file is removed, then the directory *)
    rewrite dkey_eqb_split. destruct (db_vfile d s' (n', v')) as [c|] eqn:Ev.
    2:{ unfold db_decl at 2. rewrite Ev. reflexivity. }
    assert (Hd : db_decl d s' n' v' f' = alookup f' c) by (unfold db_decl; rewrite Ev; reflexivity).
    rewrite Hd. unfold amem. destruct (alookup f' c) as [r0|] eqn:Ef; cbn [is_some andb]; [|reflexivity].
    assert (Hw : (if is_nil (aremove f' c) then [RemoveV s' (n', v'); Rmdir s' n'] else [WriteV s' (n', v') (aremove f' c)])
                 = write_or_remove_v s' (n', v') (aremove f' c) :: (if is_nil (aremove f' c) then [Rmdir s' n'] else []))
      by (unfold write_or_remove_v; destruct (is_nil (aremove f' c)); reflexivity).
    rewrite Hw, apply_app, apply_cons. clear Hw.
    set (d1 := apply (flat_map (fun t => untag_effects d s' n' t f') (tags_on d s' n' v' f')) d).
    rewrite db_decl_apply_other by (destruct (is_nil (aremove f' c)); reflexivity).
    rewrite db_decl_write_or_remove. unfold d1 at 1. rewrite has_stack_apply.
    destruct (str_eqb s s' && key_eqb (n, v) (n', v')) eqn:E; cbn [andb].
    + destruct (same_file _ _ _ _ _ _ E) as [-> [-> ->]].
      rewrite (db_decl_has_stack _ _ _ _ _ _ Hd), alookup_aremove.
      unfold db_decl. rewrite Ev. destruct (str_eqb f f'); reflexivity.
    + unfold d1. apply db_decl_apply_other. apply forallb_flat_map. intro. apply untag_effects_c.
  - cbn [apply fold_left]. apply db_decl_apply1_other. reflexivity.
  - apply db_decl_apply_other. apply untag_effects_c.
Qed.

Lemma db_tag_compile d x s n t f :
  db_tag (apply (compile d x) d) s n t f = a_tag (aapply x (view d)) s n t f.
Proof.
  rewrite a_tag_aapply.
  destruct x as [s' n' v' f' r|s' n' v' f'|s' n' t' f' v'|s' n' t' f']; cbn [compile]; rewrite a_tag_view.
  - apply db_tag_apply_other. destruct (db_has_dir d s' n'); reflexivity.
  - rewrite a_decl_view. destruct (db_vfile d s' (n', v')) as [c|] eqn:Ev.
    2:{ unfold db_decl. rewrite Ev. reflexivity. }
    assert (Hd : db_decl d s' n' v' f' = alookup f' c) by (unfold db_decl; rewrite Ev; reflexivity).
    rewrite Hd. unfold amem. destruct (alookup f' c) as [r0|] eqn:Ef; cbn [is_some andb]; [|reflexivity].
    rewrite apply_app.
    rewrite db_tag_apply_other by (destruct (is_nil (aremove f' c)); reflexivity).
    rewrite (db_tag_untag_list d s' n' f' _ (tags_on_NoDup d s' n' v' f') d) by reflexivity.
    rewrite tags_on_mem. unfold tag_points. rewrite a_tag_view.
    destruct (str_eqb_spec s s') as [->|Ns]; cbn [andb]; [|reflexivity].
    destruct (str_eqb_spec n n') as [->|Nn]; cbn [andb]; [|reflexivity].
    destruct (str_eqb_spec f f') as [->|Nf]; cbn [andb]; reflexivity.
  - rewrite apath_view, has_stack_path.
    cbn [apply fold_left]. unfold db_tag at 1. rewrite db_cfile_apply1, dkey_eqb_split.
    destruct (str_eqb s s' && key_eqb (n, t) (n', t')) eqn:E; cbn [andb]; [|rewrite andb_false_r; reflexivity].
    destruct (same_file _ _ _ _ _ _ E) as [-> [-> ->]].
    destruct (has_stack d s') eqn:Hs; cbn [andb]; [|symmetry; apply db_tag_no_stack; exact Hs].
    rewrite alookup_aset. destruct (str_eqb f f'); [reflexivity|].
    unfold db_tag. destruct (db_cfile d s' (n', t')); reflexivity.
  - apply db_tag_untag_effects; reflexivity.
Qed.

Lemma compile_refines d x : aeq (view (apply (compile d x) d)) (aapply x (view d)).
Proof.
  repeat split; intros.
  - rewrite apath_aapply, !apath_view. apply path_compile.
  - rewrite a_decl_view. apply db_decl_compile.
  - rewrite a_tag_view. apply db_tag_compile.
Qed.

Lemma compile_all_refines xs : forall d, aeq (view (apply (compile_all d xs) d)) (aapply_all xs (view d)).
Proof.
  induction xs as [|x xs IH]; intro d.
  - apply aeq_refl.
  - cbn [compile_all]. rewrite apply_app, aapply_all_cons.
    eapply aeq_trans; [apply IH|]. apply aapply_all_aeq. apply compile_refines.
Qed.

Lemma step_refines p d o d' :
  step_gen p d o = Ok d' -> exists a', astep_gen p (view d) o = Ok a' /\ aeq (view d') a'.
Proof.
  unfold step_gen, effects_gen, astep_gen. destruct (decide p (view d) o) as [acts|e]; [|discriminate].
  intro H. inversion H. subst d'. eexists. split; [reflexivity|]. apply compile_all_refines.
Qed.

Lemma step_err_iff p d o e : step_gen p d o = Err e <-> astep_gen p (view d) o = Err e.
Proof.
  unfold step_gen, effects_gen, astep_gen. destruct (decide p (view d) o); split; congruence.
Qed.

Lemma step_total_refines p d o : aeq (view (step_total p d o)) (astep_total p (view d) o).
Proof.
  unfold step_total, astep_total.
  destruct (step_gen p d o) as [d'|e] eqn:E.
  - destruct (step_refines p d o d' E) as [a' [H1 H2]]. rewrite H1. exact H2.
  - apply step_err_iff in E. rewrite E. apply aeq_refl.
Qed.
