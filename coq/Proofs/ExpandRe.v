(* Lemmas about Model/ExpandRe.v: the lines an earlier expansion added are dropped while the table is read. *)
From Eupsv Require Import Base.Base Base.BaseLemmas Model.Rx Model.PathAlg Model.Setup Model.Expand Model.ExpandText
  Model.ExpandRe Proofs.ExpandTextLib Proofs.ExpandText.


Lemma drop_last_empty_forall (P : str -> Prop) l : Forall P l -> Forall P (drop_last_empty l).
Proof.
  induction 1 as [|x l Hx Hl IH]; cbn [drop_last_empty]; [constructor|].
  destruct x as [|c x]; [destruct l; [constructor|constructor; assumption]|constructor; assumption].
Qed.

Lemma lines_of_no_nl text : Forall no_nl (lines_of text).
Proof. unfold lines_of. apply drop_last_empty_forall, split_on_parts_nodelim. Qed.


Lemma unexpand_unfold g l r :
  unexpand g (l :: r) = if fst (unexpand_step g l) then l :: unexpand (snd (unexpand_step g l)) r
                        else unexpand (snd (unexpand_step g l)) r.
Proof. cbn [unexpand]. destruct (unexpand_step g l); reflexivity. Qed.

Lemma unexpand_in g ls l : In l (unexpand g ls) -> In l ls.
Proof.
  revert g. induction ls as [|x ls IH]; intro g; [intros []|].
  rewrite unexpand_unfold. destruct (fst (unexpand_step g x)).
  - intros [H|H]; [left; assumption|right; eapply IH; eassumption].
  - intro H. right. eapply IH; eassumption.
Qed.

Lemma unexpand_forall (P : str -> Prop) g ls : Forall P ls -> Forall P (unexpand g ls).
Proof.
  intro H. apply Forall_forall. intros l I. apply (proj1 (Forall_forall P ls) H). eapply unexpand_in; eassumption.
Qed.

Lemma lines_of_unexpand_text text : lines_of (unexpand_text text) = unexpand GNone (lines_of text).
Proof. unfold unexpand_text. apply lines_of_unlines, unexpand_forall, lines_of_no_nl. Qed.


Lemma step_plain l : opens_type_block l = false -> unexpand_step GNone l = (true, GNone).
Proof.
  unfold opens_type_block, unexpand_step. destruct (blank_or_comment l); [reflexivity|]. cbn [negb andb].
  intro H. apply orb_false_iff in H. destruct H as [H1 H2]. rewrite H1, H2. reflexivity.
Qed.

Lemma unexpand_plain_app pre rest :
  forallb (fun l => negb (opens_type_block l)) pre = true -> unexpand GNone (pre ++ rest) = pre ++ unexpand GNone rest.
Proof.
  induction pre as [|l pre IH]; [reflexivity|]. cbn [forallb app]. intro H. apply andb_true_iff in H. destruct H as [H1 H2].
  rewrite unexpand_unfold, (step_plain l) by (now apply negb_true_iff). cbn [fst snd]. now rewrite IH.
Qed.

Lemma unexpand_plain ls :
  forallb (fun l => negb (opens_type_block l)) ls = true -> unexpand GNone ls = ls.
Proof.
  intro H. pose proof (unexpand_plain_app ls [] H) as Q. cbn [unexpand] in Q. rewrite !app_nil_r in Q. exact Q.
Qed.

(* what is dropped of a block an expansion wrote: the if line, the old pins, the else line, the closing
   brace - and nothing else *)

(* a command line among the old pins: neither blank nor comment, not the else line, not a lone right brace *)
Definition pin_like (l : str) : Prop :=
  blank_or_comment l = false /\ seq_full p_else (before_hash l) = false /\ seq_full p_close (before_hash l) = false.

(* a line among the guarded setups: a blank line, a comment, or a command that is not a lone right brace *)
Definition guarded_like (l : str) : Prop :=
  blank_or_comment l = true \/ seq_full p_close (before_hash l) = false.

Definition is_line (p : list str) (l : str) : Prop := blank_or_comment l = false /\ seq_full p (before_hash l) = true.

Lemma unexpand_pins pins rest : Forall pin_like pins -> unexpand GPins (pins ++ rest) = unexpand GPins rest.
Proof.
  induction 1 as [|l pins [B [E C]] _ IH]; [reflexivity|]. cbn [app]. rewrite unexpand_unfold.
  unfold unexpand_step. rewrite B, E, C. cbn [fst snd]. exact IH.
Qed.

Lemma unexpand_guarded body rest :
  Forall guarded_like body -> unexpand GSetups (body ++ rest) = body ++ unexpand GSetups rest.
Proof.
  induction 1 as [|l body G _ IH]; [reflexivity|]. cbn [app]. rewrite unexpand_unfold. unfold unexpand_step.
  destruct (blank_or_comment l) eqn:B; cbn [fst snd]; [now rewrite IH|].
  destruct G as [G|G]; [congruence|]. rewrite G. cbn [fst snd]. now rewrite IH.
Qed.

Lemma step_if_exact l : is_line p_if_exact l -> unexpand_step GNone l = (false, GPins).
Proof. intros [B M]. unfold unexpand_step. rewrite B, M. reflexivity. Qed.

Lemma step_else l : is_line p_else l -> unexpand_step GPins l = (false, GSetups).
Proof. intros [B M]. unfold unexpand_step. rewrite B, M. reflexivity. Qed.

Lemma step_close l : is_line p_close l -> unexpand_step GSetups l = (false, GNone).
Proof. intros [B M]. unfold unexpand_step. rewrite B, M. reflexivity. Qed.

Lemma step_if_not_exact l :
  is_line p_if_not_exact l -> seq_full p_if_exact (before_hash l) = false -> unexpand_step GNone l = (false, GSetups).
Proof. intros [B M] N. unfold unexpand_step. rewrite B, N, M. reflexivity. Qed.
