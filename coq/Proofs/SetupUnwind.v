(* The unsetup traversal of Model/Setup.v reaches every product the environment records below the requested
   one (C02): if every recorded product reachable from [top] - other than [top] itself - is named by a
   dependency line of the table of another recorded reachable product (PJ), and those tables have no -j line
   (NJ), then after  unsetup top  (no --max-depth, no --just) no reachable product is recorded; and every alias
   that was accounted for by a recorded reachable product (alias_acc) is gone.

   The argument: the unsetup of a recorded product x first removes its record, which leaves the products its
   table names justified only by the lines still to be processed; each line either finds its product
   unrecorded (nothing happens) or unsets it, with everything justified through it, recursively.  The records
   only shrink.  At the end every recorded reachable product would have a recorded reachable parent, of higher
   rank, and [top], of highest rank, is not recorded. *)
From Eupsv Require Import Base.Base Base.BaseLemmas Model.PathAlg Proofs.PathAlg Model.Setup Proofs.SetupFrame
     Proofs.SetupInv Proofs.SetupOwn.

Section Unwind.
Variable w : world.
Variable cfg : config.
Variable dl : str -> ascii.
Variable rank : str -> nat.
Variable top : str.
Variable Z : str -> Prop.
Hypothesis H : WF2 w dl rank.
Hypothesis Hdepth : c_max_depth cfg = None.

Notation has_name := (has_name w).
Notation known := (known w).
Notation nodollar_paths := (nodollar_paths w).

Definition reach (n : str) : Prop := touches w None top n.
Definition rec_ (e : amap str) (n : str) (q : product) : Prop := find_setup_product w e n = Some q.

Definition NJ (e : amap str) : Prop :=
  forall n q o x j, reach n -> rec_ e n q -> In (ASetup o x j) (p_actions q) -> j = false.
Definition PJ (A : str -> Prop) (e : amap str) : Prop :=
  forall k q, reach k -> rec_ e k q ->
    A k \/ exists n qn o j, reach n /\ rec_ e n qn /\ In (ASetup o k j) (p_actions qn).
Definition shrinks (e e' : amap str) : Prop := forall k q, rec_ e' k q -> rec_ e k q.
Notation AJ := (alias_acc w reach Z).

Definition targets (acts : list action) (k : str) : Prop := exists o j, In (ASetup o k j) acts.
Definition aliases_of (acts : list action) (k : str) : Prop := exists v, In (AAlias k v) acts.

Lemma shrinks_refl e : shrinks e e.
Proof. intros k q R. exact R. Qed.
Lemma shrinks_trans e1 e2 e3 : shrinks e1 e2 -> shrinks e2 e3 -> shrinks e1 e3.
Proof. intros A B k q R. apply A. now apply B. Qed.
Lemma NJ_shrinks e e' : shrinks e e' -> NJ e -> NJ e'.
Proof. intros S N n q o x j Rn Rq Hin. exact (N n q o x j Rn (S n q Rq) Hin). Qed.

Lemma reach_step n q o x j : reach n -> has_name n q -> In (ASetup o x j) (p_actions q) -> reach x.
Proof.
  intros R Hq Hin. apply (touches_unbounded_trans w top n x R).
  apply (t_dep w None n x x I); [now exists q, o, j|constructor].
Qed.

Lemma cut_off_plain depth : cut_off cfg false depth = false.
Proof. unfold cut_off. now rewrite Hdepth. Qed.

Definition unwind_post (A B : str -> Prop) (st : state) (x : str) (r : result) : Prop :=
  match r with
  | RDone ok st' _ =>
      shrinks (s_env st) (s_env st') /\ nodollar_paths (s_env st') /\
      find_setup_product w (s_env st') x = None /\ PJ A (s_env st') /\ AJ B st' /\
      (ok = false -> st' = st)
  | RRaise _ _ => False
  | _ => True
  end.

Definition unwind_fn (rec : setup_fn) : Prop :=
  forall (A B : str -> Prop) st ds x depth,
    reach x -> nodollar_paths (s_env st) -> NJ (s_env st) -> PJ A (s_env st) -> AJ B st ->
    unwind_post A B st x (rec st ds x false depth false).

Definition run_post (A B : str -> Prop) (st : state) (r : result) : Prop :=
  match r with
  | RDone _ st' _ => shrinks (s_env st) (s_env st') /\ nodollar_paths (s_env st') /\ PJ A (s_env st') /\ AJ B st'
  | RRaise _ _ => False
  | _ => True
  end.

(* what holds between two lines of the table of a product being unset: the lines [todo] still to come justify
   the recorded products they name and account for the aliases they define *)
Definition between (A B : str -> Prop) (todo : list action) (st : state) : Prop :=
  nodollar_paths (s_env st) /\ NJ (s_env st) /\
  PJ (fun k => A k \/ targets todo k) (s_env st) /\ AJ (fun k => B k \/ aliases_of todo k) st.

Lemma PJ_mono (A A' : str -> Prop) e : (forall k, A k -> A' k) -> PJ A e -> PJ A' e.
Proof. intros HA P k q Rk Rq. destruct (P k q Rk Rq) as [Ak|Pk]; [left; now apply HA|now right]. Qed.

Lemma AJ_mono (B B' : str -> Prop) st : (forall k, B k -> B' k) -> AJ B st -> AJ B' st.
Proof. intros HB P k v Zk E O. destruct (P k v Zk E O) as [Bk|Pk]; [left; now apply HB|now right]. Qed.

Lemma between_simple A B x q a todo st :
  has_name x q -> In a (p_actions q) -> (forall o m j, a <> ASetup o m j) -> between A B (a :: todo) st ->
  exists st1, exec_simple false a st = Ok st1 /\ shrinks (s_env st) (s_env st1) /\ between A B todo st1.
Proof.
  intros Hq Ha Hns [Hnd [HN [HP HA]]].
  destruct (simple_rel w cfg dl rank H (eq x) x q false a st eq_refl Hq Ha Hns Hnd) as [st1 [E [_ [Dn [Res Al]]]]].
  exists st1. split; [exact E|].
  assert (Same : forall n qn, rec_ (s_env st1) n qn <-> rec_ (s_env st) n qn).
  { intros n qn. unfold rec_, find_setup_product. rewrite (Res _ (proj1 (reserved_vars n))). reflexivity. }
  split; [intros k qk R; now apply Same|]. split; [exact Dn|]. split; [|split].
  - intros n qn o y j Rn Rq. apply (HN n qn o y j Rn). now apply Same.
  - intros k qk Rk Rq. apply Same in Rq.
    destruct (HP k qk Rk Rq) as [[Ak|[o [j [Eq|Hin]]]]|[n [qn [o [j [Rn [Rqn Hin]]]]]]].
    + left. now left.
    + elim (Hns o k j Eq).
    + left. right. now exists o, j.
    + right. exists n, qn, o, j. split; [assumption|]. split; [now apply Same|assumption].
  - assert (Acc : forall k v, Z k -> alookup k (s_aliases st) = Some v -> (exists n, reach n /\ own_alias w n k) ->
                    (forall v1, a <> AAlias k v1) ->
                    (B k \/ aliases_of todo k) \/
                    exists n q0 v', reach n /\ find_setup_product w (s_env st1) n = Some q0 /\ In (AAlias k v') (p_actions q0)).
    { intros k v Zk E' O Hna. destruct (HA k v Zk E' O) as [[Bk|[v1 [Eq|Hin]]]|[n [qn [v1 [Rn [Rqn Hin]]]]]].
      - left. now left.
      - elim (Hna v1 Eq).
      - left. right. now exists v1.
      - right. exists n, qn, v1. split; [assumption|]. split; [now apply Same|assumption]. }
    destruct Al as [[Hna EA]|[k0 [v0 [-> [EE EA]]]]]; intros k v Zk E' O; rewrite EA in E'.
    + exact (Acc k v Zk E' O (Hna k)).
    + destruct (str_eq_dec k k0) as [->|Nk]; [rewrite alookup_aremove_same in E'; discriminate|].
      rewrite alookup_aremove_other in E' by assumption. apply (Acc k v Zk E' O).
      intros v1 Eq. injection Eq as Ek _. now elim Nk.
Qed.

Lemma between_dep A B o y todo st st1 :
  shrinks (s_env st) (s_env st1) -> NJ (s_env st) -> nodollar_paths (s_env st1) ->
  find_setup_product w (s_env st1) y = None ->
  PJ (fun k => A k \/ targets (ASetup o y false :: todo) k) (s_env st1) ->
  AJ (fun k => B k \/ aliases_of (ASetup o y false :: todo) k) st1 ->
  between A B todo st1.
Proof.
  intros S1 HN D1 Ny P1 A1. split; [exact D1|]. split; [exact (NJ_shrinks _ _ S1 HN)|]. split.
  - intros k qk Rk Rq. destruct (P1 k qk Rk Rq) as [[Ak|[o0 [j0 [Eq|Hin]]]]|P];
      [left; now left| |left; right; now exists o0, j0|now right].
    injection Eq as _ <- _. unfold rec_ in Rq. rewrite Ny in Rq. discriminate.
  - intros k v Zk E O. destruct (A1 k v Zk E O) as [[Bk|[v1 [Eq|Hin]]]|P];
      [left; now left|discriminate|left; right; now exists v1|now right].
Qed.

Lemma run_unwind (rec : setup_fn) (A B : str -> Prop) x q depth :
  unwind_fn rec -> has_name x q -> reach x ->
  (forall o y j, In (ASetup o y j) (p_actions q) -> j = false) ->
  forall acts, (forall a, In a acts -> In a (p_actions q)) ->
  forall st ds, between A B acts st -> run_post A B st (run_actions cfg rec false depth false acts st ds).
Proof.
  intros HU Hq Rx Hj acts Hsub st0 ds0 HI0.
  refine (run_actions_rule cfg rec false depth false (p_actions q)
            (fun todo st => shrinks (s_env st0) (s_env st) /\ between A B todo st) (run_post A B st0)
            I I _ _ _ _ acts Hsub st0 ds0 (conj (shrinks_refl _) HI0)).
  - intros st ds [S [D [_ [HP HA]]]]. split; [exact S|]. split; [exact D|]. split.
    + apply (PJ_mono _ A) in HP; [exact HP|]. intros k [Ak|[o [j []]]]. exact Ak.
    + apply (AJ_mono _ B) in HA; [exact HA|]. intros k [Bk|[v []]]. exact Bk.
  - intros a todo st ds Ha Hns [S HI].
    destruct (between_simple A B x q a todo st Hq Ha Hns HI) as [st1 [E [S1 HI1]]]. rewrite E.
    exact (conj (shrinks_trans _ _ _ S S1) HI1).
  - intros o m j todo st Hc. rewrite cut_off_plain in Hc. discriminate.
  - intros o y j todo st ds Ha _ [Sh [Hnd [HN [HP HA]]]]. pose proof (Hj o y j Ha) as ->.
    pose proof (HU _ _ st ds y (S depth) (reach_step x q o y false Rx Hq Ha) Hnd HN HP HA) as C.
    destruct (rec st ds y false (S depth) false) as [ok st' ds'|st' ds'| |]; cbn [unwind_post] in C;
      try exact I; try contradiction.
    destruct C as [S1 [D1 [Ny [P1 [A1 Eqst]]]]].
    pose proof (conj (shrinks_trans _ _ _ Sh S1) (between_dep A B o y todo st st' S1 HN D1 Ny P1 A1)) as Next.
    destruct ok; [exact Next|]. cbn [andb]. now rewrite <- (Eqst eq_refl).
Qed.

Lemma run_actions_done_true (rec : setup_fn) fwd depth just acts :
  forall st ds ok st' ds', run_actions cfg rec fwd depth just acts st ds = RDone ok st' ds' -> ok = true.
Proof.
  intros st ds ok st' ds' E.
  assert (R : match run_actions cfg rec fwd depth just acts st ds with RDone ok _ _ => ok = true | _ => True end).
  { apply (run_actions_rule cfg rec fwd depth just acts (fun _ _ => True)
             (fun r => match r with RDone ok _ _ => ok = true | _ => True end)); auto using incl_refl.
    - intros a todo st0 ds0 _ _ _. now destruct (exec_simple fwd a st0).
    - intros o m j todo st0 ds0 _ _ _.
      destruct (rec st0 ds0 m fwd (S depth) j) as [[|] ? ?|? ?| |]; try exact I; now destruct (fwd && negb o). }
  now rewrite E in R.
Qed.

Lemma between_start A B x q st :
  find_setup_product w (s_env st) x = Some q ->
  nodollar_paths (s_env st) -> NJ (s_env st) -> PJ A (s_env st) -> AJ B st ->
  shrinks (s_env st) (s_env (unset_product_vars st x)) /\
  find_setup_product w (s_env (unset_product_vars st x)) x = None /\
  between A B (p_actions q) (unset_product_vars st x).
Proof.
  intros Hs Hnd HN HP HA.
  pose proof (known_has_name w x q (find_setup_product_spec w _ _ _ Hs)) as Kx.
  set (st1 := unset_product_vars st x).
  destruct (unset_product_vars_ok w dl (wf_base w dl rank H) (eq x) x st eq_refl Hnd) as [_ [D1 A1]]. fold st1 in D1, A1.
  assert (Nx : find_setup_product w (s_env st1) x = None).
  { apply find_none_when_unset, unset_vars_gone. now left. }
  (* the records of the other names stay *)
  assert (Other : forall n qn e, n <> x -> rec_ e n qn -> find_setup_product w (s_env st1) n = find_setup_product w (s_env st) n).
  { intros n qn e Nn R. pose proof (known_has_name w n qn (find_setup_product_spec w e n qn R)) as Kn.
    pose proof (reserved_apart w dl rank H n x Kn Kx Nn (setup_var n)) as Ap.
    unfold find_setup_product, st1. now rewrite (unset_vars_lookup x st (setup_var n)) by (apply Ap; auto). }
  assert (S1 : shrinks (s_env st) (s_env st1)).
  { intros k qk R. unfold rec_ in *. destruct (str_eq_dec k x) as [->|Nk]; [rewrite Nx in R; discriminate|].
    now rewrite <- (Other k qk _ Nk R). }
  assert (Keep : forall n qn, n <> x -> rec_ (s_env st) n qn -> rec_ (s_env st1) n qn).
  { intros n qn Nn R. unfold rec_ in *. now rewrite (Other n qn _ Nn R). }
  split; [exact S1|]. split; [exact Nx|]. split; [exact D1|]. split; [exact (NJ_shrinks _ _ S1 HN)|]. split.
  - intros k qk Rk Rq. destruct (HP k qk Rk (S1 k qk Rq)) as [Ak|[n [qn [o [j [Rn [Rqn Hin]]]]]]]; [left; now left|].
    destruct (str_eq_dec n x) as [->|Nn].
    + unfold rec_ in Rqn. rewrite Hs in Rqn. injection Rqn as <-. left. right. now exists o, j.
    + right. exists n, qn, o, j. split; [assumption|]. split; [now apply Keep|assumption].
  - intros k v Zk E O. rewrite A1 in E. destruct (HA k v Zk E O) as [Bk|[n [qn [v1 [Rn [Rqn Hin]]]]]]; [left; now left|].
    destruct (str_eq_dec n x) as [->|Nn].
    + rewrite Hs in Rqn. injection Rqn as <-. left. right. now exists v1.
    + right. exists n, qn, v1. split; [assumption|]. split; [exact (Keep n qn Nn Rqn)|assumption].
Qed.

Lemma unwind_step (rec : setup_fn) : unwind_fn rec -> unwind_fn (setup_step w cfg rec).
Proof.
  intros HU A B st ds x depth Rx Hnd HN HP HA. unfold setup_step.
  destruct (find_setup_product w (s_env st) x) as [q|] eqn:Hs.
  2:{ split; [apply shrinks_refl|]. split; [assumption|]. split; [assumption|]. auto. }
  destruct (between_start A B x q st Hs Hnd HN HP HA) as [S1 [Nx HI]].
  pose proof (run_unwind rec A B x q depth HU (find_setup_product_spec w _ _ _ Hs) Rx
                (fun o y j Hin => HN x q o y j Rx Hs Hin) (p_actions q) (incl_refl _) _ ds HI) as R.
  destruct (run_actions cfg rec false depth false (p_actions q) (unset_product_vars st x) ds)
    as [ok st' ds'|st' ds'| |] eqn:ER; cbn [run_post unwind_post] in *; auto.
  destruct R as [S' [D' [P' A']]].
  split; [exact (shrinks_trans _ _ _ S1 S')|]. split; [assumption|]. split; [|split; [assumption|split; [assumption|]]].
  - destruct (find_setup_product w (s_env st') x) as [qx|] eqn:E; [|reflexivity].
    pose proof (S' x qx E) as E1. unfold rec_ in E1. rewrite Nx in E1. discriminate.
  - intro Eok. rewrite (run_actions_done_true _ _ _ _ _ _ _ _ _ _ ER) in Eok. discriminate.
Qed.

Theorem unwind_setup fuel : unwind_fn (setup w cfg fuel).
Proof.
  induction fuel as [|fuel IH].
  - intros A B st ds x depth _ _ _ _ _. exact I.
  - cbn [setup]. now apply unwind_step.
Qed.

(* unsetup top: nothing reachable stays recorded, no accounted alias stays defined *)
Theorem unwind_clears fuel st1 ds ok st2 ds' :
  nodollar_paths (s_env st1) -> NJ (s_env st1) -> PJ (eq top) (s_env st1) -> AJ (fun _ => False) st1 ->
  setup w cfg fuel st1 ds top false 0 false = RDone ok st2 ds' ->
  (forall k, reach k -> find_setup_product w (s_env st2) k = None) /\
  (forall k v, Z k -> alookup k (s_aliases st2) = Some v -> ~ exists n, reach n /\ own_alias w n k) /\
  shrinks (s_env st1) (s_env st2).
Proof.
  intros Hnd HN HP HA E.
  assert (Rtop : reach top) by constructor.
  pose proof (unwind_setup fuel (eq top) (fun _ => False) st1 ds top 0 Rtop Hnd HN HP HA) as U.
  rewrite E in U. cbn [unwind_post] in U. destruct U as [Sh [D [Ntop [P [A _]]]]].
  (* a recorded reachable product has a recorded reachable parent, of higher rank: by induction on the distance
     of the rank from that of top, which is not recorded *)
  assert (Clear : forall m k q, rank top <= rank k + m -> reach k -> rec_ (s_env st2) k q -> False).
  { induction m as [|m IH]; intros k q Hd Rk Rq.
    - rewrite Nat.add_0_r in Hd. destruct (touches_rank w dl rank H None top k Rk) as [->|Lt].
      + unfold rec_ in Rq. rewrite Ntop in Rq. discriminate.
      + exact (Nat.lt_irrefl _ (Nat.lt_le_trans _ _ _ Lt Hd)).
    - destruct (P k q Rk Rq) as [<-|[n [qn [o [j [Rn [Rqn Hin]]]]]]].
      + unfold rec_ in Rq. rewrite Ntop in Rq. discriminate.
      + assert (Lt : rank k < rank n).
        { apply (wf_rank w dl rank H n k). exists qn, o, j. split; [|assumption].
          exact (find_setup_product_spec w _ _ _ Rqn). }
        rewrite Nat.add_succ_r in Hd.
        exact (IH n qn (Nat.le_trans _ _ _ Hd (proj1 (Nat.add_le_mono_r (S (rank k)) (rank n) m) Lt)) Rn Rqn). }
  assert (None_ : forall k, reach k -> find_setup_product w (s_env st2) k = None).
  { intros k Rk. destruct (find_setup_product w (s_env st2) k) as [q|] eqn:Eq; [|reflexivity].
    elim (Clear (rank top) k q (Nat.le_add_l _ _) Rk Eq). }
  split; [exact None_|]. split; [|exact Sh].
  intros k v Zk Ek O. destruct (A k v Zk Ek O) as [[]|[n [q [v1 [Rn [Rq _]]]]]].
  rewrite (None_ n Rn) in Rq. discriminate.
Qed.

End Unwind.
