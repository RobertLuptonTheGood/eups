(* The frame theorem of Proofs/SetupFrame.v with a reachability relation that reads the -j flag of the table lines
   (C04): a line  setupRequired(foo -j)  reaches foo and nothing below foo - when the owner of the line is set up,
   and equally when it is unset up or replaced by another version (Action.processArgs hands noRecursion to
   Eups.setup in both directions).  The dependencies of foo that the owner does not list itself are therefore
   outside the reach of a request for the owner: bystanders. *)
From Eupsv Require Import Base.Base Base.BaseLemmas Model.PathAlg Proofs.PathAlg Model.Setup Proofs.SetupFrame.

Section FrameJ.
Variable w : world.
Variable cfg : config.
Variable dl : str -> ascii.

Notation has_name := (has_name w).
Notation nodollar_paths := (nodollar_paths w).
Notation levels := (levels cfg).
Notation depth_ok := (depth_ok cfg).
Notation good := (good w dl).

(* n has a line for m, with (j = true) or without -j *)
Definition dep_edge_j (n m : str) (j : bool) : Prop :=
  exists p opt, has_name n p /\ In (ASetup opt m j) (p_actions p).

(* reachable within a budget of levels; below a -j line the budget is 0 *)
Inductive touches_j : option nat -> str -> str -> Prop :=
| tj_self b n : touches_j b n n
| tj_dep b n m j k : positive b -> dep_edge_j n m j ->
                     touches_j (if j then Some 0 else dec b) m k -> touches_j b n k.

Lemma touches_j_mono a n k : touches_j a n k -> forall b, ble a b -> touches_j b n k.
Proof.
  induction 1 as [a n|a n m j k Hp He Ht IH]; intros b Hb; [constructor|].
  apply (tj_dep b n m j k); [now apply (ble_positive a)|assumption|].
  apply IH. destruct j; [apply ble_refl|now apply ble_dec].
Qed.

(* the finer relation is included in the one of Proofs/SetupFrame.v *)
Lemma touches_j_touches b n k : touches_j b n k -> touches w b n k.
Proof.
  induction 1 as [b n|b n m j k Hp [p [o [Hn Hin]]] Ht IH]; [constructor|].
  apply (t_dep w b n m k Hp).
  - exists p, o, j. split; assumption.
  - destruct j; [|assumption]. apply (touches_mono w (Some 0)); [assumption|].
    destruct b as [x|]; simpl; [apply Nat.le_0_l|exact I].
Qed.

(* below a -j line: the product itself *)
Lemma touches_j_zero n k : touches_j (Some 0) n k -> k = n.
Proof. inversion 1 as [|b n0 m j k0 Hp]; subst; [reflexivity|]. elim (Nat.lt_irrefl 0 Hp). Qed.

Definition fn_ok_j (rec : setup_fn) : Prop :=
  forall st ds name fwd depth just, nodollar_paths (s_env st) -> depth_ok depth ->
    good (touches_j (levels depth just) name) st (rec st ds name fwd depth just).

Theorem setup_frame_j (H : WF w dl) fuel : fn_ok_j (setup w cfg fuel).
Proof.
  exact (setup_frames w cfg dl touches_j tj_self touches_j_mono
           (fun b n p o m j k Hpos Hp Ha => tj_dep b n m j k Hpos (ex_intro _ p (ex_intro _ o (conj Hp Ha)))) H fuel).
Qed.

End FrameJ.
