(* Level B of the record codec (C16): reading what the writers print.
   vf_read_lines: reading the text of a well-formed version record gives its normal form;
   cf_read_lines: the same for chain records.  Then: the normal form is stable under a second
   round trip (but for an absent product directory), and what trimming leaves alone. *)
From Eupsv Require Import Base.Base Base.BaseLemmas Model.Paths Model.Records Proofs.RecordsLib.
From Coq Require Import Lia.

(* (FIELD, key, value) for every line of a block, in file order *)
Definition printed_of (i : info) (fk : str * str) : list (str * str * str) :=
  let (field, k) := fk in
  match alookup k i with
  | None => []
  | Some v =>
      if truthy v then [(field, k, val_str v)]
      else if str_eqb k k_productDir || str_eqb k k_table_file then [(field, k, s_none)] else []
  end.

Definition printed (i : info) : list (str * str * str) := flat_map (printed_of i) vf_fields.

Definition base_info (i : info) : info :=
  map (fun t : str * str * str => (snd (fst t), Some (snd t))) (printed i).

(* the block as it is read back: printed fields in file order, then the defaults that
   End: / Group: fills in *)
Definition norm_info (i : info) : info := close_block (base_info i).

Definition norm (r : vfile) : vfile :=
  {| vf_name := vf_name r; vf_version := vf_version r;
     vf_info := map (fun fi : str * info => (fst fi, norm_info (snd fi))) (vf_info r) |}.

Lemma flat_map_pointwise {A B C} (F : A -> list C) (P : A -> list B) (g : B -> C) L :
  (forall x, F x = map g (P x)) -> flat_map F L = map g (flat_map P L).
Proof.
  intro H. induction L as [|x L IH]; [reflexivity|]. cbn. now rewrite map_app, H, IH.
Qed.

(* Both writers go through a table of (FIELD, key) and print at most one line per entry, under the
   entry's own names.  For such a P the keys printed over a table L are keys of L, each once. *)
Definition one_line {A} (P : str * str -> list (str * str * A)) : Prop :=
  forall fk, P fk = [] \/ exists s, P fk = [(fst fk, snd fk, s)].

Lemma one_line_in {A} (P : str * str -> list (str * str * A)) L F k s :
  one_line P -> In (F, k, s) (flat_map P L) -> In (F, k) L.
Proof.
  intros HP H. apply in_flat_map in H. destruct H as [[F' k'] [Hin H]].
  destruct (HP (F', k')) as [E|[s' E]]; rewrite E in H; [destruct H|].
  destruct H as [[= <- <- _]|[]]. exact Hin.
Qed.

Lemma one_line_keys_sub {A} (P : str * str -> list (str * str * A)) L k :
  one_line P -> In k (map (fun t : str * str * A => snd (fst t)) (flat_map P L)) -> In k (map snd L).
Proof.
  intros HP H. apply in_map_iff in H. destruct H as [[[F k'] s] [<- H]].
  exact (in_map snd _ _ (one_line_in P L F k' s HP H)).
Qed.

Lemma one_line_keys_nodup {A} (P : str * str -> list (str * str * A)) L :
  one_line P -> NoDup (map snd L) ->
  NoDup (map (fun t : str * str * A => snd (fst t)) (flat_map P L)).
Proof.
  intro HP. induction L as [|fk L IH]; intro N; [constructor|]. cbn [flat_map map] in *.
  inversion N as [|? ? N1 N2]; subst. rewrite map_app.
  destruct (HP fk) as [->|[s ->]]; [now apply IH|].
  cbn. constructor; [|now apply IH]. intro H. apply N1. now apply (one_line_keys_sub P L).
Qed.

Lemma fold_aset_fresh {A V} (key : A -> str) (value : A -> V) (l : list A) (acc : amap V) :
  NoDup (map key l) -> (forall k, In k (map key l) -> ~ In k (akeys acc)) ->
  fold_left (fun a t => aset (key t) (value t) a) l acc = acc ++ map (fun t => (key t, value t)) l.
Proof.
  revert acc. induction l as [|t l IH]; intros acc N D; [now rewrite app_nil_r|].
  cbn [fold_left map] in *. inversion N as [|? ? N1 N2]; subst.
  rewrite aset_fresh by (apply D; now left).
  rewrite IH; [now rewrite <- app_assoc| assumption |].
  intros k' Hk'. rewrite akeys_app, in_app_iff. cbn. intros [H|[H|[]]].
  - exact (D k' (or_intror Hk') H).
  - subst. contradiction.
Qed.

Lemma mem_str5_false k a b c d e : mem_str k [a; b; c; d; e] = false ->
  str_eqb k a = false /\ str_eqb k b = false /\ str_eqb k c = false /\ str_eqb k d = false /\
  str_eqb k e = false.
Proof.
  cbn [mem_str]. intro H.
  destruct (str_eqb k a); [discriminate|]. destruct (str_eqb k b); [discriminate|].
  destruct (str_eqb k c); [discriminate|]. destruct (str_eqb k d); [discriminate|].
  destruct (str_eqb k e); [discriminate|]. auto.
Qed.

Fixpoint nodupb (l : list str) : bool :=
  match l with
  | [] => true
  | x :: r => negb (mem_str x r) && nodupb r
  end.

Lemma nodupb_NoDup l : nodupb l = true -> NoDup l.
Proof.
  induction l as [|x l IH]; [constructor|]. cbn. intro H. apply andb_true_iff in H.
  destruct H as [H1 H2]. apply negb_true_iff in H1. constructor; [now apply mem_str_not_In|auto].
Qed.

Lemma field_lines_printed i :
  field_lines i = map (fun t : str * str * str => kv_line (fst (fst t)) (snd t)) (printed i).
Proof.
  unfold field_lines, printed. apply flat_map_pointwise. intros [field k]. unfold printed_of.
  destruct (alookup k i) as [v|]; [|reflexivity].
  destruct v as [[|c s]|]; cbn [truthy val_str]; try reflexivity;
    destruct (str_eqb k k_productDir || str_eqb k k_table_file); reflexivity.
Qed.

Lemma printed_one i : one_line (printed_of i).
Proof.
  intros [F k]. unfold printed_of. destruct (alookup k i) as [v|]; [|now left].
  destruct (truthy v); [right; eauto|].
  destruct (str_eqb k k_productDir || str_eqb k k_table_file); [right; eauto|now left].
Qed.

Definition key_map (key : str) : str :=
  if str_eqb key (lit "prod_dir") then k_productDir else key.

Definition special_keys : list str :=
  [lit "file"; lit "product"; k_version; lit "flavor"; lit "qualifiers"].

Definition field_ok (fk : str * str) : bool :=
  word (fst fk) && str_eqb (key_map (lower_str (fst fk))) (snd fk) && negb (mem_str (snd fk) special_keys).

Lemma vf_fields_ok : forallb field_ok vf_fields = true.
Proof. vm_compute. reflexivity. Qed.

Lemma field_ok_of F k : In (F, k) vf_fields -> field_ok (F, k) = true.
Proof. intro H. exact (proj1 (forallb_forall _ _) vf_fields_ok _ H). Qed.

Lemma vf_fields_keys_nodup : NoDup (map snd vf_fields).
Proof. apply nodupb_NoDup. reflexivity. Qed.

Lemma printed_keys_nodup i : NoDup (map (fun t : str * str * str => snd (fst t)) (printed i)).
Proof. apply one_line_keys_nodup; [apply printed_one|apply vf_fields_keys_nodup]. Qed.

Lemma akeys_base_info i : akeys (base_info i) = map (fun t : str * str * str => snd (fst t)) (printed i).
Proof. unfold base_info, akeys. rewrite map_map. reflexivity. Qed.

Definition wf_info (i : info) : bool :=
  forallb (fun t : str * str * str => wf_value (snd t)) (printed i).

Definition wf_flavor (f : str) : bool := wf_value f && negb (mem_ascii c_colon f).

Lemma wf_flavor_value f : wf_flavor f = true -> wf_value f = true.
Proof. intro H. apply andb_true_iff in H. tauto. Qed.

Definition wf_val (v : val) : bool := match v with Some s => wf_value s | None => false end.

Definition wf_vfile (r : vfile) : bool :=
  wf_val (vf_name r) && wf_val (vf_version r) &&
  forallb wf_flavor (akeys (vf_info r)) && forallb wf_info (map snd (vf_info r)) &&
  nodupb (akeys (vf_info r)).

Lemma vf_step_field n v f D p F k s :
  field_ok (F, k) = true -> wf_value s = true -> ~ In f (akeys D) ->
  vf_step {| rs_name := n; rs_version := v; rs_flavor := Some f; rs_info := D ++ [(f, p)] |}
          (CKV (lower_str F) s)
  = Ok {| rs_name := n; rs_version := v; rs_flavor := Some f;
          rs_info := D ++ [(f, aset k (Some s) p)] |}.
Proof.
  intros Hok Hs Hf. unfold field_ok in Hok. cbn [fst snd] in Hok.
  apply andb_true_iff in Hok. destruct Hok as [Hok H3]. apply andb_true_iff in Hok.
  destruct Hok as [_ H2]. apply negb_true_iff in H3. apply str_eqb_eq in H2.
  apply mem_str5_false in H3. destruct H3 as [E1 [E2 [E3 [E4 E5]]]].
  apply wf_value_no_quotes in Hs.
  unfold vf_step. fold (key_map (lower_str F)). rewrite H2, E1, E2, E3, E4, E5.
  rewrite unquote2_id by assumption. cbn [rs_flavor rs_info rs_name rs_version].
  rewrite amem_alookup, alookup_last by assumption. now rewrite aupd_last.
Qed.

Definition cl_field (t : str * str * str) : cline := CKV (lower_str (fst (fst t))) (snd t).

Lemma vf_steps_fields n v f D (l : list (str * str * str)) p :
  (forall F k s, In (F, k, s) l -> field_ok (F, k) = true /\ wf_value s = true) ->
  ~ In f (akeys D) ->
  vf_steps {| rs_name := n; rs_version := v; rs_flavor := Some f; rs_info := D ++ [(f, p)] |}
           (map cl_field l)
  = Ok {| rs_name := n; rs_version := v; rs_flavor := Some f;
          rs_info := D ++ [(f, fold_left (fun a (t : str * str * str) =>
                                            aset (snd (fst t)) (Some (snd t)) a) l p)] |}.
Proof.
  revert p. induction l as [|[[F k] s] l IH]; intros p H Hf; [reflexivity|].
  cbn [map vf_steps]. unfold cl_field at 1. cbn [fst snd].
  destruct (H F k s (or_introl eq_refl)) as [H1 H2].
  rewrite (vf_step_field n v f D p F k s) by assumption. cbn [bind fold_left fst snd].
  apply IH; [|assumption]. intros F' k' s' Hin. apply H. now right.
Qed.

Lemma vf_steps_app st a b :
  vf_steps st (a ++ b) = bind (vf_steps st a) (fun st' => vf_steps st' b).
Proof.
  revert st. induction a as [|c a IH]; intro st; [reflexivity|]. cbn [app vf_steps].
  destruct (vf_step st c); [|reflexivity]. cbn [bind]. apply IH.
Qed.

Definition cl_block (fi : str * info) : list cline :=
  [CBlank; CGroupEnd; CKV (lit "flavor") (fst fi); CKV (lit "qualifiers") [c_dquote; c_dquote]]
  ++ map cl_field (printed (snd fi)).

Lemma classify_blank : vf_classify [] = CBlank.
Proof. reflexivity. Qed.
Lemma classify_group : vf_classify (lit "Group:") = CGroupEnd.
Proof. reflexivity. Qed.
Lemma classify_end : vf_classify (lit "End:") = CGroupEnd.
Proof. reflexivity. Qed.
Lemma classify_stars : vf_classify s_stars = CBlank.
Proof. reflexivity. Qed.
Lemma classify_file : vf_classify (lit "FILE = version") = CKV (lit "file") (lit "version").
Proof. reflexivity. Qed.

Lemma classify_qualifiers :
  vf_classify (lit "   QUALIFIERS = " ++ c_dquote :: [] ++ [c_dquote])
  = CKV (lit "qualifiers") [c_dquote; c_dquote].
Proof. reflexivity. Qed.

Lemma classify_kv_line F s : word F = true -> wf_value s = true ->
  vf_classify (kv_line F s) = CKV (lower_str F) s.
Proof.
  intros HF Hs. apply wf_value_parts in Hs. destruct Hs as [H1 [H2 [_ H4]]].
  unfold kv_line. apply (vf_classify_kv (lit "   ")); auto.
Qed.

Lemma classify_head (F : str) s : word F = true -> wf_value s = true ->
  vf_classify (F ++ lit " = " ++ s) = CKV (lower_str F) s.
Proof.
  intros HF Hs. apply wf_value_parts in Hs. destruct Hs as [H1 [H2 [_ H4]]].
  apply (vf_classify_kv []); auto.
Qed.

Lemma flavor_qualifier_plain f : wf_flavor f = true -> flavor_qualifier f = Some (f, []).
Proof.
  unfold wf_flavor. intro H. apply andb_true_iff in H. destruct H as [H1 H2].
  apply negb_true_iff in H2. apply wf_value_nonempty in H1. destruct H1 as [c [r ->]].
  unfold flavor_qualifier.
  assert (E : forall x, mem_ascii c_colon x = false -> split_colon x = (x, None)).
  { induction x as [|a x IH]; [reflexivity|]. rewrite mem_ascii_cons. intro H.
    apply orb_false_iff in H. destruct H as [Ha Hx]. cbn. rewrite ascii_eqb_sym, Ha.
    now rewrite IH. }
  now rewrite E.
Qed.

Lemma map_classify_fields i :
  wf_info i = true ->
  map vf_classify (field_lines i) = map cl_field (printed i).
Proof.
  intro H. rewrite field_lines_printed, map_map. apply map_ext_in. intros [[F k] s] Hin.
  cbn [fst snd]. unfold cl_field. cbn [fst snd].
  apply classify_kv_line.
  - apply (one_line_in _ _ _ _ _ (printed_one i)), field_ok_of in Hin. unfold field_ok in Hin.
    cbn [fst] in Hin. apply andb_true_iff in Hin. destruct Hin as [Hin _].
    apply andb_true_iff in Hin. tauto.
  - unfold wf_info in H. exact (proj1 (forallb_forall _ _) H _ Hin).
Qed.

Lemma vf_blocks_classified m :
  forallb wf_flavor (akeys m) = true -> forallb wf_info (map snd m) = true ->
  exists bl, vf_blocks m = Ok bl /\ map vf_classify bl = flat_map cl_block m.
Proof.
  induction m as [|[f i] m IH]; intros Hf Hi; [now exists []|].
  cbn [akeys map forallb fst snd] in *. apply andb_true_iff in Hf, Hi.
  destruct Hf as [Hf1 Hf2]. destruct Hi as [Hi1 Hi2].
  destruct (IH Hf2 Hi2) as [bl [E1 E2]].
  cbn [vf_blocks]. rewrite flavor_qualifier_plain, E1 by assumption. cbn [bind].
  eexists. split; [reflexivity|].
  rewrite !map_app, E2, map_classify_fields by assumption. cbn [flat_map cl_block fst snd].
  unfold block_head. cbn [map].
  rewrite classify_blank, classify_group, classify_qualifiers.
  rewrite classify_kv_line; [reflexivity|reflexivity|].
  now apply wf_flavor_value.
Qed.

Definition close_last (last : amap info) : amap info :=
  map (fun fi : str * info => (fst fi, close_block (snd fi))) last.

Definition last_flavor (fl : option str) (last : amap info) : Prop :=
  match last with
  | [] => fl = None
  | [(g, _)] => fl = Some g /\ g <> []
  | _ => False
  end.

Lemma vf_step_group_end n v fl D last :
  last_flavor fl last -> (forall g, In g (akeys last) -> ~ In g (akeys D)) ->
  vf_step {| rs_name := n; rs_version := v; rs_flavor := fl; rs_info := D ++ last |} CGroupEnd
  = Ok {| rs_name := n; rs_version := v; rs_flavor := fl; rs_info := D ++ close_last last |}.
Proof.
  intros HL HD. destruct last as [|[g pg] [|]]; cbn in HL; try contradiction.
  - subst. reflexivity.
  - destruct HL as [-> Ng]. destruct g as [|c g]; [congruence|].
    cbn [vf_step rs_flavor rs_info rs_name rs_version close_last map fst snd].
    rewrite aupd_last; [reflexivity|]. apply HD. now left.
Qed.

Lemma vf_step_blank st : vf_step st CBlank = Ok st.
Proof. reflexivity. Qed.

Lemma vf_step_flavor st f :
  vf_step st (CKV (lit "flavor") f)
  = Ok {| rs_name := rs_name st; rs_version := rs_version st; rs_flavor := Some (unquote1 f);
          rs_info := if amem (unquote1 f) (rs_info st) then rs_info st
                     else rs_info st ++ [(unquote1 f, [])] |}.
Proof. reflexivity. Qed.

Lemma vf_step_no_qualifiers st : vf_step st (CKV (lit "qualifiers") [c_dquote; c_dquote]) = Ok st.
Proof. reflexivity. Qed.

Lemma vf_steps_block n v fl D last f i :
  last_flavor fl last -> (forall g, In g (akeys last) -> ~ In g (akeys D)) ->
  wf_flavor f = true -> wf_info i = true ->
  ~ In f (akeys D) -> ~ In f (akeys last) ->
  vf_steps {| rs_name := n; rs_version := v; rs_flavor := fl; rs_info := D ++ last |}
           (cl_block (f, i))
  = Ok {| rs_name := n; rs_version := v; rs_flavor := Some f;
          rs_info := (D ++ close_last last) ++ [(f, base_info i)] |}.
Proof.
  intros HL HD Hf Hi Nf1 Nf2. unfold cl_block. cbn [fst snd app vf_steps].
  rewrite vf_step_blank. cbn [bind]. rewrite vf_step_group_end by assumption. cbn [bind].
  pose proof (wf_flavor_value f Hf) as Hv.
  pose proof (wf_value_no_quotes f Hv) as Hq.
  assert (Nf : ~ In f (akeys (D ++ close_last last))).
  { rewrite akeys_app, in_app_iff. intros [H|H]; [tauto|]. apply Nf2.
    unfold close_last, akeys in *. rewrite map_map in H. exact H. }
  rewrite vf_step_flavor, unquote1_id by assumption. cbn [rs_name rs_version rs_flavor rs_info].
  rewrite amem_alookup, (proj2 (alookup_None_notin f _) Nf). cbn [bind].
  rewrite vf_step_no_qualifiers. cbn [bind].
  rewrite vf_steps_fields; [|intros F k s Hin; split|assumption].
  - rewrite (fold_aset_fresh (fun t : str * str * str => snd (fst t)) (fun t => Some (snd t)));
      [reflexivity|apply printed_keys_nodup|intros k _ []].
  - apply field_ok_of. exact (one_line_in _ _ _ _ _ (printed_one i) Hin).
  - unfold wf_info in Hi. exact (proj1 (forallb_forall _ _) Hi _ Hin).
Qed.

Lemma akeys_close_last last : akeys (close_last last) = akeys last.
Proof. unfold close_last, akeys. rewrite map_map. reflexivity. Qed.

Lemma vf_steps_blocks n v m : forall fl D last,
  last_flavor fl last -> (forall g, In g (akeys last) -> ~ In g (akeys D)) ->
  forallb wf_flavor (akeys m) = true -> forallb wf_info (map snd m) = true ->
  NoDup (akeys m) ->
  (forall g, In g (akeys m) -> ~ In g (akeys D) /\ ~ In g (akeys last)) ->
  exists fl',
  vf_steps {| rs_name := n; rs_version := v; rs_flavor := fl; rs_info := D ++ last |}
           (flat_map cl_block m ++ [CGroupEnd])
  = Ok {| rs_name := n; rs_version := v; rs_flavor := fl';
          rs_info := D ++ close_last last ++
                     map (fun fi : str * info => (fst fi, norm_info (snd fi))) m |}.
Proof.
  induction m as [|[f i] m IH]; intros fl D last HL HD Hf Hi ND Hfresh.
  - exists fl. cbn [flat_map app vf_steps]. rewrite vf_step_group_end by assumption.
    cbn [bind map]. now rewrite app_nil_r.
  - cbn [akeys map forallb fst snd] in *. apply andb_true_iff in Hf, Hi.
    destruct Hf as [Hf1 Hf2]. destruct Hi as [Hi1 Hi2]. inversion ND as [|? ? N1 N2]; subst.
    destruct (Hfresh f (or_introl eq_refl)) as [Fr1 Fr2].
    cbn [flat_map]. rewrite <- app_assoc, vf_steps_app.
    rewrite vf_steps_block by assumption. cbn [bind].
    pose proof (wf_flavor_value f Hf1) as Hv.
    destruct (wf_value_nonempty f Hv) as [c [r Ef]].
    destruct (IH (Some f) (D ++ close_last last) [(f, base_info i)]) as [fl' E]; try assumption.
    + cbn. split; [reflexivity|]. rewrite Ef. discriminate.
    + intros g [<-|[]]. rewrite akeys_app, in_app_iff, akeys_close_last. tauto.
    + intros g Hg. destruct (Hfresh g (or_intror Hg)) as [G1 G2]. split.
      * rewrite akeys_app, in_app_iff, akeys_close_last. tauto.
      * cbn. intros [<-|[]]. contradiction.
    + exists fl'. rewrite E. cbn [close_last map fst snd]. unfold norm_info.
      now rewrite <- !app_assoc.
Qed.

Lemma vf_step_file st : vf_step st (CKV (lit "file") (lit "version")) = Ok st.
Proof. reflexivity. Qed.

Lemma vf_step_product st n : no_quote_ends n = true ->
  vf_step st (CKV (lit "product") n)
  = Ok {| rs_name := if truthy (rs_name st) then rs_name st else Some n;
          rs_version := rs_version st; rs_flavor := rs_flavor st; rs_info := rs_info st |}.
Proof. intro H. cbn. now rewrite unquote1_id. Qed.

Lemma vf_step_version st v : no_quote_ends v = true ->
  vf_step st (CKV (lit "version") v)
  = Ok {| rs_name := rs_name st;
          rs_version := if truthy (rs_version st) then rs_version st else Some v;
          rs_flavor := rs_flavor st; rs_info := rs_info st |}.
Proof. intro H. cbn. now rewrite unquote1_id. Qed.

(* the reader keeps a name it was given and takes the one in the file otherwise *)
Lemma given_or_read (n0 : val) n : n0 = None \/ n0 = Some n -> (if truthy n0 then n0 else Some n) = Some n.
Proof. intros [-> | ->]; [reflexivity|]. now destruct (truthy (Some n)). Qed.

Lemma vf_read_lines r :
  wf_vfile r = true -> vf_info r <> [] ->
  exists lines, vf_lines r = Ok lines /\
    forall n0 v0, (n0 = None \/ n0 = vf_name r) -> (v0 = None \/ v0 = vf_version r) ->
      vf_read n0 v0 lines = Ok (norm r).
Proof.
  unfold wf_vfile. intros H Hne. rewrite !andb_true_iff in H. destruct H as [[[[Hn Hv] Hf] Hi] Hnd].
  destruct (vf_name r) as [n|] eqn:En; [|discriminate].
  destruct (vf_version r) as [v|] eqn:Ev; [|discriminate]. cbn [wf_val] in Hn, Hv.
  destruct (vf_blocks_classified (vf_info r) Hf Hi) as [bl [E1 E2]].
  unfold vf_lines. destruct (vf_info r) as [|b m] eqn:Em; [congruence|]. rewrite <- Em in *.
  rewrite E1. cbn [bind]. eexists. split; [reflexivity|].
  intros n0 v0 Hn0 Hv0. unfold vf_read. rewrite En, Ev. cbn [show_val].
  rewrite !map_app, E2. cbn [map app].
  rewrite classify_file, classify_stars, classify_end.
  change (lit "PRODUCT = " ++ n) with (lit "PRODUCT" ++ lit " = " ++ n).
  change (lit "VERSION = " ++ v) with (lit "VERSION" ++ lit " = " ++ v).
  rewrite (classify_head (lit "PRODUCT") n), (classify_head (lit "VERSION") v) by (reflexivity || assumption).
  change (lower_str (lit "PRODUCT")) with (lit "product").
  change (lower_str (lit "VERSION")) with (lit "version").
  pose proof (wf_value_no_quotes n Hn) as Hqn. pose proof (wf_value_no_quotes v Hv) as Hqv.
  cbn [vf_steps]. rewrite vf_step_file. cbn [bind].
  rewrite vf_step_product by assumption. cbn [bind].
  rewrite vf_step_version by assumption. cbn [bind rs_name rs_version rs_flavor rs_info].
  rewrite vf_step_blank. cbn [bind].
  destruct (vf_steps_blocks
              (if truthy n0 then n0 else Some n) (if truthy v0 then v0 else Some v)
              (vf_info r) None [] []) as [fl' E]; try assumption.
  - reflexivity.
  - intros g [].
  - now apply nodupb_NoDup.
  - intros g _. split; intros [].
  - cbn [app] in E. rewrite E, !given_or_read by assumption. cbn [bind close_last map app].
    unfold norm. now rewrite En, Ev.
Qed.

Lemma db_find_read ex n v f sd db ls r q :
  vf_read n v ls = Ok r -> make_product ex r f sd db = q -> db_find ex n v f sd db ls = Ok q.
Proof. intros E <-. unfold db_find. now rewrite E. Qed.

Definition cprinted_of (i : cinfo) (fk : str * str) : list (str * str * str) :=
  let (field, k) := fk in
  match alookup k i with
  | Some (c :: v) => [(field, k, c :: v)]
  | _ => []
  end.

Definition cprinted (i : cinfo) : list (str * str * str) := flat_map (cprinted_of i) cf_fields.

Definition cversion (i : cinfo) : str := match alookup k_version i with Some v => v | None => [] end.

(* a chain block as it is read back: the version first, then the non-empty fields in file order *)
Definition cnorm_info (i : cinfo) : cinfo :=
  (k_version, cversion i) :: map (fun t : str * str * str => (snd (fst t), snd t)) (cprinted i).

Definition cnorm (c : cfile) : cfile :=
  {| cf_name := cf_name c; cf_tag := cf_tag c;
     cf_info := map (fun fi : str * cinfo => (fst fi, cnorm_info (snd fi))) (cf_info c) |}.

Definition wf_cinfo (i : cinfo) : bool :=
  match alookup k_version i with Some v => wf_value v | None => false end &&
  forallb (fun t : str * str * str => wf_value (snd t)) (cprinted i).

Definition wf_cfile (c : cfile) : bool :=
  wf_val (cf_name c) && wf_val (cf_tag c) &&
  forallb wf_flavor (akeys (cf_info c)) && forallb wf_cinfo (map snd (cf_info c)) &&
  nodupb (akeys (cf_info c)).

Lemma cfield_lines_printed i :
  cfield_lines i = map (fun t : str * str * str => kv_line (fst (fst t)) (snd t)) (cprinted i).
Proof.
  unfold cfield_lines, cprinted. apply flat_map_pointwise. intros [field k]. unfold cprinted_of.
  destruct (alookup k i) as [[|c v]|]; reflexivity.
Qed.

Lemma cprinted_one i : one_line (cprinted_of i).
Proof.
  intros [F k]. unfold cprinted_of. destruct (alookup k i) as [[|c v]|]; [now left|right; eauto|now left].
Qed.

Definition cspecial_keys : list str :=
  [lit "file"; lit "product"; lit "chain"; lit "flavor"; lit "qualifiers"].

Definition cfield_ok (fk : str * str) : bool :=
  word (fst fk) && str_eqb (lower_str (fst fk)) (snd fk) && negb (mem_str (snd fk) cspecial_keys).

Lemma cf_fields_ok : forallb cfield_ok cf_fields = true.
Proof. vm_compute. reflexivity. Qed.

Lemma cfield_ok_of F k : In (F, k) cf_fields -> cfield_ok (F, k) = true.
Proof. intro H. exact (proj1 (forallb_forall _ _) cf_fields_ok _ H). Qed.

Lemma cf_fields_keys_nodup : NoDup (map snd cf_fields).
Proof. apply nodupb_NoDup. reflexivity. Qed.

Lemma cf_step_plain n t f D p k s :
  mem_str k cspecial_keys = false -> no_quote_ends s = true -> ~ In f (akeys D) ->
  cf_step {| cs_name := n; cs_tag := t; cs_flavor := Some f; cs_info := D ++ [(f, p)] |} (CKV k s)
  = Ok {| cs_name := n; cs_tag := t; cs_flavor := Some f; cs_info := D ++ [(f, aset k s p)] |}.
Proof.
  intros H3 Hq Hf. apply mem_str5_false in H3. destruct H3 as [E1 [E2 [E3 [E4 E5]]]].
  unfold cf_step. rewrite E1, E2, E3, E4, E5, strip_quotes_id by assumption.
  cbn [cs_flavor cs_info cs_name cs_tag].
  rewrite amem_alookup, alookup_last by assumption. now rewrite aupd_last.
Qed.

Lemma cf_steps_fields n t f D (l : list (str * str * str)) p :
  (forall F k s, In (F, k, s) l -> cfield_ok (F, k) = true /\ wf_value s = true) ->
  ~ In f (akeys D) ->
  cf_steps {| cs_name := n; cs_tag := t; cs_flavor := Some f; cs_info := D ++ [(f, p)] |}
           (map cl_field l)
  = Ok {| cs_name := n; cs_tag := t; cs_flavor := Some f;
          cs_info := D ++ [(f, fold_left (fun a (x : str * str * str) => aset (snd (fst x)) (snd x) a) l p)] |}.
Proof.
  revert p. induction l as [|[[F k] s] l IH]; intros p H Hf; [reflexivity|].
  cbn [map cf_steps]. unfold cl_field at 1. cbn [fst snd].
  destruct (H F k s (or_introl eq_refl)) as [H1 H2].
  unfold cfield_ok in H1. cbn [fst snd] in H1.
  apply andb_true_iff in H1. destruct H1 as [H1 H3].
  apply andb_true_iff in H1. destruct H1 as [_ H0].
  apply str_eqb_eq in H0. apply negb_true_iff in H3. rewrite H0.
  pose proof (wf_value_no_quotes s H2) as Hq.
  rewrite (cf_step_plain n t f D p k s) by assumption. cbn [bind fold_left fst snd].
  apply IH; [|assumption]. intros F' k' s' Hin. apply H. now right.
Qed.

Lemma cf_steps_app st a b :
  cf_steps st (a ++ b) = bind (cf_steps st a) (fun st' => cf_steps st' b).
Proof.
  revert st. induction a as [|c a IH]; intro st; [reflexivity|]. cbn [app cf_steps].
  destruct (cf_step st c); [|reflexivity]. cbn [bind]. apply IH.
Qed.

Definition ccl_block (fi : str * cinfo) : list cline :=
  [CBlank; CBlank; CKV (lit "flavor") (fst fi); CKV k_version (cversion (snd fi));
   CKV (lit "qualifiers") [c_dquote; c_dquote]]
  ++ map cl_field (cprinted (snd fi)) ++ [CBlank].

Lemma cclassify_kv_line F s : word F = true -> wf_value s = true ->
  cf_classify (kv_line F s) = CKV (lower_str F) s.
Proof.
  intros HF Hs. apply wf_value_parts in Hs. destruct Hs as [H1 _].
  unfold kv_line. apply (cf_classify_kv (lit "   ")); auto.
Qed.

Lemma cclassify_head (F : str) s : word F = true -> wf_value s = true ->
  cf_classify (F ++ lit " = " ++ s) = CKV (lower_str F) s.
Proof.
  intros HF Hs. apply wf_value_parts in Hs. destruct Hs as [H1 _].
  apply (cf_classify_kv []); auto.
Qed.

Lemma cmap_classify_fields i :
  forallb (fun t : str * str * str => wf_value (snd t)) (cprinted i) = true ->
  map cf_classify (cfield_lines i) = map cl_field (cprinted i).
Proof.
  intro H. rewrite cfield_lines_printed, map_map. apply map_ext_in. intros [[F k] s] Hin.
  cbn [fst snd]. unfold cl_field. cbn [fst snd].
  apply cclassify_kv_line.
  - apply (one_line_in _ _ _ _ _ (cprinted_one i)), cfield_ok_of in Hin. unfold cfield_ok in Hin.
    cbn [fst] in Hin. apply andb_true_iff in Hin. destruct Hin as [Hin _].
    apply andb_true_iff in Hin. tauto.
  - exact (proj1 (forallb_forall _ _) H _ Hin).
Qed.

Lemma cf_blocks_classified m :
  forallb wf_flavor (akeys m) = true -> forallb wf_cinfo (map snd m) = true ->
  exists bl, cf_blocks m = Ok bl /\ map cf_classify bl = flat_map ccl_block m.
Proof.
  induction m as [|[f i] m IH]; intros Hf Hi; [now exists []|].
  cbn [akeys map forallb fst snd] in *. apply andb_true_iff in Hf, Hi.
  destruct Hf as [Hf1 Hf2]. destruct Hi as [Hi1 Hi2].
  destruct (IH Hf2 Hi2) as [bl [E1 E2]].
  unfold wf_cinfo in Hi1. apply andb_true_iff in Hi1. destruct Hi1 as [Hv Hp].
  cbn [cf_blocks]. rewrite flavor_qualifier_plain by assumption.
  destruct (alookup k_version i) as [ver|] eqn:Ever; [|discriminate Hv].
  rewrite E1. cbn [bind]. eexists. split; [reflexivity|].
  cbn [flat_map]. unfold ccl_block at 1. cbn [fst snd].
  rewrite !map_app, E2, cmap_classify_fields by assumption.
  cbn [map app]. unfold cversion. rewrite Ever.
  change (cf_classify []) with CBlank.
  change (cf_classify (lit "#Group:")) with CBlank.
  change (cf_classify (lit "#End:")) with CBlank.
  change (cf_classify (lit "   QUALIFIERS = " ++ c_dquote :: [] ++ [c_dquote]))
    with (CKV (lit "qualifiers") [c_dquote; c_dquote]).
  rewrite !cclassify_kv_line; try reflexivity; try assumption.
  - now rewrite <- app_assoc.
  - now apply wf_flavor_value.
Qed.

Lemma bind_ok_eq {A B} (x : res A) (a : A) (k : A -> res B) r :
  x = Ok a -> k a = r -> bind x k = r.
Proof. intros -> <-. reflexivity. Qed.

Lemma cf_step_blank st : cf_step st CBlank = Ok st.
Proof. reflexivity. Qed.

Lemma cf_step_flavor st f :
  cf_step st (CKV (lit "flavor") f)
  = Ok {| cs_name := cs_name st; cs_tag := cs_tag st; cs_flavor := Some (strip_quotes f);
          cs_info := aset (strip_quotes f) [] (cs_info st) |}.
Proof. reflexivity. Qed.

Lemma cf_step_no_qualifiers st : cf_step st (CKV (lit "qualifiers") [c_dquote; c_dquote]) = Ok st.
Proof. reflexivity. Qed.

Lemma cf_steps_block n t fl D f i :
  wf_flavor f = true -> wf_cinfo i = true -> ~ In f (akeys D) ->
  cf_steps {| cs_name := n; cs_tag := t; cs_flavor := fl; cs_info := D |} (ccl_block (f, i))
  = Ok {| cs_name := n; cs_tag := t; cs_flavor := Some f; cs_info := D ++ [(f, cnorm_info i)] |}.
Proof.
  intros Hf Hi Nf. unfold ccl_block. cbn [fst snd app cf_steps].
  rewrite cf_step_blank. cbn [bind]. rewrite cf_step_blank. cbn [bind].
  pose proof (wf_flavor_value f Hf) as Hv.
  pose proof (wf_value_no_quotes f Hv) as Hq.
  unfold wf_cinfo in Hi. apply andb_true_iff in Hi. destruct Hi as [Hver Hp].
  rewrite cf_step_flavor, strip_quotes_id by assumption. cbn [cs_name cs_tag cs_flavor cs_info].
  rewrite aset_fresh by assumption. cbn [bind].
  unfold cversion. destruct (alookup k_version i) as [ver|] eqn:Ever; [|discriminate].
  pose proof (wf_value_no_quotes ver Hver) as Hqv.
  eapply bind_ok_eq; [apply (cf_step_plain n t f D [] k_version ver); (reflexivity || assumption)|].
  cbv beta. rewrite cf_step_no_qualifiers. cbn [bind].
  rewrite cf_steps_app, cf_steps_fields; [|intros F k s Hin; split|assumption].
  - cbn [bind cf_steps]. rewrite cf_step_blank. cbn [bind aset].
    rewrite (fold_aset_fresh (fun t : str * str * str => snd (fst t)) (fun t => snd t)).
    + unfold cnorm_info, cversion. now rewrite Ever.
    + apply one_line_keys_nodup; [apply cprinted_one|apply cf_fields_keys_nodup].
    + (* version is not the key of a field *)
      intros k Hk. cbn. intros [E|[]]. subst k.
      apply one_line_keys_sub, mem_str_In in Hk; [discriminate Hk|apply cprinted_one].
  - apply cfield_ok_of. exact (one_line_in _ _ _ _ _ (cprinted_one i) Hin).
  - exact (proj1 (forallb_forall _ _) Hp _ Hin).
Qed.

Lemma cf_steps_blocks n t m : forall fl D,
  forallb wf_flavor (akeys m) = true -> forallb wf_cinfo (map snd m) = true ->
  NoDup (akeys m) -> (forall g, In g (akeys m) -> ~ In g (akeys D)) ->
  exists fl',
  cf_steps {| cs_name := n; cs_tag := t; cs_flavor := fl; cs_info := D |} (flat_map ccl_block m)
  = Ok {| cs_name := n; cs_tag := t; cs_flavor := fl';
          cs_info := D ++ map (fun fi : str * cinfo => (fst fi, cnorm_info (snd fi))) m |}.
Proof.
  induction m as [|[f i] m IH]; intros fl D Hf Hi ND Hfresh.
  - exists fl. cbn. now rewrite app_nil_r.
  - cbn [akeys map forallb fst snd] in *. apply andb_true_iff in Hf, Hi.
    destruct Hf as [Hf1 Hf2]. destruct Hi as [Hi1 Hi2]. inversion ND as [|? ? N1 N2]; subst.
    cbn [flat_map]. rewrite cf_steps_app, cf_steps_block; try assumption.
    2:{ apply Hfresh. now left. }
    cbn [bind]. destruct (IH (Some f) (D ++ [(f, cnorm_info i)])) as [fl' E]; try assumption.
    + intros g Hg. rewrite akeys_app, in_app_iff. cbn. intros [H|[H|[]]].
      * exact (Hfresh g (or_intror Hg) H).
      * subst. contradiction.
    + exists fl'. rewrite E. now rewrite <- app_assoc.
Qed.

Lemma cf_step_file st : cf_step st (CKV (lit "file") (lit "version")) = Ok st.
Proof. reflexivity. Qed.

Lemma cf_step_product st n : no_quote_ends n = true ->
  cf_step st (CKV (lit "product") n)
  = Ok {| cs_name := if truthy (cs_name st) then cs_name st else Some n;
          cs_tag := cs_tag st; cs_flavor := cs_flavor st; cs_info := cs_info st |}.
Proof. intro H. cbn. now rewrite strip_quotes_id. Qed.

Lemma cf_step_chain st t : no_quote_ends t = true ->
  cf_step st (CKV (lit "chain") t)
  = Ok {| cs_name := cs_name st; cs_tag := if truthy (cs_tag st) then cs_tag st else Some t;
          cs_flavor := cs_flavor st; cs_info := cs_info st |}.
Proof. intro H. cbn. now rewrite strip_quotes_id. Qed.

Lemma cf_read_lines c :
  wf_cfile c = true -> cf_info c <> [] ->
  exists lines, cf_lines c = Ok lines /\
    forall n0 t0, (n0 = None \/ n0 = cf_name c) -> (t0 = None \/ t0 = cf_tag c) ->
      cf_read n0 t0 lines = Ok (cnorm c).
Proof.
  unfold wf_cfile. intros H Hne. rewrite !andb_true_iff in H. destruct H as [[[[Hn Ht] Hf] Hi] Hnd].
  destruct (cf_name c) as [n|] eqn:En; [|discriminate].
  destruct (cf_tag c) as [t|] eqn:Et; [|discriminate]. cbn [wf_val] in Hn, Ht.
  destruct (cf_blocks_classified (cf_info c) Hf Hi) as [bl [E1 E2]].
  unfold cf_lines. destruct (cf_info c) as [|b m] eqn:Em; [congruence|]. rewrite <- Em in *.
  rewrite E1. cbn [bind]. eexists. split; [reflexivity|].
  intros n0 t0 Hn0 Ht0. unfold cf_read. rewrite En, Et. cbn [show_val].
  rewrite !map_app, E2. cbn [map app].
  change (cf_classify (lit "FILE = version")) with (CKV (lit "file") (lit "version")).
  change (cf_classify s_stars) with CBlank.
  change (lit "PRODUCT = " ++ n) with (lit "PRODUCT" ++ lit " = " ++ n).
  change (lit "CHAIN = " ++ t) with (lit "CHAIN" ++ lit " = " ++ t).
  rewrite (cclassify_head (lit "PRODUCT") n), (cclassify_head (lit "CHAIN") t) by (reflexivity || assumption).
  change (lower_str (lit "PRODUCT")) with (lit "product").
  change (lower_str (lit "CHAIN")) with (lit "chain").
  pose proof (wf_value_no_quotes n Hn) as Hqn. pose proof (wf_value_no_quotes t Ht) as Hqt.
  cbn [cf_steps]. rewrite cf_step_file. cbn [bind].
  rewrite cf_step_product by assumption. cbn [bind].
  rewrite cf_step_chain by assumption. cbn [bind cs_name cs_tag cs_flavor cs_info].
  rewrite cf_step_blank. cbn [bind].
  destruct (cf_steps_blocks
              (if truthy n0 then n0 else Some n) (if truthy t0 then t0 else Some t)
              (cf_info c) None []) as [fl' E]; try assumption.
  - now apply nodupb_NoDup.
  - intros g _ [].
  - rewrite E, !given_or_read by assumption. cbn [bind app]. unfold cnorm. now rewrite En, Et.
Qed.

Lemma alookup_map_snd {V W} (h : V -> W) f (m : amap V) :
  alookup f (map (fun fi : str * V => (fst fi, h (snd fi))) m) = option_map h (alookup f m).
Proof.
  induction m as [|[k v] m IH]; [reflexivity|]. cbn. destruct (str_eqb f k); [reflexivity|apply IH].
Qed.

(* what is printed, and therefore read back, for key k *)
Definition printed_val (i : info) (k : str) : option val :=
  match alookup k i with
  | None => None
  | Some v =>
      if truthy v then Some (Some (val_str v))
      else if str_eqb k k_productDir || str_eqb k k_table_file then Some (Some s_none) else None
  end.

Lemma alookup_printed_gen i L k :
  NoDup (map snd L) ->
  alookup k (map (fun t : str * str * str => (snd (fst t), Some (snd t))) (flat_map (printed_of i) L))
  = if mem_str k (map snd L) then printed_val i k else None.
Proof.
  induction L as [|[F k'] L IH]; intro N; [reflexivity|]. cbn [flat_map map snd mem_str] in *.
  inversion N as [|? ? N1 N2]; subst. rewrite map_app. specialize (IH N2).
  destruct (str_eqb_spec k k') as [->|NE].
  - assert (Hm : mem_str k' (map snd L) = false) by now apply mem_str_not_In.
    rewrite Hm in IH. unfold printed_of, printed_val.
    destruct (alookup k' i) as [v|]; [|exact IH].
    destruct (truthy v).
    + cbn. now rewrite str_eqb_refl.
    + destruct (str_eqb k' k_productDir || str_eqb k' k_table_file); [|exact IH].
      cbn. now rewrite str_eqb_refl.
  - rewrite <- IH. unfold printed_of.
    destruct (alookup k' i) as [v|]; [|reflexivity].
    apply str_eqb_neq in NE.
    destruct (truthy v); [cbn; now rewrite NE|].
    destruct (str_eqb k' k_productDir || str_eqb k' k_table_file); [cbn; now rewrite NE|reflexivity].
Qed.

Definition field_keys : list str := map snd vf_fields.

Lemma alookup_base i k :
  alookup k (base_info i) = if mem_str k field_keys then printed_val i k else None.
Proof. apply alookup_printed_gen, vf_fields_keys_nodup. Qed.

Lemma key_neq_dt : k_productDir <> k_table_file. Proof. discriminate. Qed.
Lemma key_neq_du : k_productDir <> k_ups_dir. Proof. discriminate. Qed.
Lemma key_neq_tu : k_table_file <> k_ups_dir. Proof. discriminate. Qed.

Definition table_of (b : info) : val :=
  match alookup k_table_file b with Some x => x | None => Some s_none end.

Lemma alookup_default {V} k (d : V) (m : amap V) q :
  alookup q (if amem k m then m else aset k d m)
  = if str_eqb q k then Some (match alookup k m with Some x => x | None => d end) else alookup q m.
Proof.
  rewrite amem_alookup. destruct (str_eqb_spec q k) as [->|NE].
  - destruct (alookup k m) eqn:E; [exact E|apply alookup_aset_same].
  - destruct (alookup k m); [reflexivity|now apply alookup_aset_other].
Qed.

Lemma close_block_lookup b k :
  alookup k (close_block b) =
  if str_eqb k k_productDir then Some (match alookup k_productDir b with Some x => x | None => None end)
  else if str_eqb k k_table_file then Some (table_of b)
  else if str_eqb k k_ups_dir then
    match alookup k_ups_dir b with
    | Some x => Some x
    | None => if is_real (table_of b) then Some (Some s_none) else None
    end
  else alookup k b.
Proof.
  unfold close_block, table_of. cbv zeta.
  set (i2 := if amem k_table_file _ then _ else _).
  (* the two defaults: directory, then table file *)
  assert (L2 : forall q, alookup q i2 =
              if str_eqb q k_productDir
              then Some (match alookup k_productDir b with Some x => x | None => None end)
              else if str_eqb q k_table_file
              then Some (match alookup k_table_file b with Some x => x | None => Some s_none end)
              else alookup q b).
  { intro q. unfold i2. rewrite !(alookup_default (V := val)).
    change (str_eqb k_table_file k_productDir) with false. cbv iota.
    destruct (str_eqb_spec q k_table_file) as [->|]; reflexivity. }
  (* the ups directory: none when it is absent and there is a table file *)
  rewrite amem_alookup, (L2 k_ups_dir), (L2 k_table_file).
  change (str_eqb k_ups_dir k_productDir) with false.
  change (str_eqb k_ups_dir k_table_file) with false.
  change (str_eqb k_table_file k_productDir) with false.
  change (str_eqb k_table_file k_table_file) with true. cbv iota.
  destruct (str_eqb_spec k k_ups_dir) as [->|N].
  - change (str_eqb k_ups_dir k_productDir) with false.
    change (str_eqb k_ups_dir k_table_file) with false. cbv iota.
    destruct (alookup k_ups_dir b) eqn:E; cbn [negb andb]; [now rewrite L2|].
    destruct (is_real _); [apply alookup_aset_same|now rewrite L2].
  - destruct (negb _ && _); [rewrite alookup_aset_other by assumption|]; apply L2.
Qed.

Lemma printed_val_solid i k x : printed_val i k = Some x -> truthy x = true /\ x = Some (val_str x).
Proof.
  unfold printed_val. destruct (alookup k i) as [v|]; [|discriminate].
  destruct v as [[|c s]|]; cbn [truthy val_str].
  - destruct (str_eqb k k_productDir || str_eqb k k_table_file); [|discriminate].
    intros [= <-]. split; reflexivity.
  - intros [= <-]. split; reflexivity.
  - destruct (str_eqb k k_productDir || str_eqb k k_table_file); [|discriminate].
    intros [= <-]. split; reflexivity.
Qed.

Lemma alookup_norm_info i k :
  alookup k (norm_info i) =
  if str_eqb k k_productDir
  then Some (match printed_val i k_productDir with Some x => x | None => None end)
  else if str_eqb k k_table_file
  then Some (match printed_val i k_table_file with Some x => x | None => Some s_none end)
  else if str_eqb k k_ups_dir then
    match printed_val i k_ups_dir with
    | Some x => Some x
    | None => if is_real (match printed_val i k_table_file with Some x => x | None => Some s_none end)
              then Some (Some s_none) else None
    end
  else if mem_str k field_keys then printed_val i k else None.
Proof.
  unfold norm_info. rewrite close_block_lookup. unfold table_of. rewrite !alookup_base.
  change (mem_str k_productDir field_keys) with true.
  change (mem_str k_table_file field_keys) with true.
  change (mem_str k_ups_dir field_keys) with true. cbv iota. reflexivity.
Qed.

Lemma printed_val_norm_table i :
  printed_val (norm_info i) k_table_file
  = Some (match printed_val i k_table_file with Some x => x | None => Some s_none end).
Proof.
  unfold printed_val at 1. rewrite alookup_norm_info.
  change (str_eqb k_table_file k_productDir) with false.
  change (str_eqb k_table_file k_table_file) with true. cbv iota.
  destruct (printed_val i k_table_file) as [x|] eqn:E; [|reflexivity].
  destruct (printed_val_solid _ _ _ E) as [H1 H2]. now rewrite H1, <- H2.
Qed.

Lemma norm_info_twice_other i k :
  k <> k_productDir -> alookup k (norm_info (norm_info i)) = alookup k (norm_info i).
Proof.
  intro N. rewrite (alookup_norm_info (norm_info i) k). apply str_eqb_neq in N. rewrite N.
  rewrite printed_val_norm_table.
  destruct (str_eqb_spec k k_table_file) as [->|N2].
  { rewrite alookup_norm_info. reflexivity. }
  destruct (str_eqb_spec k k_ups_dir) as [->|N3].
  { unfold printed_val at 1. rewrite !(alookup_norm_info i k_ups_dir).
    change (str_eqb k_ups_dir k_productDir) with false.
    change (str_eqb k_ups_dir k_table_file) with false.
    change (str_eqb k_ups_dir k_ups_dir) with true. cbv iota.
    destruct (printed_val i k_ups_dir) as [x|] eqn:E.
    - destruct (printed_val_solid _ _ _ E) as [H1 H2]. now rewrite H1, <- H2.
    - destruct (is_real _); reflexivity. }
  rewrite (alookup_norm_info i k). apply str_eqb_neq in N2, N3. rewrite N, N2, N3.
  destruct (mem_str k field_keys) eqn:M; [|reflexivity].
  unfold printed_val at 1. rewrite alookup_norm_info, N, N2, N3, M.
  destruct (printed_val i k) as [x|] eqn:E; [|reflexivity].
  destruct (printed_val_solid _ _ _ E) as [H1 H2]. now rewrite H1, <- H2.
Qed.

Lemma printed_val_dir_present i :
  amem k_productDir i = true -> exists x, printed_val i k_productDir = Some x.
Proof.
  rewrite amem_alookup. unfold printed_val. destruct (alookup k_productDir i) as [v|]; [|discriminate].
  intros _. destruct (truthy v); [eauto|].
  change (str_eqb k_productDir k_productDir) with true. cbn [orb]. eauto.
Qed.

Lemma norm_info_twice_dir i :
  amem k_productDir i = true ->
  alookup k_productDir (norm_info (norm_info i)) = alookup k_productDir (norm_info i).
Proof.
  intro H. destruct (printed_val_dir_present i H) as [x E].
  rewrite (alookup_norm_info (norm_info i)). change (str_eqb k_productDir k_productDir) with true.
  cbv iota. unfold printed_val at 1. rewrite !(alookup_norm_info i k_productDir).
  change (str_eqb k_productDir k_productDir) with true. cbv iota. rewrite E.
  destruct (printed_val_solid _ _ _ E) as [H1 H2]. now rewrite H1, <- H2.
Qed.

Lemma norm_info_twice i k :
  amem k_productDir i = true -> alookup k (norm_info (norm_info i)) = alookup k (norm_info i).
Proof.
  intro H. destruct (str_eq_dec k k_productDir) as [->|N].
  - now apply norm_info_twice_dir.
  - now apply norm_info_twice_other.
Qed.

(* an absent product directory is read as None and printed as the word none: neither is a
   real file name *)
Lemma norm_info_twice_dir_absent i :
  amem k_productDir i = false ->
  alookup k_productDir (norm_info i) = Some None /\
  alookup k_productDir (norm_info (norm_info i)) = Some (Some s_none).
Proof.
  rewrite amem_alookup. intro H.
  assert (E : printed_val i k_productDir = None).
  { unfold printed_val. destruct (alookup k_productDir i); [discriminate|reflexivity]. }
  split.
  - rewrite alookup_norm_info. change (str_eqb k_productDir k_productDir) with true. cbv iota.
    now rewrite E.
  - rewrite (alookup_norm_info (norm_info i)). change (str_eqb k_productDir k_productDir) with true.
    cbv iota. unfold printed_val at 1. rewrite (alookup_norm_info i k_productDir).
    change (str_eqb k_productDir k_productDir) with true. cbv iota. rewrite E. reflexivity.
Qed.

(* the repaired loop looks only at absolute values, so the hypothesis is about those alone:
   whatever relative names exist in the current directory is irrelevant *)
Lemma trim_keys_noex pe ex td keys (i : info) :
  (forall k s, alookup k i = Some (Some s) -> isabs s = true -> ex s = false) ->
  trim_keys true pe ex td keys i = Ok i.
Proof.
  intro H. induction keys as [|k ks IH]; [reflexivity|]. cbn [trim_keys]. unfold trim_key.
  destruct (alookup k i) as [[s|]|] eqn:E; cbn [bind]; try exact IH.
  destruct (isabs s) eqn:A; cbn [andb negb bind]; [|exact IH].
  rewrite (abs_from_abs _ _ A), (H k s E A). cbn [negb bind]. exact IH.
Qed.

Lemma trim_info_noex pe ex td (i : info) :
  (forall k s, alookup k i = Some (Some s) -> isabs s = true -> ex s = false) ->
  trim_info pe ex td i = Ok i.
Proof. intro H. unfold trim_info, trim_info_gen. now apply trim_keys_noex. Qed.

Lemma trim_all_lookup pe ex td (m m' : amap info) f i i' :
  trim_all true pe ex td m = Ok m' -> alookup f m = Some i -> trim_info pe ex td i = Ok i' ->
  alookup f m' = Some i'.
Proof.
  revert m'. induction m as [|[g j] m IH]; intros m' H L T; [discriminate|].
  cbn [trim_all] in H. destruct (trim_info_gen true pe ex td j) as [j'|] eqn:Ej; [|discriminate].
  cbn [bind] in H. destruct (trim_all true pe ex td m) as [r|] eqn:Er; [|discriminate].
  cbn [bind] in H. injection H as <-. cbn [alookup] in *.
  destruct (str_eqb f g).
  - injection L as ->. unfold trim_info in T. rewrite T in Ej. now injection Ej as ->.
  - now apply IH.
Qed.

Lemma trim_all_keys pe ex td (m m' : amap info) : trim_all true pe ex td m = Ok m' -> akeys m' = akeys m.
Proof.
  revert m'. induction m as [|[g j] m IH]; intros m' H; [now injection H as <-|].
  cbn [trim_all] in H. destruct (trim_info_gen true pe ex td j) as [j'|]; [|discriminate].
  cbn [bind] in H. destruct (trim_all true pe ex td m) as [r|] eqn:Er; [|discriminate].
  cbn [bind] in H. injection H as <-. cbn. f_equal. now apply IH.
Qed.

Lemma add_flavor_other who now g d t u r f :
  f <> g -> alookup f (vf_info (add_flavor who now g d t u r)) = alookup f (vf_info r).
Proof.
  intro N. unfold add_flavor. cbn [vf_info]. now apply alookup_aset_other.
Qed.

Lemma add_flavor_names who now g d t u r :
  vf_name (add_flavor who now g d t u r) = vf_name r /\
  vf_version (add_flavor who now g d t u r) = vf_version r.
Proof.
  unfold add_flavor. split; reflexivity.
Qed.

Lemma add_flavor_nonempty who now g d t u r : vf_info (add_flavor who now g d t u r) <> [].
Proof.
  unfold add_flavor. cbn [vf_info]. destruct (vf_info r) as [|[? ?] ?]; cbn [aset]; [discriminate|].
  match goal with |- context [str_eqb ?a ?b] => destruct (str_eqb a b) end; discriminate.
Qed.
