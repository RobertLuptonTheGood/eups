(* C09 - safety of the lock protocol over a path of stacks: the inductive invariants behind mutex,
   no_residue and no_residue_after_failure.  The case analyses of one call are in Proofs/LockNext*.v;
   here they are lifted to the global state. *)
From Eupsv Require Import Base.Base Model.Lock Proofs.LockLib Proofs.LockNext Proofs.LockNext2.
From Coq Require Import Lia.

(* a lock file lies in an existing lock directory *)
Definition I0 (s : state) := forall k x, In x (files s k) -> dir s k = true.
(* where a process thinks it has a lock file, it has one ... *)
Definition I1 (cfg : config) (s : state) :=
  forall p x k, owns (local_of s p) x = true -> nth_error (path_of cfg p) x = Some k -> In p (files s k).
(* ... and nowhere else *)
Definition I2 (cfg : config) (s : state) :=
  forall p k, In p (files s k) -> exists x, nth_error (path_of cfg p) x = Some k /\ owns (local_of s p) x = true.
(* an existing lock directory holds a file or has a process bound to fill or remove it *)
Definition IJ (cfg : config) (s : state) :=
  forall k, dir s k = true ->
    files s k <> [] \/
    exists p, resp (pc s p) = true /\ nth_error (path_of cfg p) (widx (local_of s p)) = Some k.
Definition IN (s : state) := forall p, pc s p <> LHeldNoLock.
Definition IW (cfg : config) (s : state) :=
  forall p, nlk s p <= length (path_of cfg p) /\ (pc s p = LHeld -> nlk s p = length (path_of cfg p)).
Definition IT (s : state) := forall p, clean (local_of s p).
(* while a lock is firm, an incompatible unrelated lock file on the same stack is unvalidated *)
Definition I3 (cfg : config) (s : state) :=
  forall a b x k, a <> b -> ~ related cfg a b -> (kind_of cfg a = Ex \/ kind_of cfg b = Ex) ->
    nth_error (path_of cfg a) x = Some k -> firm (local_of s a) x = true -> In b (files s k) ->
    unvalidated (pc s b) = true /\ nth_error (path_of cfg b) (nlk s b) = Some k.

Lemma local_put s p lo q : local_of (put s p lo) q = upd (local_of s) p lo q.
Proof.
  unfold local_of, put, upd. cbn. destruct (Nat.eqb q p); [now destruct lo | reflexivity].
Qed.

Lemma pc_local s p : pc s p = lpc (local_of s p).
Proof. reflexivity. Qed.
Lemma nlk_local s p : nlk s p = lnl (local_of s p).
Proof. reflexivity. Qed.

Lemma local_eq_pc s s' p : local_of s' p = local_of s p -> pc s' p = pc s p /\ nlk s' p = nlk s p.
Proof. intro H. split; [exact (f_equal lpc H) | exact (f_equal lnl H)]. Qed.

(* A step, seen through what it does to the three parts of the state: the private state of p, and directory
   and lock files of the stack p is working on, if there is one. *)
Lemma step_cases fx fr cfg s p c :
  exists lo', (forall q, local_of (step_gen fx fr cfg s p c) q = upd (local_of s) p lo' q) /\
  ((exists k d' fs',
      nth_error (path_of cfg p) (widx (local_of s p)) = Some k /\
      call fx fr cfg p (dir s k) (files s k) (local_of s p) d' fs' lo' /\
      (forall x, dir (step_gen fx fr cfg s p c) x = upd (dir s) k d' x) /\
      (forall x, files (step_gen fx fr cfg s p c) x = upd (files s) k fs' x)) \/
   (nth_error (path_of cfg p) (widx (local_of s p)) = None /\ lo' = nostack (local_of s p) /\
    (forall x, dir (step_gen fx fr cfg s p c) x = dir s x) /\
    (forall x, files (step_gen fx fr cfg s p c) x = files s x))).
Proof.
  unfold step_gen. destruct (nth_error (path_of cfg p) (widx (local_of s p))) as [k|] eqn:W.
  - destruct (next fx fr cfg (dir s k) (files s k) (local_of s p) p c) as [[d' fs'] lo'] eqn:N.
    apply next_call in N. exists lo'. split; [exact (local_put (write s k d' fs') p lo')|]. left. exists k, d', fs'. auto.
  - exists (nostack (local_of s p)). split; [apply local_put|]. auto.
Qed.

Section Inductive.
Variables (fx fr : bool) (cfg : config).
Notation stp := (step_gen fx fr cfg).

Lemma files_other s p c x k : x <> p -> (In x (files (stp s p c) k) <-> In x (files s k)).
Proof.
  intro Hne. destruct (step_cases fx fr cfg s p c) as (lo' & _ & [(k0 & d' & fs' & W & N & _ & EF) | (_ & _ & _ & EF)]);
    rewrite EF; [|reflexivity].
  destruct (Nat.eq_dec k k0) as [->|Hk]; [rewrite upd_same | now rewrite upd_other].
  destruct (call_owns _ _ _ _ _ _ _ _ _ _ N) as [(-> & _) | [(_ & -> & _) | (-> & _)]].
  - reflexivity.
  - rewrite in_add. split; [intros [E|H]; [now destruct Hne | exact H] | now right].
  - destruct (dir s k0 && mem p (files s k0)); [|reflexivity].
    rewrite in_rem. split; [now intros [H _] | now split].
Qed.

Lemma local_other s p c x : x <> p -> local_of (stp s p c) x = local_of s x.
Proof. intro Hne. destruct (step_cases fx fr cfg s p c) as (lo' & EL & _). now rewrite EL, upd_other. Qed.

Lemma step_local (Q : pid -> local -> Prop) s p c :
  (forall q, Q q (local_of s q)) ->
  (forall k d' fs' lo', nth_error (path_of cfg p) (widx (local_of s p)) = Some k ->
     call fx fr cfg p (dir s k) (files s k) (local_of s p) d' fs' lo' -> Q p lo') ->
  (nth_error (path_of cfg p) (widx (local_of s p)) = None -> Q p (nostack (local_of s p))) ->
  forall q, Q q (local_of (stp s p c) q).
Proof.
  intros H A B q. destruct (Nat.eq_dec q p) as [->|Hne]; [|now rewrite local_other].
  destruct (step_cases fx fr cfg s p c) as (lo' & EL & [(k0 & d' & fs' & W & N & _) | (W & -> & _)]);
    rewrite EL, upd_same; eauto.
Qed.

Lemma init_inv : I0 init /\ I1 cfg init /\ I2 cfg init /\ IJ cfg init /\ IN init /\ IW cfg init /\ IT init /\ I3 cfg init.
Proof.
  unfold I0, I1, I2, IJ, IN, IW, IT, I3, clean, owns, firm, local_of. cbn.
  repeat split; intros; try discriminate; try contradiction; try lia.
Qed.

Lemma step_I0 s p c : I0 s -> I0 (stp s p c).
Proof.
  intros H0 k x. destruct (step_cases fx fr cfg s p c) as (lo' & _ & [(k0 & d' & fs' & W & N & ED & EF) | (_ & _ & ED & EF)]);
    rewrite ED, EF; [|apply H0].
  destruct (Nat.eq_dec k k0) as [->|Hk]; [rewrite !upd_same | rewrite !upd_other by assumption; apply H0].
  apply (call_I0 _ _ _ _ _ _ _ _ _ _ N), H0.
Qed.

Lemma step_IW s p c : IW cfg s -> IW cfg (stp s p c).
Proof.
  intros HW q. apply (step_local (fun q lo => lnl lo <= length (path_of cfg q) /\ (lpc lo = LHeld -> lnl lo = length (path_of cfg q))) s p c);
    [exact HW | | intro W; apply nostack_IW; [assumption | apply HW ..]].
  intros k d' fs' lo' W N. apply nth_error_lt in W. destruct (HW p) as [L H]. rewrite nlk_local in L.
  destruct (call_IW _ _ _ _ _ _ _ _ _ _ N) as [(A & B) | (A & B & C)].
  - split; [exact (Nat.le_trans _ _ _ A L) | contradiction].
  - rewrite A, <- B. split; [exact W | now rewrite B].
Qed.

Hypothesis WF : wf cfg.

Lemma step_I1 s p c : I1 cfg s -> I1 cfg (stp s p c).
Proof.
  intros H1 q x k Ho Hk. destruct (Nat.eq_dec q p) as [->|Hne].
  - destruct (step_cases fx fr cfg s p c) as (lo' & EL & [(k0 & d' & fs' & W & N & _ & EF) | (_ & -> & _ & EF)]);
      rewrite EL, upd_same in Ho; rewrite EF.
    + assert (Hx : x <> widx (local_of s p) -> k <> k0).
      { intros Hx ->. apply Hx. now apply (nodup_nth_eq _ _ _ k0 (WF p)). }
      destruct (call_owns _ _ _ _ _ _ _ _ _ _ N) as [(-> & O) | [(_ & -> & O) | (-> & O)]]; rewrite O in Ho.
      * rewrite upd_id. now apply (H1 p x k).
      * destruct (Nat.eq_dec k k0) as [->|Hk'].
        -- rewrite upd_same. apply in_add. now left.
        -- rewrite upd_other by assumption. apply orb_true_iff in Ho. destruct Ho as [Ho|Ho]; [now apply (H1 p x k)|].
           apply Nat.eqb_eq in Ho. subst x. congruence.
      * apply andb_true_iff in Ho. destruct Ho as [Ho Hw]. apply negb_true_iff, Nat.eqb_neq in Hw.
        rewrite upd_other by auto. now apply (H1 p x k).
    + rewrite owns_nostack in Ho. now apply (H1 p x k).
  - rewrite (local_other s p c q Hne) in Ho. apply (files_other s p c q k Hne). now apply (H1 q x k).
Qed.

Lemma step_I2 s p c : I0 s -> I2 cfg s -> I2 cfg (stp s p c).
Proof.
  intros H0 H2 q k Hin. destruct (Nat.eq_dec q p) as [->|Hne].
  - destruct (step_cases fx fr cfg s p c) as (lo' & EL & [(k0 & d' & fs' & W & N & _ & EF) | (_ & -> & _ & EF)]);
      rewrite EL, upd_same; rewrite EF in Hin.
    + assert (Hx : forall x, k <> k0 -> nth_error (path_of cfg p) x = Some k -> (x =? widx (local_of s p)) = false).
      { intros x Hk Hx. apply Nat.eqb_neq. intros ->. congruence. }
      destruct (call_owns _ _ _ _ _ _ _ _ _ _ N) as [(-> & O) | [(_ & -> & O) | (-> & O)]].
      * rewrite upd_id in Hin. destruct (H2 p k Hin) as (x & X & Ho). exists x. rewrite O. auto.
      * destruct (Nat.eq_dec k k0) as [->|Hk].
        -- exists (widx (local_of s p)). rewrite O, Nat.eqb_refl. auto using orb_true_r.
        -- rewrite upd_other in Hin by assumption. destruct (H2 p k Hin) as (x & X & Ho). exists x. rewrite O, Ho. auto.
      * destruct (Nat.eq_dec k k0) as [->|Hk].
        -- exfalso. rewrite upd_same in Hin. destruct (dir s k0 && mem p (files s k0)) eqn:A.
           ++ now apply (not_in_rem p (files s k0)).
           ++ rewrite (H0 k0 p Hin), (proj2 (mem_In p _) Hin) in A. discriminate.
        -- rewrite upd_other in Hin by assumption. destruct (H2 p k Hin) as (x & X & Ho). exists x.
           rewrite O, Ho, (Hx x Hk X). auto.
    + destruct (H2 p k Hin) as (x & Hx & Ho). exists x. split; [assumption|]. now rewrite owns_nostack.
  - rewrite (local_other s p c q Hne). apply H2. now apply (files_other s p c q k Hne).
Qed.

Lemma step_IJ s p c : IJ cfg s -> IJ cfg (stp s p c).
Proof.
  intros HJ k. destruct (step_cases fx fr cfg s p c) as (lo' & EL & [(k0 & d' & fs' & W & N & ED & EF) | (_ & -> & ED & EF)]);
    rewrite ED, EF.
  - assert (keep : forall q, q <> p -> resp (pc s q) = true /\ nth_error (path_of cfg q) (widx (local_of s q)) = Some k ->
                   exists q', resp (pc (stp s p c) q') = true /\ nth_error (path_of cfg q') (widx (local_of (stp s p c) q')) = Some k).
    { intros q Hq Rq. exists q. now rewrite pc_local, EL, upd_other. }
    destruct (Nat.eq_dec k k0) as [->|Hk].
    + rewrite !upd_same. intro D'.
      destruct (call_IJ _ _ _ _ _ _ _ _ _ _ N D') as [F | [[R Wp] | (D & -> & R)]]; [now left | |].
      * right. exists p. rewrite pc_local, EL, upd_same, Wp. auto.
      * destruct (HJ k0 D) as [Hne | (q & Rq & Wq)]; [now left|]. right. apply (keep q); [|now split].
        intros ->. rewrite pc_local, R in Rq. discriminate.
    + rewrite !upd_other by assumption. intro D.
      destruct (HJ k D) as [Hne | (q & R & Wq)]; [now left|]. right. apply (keep q); [|now split].
      intros ->. congruence.
  - intro D. destruct (HJ k D) as [Hne | (q & R & Wq)]; [now left|]. right.
    exists q. rewrite pc_local, EL. destruct (Nat.eq_dec q p) as [->|Hqp].
    + rewrite upd_same, (nostack_same (local_of s p)) by now left. auto.
    + rewrite upd_other by assumption. auto.
Qed.

End Inductive.

Section Repaired.
Variables (fr : bool) (cfg : config).
Notation stp := (step_gen true fr cfg).
Hypothesis WF : wf cfg.

Lemma step_IN s p c : IN s -> IN (stp s p c).
Proof.
  intros H q. apply (step_local true fr cfg (fun _ lo => lpc lo <> LHeldNoLock) s p c); [exact H | |intros _; apply nostack_IN, H].
  intros k d' fs' lo' _ N. apply (call_IN _ _ _ _ _ _ _ _ _ N), H.
Qed.

Lemma firm_owns lo x : firm lo x = true -> owns lo x = true.
Proof.
  assert (A : (x <? lnl lo) = true -> (x <=? lnl lo) = true).
  { intro H. apply Nat.leb_le, Nat.lt_le_incl, Nat.ltb_lt, H. }
  destruct lo as [l i n j]. unfold firm, owns. cbn [lpc lnl lcur] in *. destruct l; try discriminate; auto.
  destruct m; try discriminate. destruct (gfile g); auto.
Qed.

Lemma firm_widx lo x : firm lo x = true -> x <> widx lo.
Proof.
  destruct lo as [l i n j]. unfold firm, widx. cbn [lpc lnl lcur].
  destruct l; try discriminate; try destruct m; try discriminate; intros H ->; now rewrite Nat.ltb_irrefl in H.
Qed.

Lemma step_I3 s p c : I0 s -> I1 cfg s -> I3 cfg s -> I3 cfg (stp s p c).
Proof.
  intros H0 H1 H3 a b x k Hab Hrel HK Hx Hf Hb.
  destruct (Nat.eq_dec a p) as [->|Hap].
  - (* the stepping process owns the firm lock *)
    assert (Hbp : b <> p) by apply not_eq_sym, Hab.
    apply (files_other true fr cfg s p c b k Hbp) in Hb.
    destruct (local_eq_pc s _ b (local_other true fr cfg s p c b Hbp)) as [-> ->].
    destruct (step_cases true fr cfg s p c) as (lo' & EL & [(k0 & d' & fs' & W & N & _) | (_ & -> & _)]);
      rewrite EL, upd_same in Hf.
    + destruct (call_firm _ _ _ _ _ _ _ _ _ _ N Hf) as [F | (L & Xn & Wn & C & _)].
      * now apply (H3 p b x k).
      * exfalso. assert (k = k0) by congruence. subst k.
        assert (HR : root_of cfg p <> Some b) by (intro; apply Hrel; now left).
        rewrite (conflict_if_other cfg p b (files s k0) Hb Hbp HR HK) in C. discriminate.
    + apply firm_nostack in Hf. now apply (H3 p b x k).
  - rewrite (local_other true fr cfg s p c a Hap) in Hf.
    destruct (Nat.eq_dec b p) as [->|Hbp].
    + (* the stepping process owns the file the firm holder must not overlook *)
      assert (Hain : In a (files s k)) by (apply (H1 a x k); [now apply firm_owns | assumption]).
      assert (HR : root_of cfg p <> Some a) by (intro; apply Hrel; now right).
      assert (HK' : kind_of cfg p = Ex \/ kind_of cfg a = Ex) by (destruct HK; auto).
      rewrite pc_local, nlk_local.
      destruct (step_cases true fr cfg s p c) as (lo' & EL & [(k0 & d' & fs' & W & N & _ & EF) | (_ & -> & _ & EF)]);
        rewrite EL, upd_same; rewrite EF in Hb.
      * destruct (Nat.eq_dec k k0) as [->|Hk].
        -- rewrite upd_same in Hb.
           pose proof (conflict_if_other cfg p a (files s k0) Hain Hap HR HK') as HC.
           destruct (call_pending _ _ _ _ _ _ _ _ _ N) as (U & Ln & Wn); try assumption.
           ++ intro Hp. now apply (H3 a p x k0).
           ++ apply H0.
           ++ split; [assumption|]. rewrite Ln, <- Wn. assumption.
        -- exfalso. rewrite upd_other in Hb by assumption.
           destruct (H3 a p x k Hab Hrel HK Hx Hf Hb) as [U Wk].
           rewrite pc_local in U. apply unvalidated_widx in U. rewrite nlk_local, <- U in Wk. congruence.
      * destruct (H3 a p x k Hab Hrel HK Hx Hf Hb) as [U Wk].
        rewrite pc_local in U. rewrite (nostack_same (local_of s p)) by now right. auto.
    + destruct (local_eq_pc s _ b (local_other true fr cfg s p c b Hbp)) as [-> ->].
      apply (files_other true fr cfg s p c b k Hbp) in Hb. now apply (H3 a b x k).
Qed.

End Repaired.

Section Released.
Variable cfg : config.
Notation stp := (step_gen true true cfg).

Lemma step_IT s p c : I0 s -> I1 cfg s -> IT s -> IT (stp s p c).
Proof.
  intros H0 H1 HT q. apply (step_local true true cfg (fun _ => clean) s p c); [exact HT | |intros _; apply clean_nostack, HT].
  intros k d' fs' lo' W N. apply (call_clean _ _ _ _ _ _ _ _ N); [apply HT | | apply H0].
  intro Ho. now apply (H1 p (widx (local_of s p)) k).
Qed.

End Released.

Lemma reachable_gen_inv fx fr cfg s :
  wf cfg -> reachable_gen fx fr cfg s -> I0 s /\ I1 cfg s /\ I2 cfg s /\ IJ cfg s /\ IW cfg s.
Proof.
  intro WF. induction 1 as [|s p c _ (H0 & H1 & H2 & HJ & HW)].
  - destruct (init_inv cfg) as (? & ? & ? & ? & _ & ? & _). auto.
  - refine (conj _ (conj _ (conj _ (conj _ _))));
      [apply step_I0 | apply step_I1 | apply step_I2 | apply step_IJ | apply step_IW]; assumption.
Qed.

Lemma reachable_fx_inv fr cfg s : wf cfg -> reachable_gen true fr cfg s -> IN s /\ I3 cfg s.
Proof.
  intro WF. induction 1 as [|s p c Hr (HN & H3)].
  - destruct (init_inv cfg) as (_ & _ & _ & _ & ? & _ & _ & ?). auto.
  - destruct (reachable_gen_inv true fr cfg s WF Hr) as (H0 & H1 & _).
    split; [apply step_IN | apply step_I3]; assumption.
Qed.

Lemma reachable_inv cfg s : wf cfg -> reachable cfg s -> IT s.
Proof.
  intro WF. induction 1 as [|s p c Hr HT].
  - destruct (init_inv cfg) as (_ & _ & _ & _ & _ & _ & ? & _). auto.
  - destruct (reachable_gen_inv true true cfg s WF Hr) as (H0 & H1 & _). now apply step_IT.
Qed.

(* on every stack, no exclusive lock is ever held together with another unrelated lock: every schedule,
   every choice of directory order, any number of processes and stacks, any retry budgets; with or without
   the release on failure *)
Lemma mutex_proof fr cfg s p q k :
  wf cfg -> reachable_gen true fr cfg s -> holds s p -> holds s q -> p <> q -> ~ related cfg p q ->
  In k (path_of cfg p) -> In k (path_of cfg q) ->
  kind_of cfg p = Sh /\ kind_of cfg q = Sh.
Proof.
  intros WF Hr Hp Hq Hpq Hrel Kp Kq.
  destruct (reachable_fx_inv fr cfg s WF Hr) as (HN & H3).
  destruct (reachable_gen_inv true fr cfg s WF Hr) as (_ & H1 & _ & _ & HW).
  assert (Hh : forall x, holds s x -> pc s x = LHeld).
  { intros x Hx. unfold holds, holdsb in Hx. pose proof (HN x) as Hn.
    destruct (pc s x); try discriminate; [reflexivity | congruence]. }
  assert (Hf : forall x y, holds s x -> nth_error (path_of cfg x) y = Some k -> firm (local_of s x) y = true).
  { intros x y Hx Y. apply Hh in Hx. unfold firm, local_of. cbn [lpc lnl]. rewrite Hx. apply Nat.ltb_lt.
    rewrite (proj2 (HW x) Hx). now apply nth_error_lt in Y. }
  destruct (In_nth_error _ _ Kp) as [xp Xp]. destruct (In_nth_error _ _ Kq) as [xq Xq].
  assert (Hqf : In q (files s k)) by (apply (H1 q xq k); [apply firm_owns|]; auto).
  assert (NX : ~ (kind_of cfg p = Ex \/ kind_of cfg q = Ex)).
  { intro HK. destruct (H3 p q xp k Hpq Hrel HK Xp (Hf p xp Hp Xp) Hqf) as [U _]. rewrite (Hh q Hq) in U. discriminate. }
  destruct (kind_of cfg p), (kind_of cfg q); try (split; reflexivity); destruct NX; auto.
Qed.

Lemma ended_owns_nothing cfg s p k :
  wf cfg -> reachable cfg s -> terminal (pc s p) = true -> ~ In p (files s k).
Proof.
  intros WF Hr Ht Hin.
  destruct (reachable_gen_inv true true cfg s WF Hr) as (_ & _ & H2 & _). destruct (H2 p k Hin) as (x & _ & Ho).
  rewrite (clean_owns (local_of s p) x Ht (reachable_inv cfg s WF Hr p)) in Ho. discriminate.
Qed.

Lemma idle_spec lo x : idle lo = true -> resp (lpc lo) = false /\ (clean lo -> owns lo x = false).
Proof.
  destruct lo as [l i n j]. unfold idle. cbn [lpc lnl]. intro I.
  destruct l; try discriminate; split; try reflexivity; try (now apply clean_owns).
  intros _. apply Nat.eqb_eq in I. now subst n.
Qed.

Lemma no_residue_proof cfg s k :
  wf cfg -> reachable cfg s -> quiescent s -> dir s k = false /\ files s k = [].
Proof.
  intros WF Hr Hq.
  destruct (reachable_gen_inv true true cfg s WF Hr) as (_ & _ & H2 & HJ & _).
  assert (F : files s k = []).
  { destruct (files s k) as [|x r] eqn:E; [reflexivity|]. exfalso.
    destruct (H2 x k) as (y & _ & Ho); [rewrite E; now left|].
    rewrite (proj2 (idle_spec _ y (Hq x)) (reachable_inv cfg s WF Hr x)) in Ho. discriminate. }
  split; [|assumption].
  destruct (dir s k) eqn:D; [|reflexivity]. exfalso.
  destruct (HJ k D) as [Hne | (x & Hx & _)]; [contradiction|].
  rewrite pc_local, (proj1 (idle_spec _ 0 (Hq x))) in Hx. discriminate.
Qed.
