(* One stack with listings sorted as strings (what Database.findProducts returns): the resolver with the comparator of
   C10 is the resolver with vcmp_sorted - the order of C10 refined by the string order among spellings of one key -
   and vcmp_sorted is a total order on conventional names.  So the theorems that ask for a total order (Props/C03.v
   walk_is_designation, Props/C01.v closure_exact, Props/C02.v unsetup_inverts_setup) hold for the composed model on
   every world with conventional version names, names that spell one key included, with the designation rule read in
   that refined order (of 1.0 and 1_0 the latter is the higher). *)
From Eupsv Require Import Base.Base Base.BaseLemmas Model.VersionCompare Model.VersionKey Model.PathAlg Model.Setup
     Model.Resolve Model.ResolveSpec Model.SetupFull Model.ResolveReal Proofs.ResolveLib Proofs.Resolve
     Proofs.VersionCompareLib Proofs.VersionCompareKey Proofs.ResolveReal.
From Coq Require Import Lia.

Definition ks_compare (x y : vkey * str) : comparison :=
  then_cmp (key_compare (fst x) (fst y)) (str_compare (snd x) (snd y)).

Lemma ord_ok_ks : ord_ok ks_compare.
Proof. apply (ord_ok_pair key_compare str_compare ord_ok_key ord_ok_str). Qed.

Lemma vcmp_sorted_ks a b : conv a = true -> conv b = true -> vcmp_sorted a b = ks_compare (key a, a) (key b, b).
Proof.
  intros A B. unfold vcmp_sorted, ks_compare. rewrite (vcmp_real_key a b A B). cbn [fst snd].
  destruct (key_compare (key a) (key b)); reflexivity.
Qed.

Lemma sorted_total_order l : conv_names l = true -> total_order_on vcmp_sorted l.
Proof.
  intro C. rewrite conv_names_forall in C. pose proof ord_ok_ks as O.
  split; [|split; [|split]].
  - intros x Hx. rewrite vcmp_sorted_ks by auto. apply (ok_refl _ O).
  - intros x y Hx Hy E. rewrite vcmp_sorted_ks in E by auto. apply (ok_eq _ O) in E. now injection E.
  - intros x y Hx Hy. rewrite !vcmp_sorted_ks by auto. apply (ok_anti _ O).
  - intros x y z Hx Hy Hz. rewrite !vcmp_sorted_ks by auto. apply (ok_le_trans _ O).
Qed.

Lemma vcmp_sorted_refines a b : vcmp_real a b <> Eq -> vcmp_sorted a b = vcmp_real a b.
Proof. unfold vcmp_sorted. destruct (vcmp_real a b); congruence. Qed.

Fixpoint ssorted (l : list str) : Prop :=
  match l with
  | [] => True
  | a :: r => (forall b, In b r -> str_compare a b = Lt) /\ ssorted r
  end.

Lemma str_sorted_ssorted l : str_sorted l = true -> ssorted l.
Proof.
  induction l as [|a r IH]; [intros _; exact I|].
  destruct r as [|b r']; [intros _; split; [intros b []|exact I]|].
  intro H. cbn [str_sorted] in H. apply andb_true_iff in H. destruct H as [H1 H2].
  destruct (str_compare a b) eqn:E; try discriminate.
  specialize (IH H2). split; [|exact IH].
  intros x [<-|Hx]; [exact E|]. destruct IH as [IHb _].
  apply (ok_trans _ ord_ok_str a b x E). now apply IHb.
Qed.

Lemma ssorted_filter (p : str -> bool) l : ssorted l -> ssorted (filter p l).
Proof.
  induction l as [|a r IH]; [intros _; exact I|]. intros [Ha Hr]. simpl. destruct (p a).
  - split; [|now apply IH]. intros b Hb. apply filter_In in Hb. now apply Ha.
  - now apply IH.
Qed.

Lemma ssorted_NoDup l : ssorted l -> NoDup l.
Proof.
  induction l as [|a r IH]; [constructor|]. intros [Ha Hr]. constructor; [|now apply IH].
  intro Hin. specialize (Ha a Hin). rewrite (ok_refl _ ord_ok_str) in Ha. discriminate.
Qed.

Lemma ssorted_split pre v post : ssorted (pre ++ v :: post) -> forall q, In q pre -> str_compare q v = Lt.
Proof.
  induction pre as [|a pre IH]; [intros _ q []|]. simpl. intros [Ha Hr] q [<-|Hq].
  - apply Ha. apply in_or_app. right. now left.
  - now apply IH.
Qed.

Lemma last_max_sorted l :
  conv_names l = true -> ssorted l -> last_max vcmp_real l = last_max vcmp_sorted l.
Proof.
  intros C S. pose proof (real_preorder l C) as HP.
  pose proof (total_order_is_preorder _ _ (sorted_total_order l C)) as HS.
  rewrite (last_max_greatest vcmp_sorted l HS l (fun q H => H)).
  destruct (last_max vcmp_real l) as [v|] eqn:E.
  - destruct (last_max_split vcmp_real l HP l v (fun q H => H) E) as [pre [post [Sp [A B]]]].
    unfold last_greatest. symmetry. rewrite Sp at 2.
    assert (Iv : In v l) by (rewrite Sp; apply in_or_app; right; now left).
    apply find_rev_split.
    + apply (is_max_true vcmp_sorted). intros w Hw. rewrite Sp in Hw. apply in_app_or in Hw.
      unfold ResolveLib.le. destruct Hw as [Hw|[<-|Hw]].
      * unfold vcmp_sorted. specialize (A w Hw). unfold ResolveLib.le in A.
        destruct (vcmp_real w v) eqn:Ew; try congruence; try discriminate.
        rewrite Sp in S. rewrite (ssorted_split pre v post S w Hw). discriminate.
      * destruct (sorted_total_order l C) as [R _]. rewrite (R v Iv). discriminate.
      * rewrite vcmp_sorted_refines; rewrite (B w Hw); discriminate.
    + intros q Hq. apply (is_max_false vcmp_sorted). exists v. split; [exact Iv|].
      assert (Iq : In q l) by (rewrite Sp; apply in_or_app; right; now right).
      assert (G : vcmp_real v q = Gt) by (apply (plt_gt vcmp_real l HP); auto).
      rewrite vcmp_sorted_refines; rewrite G; [reflexivity|discriminate].
  - apply last_max_nil in E. subst. reflexivity.
Qed.

Lemma db_sorted_listing db s n f : db_sorted db = true -> In s db -> ssorted (versions_in s n f).
Proof.
  intros H Hs. unfold db_sorted in H. rewrite forallb_forall in H. specialize (H s Hs). rewrite forallb_forall in H.
  destruct (versions_in s n f) as [|v r] eqn:E; [exact I|]. rewrite <- E.
  assert (Hv : In v (versions_in s n f)) by (rewrite E; now left).
  apply versions_of_In in Hv. specialize (H _ Hv). cbn in H. now apply str_sorted_ssorted.
Qed.

Lemma conv_names_sub l l' : (forall x, In x l' -> In x l) -> conv_names l = true -> conv_names l' = true.
Proof. rewrite !conv_names_forall. auto. Qed.

Section OneStack.
  Variable s : stackv.
  Hypothesis HS : db_sorted [s] = true.
  Variable n : str.
  Hypothesis HC : conv_names (names_of [s] n) = true.

  Lemma listing_conv f : conv_names (versions_in s n f) = true.
  Proof. apply (conv_names_sub (names_of [s] n)); [|exact HC]. intros x Hx. apply (versions_in_names [s] s n f); [now left|exact Hx]. Qed.

  Lemma find_latest_one_stack f : find_latest vcmp_real [s] n f = find_latest vcmp_sorted [s] n f.
  Proof.
    unfold find_latest. cbn [find_latest_from]. unfold stack_latest.
    rewrite (last_max_sorted _ (listing_conv f) (db_sorted_listing [s] s n f HS (or_introl eq_refl))).
    reflexivity.
  Qed.

  Lemma expr_one_stack vmatch x f :
    select_latest vcmp_real (find_by_expr vmatch [s] n x f) = select_latest vcmp_sorted (find_by_expr vmatch [s] n x f).
  Proof.
    unfold select_latest, find_by_expr. cbn [find_by_expr_from].
    set (V := filter (fun v => vmatch v x) (versions_in s n f)).
    assert (SV : ssorted V) by (apply ssorted_filter, (db_sorted_listing [s] s n f HS (or_introl eq_refl))).
    assert (E : map fd_version (add_new s n f V []) = V).
    { rewrite (add_new_versions s n f V [] []) by reflexivity. simpl. apply uniq_NoDup_id. now apply ssorted_NoDup. }
    rewrite E.
    assert (CV : conv_names V = true).
    { apply (conv_names_sub (versions_in s n f)); [|apply listing_conv]. intros y Hy. unfold V in Hy. apply filter_In in Hy. tauto. }
    now rewrite (last_max_sorted V CV SV).
  Qed.

End OneStack.

Section Congruence.
  Variables v1 v2 : str -> str -> comparison.
  Variables m1 m2 : str -> str -> bool.
  Variable db : dbv.
  Hypothesis HL : forall n f, find_latest v1 db n f = find_latest v2 db n f.
  Hypothesis HE : forall n x f, select_latest v1 (find_by_expr m1 db n x f) = select_latest v2 (find_by_expr m2 db n x f).

  Lemma tag_step_congr n f e t : tag_step v1 db n f e t = tag_step v2 db n f e t.
  Proof. unfold tag_step, find_tagged. now rewrite HL. Qed.

  Lemma version_step_congr rq f depth e later :
    version_step v1 m1 db rq f depth e later = version_step v2 m2 db rq f depth e later.
  Proof.
    unfold version_step. destruct (truthy (rq_version rq)) as [v|]; [|reflexivity].
    destruct (is_expr v && negb (entry_eqb e EVersionExpr)); [reflexivity|]. cbv zeta.
    destruct (if entry_eqb e EVersionExpr then if is_expr v then Some v else truthy (rq_expr rq) else None) as [x|];
      [|reflexivity].
    destruct (is_expr x); [|reflexivity]. now rewrite HE.
  Qed.

  Lemma vro_step_congr c prev rq f depth e later :
    vro_step v1 m1 c db prev rq f depth e later = vro_step v2 m2 c db prev rq f depth e later.
  Proof.
    unfold vro_step. destruct e; try reflexivity; rewrite ?tag_step_congr, ?version_step_congr; reflexivity.
  Qed.

  Lemma vro_loop_congr c prev rq f depth l :
    vro_loop v1 m1 c db prev rq f depth l = vro_loop v2 m2 c db prev rq f depth l.
  Proof. induction l as [|e later IH]; simpl; [reflexivity|]. now rewrite vro_step_congr, IH. Qed.

  Lemma find_from_vro_congr c prev f depth vro rq :
    find_from_vro v1 m1 c db prev f depth vro rq = find_from_vro v2 m2 c db prev f depth vro rq.
  Proof. unfold find_from_vro. now rewrite vro_loop_congr. Qed.

  Lemma accept_loop_congr c keep prev f depth rq : forall fuel vro,
    accept_loop v1 m1 fuel c db keep prev f depth vro rq = accept_loop v2 m2 fuel c db keep prev f depth vro rq.
  Proof.
    induction fuel as [|k IH]; intro vro; simpl; [reflexivity|].
    destruct vro as [|e l]; [reflexivity|]. rewrite find_from_vro_congr.
    destruct (find_from_vro v2 m2 c db prev f depth (e :: l) rq) as [[p r]|].
    - destruct (truthy (rq_version rq)); [|reflexivity].
      destruct ((depth =? 0) && negb (is_expr s) && negb (str_eqb (fd_version p) s)); [|reflexivity].
      destruct r as [tag ox]. destruct (index_of tag (e :: l)); [apply IH|reflexivity].
    - destruct prev as [[op oo]|]; [|reflexivity].
      destruct (keep || opt_str_eqb (fd_version op) (rq_version rq)); [|reflexivity].
      destruct (truthy (rq_version rq)); reflexivity.
  Qed.

  Lemma resolve_request_congr c keep prev flavors depth vro rq :
    resolve_request v1 m1 c db keep prev flavors depth vro rq = resolve_request v2 m2 c db keep prev flavors depth vro rq.
  Proof.
    unfold resolve_request. induction flavors as [|f fs IH]; cbn [flavor_loop]; [reflexivity|].
    rewrite accept_loop_congr. destruct (accept_loop v2 m2 _ c db keep prev f depth vro rq) as [[x|]|]; auto.
  Qed.

End Congruence.

Section FullExt.
  Variables v1 v2 : str -> str -> comparison.
  Variables m1 m2 : str -> str -> bool.
  Variable fw : fworld.
  Variable cfg : Setup.config.
  Variable rc : Resolve.config.
  Variable flavors : list str.
  Hypothesis HR : forall keep prev fl depth vro rq,
    resolve_request v1 m1 rc (db_of cfg fw) keep prev fl depth vro rq =
    resolve_request v2 m2 rc (db_of cfg fw) keep prev fl depth vro rq.

  Lemma run_actions_full_ext (r1 r2 : full_fn) :
    (forall st al vro name li fwd depth just, r1 st al vro name li fwd depth just = r2 st al vro name li fwd depth just) ->
    forall fwd depth just vro acts infos st al,
      run_actions_full cfg r1 fwd depth just vro acts infos st al = run_actions_full cfg r2 fwd depth just vro acts infos st al.
  Proof.
    intros H fwd depth just vro acts. induction acts as [|a acts IH]; intros infos st al; [reflexivity|].
    cbn [run_actions_full]. destruct a; try (destruct (exec_simple fwd _ st); [apply IH|reflexivity]).
    destruct (cut_off cfg just (S depth)); [apply IH|]. rewrite H.
    destruct (r2 st al (child_vro vro) name (hd no_info infos) fwd (S depth) just0) as [[|] st' al' tr|st' al' tr|tr|tr];
      try reflexivity; try (destruct (fwd && negb optional); [reflexivity|]); now rewrite IH.
  Qed.

  Lemma setup_full_step_ext (r1 r2 : full_fn) :
    (forall st al vro name li fwd depth just, r1 st al vro name li fwd depth just = r2 st al vro name li fwd depth just) ->
    forall st al vro name li fwd depth just,
      setup_full_step v1 m1 fw cfg rc flavors r1 st al vro name li fwd depth just =
      setup_full_step v2 m2 fw cfg rc flavors r2 st al vro name li fwd depth just.
  Proof.
    intros H st al vro name li fwd depth just. unfold setup_full_step. destruct fwd.
    - rewrite HR. destruct (resolve_request v2 m2 rc _ _ _ _ _ _ _) as [[[fd why]|]|]; try reflexivity.
      destruct (find_pv (fw_products fw) name (fd_version fd)) as [p|]; [|reflexivity].
      destruct (same_product p _ && negb (depth =? 0)); [reflexivity|].
      destruct (find_setup_product (fw_products fw) (s_env st) name).
      + rewrite H. destruct (r2 st _ vro name no_info false depth _) as [ok st1 al2 tr0|st1 al2 tr0|tr0|tr0]; try reflexivity.
        now rewrite (run_actions_full_ext r1 r2 H).
      + now rewrite (run_actions_full_ext r1 r2 H).
    - destruct (find_setup_product (fw_products fw) (s_env st) name); [|reflexivity].
      apply (run_actions_full_ext r1 r2 H).
  Qed.

  Lemma setup_full_ext fuel : forall st al vro name li fwd depth just,
    setup_full v1 m1 fw cfg rc flavors fuel st al vro name li fwd depth just =
    setup_full v2 m2 fw cfg rc flavors fuel st al vro name li fwd depth just.
  Proof.
    induction fuel as [|k IH]; [reflexivity|]. intros. cbn [setup_full]. now apply setup_full_step_ext.
  Qed.

  Lemma request_full_ext fuel st name version fwd just :
    request_full v1 m1 fw cfg rc flavors fuel st name version fwd just =
    request_full v2 m2 fw cfg rc flavors fuel st name version fwd just.
  Proof. unfold request_full. destruct (select_vro rc _); [|reflexivity]. now rewrite setup_full_ext. Qed.

End FullExt.

Lemma fw_conv_names cfg fw n : fw_conv fw = true -> conv_names (names_of (db_of cfg fw) n) = true.
Proof.
  unfold fw_conv. intro H. rewrite conv_names_forall. rewrite forallb_forall in H. intros v Hv. apply H.
  unfold names_of, db_of in Hv. simpl in Hv. rewrite app_nil_r in Hv. apply in_flat_map in Hv.
  destruct Hv as [[[n' v'] f'] [Hd Hv]]. apply in_map_iff in Hd. destruct Hd as [p [Ep Hp]].
  unfold decl_of in Ep. injection Ep as <- <- <-. destruct (str_eqb n (p_name p)); [|contradiction].
  destruct Hv as [<-|[]]. now apply in_map.
Qed.

Lemma resolve_real_is_sorted cfg fw rc :
  fw_conv fw = true -> db_sorted (db_of cfg fw) = true ->
  forall keep prev fl depth vro rq,
    resolve_request vcmp_real vmatch_real rc (db_of cfg fw) keep prev fl depth vro rq =
    resolve_request vcmp_sorted vmatch_real rc (db_of cfg fw) keep prev fl depth vro rq.
Proof.
  intros C S keep prev fl depth vro rq. apply resolve_request_congr.
  - intros n f. apply find_latest_one_stack; [exact S|now apply fw_conv_names].
  - intros n x f. apply expr_one_stack; [exact S|now apply fw_conv_names].
Qed.

Lemma setup_full_real_is_sorted cfg fw rc flavors fuel st al vro name li fwd depth just :
  fw_conv fw = true -> db_sorted (db_of cfg fw) = true ->
  setup_full_real fw cfg rc flavors fuel st al vro name li fwd depth just =
  setup_full vcmp_sorted vmatch_real fw cfg rc flavors fuel st al vro name li fwd depth just.
Proof. intros C S. apply setup_full_ext. now apply resolve_real_is_sorted. Qed.

Lemma request_full_real_is_sorted cfg fw rc flavors fuel st name version fwd just :
  fw_conv fw = true -> db_sorted (db_of cfg fw) = true ->
  request_full_real fw cfg rc flavors fuel st name version fwd just =
  request_full vcmp_sorted vmatch_real fw cfg rc flavors fuel st name version fwd just.
Proof. intros C S. apply request_full_ext. now apply resolve_real_is_sorted. Qed.

Lemma fw_conv_total_sorted cfg fw :
  fw_conv fw = true -> forall n, total_order_on vcmp_sorted (names_of (db_of cfg fw) n).
Proof. intros C n. apply sorted_total_order. now apply fw_conv_names. Qed.
