(* The consistency invariant of the environment is preserved by setup and unsetup (C01, C02), on top of the
   frame theorem of Proofs/SetupFrame.v.
   [WF2]: the hypotheses on a world beyond WF, with [known], the names apartness is asked of.  [clause name e]: what
   the environment says of one product name - the recorded version is present, the others are absent; [Inv]: every
   clause; [lowinv r]: the clauses of the names of rank below r.  [agree_on]: two environments agree on what a
   table contributes; Section Outside: a frame leaves a name it does not cover as it was.  [midway]: the state
   while the table of a product is executed.  [fn_inv]: what the induction proves of a call - the invariant up to
   the rank of the name, the record gone after an unsetup, and at depth 0 the decided version recorded.
   The projections of SetupFrame.WF take the world and the delimiters implicitly from here on. *)
From Eupsv Require Import Base.Base Base.BaseLemmas Model.PathAlg Proofs.PathAlg Model.Setup Proofs.SetupFrame.

Arguments wf_path {w dl} _.
Arguments wf_set {w dl} _.
Arguments wf_nounset {w dl} _.
Arguments wf_path_not_set {w dl} _.
Arguments wf_path_not_reserved {w dl} _.
Arguments wf_set_not_reserved {w dl} _.

Lemma declared_dec (l : world) n :
  (exists p, In p l /\ p_name p = n) \/ (forall p, ~ (In p l /\ p_name p = n)).
Proof.
  induction l as [|q l IH].
  - right. intros p [[] _].
  - destruct (str_eq_dec (p_name q) n) as [E|N].
    + left. exists q. split; [now left|assumption].
    + destruct IH as [[p [Hin Hn]]|Hno].
      * left. exists p. split; [now right|assumption].
      * right. intros p [[<-|Hin] Hn]; [now apply N|]. apply (Hno p). split; assumption.
Qed.

Section Inv.
Variable w : world.
Variable cfg : config.
Variable dl : str -> ascii.
Variable rank : str -> nat.            (* a witness that the dependency graph over names is acyclic *)

Notation has_name := (has_name w).
Notation own_var := (own_var w).
Notation own_elem := (own_elem w).
Notation path_var := (path_var w).
Notation set_var := (set_var w).
Notation touches := (touches w).
Notation nodollar_paths := (nodollar_paths w).
Notation env_frame := (env_frame w dl).
Notation levels := (levels cfg).
Notation depth_ok := (depth_ok cfg).

Definition word (x : str) : Prop := x <> [] /\ mem_ascii c_space x = false.

(* the names the world speaks about: names of declared products and targets of setupRequired /
   setupOptional lines.  own_var n k holds of ANY string n for its three reserved variables, and two
   different strings can have the same upper-case form (SETUP_A is owned by both a and A), so apartness
   of variables can only be asked of names the world knows. *)
Definition known (n : str) : Prop :=
  exists p, In p w /\ (p_name p = n \/ exists o j, In (ASetup o n j) (p_actions p)).

Record WF2 : Prop := {
  wf_base : WF w dl;
  wf_rank : forall n m, dep_edge w n m -> rank m < rank n;
  wf_elem_apart : forall n m var v, n <> m -> own_elem n var v -> ~ own_elem m var v;
  wf_var_apart : forall n m k, known n -> known m -> n <> m -> own_var n k -> ~ own_var m k;
  wf_versions_path : forall p q ap var v d ap' d', In p w -> In q w -> p_name p = p_name q -> p <> q ->
      In (APath ap var v d) (p_actions p) -> ~ In (APath ap' var v d') (p_actions q);
  wf_versions_set : forall p q k v, In p w -> In q w -> p_name p = p_name q -> p <> q ->
      In (ASet k v) (p_actions p) -> ~ In (ASet k v) (p_actions q);
  wf_set_once : forall p k v v', In p w -> In (ASet k v) (p_actions p) -> In (ASet k v') (p_actions p) -> v = v';
  wf_keys : forall p q, In p w -> In q w -> p_name p = p_name q -> p_version p = p_version q -> p = q;
  wf_words : forall p, In p w -> word (p_name p) /\ word (p_version p) /\ p_version p <> lit "-f"
}.

Definition present (p : product) (e : amap str) : Prop :=
  (forall ap var v d, In (APath ap var v d) (p_actions p) -> In v (elems d (oldv var e))) /\
  (forall k v, In (ASet k v) (p_actions p) -> alookup k e = Some v).

Definition absent (p : product) (e : amap str) : Prop :=
  (forall ap var v d, In (APath ap var v d) (p_actions p) -> ~ In v (elems d (oldv var e))) /\
  (forall k v, In (ASet k v) (p_actions p) -> alookup k e <> Some v).

(* what the environment says about one product name *)
Definition clause (name : str) (e : amap str) : Prop :=
  match find_setup_product w e name with
  | Some p => alookup (dir_var name) e = Some (p_dir p) /\ present p e /\
              forall q, has_name name q -> q <> p -> absent q e
  | None => forall q, has_name name q -> absent q e
  end.

Definition Inv (e : amap str) : Prop := forall name, clause name e.
Definition lowinv (r : nat) (e : amap str) : Prop := forall n, rank n < r -> clause n e.

Definition progress (fwd : bool) (p : product) (todo : list action) (e : amap str) : Prop :=
  (forall ap var v d, In (APath ap var v d) (p_actions p) ->
     In (APath ap var v d) todo \/
     (if fwd then In v (elems d (oldv var e)) else ~ In v (elems d (oldv var e)))) /\
  (forall k v, In (ASet k v) (p_actions p) ->
     In (ASet k v) todo \/ (if fwd then alookup k e = Some v else alookup k e <> Some v)).

(* what holds about the product name while the table of p is being processed *)
Definition during (fwd : bool) (name : str) (p : product) (e : amap str) : Prop :=
  (if fwd then alookup (setup_var name) e = Some (setup_string cfg name (p_version p)) /\
               alookup (dir_var name) e = Some (p_dir p)
   else alookup (setup_var name) e = None) /\
  (forall q, has_name name q -> q <> p -> absent q e) /\
  lowinv (rank name) e /\ nodollar_paths e.

(* the table of p is being executed, the lines [todo] are still to come *)
Definition midway (fwd : bool) (name : str) (p : product) (todo : list action) (e : amap str) : Prop :=
  progress fwd p todo e /\ during fwd name p e.

Lemma known_has_name n p : has_name n p -> known n.
Proof. intros [Hin Hn]. exists p. split; [assumption|now left]. Qed.

Lemma known_dep n m : dep_edge w n m -> known m.
Proof. intros [p [o [j [[Hin _] Ha]]]]. exists p. split; [assumption|right; now exists o, j]. Qed.

Lemma touches_known b n k : known n -> touches b n k -> known k.
Proof.
  intros Kn Ht. induction Ht as [b n|b n m k Hp He Ht IH]; [assumption|].
  apply IH. now apply (known_dep n m).
Qed.

Lemma setup_step_undeclared rec st ds name fwd depth just :
  (forall p, ~ has_name name p) ->
  match setup_step w cfg rec st ds name fwd depth just with
  | RDone ok st' _ => ok = false /\ st' = st
  | RRaise _ _ => False
  | _ => True
  end.
Proof.
  intro Hno. unfold setup_step.
  assert (Hf : forall e, find_setup_product w e name = None).
  { intro e. destruct (find_setup_product w e name) as [p|] eqn:E; [|reflexivity].
    exfalso. apply (Hno p). now apply (find_setup_product_spec w e name p). }
  destruct fwd.
  - destruct ds as [|[v|] ds1]; auto.
    destruct (find_pv w name v) as [p|] eqn:E; auto.
    exfalso. apply (Hno p). now destruct (find_pv_spec w name v p E).
  - rewrite Hf. auto.
Qed.

Lemma touches_rank (H : WF2) b n k : touches b n k -> k = n \/ rank k < rank n.
Proof.
  induction 1 as [b n|b n m k Hp He Ht IH]; [now left|].
  right. pose proof (wf_rank H n m He) as X. destruct IH as [->|IH]; [exact X|exact (Nat.lt_trans _ _ _ IH X)].
Qed.

Lemma touches_not_above (H : WF2) b n k : touches b n k -> rank n < rank k -> False.
Proof.
  intros Ht Hr. destruct (touches_rank H b n k Ht) as [->|X]; [exact (Nat.lt_irrefl _ Hr)|exact (Nat.lt_asymm _ _ Hr X)].
Qed.

Lemma words_head x y : word x -> words (x ++ c_space :: y) = x :: words y.
Proof.
  intros [Hne Hsp]. unfold words. rewrite (split_on_app c_space x y Hsp). cbn [filter].
  destruct x; [congruence|reflexivity].
Qed.

Lemma recorded_setup_string name v :
  word name -> word v -> v <> lit "-f" -> recorded_version (setup_string cfg name v) = Some v.
Proof.
  intros Hn Hv Hf. unfold recorded_version, setup_string.
  replace (name ++ [c_space] ++ v ++ lit " -f " ++ flavor_of cfg name v ++ lit " -Z " ++ encode_path (c_root cfg))
    with (name ++ c_space :: (v ++ c_space :: (lit "-f " ++ flavor_of cfg name v ++ lit " -Z " ++ encode_path (c_root cfg)))).
  - rewrite (words_head name _ Hn), (words_head v _ Hv).
    destruct (str_eqb_spec v (lit "-f")); [contradiction|reflexivity].
  - change (lit " -f ") with (c_space :: lit "-f "). reflexivity.
Qed.

Lemma app_length_neq {A} (a b u : list A) : length a <> length b -> a ++ u <> u ++ b.
Proof.
  intros N E. apply N. apply (f_equal (@length A)) in E. rewrite !app_length, (Nat.add_comm (length a)) in E.
  exact (proj1 (Nat.add_cancel_l _ _ _) E).
Qed.

Lemma setup_dir_differ name : setup_var name <> dir_var name.
Proof. apply app_length_neq. discriminate. Qed.

Lemma setup_extra_differ name : setup_var name <> extra_var name.
Proof. apply app_length_neq. discriminate. Qed.

Lemma dir_extra_differ name : dir_var name <> extra_var name.
Proof. intro E. apply app_inv_head in E. discriminate. Qed.

Lemma set_vars_setup st name p :
  alookup (setup_var name) (s_env (set_product_vars cfg st name p)) = Some (setup_string cfg name (p_version p)).
Proof. apply alookup_aset_same. Qed.

Lemma set_vars_dir st name p : alookup (dir_var name) (s_env (set_product_vars cfg st name p)) = Some (p_dir p).
Proof.
  unfold set_product_vars, set_env. cbn [s_env].
  rewrite alookup_aset_other by (apply not_eq_sym, setup_dir_differ). apply alookup_aset_same.
Qed.

Lemma set_vars_lookup name p st k : k <> setup_var name -> k <> dir_var name ->
  alookup k (s_env (set_product_vars cfg st name p)) = alookup k (s_env st).
Proof.
  intros N1 N2. unfold set_product_vars, set_env. cbn [s_env].
  now rewrite (alookup_aset_other _ _ _ _ N1), (alookup_aset_other _ _ _ _ N2).
Qed.

Lemma unset_vars_gone name st k : k = setup_var name \/ k = dir_var name \/ k = extra_var name ->
  alookup k (s_env (unset_product_vars st name)) = None.
Proof.
  unfold unset_product_vars, unset_env. cbn [s_env]. intros [-> | [-> | ->]].
  - rewrite alookup_aremove_other by apply setup_extra_differ. apply alookup_aremove_same.
  - rewrite alookup_aremove_other by apply dir_extra_differ.
    rewrite alookup_aremove_other by (apply not_eq_sym, setup_dir_differ). apply alookup_aremove_same.
  - apply alookup_aremove_same.
Qed.

Lemma unset_vars_lookup name st k : k <> setup_var name -> k <> dir_var name -> k <> extra_var name ->
  alookup k (s_env (unset_product_vars st name)) = alookup k (s_env st).
Proof.
  intros N1 N2 N3. unfold unset_product_vars, unset_env. cbn [s_env].
  now rewrite (alookup_aremove_other _ _ _ N3), (alookup_aremove_other _ _ _ N1), (alookup_aremove_other _ _ _ N2).
Qed.

Lemma find_none_when_unset e name : alookup (setup_var name) e = None -> find_setup_product w e name = None.
Proof. intro E. unfold find_setup_product. now rewrite E. Qed.

Lemma clause_unrecorded name e :
  clause name e -> find_setup_product w e name = None -> forall q, has_name name q -> absent q e.
Proof. intros C E. unfold clause in C. now rewrite E in C. Qed.

Lemma all_absent_of_clause name e :
  clause name e -> alookup (setup_var name) e = None -> forall q, has_name name q -> absent q e.
Proof. intros C E. exact (clause_unrecorded name e C (find_none_when_unset e name E)). Qed.

(* no boolean test decides the equality of products (records of lists of actions); within a WF2 world the
   name/version key does *)
Lemma wf_keys_dec_in (H : WF2) q sp : In q w -> In sp w -> p_name q = p_name sp -> q = sp \/ q <> sp.
Proof.
  intros Hq Hs Hn. destruct (str_eq_dec (p_version q) (p_version sp)) as [E|N].
  - left. now apply (wf_keys H).
  - right. intros ->. now apply N.
Qed.

Lemma find_pv_declared (l : world) p : In p l -> exists q, find_pv l (p_name p) (p_version p) = Some q.
Proof.
  induction l as [|p0 l IH]; [intros []|]. intros [->|Hin]; cbn [find_pv].
  - rewrite !str_eqb_refl. now exists p.
  - destruct (str_eqb (p_name p0) (p_name p) && str_eqb (p_version p0) (p_version p)); [now exists p0|now apply IH].
Qed.

Lemma find_pv_complete (H : WF2) p : In p w -> find_pv w (p_name p) (p_version p) = Some p.
Proof.
  intro Hin. destruct (find_pv_declared w p Hin) as [q E]. rewrite E. f_equal.
  destruct (find_pv_in w _ _ q E) as [Hq [Hn Hv]]. now apply (wf_keys H).
Qed.

Lemma find_setup_product_written (H : WF2) name p e :
  has_name name p -> alookup (setup_var name) e = Some (setup_string cfg name (p_version p)) ->
  find_setup_product w e name = Some p.
Proof.
  intros [Hin <-] DS. destruct (wf_words H p Hin) as [Wn [Wv Wf]].
  unfold find_setup_product. rewrite DS, (recorded_setup_string _ _ Wn Wv Wf). now apply find_pv_complete.
Qed.

Lemma set_not_path (H : WF2) p k v : In p w -> In (ASet k v) (p_actions p) -> ~ path_var k.
Proof.
  intros Hin Ha Hp. apply (wf_path_not_set (wf_base H) k Hp). exists p, v. split; assumption.
Qed.

Lemma own_set m p k v : has_name m p -> In (ASet k v) (p_actions p) -> own_var m k.
Proof. intros Hp Ha. right; right; right. exists p, v. split; assumption. Qed.

(* e' agrees with e on what the table of p contributes *)
Definition agree_on (p : product) (e e' : amap str) : Prop :=
  (forall ap var v d, In (APath ap var v d) (p_actions p) ->
     (In v (elems d (oldv var e')) <-> In v (elems d (oldv var e)))) /\
  (forall k v, In (ASet k v) (p_actions p) -> alookup k e' = alookup k e).

Lemma agree_present p e e' : agree_on p e e' -> present p e -> present p e'.
Proof.
  intros [P S] [A B]. split.
  - intros ap var v d Ha. apply (P ap var v d Ha), (A ap var v d Ha).
  - intros k v Ha. rewrite (S k v Ha). exact (B k v Ha).
Qed.

Lemma agree_absent p e e' : agree_on p e e' -> absent p e -> absent p e'.
Proof.
  intros [P S] [A B]. split.
  - intros ap var v d Ha Hin. apply (A ap var v d Ha), (P ap var v d Ha), Hin.
  - intros k v Ha. rewrite (S k v Ha). exact (B k v Ha).
Qed.

Lemma agree_progress fwd p todo e e' : agree_on p e e' -> progress fwd p todo e -> progress fwd p todo e'.
Proof.
  intros [P S] [PP PS]. split.
  - intros ap var v d Ha. destruct (PP ap var v d Ha) as [Ht|Hs]; [now left|right].
    pose proof (P ap var v d Ha) as I. destruct fwd; [apply I, Hs|intro Hx; apply Hs, I, Hx].
  - intros k v Ha. destruct (PS k v Ha) as [Ht|Hs]; [now left|right]. rewrite (S k v Ha). exact Hs.
Qed.

Lemma clause_undeclared m e : (forall p, ~ has_name m p) -> clause m e.
Proof.
  intro Hno. unfold clause. destruct (find_setup_product w e m) as [p|] eqn:Hf.
  - exfalso. apply (Hno p). now apply (find_setup_product_spec w e m p).
  - intros q Hq. exfalso. now apply (Hno q).
Qed.

(* What a frame says of a name m outside the set N of names it covers: everything the environment holds for m is
   the same on both sides. *)
Section Outside.
Variable H : WF2.
Variable N : str -> Prop.
Variables e e' : amap str.
Variable m : str.
Hypothesis F : env_frame N e e'.
Hypothesis HN : forall n, N n -> n <> m.
Hypothesis HK : forall n, N n -> known n.


Lemma frame_elem p ap var v d : has_name m p -> In (APath ap var v d) (p_actions p) ->
  (In v (elems d (oldv var e')) <-> In v (elems d (oldv var e))).
Proof.
  intros [Hin Hnm] Ha.
  destruct (wf_path (wf_base H) p ap var v d Hin Ha) as [_ [_ Hd]]. subst d.
  apply mask_In_iff. apply (ef_paths w dl N e e' F).
  - exists p, ap, v, (dl var). split; assumption.
  - intros n x Hn Hown. apply str_eqb_neq. intros ->.
    apply (wf_elem_apart H n m var v (HN n Hn) Hown).
    exists p, ap, (dl var). split; [split|]; assumption.
Qed.

Lemma frame_var k : known m -> own_var m k -> ~ path_var k -> alookup k e' = alookup k e.
Proof.
  intros Km Hown Hnp. apply (ef_vars w dl N e e' F); [assumption|].
  intros n Hn Hon. apply (wf_var_apart H n m k (HK n Hn) Km (HN n Hn) Hon Hown).
Qed.

Lemma frame_agree p : has_name m p -> agree_on p e e'.
Proof.
  intro Hp. split.
  - intros ap var v d Ha. exact (frame_elem p ap var v d Hp Ha).
  - intros k v Ha. exact (frame_var k (known_has_name m p Hp) (own_set m p k v Hp Ha) (set_not_path H p k v (proj1 Hp) Ha)).
Qed.

Lemma reserved_frame_var k : known m ->
  k = setup_var m \/ k = dir_var m \/ k = extra_var m -> alookup k e' = alookup k e.
Proof.
  intros Km Hk. apply (frame_var k Km (own_var_reserved w m k Hk)).
  apply (reserved_not_path w dl (wf_base H)). now exists m.
Qed.

Lemma frame_find : known m -> find_setup_product w e' m = find_setup_product w e m.
Proof. intro Km. unfold find_setup_product. now rewrite (reserved_frame_var _ Km (or_introl eq_refl)). Qed.

Lemma frame_clause : clause m e -> clause m e'.
Proof.
  destruct (declared_dec w m) as [[p0 Hp0]|Hno]; [|intros _; now apply clause_undeclared].
  pose proof (known_has_name m p0 Hp0) as Km.
  unfold clause. rewrite (frame_find Km).
  destruct (find_setup_product w e m) as [p|] eqn:Hf.
  - intros [D [P A]]. pose proof (find_setup_product_spec w e m p Hf) as Hp. split; [|split].
    + now rewrite (reserved_frame_var _ Km (or_intror (or_introl eq_refl))).
    + exact (agree_present p e e' (frame_agree p Hp) P).
    + intros q Hq Hne. exact (agree_absent q e e' (frame_agree q Hq) (A q Hq Hne)).
  - intros A q Hq. exact (agree_absent q e e' (frame_agree q Hq) (A q Hq)).
Qed.

Lemma during_frame fwd p : has_name m p -> lowinv (rank m) e' -> nodollar_paths e' ->
  during fwd m p e -> during fwd m p e'.
Proof.
  intros Hp L' D' [DV [DA _]]. pose proof (fun k => reserved_frame_var k (known_has_name m p Hp)) as R.
  split; [|split; [|split; assumption]].
  - destruct fwd; [destruct DV as [D1 D2]; split|]; rewrite R; auto.
  - intros q Hq Hne. exact (agree_absent q e e' (frame_agree q Hq) (DA q Hq Hne)).
Qed.

End Outside.

Lemma path_step_facts (H : WF2) name p ap fwd var v d e :
  has_name name p -> In (APath ap var v d) (p_actions p) -> nodollar_paths e ->
  exists e', env_prepend ap fwd var v d e = Ok (Some e') /\ env_frame (eq name) e e' /\ nodollar_paths e' /\
    (forall k, k <> var -> alookup k e' = alookup k e) /\
    (forall x, In x (elems d (oldv var e')) <->
               if fwd then x = v \/ In x (elems d (oldv var e)) else In x (elems d (oldv var e)) /\ x <> v).
Proof.
  intros Hp Ha Hnd.
  destruct (frame_path_step w dl (wf_base H) (eq name) name p ap fwd var v d e eq_refl Hp Ha Hnd)
    as [e' [E1 [E2 [E3 [E4 G]]]]].
  exists e'. split; [assumption|]. split; [assumption|]. split; [assumption|]. split; [assumption|].
  intro x. rewrite G. destruct fwd; [apply result_fwd_In|apply result_rev_In].
Qed.

Lemma set_step_facts (H : WF2) name p fwd k v e :
  has_name name p -> In (ASet k v) (p_actions p) -> nodollar_paths e ->
  env_set fwd k v e = Ok (Some (if fwd then aset k v e else aremove k e)) /\
  env_frame (eq name) e (if fwd then aset k v e else aremove k e) /\
  nodollar_paths (if fwd then aset k v e else aremove k e).
Proof. exact (frame_set_step w dl (wf_base H) (eq name) name p fwd k v e eq_refl). Qed.

Lemma reserved_neq_path (H : WF2) var k : path_var var -> reserved k -> k <> var.
Proof. intros Hv Hr ->. now apply (wf_path_not_reserved (wf_base H) var). Qed.

Lemma reserved_neq_set (H : WF2) k r : set_var k -> reserved r -> r <> k.
Proof. intros Hs Hr ->. now apply (wf_set_not_reserved (wf_base H) k). Qed.

Lemma lowinv_frame_self (H : WF2) name e e' :
  known name -> env_frame (eq name) e e' -> lowinv (rank name) e -> lowinv (rank name) e'.
Proof.
  intros Kn F L n Hn. apply (frame_clause H (eq name) e e' n F); [| |now apply L].
  - intros x <-. intros ->. exact (Nat.lt_irrefl _ Hn).
  - now intros x <-.
Qed.

Lemma dl_of (H : WF2) p ap var v d : In p w -> In (APath ap var v d) (p_actions p) -> d = dl var.
Proof. intros Hin Ha. now destruct (wf_path (wf_base H) p ap var v d Hin Ha) as [_ [_ E]]. Qed.

Lemma own_path_step (H : WF2) fwd name p todo ap var v d e :
  has_name name p -> In (APath ap var v d) (p_actions p) -> midway fwd name p (APath ap var v d :: todo) e ->
  exists e', env_prepend ap fwd var v d e = Ok (Some e') /\ midway fwd name p todo e'.
Proof.
  intros Hp Ha [[PP PS] [DV [DA [DL DN]]]].
  destruct (path_step_facts H name p ap fwd var v d e Hp Ha DN) as [e' [E1 [E2 [E3 [E4 E5]]]]].
  exists e'. split; [assumption|].
  assert (Hpv : path_var var) by (exists p, ap, v, d; split; [apply Hp|assumption]).
  assert (Hin : In p w) by apply Hp.
  split; [split|split; [|split; [|split]]].
  - (* path facts *)
    intros ap2 var2 v2 d2 Ha2. destruct (PP ap2 var2 v2 d2 Ha2) as [[Eq|Ht]|Hs].
    + injection Eq as <- <- <- <-. right. destruct fwd.
      * apply E5. now left.
      * intro Hx. apply E5 in Hx. now destruct Hx.
    + now left.
    + right. destruct (str_eq_dec var2 var) as [->|Nv].
      * assert (d2 = d) by (rewrite (dl_of H p ap2 var v2 d2 Hin Ha2), (dl_of H p ap var v d Hin Ha); reflexivity).
        subst d2. destruct fwd.
        -- apply E5. now right.
        -- intro Hx. apply E5 in Hx. now destruct Hx.
      * unfold oldv. rewrite E4 by assumption. exact Hs.
  - (* set facts *)
    intros k2 v2 Ha2. destruct (PS k2 v2 Ha2) as [[Eq|Ht]|Hs]; [discriminate|now left|right].
    assert (k2 <> var).
    { intros ->. apply (wf_path_not_set (wf_base H) var Hpv). exists p, v2. split; assumption. }
    rewrite E4 by assumption. exact Hs.
  - (* the product's own variables *)
    pose proof (reserved_neq_path H var _ Hpv (proj1 (reserved_vars name))) as R1.
    pose proof (reserved_neq_path H var _ Hpv (proj1 (proj2 (reserved_vars name)))) as R2.
    destruct fwd; [destruct DV; split|]; rewrite E4; assumption.
  - (* the other versions stay absent *)
    intros q Hq Hne. destruct (DA q Hq Hne) as [QA QS]. split.
    + intros ap2 var2 v2 d2 Ha2. destruct (str_eq_dec var2 var) as [->|Nv].
      * assert (d2 = d) by (rewrite (dl_of H q ap2 var v2 d2 (proj1 Hq) Ha2), (dl_of H p ap var v d Hin Ha); reflexivity).
        subst d2. intro Hx. apply E5 in Hx. destruct fwd.
        -- destruct Hx as [->|Hx]; [|now apply (QA ap2 var v2 d Ha2)].
           assert (Hnn : p_name p = p_name q) by (destruct Hp as [_ ->]; now destruct Hq as [_ ->]).
           assert (Hpq : p <> q) by congruence.
           exact (wf_versions_path H p q ap var v d ap2 d Hin (proj1 Hq) Hnn Hpq Ha Ha2).
        -- destruct Hx as [Hx _]. now apply (QA ap2 var v2 d Ha2).
      * unfold oldv. rewrite E4 by assumption. now apply (QA ap2 var2 v2 d2).
    + intros k2 v2 Ha2. assert (k2 <> var).
      { intros ->. apply (wf_path_not_set (wf_base H) var Hpv). exists q, v2. split; [apply Hq|assumption]. }
      rewrite E4 by assumption. now apply (QS k2 v2).
  - now apply (lowinv_frame_self H name e e' (known_has_name name p Hp)).
  - assumption.
Qed.

Lemma own_set_step (H : WF2) fwd name p todo k v e :
  has_name name p -> In (ASet k v) (p_actions p) -> midway fwd name p (ASet k v :: todo) e ->
  let e' := if fwd then aset k v e else aremove k e in
  env_set fwd k v e = Ok (Some e') /\ midway fwd name p todo e'.
Proof.
  intros Hp Ha [[PP PS] [DV [DA [DL DN]]]] e'.
  destruct (set_step_facts H name p fwd k v e Hp Ha DN) as [E1 [E2 E3]]. fold e' in E1, E2, E3.
  split; [assumption|].
  assert (Hin : In p w) by apply Hp.
  assert (Hsv : set_var k) by (exists p, v; split; assumption).
  assert (Hnp : ~ path_var k) by (intro Hx; now apply (wf_path_not_set (wf_base H) k Hx)).
  assert (Hold : forall var, path_var var -> oldv var e' = oldv var e).
  { intros var Hv. subst e'. destruct fwd; [apply oldv_other|apply oldv_other_remove]; intros ->; contradiction. }
  assert (Hother : forall k2, k2 <> k -> alookup k2 e' = alookup k2 e).
  { intros k2 N. subst e'. destruct fwd; [now apply alookup_aset_other|now apply alookup_aremove_other]. }
  assert (Hself : if fwd then alookup k e' = Some v else alookup k e' = None).
  { subst e'. destruct fwd; [apply alookup_aset_same|apply alookup_aremove_same]. }
  split; [split|split; [|split; [|split]]].
  - intros ap2 var2 v2 d2 Ha2. destruct (PP ap2 var2 v2 d2 Ha2) as [[Eq|Ht]|Hs]; [discriminate|now left|right].
    rewrite Hold; [exact Hs|]. exists p, ap2, v2, d2. split; assumption.
  - intros k2 v2 Ha2. destruct (PS k2 v2 Ha2) as [[Eq|Ht]|Hs].
    + injection Eq as <- <-. right. destruct fwd; [assumption|]. rewrite Hself. discriminate.
    + now left.
    + right. destruct (str_eq_dec k2 k) as [->|N].
      * destruct fwd.
        -- rewrite Hself. f_equal. now apply (wf_set_once H p k v v2 Hin).
        -- rewrite Hself. discriminate.
      * rewrite Hother by assumption. exact Hs.
  - pose proof (reserved_neq_set H k _ Hsv (proj1 (reserved_vars name))) as R1.
    pose proof (reserved_neq_set H k _ Hsv (proj1 (proj2 (reserved_vars name)))) as R2.
    destruct fwd; [destruct DV; split|]; rewrite Hother; assumption.
  - intros q Hq Hne. destruct (DA q Hq Hne) as [QA QS]. split.
    + intros ap2 var2 v2 d2 Ha2. rewrite Hold; [now apply (QA ap2 var2 v2 d2)|].
      exists q, ap2, v2, d2. split; [apply Hq|assumption].
    + intros k2 v2 Ha2. destruct (str_eq_dec k2 k) as [->|N].
      * destruct fwd.
        -- rewrite Hself. intro Eq. injection Eq as ->.
           assert (Hnn : p_name p = p_name q) by (destruct Hp as [_ ->]; now destruct Hq as [_ ->]).
           assert (Hpq : p <> q) by congruence.
           exact (wf_versions_set H p q k v2 Hin (proj1 Hq) Hnn Hpq Ha Ha2).
        -- rewrite Hself. discriminate.
      * rewrite Hother by assumption. now apply (QS k2 v2).
  - now apply (lowinv_frame_self H name e e' (known_has_name name p Hp)).
  - assumption.
Qed.

Definition fn_inv (rec : setup_fn) : Prop :=
  forall st ds name fwd depth just,
    nodollar_paths (s_env st) -> depth_ok depth -> lowinv (S (rank name)) (s_env st) ->
    match rec st ds name fwd depth just with
    | RDone ok st' _ =>
        lowinv (S (rank name)) (s_env st') /\
        (fwd = false -> find_setup_product w (s_env st) name <> None ->
         alookup (setup_var name) (s_env st') = None) /\
        (fwd = true -> depth = 0 -> ok = true -> forall v ds1, ds = Some v :: ds1 ->
         exists p, find_pv w name v = Some p /\ find_setup_product w (s_env st') name = Some p)
    | _ => True
    end.

(* a call on [name] leaves the clauses of the other names of its rank or above as they were *)
Lemma clause_untouched (H : WF2) b name e e' n :
  known name -> env_frame (touches b name) e e' -> n <> name -> rank name <= rank n -> clause n e -> clause n e'.
Proof.
  intros Kn F Nn Hge. apply (frame_clause H _ e e' n F).
  - intros x Hx ->. destruct (touches_rank H _ _ _ Hx) as [E|E]; [now apply Nn|].
    exact (Nat.lt_irrefl _ (Nat.lt_le_trans _ _ _ E Hge)).
  - intros x Hx. now apply (touches_known b name x).
Qed.

Lemma nested_call (H : WF2) (rec : setup_fn) fwd name p todo m depth j st ds :
  fn_framed w cfg dl rec -> fn_inv rec -> has_name name p -> dep_edge w name m -> depth_ok (S depth) ->
  midway fwd name p todo (s_env st) ->
  match rec st ds m fwd (S depth) j with
  | RDone _ st' _ => midway fwd name p todo (s_env st')
  | _ => True
  end.
Proof.
  intros Hok Hinv Hp He Hd [PR DU].
  pose proof DU as [_ [_ [DL DN]]].
  pose proof (wf_rank H name m He) as Hr.
  assert (HN : forall n, touches (levels (S depth) j) m n -> n <> name).
  { intros n Ht ->. exact (touches_not_above H _ _ _ Ht Hr). }
  assert (HK : forall n, touches (levels (S depth) j) m n -> known n).
  { intros n Ht. apply (touches_known (levels (S depth) j) m n); [now apply (known_dep name m)|assumption]. }
  pose proof (Hok st ds m fwd (S depth) j DN Hd) as G.
  assert (Hlow : lowinv (S (rank m)) (s_env st)) by (intros n Hn; exact (DL n (Nat.lt_le_trans _ _ _ Hn Hr))).
  pose proof (Hinv st ds m fwd (S depth) j DN Hd Hlow) as I.
  destruct (rec st ds m fwd (S depth) j) as [ok st' ds'|st' ds'| |]; auto.
  destruct G as [[F _] D']. destruct I as [L' _].
  (* names up to the rank of m: by the callee; names above, below name: not touched *)
  assert (Lname : lowinv (rank name) (s_env st')).
  { intros n Hn. destruct (Nat.le_gt_cases (rank n) (rank m)) as [Hle|Hgt].
    - apply L', Nat.lt_succ_r, Hle.
    - apply (clause_untouched H _ m _ _ n (known_dep name m He) F); [|exact (Nat.lt_le_incl _ _ Hgt)|exact (DL n Hn)].
      intros ->. exact (Nat.lt_irrefl _ Hgt). }
  split.
  - exact (agree_progress fwd p todo _ _ (frame_agree H _ _ _ name F HN HK p Hp) PR).
  - exact (during_frame H _ _ _ name F HN HK fwd p Hp Lname D' DU).
Qed.

Lemma midway_tail fwd name p a todo e :
  (forall ap var v d, a <> APath ap var v d) -> (forall k v, a <> ASet k v) ->
  midway fwd name p (a :: todo) e -> midway fwd name p todo e.
Proof.
  intros N1 N2 [[PP PS] DU]. split; [split|exact DU].
  - intros ap var v d Ha. destruct (PP ap var v d Ha) as [[Eq|Ht]|Hs]; auto. elim (N1 ap var v d Eq).
  - intros k v Ha. destruct (PS k v Ha) as [[Eq|Ht]|Hs]; auto. elim (N2 k v Eq).
Qed.

Lemma run_actions_inv (H : WF2) (rec : setup_fn) name p fwd depth just :
  fn_framed w cfg dl rec -> fn_inv rec -> has_name name p -> depth_ok depth ->
  forall acts, incl acts (p_actions p) ->
  forall st ds, midway fwd name p acts (s_env st) ->
    match run_actions cfg rec fwd depth just acts st ds with
    | RDone _ st' _ => midway fwd name p [] (s_env st')
    | _ => True
    end.
Proof.
  intros Hok Hinv Hp Hdepth acts Hsub st0 ds0 M0.
  refine (run_actions_rule cfg rec fwd depth just (p_actions p) (fun todo st => midway fwd name p todo (s_env st))
            (fun r => match r with RDone _ st' _ => midway fwd name p [] (s_env st') | _ => True end)
            I I (fun st ds M => M) _ _ _ acts Hsub st0 ds0 M0).
  - intros a todo st ds Ha Hns M.
    destruct a as [o m j|ap var v d|k v|k|k v|]; cbn [exec_simple].
    + elim (Hns o m j eq_refl).
    + destruct (own_path_step H fwd name p todo ap var v d (s_env st) Hp Ha M) as [e' [E1 M']]. rewrite E1. exact M'.
    + destruct (own_set_step H fwd name p todo k v (s_env st) Hp Ha M) as [E1 M']. rewrite E1. exact M'.
    + elim (wf_nounset (wf_base H) p k (proj1 Hp) Ha).
    + apply (midway_tail fwd name p (AAlias k v)); [discriminate|discriminate|exact M].
    + apply (midway_tail fwd name p ANone); [discriminate|discriminate|exact M].
  - intros o m j todo st _. apply midway_tail; discriminate.
  - intros o m j todo st ds Ha Hc M.
    apply (midway_tail fwd name p (ASetup o m j)) in M; [|discriminate|discriminate].
    destruct (cut_off_false_levels cfg depth just j Hdepth Hc) as [_ [_ Hd']].
    pose proof (nested_call H rec fwd name p todo m depth j st ds Hok Hinv Hp
                  (ex_intro _ p (ex_intro _ o (ex_intro _ j (conj Hp Ha)))) Hd' M) as NC.
    destruct (rec st ds m fwd (S depth) j) as [[|] st' ds'|st' ds'| |]; try exact I; try exact NC;
      destruct (fwd && negb o); try exact I; exact M.
Qed.

Lemma absent_reserved (H : WF2) q e e' :
  In q w -> (forall k, ~ reserved k -> alookup k e' = alookup k e) -> absent q e -> absent q e'.
Proof.
  intros Hq Hsame [QA QS]. split.
  - intros ap var v d Ha. unfold oldv. rewrite Hsame; [now apply (QA ap var v d)|].
    apply (wf_path_not_reserved (wf_base H)). now exists q, ap, v, d.
  - intros k v Ha. rewrite Hsame; [now apply (QS k v)|].
    apply (wf_set_not_reserved (wf_base H)). now exists q, v.
Qed.

Lemma lowinv_call (H : WF2) b name e e' :
  known name -> env_frame (touches b name) e e' -> lowinv (S (rank name)) e ->
  lowinv (rank name) e' -> clause name e' -> lowinv (S (rank name)) e'.
Proof.
  intros Kn F Hlow L C n Hn. destruct (str_eq_dec n name) as [->|Nn]; [assumption|].
  destruct (Nat.lt_ge_cases (rank n) (rank name)) as [Hlt|Hge]; [now apply L|].
  exact (clause_untouched H b name e e' n Kn F Nn Hge (Hlow n Hn)).
Qed.

Lemma midway_set_vars (H : WF2) name p st :
  has_name name p -> lowinv (S (rank name)) (s_env st) -> nodollar_paths (s_env st) ->
  find_setup_product w (s_env st) name = None ->
  midway true name p (p_actions p) (s_env (set_product_vars cfg st name p)).
Proof.
  intros Hp L D F. split; [split; intros; now left|].
  pose proof (L name (Nat.lt_succ_diag_r _)) as A. unfold clause in A. rewrite F in A.
  destruct (set_product_vars_ok w cfg dl (wf_base H) (eq name) name p st eq_refl D) as [F2 [D2 _]].
  split; [split; [apply set_vars_setup|apply set_vars_dir]|split; [|split]].
  - intros q Hq _. apply (absent_reserved H q (s_env st) _ (proj1 Hq)); [|now apply A].
    intros k Nr. apply set_vars_lookup; intros ->; apply Nr, reserved_vars.
  - apply (lowinv_frame_self H name (s_env st) _ (known_has_name name p Hp) F2). intros n Hn. apply L, Nat.lt_lt_succ_r, Hn.
  - exact D2.
Qed.

Lemma midway_unset_vars (H : WF2) name sp st :
  find_setup_product w (s_env st) name = Some sp -> lowinv (S (rank name)) (s_env st) ->
  nodollar_paths (s_env st) ->
  midway false name sp (p_actions sp) (s_env (unset_product_vars st name)).
Proof.
  intros Hs L D. split; [split; intros; now left|]. pose proof (find_setup_product_spec w (s_env st) name sp Hs) as Hp.
  pose proof (L name (Nat.lt_succ_diag_r _)) as C. unfold clause in C. rewrite Hs in C. destruct C as [_ [_ CA]].
  destruct (unset_product_vars_ok w dl (wf_base H) (eq name) name st eq_refl D) as [F1 [D1 _]].
  split; [|split; [|split]].
  - apply unset_vars_gone. now left.
  - intros q Hq Hne. apply (absent_reserved H q (s_env st) _ (proj1 Hq)); [|now apply CA].
    intros k Nr. apply unset_vars_lookup; intros ->; apply Nr, reserved_vars.
  - apply (lowinv_frame_self H name (s_env st) _ (known_has_name name sp Hp) F1). intros n Hn. apply L, Nat.lt_lt_succ_r, Hn.
  - exact D1.
Qed.

Lemma progress_done fwd p e : progress fwd p [] e -> if fwd then present p e else absent p e.
Proof.
  intros [PP PS].
  destruct fwd; (split; [intros ap var v d Ha; now destruct (PP ap var v d Ha) as [[]|Hs]
                        |intros k v Ha; now destruct (PS k v Ha) as [[]|Hs]]).
Qed.

Lemma clause_after_setup (H : WF2) name p e :
  has_name name p -> midway true name p [] e -> clause name e.
Proof.
  intros Hp [PR [[DS DD] [DA _]]]. unfold clause. rewrite (find_setup_product_written H name p e Hp DS).
  split; [exact DD|split; [exact (progress_done true p e PR)|exact DA]].
Qed.

Lemma clause_after_unsetup (H : WF2) name sp e :
  has_name name sp -> midway false name sp [] e -> clause name e.
Proof.
  intros Hp [PR [DS [DA _]]]. unfold clause. rewrite (find_none_when_unset _ _ DS). intros q Hq.
  destruct (wf_keys_dec_in H q sp (proj1 Hq) (proj1 Hp) (eq_trans (proj2 Hq) (eq_sym (proj2 Hp)))) as [->|Hne];
    [exact (progress_done false sp e PR)|now apply DA].
Qed.

Lemma old_version_unset (rec : setup_fn) st ds name depth j :
  fn_framed w cfg dl rec -> fn_inv rec ->
  nodollar_paths (s_env st) -> depth_ok depth -> lowinv (S (rank name)) (s_env st) ->
  match (match find_setup_product w (s_env st) name with
         | Some _ => rec st ds name false depth j
         | None => RDone true st ds end) with
  | RDone _ st1 _ => lowinv (S (rank name)) (s_env st1) /\ nodollar_paths (s_env st1) /\
                     find_setup_product w (s_env st1) name = None
  | _ => True end.
Proof.
  intros Hok Hinv Hnd Hdepth Hlow. destruct (find_setup_product w (s_env st) name) as [sp|] eqn:Hs; [|now split].
  pose proof (Hinv st ds name false depth j Hnd Hdepth Hlow) as I0.
  pose proof (Hok st ds name false depth j Hnd Hdepth) as G0.
  destruct (rec st ds name false depth j) as [ok st1 ds2|st1 ds2| |]; auto.
  destruct I0 as [L1 [U1 _]]. destruct G0 as [_ D1]. split; [assumption|split; [assumption|]].
  apply find_none_when_unset. apply U1; [reflexivity|]. rewrite Hs. discriminate.
Qed.

Lemma setup_step_inv (H : WF2) (rec : setup_fn) :
  fn_framed w cfg dl rec -> fn_inv rec -> fn_inv (setup_step w cfg rec).
Proof.
  intros Hok Hinv st ds name fwd depth just Hnd Hdepth Hlow.
  destruct (declared_dec w name) as [[p0 Hp0]|Hno].
  2:{ (* an undeclared name: nothing happens *)
      pose proof (setup_step_undeclared rec st ds name fwd depth just Hno) as U.
      destruct (setup_step w cfg rec st ds name fwd depth just) as [ok st' ds'|st' ds'| |]; auto.
      destruct U as [-> ->]. split; [assumption|split; [|discriminate]].
      intros _ Hx. exfalso. destruct (find_setup_product w (s_env st) name) as [p|] eqn:E; [|now apply Hx].
      apply (Hno p). now apply (find_setup_product_spec w (s_env st) name p). }
  pose proof (known_has_name name p0 Hp0) as Kn.
  pose proof (setup_step_ok w cfg dl (wf_base H) rec Hok st ds name fwd depth just Hnd Hdepth) as G.
  unfold setup_step in G |- *. destruct fwd.
  - (* setup *)
    destruct ds as [|[v|] ds1]; [exact I| |split; [assumption|split; discriminate]].
    destruct (find_pv w name v) as [p|] eqn:Hf; [|exact I].
    destruct (find_pv_spec w name v p Hf) as [Hp Hv]. subst v.
    destruct (same_product p (find_setup_product w (s_env st) name) && negb (depth =? 0)) eqn:Hsame.
    { split; [assumption|split; [discriminate|]]. intros _ -> _. cbn in Hsame.
      rewrite andb_false_r in Hsame. discriminate. }
    pose proof (old_version_unset rec st ds1 name depth (just || c_keep cfg) Hok Hinv Hnd Hdepth Hlow) as H0.
    destruct (match find_setup_product w (s_env st) name with
              | Some _ => rec st ds1 name false depth (just || c_keep cfg)
              | None => RDone true st ds1 end) as [ok1 st1 ds2|st1 ds2| |]; try exact I.
    destruct H0 as [L1 [D1 F1]].
    pose proof (run_actions_inv H rec name p true depth just Hok Hinv Hp Hdepth (p_actions p) (incl_refl _)
                  (set_product_vars cfg st1 name p) ds2 (midway_set_vars H name p st1 Hp L1 D1 F1)) as M.
    destruct (run_actions cfg rec true depth just (p_actions p) (set_product_vars cfg st1 name p) ds2)
      as [ok st' ds'|st' ds'| |]; try exact I.
    destruct G as [[F _] _]. pose proof M as [_ DU].
    split; [|split; [discriminate|]].
    + exact (lowinv_call H _ name _ _ Kn F Hlow (proj1 (proj2 (proj2 DU))) (clause_after_setup H name p _ Hp M)).
    + intros _ _ _ v0 ds0 Eq. injection Eq as <- _. exists p. split; [exact Hf|].
      exact (find_setup_product_written H name p _ Hp (proj1 (proj1 DU))).
  - (* unsetup *)
    destruct (find_setup_product w (s_env st) name) as [sp|] eqn:Hs;
      [|split; [assumption|split; [intros _ Hx; now elim Hx|discriminate]]].
    pose proof (find_setup_product_spec w (s_env st) name sp Hs) as Hp.
    pose proof (run_actions_inv H rec name sp false depth just Hok Hinv Hp Hdepth (p_actions sp) (incl_refl _)
                  (unset_product_vars st name) ds (midway_unset_vars H name sp st Hs Hlow Hnd)) as M.
    destruct (run_actions cfg rec false depth just (p_actions sp) (unset_product_vars st name) ds)
      as [ok st' ds'|st' ds'| |]; try exact I.
    destruct G as [[F _] _]. pose proof M as [_ DU].
    split; [|split; [intros _ _; exact (proj1 DU)|discriminate]].
    exact (lowinv_call H _ name _ _ Kn F Hlow (proj1 (proj2 (proj2 DU))) (clause_after_unsetup H name sp _ Hp M)).
Qed.

Theorem setup_inv (H : WF2) fuel : fn_inv (setup w cfg fuel).
Proof.
  induction fuel as [|fuel IH].
  - intros st ds name fwd depth just _ _ _. exact I.
  - cbn [setup]. apply (setup_step_inv H); [apply (setup_frame_raise w cfg dl (wf_base H))|exact IH].
Qed.

Theorem setup_preserves_Inv (H : WF2) fuel st ds name fwd depth just ok st' ds' :
  nodollar_paths (s_env st) -> depth_ok depth -> Inv (s_env st) ->
  setup w cfg fuel st ds name fwd depth just = RDone ok st' ds' ->
  Inv (s_env st') /\ nodollar_paths (s_env st').
Proof.
  intros Hnd Hd HI Hrun.
  destruct (declared_dec w name) as [[p0 Hp0]|Hno].
  2:{ destruct fuel as [|fuel]; [discriminate|]. cbn [setup] in Hrun.
      pose proof (setup_step_undeclared (setup w cfg fuel) st ds name fwd depth just Hno) as U.
      rewrite Hrun in U. destruct U as [_ ->]. split; assumption. }
  pose proof (known_has_name name p0 Hp0) as Kn.
  pose proof (setup_inv H fuel st ds name fwd depth just Hnd Hd (fun n _ => HI n)) as I0.
  pose proof (setup_frame w cfg dl (wf_base H) fuel st ds name fwd depth just Hnd Hd) as G.
  rewrite Hrun in I0, G. destruct I0 as [L _]. destruct G as [F [D _]]. split; [|assumption].
  intro n. destruct (Nat.lt_ge_cases (rank n) (S (rank name))) as [Hlt|Hge]; [now apply L|].
  apply (clause_untouched H _ name _ _ n Kn F); [|exact (Nat.lt_le_incl _ _ Hge)|apply HI].
  intros ->. exact (Nat.lt_irrefl _ Hge).
Qed.

End Inv.

Lemma Inv_nil w : Inv w [].
Proof.
  intro name. unfold clause, find_setup_product. cbn [alookup].
  intros q _. split.
  - intros ap var v d _ Hin. exact Hin.
  - intros k v _. discriminate.
Qed.
