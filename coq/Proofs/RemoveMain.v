(* Eups.remove with both fixes: the notions the property theorems of C14 speak of ([asked], [doomed], the standing
   hypotheses and their boolean forms), the shape that [remove] and the whole command [remove_x] share
   ([two_phases]: everything that happens before the first write, from Proofs/RemoveCollect.v), what the
   destruction of Proofs/RemoveDestroy.v does to a list of asked products, and the theorems that hold of [remove]
   only (completion, errors).  The others are proved of [remove_x] in Proofs/RemoveExt.v, of which [remove] is an
   instance. *)
From Coq Require Import Lia.
From Eupsv Require Import Base.Base Base.BaseLemmas Model.Graph Model.Db Model.Remove
     Proofs.GraphLib Proofs.GraphWalk Proofs.GraphListing Proofs.GraphOrder
     Proofs.DbLib Proofs.Db Proofs.DbInv Proofs.RemoveLib Proofs.RemoveDestroy Proofs.RemoveCollect.

(* what the command is asked to remove: the product named and, with recursive, every declared product
   that its table files reach (reach_plus of C13: one or more table lines, through declared products) *)
Definition asked (w : world) (n v : str) (recursive : bool) (q : node) : Prop :=
  q = (n, Some v, true) \/
  (recursive = true /\ reach_plus w (n, Some v, true) q /\ dnode w q).

(* the declaration (stack s, product n', version v', flavor f') is the one the command removes for an
   asked product: the first stack on the path that declares it, the flavor of the Eups instance *)
Definition doomed (w : world) (c : rconf) (a : adb) (n v : str) (recursive : bool) (s n' v' f' : str) : Prop :=
  f' = rc_flavor c /\ asked w n v recursive (n', Some v', true) /\ home c a n' v' = Some s.

Definition default_undeclared (w : world) (c : rconf) : Prop := forall v, declared w (rc_default c) v = false.

(* the world describes the database: what it calls declared can be found *)
Definition coherent (w : world) (c : rconf) (a : adb) : Prop :=
  forall n v, declared w n v = true -> find_exact a (apath a) n v (rc_flavor c) <> None.

(* installation directories of different declarations are pairwise non-nested (in particular different) *)
Definition wf_dirs (a : adb) : Prop :=
  forall s1 n1 v1 f1 r1 s2 n2 v2 f2 r2,
    a_decl a s1 n1 v1 f1 = Some r1 -> a_decl a s2 n2 v2 f2 = Some r2 ->
    (s1, n1, v1, f1) <> (s2, n2, v2, f2) ->
    placeholder (fst r1) = false -> placeholder (fst r2) = false ->
    under (fst r1) (fst r2) = false.

(* the real directories of the asked products exist *)
Definition dirs_present (w : world) (c : rconf) (st : rstate) (n v : str) (recursive : bool) : Prop :=
  forall q dir, asked w n v recursive q -> product_dir c (rdb st) q = Some dir -> placeholder dir = false ->
                In dir (rfs st).

(* What a completed run has done to a state, G saying which declarations were to go and A which products: those
   declarations are gone and the others are as before; a tag is gone if it named one of them and else as before; with
   the tree before the fix C14-remove-keeps-shared-directory, or with pairwise non-nested directories, the paths
   that are gone are exactly those inside the real directories of those products. *)
Definition removed_exactly (keep : bool) (c : rconf) (st st' : rstate)
           (G : str -> str -> str -> str -> Prop) (A : node -> Prop) : Prop :=
  (forall s n v f, G s n v f -> a_decl (rdb st') s n v f = None) /\
  (forall s n v f, ~ G s n v f -> a_decl (rdb st') s n v f = a_decl (rdb st) s n v f) /\
  (forall s n t f v, a_tag (rdb st) s n t f = Some v -> G s n v f -> a_tag (rdb st') s n t f = None) /\
  (forall s n t f, (forall v, a_tag (rdb st) s n t f = Some v -> ~ G s n v f) ->
     a_tag (rdb st') s n t f = a_tag (rdb st) s n t f) /\
  (keep = false \/ wf_dirs (rdb st) ->
   forall x, In x (rfs st') <->
     In x (rfs st) /\
     ~ exists q dir, A q /\ product_dir c (rdb st) q = Some dir /\ placeholder dir = false /\ under dir x = true).

Lemma removed_exactly_ext keep c st st' G G' A A' :
  (forall s n v f, G s n v f <-> G' s n v f) -> (forall q, A q <-> A' q) ->
  removed_exactly keep c st st' G A -> removed_exactly keep c st st' G' A'.
Proof.
  intros HG HA [X1 [X2 [X3 [X4 X5]]]]. split; [|split; [|split; [|split]]].
  - intros s n v f H. apply X1, HG, H.
  - intros s n v f H. apply X2. intro K. apply H, HG, K.
  - intros s n t f v E H. apply (X3 s n t f v E), HG, H.
  - intros s n t f H. apply X4. intros v E K. apply (H v E), HG, K.
  - intros Hk x. rewrite (X5 Hk). split; intros [I N]; (split; [exact I|]); intros [q [dir [Aq R]]]; apply N; exists q, dir;
      (split; [apply HA, Aq|exact R]).
Qed.

(* wf_dirs as it is used: of two real installation directories, one inside the other, there is one declaration *)
Lemma wf_dirs_nested_same a s1 n1 v1 f1 r1 s2 n2 v2 f2 r2 :
  wf_dirs a -> a_decl a s1 n1 v1 f1 = Some r1 -> a_decl a s2 n2 v2 f2 = Some r2 ->
  placeholder (fst r1) = false -> placeholder (fst r2) = false -> under (fst r1) (fst r2) = true ->
  (s1, n1, v1, f1) = (s2, n2, v2, f2).
Proof.
  intros Hd E1 E2 P1 P2 U. destruct (geqb_dec dkey_eqb dkey_eqb_eq (s1, n1, v1, f1) (s2, n2, v2, f2)) as [E|N]; [exact E|].
  rewrite (Hd _ _ _ _ _ _ _ _ _ _ E1 E2 N P1 P2) in U. discriminate.
Qed.

Lemma asked_dpath w n v recursive q :
  wf_world w -> declared w n v = true ->
  (asked w n v recursive q <->
   q = (n, Some v, true) \/ (recursive = true /\ dpath w (n, Some v, true) q)).
Proof.
  intros Hwf D. unfold asked. split.
  - intros [E|[R [H [Dq _]]]]; [left; exact E|right; split; [exact R|]]. apply dpath_reach. right. auto.
  - intros [E|[R P]]; [left; exact E|]. pose proof (dpath_dnode _ _ _ Hwf (dnode_intro _ _ _ D) P) as Dq.
    apply dpath_reach in P as [E|[H _]]; [left; exact E|right; auto].
Qed.

Lemma asked_shape w n v recursive q : asked w n v recursive q -> exists n' v', q = (n', Some v', true).
Proof.
  intros [->|[_ [_ Dq]]]; [eauto|]. destruct (dnode_shape _ _ Dq) as [n' [v' [-> _]]]. eauto.
Qed.

Lemma asked_dnode w n v recursive q : declared w n v = true -> asked w n v recursive q -> dnode w q.
Proof. intros D [->|[_ [_ Dq]]]; [apply dnode_intro, D|exact Dq]. Qed.

(* [gone] over a list of asked products is [doomed]: the two differ only in [In _ sel] against [asked] *)
Lemma gone_doomed w c a n v recursive sel s n' v' f' :
  (forall q, In q sel -> asked w n v recursive q) ->
  gone c a sel s n' v' f' -> doomed w c a n v recursive s n' v' f'.
Proof. intros LA [Hf [I Hh]]. exact (conj Hf (conj (LA _ I) Hh)). Qed.

Lemma asked_all_real w n v recursive sel : (forall q, In q sel -> asked w n v recursive q) -> all_real sel.
Proof. intros H q I. apply (asked_shape _ _ _ _ _ (H q I)). Qed.

Lemma collect_asked chk w idx c top fuel n v recursive l s' :
  wf_world w -> default_undeclared w c -> declared w n v = true ->
  collect true true chk w idx c top fuel [] n (Some v) recursive = Ok (l, s') ->
  forall q, In q (uniq_nodes l) <-> asked w n v recursive q.
Proof.
  intros Hwf Hdef D H q. rewrite uniq_nodes_In, (asked_dpath _ _ _ _ _ Hwf D).
  apply (collect_exact chk w idx c top Hwf Hdef _ _ _ _ _ _ H D).
Qed.

(* The shape of Eups.remove: the users index (Eups.uses over the world wu) when the in-use check is on, the
   collection over the world ww with the product [top] set aside, then [D] on the list without duplicates.
   [remove] is the instance ww = wu, top = the product named, D = [destroy]; [remove_x] of Model/RemoveExt.v
   is another (D = [destroy_i]).  Everything that happens before the first write is proved here, once. *)
Section TwoPhases.
  Variables (chk : bool) (fuel : nat) (ww wu : world) (c : rconf) (top : option (str * str)) (st : rstate)
            (n v : str) (recursive : bool) (D : list node -> res unit * rstate).

  Definition two_phases : res unit * rstate :=
    match (if chk then uses_index fuel wu else Ok []) with
    | Err e => (Err e, st)
    | Ok idx =>
        match collect true true chk ww idx c top fuel [] n (Some v) recursive with
        | Err e => (Err e, st)
        | Ok (l, _) => D (uniq_nodes l)
        end
    end.

  Hypotheses (Hwf : wf_world ww) (Hdef : default_undeclared ww c) (Hdecl : declared ww n v = true).

  Lemma two_phases_inv res st' :
    two_phases = (res, st') ->
    (exists e, res = Err e /\ st' = st) \/
    exists order, NoDup order /\ (forall q, In q order <-> asked ww n v recursive q) /\ D order = (res, st').
  Proof using Hwf Hdef Hdecl.
    unfold two_phases. destruct (if chk then uses_index fuel wu else Ok []) as [idx|e]; [|intro H; inversion H; eauto].
    destruct (collect true true chk ww idx c top fuel [] n (Some v) recursive) as [[l s']|e] eqn:K; [|intro H; inversion H; eauto].
    intro H. right. exists (uniq_nodes l). split; [apply uniq_nodes_NoDup|].
    split; [exact (collect_asked _ _ _ _ _ _ _ _ _ _ _ Hwf Hdef Hdecl K)|exact H].
  Qed.

  Lemma two_phases_total :
    length ww + 2 <= fuel -> (chk = true -> exists idx, uses_index fuel wu = Ok idx) ->
    (two_phases = (Err Refused, st) /\ chk = true /\ rc_force c = false) \/
    exists order, NoDup order /\ (forall q, In q order <-> asked ww n v recursive q) /\ two_phases = D order.
  Proof using Hwf Hdef Hdecl.
    intros Hf Hu. unfold two_phases.
    assert (I : exists idx, (if chk then uses_index fuel wu else Ok []) = Ok idx) by (destruct chk; eauto).
    destruct I as [idx ->].
    destruct (collect_top_total chk ww idx c top Hwf Hdef fuel n v recursive Hdecl Hf) as [[[l s'] K]|[K R]]; rewrite K.
    - right. exists (uniq_nodes l). split; [apply uniq_nodes_NoDup|].
      split; [exact (collect_asked _ _ _ _ _ _ _ _ _ _ _ Hwf Hdef Hdecl K)|reflexivity].
    - left. split; [reflexivity|exact R].
  Qed.
End TwoPhases.

Lemma remove_two_phases keep fuel w c st n v recursive chk :
  remove true true keep fuel w c st n v recursive chk =
  two_phases chk fuel w w c (Some (n, v)) st n v recursive (fun ps => destroy keep c (rdb st) ps [] st).
Proof. reflexivity. Qed.

Lemma find_exact_sub a a0 n v f : forall roots s1 rr s0 r0,
  (forall s r, a_decl a s n v f = Some r -> a_decl a0 s n v f = Some r) ->
  find_exact a roots n v f = Some (s1, rr) -> find_exact a0 roots n v f = Some (s0, r0) ->
  a_decl a s0 n v f <> None -> s1 = s0.
Proof.
  induction roots as [|s roots IH]; intros s1 rr s0 r0 Hs F F0 N; cbn in F, F0; [discriminate|].
  destruct (a_decl a s n v f) as [x|] eqn:E.
  - rewrite (Hs s x E) in F0. inversion F. inversion F0. subst. reflexivity.
  - destruct (a_decl a0 s n v f) as [y|] eqn:E0.
    + inversion F0. subst. contradiction.
    + apply (IH _ _ _ _ Hs F F0 N).
Qed.

Lemma not_in_use_after c a0 a n1 v1 s1 rr dir :
  wf_dirs a0 -> (forall s n v f r, a_decl a s n v f = Some r -> a_decl a0 s n v f = Some r) -> apath a = apath a0 ->
  find_exact a (apath a) n1 v1 (rc_flavor c) = Some (s1, rr) ->
  product_dir c a0 (n1, Some v1, true) = Some dir -> placeholder dir = false ->
  in_use c (aapply (ADelDecl s1 n1 v1 (rc_flavor c)) a) dir = false.
Proof.
  intros Hd Hsub Hp F P Ph.
  destruct (in_use c (aapply (ADelDecl s1 n1 v1 (rc_flavor c)) a) dir) eqn:U; [exfalso|reflexivity].
  apply in_use_true in U as [s [n [v [f [r [_ [_ [E [Phr Ud]]]]]]]]].
  apply decl_after_del in E as [E Nk1].
  destruct (product_dir_some _ _ _ _ _ P) as [s0 [r0 [F0 ->]]].
  (* the one who lives there would be the declaration that has just gone *)
  pose proof (wf_dirs_nested_same _ _ _ _ _ _ _ _ _ _ _ Hd (proj2 (find_exact_some _ _ _ _ _ _ _ F0)) (Hsub _ _ _ _ _ E) Ph Phr Ud) as X.
  injection X as <- <- <- <-.
  assert (N : a_decl a s0 n1 v1 (rc_flavor c) <> None) by congruence. rewrite Hp in F.
  rewrite (find_exact_sub a a0 n1 v1 (rc_flavor c) (apath a0) s1 rr s0 r0 (fun s2 r2 => Hsub s2 _ _ _ r2) F F0 N) in Nk1.
  exact (Nk1 N eq_refl).
Qed.

(* with pairwise non-nested installation directories the fix C14-remove-keeps-shared-directory changes nothing *)
Lemma destroy_keep_irrelevant c a0 ps removed st r st' :
  wf_dirs a0 -> destroy_run true c a0 ps removed st r st' ->
  (forall s n v f r, a_decl (rdb st) s n v f = Some r -> a_decl a0 s n v f = Some r) ->
  apath (rdb st) = apath a0 ->
  destroy_run false c a0 ps removed st r st'.
Proof.
  intros Hd R. induction R as [removed st|n1 v1 ps removed st F|n1 v1 ps removed st s1 rr e F D|n1 v1 ps removed st s1 rr removed' fs' r st' F D R IH];
    intros Hsub Hp.
  - constructor.
  - constructor. exact F.
  - apply (run_crash _ _ _ _ _ _ _ _ _ rr _ F).
    rewrite <- dir_step_keep_irrelevant by (intros dir; exact (not_in_use_after _ _ _ _ _ _ _ _ Hd Hsub Hp F)). exact D.
  - apply (run_step _ _ _ _ _ _ _ _ _ rr removed' fs' _ _ F).
    + rewrite <- dir_step_keep_irrelevant by (intros dir; exact (not_in_use_after _ _ _ _ _ _ _ _ Hd Hsub Hp F)). exact D.
    + apply IH; cbn [rdb].
      * intros s n v f r0 E. apply Hsub. exact (proj1 (decl_after_del _ _ _ _ _ _ _ _ _ _ E)).
      * rewrite apath_aapply. exact Hp.
Qed.

Lemma destroy_exact keep c st sel st' :
  destroy_run keep c (rdb st) sel [] st (Ok tt) st' -> NoDup sel ->
  removed_exactly keep c st st' (gone c (rdb st) sel) (fun q => In q sel).
Proof.
  intros R ND. split; [|split; [|split; [|split]]].
  - exact (destroy_decl_gone _ _ _ _ _ _ _ R ND).
  - exact (destroy_decl_frame _ _ _ _ _ _ _ _ R ND).
  - exact (destroy_tag_gone _ _ _ _ _ _ _ R ND).
  - exact (destroy_tag_frame _ _ _ _ _ _ _ _ R ND).
  - intros Hk x.
    assert (R0 : destroy_run false c (rdb st) sel [] st (Ok tt) st').
    { destruct keep; [|exact R]. destruct Hk as [Hk|Hk]; [discriminate|]. apply (destroy_keep_irrelevant _ _ _ _ _ _ _ Hk R); auto. }
    split.
    + intro I. split; [exact (destroy_fs_sub _ _ _ _ _ _ _ _ R x I)|]. intros [q [dir [Iq [Pq [Pd U]]]]].
      exact (destroy_fs_gone _ _ _ _ _ _ R0 (fun d (F : In (Some d) []) => match F with end) q dir x Iq Pq Pd U I).
    + intros [I N]. apply (destroy_fs_keep _ _ _ _ _ _ _ _ R x I). intros q dir Iq Pq Pd.
      destruct (under dir x) eqn:U; [|reflexivity]. elim N. exists q, dir. auto.
Qed.

Lemma survivor_dir_apart w c a n v recursive s0 m u f0 rs q dir x :
  wf_dirs a -> a_decl a s0 m u f0 = Some rs -> placeholder (fst rs) = false ->
  ~ doomed w c a n v recursive s0 m u f0 ->
  asked w n v recursive q -> product_dir c a q = Some dir -> placeholder dir = false ->
  under (fst rs) x = true -> under dir x = false.
Proof.
  intros Hd Es Ps Ns Aq Pq Pd Ux.
  destruct (asked_shape _ _ _ _ _ Aq) as [qn [qv ->]]. destruct (product_dir_some _ _ _ _ _ Pq) as [s1 [r1 [F ->]]].
  pose proof (proj2 (find_exact_some _ _ _ _ _ _ _ F)) as E1.
  destruct (under (fst r1) x) eqn:U; [|reflexivity]. exfalso.
  (* the two directories hold x, so one holds the other: the survivor would be the declaration of q, which is doomed *)
  assert (E : (s1, qn, qv, rc_flavor c) = (s0, m, u, f0)).
  { destruct (under_comparable _ _ _ U Ux) as [K|K].
    - exact (wf_dirs_nested_same _ _ _ _ _ _ _ _ _ _ _ Hd E1 Es Pd Ps K).
    - symmetry. exact (wf_dirs_nested_same _ _ _ _ _ _ _ _ _ _ _ Hd Es E1 Ps Pd K). }
  injection E as <- <- <- <-. apply Ns. split; [reflexivity|]. split; [exact Aq|exact (find_home _ _ _ _ _ _ F)].
Qed.

Lemma asked_product_dir_nested w c a n v recursive p q dp dq :
  wf_dirs a -> asked w n v recursive p -> asked w n v recursive q ->
  product_dir c a p = Some dp -> product_dir c a q = Some dq ->
  placeholder dp = false -> placeholder dq = false -> under dp dq = true -> dp = dq.
Proof.
  intros Hd Ap Aq Pp Pq Php Phq U.
  destruct (asked_shape _ _ _ _ _ Ap) as [pn [pv ->]]. destruct (asked_shape _ _ _ _ _ Aq) as [qn [qv ->]].
  destruct (product_dir_some _ _ _ _ _ Pp) as [s1 [r1 [F1 ->]]]. destruct (product_dir_some _ _ _ _ _ Pq) as [s2 [r2 [F2 ->]]].
  pose proof (proj2 (find_exact_some _ _ _ _ _ _ _ F1)) as E1. pose proof (proj2 (find_exact_some _ _ _ _ _ _ _ F2)) as E2.
  pose proof (wf_dirs_nested_same _ _ _ _ _ _ _ _ _ _ _ Hd E1 E2 Php Phq U) as E. injection E as -> -> ->.
  rewrite E1 in E2. injection E2 as ->. reflexivity.
Qed.

Lemma destroy_asked_total keep w c st n v recursive order :
  declared w n v = true -> coherent w c (rdb st) -> wf_dirs (rdb st) -> dirs_present w c st n v recursive ->
  NoDup order -> (forall q, In q order -> asked w n v recursive q) ->
  exists st', destroy keep c (rdb st) order [] st = (Ok tt, st').
Proof.
  intros D Hco Hd Hp ND LA. apply (destroy_total keep c (rdb st) order [] st ND (asked_all_real _ _ _ _ _ LA)).
  - intros n' v' I. apply Hco. destruct (dnode_shape _ _ (asked_dnode _ _ _ _ _ D (LA _ I))) as [n2 [v2 [E2 D2]]].
    inversion E2. subst. exact D2.
  - intros p dir I P Ph. right. apply (Hp p dir); auto.
  - intros p q dp dq Ip Iq. apply (asked_product_dir_nested w c (rdb st) n v recursive p q dp dq Hd); auto.
Qed.

Theorem error_keeps_state keep fuel w c st n v recursive chk e st' :
  wf_world w -> default_undeclared w c -> declared w n v = true ->
  coherent w c (rdb st) -> wf_dirs (rdb st) -> dirs_present w c st n v recursive ->
  remove true true keep fuel w c st n v recursive chk = (Err e, st') -> st' = st.
Proof.
  intros Hwf Hdef D Hco Hd Hp H. rewrite remove_two_phases in H.
  destruct (two_phases_inv _ _ _ _ _ _ _ _ _ _ _ Hwf Hdef D _ _ H) as [[e' [_ E]]|[order [ND [LA Hdes]]]]; [exact E|].
  destruct (destroy_asked_total keep w c st n v recursive order D Hco Hd Hp ND (fun q => proj1 (LA q))) as [st'' E].
  rewrite E in Hdes. discriminate.
Qed.

Theorem refusal_only_with_check keep fuel w c st n v recursive chk st' :
  wf_world w -> default_undeclared w c -> declared w n v = true -> length w + 2 <= fuel ->
  (chk = true -> exists idx, uses_index fuel w = Ok idx) ->
  remove true true keep fuel w c st n v recursive chk = (Err Refused, st') -> chk = true /\ rc_force c = false.
Proof.
  intros Hwf Hdef D Hf Hu H. rewrite remove_two_phases in H.
  destruct (two_phases_total chk fuel w w c (Some (n, v)) st n v recursive (fun ps => destroy keep c (rdb st) ps [] st)
              Hwf Hdef D Hf Hu) as [[_ R]|[order [_ [LA E]]]]; [exact R|].
  rewrite E in H. apply destroy_runs in H; [|exact (asked_all_real _ _ _ _ _ (fun q => proj1 (LA q)))].
  destruct (destroy_err _ _ _ _ _ _ _ _ H); discriminate.
Qed.

Lemma check_passed_no_outside_user idx c top d us :
  rc_force c = false -> check_one true idx c top d = Ok tt ->
  users idx (nname d) (nver d) = Ok us -> forall u, In u (map cuser us) -> top = Some u.
Proof.
  intros Hf H Hu u I. unfold check_one in H. rewrite Hu, Hf in H. cbn [negb] in H. rewrite andb_true_r in H.
  destruct (existsb (fun u0 => negb (is_top top (cuser u0))) us) eqn:E; [discriminate|].
  apply in_map_iff in I as [x [<- Ix]].
  pose proof (proj1 (existsb_false_forall _ _) E x Ix) as K. apply negb_false_iff in K. unfold is_top in K.
  destruct top as [t|]; [|discriminate]. apply user_eqb_eq in K. rewrite K. reflexivity.
Qed.

(* With the in-use check and without force the collection refuses as soon as an asked product d has a user u (a
   product of the world wu that Eups.uses reads, reaching d through its tables) other than the product set aside *)
Lemma collect_refuses ww wu idx c top fuel n v recursive d u :
  wf_world ww -> default_undeclared ww c -> declared ww n v = true ->
  length ww + 2 <= fuel -> length wu < fuel -> uses_index fuel wu = Ok idx -> rc_force c = false ->
  asked ww n v recursive d -> In u (map fst wu) -> reach_plus wu (pnode u) d -> d <> pnode u ->
  top <> Some u ->
  collect true true true ww idx c top fuel [] n (Some v) recursive = Err Refused.
Proof.
  intros Hwf Hdef D Hf Hfu Hu Hforce Ad Iu R Nd Nt.
  destruct (collect_top_total true ww idx c top Hwf Hdef fuel n v recursive D Hf) as [[[l s'] K]|[K _]]; [exfalso|exact K].
  assert (Il : In d l).
  { apply (proj1 (uniq_nodes_In _ _)). apply (collect_asked _ _ _ _ _ _ _ _ _ _ _ Hwf Hdef D K). exact Ad. }
  pose proof (collect_checked true ww idx c top Hwf Hdef fuel [] (n, Some v, true) recursive l s' (dnode_intro _ _ _ D) K d Il) as Hc.
  destruct (users_total_ok idx (nname d) (nver d)) as [us [Eus _]].
  apply Nt. apply (check_passed_no_outside_user idx c top d us Hforce Hc Eus).
  apply (uses_inverse_reach fuel wu idx (nname d) (nver d) us u Hfu Hu Eus).
  split; [exact Iu|]. exists d. split; [exact Nd|]. split; [exact R|].
  unfold matches. split; [reflexivity|]. destruct (nver d); reflexivity.
Qed.

Corollary two_phases_refuses fuel ww wu c top st n v recursive D idx d u :
  wf_world ww -> default_undeclared ww c -> declared ww n v = true ->
  length ww + 2 <= fuel -> length wu < fuel -> uses_index fuel wu = Ok idx -> rc_force c = false ->
  asked ww n v recursive d -> In u (map fst wu) -> reach_plus wu (pnode u) d -> d <> pnode u ->
  top <> Some u ->
  two_phases true fuel ww wu c top st n v recursive D = (Err Refused, st).
Proof.
  intros Hwf Hdef Hd Hf Hfu Hu Hforce Ad Iu R Nd Nt. unfold two_phases.
  rewrite Hu, (collect_refuses ww wu idx c top fuel n v recursive d u); auto.
Qed.

(* without the in-use check, or with force, on any graph (cycles, shared dependencies, several
   versions of a product, unresolved dependencies): the command ends normally *)
Theorem remove_completes keep fuel w c st n v recursive chk :
  wf_world w -> default_undeclared w c -> declared w n v = true -> length w + 2 <= fuel ->
  (chk = true -> exists idx, uses_index fuel w = Ok idx) ->
  chk = false \/ rc_force c = true ->
  coherent w c (rdb st) -> wf_dirs (rdb st) -> dirs_present w c st n v recursive ->
  exists st', remove true true keep fuel w c st n v recursive chk = (Ok tt, st').
Proof.
  intros Hwf Hdef D Hf Hu Hmode Hco Hd Hp. rewrite remove_two_phases.
  destruct (two_phases_total chk fuel w w c (Some (n, v)) st n v recursive (fun ps => destroy keep c (rdb st) ps [] st)
              Hwf Hdef D Hf Hu) as [[_ [R1 R2]]|[order [ND [LA E]]]].
  - destruct Hmode; congruence.
  - rewrite E. apply (destroy_asked_total keep w c st n v recursive order D Hco Hd Hp ND (fun q => proj1 (LA q))).
Qed.

Definition default_undeclared_b (w : world) (c : rconf) : bool :=
  forallb (fun it : (str * str) * list edge => negb (str_eqb (fst (fst it)) (rc_default c))) w.

Lemma default_undeclared_by_computation w c : default_undeclared_b w c = true -> default_undeclared w c.
Proof.
  intros H v. unfold declared. destruct (table_of w (rc_default c) v) as [es|] eqn:T; [|reflexivity].
  apply table_of_In in T. unfold default_undeclared_b in H. rewrite forallb_forall in H. specialize (H _ T).
  cbn in H. rewrite str_eqb_refl in H. discriminate.
Qed.

Definition coherent_b (w : world) (c : rconf) (a : adb) : bool :=
  forallb (fun it : (str * str) * list edge =>
             is_some (find_exact a (apath a) (fst (fst it)) (snd (fst it)) (rc_flavor c))) w.

Lemma coherent_by_computation w c a : coherent_b w c a = true -> coherent w c a.
Proof.
  intros H n v D. unfold declared in D. destruct (table_of w n v) as [es|] eqn:T; [|discriminate].
  apply table_of_In in T. unfold coherent_b in H. rewrite forallb_forall in H. specialize (H _ T). cbn in H.
  apply is_some_true, H.
Qed.

Definition wf_dirs_b (a : adb) : bool :=
  forallb (fun e1 : dkey * vrec => forallb (fun e2 : dkey * vrec =>
    dkey_eqb (fst e1) (fst e2) || placeholder (fst (snd e1)) || placeholder (fst (snd e2))
    || negb (under (fst (snd e1)) (fst (snd e2)))) (adecls a)) (adecls a).

Lemma wf_dirs_by_computation a : wf_dirs_b a = true -> wf_dirs a.
Proof.
  intros H s1 n1 v1 f1 r1 s2 n2 v2 f2 r2 E1 E2 N P1 P2.
  apply (glookup_In dkey_eqb dkey_eqb_eq) in E1, E2. unfold wf_dirs_b in H. rewrite forallb_forall in H.
  specialize (H _ E1). rewrite forallb_forall in H. specialize (H _ E2). cbn [fst snd] in H.
  rewrite P1, P2, (geqb_neq dkey_eqb dkey_eqb_eq _ _ N) in H. cbn in H. apply negb_true_iff, H.
Qed.

Definition dirs_present_b (a : adb) (fs : list str) : bool :=
  forallb (fun e : dkey * vrec => placeholder (fst (snd e)) || mem_str (fst (snd e)) fs) (adecls a).

Lemma dirs_present_by_computation w c st n v recursive :
  dirs_present_b (rdb st) (rfs st) = true -> dirs_present w c st n v recursive.
Proof.
  intros H q dir A P Ph. destruct (asked_shape _ _ _ _ _ A) as [qn [qv ->]].
  destruct (product_dir_some _ _ _ _ _ P) as [s [r [F ->]]]. apply find_exact_some in F as [_ F]. apply (glookup_In dkey_eqb dkey_eqb_eq) in F.
  unfold dirs_present_b in H. rewrite forallb_forall in H. specialize (H _ F). cbn [fst snd] in H.
  rewrite Ph in H. cbn in H. apply mem_str_In, H.
Qed.

Lemma dep_by_computation w p d : mem_node d (kept_deps true w p) = true -> dep w p d.
Proof. apply mem_node_In. Qed.
