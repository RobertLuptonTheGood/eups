(* Proofs about Model/Expand.v (C17), expansion side: what the exact block pins, what the two
   readings of the expanded table contain. *)
From Eupsv Require Import Base.Base Base.BaseLemmas Model.PathAlg Model.Setup Model.Expand.

(* the environment records version v for product n (findSetupVersion) *)
Definition recorded (e : amap str) (n v : str) : Prop := setup_version e n = Some v.

Lemma find_pv_some w n v p : find_pv w n v = Some p -> p_name p = n /\ p_version p = v.
Proof.
  induction w as [|q w IH]; simpl; [discriminate|].
  destruct (str_eqb (p_name q) n && str_eqb (p_version q) v) eqn:E.
  - intro H; inversion H; subst. apply andb_true_iff in E. destruct E as [E1 E2].
    apply str_eqb_eq in E1. apply str_eqb_eq in E2. auto.
  - apply IH.
Qed.

Lemma find_setup_product_recorded w e n p :
  find_setup_product w e n = Some p -> p_name p = n /\ recorded e n (p_version p).
Proof.
  unfold find_setup_product, recorded, setup_version.
  destruct (alookup (setup_var n) e) as [val|]; [|discriminate].
  destruct (recorded_version val) as [v|]; [|discriminate].
  intro H. apply find_pv_some in H. destruct H as [H1 H2]. rewrite H2. auto.
Qed.

Lemma truthy_some o v : truthy o = Some v -> o = Some v /\ v <> [].
Proof. destruct o as [[|c r]|]; simpl; intro H; inversion H; subst. split; [reflexivity|discriminate]. Qed.

Lemma key_eqb_eq a b : key_eqb a b = true <-> a = b.
Proof.
  destruct a as [a1 a2], b as [b1 b2]. unfold key_eqb. simpl. rewrite andb_true_iff, !str_eqb_eq.
  split; [intros [-> ->]; reflexivity|intro H; inversion H; auto].
Qed.

Lemma mem_key_In k l : mem_key k l = true <-> In k l.
Proof.
  induction l as [|x l IH]; simpl; [split; [discriminate|contradiction]|].
  destruct (key_eqb k x) eqn:E.
  - apply key_eqb_eq in E. subst. split; auto.
  - rewrite IH. split; [auto|]. intros [->|I]; [|assumption].
    assert (key_eqb k k = true) by now apply key_eqb_eq. congruence.
Qed.

Definition ok_nv (e plist : amap str) (x : nvo) : Prop :=
  recorded e (fst (fst x)) (snd (fst x)) \/ alookup (fst (fst x)) plist = Some (snd (fst x)).
Definition ok_key (e plist : amap str) (k : key) : Prop :=
  recorded e (fst k) (snd k) \/ alookup (fst k) plist = Some (snd k).

Lemma setup_closure_lenient_eq sf w e : forall ds skip l,
  setup_closure sf w e skip ds = Ok l -> setup_closure_lenient sf w e skip ds = l.
Proof.
  induction ds as [|d ds IH]; intros skip l H; cbn [setup_closure setup_closure_lenient] in *; [now inversion H|].
  cbv zeta in *. destruct (find_setup_product w e (d_name d)) as [p|].
  - match type of H with bind ?X _ = _ => destruct X as [r|] eqn:R end; simpl in H; [|discriminate].
    inversion H; subst. f_equal. now apply IH.
  - destruct (d_optional d); [now apply IH|].
    match type of H with match ?X with _ => _ end = _ => destruct X end; [now apply IH|discriminate].
Qed.

Lemma setup_closure_lenient_sound sf w e : forall ds skip,
  Forall (fun x : nvo => recorded e (fst (fst x)) (snd (fst x))) (setup_closure_lenient sf w e skip ds).
Proof.
  induction ds as [|d ds IH]; intro skip; cbn [setup_closure_lenient]; [constructor|].
  cbv zeta. destruct (find_setup_product w e (d_name d)) as [p|] eqn:F.
  - constructor; [|apply IH]. simpl. apply find_setup_product_recorded in F. destruct F as [F1 F2]. now rewrite F1.
  - destruct (d_optional d); apply IH.
Qed.

Lemma setup_closure_sound sf w e ds skip l :
  setup_closure sf w e skip ds = Ok l -> Forall (fun x : nvo => recorded e (fst (fst x)) (snd (fst x))) l.
Proof. intro H. rewrite <- (setup_closure_lenient_eq _ _ _ _ _ _ H). apply setup_closure_lenient_sound. Qed.

Lemma setup_closure_lenient_complete sf w e : forall ds skip d p,
  In d ds -> find_setup_product w e (d_name d) = Some p ->
  In (p_name p, p_version p, d_optional d) (setup_closure_lenient sf w e skip ds).
Proof.
  induction ds as [|d0 ds IH]; intros skip d p I F; [contradiction|].
  cbn [setup_closure_lenient]. cbv zeta. destruct I as [->|I].
  - rewrite F. now left.
  - destruct (find_setup_product w e (d_name d0)) as [p0|].
    + right. now apply IH.
    + destruct (d_optional d0); now apply IH.
Qed.

Lemma setup_closure_complete sf w e ds skip l d p :
  setup_closure sf w e skip ds = Ok l -> In d ds -> find_setup_product w e (d_name d) = Some p ->
  In (p_name p, p_version p, d_optional d) l.
Proof. intro H. rewrite <- (setup_closure_lenient_eq _ _ _ _ _ _ H). apply setup_closure_lenient_complete. Qed.

Lemma line_closure_sound jf sf cf w e top plist force rd name opt just l :
  line_closure jf sf cf w e top plist force rd name opt just = Ok (LAdd l) -> Forall (ok_nv e plist) l.
Proof.
  unfold line_closure. destruct (str_eqb name top); [discriminate|].
  set (ver := match alookup name plist with Some v => Some v | None => truthy (setup_version e name) end).
  assert (Hv : forall v, ver = Some v -> ok_nv e plist (name, v, opt)).
  { intros v E. unfold ver in E. unfold ok_nv; simpl. destruct (alookup name plist) as [pv|] eqn:A.
    - right. congruence.
    - left. apply truthy_some in E. apply E. }
  destruct ver as [v|]; [|destruct (negb opt && negb force); discriminate].
  destruct (jf && just).
  - intros [= <-]. constructor; [now apply Hv|constructor].
  - match goal with |- match ?X with _ => _ end = _ -> _ => destruct X as [r|x] eqn:B end.
    + intros [= <-]. constructor; [now apply Hv|].
      destruct (find_pv w name v); [|inversion B; constructor].
      apply setup_closure_sound in B. eapply Forall_impl; [|exact B]. intros a Ha. left. exact Ha.
    + destruct (negb opt && negb force); [discriminate|]. destruct cf; [|discriminate].
      intros [= <-]. constructor; [now apply Hv|].
      eapply Forall_impl; [|apply setup_closure_lenient_sound]. intros a Ha. left. exact Ha.
Qed.

(* also when the closure below the line could not be collected and the error was passed over (cfix) *)
Lemma line_closure_complete w e top force rd name opt just v x :
  line_closure true true true w e top [] force rd name opt just = Ok x ->
  name <> top -> recorded e name v -> v <> [] ->
  exists l, x = LAdd l /\ In (name, v, opt) l /\
    (just = false -> find_pv w name v <> None -> forall d p,
       In d (lookup_raw rd name v) -> find_setup_product w e (d_name d) = Some p ->
       In (p_name p, p_version p, d_optional d) l).
Proof.
  intros H Nt R Vne. unfold line_closure in H. destruct (str_eqb_spec name top) as [|_]; [contradiction|].
  cbn [alookup] in H. unfold recorded in R. rewrite R in H. destruct v as [|c0 r0]; [congruence|]. cbn [truthy andb] in H.
  destruct just.
  - injection H as <-. eexists. split; [reflexivity|]. split; [now left|discriminate].
  - destruct (find_pv w name (c0 :: r0)) as [q|].
    + destruct (setup_closure true w e None (lookup_raw rd name (c0 :: r0))) as [l|] eqn:Hl.
      * injection H as <-. eexists. split; [reflexivity|]. split; [now left|]. intros _ _ d p Id Fp. right.
        eapply setup_closure_complete; eauto.
      * destruct (negb opt && negb force); [discriminate|]. injection H as <-. eexists. split; [reflexivity|].
        split; [now left|]. intros _ _ d p Id Fp. right. now apply setup_closure_lenient_complete.
    + injection H as <-. eexists. split; [reflexivity|]. split; [now left|]. intros _ N. congruence.
Qed.

Lemma add_nvol_sound e plist : forall l des opt,
  Forall (ok_nv e plist) l -> Forall (ok_key e plist) des -> Forall (ok_key e plist) (fst (add_nvol l des opt)).
Proof.
  induction l as [|[[n v] o] l IH]; intros des opt Hl Hd; simpl; [assumption|].
  inversion Hl; subst. destruct (mem_key (n, v) des); [now apply IH|].
  apply IH; [assumption|]. apply Forall_app. split; [assumption|]. constructor; [|constructor]. assumption.
Qed.

Lemma collect_sound jf sf cf w e top plist force rd : forall prods a a',
  collect jf sf cf w e top plist force rd prods a = Ok a' ->
  Forall (ok_key e plist) (a_des a) -> Forall (ok_key e plist) (a_des a').
Proof.
  induction prods as [|r prods IH]; intros a a' H Ha; cbn [collect] in H.
  - inversion H; subst. assumption.
  - destruct (line_closure jf sf cf w e top plist force rd (rl_name r) (rl_optional r) (rl_just r)) as [[| |l]|x] eqn:L;
      [| | |discriminate].
    + eapply IH; eauto.
    + eapply IH; eauto.
    + apply line_closure_sound in L.
      pose proof (add_nvol_sound e plist l (a_des a) (a_opt a) L Ha) as S.
      destruct (add_nvol l (a_des a) (a_opt a)) as [des opt]. eapply IH; eauto.
Qed.

Lemma add_nvol_mono : forall l des opt k, In k des -> In k (fst (add_nvol l des opt)).
Proof.
  induction l as [|[[n v] o] l IH]; intros des opt k I; simpl; [assumption|].
  destruct (mem_key (n, v) des); apply IH; [assumption|]. apply in_or_app. now left.
Qed.

Lemma add_nvol_in : forall l des opt n v o, In (n, v, o) l -> In (n, v) (fst (add_nvol l des opt)).
Proof.
  induction l as [|[[n0 v0] o0] l IH]; intros des opt n v o I; [contradiction|]. simpl.
  destruct I as [E|I].
  - inversion E; subst. destruct (mem_key (n, v) des) eqn:M.
    + apply add_nvol_mono. now apply mem_key_In.
    + apply add_nvol_mono. apply in_or_app. right. now left.
  - destruct (mem_key (n0, v0) des); eapply IH; eauto.
Qed.

Lemma collect_mono jf sf cf w e top plist force rd : forall prods a a' k,
  collect jf sf cf w e top plist force rd prods a = Ok a' -> In k (a_des a) -> In k (a_des a').
Proof.
  induction prods as [|r prods IH]; intros a a' k H I; cbn [collect] in H.
  - now inversion H; subst.
  - destruct (line_closure jf sf cf w e top plist force rd (rl_name r) (rl_optional r) (rl_just r)) as [[| |l]|x];
      [| | |discriminate].
    + eapply IH; eauto.
    + eapply IH; eauto.
    + pose proof (add_nvol_mono l (a_des a) (a_opt a) k I) as M.
      destruct (add_nvol l (a_des a) (a_opt a)) as [des opt]. eapply IH; eauto.
Qed.

Lemma collect_complete jf sf cf w e top plist force rd : forall prods a a' r l n v o,
  collect jf sf cf w e top plist force rd prods a = Ok a' -> In r prods ->
  line_closure jf sf cf w e top plist force rd (rl_name r) (rl_optional r) (rl_just r) = Ok (LAdd l) ->
  In (n, v, o) l -> In (n, v) (a_des a').
Proof.
  induction prods as [|r0 prods IH]; intros a a' r l n v o H I L Il; [contradiction|].
  cbn [collect] in H. destruct I as [->|I].
  - rewrite L in H. pose proof (add_nvol_in l (a_des a) (a_opt a) n v o Il) as M.
    destruct (add_nvol l (a_des a) (a_opt a)) as [des opt]. eapply collect_mono; eauto.
  - destruct (line_closure jf sf cf w e top plist force rd (rl_name r0) (rl_optional r0) (rl_just r0)) as [[| |l0]|x];
      [| | |discriminate].
    + eapply IH; eauto.
    + eapply IH; eauto.
    + destruct (add_nvol l0 (a_des a) (a_opt a)) as [des opt]. eapply IH; eauto.
Qed.

Lemma collect_ok_line jf sf cf w e top plist force rd : forall prods a a' r,
  collect jf sf cf w e top plist force rd prods a = Ok a' -> In r prods ->
  exists x, line_closure jf sf cf w e top plist force rd (rl_name r) (rl_optional r) (rl_just r) = Ok x.
Proof.
  induction prods as [|r0 prods IH]; intros a a' r H I; [contradiction|].
  cbn [collect] in H. destruct I as [->|I].
  - destruct (line_closure jf sf cf w e top plist force rd (rl_name r) (rl_optional r) (rl_just r)) as [x|x];
      [now exists x|discriminate].
  - destruct (line_closure jf sf cf w e top plist force rd (rl_name r0) (rl_optional r0) (rl_just r0)) as [[| |l0]|x];
      [| | |discriminate].
    + eapply IH; eauto.
    + eapply IH; eauto.
    + destruct (add_nvol l0 (a_des a) (a_opt a)) as [des opt]. eapply IH; eauto.
Qed.

Lemma pin_lines_forall (P : oline -> Prop) a : (forall o n v, P (OPin o n v)) -> Forall P (pin_lines a).
Proof. intro H. apply Forall_forall. intros x I. apply in_map_iff in I. destruct I as [k [<- _]]. apply H. Qed.

Definition marker (o : oline) : bool :=
  match o with OIfExact | OIfNotExact | OElse | OClose => true | _ => false end.
Definition plain (l : list oline) : Prop := Forall (fun o => marker o = false) l.

Lemma plain_out b : plain (map out_bline b).
Proof. apply Forall_forall. intros x I. apply in_map_iff in I. destruct I as [y [E _]]. subst. now destruct y. Qed.

Lemma plain_pins a : plain (pin_lines a).
Proof. now apply pin_lines_forall. Qed.

Definition seen (exact : bool) (m : vmode) : bool :=
  match m with VOut => true | VPins => exact | VElse | VNot => negb exact end.

Lemma view_plain b m l r : plain l -> view b m (l ++ r) = (if seen b m then l else []) ++ view b m r.
Proof.
  induction l as [|x l IH]; intro P; [now destruct (seen b m)|]. inversion P; subst.
  destruct m, x; try discriminate; cbn [app view]; rewrite IH by assumption; now destruct b.
Qed.

(* what a reader sees of each block *)
Fixpoint view_blocks (exact : bool) (lvl : Z) (pins : list oline) (bs : list (bool * list bline)) : list oline :=
  match bs with
  | [] => []
  | (false, b) :: rest => map out_bline b ++ view_blocks exact (snd (block_levels lvl b)) pins rest
  | (true, b) :: rest =>
      (if exact then (if existsb fst rest then [] else pins) else map out_bline (setup_body lvl b))
      ++ view_blocks exact lvl pins rest
  end.

(* [tl]: what follows the blocks (the lines naming eups) *)
Lemma view_emit exact pins tl : plain pins -> plain tl -> forall bs lvl,
  view exact VOut (emit lvl pins bs ++ tl) = view_blocks exact lvl pins bs ++ tl.
Proof.
  intros Pp Pt. induction bs as [|[f b] bs IH]; intro lvl.
  - cbn [emit view_blocks app]. rewrite <- (app_nil_r tl) at 1. rewrite view_plain by assumption.
    cbn [seen view]. now rewrite app_nil_r.
  - destruct f; cbn [emit view_blocks].
    + destruct (existsb fst bs).
      * cbn [app view]. rewrite <- app_assoc. rewrite view_plain by apply plain_out. cbn [app view]. rewrite IH.
        destruct exact; cbn [seen negb app]; now rewrite ?app_assoc.
      * cbn [app view]. rewrite <- app_assoc. rewrite view_plain by assumption. cbn [app view].
        rewrite <- app_assoc. rewrite view_plain by apply plain_out. cbn [app view]. rewrite IH.
        destruct exact; cbn [seen negb app]; now rewrite ?app_nil_r, ?app_assoc.
    + rewrite <- app_assoc. rewrite view_plain by apply plain_out. cbn [seen]. now rewrite IH, app_assoc.
Qed.

Lemma in_eups_lines t : forall bl, In t (eups_lines bl) -> In (BEups t) bl.
Proof.
  induction bl as [|b bl IH]; [simpl; tauto|]. destruct b; cbn [eups_lines]; try (intro J; right; now apply IH).
  intros [E|J]; [left; now subst|right; auto].
Qed.

Lemma final_forall (P : oline -> Prop) bl : (forall t, In (BEups t) bl -> P (OEups t)) -> Forall P (final_lines bl).
Proof.
  intro H. apply Forall_forall. intros x I. apply in_map_iff in I. destruct I as [t [<- I]]. now apply H, in_eups_lines.
Qed.

Lemma plain_final bl : plain (final_lines bl).
Proof. now apply final_forall. Qed.

Lemma blocks_concat : forall ls f cur, concat (map snd (blocks f cur ls)) = rev cur ++ ls.
Proof.
  induction ls as [|l ls IH]; intros f cur; simpl; [now rewrite !app_nil_r|].
  destruct l; try (rewrite IH; simpl; now rewrite <- app_assoc).
  - destruct f; simpl; rewrite IH; simpl; [now rewrite <- app_assoc|reflexivity].
  - destruct f; simpl; rewrite IH; simpl; [reflexivity|now rewrite <- app_assoc].
  - destruct f; simpl; rewrite IH; simpl; [now rewrite <- app_assoc|reflexivity].
Qed.

Definition is_bsetup (b : bline) : bool := match b with BSetup _ | BEups _ => true | _ => false end.
Definition is_bother (b : bline) : bool := match b with BOther _ => true | _ => false end.

Definition block_ok (x : bool * list bline) : Prop :=
  if fst x then Forall (fun b => is_bother b = false) (snd x) else Forall (fun b => is_bsetup b = false) (snd x).

Lemma blocks_ok : forall ls f cur, block_ok (f, rev cur) -> Forall block_ok (blocks f cur ls).
Proof.
  induction ls as [|l ls IH]; intros f cur H; simpl; [constructor; [assumption|constructor]|].
  assert (S : forall x, (if f then is_bother x = false else is_bsetup x = false) -> block_ok (f, rev (x :: cur))).
  { intros x Hx. unfold block_ok in *. simpl in *. destruct f; apply Forall_app; split; try assumption;
      constructor; try assumption; constructor. }
  destruct l.
  - apply IH, S. now destruct f.
  - apply IH, S. now destruct f.
  - destruct f.
    + apply IH, S. reflexivity.
    + constructor; [assumption|]. apply IH. unfold block_ok; simpl. constructor; [reflexivity|constructor].
  - destruct f.
    + constructor; [assumption|]. apply IH. unfold block_ok; simpl. constructor; [reflexivity|constructor].
    + apply IH, S. reflexivity.
  - destruct f.
    + apply IH, S. reflexivity.
    + constructor; [assumption|]. apply IH. unfold block_ok; simpl. constructor; [reflexivity|constructor].
Qed.

Lemma blocks_fine bl : Forall block_ok (blocks false [] bl).
Proof. apply blocks_ok. constructor. Qed.

Fixpoint others_of (ls : list oline) : list str :=
  match ls with [] => [] | OOther t :: r => t :: others_of r | _ :: r => others_of r end.
Fixpoint comments_of (ls : list oline) : list str :=
  match ls with [] => [] | OComment t :: r => t :: comments_of r | _ :: r => comments_of r end.
Fixpoint setups_of (ls : list oline) : list rline :=
  match ls with [] => [] | OSetup s :: r => s :: setups_of r | _ :: r => setups_of r end.

Fixpoint eups_of (ls : list oline) : list str :=
  match ls with [] => [] | OEups t :: r => t :: eups_of r | _ :: r => eups_of r end.

(* Each of these, and pins_of, takes from every line what a selector h gives for it.  What holds of all of them is
   proved once, of any such pair. *)
Definition Proj {A} (g : list oline -> list A) (h : oline -> list A) : Prop :=
  g [] = [] /\ forall o r, g (o :: r) = h o ++ g r.

Section Projection.
Context {A : Type} (g : list oline -> list A) (h : oline -> list A) (P : Proj g h).

Lemma proj_app a b : g (a ++ b) = g a ++ g b.
Proof. destruct P as [N C]. induction a as [|x a IH]; [now rewrite N|]. cbn [app]. now rewrite !C, IH, app_assoc. Qed.

Lemma proj_none l : Forall (fun o => h o = []) l -> g l = [].
Proof. destruct P as [N C]. induction 1 as [|x l H _ IH]; [exact N|]. now rewrite C, H, IH. Qed.

Lemma proj_none_block b : Forall (fun x => h (out_bline x) = []) b -> g (map out_bline b) = [].
Proof. intro H. now apply proj_none, Forall_map. Qed.

Lemma proj_drop b : h OBlank = [] -> g (map out_bline (drop_last_blank b)) = g (map out_bline b).
Proof.
  destruct P as [N C]. intro HB. induction b as [|x b IH]; [reflexivity|].
  destruct x; try (cbn [drop_last_blank map]; now rewrite !C, IH).
  destruct b as [|y b]; [cbn [drop_last_blank map out_bline]; now rewrite C, HB|].
  change (g (OBlank :: map out_bline (drop_last_blank (y :: b))) = g (OBlank :: map out_bline (y :: b))).
  now rewrite !C, IH.
Qed.

Lemma proj_bodyl b : (forall t, h (OEups t) = []) -> g (map out_bline (body_lines b)) = g (map out_bline b).
Proof.
  destruct P as [N C]. intro HE. unfold body_lines. induction b as [|x b IH]; [reflexivity|].
  destruct x; cbn [filter is_beups negb map out_bline]; rewrite ?C, IH, ?HE; reflexivity.
Qed.

Lemma proj_body lvl b : h OBlank = [] -> (forall t, h (OEups t) = []) ->
  g (map out_bline (setup_body lvl b)) = g (map out_bline b).
Proof. intros HB HE. unfold setup_body. destruct (0 <? lvl + 1)%Z; now rewrite ?proj_drop, proj_bodyl. Qed.

Lemma proj_inexact pins : h OBlank = [] -> (forall t, h (OEups t) = []) -> forall bs lvl,
  g (view_blocks false lvl pins bs) = g (map out_bline (concat (map snd bs))).
Proof.
  intros HB HE. induction bs as [|[f b] bs IH]; intro lvl; [reflexivity|].
  destruct f; cbn [view_blocks map snd concat]; rewrite map_app, !proj_app, IH; [now rewrite proj_body|reflexivity].
Qed.
End Projection.

Lemma others_proj : Proj others_of (fun o => match o with OOther t => [t] | _ => [] end).
Proof. split; [reflexivity|]. now intros []. Qed.
Lemma comments_proj : Proj comments_of (fun o => match o with OComment t => [t] | _ => [] end).
Proof. split; [reflexivity|]. now intros []. Qed.
Lemma setups_proj : Proj setups_of (fun o => match o with OSetup r => [r] | _ => [] end).
Proof. split; [reflexivity|]. now intros []. Qed.
Lemma eups_proj : Proj eups_of (fun o => match o with OEups t => [t] | _ => [] end).
Proof. split; [reflexivity|]. now intros []. Qed.
Lemma pins_proj : Proj pins_of (fun o => match o with OPin o n v => [(n, v, o)] | _ => [] end).
Proof. split; [reflexivity|]. now intros []. Qed.

Definition eups_of_app := proj_app _ _ eups_proj.
Definition others_of_app := proj_app _ _ others_proj.
Definition comments_of_app := proj_app _ _ comments_proj.
Definition setups_of_app := proj_app _ _ setups_proj.
Definition pins_of_app := proj_app _ _ pins_proj.

Lemma pins_of_iff n v o : forall l, In (n, v, o) (pins_of l) <-> In (OPin o n v) l.
Proof.
  induction l as [|x l IH]; [reflexivity|]. destruct x; cbn [pins_of In]; rewrite IH; try (split; [now right|intros [[=]|I]; exact I]).
  split; (intros [[= -> -> ->]|I]; [now left|now right]).
Qed.

Definition plain_pins_others a := proj_none _ _ others_proj _ (pin_lines_forall _ a (fun _ _ _ => eq_refl)).
Definition plain_pins_setups a := proj_none _ _ setups_proj _ (pin_lines_forall _ a (fun _ _ _ => eq_refl)).
Definition plain_pins_eups a := proj_none _ _ eups_proj _ (pin_lines_forall _ a (fun _ _ _ => eq_refl)).
Definition others_final bl := proj_none _ _ others_proj _ (final_forall _ bl (fun _ _ => eq_refl)).
Definition comments_final bl := proj_none _ _ comments_proj _ (final_forall _ bl (fun _ _ => eq_refl)).
Definition setups_final bl := proj_none _ _ setups_proj _ (final_forall _ bl (fun _ _ => eq_refl)).
Definition pins_final bl := proj_none _ _ pins_proj _ (final_forall _ bl (fun _ _ => eq_refl)).
Lemma pins_of_out b : pins_of (map out_bline b) = [].
Proof. induction b as [|x b IH]; [reflexivity|]. now destruct x. Qed.

Definition inexact_others pins := proj_inexact _ _ others_proj pins eq_refl (fun _ => eq_refl).
Definition inexact_comments pins := proj_inexact _ _ comments_proj pins eq_refl (fun _ => eq_refl).
Definition inexact_setups pins := proj_inexact _ _ setups_proj pins eq_refl (fun _ => eq_refl).

Lemma exact_others a : forall bs, Forall block_ok bs -> forall lvl,
  others_of (view_blocks true lvl (pin_lines a) bs) = others_of (map out_bline (concat (map snd bs))).
Proof.
  induction 1 as [|[f b] bs H _ IH]; intro lvl; [reflexivity|].
  destruct f; cbn [view_blocks map snd concat]; rewrite map_app, !others_of_app, IH; [|reflexivity].
  unfold block_ok in H; simpl in H.
  rewrite (proj_none_block _ _ others_proj b) by (eapply Forall_impl; [|exact H]; now intros []).
  destruct (existsb fst bs); [reflexivity|now rewrite plain_pins_others].
Qed.
Lemma exact_setups a : forall bs, Forall block_ok bs -> forall lvl, setups_of (view_blocks true lvl (pin_lines a) bs) = [].
Proof.
  induction 1 as [|[f b] bs H _ IH]; intro lvl; [reflexivity|].
  destruct f; cbn [view_blocks]; rewrite setups_of_app, IH, app_nil_r.
  - destruct (existsb fst bs); [reflexivity|apply plain_pins_setups].
  - unfold block_ok in H; simpl in H. apply (proj_none_block _ _ setups_proj). eapply Forall_impl; [|exact H]. now intros [].
Qed.

Lemma pins_of_view_blocks pins : forall bs lvl,
  pins_of (view_blocks true lvl pins bs) = if existsb fst bs then pins_of pins else [].
Proof.
  induction bs as [|[f b] bs IH]; intro lvl; [reflexivity|].
  destruct f; cbn [view_blocks existsb fst orb]; rewrite pins_of_app, IH.
  - destruct (existsb fst bs); [reflexivity|now rewrite app_nil_r].
  - now rewrite pins_of_out.
Qed.
Lemma pins_of_emit pins : forall bs lvl,
  pins_of (emit lvl pins bs) = if existsb fst bs then pins_of pins else [].
Proof.
  induction bs as [|[f b] bs IH]; intro lvl; [reflexivity|]. destruct f; cbn [emit existsb fst orb].
  - destruct (existsb fst bs) eqn:X.
    + cbn [pins_of]. rewrite pins_of_app, pins_of_out. cbn [pins_of app]. now rewrite IH.
    + cbn [pins_of]. rewrite pins_of_app. cbn [pins_of]. rewrite pins_of_app, pins_of_out.
      cbn [pins_of app]. now rewrite IH, app_nil_r.
  - now rewrite pins_of_app, pins_of_out, IH.
Qed.

Lemma pins_of_pin_lines a :
  pins_of (pin_lines a) = map (fun k => (fst k, snd k, mem_key k (a_opt a) || mem_str (fst k) (a_nf a))) (a_des a).
Proof. unfold pin_lines. induction (a_des a) as [|k l IH]; [reflexivity|]. cbn [map pins_of]. now rewrite IH. Qed.

Lemma expand_pins jf sf cf w e top plist force rd ls out :
  expand_gen jf sf cf w e top plist force rd ls = Ok out ->
  exists a, collect jf sf cf w e top plist force rd (setup_rlines (map (rewrite_line w e plist) ls))
                    {| a_des := []; a_opt := []; a_nf := [] |} = Ok a /\
            pins_of out = if existsb fst (blocks false [] (map (rewrite_line w e plist) ls)) then pins_of (pin_lines a) else [].
Proof.
  unfold expand_gen. destruct (collect jf sf cf w e top plist force rd _ _) as [a|x]; [|discriminate].
  intros [= <-]. exists a. split; [reflexivity|]. rewrite pins_of_app, pins_of_emit.
  rewrite pins_final. apply app_nil_r.
Qed.

Lemma pins_sound jf sf cf w e top plist force rd ls out o n v :
  expand_gen jf sf cf w e top plist force rd ls = Ok out -> In (OPin o n v) out ->
  recorded e n v \/ alookup n plist = Some v.
Proof.
  intros E I. destruct (expand_pins _ _ _ _ _ _ _ _ _ _ _ E) as [a [C P]]. apply pins_of_iff in I. rewrite P in I.
  destruct (existsb fst _); [|contradiction]. rewrite pins_of_pin_lines in I. apply in_map_iff in I.
  destruct I as [k [[= <- <- _] I]]. apply collect_sound in C; [|constructor]. rewrite Forall_forall in C. apply (C k I).
Qed.

Fixpoint others_in (ls : list tline) : list str :=
  match ls with [] => [] | LOther t :: r => t :: others_in r | _ :: r => others_in r end.
Fixpoint comments_in (ls : list tline) : list str :=
  match ls with [] => [] | LComment t :: r => t :: comments_in r | _ :: r => comments_in r end.
Fixpoint setups_in (ls : list tline) : list sline :=
  match ls with [] => [] | LSetup s :: r => s :: setups_in r | _ :: r => setups_in r end.
Fixpoint eups_in (ls : list tline) : list str :=
  match ls with [] => [] | LEups t :: r => t :: eups_in r | _ :: r => eups_in r end.

Lemma others_rewrite w e plist ls :
  others_of (map out_bline (map (rewrite_line w e plist) ls)) = others_in ls.
Proof. induction ls as [|l ls IH]; [reflexivity|]. destruct l; simpl; now rewrite IH. Qed.
Lemma comments_rewrite w e plist ls :
  comments_of (map out_bline (map (rewrite_line w e plist) ls)) = comments_in ls.
Proof. induction ls as [|l ls IH]; [reflexivity|]. destruct l; simpl; now rewrite IH. Qed.
Lemma setups_rewrite w e plist ls :
  setups_of (map out_bline (map (rewrite_line w e plist) ls)) = map (rewrite w e plist) (setups_in ls).
Proof. induction ls as [|l ls IH]; [reflexivity|]. destruct l; simpl; now rewrite IH. Qed.

Lemma eups_rewrite w e plist ls : eups_lines (map (rewrite_line w e plist) ls) = eups_in ls.
Proof. induction ls as [|l ls IH]; [reflexivity|]. destruct l; simpl; now rewrite IH. Qed.
Lemma eups_final bl : eups_of (final_lines bl) = eups_lines bl.
Proof. unfold final_lines. induction (eups_lines bl) as [|x l IH]; [reflexivity|]. simpl. now rewrite IH. Qed.

Section Views.
Variables (jf sf cf : bool) (w : world) (e : amap str) (top : str) (plist : amap str) (force : bool) (rd : rawdeps).
Variables (ls : list tline) (out : list oline).
Hypothesis E : expand_gen jf sf cf w e top plist force rd ls = Ok out.

Lemma expand_shape : exists a,
  out = emit 0 (pin_lines a) (blocks false [] (map (rewrite_line w e plist) ls))
        ++ final_lines (map (rewrite_line w e plist) ls).
Proof.
  unfold expand_gen in E. destruct (collect jf sf cf w e top plist force rd _ _) as [a|x]; [|discriminate].
  exists a. now inversion E.
Qed.

Lemma blocks_lines : concat (map snd (blocks false [] (map (rewrite_line w e plist) ls))) = map (rewrite_line w e plist) ls.
Proof. now rewrite blocks_concat. Qed.

Lemma others_pass exact : others_of (view exact VOut out) = others_in ls.
Proof.
  destruct expand_shape as [a ->]. rewrite view_emit by (apply plain_pins || apply plain_final).
  rewrite others_of_app, others_final, app_nil_r. destruct exact.
  - rewrite exact_others by apply blocks_fine. rewrite blocks_lines. apply others_rewrite.
  - rewrite inexact_others, blocks_lines. apply others_rewrite.
Qed.

Lemma comments_pass : comments_of (view false VOut out) = comments_in ls.
Proof.
  destruct expand_shape as [a ->]. rewrite view_emit by (apply plain_pins || apply plain_final).
  rewrite comments_of_app, comments_final, app_nil_r.
  rewrite inexact_comments, blocks_lines. apply comments_rewrite.
Qed.

Lemma inexact_setup_lines : setups_of (view false VOut out) = map (rewrite w e plist) (setups_in ls).
Proof.
  destruct expand_shape as [a ->]. rewrite view_emit by (apply plain_pins || apply plain_final).
  rewrite setups_of_app, setups_final, app_nil_r.
  rewrite inexact_setups, blocks_lines. apply setups_rewrite.
Qed.

Lemma exact_no_setup_line : setups_of (view true VOut out) = [].
Proof.
  destruct expand_shape as [a ->]. rewrite view_emit by (apply plain_pins || apply plain_final).
  rewrite setups_of_app, setups_final, app_nil_r.
  apply exact_setups, blocks_fine.
Qed.

Lemma exact_view_pins : pins_of (view true VOut out) = pins_of out.
Proof.
  destruct expand_shape as [a ->]. rewrite view_emit by (apply plain_pins || apply plain_final).
  rewrite !pins_of_app, pins_final.
  now rewrite pins_of_view_blocks, pins_of_emit.
Qed.

(* the lines naming eups are not among those written for a block (body_lines takes them out of a setup block) *)
Lemma eups_of_block lvl f b : block_ok (f, b) ->
  eups_of (map out_bline (if f then setup_body lvl b else b)) = [].
Proof.
  unfold block_ok. cbn [fst snd]. destruct f; intro H.
  - unfold setup_body. destruct (0 <? lvl + 1)%Z; [rewrite (proj_drop _ _ eups_proj) by reflexivity|];
      apply (proj_none_block _ _ eups_proj), Forall_forall; intros x I; apply filter_In in I; now destruct x.
  - apply (proj_none_block _ _ eups_proj). eapply Forall_impl; [|exact H]. now intros [].
Qed.

Lemma eups_of_view_blocks exact pins : eups_of pins = [] -> forall bs lvl,
  Forall block_ok bs -> eups_of (view_blocks exact lvl pins bs) = [].
Proof.
  intros Hp. induction bs as [|[f b] bs IH]; intros lvl Hb; [reflexivity|]. inversion Hb as [|? ? H1 H2]; subst.
  pose proof (eups_of_block lvl f b H1) as Eb.
  destruct f; cbn [view_blocks]; rewrite eups_of_app, IH by assumption; rewrite app_nil_r; [|exact Eb].
  destruct exact; [destruct (existsb fst bs); [reflexivity|exact Hp]|exact Eb].
Qed.

Lemma eups_of_emit pins : eups_of pins = [] -> forall bs lvl,
  Forall block_ok bs -> eups_of (emit lvl pins bs) = [].
Proof.
  intros Hp. induction bs as [|[f b] bs IH]; intros lvl Hb; [reflexivity|]. inversion Hb as [|? ? H1 H2]; subst.
  pose proof (eups_of_block lvl f b H1) as Eb. destruct f; cbn [emit].
  - destruct (existsb fst bs); repeat (cbn [app eups_of]; rewrite ?eups_of_app, ?Hp, ?Eb); now apply IH.
  - rewrite eups_of_app, Eb. now apply IH.
Qed.

(* the lines naming eups are written, unchanged and in order, after everything else: both readings see them *)
Lemma eups_pass exact : eups_of (view exact VOut out) = eups_in ls /\ eups_of out = eups_in ls.
Proof.
  destruct expand_shape as [a ->]. rewrite view_emit by (apply plain_pins || apply plain_final).
  split.
  - rewrite eups_of_app, eups_final, eups_of_view_blocks by (apply plain_pins_eups || apply blocks_fine). apply eups_rewrite.
  - rewrite eups_of_app, eups_final, eups_of_emit by (apply plain_pins_eups || apply blocks_fine). apply eups_rewrite.
Qed.
End Views.
Arguments expand_shape {jf sf cf w e top plist force rd ls out} E.
Arguments others_pass {jf sf cf w e top plist force rd ls out} E exact.
Arguments inexact_setup_lines {jf sf cf w e top plist force rd ls out} E.

Lemma in_setup_body lvl b x : In x (setup_body lvl b) -> In x b.
Proof.
  assert (D : forall l, In x (drop_last_blank l) -> In x l).
  { induction l as [|y l IH]; [simpl; tauto|]. destruct y; cbn [drop_last_blank]; try (intros [E|I]; [now left|right; auto]).
    destruct l; [simpl; tauto|]. intros [E|I]; [now left|right; auto]. }
  unfold setup_body, body_lines. destruct (0 <? lvl + 1)%Z; intro I; [apply D in I|]; apply filter_In in I; tauto.
Qed.

Lemma emit_forall (P : oline -> Prop) pins :
  P OIfExact -> P OIfNotExact -> P OElse -> P OClose -> Forall P pins ->
  forall bs lvl, (forall f b x, In (f, b) bs -> In x b -> P (out_bline x)) -> Forall P (emit lvl pins bs).
Proof.
  intros P1 P2 P3 P4 Pp. induction bs as [|[f b] bs IH]; intros lvl H; [constructor|].
  assert (Hb : forall l, (forall x, In x l -> In x b) -> Forall P (map out_bline l)).
  { intros l Hl. apply Forall_forall. intros o I. apply in_map_iff in I. destruct I as [x [<- I]].
    apply (H f b); [now left|auto]. }
  assert (Hr : forall lvl', Forall P (emit lvl' pins bs)).
  { intro lvl'. apply IH. intros f' b' x I. apply (H f' b' x). now right. }
  destruct f; cbn [emit].
  - destruct (existsb fst bs).
    + constructor; [assumption|]. apply Forall_app. split; [apply Hb; intros x; apply in_setup_body|].
      constructor; [assumption|apply Hr].
    + constructor; [assumption|]. apply Forall_app. split; [assumption|]. constructor; [assumption|].
      apply Forall_app. split; [apply Hb; intros x; apply in_setup_body|]. constructor; [assumption|apply Hr].
  - apply Forall_app. split; [apply Hb; auto|apply Hr].
Qed.

Lemma in_blocks x f b : forall ls g cur, In (f, b) (blocks g cur ls) -> In x b -> In x (rev cur ++ ls).
Proof.
  intros ls g cur Hb Ix. rewrite <- blocks_concat with (f := g). apply in_concat. exists b. split; [|assumption].
  apply in_map_iff. exists (f, b). split; [reflexivity|assumption].
Qed.

Lemma expand_forall (P : oline -> Prop) jf sf cf w e top plist force rd ls out :
  P OIfExact -> P OIfNotExact -> P OElse -> P OClose -> (forall o n v, P (OPin o n v)) ->
  (forall l, In l ls -> P (out_bline (rewrite_line w e plist l))) ->
  expand_gen jf sf cf w e top plist force rd ls = Ok out -> Forall P out.
Proof.
  intros P1 P2 P3 P4 Pp Hl E. unfold expand_gen in E.
  destruct (collect jf sf cf w e top plist force rd _ _) as [a|x]; [|discriminate]. inversion E; subst. clear E.
  assert (Hb : forall x, In x (map (rewrite_line w e plist) ls) -> P (out_bline x)).
  { intros x I. apply in_map_iff in I. destruct I as [l [<- I]]. auto. }
  apply Forall_app. split.
  - apply emit_forall; try assumption.
    + now apply pin_lines_forall.
    + intros f b x I Ix. apply Hb. apply (in_blocks x f b _ _ _ I Ix).
  - apply final_forall. intros t I. apply (Hb _ I).
Qed.

Lemma blocks_forall (Q : bline -> Prop) : forall ls f cur, Forall Q cur -> Forall Q ls ->
  Forall (fun x => Forall Q (snd x)) (blocks f cur ls).
Proof.
  intros ls f cur Hc Hl. apply Forall_forall. intros [g b] I. cbn [snd]. apply Forall_forall. intros x Ix.
  pose proof (in_blocks x g b ls f cur I Ix) as J. apply in_app_or in J. rewrite Forall_forall in Hc, Hl.
  destruct J as [J|J]; [apply Hc; now apply in_rev|now apply Hl].
Qed.

Lemma view_blocks_forall (P : oline -> Prop) exact pins : Forall P pins ->
  forall bs lvl, (forall f b x, In (f, b) bs -> In x b -> P (out_bline x)) -> Forall P (view_blocks exact lvl pins bs).
Proof.
  intros Pp. induction bs as [|[f b] bs IH]; intros lvl H; [constructor|].
  assert (Hb : forall l, (forall x, In x l -> In x b) -> Forall P (map out_bline l)).
  { intros l Hl. apply Forall_forall. intros o I. apply in_map_iff in I. destruct I as [x [<- I]].
    apply (H f b); [now left|auto]. }
  assert (Hr : forall lvl', Forall P (view_blocks exact lvl' pins bs)).
  { intro lvl'. apply IH. intros f' b' x I. apply (H f' b' x). now right. }
  destruct f; cbn [view_blocks]; apply Forall_app; split; try apply Hr.
  - destruct exact; [destruct (existsb fst bs); [constructor|assumption]|]. apply Hb. intro x. apply in_setup_body.
  - apply Hb. auto.
Qed.

(* the constraint a setup line states: a relative version with the words after it, else the bracket *)
Definition constraint_of (s : sline) : option str :=
  match truthy (sl_version s) with
  | Some v => if has_relop v then Some (join_str [c_space] (v :: sl_rest s)) else truthy (sl_logical s)
  | None => truthy (sl_logical s)
  end.
(* its explicit version *)
Definition plain_version (s : sline) : option str :=
  match truthy (sl_version s) with
  | Some v => if has_relop v then None else Some v
  | None => None
  end.

Definition carries (w : world) (e plist : amap str) (s : sline) (r : rline) : Prop :=
  r = RKeep s \/
  exists v lg, r = RNew (sl_optional s) (sl_name s) (sl_flags s) v lg /\
    (forall c, constraint_of s = Some c -> c <> [] -> lg = Some c) /\
    (forall v0, plain_version s = Some v0 -> alookup (sl_name s) plist = None -> v = v0) /\
    (alookup (sl_name s) plist = Some v \/ plain_version s = Some v \/ recorded e (sl_name s) v).

Lemma truthy_idem o : truthy (truthy o) = truthy o.
Proof. now destruct o as [[|c r]|]. Qed.

Lemma join_nonempty_head v l : v <> [] -> join_str [c_space] (v :: l) <> [].
Proof. destruct v; [congruence|]. destruct l; simpl; discriminate. Qed.

Lemma truthy_cons c r : truthy (Some (c :: r)) = Some (c :: r).
Proof. reflexivity. Qed.

Lemma plain_version_nonempty s v : plain_version s = Some v -> v <> [].
Proof.
  unfold plain_version. destruct (truthy (sl_version s)) as [x|] eqn:T; [|discriminate].
  apply truthy_some in T. destruct (has_relop x); [discriminate|]. intro H; inversion H; subst. apply T.
Qed.

Lemma carries_found w e plist s logical1 :
  (forall c, constraint_of s = Some c -> c <> [] -> truthy logical1 = Some c) ->
  (forall v0, plain_version s = Some v0 -> alookup (sl_name s) plist = None -> False) ->
  carries w e plist s
    (match find_setup_product w e (sl_name s) with
     | None => RKeep s
     | Some p =>
         match p_version p with
         | [] => RKeep s
         | v => RNew (sl_optional s) (sl_name s) (sl_flags s) v
                     (match truthy logical1 with
                      | Some l => Some l
                      | None => if starts_with (lit "LOCAL:") v then None else Some (ge_expr v)
                      end)
         end
     end).
Proof.
  intros HL HV. unfold carries.
  destruct (find_setup_product w e (sl_name s)) as [p|] eqn:F; [|now left].
  destruct (p_version p) as [|c0 r0] eqn:PV; [now left|]. right. eexists; eexists. split; [reflexivity|].
  apply find_setup_product_recorded in F. destruct F as [_ F]. rewrite PV in F.
  split; [|split].
  - intros c H Hc. now rewrite (HL c H Hc).
  - intros v0 H N. exfalso. eauto.
  - auto.
Qed.

(* join_str is opaque here so that no step unfolds the joined words: the proof only asks whether the joined text is
   empty (HL generalises it), never what it is *)
Opaque join_str.
Lemma rewrite_carries w e plist s : carries w e plist s (rewrite w e plist s).
Proof.
  unfold rewrite.
  set (VL := match truthy (sl_version s) with
             | Some v => if has_relop v then (None, Some (join_str [c_space] (v :: sl_rest s))) else (Some v, sl_logical s)
             | None => (None, sl_logical s)
             end).
  assert (HL : forall c, constraint_of s = Some c -> c <> [] -> truthy (snd VL) = Some c).
  { unfold VL, constraint_of. intros c H Hc. destruct (truthy (sl_version s)) as [v|]; [|exact H].
    destruct (has_relop v); [|exact H]. cbn [snd]. injection H as <-.
    revert Hc. generalize (join_str [c_space] (v :: sl_rest s)). intros [|a b] Hc; [now elim Hc|reflexivity]. }
  assert (HV : fst VL = plain_version s).
  { unfold VL, plain_version. destruct (truthy (sl_version s)) as [v|]; [|reflexivity]. now destruct (has_relop v). }
  destruct VL as [version1 logical1]. simpl in HL, HV.
  destruct (alookup (sl_name s) plist) as [pv|] eqn:A.
  - destruct (truthy (Some pv)) as [pv'|] eqn:T.
    + apply truthy_some in T. destruct T as [T _]. inversion T; subst pv'. right. eexists; eexists. split; [reflexivity|].
      split; [|split].
      * intros c H Hc. exact (HL c H Hc).
      * intros v0 _ N. congruence.
      * auto.
    + apply carries_found; [assumption|]. intros v0 _ N. congruence.
  - destruct (truthy version1) as [v|] eqn:T.
    + apply truthy_some in T. destruct T as [T _]. subst version1. right. eexists; eexists. split; [reflexivity|].
      split; [|split].
      * intros c H Hc. exact (HL c H Hc).
      * intros v0 H _. congruence.
      * right. left. now symmetry.
    + apply carries_found; [assumption|]. intros v0 H _.
      pose proof (plain_version_nonempty s v0 H) as P. rewrite <- HV in H. rewrite H in T.
      destruct v0; [now apply P|discriminate].
Qed.

Transparent join_str.

Lemma Forall2_map_r {A B} (R : A -> B -> Prop) (f : A -> B) l : (forall a, R a (f a)) -> Forall2 R l (map f l).
Proof. intro H. induction l; constructor; auto. Qed.

(* no dependency list demands a product that is not set up *)
Definition closed (w : world) (e : amap str) (rd : rawdeps) : Prop :=
  forall n v, exists l, setup_closure true w e None (lookup_raw rd n v) = Ok l.

Lemma rewrite_keeps w e plist s :
  rl_name (rewrite w e plist s) = sl_name s /\ rl_optional (rewrite w e plist s) = sl_optional s /\
  rl_flags (rewrite w e plist s) = sl_flags s.
Proof.
  destruct (rewrite_carries w e plist s) as [->|[v [lg [-> _]]]]; simpl; auto.
Qed.

Lemma in_setup_rlines w e plist s : forall ls, In (LSetup s) ls ->
  In (rewrite w e plist s) (setup_rlines (map (rewrite_line w e plist) ls)).
Proof.
  induction ls as [|l ls IH]; intro I; [contradiction|]. destruct I as [->|I].
  - now left.
  - destruct l; simpl; auto.
Qed.

Lemma blocks_true : forall ls cur, existsb fst (blocks true cur ls) = true.
Proof.
  induction ls as [|l ls IH]; intro cur; [reflexivity|]. destruct l; simpl; auto.
Qed.

Lemma blocks_has_setup r : forall ls f cur, In (BSetup r) ls -> existsb fst (blocks f cur ls) = true.
Proof.
  induction ls as [|l ls IH]; intros f cur I; [contradiction|]. destruct I as [->|I].
  - destruct f; simpl; [apply blocks_true|]. apply blocks_true.
  - destruct l; simpl; auto.
    + destruct f; [auto|]. simpl. apply blocks_true.
    + destruct f; simpl; auto.
    + destruct f; [auto|]. simpl. apply blocks_true.
Qed.

Lemma block_complete_open w e top force rd ls out s n v :
  expand w e top [] force rd ls = Ok out ->
  In (LSetup s) ls -> sl_name s <> top -> recorded e (sl_name s) v -> v <> [] ->
  (n = sl_name s \/
   (mem_str (lit "-j") (sl_flags s) = false /\ find_pv w (sl_name s) v <> None /\
    exists d p, In d (lookup_raw rd (sl_name s) v) /\ d_name d = n /\ find_setup_product w e n = Some p)) ->
  exists o v', In (OPin o n v') out /\ recorded e n v'.
Proof.
  intros E I Nt R Vne Hn. destruct (expand_pins _ _ _ _ _ _ _ _ _ _ _ E) as [a [Col P]].
  set (r := rewrite w e [] s).
  destruct (rewrite_keeps w e [] s) as [Kn [Ko Kf]]. fold r in Kn, Ko, Kf.
  assert (Ir : In r (setup_rlines (map (rewrite_line w e []) ls))) by now apply in_setup_rlines.
  destruct (collect_ok_line true true true w e top [] force rd _ _ a r Col Ir) as [res Hok].
  pose proof Hok as Hc. unfold rl_just in Hc. rewrite Kn, Kf in Hc.
  destruct (line_closure_complete w e top force rd _ _ _ v _ Hc Nt R Vne) as [l [-> [Il Hd]]].
  assert (L : exists o v', In (n, v', o) l /\ recorded e n v').
  { destruct Hn as [->|[J [F [d [p [Id [<- Fp]]]]]]]; [now exists (rl_optional r), v|].
    destruct (find_setup_product_recorded w e _ p Fp) as [Pn Rp]. exists (d_optional d), (p_version p).
    split; [|exact Rp]. rewrite <- Pn at 1. now apply Hd. }
  destruct L as [o [v' [Il' Rv]]].
  pose proof (collect_complete true true true w e top [] force rd _ _ a r l n v' o Col Ir Hok Il') as D.
  eexists _, v'. split; [|exact Rv]. apply pins_of_iff. rewrite P, pins_of_pin_lines.
  rewrite (blocks_has_setup r) by (apply in_map_iff; exists (LSetup s); split; [reflexivity|exact I]).
  apply in_map_iff. exists (n, v'). split; [reflexivity|exact D].
Qed.

Lemma block_complete w e top force rd ls out s n v :
  expand w e top [] force rd ls = Ok out ->
  closed w e rd ->
  In (LSetup s) ls -> sl_name s <> top -> recorded e (sl_name s) v -> v <> [] ->
  (n = sl_name s \/
   (mem_str (lit "-j") (sl_flags s) = false /\ find_pv w (sl_name s) v <> None /\
    exists d p, In d (lookup_raw rd (sl_name s) v) /\ d_name d = n /\ find_setup_product w e n = Some p)) ->
  exists o v', In (OPin o n v') out /\ recorded e n v'.
Proof. intros E _. exact (block_complete_open w e top force rd ls out s n v E). Qed.
