(* Lemmas about Model/RecordsDirs.v: the tag assignment kept outside the product's own database *)
From Coq Require Import List Bool.
Import ListNotations.
From Eupsv Require Import Base.Base Base.BaseLemmas Model.Paths Model.Records Model.RecordsExt
  Model.RecordsDirs Proofs.RecordsLib Proofs.Records Proofs.RecordsFlavors.

Lemma db_assign_tag_in_eq who now name tag v req vls own ut ud wr d cs lines :
  tag_target own ut ud wr = Ok d ->
  db_assign_tag who now name tag v req vls (alookup d cs) = Ok lines ->
  db_assign_tag_in who now name tag v req vls own ut ud wr cs = Ok (aset d lines cs).
Proof.
  intros Ht E. unfold db_assign_tag_in. rewrite Ht. cbn [bind]. unfold db_assign_tag_at. now rewrite E.
Qed.
