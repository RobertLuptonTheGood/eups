(* C09 - what the repaired protocol lets through, for processes that lock a single stack: a process that
   runs alone acquires a free stack, readers join readers, a child re-enters the lock of its EUPS_LOCK_PID
   ancestor.  The runs are followed one file-system call at a time with the one-step lemmas below; nothing
   here asks Coq to normalise a whole run of [next] at once. *)
From Eupsv Require Import Base.Base Model.Lock Proofs.LockLib Proofs.LockNext Proofs.LockNext2 Proofs.Lock.
From Coq Require Import Lia.

(* n consecutive calls of process p, each of them about stack k, seen on the part of the state they can touch *)
Inductive solo (fx fr : bool) (cfg : config) (p : pid) (k : stack) (c : choice) :
  nat -> bool * list pid * local -> bool * list pid * local -> Prop :=
| solo_0 st : solo fx fr cfg p k c 0 st st
| solo_S n d fs lo st' :
    nth_error (path_of cfg p) (widx lo) = Some k -> solo fx fr cfg p k c n (next fx fr cfg d fs lo p c) st' ->
    solo fx fr cfg p k c (S n) (d, fs, lo) st'.

Lemma step_on fx fr cfg s p c k d' fs' lo' :
  nth_error (path_of cfg p) (widx (local_of s p)) = Some k ->
  next fx fr cfg (dir s k) (files s k) (local_of s p) p c = (d', fs', lo') ->
  let s' := step_gen fx fr cfg s p c in
  dir s' k = d' /\ files s' k = fs' /\ forall q, local_of s' q = upd (local_of s) p lo' q.
Proof.
  intros W N. unfold step_gen. rewrite W, N. cbn [dir files put write]. rewrite !upd_same.
  split; [reflexivity|]. split; [reflexivity|]. exact (local_put (write s k d' fs') p lo').
Qed.

Lemma run_solo fx fr cfg p c k n : forall s d' fs' lo',
  solo fx fr cfg p k c n (dir s k, files s k, local_of s p) (d', fs', lo') ->
  let s' := run_gen fx fr cfg s (repeat (p, c) n) in
  dir s' k = d' /\ files s' k = fs' /\ local_of s' p = lo' /\ (forall q, q <> p -> local_of s' q = local_of s q).
Proof.
  induction n as [|m IH]; intros s d' fs' lo' H; inversion H as [|? d fs lo ? W H']; subst.
  - repeat split.
  - cbn [repeat run_gen].
    destruct (next fx fr cfg (dir s k) (files s k) (local_of s p) p c) as [[d1 fs1] lo1] eqn:N.
    destruct (step_on fx fr cfg s p c k d1 fs1 lo1 W N) as (D & F & L). cbv zeta in D, F, L.
    specialize (IH (step_gen fx fr cfg s p c) d' fs' lo'). cbv zeta in IH.
    rewrite D, F, L, upd_same in IH.
    destruct (IH H') as (A & B & C & O). repeat split; try assumption.
    intros q Hq. now rewrite (O q Hq), L, upd_other.
Qed.

Lemma held_holds s p : pc s p = LHeld -> holds s p.
Proof. intro H. unfold holds, holdsb. now rewrite H. Qed.

Lemma holds_local s s' p : local_of s' p = local_of s p -> holds s p -> holds s' p.
Proof. intros H Hp. unfold holds, holdsb in *. now rewrite (proj1 (local_eq_pc s s' p H)). Qed.

Definition mk (l : loc) (i n j : nat) : local := {| lpc := l; ltry := i; lnl := n; lcur := j |}.

Section Steps.
Variable cfg : config.
Notation nx := (next true true cfg).

Lemma next_mkdir_free fs i n j p c : nx false fs (mk LMkdir i n j) p c = (true, fs, mk LScanX i n j).
Proof. reflexivity. Qed.

Lemma next_mkdir_busy_sh fs i n j p c :
  kind_of cfg p = Sh -> nx true fs (mk LMkdir i n j) p c = (true, fs, mk LExists i n j).
Proof. intro K. unfold next, mk, setpc. cbn [lpc ltry lnl lcur]. now rewrite K. Qed.

Lemma next_mkdir_busy_ex fs i n j p c :
  kind_of cfg p = Ex -> nx true fs (mk LMkdir i n j) p c = (true, fs, mk LListAll i n j).
Proof. intro K. unfold next, mk, setpc. cbn [lpc ltry lnl lcur]. now rewrite K. Qed.

Lemma next_exists_yes fs i n j p c : nx true fs (mk LExists i n j) p c = (true, fs, mk LScanX i n j).
Proof. reflexivity. Qed.

Lemma next_listall_root d fs i n j p c :
  only_root cfg p fs = true -> nx d fs (mk LListAll i n j) p c = (d, fs, mk LScanX i n j).
Proof. intro H. unfold next, mk, setpc. cbn [lpc ltry lnl lcur]. now rewrite H. Qed.

Lemma next_scan_none d fs i n j p c :
  filter (isEx cfg) fs = [] -> nx d fs (mk LScanX i n j) p c = (d, fs, mk LCreate i n j).
Proof. intro H. unfold next, mk, setpc. cbn [lpc ltry lnl lcur]. now rewrite H. Qed.

Lemma next_scan_one d fs i n j p c q :
  filter (isEx cfg) fs = [q] -> nx d fs (mk LScanX i n j) p c = (d, fs, mk LScanX2 i n j).
Proof. intro H. unfold next, mk, setpc. cbn [lpc ltry lnl lcur]. now rewrite H. Qed.

Lemma next_scan2_root d fs i n j p q :
  filter (isEx cfg) fs = [q] -> is_root cfg p q = true ->
  nx d fs (mk LScanX2 i n j) p 0 = (d, fs, mk LCreate i n j).
Proof.
  intros H R. unfold next, mk, setpc. cbn [lpc ltry lnl lcur]. rewrite H. unfold pick.
  cbn [length Nat.modulo Nat.divmod fst snd Nat.sub nth_error]. now rewrite R.
Qed.

Lemma next_create fs i n j p c : nx true fs (mk LCreate i n j) p c = (true, add p fs, mk LValidate i n j).
Proof. reflexivity. Qed.

Lemma next_validate_last d fs i j p c k :
  path_of cfg p = [k] -> conflict cfg p fs = false ->
  nx d fs (mk LValidate i 0 j) p c = (d, fs, mk LHeld i 1 j).
Proof.
  intros P H. unfold next, mk, setpc, advance. cbn [lpc ltry lnl lcur]. rewrite H, P. reflexivity.
Qed.

End Steps.

Section Live.
Variable cfg : config.

Ltac on_k P := apply solo_S; [rewrite P; reflexivity|].

(* from the creation of the file onwards, when the second look finds no conflict *)
Lemma create_to_held p c k fs i j :
  path_of cfg p = [k] -> conflict cfg p (add p fs) = false ->
  solo true true cfg p k c 2 (true, fs, mk LCreate i 0 j) (true, add p fs, mk LHeld i 1 j).
Proof.
  intros P HC. on_k P. rewrite next_create.
  on_k P. rewrite (next_validate_last cfg true (add p fs) i j p c k P HC). apply solo_0.
Qed.

Lemma scan_to_held p c k fs i j :
  path_of cfg p = [k] -> filter (isEx cfg) fs = [] -> conflict cfg p (add p fs) = false ->
  solo true true cfg p k c 3 (true, fs, mk LScanX i 0 j) (true, add p fs, mk LHeld i 1 j).
Proof. intros P FX HC. on_k P. rewrite next_scan_none by assumption. now apply create_to_held. Qed.

Lemma local_fresh s p : pc s p = LMkdir -> nlk s p = 0 -> local_of s p = mk LMkdir (tries s p) 0 (cur s p).
Proof. intros L N0. unfold local_of, mk. now rewrite L, N0. Qed.

Lemma solo_free_acquires s p c k :
  path_of cfg p = [k] -> dir s k = false -> files s k = [] -> pc s p = LMkdir -> nlk s p = 0 ->
  let s' := run cfg s (repeat (p, c) 4) in
  pc s' p = LHeld /\ files s' k = [p] /\ dir s' k = true /\ (forall q, q <> p -> pc s' q = pc s q).
Proof.
  intros P D F L N0. cbv zeta. unfold run.
  assert (HC : conflict cfg p (add p []) = false).
  { change (add p []) with [p]. destruct (kind_of cfg p) eqn:K.
    - apply conflict_false_sh; [assumption|]. intros q [<-|[]]. now left.
    - apply conflict_false_ex; [assumption|]. intros q [<-|[]]. now left. }
  destruct (run_solo true true cfg p c k 4 s true [p] (mk LHeld (tries s p) 1 (cur s p))) as (A & B & C & O).
  { rewrite D, F, (local_fresh s p L N0). on_k P. rewrite next_mkdir_free. now apply scan_to_held. }
  split; [rewrite pc_local, C; reflexivity|]. split; [exact B|]. split; [exact A|].
  intros q Hq. now rewrite !pc_local, (O q Hq).
Qed.

(* a reader joins whatever readers are there: no exclusive lock file in sight *)
Lemma shared_joins s q c k :
  path_of cfg q = [k] -> kind_of cfg q = Sh -> (forall x, In x (files s k) -> kind_of cfg x = Sh) ->
  pc s q = LMkdir -> nlk s q = 0 ->
  exists n, let s' := run cfg s (repeat (q, c) n) in
    pc s' q = LHeld /\ (forall r, r <> q -> local_of s' r = local_of s r) /\
    (forall x, In x (files s' k) -> kind_of cfg x = Sh).
Proof.
  intros P K A L N0.
  assert (FX : filter (isEx cfg) (files s k) = []).
  { destruct (filter (isEx cfg) (files s k)) as [|x r] eqn:E; [reflexivity|]. exfalso.
    assert (Hx : In x (filter (isEx cfg) (files s k))) by (rewrite E; now left).
    apply filter_In in Hx. destruct Hx as [Hin Hx]. unfold isEx in Hx. rewrite (A x Hin) in Hx. discriminate. }
  assert (A' : forall x, In x (add q (files s k)) -> kind_of cfg x = Sh).
  { intros x Hx. apply in_add in Hx. destruct Hx as [->|Hx]; auto. }
  assert (HC : conflict cfg q (add q (files s k)) = false).
  { apply conflict_false_sh; [assumption|]. intros x Hx. right. right. now apply A'. }
  pose proof (scan_to_held q c k (files s k) (tries s q) (cur s q) P FX HC) as On.
  assert (G : exists n, solo true true cfg q k c n (dir s k, files s k, local_of s q)
                          (true, add q (files s k), mk LHeld (tries s q) 1 (cur s q))).
  { rewrite (local_fresh s q L N0). destruct (dir s k) eqn:D.
    - exists 5. on_k P. rewrite next_mkdir_busy_sh by assumption. on_k P. now rewrite next_exists_yes.
    - exists 4. on_k P. now rewrite next_mkdir_free. }
  destruct G as (n & G). exists n. cbv zeta. unfold run.
  destruct (run_solo true true cfg q c k n s _ _ _ G) as (_ & R2 & R3 & R5).
  split; [rewrite pc_local, R3; reflexivity|]. split; [exact R5|]. rewrite R2. exact A'.
Qed.

Lemma readers_share_proof k n :
  (forall i, i < n -> kind_of cfg i = Sh /\ path_of cfg i = [k]) ->
  exists s, reachable cfg s /\ (forall i, i < n -> holds s i) /\
    (forall i, n <= i -> pc s i = LMkdir /\ nlk s i = 0) /\ (forall x, In x (files s k) -> kind_of cfg x = Sh).
Proof.
  induction n as [|n IH]; intro K.
  - exists init. repeat split.
    + constructor.
    + intros i Hi. lia.
    + intros x [].
  - destruct IH as (s & R & H & M & A); [intros i Hi; apply K; lia|].
    destruct (K n (Nat.lt_succ_diag_r n)) as [Kn Pn]. destruct (M n (le_n n)) as [Ln Nn].
    destruct (shared_joins s n 0 k Pn Kn A Ln Nn) as (m & L & O & A').
    cbv zeta in *. exists (run cfg s (repeat (n, 0) m)).
    split; [now apply reachable_run|]. split; [|split; [|exact A']].
    + intros i Hi. destruct (Nat.eq_dec i n) as [->|Hne].
      * now apply held_holds.
      * apply (holds_local s _ i (O i Hne)). apply H. lia.
    + intros i Hi. assert (Hne : i <> n) by lia. destruct (M i) as [M1 M2]; [lia|].
      destruct (local_eq_pc s _ i (O i Hne)) as [E1 E2]. split; [exact (eq_trans E1 M1) | exact (eq_trans E2 M2)].
Qed.

Lemma reentry_proof s p q k :
  path_of cfg q = [k] -> root_of cfg q = Some p -> q <> p -> dir s k = true -> files s k = [p] ->
  pc s p = LHeld -> pc s q = LMkdir -> nlk s q = 0 ->
  exists n, let s' := run cfg s (repeat (q, 0) n) in
    pc s' q = LHeld /\ pc s' p = LHeld /\ files s' k = [q; p].
Proof.
  intros P R Hne D F Lp Lq N0.
  assert (IR : is_root cfg q p = true) by now apply is_root_true.
  assert (OR : only_root cfg q [p] = true) by exact IR.
  assert (HM : add q [p] = [q; p]).
  { unfold add. cbn [mem]. apply not_eq_sym, Nat.eqb_neq in Hne. now rewrite Hne. }
  assert (HC : conflict cfg q (add q [p]) = false).
  { rewrite HM. destruct (kind_of cfg q) eqn:K.
    - apply conflict_false_sh; [assumption|]. intros x [<-|[<-|[]]]; auto.
    - apply conflict_false_ex; [assumption|]. intros x [<-|[<-|[]]]; auto. }
  set (i := tries s q). set (j := cur s q).
  pose proof (create_to_held q 0 k [p] i j P HC) as T. rewrite HM in T.
  (* the scan sees nothing, or exactly the lock of the parent *)
  assert (SC : exists m, solo true true cfg q k 0 m (true, [p], mk LScanX i 0 j) (true, [q; p], mk LHeld i 1 j)).
  { destruct (isEx cfg p) eqn:X.
    - assert (FX : filter (isEx cfg) [p] = [p]) by (cbn [filter]; now rewrite X).
      exists 4. on_k P. rewrite (next_scan_one cfg true [p] i 0 j q 0 p FX).
      on_k P. now rewrite (next_scan2_root cfg true [p] i 0 j q p FX IR).
    - assert (FX : filter (isEx cfg) [p] = []) by (cbn [filter]; now rewrite X).
      exists 3. on_k P. now rewrite next_scan_none. }
  destruct SC as (m & SC). exists (S (S m)). cbv zeta. unfold run.
  destruct (run_solo true true cfg q 0 k (S (S m)) s true [q; p] (mk LHeld i 1 j)) as (_ & R2 & R3 & R5).
  { rewrite D, F. unfold i, j. rewrite (local_fresh s q Lq N0). destruct (kind_of cfg q) eqn:K.
    - on_k P. rewrite next_mkdir_busy_sh by assumption. on_k P. now rewrite next_exists_yes.
    - on_k P. rewrite next_mkdir_busy_ex by assumption. on_k P. now rewrite next_listall_root. }
  split; [exact (f_equal lpc R3)|]. split; [|exact R2].
  exact (eq_trans (f_equal lpc (R5 p (not_eq_sym Hne))) Lp).
Qed.

End Live.
