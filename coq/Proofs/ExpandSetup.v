(* Lemmas about Model/Setup.v needed by C17: what Eups.setup does with a table whose setup actions
   all carry -j and whose decisions are the explicit versions (the exact reading of an expanded table).  The last
   lemmas (conj_then ... recorded_cons) are what the instances in Props/C17.v need to meet the hypotheses. *)
From Eupsv Require Import Base.Base Base.BaseLemmas Model.PathAlg Model.Setup Model.Expand Proofs.PathAlg Proofs.Expand.
From Coq Require Import Lia.

Definition is_setup_var (k : str) : bool := starts_with (lit "SETUP_") k.

Lemma setup_var_is n : is_setup_var (setup_var n) = true.
Proof. unfold is_setup_var, setup_var. apply starts_with_refl. Qed.

Lemma setup_var_not k m : is_setup_var k = false -> setup_var m <> k.
Proof. intros H E. now rewrite <- E, setup_var_is in H. Qed.

(* two environments that agree on every SETUP_ variable *)
Definition sv_eq (e1 e2 : amap str) : Prop := forall k, is_setup_var k = true -> alookup k e1 = alookup k e2.

Lemma sv_eq_refl e : sv_eq e e.
Proof. intros k _. reflexivity. Qed.
Lemma sv_eq_trans a b c : sv_eq a b -> sv_eq b c -> sv_eq a c.
Proof. intros H1 H2 k Hk. now rewrite H1, H2. Qed.

Lemma sv_eq_aset_other k x e : is_setup_var k = false -> sv_eq (aset k x e) e.
Proof. intros Hk k' Hk'. apply alookup_aset_other. intro E. subst. congruence. Qed.
Lemma sv_eq_aremove_other k e : is_setup_var k = false -> sv_eq (aremove k e) e.
Proof. intros Hk k' Hk'. apply alookup_aremove_other. intro E. subst. congruence. Qed.
Lemma sv_eq_aset k x e1 e2 : sv_eq e1 e2 -> sv_eq (aset k x e1) (aset k x e2).
Proof.
  intros H k' Hk'. destruct (str_eq_dec k' k) as [->|N].
  - now rewrite !alookup_aset_same.
  - rewrite !alookup_aset_other by assumption. now apply H.
Qed.

(* a table command that touches no SETUP_ variable, and that cannot fail *)
Definition benign (a : action) : Prop :=
  match a with
  | APath _ var _ _ => is_setup_var var = false
  | ASet var _ => is_setup_var var = false
  | AUnset var => is_setup_var var = false
  | _ => True
  end.
Definition succeeds (a : action) : Prop := forall st, exists st', exec_simple true a st = Ok st'.
(* the actions of a product that is set up with -j: its own setup lines are not followed *)
Definition quiet_action (a : action) : Prop :=
  match a with ASetup _ _ _ => True | _ => benign a /\ succeeds a end.
(* the meaning of a line that is not a setup command *)
Definition simple_action (a : action) : Prop :=
  match a with ASetup _ _ _ => False | _ => benign a /\ succeeds a end.

Lemma env_prepend_frame ap fwd var v d e e' :
  env_prepend ap fwd var v d e = Ok (Some e') -> exists x, e' = aset var x e.
Proof.
  unfold env_prepend. destruct (strip_lead d v) as [pre v1]. destruct (strip_trail d v1) as [app v2].
  match goal with |- bind ?X _ = _ -> _ => destruct X as [[v3|]|] end; simpl; intro H; inversion H.
  eexists; reflexivity.
Qed.

Lemma env_set_frame k v e e' : env_set true k v e = Ok (Some e') -> exists x, e' = aset k x e.
Proof.
  unfold env_set. destruct (expand_var e v) as [[[|c r]|]|]; simpl; intro H; inversion H.
  eexists; reflexivity.
Qed.

Lemma exec_simple_sv a st st' : benign a -> exec_simple true a st = Ok st' -> sv_eq (s_env st') (s_env st).
Proof.
  destruct a; cbn [exec_simple benign]; intros B H.
  - inversion H; subst. apply sv_eq_refl.
  - destruct (env_prepend append true var value d (s_env st)) as [[e'|]|] eqn:P; inversion H; subst; [|apply sv_eq_refl].
    apply env_prepend_frame in P. destruct P as [x ->]. simpl. now apply sv_eq_aset_other.
  - destruct (env_set true var value (s_env st)) as [[e'|]|] eqn:P; inversion H; subst; [|apply sv_eq_refl].
    apply env_set_frame in P. destruct P as [x ->]. simpl. now apply sv_eq_aset_other.
  - inversion H; subst. simpl. now apply sv_eq_aremove_other.
  - inversion H; subst. apply sv_eq_refl.
  - inversion H; subst. apply sv_eq_refl.
Qed.

Lemma with_env_self st : with_env st (s_env st) = st.
Proof. now destruct st. Qed.

Lemma setup_var_inj n m : setup_var n = setup_var m -> upper_str n = upper_str m.
Proof. unfold setup_var. apply app_inv_head. Qed.

Lemma setup_var_upper n m : upper_str n = upper_str m -> setup_var n = setup_var m.
Proof. unfold setup_var. now intros ->. Qed.

(* a product whose directory variable is not itself a SETUP_ variable *)
Definition sane (n : str) : Prop := is_setup_var (dir_var n) = false.

Section Replay.
Variables (w : world) (cfg : config).
Hypothesis Hmd : c_max_depth cfg = None.          (* no --max-depth *)

Lemma setup_S f : setup w cfg (S f) = setup_step w cfg (setup w cfg f).
Proof. reflexivity. Qed.

Lemma cut_off_plain just d : cut_off cfg just d = just.
Proof. unfold cut_off. rewrite Hmd. apply orb_false_r. Qed.

Lemma run_step rec depth just a acts st ds : simple_action a ->
  exists st1, run_actions cfg rec true depth just (a :: acts) st ds = run_actions cfg rec true depth just acts st1 ds /\
              sv_eq (s_env st1) (s_env st).
Proof.
  intro Q. assert (BS : benign a /\ succeeds a) by (destruct a; try exact Q; contradiction).
  destruct BS as [B Sx]. destruct (Sx st) as [st1 E1]. exists st1. split; [|eapply exec_simple_sv; eauto].
  destruct a; try contradiction; cbn [run_actions]; now rewrite E1.
Qed.

(* a product set up with -j: only its own commands run *)
Lemma run_just rec depth : forall acts st ds, Forall quiet_action acts ->
  exists st', run_actions cfg rec true depth true acts st ds = RDone true st' ds /\ sv_eq (s_env st') (s_env st).
Proof.
  induction acts as [|a acts IH]; intros st ds Q.
  - exists st. split; [reflexivity|apply sv_eq_refl].
  - inversion Q as [|? ? Qa Qr]; subst.
    assert (C : simple_action a \/ exists o n j, a = ASetup o n j) by (destruct a; eauto).
    destruct C as [Sa|[o [n [j ->]]]].
    + destruct (run_step rec depth true a acts st ds Sa) as [st1 [E1 V1]]. destruct (IH st1 ds Qr) as [st' [R V]].
      exists st'. split; [now rewrite E1|eapply sv_eq_trans; eauto].
    + cbn [run_actions]. rewrite cut_off_plain. now apply IH.
Qed.

Lemma run_simple rec depth just : forall l r st ds, Forall simple_action l ->
  exists st', run_actions cfg rec true depth just (l ++ r) st ds = run_actions cfg rec true depth just r st' ds /\
              sv_eq (s_env st') (s_env st).
Proof.
  induction l as [|a l IH]; intros r st ds Q.
  - exists st. split; [reflexivity|apply sv_eq_refl].
  - inversion Q as [|? ? Qa Qr]; subst. destruct (run_step rec depth just a (l ++ r) st ds Qa) as [st1 [E1 V1]].
    destruct (IH r st1 ds Qr) as [st' [R V]]. exists st'. split; [cbn [app]; now rewrite E1|eapply sv_eq_trans; eauto].
Qed.

Lemma not_set_up st n : alookup (setup_var n) (s_env st) = None -> find_setup_product w (s_env st) n = None.
Proof. unfold find_setup_product. now intros ->. Qed.

Lemma product_vars_sv st n p :
  sane n -> sv_eq (s_env (set_product_vars cfg st n p))
                  (aset (setup_var n) (setup_string cfg n (p_version p)) (s_env st)).
Proof.
  intro Sn. unfold set_product_vars, set_env. simpl. apply sv_eq_aset. now apply sv_eq_aset_other.
Qed.

Lemma pin_step f n v p st ds :
  find_pv w n v = Some p -> Forall quiet_action (p_actions p) -> sane n ->
  alookup (setup_var n) (s_env st) = None ->
  exists st', setup w cfg (S f) st (Some v :: ds) n true 1 true = RDone true st' ds /\
              sv_eq (s_env st') (aset (setup_var n) (setup_string cfg n v) (s_env st)).
Proof.
  intros F Q Sn Fr. cbn [setup]. unfold setup_step. rewrite F, (not_set_up st n Fr). cbn [same_product andb].
  destruct (run_just (setup w cfg f) 1 (p_actions p) (set_product_vars cfg st n p) ds Q) as [st' [R V]].
  exists st'. split; [exact R|]. eapply sv_eq_trans; [exact V|].
  apply find_pv_some in F. destruct F as [_ <-]. now apply product_vars_sv.
Qed.

Fixpoint set_pins (l : list nvo) (e : amap str) : amap str :=
  match l with
  | [] => e
  | x :: l' => set_pins l' (aset (setup_var (fst (fst x))) (setup_string cfg (fst (fst x)) (snd (fst x))) e)
  end.

Lemma set_pins_sv l : forall e1 e2, sv_eq e1 e2 -> sv_eq (set_pins l e1) (set_pins l e2).
Proof. induction l as [|x l IH]; intros e1 e2 H; [assumption|]. simpl. apply IH. now apply sv_eq_aset. Qed.

Lemma set_pins_out l : forall e k, (forall x, In x l -> setup_var (fst (fst x)) <> k) ->
  alookup k (set_pins l e) = alookup k e.
Proof.
  induction l as [|x l IH]; intros e k H; [reflexivity|]. simpl. rewrite IH by (intros y I; apply H; now right).
  apply alookup_aset_other. intro E. apply (H x); [now left|now symmetry].
Qed.

Definition pin_name (x : nvo) : str := fst (fst x).

Lemma other_setup_var n (l : list nvo) x :
  ~ In (upper_str n) (map (fun x => upper_str (pin_name x)) l) -> In x l -> setup_var (pin_name x) <> setup_var n.
Proof. intros N I E. apply N. apply setup_var_inj in E. rewrite <- E. apply in_map_iff. now exists x. Qed.

Lemma set_pins_in l : forall e n v o, NoDup (map (fun x => upper_str (pin_name x)) l) -> In (n, v, o) l ->
  alookup (setup_var n) (set_pins l e) = Some (setup_string cfg n v).
Proof.
  induction l as [|x l IH]; intros e n v o ND I; [contradiction|]. simpl in ND. inversion ND as [|? ? Nx NDl]; subst.
  destruct I as [->|I].
  - simpl. rewrite set_pins_out; [apply alookup_aset_same|]. intros y. now apply other_setup_var.
  - simpl. eapply IH; eauto.
Qed.

Definition pin_decisions (l : list nvo) : list decision := map (fun p => Some (snd (fst p))) l.

(* the exact reading of an expanded table, run by Eups.setup with the explicit versions as decisions *)
Lemma run_exact f interp : (forall t, Forall simple_action (interp t)) ->
  forall V tail st ds,
    (forall n v o, In (n, v, o) (pins_of V) ->
                   exists p, find_pv w n v = Some p /\ Forall quiet_action (p_actions p)) ->
    (forall x, In x (pins_of V) -> sane (pin_name x)) ->
    NoDup (map (fun x => upper_str (pin_name x)) (pins_of V)) ->
    (forall x, In x (pins_of V) -> alookup (setup_var (pin_name x)) (s_env st) = None) ->
    exists st',
      run_actions cfg (setup w cfg (S f)) true 0 false (exact_actions interp V ++ tail) st
                  (pin_decisions (pins_of V) ++ ds)
      = run_actions cfg (setup w cfg (S f)) true 0 false tail st' ds /\
      sv_eq (s_env st') (set_pins (pins_of V) (s_env st)).
Proof.
  intros Hi. induction V as [|l V IH]; intros tail st ds Hd Hs ND Fr.
  - exists st. split; [reflexivity|apply sv_eq_refl].
  - (* a line that is no pin: its commands, then the rest *)
    assert (Oth : forall t, pins_of (l :: V) = pins_of V -> exists st',
              run_actions cfg (setup w cfg (S f)) true 0 false ((interp t ++ exact_actions interp V) ++ tail) st
                          (pin_decisions (pins_of (l :: V)) ++ ds)
              = run_actions cfg (setup w cfg (S f)) true 0 false tail st' ds /\
              sv_eq (s_env st') (set_pins (pins_of (l :: V)) (s_env st))).
    { intros t Ep. rewrite Ep in *. rewrite <- app_assoc.
      destruct (run_simple (setup w cfg (S f)) 0 false (interp t) (exact_actions interp V ++ tail) st
                           (pin_decisions (pins_of V) ++ ds) (Hi t)) as [st1 [R1 V1]].
      destruct (IH tail st1 ds Hd Hs ND) as [st' [R V']].
      { intros x I. rewrite V1 by apply setup_var_is. now apply Fr. }
      exists st'. split; [now rewrite R1|]. eapply sv_eq_trans; [exact V'|]. now apply set_pins_sv. }
    destruct l; try (now apply IH); try (now apply Oth).
    change (exact_actions interp (OPin optional name version :: V) ++ tail)
      with (ASetup optional name true :: (exact_actions interp V ++ tail)).
    change (pin_decisions (pins_of (OPin optional name version :: V)) ++ ds)
      with (Some version :: (pin_decisions (pins_of V) ++ ds)).
    change (pins_of (OPin optional name version :: V)) with ((name, version, optional) :: pins_of V) in *.
    destruct (Hd name version optional (or_introl eq_refl)) as [p [Fp Qp]].
    assert (Sn : sane name) by (apply (Hs (name, version, optional)); now left).
    assert (Fn : alookup (setup_var name) (s_env st) = None) by (apply (Fr (name, version, optional)); now left).
    destruct (pin_step f name version p st (pin_decisions (pins_of V) ++ ds) Fp Qp Sn Fn) as [st1 [R1 V1]].
    inversion ND as [|? ? Nx NDl]; subst.
    destruct (IH tail st1 ds) as [st' [R V']].
    { intros n v o I. apply (Hd n v o). now right. }
    { intros x I. apply Hs. now right. }
    { assumption. }
    { intros x I. rewrite V1 by apply setup_var_is. rewrite alookup_aset_other by now apply (other_setup_var name (pins_of V)).
      apply Fr. now right. }
    exists st'. split.
    + cbn [run_actions]. rewrite cut_off_plain, R1. exact R.
    + eapply sv_eq_trans; [exact V'|]. simpl. now apply set_pins_sv.
Qed.

(* optional dependencies that no longer resolve (the implicit product at the end of every table) *)
Definition absent_action (n : str) : action := ASetup true n false.

Lemma run_absent f : forall absent st,
  run_actions cfg (setup w cfg (S f)) true 0 false (map absent_action absent) st (map (fun _ => None) absent)
  = RDone true st [].
Proof.
  induction absent as [|n absent IH]; intro st; [reflexivity|].
  cbn [map absent_action run_actions]. rewrite cut_off_plain. cbn [setup]. unfold setup_step at 1.
  cbn [andb negb]. apply IH.
Qed.

Lemma replay f interp V absent top topv ptop st0 :
  (forall t, Forall simple_action (interp t)) ->
  find_pv w top topv = Some ptop ->
  p_actions ptop = exact_actions interp V ++ map absent_action absent ->
  (forall n v o, In (n, v, o) (pins_of V) -> exists p, find_pv w n v = Some p /\ Forall quiet_action (p_actions p)) ->
  sane top -> (forall x, In x (pins_of V) -> sane (pin_name x)) ->
  NoDup (upper_str top :: map (fun x => upper_str (pin_name x)) (pins_of V)) ->
  alookup (setup_var top) (s_env st0) = None ->
  (forall x, In x (pins_of V) -> alookup (setup_var (pin_name x)) (s_env st0) = None) ->
  exists st',
    setup w cfg (S (S f)) st0 (forced_decisions topv (pins_of V) absent) top true 0 false = RDone true st' [] /\
    sv_eq (s_env st') (set_pins (pins_of V) (aset (setup_var top) (setup_string cfg top topv) (s_env st0))).
Proof.
  intros Hi Ft Ha Hd St Hs ND Fr0 Fr.
  inversion ND as [|? ? Nt NDl]; subst.
  rewrite (setup_S (S f)). unfold setup_step at 1. unfold forced_decisions. rewrite Ft, (not_set_up st0 top Fr0).
  cbn [same_product andb]. rewrite Ha.
  destruct (run_exact f interp Hi V (map absent_action absent) (set_product_vars cfg st0 top ptop)
                      (map (fun _ => None) absent) Hd Hs NDl) as [st' [R V']].
  { intros x I. rewrite (product_vars_sv st0 top ptop St) by apply setup_var_is.
    rewrite alookup_aset_other by now apply (other_setup_var top (pins_of V)). now apply Fr. }
  exists st'. split.
  - etransitivity; [exact R|apply run_absent].
  - eapply sv_eq_trans; [exact V'|]. apply set_pins_sv.
    apply find_pv_some in Ft. destruct Ft as [_ <-]. now apply product_vars_sv.
Qed.

End Replay.


Lemma replay_records jf sf cf w e top plist force rd ls out w' cfg interp ptop topv absent fuel st0 :
  expand_gen jf sf cf w e top plist force rd ls = Ok out ->
  c_max_depth cfg = None ->
  find_pv w' top topv = Some ptop ->
  p_actions ptop = exact_actions interp (exact_view out) ++ map absent_action absent ->
  (forall t, Forall simple_action (interp t)) ->
  (forall n v o, In (n, v, o) (pins_of out) ->
     exists p, find_pv w' n v = Some p /\ Forall quiet_action (p_actions p)) ->
  sane top -> (forall x, In x (pins_of out) -> sane (pin_name x)) ->
  NoDup (upper_str top :: map (fun x => upper_str (pin_name x)) (pins_of out)) ->
  alookup (setup_var top) (s_env st0) = None ->
  (forall x, In x (pins_of out) -> alookup (setup_var (pin_name x)) (s_env st0) = None) ->
  2 <= fuel ->
  exists st',
    setup w' cfg fuel st0 (forced_decisions topv (pins_of out) absent) top true 0 false = RDone true st' [] /\
    alookup (setup_var top) (s_env st') = Some (setup_string cfg top topv) /\
    (forall n v o, In (n, v, o) (pins_of out) ->
       alookup (setup_var n) (s_env st') = Some (setup_string cfg n v) /\
       (recorded e n v \/ alookup n plist = Some v)) /\
    (forall m, upper_str m <> upper_str top ->
       (forall x, In x (pins_of out) -> upper_str (pin_name x) <> upper_str m) ->
       alookup (setup_var m) (s_env st') = alookup (setup_var m) (s_env st0)).
Proof.
  intros E Hmd Ft Ha Hi Hd St Hs ND Fr0 Fr Hf.
  destruct fuel as [|[|f]]; try lia.
  pose proof (exact_view_pins jf sf cf w e top plist force rd ls out E) as PV. fold (exact_view out) in PV.
  pose proof (replay w' cfg Hmd f interp (exact_view out) absent top topv ptop st0) as RP.
  rewrite PV in RP. destruct (RP Hi Ft Ha Hd St Hs ND Fr0 Fr) as [st' [R V']]. clear RP.
  inversion ND as [|? ? Nt NDl]; subst.
  pose proof (fun x => other_setup_var top (pins_of out) x Nt) as Out.
  exists st'. split; [exact R|]. split; [|split].
  - rewrite V' by apply setup_var_is. rewrite set_pins_out by exact Out. apply alookup_aset_same.
  - intros n v o I. split.
    + rewrite V' by apply setup_var_is. eapply set_pins_in; eauto.
    + eapply pins_sound; [exact E|]. apply pins_of_iff. exact I.
  - intros m Nm Np. rewrite V' by apply setup_var_is. rewrite set_pins_out.
    + apply alookup_aset_other. intro Ex. apply Nm. now apply setup_var_inj.
    + intros x I Ex. apply (Np x I). now apply setup_var_inj.
Qed.

Lemma recorded_is_pinned e cfg top (pins : list nvo) (e0 e' : amap str) :
  (forall n v o, In (n, v, o) pins ->
     alookup (setup_var n) e' = Some (setup_string cfg n v) /\ (recorded e n v \/ alookup n [] = Some v)) ->
  (forall m, upper_str m <> upper_str top -> (forall x, In x pins -> upper_str (pin_name x) <> upper_str m) ->
     alookup (setup_var m) e' = alookup (setup_var m) e0) ->
  (forall m, alookup (setup_var m) e0 = None) ->
  forall m, alookup (setup_var m) e' <> None -> upper_str m <> upper_str top ->
    exists n v, setup_var n = setup_var m /\ recorded e n v /\ alookup (setup_var m) e' = Some (setup_string cfg n v).
Proof.
  intros Rp Ro Fr m Hm Nm.
  destruct (in_dec str_eq_dec (upper_str m) (map (fun x => upper_str (pin_name x)) pins)) as [I|N].
  - apply in_map_iff in I. destruct I as [[[xn xv] xo] [Ux Ix]]. simpl in Ux.
    destruct (Rp xn xv xo Ix) as [L S]. exists xn, xv. split; [now apply setup_var_upper|].
    split; [destruct S as [S|S]; [exact S|discriminate]|].
    now rewrite <- (setup_var_upper xn m Ux).
  - exfalso. apply Hm. rewrite Ro; [apply Fr|exact Nm|].
    intros x Ix Ex. apply N. apply in_map_iff. exists x. split; assumption.
Qed.

Lemma reproduces jf sf cf w e top force rd ls out w' cfg interp ptop topv absent fuel st0 :
  expand_gen jf sf cf w e top [] force rd ls = Ok out ->
  (forall n v, recorded e n v -> upper_str n <> upper_str top ->
     exists x, In x (pins_of out) /\ upper_str (pin_name x) = upper_str n /\ snd (fst x) = v) ->
  c_max_depth cfg = None ->
  find_pv w' top topv = Some ptop ->
  p_actions ptop = exact_actions interp (exact_view out) ++ map absent_action absent ->
  (forall t, Forall simple_action (interp t)) ->
  (forall n v o, In (n, v, o) (pins_of out) ->
     exists p, find_pv w' n v = Some p /\ Forall quiet_action (p_actions p)) ->
  sane top -> (forall x, In x (pins_of out) -> sane (pin_name x)) ->
  NoDup (upper_str top :: map (fun x => upper_str (pin_name x)) (pins_of out)) ->
  (forall m, alookup (setup_var m) (s_env st0) = None) ->
  2 <= fuel ->
  exists st',
    setup w' cfg fuel st0 (forced_decisions topv (pins_of out) absent) top true 0 false = RDone true st' [] /\
    alookup (setup_var top) (s_env st') = Some (setup_string cfg top topv) /\
    (forall n v, recorded e n v -> upper_str n <> upper_str top ->
       exists n', upper_str n' = upper_str n /\
                  alookup (setup_var n) (s_env st') = Some (setup_string cfg n' v)) /\
    (forall m, alookup (setup_var m) (s_env st') <> None -> upper_str m <> upper_str top ->
       exists n v, setup_var n = setup_var m /\ recorded e n v /\
                   alookup (setup_var m) (s_env st') = Some (setup_string cfg n v)).
Proof.
  intros E Cov Hmd Ft Ha Hi Hd St Hs ND Fr Hf.
  destruct (replay_records jf sf cf w e top [] force rd ls out w' cfg interp ptop topv absent fuel st0)
    as [st' [R [Rt [Rp Ro]]]]; auto.
  exists st'. split; [exact R|]. split; [exact Rt|]. split.
  - intros n v Rn Nn. destruct (Cov n v Rn Nn) as [[[xn xv] xo] [Ix [Ux Vx]]]. simpl in Ux, Vx. subst xv.
    exists xn. split; [exact Ux|]. rewrite <- (setup_var_upper xn n Ux). apply (Rp xn v xo Ix).
  - exact (recorded_is_pinned e cfg top _ _ _ Rp Ro Fr).
Qed.


Lemma NoDup_uniq l : uniq l = l -> NoDup l.
Proof. intro H. rewrite <- H. apply uniq_NoDup. Qed.

Lemma aset_literal_ok k v :
  is_setup_var k = false -> mem_ascii c_dollar v = false -> benign (ASet k v) /\ succeeds (ASet k v).
Proof.
  intros Hk Hv. split; [exact Hk|]. intro st. cbn [exec_simple]. unfold env_set. rewrite (expand_nodollar _ v Hv).
  cbn [bind]. destruct v; eexists; reflexivity.
Qed.

Lemma aalias_ok k v : benign (AAlias k v) /\ succeeds (AAlias k v).
Proof. split; [exact I|]. intro st. eexists; reflexivity. Qed.

Lemma recorded_cons k val e n v : recorded ((k, val) :: e) n v ->
  (setup_var n = k /\ recorded_version val = Some v) \/ recorded e n v.
Proof. unfold recorded, setup_version. cbn [alookup]. destruct (str_eqb_spec (setup_var n) k); auto. Qed.
