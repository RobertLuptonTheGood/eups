(* C18: Manifest.write then Manifest.read, on the lines (level B) and on the text of the file (level A). *)
From Eupsv Require Import Base.Base Base.BaseLemmas Model.Manifest Model.ManifestSpec Proofs.ManifestLib.

Lemma const_word s : wf_word s = true -> word s.
Proof. apply wf_word_word. Qed.

Lemma wf_oword_cases o : wf_oword o = true -> truthy o = false \/ exists s, o = Some s /\ word s /\ truthy o = true.
Proof.
  destruct o as [[|c s]|]; cbn [wf_oword truthy]; auto.
  intros H. right. exists (c :: s). auto using wf_word_word.
Qed.

Lemma norm_flavor_word fa efl o :
  wf_oword fa = true -> wf_oword o = true -> wf_word efl = true ->
  exists s, norm_flavor fa efl o = Some s /\ word s.
Proof.
  intros Hfa Ho He. unfold norm_flavor.
  destruct (wf_oword_cases _ Hfa) as [Ef|[s [-> [Hs Ef]]]]; rewrite Ef; eauto.
  destruct (wf_oword_cases _ Ho) as [Eo|[s [-> [Hs Eo]]]]; rewrite Eo; eauto using wf_word_word.
Qed.

Lemma norm_ostr_word k o : wf_word k = true -> wf_oword o = true ->
  exists s, norm_ostr k o = Some s /\ word s.
Proof.
  intros Hk Ho. unfold norm_ostr.
  destruct (wf_oword_cases _ Ho) as [Eo|[s [-> [Hs Eo]]]]; rewrite Eo; eauto using wf_word_word.
Qed.

Lemma dep_line_shape fa efl d :
  dep_line true fa efl d =
  ljust 15 (d_product d) ++ c_sp ::
  ljust 12 (ostr (norm_flavor fa efl (d_flavor d))) ++ c_sp ::
  ljust 10 (d_version d) ++ c_sp ::
  ljust 25 (ostr (norm_ostr k_low_none (d_table d))) ++ c_sp ::
  ljust 30 (ostr (norm_ostr k_low_none (d_dir d))) ++ c_sp ::
  ostr (d_distid d).
Proof.
  unfold dep_line, norm_flavor, norm_ostr. cbv zeta. destruct (truthy fa) eqn:E; rewrite ?E; reflexivity.
Qed.

Lemma wf_dep_parts d : wf_dep d = true ->
  wf_product (d_product d) = true /\ wf_word (d_version d) = true /\ wf_oword (d_flavor d) = true /\
  wf_oword (d_table d) = true /\ wf_oword (d_dir d) = true /\ wf_oword (d_distid d) = true.
Proof.
  unfold wf_dep. intros H. do 5 (apply andb_true_iff in H; destruct H as [H ?]). repeat split; assumption.
Qed.

Lemma wf_product_parts s : wf_product s = true ->
  word s /\ exists c r, s = c :: r /\ is_pyspace c = false /\ ascii_eqb c c_hash = false.
Proof.
  unfold wf_product. intros H. apply andb_true_iff in H. destruct H as [Hw Hh].
  pose proof (wf_word_word _ Hw) as W. split; auto.
  destruct s as [|c r]; [discriminate|]. exists c, r. split; auto.
  destruct W as [_ W]. inversion W. split; [assumption | now apply negb_true_iff].
Qed.

Lemma dep_line_fields fa efl d :
  wf_dep d = true -> wf_oword fa = true -> wf_word efl = true ->
  exists F T D,
    norm_flavor fa efl (d_flavor d) = Some F /\ word F /\
    norm_ostr k_low_none (d_table d) = Some T /\ word T /\
    norm_ostr k_low_none (d_dir d) = Some D /\ word D /\
    dep_line true fa efl d =
    ljust 15 (d_product d) ++ c_sp :: ljust 12 F ++ c_sp :: ljust 10 (d_version d) ++ c_sp ::
    ljust 25 T ++ c_sp :: ljust 30 D ++ c_sp :: ostr (d_distid d).
Proof.
  intros Hd Hfa He. destruct (wf_dep_parts _ Hd) as (_ & _ & Hf & Ht & Hdi & _).
  destruct (norm_flavor_word fa efl _ Hfa Hf He) as [F [EF WF]].
  assert (Hk : wf_word k_low_none = true) by (vm_compute; reflexivity).
  destruct (norm_ostr_word k_low_none (d_table d) Hk Ht) as [T [ET WT]].
  destruct (norm_ostr_word k_low_none (d_dir d) Hk Hdi) as [D [ED WD]].
  exists F, T, D. repeat (split; [assumption|]). now rewrite dep_line_shape, EF, ET, ED.
Qed.

Lemma words_dep_line fa efl d :
  wf_dep d = true -> wf_oword fa = true -> wf_word efl = true ->
  exists F T D,
    norm_flavor fa efl (d_flavor d) = Some F /\ word F /\
    norm_ostr k_low_none (d_table d) = Some T /\ word T /\
    norm_ostr k_low_none (d_dir d) = Some D /\ word D /\
    words (dep_line true fa efl d) = d_product d :: F :: d_version d :: T :: D :: words (ostr (d_distid d)).
Proof.
  intros Hd Hfa He. destruct (dep_line_fields fa efl d Hd Hfa He) as (F & T & D & EF & WF & ET & WT & ED & WD & E).
  destruct (wf_dep_parts _ Hd) as (Hp & Hv & _). destruct (wf_product_parts _ Hp) as [Wp _].
  pose proof (wf_word_word _ Hv) as Wv.
  exists F, T, D. repeat (split; [assumption|]). rewrite E. now rewrite !words_ljust by assumption.
Qed.

Lemma parse_dep_line_dep_line fa efl d :
  wf_dep d = true -> wf_oword fa = true -> wf_word efl = true ->
  parse_dep_line true false (dep_line true fa efl d) = Ok (norm_dep fa efl d).
Proof.
  intros Hd Hfa He. destruct (words_dep_line fa efl d Hd Hfa He) as (F & T & D & EF & _ & ET & _ & ED & _ & W).
  destruct (wf_dep_parts _ Hd) as (_ & _ & _ & _ & _ & Hid).
  unfold parse_dep_line. rewrite W. unfold norm_dep. rewrite EF, ET, ED.
  destruct (d_distid d) as [[|c s]|]; cbn [norm_id ostr wf_oword] in Hid |- *.
  - reflexivity.
  - rewrite words_word by now apply wf_word_word. cbn [skipn]. unfold new_dep. cbn [andb].
    destruct (str_eqb_spec (c :: s) k_search) as [E|E].
    + rewrite E. reflexivity.
    + rewrite orb_false_r. destruct (str_eqb (c :: s) k_cap_none); reflexivity.
  - reflexivity.
Qed.

Lemma boc_dep_line fa efl d : wf_dep d = true -> blank_or_comment (dep_line true fa efl d) = false.
Proof.
  intros Hd. destruct (wf_dep_parts _ Hd) as [Hp _].
  destruct (wf_product_parts _ Hp) as [_ [c [r [E [Hc Hh]]]]].
  rewrite dep_line_shape, E. unfold ljust. cbn [app]. rewrite boc_word_start; auto.
Qed.

Lemma read_dep_lines_deps fa efl ds : forall acc,
  Forall (fun d => wf_dep d = true) ds -> wf_oword fa = true -> wf_word efl = true ->
  read_dep_lines true false (map (dep_line true fa efl) ds) acc = Ok (acc ++ map (norm_dep fa efl) ds).
Proof.
  induction ds as [|d ds IH]; intros acc H Hfa He; cbn [map read_dep_lines].
  - now rewrite app_nil_r.
  - inversion H as [|? ? Hd Hds]; subst.
    rewrite boc_dep_line, parse_dep_line_dep_line by assumption.
    rewrite IH by assumption. now rewrite <- app_assoc.
Qed.

Lemma parse_mheader_written p v : word p -> word v ->
  parse_mheader (k_eups_distribution_manife ++ p ++ k_sp_lpar ++ v ++ k_rpar_version ++ fmtversion)
  = Some (p, v, fmtversion).
Proof.
  intros [Hpn Hp] [Hvn Hv]. unfold parse_mheader. rewrite strip_prefix_app.
  rewrite spanw_run by (assumption || reflexivity).
  destruct p as [|pc pr]; [congruence|]. rewrite strip_prefix_app.
  (* the greedy group takes the version, the parenthesis and the dot; the engine gives back two characters *)
  change (k_rpar_version ++ fmtversion) with ([c_rpar; "."%char] ++ (k_sp_version ++ fmtversion)).
  rewrite app_assoc, spanw_run; [| apply nosp_app; [assumption | repeat constructor] | reflexivity].
  rewrite rev_app_distr. cbn [rev app].
  change (ascii_eqb "."%char c_rpar) with false. cbn [andb].
  rewrite ascii_eqb_refl, rev_involutive.
  destruct v as [|vc vr]; [congruence|]. reflexivity.
Qed.

Definition oname (dflt : str) (o : option str) : str := match o with Some s => s | None => dflt end.

Lemma oname_word dflt o : wf_word dflt = true -> wf_oname o = true -> word (oname dflt o).
Proof. destruct o; cbn [wf_oname oname]; auto using wf_word_word. Qed.

Lemma wf_manifest_parts m : wf_manifest m = true ->
  word (oname k_unknown_product (mf_product m)) /\ word (oname k_generic (mf_version m)) /\
  Forall (fun d => wf_dep d = true) (mf_deps m).
Proof.
  unfold wf_manifest. intros H. apply andb_true_iff in H. destruct H as [H Hds].
  apply andb_true_iff in H. destruct H as [Hp Hv]. rewrite forallb_forall, <- Forall_forall in Hds.
  repeat split; try (apply oname_word; [vm_compute; reflexivity|]); assumption.
Qed.

Lemma read_dep_lines_skip fx r l ls acc :
  blank_or_comment l = true -> read_dep_lines fx r (l :: ls) acc = read_dep_lines fx r ls acc.
Proof. intros H. cbn [read_dep_lines]. now rewrite H. Qed.

Lemma m_read_write_lines sp noopt fa efl who time ver m :
  wf_manifest m = true -> wf_oword fa = true -> wf_word efl = true ->
  m_read_lines true sp false empty_manifest (m_write_lines true noopt fa efl who time ver m)
  = Ok (norm_manifest noopt fa efl m).
Proof.
  intros Hm Hfa He. destruct (wf_manifest_parts _ Hm) as (Wp & Wv & Hds).
  unfold m_write_lines, mheader. cbn [app]. unfold m_read_lines.
  fold (oname k_unknown_product (mf_product m)). fold (oname k_generic (mf_version m)).
  rewrite parse_mheader_written by assumption.
  cbn [mf_product mf_version mf_deps empty_manifest].
  (* the seven lines of the comment block *)
  rewrite !read_dep_lines_skip by reflexivity.
  rewrite read_dep_lines_deps; [reflexivity | now apply Forall_filter | assumption | assumption].
Qed.

Lemma nonl_dep_line fa efl d :
  wf_dep d = true -> wf_oword fa = true -> wf_word efl = true -> nonl (dep_line true fa efl d).
Proof.
  intros Hd Hfa He.
  destruct (dep_line_fields fa efl d Hd Hfa He) as (F & T & D & _ & [_ NF] & _ & [_ NT] & _ & [_ ND] & ->).
  destruct (wf_dep_parts _ Hd) as (Hp & Hv & _ & _ & _ & Hid).
  destruct (wf_product_parts _ Hp) as [[_ Np] _]. destruct (wf_word_word _ Hv) as [_ Nv].
  repeat (apply nonl_column; [assumption|]).
  destruct (d_distid d) as [[|c s]|]; cbn [ostr].
  - constructor.
  - apply nosp_nonl. apply (wf_word_word _ Hid).
  - now apply no_nl_nonl.
Qed.

Lemma nonl_m_write_lines noopt fa efl who time ver m :
  wf_manifest m = true -> wf_oword fa = true -> wf_word efl = true ->
  no_nl who = true -> no_nl time = true -> no_nl ver = true ->
  Forall nonl (m_write_lines true noopt fa efl who time ver m).
Proof.
  intros Hm Hfa He Hw Ht Hv. destruct (wf_manifest_parts _ Hm) as (Wp & Wv & Hds).
  unfold m_write_lines. apply Forall_app. split.
  - apply forallb_no_nl. unfold mheader.
    fold (oname k_unknown_product (mf_product m)). fold (oname k_generic (mf_version m)).
    cbn [forallb]. rewrite !no_nl_app, Hw, Ht, Hv, (word_no_nl _ Wp), (word_no_nl _ Wv). reflexivity.
  - rewrite Forall_map. eapply Forall_impl; [|apply Forall_filter, Hds].
    intros d Hd. now apply nonl_dep_line.
Qed.

Lemma m_read_write sp noopt fa efl who time ver m :
  wf_manifest m = true -> wf_oword fa = true -> wf_word efl = true ->
  no_nl who = true -> no_nl time = true -> no_nl ver = true ->
  m_read true sp false empty_manifest (m_write true noopt fa efl who time ver m)
  = Ok (norm_manifest noopt fa efl m).
Proof.
  intros. unfold m_read, m_write. rewrite lines_of_unlines by now apply nonl_m_write_lines.
  now apply m_read_write_lines.
Qed.
