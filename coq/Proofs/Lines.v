(* C11 - level A for lines: the text of a printed items list goes through
   open().readlines(), Table._rewrite and the two line patterns of Table._read and comes
   out as the classified lines of the items (Model/TableSpec.v items_kinds), whatever the
   indentation, the blank and comment lines, the trailing comments and the spacing. *)
From Eupsv Require Import Base.Base Base.BaseLemmas Model.Rx Model.Cond Model.Args Model.Legacy
  Model.Blocks Model.TableSpec Proofs.RxLib Proofs.CondEval Proofs.CondTok Proofs.TableWf.

(* the characters of a line before its comment, as _rewrite leaves them: no hash, no line
   feed, no carriage return *)
Definition okc (c : ascii) : bool :=
  negb (ascii_eqb c c_hash || ascii_eqb c c_nl || ascii_eqb c (chr 13)).
Definition okl (s : str) : bool := forallb okc s.

Lemma pyspace_facts c : is_pyspace c = true ->
  ascii_eqb c c_hash = false /\ ascii_eqb c c_dollar = false /\ ascii_eqb c c_rp = false /\
  is_word c = false /\ is_wdp c = false.
Proof.
  intros H.
  apply (all_ascii_impl is_pyspace (fun c =>
           negb (ascii_eqb c c_hash || ascii_eqb c c_dollar || ascii_eqb c c_rp || is_word c || is_wdp c))) in H;
    [|vm_compute; reflexivity].
  rewrite negb_true_iff, !orb_false_iff in H. tauto.
Qed.

Lemma pyspace_not_word c : is_pyspace c = true -> is_word c = false.
Proof. intros H. apply (pyspace_facts c H). Qed.

Lemma alpha_not_pyspace c : is_alpha c = true -> is_pyspace c = false.
Proof.
  intros H. destruct (is_pyspace c) eqn:E; [|reflexivity].
  apply pyspace_not_word in E. unfold is_word in E. rewrite H in E. discriminate.
Qed.

Lemma ws_okl s : all_ws s = true -> no_newline s = true -> okl s = true.
Proof.
  unfold all_ws, no_newline, okl. induction s as [|c s IH]; [reflexivity|]. cbn [forallb].
  intros [H1 H2]%andb_prop [H3 H4]%andb_prop. rewrite (IH H2 H4), andb_true_r.
  unfold okc. destruct (pyspace_facts c H1) as (-> & _). exact H3.
Qed.

Lemma okl_app a b : okl (a ++ b) = okl a && okl b.
Proof. apply forallb_app. Qed.

Lemma okl_no_newline s : okl s = true -> no_newline s = true.
Proof.
  unfold okl, no_newline. apply forallb_impl. intros c Hc. unfold okc in Hc.
  destruct (ascii_eqb c c_hash); [discriminate Hc|exact Hc].
Qed.

Lemma okl_no_hash s : okl s = true -> no_hash s = true.
Proof.
  unfold okl, no_hash. apply forallb_impl. intros c Hc. unfold okc in Hc.
  destruct (ascii_eqb c c_hash); [discriminate Hc|reflexivity].
Qed.

Lemma no_newline_mem s : no_newline s = true -> mem_ascii c_nl s = false /\ mem_ascii (chr 13) s = false.
Proof.
  unfold no_newline. induction s as [|c s IH]; [split; reflexivity|]. cbn [forallb mem_ascii].
  intros [[H1 H2]%negb_true_iff%orb_false_iff H3]%andb_prop.
  destruct (IH H3) as [I1 I2]. rewrite (ascii_eqb_sym c_nl c), H1, (ascii_eqb_sym (chr 13) c), H2. auto.
Qed.

Lemma no_newline_app a b : no_newline (a ++ b) = no_newline a && no_newline b.
Proof. apply forallb_app. Qed.

Definition ws_of (s : str) : str := fst (span is_pyspace s).

Lemma wf_after_split s : wf_after s = true ->
  all_ws (ws_of s) = true /\ no_newline (ws_of s) = true /\
  exists c, s = ws_of s ++ c /\ (c = [] \/ exists r, c = c_hash :: r).
Proof.
  unfold wf_after. intros [Hn Hd]%andb_prop.
  pose proof (span_split is_pyspace s) as Hs. pose proof (span_fst_all is_pyspace s) as Ha.
  pose proof (span_snd_drop is_pyspace s) as Hdrop.
  unfold ws_of. split; [exact Ha|]. split.
  - rewrite Hs, no_newline_app in Hn. apply andb_true_iff in Hn. tauto.
  - exists (snd (span is_pyspace s)). split; [exact Hs|].
    rewrite Hdrop. unfold drop_ws in Hd. destruct (drop_while is_pyspace s) as [|c r]; [left; reflexivity|].
    right. exists r. apply ascii_eqb_eq in Hd. now subst.
Qed.

Lemma cut_comment_app a b : no_hash a = true -> cut_comment (a ++ b) = a ++ cut_comment b.
Proof.
  unfold no_hash. induction a as [|c a IH]; [reflexivity|]. cbn [forallb app cut_comment].
  intros [H1%negb_true_iff H2]%andb_prop. now rewrite H1, IH.
Qed.

Lemma filter_no_newline s : no_newline s = true -> filter (fun c => negb (ascii_eqb c c_nl)) s = s.
Proof.
  unfold no_newline. induction s as [|c s IH]; [reflexivity|]. cbn [forallb filter].
  intros [[H1 _]%negb_true_iff%orb_false_iff H2]%andb_prop. now rewrite H1, IH.
Qed.

Lemma prep_junk s : wf_junk s = true -> prep_line s = [].
Proof.
  intros H. unfold wf_junk in H. destruct (wf_after_split s H) as (Ha & Hn & c & Hs & Hc).
  unfold wf_after in H. apply andb_prop in H. destruct H as [Hnl _].
  unfold prep_line. rewrite (filter_no_newline s Hnl). rewrite Hs.
  rewrite drop_ws_app by exact Ha. destruct Hc as [->|[r ->]]; [reflexivity|].
  unfold drop_ws. rewrite drop_while_stop by reflexivity. cbn. reflexivity.
Qed.

Definition first_not_ws (s : str) : bool := match s with c :: _ => negb (is_pyspace c) | [] => false end.

Lemma prep_content indent core after :
  all_ws indent = true -> no_newline indent = true -> okl core = true -> first_not_ws core = true ->
  wf_after after = true ->
  prep_line (indent ++ core ++ after) = core ++ ws_of after.
Proof.
  intros Hi Hin Hc Hf Ha. destruct (wf_after_split after Ha) as (Wa & Wn & c & Hs & Hcc).
  unfold wf_after in Ha. apply andb_prop in Ha. destruct Ha as [Hnl _].
  unfold prep_line. rewrite filter_no_newline.
  2:{ rewrite !no_newline_app, Hin, (okl_no_newline _ Hc), Hnl. reflexivity. }
  rewrite drop_ws_app by exact Hi. destruct core as [|c0 core]; [discriminate|].
  cbn [first_not_ws] in Hf. apply negb_true_iff in Hf.
  cbn [app]. unfold drop_ws. rewrite drop_while_stop by exact Hf.
  change (c0 :: core ++ after) with ((c0 :: core) ++ after).
  rewrite cut_comment_app by (apply okl_no_hash, Hc). f_equal.
  rewrite Hs at 1. rewrite cut_comment_app by (apply okl_no_hash, ws_okl; auto).
  destruct Hcc as [->|[r ->]]; cbn [cut_comment]; [now rewrite app_nil_r|].
  rewrite ascii_eqb_refl. now rewrite app_nil_r.
Qed.

Definition legacy_keys : list str :=
  [lit "file"; lit "product"; lit "action"; lit "qualifiers"; lit "group:"; lit "flavor"; lit "common:"; lit "end:"].

Definition head_pass (h : str) : bool := forallb (fun k => mismatch k (lower_str h)) legacy_keys.

(* occurrences of a text without blanks cannot straddle the end of the line's core *)
Lemma starts_with_app_inv p t w : starts_with p (t ++ w) = true ->
  starts_with p t = true \/ exists c, In c p /\ In c w.
Proof.
  revert t. induction p as [|a p IH]; intros t H; [left; reflexivity|].
  destruct t as [|b t].
  - cbn [app] in H. destruct w as [|c w]; [discriminate|]. cbn [starts_with] in H.
    destruct (ascii_eqb a c) eqn:E; [|discriminate]. apply ascii_eqb_eq in E. subst c.
    right. exists a. split; left; reflexivity.
  - cbn [app starts_with] in *. destruct (ascii_eqb a b); [|discriminate].
    destruct (IH t H) as [H1|(c & H1 & H2)]; [left; exact H1|]. right. exists c. split; [right|]; assumption.
Qed.

Lemma contains_app_ws p s w :
  nonempty p = true -> forallb (fun c => negb (is_pyspace c)) p = true -> all_ws w = true ->
  contains p s = false -> contains p (s ++ w) = false.
Proof.
  intros Hne Hp Hw.
  assert (N : forall t, starts_with p t = false -> starts_with p (t ++ w) = false).
  { intros t Ht. destruct (starts_with p (t ++ w)) eqn:E; [|reflexivity].
    destruct (starts_with_app_inv p t w E) as [H|(c & H1 & H2)]; [congruence|].
    rewrite forallb_forall in Hp. specialize (Hp c H1). unfold all_ws in Hw. rewrite forallb_forall in Hw.
    rewrite (Hw c H2) in Hp. discriminate. }
  induction s as [|c s IH]; intros H.
  - cbn [app]. clear N. induction w as [|c w IHw].
    + destruct p; [discriminate|reflexivity].
    + cbn [contains]. cbn [all_ws forallb] in Hw. apply andb_prop in Hw. destruct Hw as [Hc Hw].
      rewrite (IHw Hw), orb_false_r. destruct p as [|a p]; [discriminate|]. cbn [starts_with].
      destruct (ascii_eqb a c) eqn:E; [|reflexivity]. apply ascii_eqb_eq in E. subst c.
      cbn [forallb] in Hp. apply andb_prop in Hp. destruct Hp as [Hp _]. rewrite Hc in Hp. discriminate.
  - cbn [contains] in H. apply orb_false_iff in H. destruct H as [H1 H2].
    cbn [app contains]. rewrite (IH H2), orb_false_r. apply (N (c :: s) H1).
Qed.

Lemma replace_all_absent old new s : contains old s = false -> replace_all old new s = s.
Proof.
  unfold replace_all, resub. induction s as [|c s IH]; intros H; [reflexivity|].
  cbn [contains] in H. apply orb_false_iff in H. destruct H as [H1 H2].
  cbn [scan]. assert (E : lit_match old new (c :: s) = None).
  { unfold lit_match. destruct old as [|a old]; [reflexivity|].
    assert (G : forall p t, starts_with p t = false -> cs_prefix p t = None).
    { induction p as [|x p IHp]; intros t Ht; [discriminate|]. destruct t as [|y t]; [reflexivity|].
      cbn [starts_with cs_prefix] in *. destruct (ascii_eqb x y); [now apply IHp|reflexivity]. }
    now rewrite (G _ _ H1). }
  rewrite E. f_equal. apply IH, H2.
Qed.

Lemma synonym_olds_shape o : In o synonym_olds ->
  nonempty o = true /\ forallb (fun c => negb (is_pyspace c)) o = true /\
  (match o with c :: _ => ascii_eqb c c_dollar | [] => false end) = true.
Proof.
  intros Ho.
  assert (T : forallb (fun o => nonempty o && forallb (fun c => negb (is_pyspace c)) o &&
                                (match o with c :: _ => ascii_eqb c c_dollar | [] => false end)) synonym_olds = true)
    by (vm_compute; reflexivity).
  pose proof (proj1 (forallb_forall _ _) T o Ho) as To. cbv beta in To. andb_hyps To. auto.
Qed.

Lemma synonyms_id s : no_syn s = true -> synonyms s = s.
Proof.
  intros H.
  assert (A : forall o n, negb (contains (lit o) s) = true -> syn o n s = s).
  { intros o n Ho. apply replace_all_absent, negb_true_iff, Ho. }
  unfold no_syn, synonym_olds in H. cbn [forallb] in H. andb_hyps H.
  unfold synonyms. rewrite !A by assumption. reflexivity.
Qed.

Lemma no_syn_app_ws s w : all_ws w = true -> no_syn s = true -> no_syn (s ++ w) = true.
Proof.
  intros Hw H. unfold no_syn. apply forallb_forall. intros o Ho. apply negb_true_iff.
  destruct (synonym_olds_shape o Ho) as (Hn & Hb & _).
  apply contains_app_ws; auto. apply negb_true_iff, (proj1 (forallb_forall _ _) H o Ho).
Qed.

(* A line whose first word is none of the archaic keywords is kept as it is, in every state
   of _rewrite.  Directly after the Flavor= lines of a new-style group it is the first line
   of the body: the if line goes out before it. *)
Definition opened (ng : newgrp) : newgrp := match ng with NGFlavors => NGBody | _ => ng end.
Definition opening (ng : newgrp) (cond : str) : list str :=
  match ng with NGFlavors => [if_line cond] | _ => [] end.

Lemma match_nonempty {B} (l : str) (x y : B) :
  nonempty l = true -> match l with [] => x | _ :: _ => y end = y.
Proof. destruct l; [discriminate|reflexivity]. Qed.

Lemma rewrite_keep o ig ng cond raw l h r rest :
  prep_line raw = l -> l = h ++ r -> nonempty l = true -> head_pass h = true -> no_syn l = true ->
  rewrite_go o ig ng cond (raw :: rest)
  = bind (rewrite_go o ig (opened ng) cond rest) (fun out => Ok (opening ng cond ++ l :: out)).
Proof.
  intros Hp Hl Hne Hh Hs.
  assert (M : forall k, mismatch k (lower_str h) = true -> ci_prefix k (h ++ r) = None).
  { intros k. apply ci_prefix_mismatch. }
  unfold head_pass, legacy_keys in Hh. cbn [forallb] in Hh. andb_hyps Hh.
  cbn [rewrite_go]. rewrite Hp, (match_nonempty l) by exact Hne. rewrite (synonyms_id l Hs), Hl.
  (* none of the patterns finds its key word at the head of the line *)
  unfold key_eq, qualifiers_match, key_colon. rewrite !M by assumption.
  cbv iota. rewrite andb_false_r. destruct ig, ng; reflexivity.
Qed.

Lemma rewrite_skip o ig ng cond raw rest :
  prep_line raw = [] -> rewrite_go o ig ng cond (raw :: rest) = rewrite_go o ig ng cond rest.
Proof. intros H. cbn [rewrite_go]. rewrite H. reflexivity. Qed.

Lemma rewrite_junk o ig ng cond junk rest :
  forallb wf_junk junk = true ->
  rewrite_go o ig ng cond (junk ++ rest) = rewrite_go o ig ng cond rest.
Proof.
  induction junk as [|j junk IH]; [reflexivity|]. cbn [forallb]. intros [H1 H2]%andb_prop.
  cbn [app]. rewrite rewrite_skip by (apply prep_junk, H1). now apply IH.
Qed.

Record core_ok (core h r : str) : Prop := {
  co_split : core = h ++ r;
  co_okl : okl core = true;
  co_first : first_not_ws core = true;
  co_head : head_pass h = true;
  co_syn : no_syn core = true }.

Lemma rewrite_line o ig ng cond junk indent core h r after rest :
  forallb wf_junk junk = true -> all_ws indent = true -> no_newline indent = true ->
  core_ok core h r -> wf_after after = true ->
  rewrite_go o ig ng cond (junk ++ (indent ++ core ++ after : str) :: rest)
  = bind (rewrite_go o ig (opened ng) cond rest)
         (fun out => Ok (opening ng cond ++ (core ++ ws_of after) :: out)).
Proof.
  intros Hj Hi Hin [Hsp Hok Hf Hh Hs] Ha. rewrite rewrite_junk by exact Hj.
  destruct (wf_after_split after Ha) as (Wa & _).
  apply (rewrite_keep _ _ _ _ _ _ h (r ++ ws_of after)).
  - now apply prep_content.
  - now rewrite Hsp, app_assoc.
  - destruct core; [discriminate|reflexivity].
  - exact Hh.
  - now apply no_syn_app_ws.
Qed.

(* ... and no dollar: no older synonym of an eups variable can occur *)
Definition okc2 (c : ascii) : bool := okc c && negb (ascii_eqb c c_dollar).
Definition okl2 (s : str) : bool := forallb okc2 s.

Lemma okl2_okl s : okl2 s = true -> okl s = true.
Proof. apply forallb_impl. intros c [H _]%andb_prop. exact H. Qed.

Lemma okl2_app a b : okl2 (a ++ b) = okl2 a && okl2 b.
Proof. apply forallb_app. Qed.

Lemma ws_okl2 s : all_ws s = true -> no_newline s = true -> okl2 s = true.
Proof.
  intros Ha Hn. pose proof (ws_okl s Ha Hn) as H. unfold okl2, okl, all_ws in *.
  rewrite forallb_forall in *. intros c Hc. unfold okc2. rewrite (H c Hc).
  destruct (pyspace_facts c (Ha c Hc)) as (_ & -> & _). reflexivity.
Qed.

Lemma wordc_okc2 c : is_wordc c = true -> okc2 c = true.
Proof.
  intros H. assert (N : forall x, is_wordc x = false -> ascii_eqb c x = false).
  { intros x Hx. destruct (ascii_eqb c x) eqn:E; [|reflexivity]. apply ascii_eqb_eq in E. congruence. }
  unfold okc2, okc. now rewrite !N by reflexivity.
Qed.

Lemma sp_okl2 n : okl2 (sp n) = true.
Proof. induction n; [reflexivity|]. cbn. exact IHn. Qed.

Lemma no_dollar_contains o s :
  (match o with c :: _ => ascii_eqb c c_dollar | [] => false end) = true ->
  forallb (fun c => negb (ascii_eqb c c_dollar)) s = true -> contains o s = false.
Proof.
  intros Ho. destruct o as [|a o]; [discriminate|]. apply ascii_eqb_eq in Ho. subst a.
  induction s as [|c s IH]; [reflexivity|]. cbn [forallb contains starts_with].
  intros [H1%negb_true_iff H2]%andb_prop. rewrite ascii_eqb_sym, H1, (IH H2). reflexivity.
Qed.

Lemma okl2_no_syn s : okl2 s = true -> no_syn s = true.
Proof.
  intros H. assert (D : forallb (fun c => negb (ascii_eqb c c_dollar)) s = true).
  { eapply forallb_impl; [|exact H]. intros c [_ Hc]%andb_prop. exact Hc. }
  unfold no_syn. apply forallb_forall. intros o Ho. apply negb_true_iff.
  apply no_dollar_contains; [apply (synonym_olds_shape o Ho)|exact D].
Qed.

Lemma cond_okl2 c : wf_cond c = true -> okl2 (print_cond c) = true.
Proof.
  induction c as [l v o x | s1 s2 o a IHa b IHb | s1 s2 c IHc]; cbn [wf_cond print_cond]; intros Hwf.
  - apply andb_prop in Hwf. destruct Hwf as [Hl Hx].
    destruct (spelling_wordtok v l Hl) as [Sw _]. destruct (wf_lit_wordtok x Hx) as [Xw _].
    unfold is_wordtok in *. apply andb_true_iff in Sw. apply andb_true_iff in Xw.
    assert (W : forall s, forallb is_wordc s = true -> okl2 s = true).
    { intros s. apply forallb_impl, wordc_okc2. }
    rewrite !okl2_app, !sp_okl2, (W _ (proj2 Sw)), (W _ (proj2 Xw)).
    destruct o, (al_q l); reflexivity.
  - apply andb_prop in Hwf. destruct Hwf as [Ha Hb].
    rewrite !okl2_app, (IHa Ha), !sp_okl2. destruct (is_bin b).
    + rewrite !okl2_app, (IHb Hb). destruct o; reflexivity.
    + rewrite (IHb Hb). destruct o; reflexivity.
  - rewrite !okl2_app, (IHc Hwf), !sp_okl2. reflexivity.
Qed.

Lemma all_ws_first_not s x r : all_ws s = true -> is_pyspace x = false -> first_not_ws (s ++ x :: r) = true -> s = [].
Proof. destruct s as [|c s]; [reflexivity|]. cbn. intros H. apply andb_prop in H. destruct H as [-> _]. discriminate. Qed.

Lemma okl2_cons c s : okl2 (c :: s) = okc2 c && okl2 s.
Proof. reflexivity. Qed.

Lemma core_ok_okl2 core h r :
  core = h ++ r -> okl2 core = true -> first_not_ws core = true -> head_pass h = true -> core_ok core h r.
Proof. intros E O F H. split; [exact E|apply okl2_okl, O|exact F|exact H|apply okl2_no_syn, O]. Qed.

Lemma if_core_ok b : wf_branch b = true ->
  core_ok (if_core b) (lit "if")
    (bl_s1 (b_lay b) ++ c_lp :: print_cond (b_cond b) ++ c_rp :: bl_s2 (b_lay b) ++ [c_lb]).
Proof.
  intros Hb. destruct (wf_branch_parts b Hb) as (Hc & _ & Hl).
  destruct (wf_bracelay_parts _ Hl) as (_ & _ & _ & _ & [A1 N1] & [A2 N2] & _).
  apply core_ok_okl2; [reflexivity| |reflexivity|reflexivity]. unfold if_core. rewrite !okl2_app, okl2_cons, okl2_app, okl2_cons, okl2_app.
  rewrite (ws_okl2 _ A1 N1), (ws_okl2 _ A2 N2), (cond_okl2 _ Hc). reflexivity.
Qed.

Lemma elif_core_ok b : wf_branch b = true -> exists r, core_ok (elif_core b) [c_rb] r.
Proof.
  intros Hb. destruct (wf_branch_parts b Hb) as (Hc & _ & Hl).
  destruct (wf_bracelay_parts _ Hl) as (_ & _ & [A0 N0] & [A00 N00] & [A1 N1] & [A2 N2] & _).
  eexists. apply core_ok_okl2; [reflexivity| |reflexivity|reflexivity]. unfold elif_core. rewrite okl2_cons, !okl2_app, okl2_cons, okl2_app, okl2_cons, okl2_app.
  rewrite (ws_okl2 _ A0 N0), (ws_okl2 _ A00 N00), (ws_okl2 _ A1 N1), (ws_okl2 _ A2 N2), (cond_okl2 _ Hc). reflexivity.
Qed.

Lemma else_core_ok l : wf_bracelay l = true -> exists r, core_ok (else_core l) [c_rb] r.
Proof.
  intros Hl. destruct (wf_bracelay_parts _ Hl) as (_ & _ & [A0 N0] & _ & _ & [A2 N2] & _).
  eexists. apply core_ok_okl2; [reflexivity| |reflexivity|reflexivity]. unfold else_core. rewrite okl2_cons, !okl2_app.
  rewrite (ws_okl2 _ A0 N0), (ws_okl2 _ A2 N2). reflexivity.
Qed.

Lemma close_core_ok : core_ok close_core [c_rb] [].
Proof. split; reflexivity. Qed.

Lemma kind_name_facts k :
  forallb is_lower (lower_str (kind_name k)) = true /\ head_pass (kind_name k) = true /\
  mismatch (lit "if") (lower_str (kind_name k)) = true.
Proof. destruct k; vm_compute; repeat split. Qed.

Lemma spell_facts k s : str_eqb (lower_str s) (lower_str (kind_name k)) = true ->
  forallb is_alpha s = true /\ nonempty s = true /\ head_pass s = true /\ mismatch (lit "if") (lower_str s) = true.
Proof.
  intros H. apply str_eqb_eq in H. split; [|split].
  - apply lower_is_lower_alpha. rewrite H. apply kind_name_facts.
  - destruct s; [destruct k; discriminate H|reflexivity].
  - unfold head_pass. rewrite H. apply kind_name_facts.
Qed.

Lemma wf_value_okl a : wf_value a = true -> okl a = true.
Proof.
  unfold wf_value. intros [_ H]%andb_prop. eapply forallb_impl; [|exact H].
  intros c Hc. unfold bad_arg_char in Hc. unfold okc.
  destruct (ascii_eqb c c_hash); [discriminate Hc|]. destruct (ascii_eqb c c_bsl); [discriminate Hc|].
  destruct (ascii_eqb c c_nl); [discriminate Hc|]. destruct (ascii_eqb c (chr 13)); [discriminate Hc|reflexivity].
Qed.

Lemma argsep_okl s : forallb is_argsep s = true -> okl s = true.
Proof.
  apply forallb_impl. intros c. unfold is_argsep. rewrite orb_true_iff.
  intros [H|H]; apply ascii_eqb_eq in H; subst c; reflexivity.
Qed.

Lemma sp_okl n : okl (sp n) = true.
Proof. apply okl2_okl, sp_okl2. Qed.

Lemma esc_dq_okl a : okl a = true -> okl (esc_dq a) = true.
Proof.
  unfold okl, esc_dq. induction a as [|c a IH]; [reflexivity|]. cbn [forallb flat_map].
  intros [Hc Ha]%andb_prop. rewrite forallb_app, (IH Ha), andb_true_r.
  destruct (ascii_eqb c c_dq); cbn [forallb]; [reflexivity|now rewrite Hc].
Qed.

Lemma wf_value_esc_okl a : wf_value a = true -> okl (esc_dq a) = true.
Proof. intros H. apply esc_dq_okl, wf_value_okl, H. Qed.

Lemma pr_rest_okl l args : wf_rest l args = true -> okl (pr_rest l args) = true.
Proof.
  revert args. induction l as [|[sep q] l IH]; intros [|x args] H; try discriminate H; [reflexivity|].
  cbn [wf_rest] in H. apply andb_prop in H. destruct H as [[[Hs Hv]%andb_prop _]%andb_prop Hr].
  unfold wf_sep in Hs. apply andb_prop in Hs. destruct Hs as [[_ Hs]%andb_prop _].
  cbn [pr_rest]. rewrite !okl_app, (argsep_okl _ Hs), (IH _ Hr). cbn [andb].
  rewrite andb_true_r. destruct q; cbn [pr_arg].
  - cbn [okl forallb]. fold okl. rewrite okl_app, (wf_value_esc_okl _ Hv). reflexivity.
  - apply wf_value_esc_okl, Hv.
Qed.

Lemma print_args_okl g args : wf_args g args = true -> okl (print_args g args) = true.
Proof.
  destruct args as [|a0 rest]; cbn [wf_args print_args]; [intros _; apply sp_okl|].
  intros [[Hv _]%andb_prop Hr]%andb_prop.
  rewrite !okl_app, !sp_okl, (wf_value_esc_okl _ Hv), (pr_rest_okl _ _ Hr). reflexivity.
Qed.

Definition cmd_tail (c : cmd) : str :=
  cl_presemi (c_lay c) ++ (if cl_semi (c_lay c) then [c_semi] else []).

Lemma cmd_core_ok c : wf_cmd c = true ->
  core_ok (cmd_core c) (cl_spell (c_lay c))
    (cl_sp (c_lay c) ++ c_lp :: print_args (cl_args (c_lay c)) (c_args c) ++ c_rp :: cmd_tail c).
Proof.
  intros H. destruct (wf_cmd_parts c H) as (Hs & Ha & _ & _ & [S1 S2] & [P1 P2] & _ & Hsyn & _).
  destruct (spell_facts _ _ Hs) as (Sa & Sn & Sh & _).
  split.
  - reflexivity.
  - unfold cmd_core. rewrite !okl_app. cbn [okl forallb]. fold okl. rewrite !okl_app. cbn [okl forallb]. fold okl.
    rewrite !okl_app.
    assert (E : okl (cl_spell (c_lay c)) = true).
    { apply okl2_okl. eapply forallb_impl; [|exact Sa]. intros x Hx. apply wordc_okc2, alpha_wordc, Hx. }
    rewrite E, (ws_okl _ S1 S2), (print_args_okl _ _ Ha), (ws_okl _ P1 P2).
    destruct (cl_semi (c_lay c)); reflexivity.
  - unfold cmd_core. destruct (cl_spell (c_lay c)) as [|x s]; [discriminate|].
    cbn [app first_not_ws]. cbn [forallb] in Sa. apply andb_prop in Sa. destruct Sa as [Sx _].
    now rewrite (alpha_not_pyspace x Sx).
  - exact Sh.
  - exact Hsyn.
Qed.

Lemma ws_no_rp s : all_ws s = true -> mem_ascii c_rp s = false.
Proof.
  induction s as [|c s IH]; [reflexivity|]. cbn [all_ws forallb mem_ascii]. intros [H1 H2]%andb_prop.
  destruct (pyspace_facts c H1) as (_ & _ & R & _). rewrite ascii_eqb_sym, R. now apply IH.
Qed.

Lemma if_head_ok pre s1 cond tail :
  lower_str pre = lit "if" -> all_ws s1 = true -> mem_ascii c_rp tail = false ->
  if_head (pre ++ s1 ++ c_lp :: cond ++ c_rp :: tail) = Some (cond, tail).
Proof.
  intros Hp Hs Ht. unfold if_head. rewrite (ci_prefix_app _ pre _ Hp).
  rewrite drop_ws_app by exact Hs. unfold drop_ws. rewrite drop_while_stop by reflexivity.
  unfold paren_group. rewrite ascii_eqb_refl. now apply split_last_app.
Qed.

Lemma tail_brace_ok s2 w : all_ws s2 = true -> all_ws w = true -> tail_brace true (s2 ++ c_lb :: w) = true.
Proof.
  intros H1 H2. unfold tail_brace. rewrite drop_ws_app by exact H1.
  unfold drop_ws. rewrite drop_while_stop by reflexivity. rewrite ascii_eqb_refl. exact H2.
Qed.

Lemma brace_tail_no_rp s2 w : all_ws s2 = true -> all_ws w = true -> mem_ascii c_rp (s2 ++ c_lb :: w) = false.
Proof.
  intros H1 H2. rewrite mem_ascii_app, (ws_no_rp _ H1). cbn [mem_ascii orb].
  replace (ascii_eqb c_rp c_lb) with false by reflexivity. now apply ws_no_rp.
Qed.

(* appends associated to the right, conses brought to the front *)
Ltac norm_app := repeat (rewrite <- app_assoc || rewrite <- app_comm_cons); cbn [app].

Lemma if_core_shape b w :
  if_core b ++ w = lit "if" ++ bl_s1 (b_lay b) ++ c_lp :: print_cond (b_cond b) ++ c_rp :: (bl_s2 (b_lay b) ++ c_lb :: w).
Proof. unfold if_core. norm_app. reflexivity. Qed.

Lemma elif_core_shape b w :
  elif_core b ++ w = c_rb :: bl_s0 (b_lay b) ++ lit "else" ++ bl_s00 (b_lay b) ++
    (lit "if" ++ bl_s1 (b_lay b) ++ c_lp :: print_cond (b_cond b) ++ c_rp :: (bl_s2 (b_lay b) ++ c_lb :: w)).
Proof. unfold elif_core. norm_app. reflexivity. Qed.

Lemma else_core_shape l w :
  else_core l ++ w = c_rb :: bl_s0 l ++ lit "else" ++ (bl_s2 l ++ c_lb :: w).
Proof. unfold else_core. norm_app. reflexivity. Qed.

(* what is left of a command line and of a brace line after _rewrite *)
Definition cmd_out (c : cmd) : str := cmd_core c ++ ws_of (cl_after (c_lay c)).
Definition brace_out (l : bracelay) (core : str) : str := core ++ ws_of (bl_after l).

Lemma ws_of_ws after : wf_after after = true -> all_ws (ws_of after) = true.
Proof. intros H. now destruct (wf_after_split after H). Qed.

Lemma classify_if b : wf_branch b = true ->
  classify true (brace_out (b_lay b) (if_core b)) = LIf (print_cond (b_cond b)).
Proof.
  intros Hb. destruct (wf_branch_parts b Hb) as (_ & _ & Hl).
  destruct (wf_bracelay_parts _ Hl) as (_ & _ & _ & _ & [A1 _] & [A2 _] & Hw%ws_of_ws).
  unfold brace_out. rewrite if_core_shape. unfold classify, brace_match.
  rewrite (if_head_ok (lit "if") _ _ _ eq_refl A1 (brace_tail_no_rp _ _ A2 Hw)).
  now rewrite (tail_brace_ok _ _ A2 Hw).
Qed.

Lemma if_head_rb r : if_head (c_rb :: r) = None.
Proof. reflexivity. Qed.

Lemma drop_ws_lit s (t r : str) :
  all_ws s = true -> first_not_ws (t ++ r) = true -> drop_ws (s ++ t ++ r) = t ++ r.
Proof.
  intros Hs Hf. rewrite drop_ws_app by exact Hs. destruct (t ++ r) as [|c x]; [discriminate|].
  cbn [first_not_ws] in Hf. apply negb_true_iff in Hf. unfold drop_ws. now rewrite drop_while_stop.
Qed.

Lemma ci_else x : ci_prefix (lit "else") (lit "else" ++ x) = Some x.
Proof. reflexivity. Qed.
Lemma cs_else x : cs_prefix (lit "else") (lit "else" ++ x) = Some x.
Proof. reflexivity. Qed.

Lemma classify_elif b : wf_branch b = true ->
  classify true (brace_out (b_lay b) (elif_core b)) = LElseIf (print_cond (b_cond b)).
Proof.
  intros Hb. destruct (wf_branch_parts b Hb) as (_ & _ & Hl).
  destruct (wf_bracelay_parts _ Hl) as (_ & _ & [A0 _] & [A00 _] & [A1 _] & [A2 _] & Hw%ws_of_ws).
  unfold brace_out. rewrite elif_core_shape. unfold classify, brace_match. rewrite if_head_rb, ascii_eqb_refl.
  rewrite (drop_ws_lit _ (lit "else")) by (exact A0 || reflexivity).
  match goal with |- context [lit "else" ++ ?X] => remember (lit "else" ++ X) as E eqn:HE end.
  destruct E as [|a0 l0]; [discriminate HE|]. rewrite HE.
  rewrite ci_else, cs_else.
  rewrite (drop_ws_lit _ (lit "if")) by (exact A00 || reflexivity).
  rewrite (if_head_ok (lit "if") _ _ _ eq_refl A1 (brace_tail_no_rp _ _ A2 Hw)).
  rewrite (tail_brace_ok _ _ A2 Hw). reflexivity.
Qed.

Lemma classify_else l : wf_bracelay l = true ->
  classify true (brace_out l (else_core l)) = LElse true.
Proof.
  intros Hl.
  destruct (wf_bracelay_parts _ Hl) as (_ & _ & [A0 _] & _ & _ & [A2 _] & Hw%ws_of_ws).
  unfold brace_out. rewrite else_core_shape. unfold classify, brace_match. rewrite if_head_rb, ascii_eqb_refl.
  rewrite (drop_ws_lit _ (lit "else")) by (exact A0 || reflexivity).
  match goal with |- context [lit "else" ++ ?X] => remember (lit "else" ++ X) as E eqn:HE end.
  destruct E as [|a0 l0]; [discriminate HE|]. rewrite HE.
  rewrite ci_else, cs_else.
  assert (E : forall w, if_head (drop_ws (bl_s2 l ++ c_lb :: w)) = None).
  { intros w. rewrite drop_ws_app by exact A2. unfold drop_ws. rewrite drop_while_stop by reflexivity. reflexivity. }
  rewrite E. rewrite (tail_brace_ok _ _ A2 Hw). reflexivity.
Qed.

Lemma classify_close l : wf_bracelay l = true -> classify true (brace_out l close_core) = LClose.
Proof.
  intros Hl. destruct (wf_bracelay_parts _ Hl) as (_ & _ & _ & _ & _ & _ & Hw%ws_of_ws).
  unfold classify, brace_match, brace_out, close_core. cbn [app]. rewrite if_head_rb, ascii_eqb_refl.
  unfold drop_ws. rewrite drop_while_all by exact Hw. reflexivity.
Qed.

Lemma ws_facts_all s : all_ws s = true ->
  mem_ascii c_rp s = false /\ forallb (fun c => negb (is_word c)) s = true.
Proof.
  intros H. split; [now apply ws_no_rp|]. eapply forallb_impl; [|exact H]. intros c Hc.
  now rewrite (pyspace_not_word c Hc).
Qed.

Lemma tail_semi_ok pre (semi : bool) w : all_ws pre = true -> all_ws w = true ->
  tail_semi (pre ++ (if semi then [c_semi] else []) ++ w) = true.
Proof.
  intros H1 H2. unfold tail_semi. rewrite drop_ws_app by exact H1. destruct semi; cbn [app].
  - unfold drop_ws. rewrite drop_while_stop by reflexivity. rewrite ascii_eqb_refl. exact H2.
  - unfold drop_ws. rewrite drop_while_all by exact H2. reflexivity.
Qed.

Lemma classify_cmd c : wf_cmd c = true -> classify true (cmd_out c) = cmd_kind_line c.
Proof.
  intros H. destruct (wf_cmd_parts c H) as (Hs & _ & _ & _ & [S1 _] & [P1 _] & Hw%ws_of_ws & _).
  unfold cmd_out. set (w := ws_of (cl_after (c_lay c))) in *.
  destruct (spell_facts _ _ Hs) as (Sa & Sn & _ & Sif).
  set (spell := cl_spell (c_lay c)) in *. set (A := print_args (cl_args (c_lay c)) (c_args c)).
  set (T := cl_presemi (c_lay c) ++ (if cl_semi (c_lay c) then [c_semi] else []) ++ w).
  assert (Sh : cmd_core c ++ w = spell ++ cl_sp (c_lay c) ++ c_lp :: A ++ c_rp :: T).
  { unfold cmd_core, T, A, spell. norm_app. reflexivity. }
  rewrite Sh. unfold classify.
  assert (NoRp : mem_ascii c_rp T = false).
  { unfold T. rewrite !mem_ascii_app, (ws_no_rp _ P1), (ws_no_rp _ Hw). destruct (cl_semi (c_lay c)); reflexivity. }
  assert (B : brace_match true (spell ++ cl_sp (c_lay c) ++ c_lp :: A ++ c_rp :: T) = None).
  { unfold brace_match, if_head. rewrite (ci_prefix_mismatch _ spell _ Sif).
    destruct spell as [|x sp']; [discriminate|]. cbn [app]. cbn [forallb] in Sa. apply andb_true_iff in Sa.
    destruct Sa as [Sx _].
    destruct (ascii_eqb x c_rb) eqn:E; [|reflexivity]. apply ascii_eqb_eq in E. subst x. discriminate Sx. }
  rewrite B. unfold cmd_match.
  assert (Sp : span is_word (spell ++ cl_sp (c_lay c) ++ c_lp :: A ++ c_rp :: T)
               = (spell, cl_sp (c_lay c) ++ c_lp :: A ++ c_rp :: T)).
  { assert (W : forallb is_word spell = true).
    { eapply forallb_impl; [|exact Sa]. intros x Hx. unfold is_word. now rewrite Hx. }
    destruct (cl_sp (c_lay c)) as [|y s'] eqn:E.
    - cbn [app]. apply span_app; [exact W|reflexivity].
    - cbn [app]. apply span_app; [exact W|]. cbn [all_ws forallb] in S1. apply andb_true_iff in S1.
      destruct S1 as [Sy _]. now rewrite (pyspace_not_word y Sy). }
  rewrite Sp. destruct spell as [|x sp'] eqn:Esp; [discriminate|]. rewrite <- Esp.
  rewrite drop_ws_app by exact S1. unfold drop_ws. rewrite drop_while_stop by reflexivity.
  unfold paren_group. rewrite ascii_eqb_refl, (split_last_app _ A T NoRp).
  unfold T. rewrite (tail_semi_ok _ _ _ P1 Hw). reflexivity.
Qed.

(* readlines gives a line back as it was written only if it holds no line end *)
Definition nn (l : str) : Prop := no_newline l = true.

Lemma line_no_newline indent core after :
  no_newline indent = true -> okl core = true -> wf_after after = true -> nn (indent ++ core ++ after).
Proof.
  intros H1 H2 [H3 _]%andb_prop. unfold nn. now rewrite !no_newline_app, H1, (okl_no_newline _ H2), H3.
Qed.

Lemma junk_no_newline junk : forallb wf_junk junk = true -> Forall nn junk.
Proof. rewrite forallb_Forall. apply Forall_impl. now intros l [H _]%andb_prop. Qed.

(* the raw lines X, none of which holds a line end, leave the rewritten lines Y, in every
   state of _rewrite except directly after a Flavor= line *)
Definition emits (X Y : list str) : Prop :=
  Forall nn X /\
  forall o ig ng cond rest, ng <> NGFlavors ->
    rewrite_go o ig ng cond (X ++ rest) = bind (rewrite_go o ig ng cond rest) (fun out => Ok (Y ++ out)).

Lemma emits_nil : emits [] [].
Proof. split; [constructor|]. intros o ig ng cd rest _. cbn [app]. destruct (rewrite_go o ig ng cd rest); reflexivity. Qed.

Lemma emits_app X1 Y1 X2 Y2 : emits X1 Y1 -> emits X2 Y2 -> emits (X1 ++ X2) (Y1 ++ Y2).
Proof.
  intros [N1 H1] [N2 H2]. split; [apply Forall_app; now split|].
  intros o ig ng cd rest Hng. rewrite <- app_assoc, H1, H2 by exact Hng.
  destruct (rewrite_go o ig ng cd rest); cbn [bind]; [|reflexivity]. now rewrite app_assoc.
Qed.

Lemma emits_flat_map {A} (f g : A -> list str) l :
  (forall x, In x l -> emits (f x) (g x)) -> emits (flat_map f l) (flat_map g l).
Proof.
  induction l as [|x l IH]; intros H; [apply emits_nil|]. cbn [flat_map].
  apply emits_app; [apply H; left; reflexivity|]. apply IH. intros y Hy. apply H. right. exact Hy.
Qed.

Lemma emits_line junk indent core h r after :
  forallb wf_junk junk = true -> all_ws indent = true -> no_newline indent = true ->
  core_ok core h r -> wf_after after = true ->
  emits (junk ++ [indent ++ core ++ after]) [core ++ ws_of after].
Proof.
  intros Hj Hi Hn Hc Ha. split.
  - apply Forall_app. split; [now apply junk_no_newline|]. constructor; [|constructor].
    apply line_no_newline; auto. now destruct Hc.
  - intros o ig ng cd rest Hng. rewrite <- app_assoc. cbn [app].
    rewrite (rewrite_line o ig ng cd junk indent core h r after rest Hj Hi Hn Hc Ha).
    destruct ng; try congruence; reflexivity.
Qed.

Definition item_outs (i : item) : list str :=
  match i with
  | ICmd c => [cmd_out c]
  | IChain b0 elifs els cl =>
      [brace_out (b_lay b0) (if_core b0)] ++ map cmd_out (b_body b0)
      ++ flat_map (fun b => [brace_out (b_lay b) (elif_core b)] ++ map cmd_out (b_body b)) elifs
      ++ (match els with
          | Some (b, l) => [brace_out l (else_core l)] ++ map cmd_out b
          | None => []
          end)
      ++ [brace_out cl close_core]
  end.

Lemma rewrite_cmd o ig ng cond c rest : wf_cmd c = true ->
  rewrite_go o ig ng cond (cmd_lines c ++ rest)
  = bind (rewrite_go o ig (opened ng) cond rest) (fun out => Ok (opening ng cond ++ cmd_out c :: out)).
Proof.
  intros H. destruct (wf_cmd_parts c H) as (_ & _ & Hj & [I1 I2] & _ & _ & Ha & _).
  unfold cmd_lines, cmd_line, cmd_out. rewrite <- app_assoc. cbn [app].
  eapply rewrite_line; eauto using cmd_core_ok.
Qed.

Lemma emits_cmd c : wf_cmd c = true -> emits (cmd_lines c) [cmd_out c].
Proof.
  intros H. destruct (wf_cmd_parts c H) as (_ & _ & Hj & [I1 I2] & _ & _ & Ha & _).
  unfold cmd_lines, cmd_line, cmd_out. eapply emits_line; eauto using cmd_core_ok.
Qed.

Lemma flat_map_singleton {A B} (f : A -> B) l : flat_map (fun x => [f x]) l = map f l.
Proof. induction l as [|x l IH]; [reflexivity|]. cbn. now rewrite IH. Qed.

Lemma emits_cmds body : forallb wf_cmd body = true -> emits (flat_map cmd_lines body) (map cmd_out body).
Proof.
  intros H. rewrite <- flat_map_singleton.
  apply emits_flat_map. intros c Hc. apply emits_cmd. rewrite forallb_forall in H. now apply H.
Qed.

Lemma emits_brace l core h r : wf_bracelay l = true -> core_ok core h r ->
  emits (brace_line l core) [brace_out l core].
Proof.
  intros Hl Hc. destruct (wf_bracelay_parts _ Hl) as (Hj & [I1 I2] & _ & _ & _ & _ & Ha).
  unfold brace_line, brace_out. eapply emits_line; eauto.
Qed.

Lemma emits_item i : wf_item i = true -> emits (item_lines i) (item_outs i).
Proof.
  destruct i as [c|b0 elifs els cl]; cbn [wf_item item_lines item_outs].
  - apply emits_cmd.
  - intros Hw. destruct (wf_chain_parts _ _ _ _ Hw) as (Hb0 & Hel & Hels & Hcl).
    destruct (wf_branch_parts _ Hb0) as (_ & Hc0 & Hl0).
    apply emits_app; [apply (emits_brace _ _ _ _ Hl0 (if_core_ok b0 Hb0))|].
    apply emits_app; [apply emits_cmds, Hc0|].
    apply emits_app.
    { apply emits_flat_map. intros b Hb. rewrite forallb_forall in Hel. specialize (Hel b Hb).
      destruct (wf_branch_parts _ Hel) as (_ & Hcb & Hlb).
      destruct (elif_core_ok b Hel) as (r & Hok).
      apply emits_app; [apply (emits_brace _ _ _ _ Hlb Hok)|apply emits_cmds, Hcb]. }
    apply emits_app.
    { destruct els as [[eb el]|]; [|apply emits_nil]. destruct Hels as [He1 He2].
      destruct (else_core_ok el He2) as (r & Hok).
      apply emits_app; [apply (emits_brace _ _ _ _ He2 Hok)|apply emits_cmds, He1]. }
    apply (emits_brace _ _ _ _ Hcl close_core_ok).
Qed.

Lemma emits_items is : wf_items is = true -> emits (items_lines is) (flat_map item_outs is).
Proof.
  intros H. apply emits_flat_map. intros i Hi. apply emits_item.
  unfold wf_items in H. rewrite forallb_forall in H. now apply H.
Qed.

Lemma classify_cmds body : forallb wf_cmd body = true ->
  map (classify true) (map cmd_out body) = map cmd_kind_line body.
Proof.
  induction body as [|c body IH]; [reflexivity|]. cbn [forallb map]. intros [H1 H2]%andb_prop.
  now rewrite (IH H2), (classify_cmd c H1).
Qed.

Lemma classify_item i : wf_item i = true -> map (classify true) (item_outs i) = item_kinds i.
Proof.
  destruct i as [c|b0 elifs els cl]; cbn [wf_item item_outs item_kinds].
  - intros H. apply (classify_cmds [c]). cbn. now rewrite H.
  - intros Hw. destruct (wf_chain_parts _ _ _ _ Hw) as (Hb0 & Hel & Hels & Hcl).
    destruct (wf_branch_parts _ Hb0) as (_ & Hc0 & _).
    rewrite !map_app. cbn [map app].
    rewrite (classify_if b0 Hb0), (classify_cmds _ Hc0). f_equal. f_equal.
    f_equal.
    { clear -Hel. induction elifs as [|b r IH]; [reflexivity|]. cbn [forallb] in Hel.
      apply andb_prop in Hel. destruct Hel as [Hb Hr]. cbn [flat_map]. rewrite map_app, (IH Hr). f_equal.
      destruct (wf_branch_parts _ Hb) as (_ & Hcb & _).
      cbn [app map]. now rewrite (classify_elif b Hb), (classify_cmds _ Hcb). }
    f_equal.
    { destruct els as [[eb el]|]; [|reflexivity]. destruct Hels as [He1 He2].
      cbn [app map]. now rewrite (classify_else el He2), (classify_cmds _ He1). }
    now rewrite (classify_close cl Hcl).
Qed.

Lemma classify_items is : wf_items is = true ->
  map (classify true) (flat_map item_outs is) = items_kinds is.
Proof.
  induction is as [|i is IH]; [reflexivity|]. cbn [wf_items forallb flat_map].
  intros [H1 H2]%andb_prop. unfold items_kinds. cbn [flat_map]. rewrite map_app, (classify_item i H1). f_equal. now apply IH.
Qed.

Lemma split_lines_print lines :
  Forall nn lines ->
  split_lines (flat_map (fun l => l ++ [c_nl]) lines) = lines ++ [[]].
Proof.
  intros H. unfold split_lines.
  assert (E : map_char (chr 13) c_nl (flat_map (fun l => l ++ [c_nl]) lines) = flat_map (fun l => l ++ [c_nl]) lines).
  { apply map_char_id. induction H as [|l ls Hl _ IH]; [reflexivity|]. cbn [flat_map].
    rewrite !mem_ascii_app, IH. destruct (no_newline_mem l Hl) as [_ ->]. reflexivity. }
  rewrite E. clear E. induction H as [|l ls Hl _ IH]; [reflexivity|]. cbn [flat_map].
  rewrite <- app_assoc. cbn [app]. destruct (no_newline_mem l Hl) as [N _].
  rewrite (split_on_app c_nl l _ N). cbn [app]. now rewrite IH.
Qed.

(* the text of a well-formed items list is read as its classified lines *)
Theorem read_text_print eb top is : wf_items is = true ->
  read_text true eb top (print_table is) = read_blocks_sel true eb top (items_kinds is).
Proof.
  intros H. destruct (emits_items is H) as [N E]. unfold read_text, print_table.
  rewrite split_lines_print by exact N.
  unfold rewrite. rewrite (E false false NG0 [] [[]]) by discriminate.
  cbn [rewrite_go prep_line filter drop_ws drop_while cut_comment bind]. rewrite app_nil_r.
  now rewrite (classify_items is H).
Qed.
