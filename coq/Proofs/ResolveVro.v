(* C03 - Eups.selectVRO stage by stage.  A VRO under construction is a list of fixed words with blocks of tag
   names [map ETag l] between them; for each stage (placing the -t / -T words, removing duplicates, merging
   warnings, makeVroExact, dropping type:exact, _kindlySetPreferredTags) a lemma says how it passes over a
   block; over a single word the stage computes. *)
From Eupsv Require Import Base.Base Base.BaseLemmas Model.Resolve Generated.Config Proofs.ResolveLib.
From Coq Require Import Lia.

Lemma mem_entry_tags e l :
  mem_entry e (map ETag l) = match e with ETag t => mem_str t l | _ => false end.
Proof. induction l as [|a l IH]; destruct e; simpl; auto. now rewrite IH. Qed.

Lemma mem_entry_rev e l : mem_entry e (rev l) = mem_entry e l.
Proof.
  induction l as [|a l IH]; simpl; [reflexivity|]. rewrite mem_entry_app, IH. simpl.
  destruct (entry_eqb e a); [apply orb_true_r|apply orb_false_r].
Qed.

Lemma filter_tags (p : entry -> bool) l : (forall t, p (ETag t) = true) -> filter p (map ETag l) = map ETag l.
Proof. intro H. induction l as [|t l IH]; simpl; [reflexivity|]. now rewrite H, IH. Qed.

Lemma tags_not_version_like l : existsb is_version_like (map ETag l) = false.
Proof. induction l; auto. Qed.

Lemma where_after_none p : forall l i acc, existsb p l = false -> where_after p l i acc = acc.
Proof.
  induction l as [|e r IH]; intros i acc H; simpl in *; [reflexivity|].
  apply orb_false_iff in H. destruct H as [H1 H2]. rewrite H1. now apply IH.
Qed.

Lemma where_after_skip p l1 : forall r i acc,
  existsb p l1 = false -> where_after p (l1 ++ r) i acc = where_after p r (i + length l1) acc.
Proof.
  induction l1 as [|a l1 IH]; intros r i acc H; cbn [app existsb where_after length] in *; [now rewrite Nat.add_0_r|].
  apply orb_false_iff in H. destruct H as [Ha H]. rewrite Ha, IH by exact H. f_equal. lia.
Qed.

Lemma insert_at_cons n xs (e : entry) l : insert_at (S n) xs (e :: l) = e :: insert_at n xs l.
Proof. reflexivity. Qed.

Lemma insert_at_skip xs l1 (r : list entry) n : insert_at (n + length l1) xs (l1 ++ r) = l1 ++ insert_at n xs r.
Proof.
  rewrite Nat.add_comm. unfold insert_at. induction l1 as [|a l1 IH]; [reflexivity|].
  cbn [length plus app firstn skipn]. now rewrite IH.
Qed.

(* selectVRO leaves the list alone when there is nothing to insert; inserting nothing does the same *)
Lemma insert_at_nil {A} (f : list entry -> A) w xs l :
  match xs with [] => f l | _ :: _ => f (insert_at w xs l) end = f (insert_at w xs l).
Proof. destruct xs; [|reflexivity]. unfold insert_at. cbn [app]. now rewrite firstn_skipn. Qed.

Lemma dedupe_word e seen r :
  match e with EWarn _ => false | _ => true end = true -> mem_entry e seen = false ->
  dedupe seen (e :: r) = e :: dedupe (e :: seen) r.
Proof. intros W H. cbn [dedupe]. rewrite H. now destruct e. Qed.

Definition unseen (seen : list entry) (t : str) : bool := negb (mem_entry (ETag t) seen).

Lemma unseen_cons seen t u : filter (unseen seen) (remove_str t u) = filter (unseen (ETag t :: seen)) u.
Proof.
  assert (H : forall a, unseen (ETag t :: seen) a = negb (str_eqb a t) && unseen seen a)
    by (intro a; unfold unseen; simpl; now destruct (str_eqb a t)).
  unfold remove_str. induction u as [|a u IH]; [reflexivity|]. cbn [filter]. rewrite H.
  destruct (str_eqb a t); cbn [negb andb filter]; [exact IH|]. destruct (unseen seen a); now rewrite IH.
Qed.

Lemma dedupe_tags l : forall seen r,
  dedupe seen (map ETag l ++ r) =
  map ETag (filter (unseen seen) (uniq l)) ++ dedupe (rev (map ETag (filter (unseen seen) (uniq l))) ++ seen) r.
Proof.
  induction l as [|t l IH]; intros seen r; [reflexivity|].
  cbn [map app dedupe uniq filter]. destruct (mem_entry (ETag t) seen) eqn:E.
  - assert (U : unseen seen t = false) by (unfold unseen; now rewrite E).
    now rewrite U, IH, filter_remove_str_absorb.
  - assert (U : unseen seen t = true) by (unfold unseen; now rewrite E).
    rewrite U, IH, unseen_cons. cbn [map rev app]. now rewrite <- app_assoc.
Qed.

Lemma merge_warn_tags l r : merge_warn None (map ETag l ++ r) = map ETag l ++ merge_warn None r.
Proof. induction l as [|t l IH]; simpl; [reflexivity|]. now rewrite IH. Qed.
(* the test of makeVroExact: the word is unknown, or a global or user tag that was not named with -t *)
Definition moves (c : config) (cmdline : list str) (v : entry) : bool :=
  negb (recognized c (entry_base v)) || (negb (mem_str (entry_base v) cmdline) && global_or_user c (entry_base v)).

Lemma exact_split_stay c cl l1 : forall l2 kept d,
  existsb (moves c cl) l1 = false ->
  exact_split c cl (l1 ++ l2) kept [] d = exact_split c cl l2 (kept ++ l1) [] d.
Proof.
  induction l1 as [|v l1 IH]; intros l2 kept d H; cbn [app existsb exact_split] in *.
  - now rewrite app_nil_r.
  - apply orb_false_iff in H. destruct H as [Hv H]. unfold moves in Hv. rewrite Hv, IH, <- app_assoc by exact H.
    reflexivity.
Qed.

Lemma exact_split_word c cl e r kept d :
  moves c cl e = false -> exact_split c cl (e :: r) kept [] d = exact_split c cl r (kept ++ [e]) [] d.
Proof. intro H. apply (exact_split_stay c cl [e]). cbn [existsb]. now rewrite H. Qed.

Lemma exact_split_move c cl r l kept d :
  NoDup l -> forallb (fun t => moves c cl (ETag t)) l = true ->
  exact_split c cl (map ETag l ++ r) kept [] d = exact_split c cl r kept (map ETag l) d.
Proof.
  enough (G : forall m, NoDup (m ++ l) -> forallb (fun t => moves c cl (ETag t)) l = true ->
              exact_split c cl (map ETag l ++ r) kept (map ETag m) d = exact_split c cl r kept (map ETag (m ++ l)) d)
    by exact (G []).
  induction l as [|t l IH]; intros m ND H; cbn [map app forallb exact_split] in *.
  - now rewrite app_nil_r.
  - apply andb_true_iff in H. destruct H as [Ht H]. unfold moves in Ht. rewrite Ht, mem_entry_tags.
    assert (N : mem_str t m = false).
    { apply mem_str_not_In. intro I. apply (NoDup_remove_2 _ _ _ ND), in_or_app. now left. }
    rewrite N. change (map ETag m ++ [ETag t]) with (map ETag m ++ map ETag [t]).
    rewrite <- map_app, IH, <- app_assoc; [reflexivity| |exact H]. now rewrite <- app_assoc.
Qed.

(* when no entry that stays comes after one that moves, no warning is added *)
Lemma make_exact_split c cl l kept moved :
  exact_split c cl l [] [] false = (kept, moved, false) -> make_exact c cl l = kept ++ moved.
Proof. unfold make_exact. intros ->. destruct moved; [now rewrite app_nil_r|reflexivity]. Qed.

Lemma filter_all {A} (p : A -> bool) l : (forall x, p x = true) -> filter p l = l.
Proof. intro H. induction l as [|a l IH]; simpl; [reflexivity|]. now rewrite H, IH. Qed.

Lemma kindly_set_all_ok c l old :
  l <> [] -> forallb (base_recognized c) l = true -> kindly_set c l old = l.
Proof. intros NE H. unfold kindly_set. rewrite H. destruct l; [contradiction|reflexivity]. Qed.
(* the steps of select_vro after the look-up of the VRO line: placing the -t and -T words, and the rest *)
Definition place_words (pre post v1 : list entry) : res (list entry) :=
  let w1 := match where_after is_cmdline_or_type v1 0 None with Some w => w | None => 0 end in
  let v2 := match pre with [] => v1 | _ => insert_at w1 pre v1 end in
  match post with
  | [] => Ok v2
  | _ => match where_after is_version_like v2 0 None with
         | Some w => Ok (insert_at w post v2)
         | None => match pre with [] => Err Crash | _ => Ok (insert_at w1 post v2) end
         end
  end.

Definition finish_vro (c : config) (cl : list str) (exact inexact : bool) (v3 : list entry) : list entry :=
  let v4 := merge_warn None (dedupe [] v3) in
  let v5 := if exact then make_exact c cl v4 else v4 in
  kindly_set c (if inexact then remove_type_exact v5 else v5) (initial_preferred c).

Lemma finish_vro_clean c cl x ix v3 v4 :
  merge_warn None (dedupe [] v3) = v4 -> make_exact c cl v4 = v4 ->
  forallb (base_recognized c) v4 = true -> remove_type_exact v4 <> [] ->
  finish_vro c cl x ix v3 = if ix then remove_type_exact v4 else v4.
Proof.
  intros E4 E5 B N. unfold finish_vro. cbv zeta. rewrite E4.
  replace (if x then make_exact c cl v4 else v4) with v4 by (now destruct x).
  apply kindly_set_all_ok; destruct ix; try assumption.
  - intros ->. now apply N.
  - unfold remove_type_exact. apply forallb_forall. intros e He. apply filter_In in He.
    rewrite forallb_forall in B. now apply B.
Qed.
(* a registered global or user tag, written plain, that is no reserved word *)
Definition plain_tag (c : config) (t : str) : bool :=
  recognized c t && global_or_user c t && entry_eqb (parse_entry t) (ETag t).
(* a registered word that is no global or user tag: makeVroExact leaves it where it is *)
Definition fixed_word (c : config) (e : entry) : bool :=
  recognized c (entry_base e) && negb (global_or_user c (entry_base e)).

Lemma fixed_word_stays c cl e : fixed_word c e = true -> moves c cl e = false.
Proof.
  unfold fixed_word, moves. intro H. apply andb_true_iff in H. destruct H as [R G]. apply negb_true_iff in G.
  now rewrite R, G, andb_false_r.
Qed.

Lemma plain_tag_base c t : plain_tag c t = true -> entry_base (ETag t) = t.
Proof.
  unfold plain_tag, recognized. intro H. do 3 (apply andb_true_iff in H; destruct H as [H _]).
  apply negb_true_iff in H. cbn [entry_base]. now rewrite split_on_nodelim.
Qed.

Lemma plain_tag_moves c cl t : plain_tag c t = true -> moves c cl (ETag t) = negb (mem_str t cl).
Proof.
  intro H. unfold moves. rewrite (plain_tag_base c t H). unfold plain_tag in H.
  apply andb_true_iff in H. destruct H as [H _]. apply andb_true_iff in H. destruct H as [R G].
  now rewrite R, G, andb_true_r.
Qed.

Lemma named_tags_stay c ts : (forall t, In t ts -> plain_tag c t = true) -> existsb (moves c ts) (map ETag ts) = false.
Proof.
  intro H. apply not_true_is_false. intro E. apply existsb_exists in E. destruct E as [e [I E]].
  apply in_map_iff in I. destruct I as [t [<- I]]. rewrite (plain_tag_moves c ts t (H t I)) in E.
  apply mem_str_In in I. rewrite I in E. discriminate.
Qed.

Lemma plain_tag_recognized c t : plain_tag c t = true -> base_recognized c (ETag t) = true.
Proof.
  intro H. unfold base_recognized. rewrite (plain_tag_base c t H). unfold plain_tag in H.
  now do 2 (apply andb_true_iff in H; destruct H as [H _]).
Qed.

Lemma plain_tags_parse c l : (forall t, In t l -> plain_tag c t = true) -> map parse_entry l = map ETag l.
Proof.
  intro H. apply map_ext_in. intros t Ht. specialize (H t Ht).
  unfold plain_tag in H. apply andb_true_iff in H. destruct H as [_ H]. now apply entry_eqb_eq.
Qed.

(* whatever key selectVRO computes, the shipped table answers with its only line *)
Lemma default_key ts (pd vn : bool) :
  let key0 := match find (fun t => amem t hooks_vro) ts with
              | Some t => t
              | None => if pd then lit "path" else if vn then lit "commandLine" else lit "default"
              end in
  (if amem key0 hooks_vro then Some key0
   else if amem (lit "default") hooks_vro then Some (lit "default") else None) = Some (lit "default").
Proof.
  intro key0. destruct (amem key0 hooks_vro) eqn:E; [|reflexivity]. unfold amem, hooks_vro, alookup in E.
  destruct (str_eqb key0 (lit "default")) eqn:S; [|discriminate]. apply str_eqb_eq in S. now rewrite S.
Qed.

Definition default_words : list entry :=
  [EType (lit "exact"); ECommandLine; EVersion; EVersionExpr; ETag (lit "current")].

Definition default_shape (k : bool) (ts qs : list str) : list entry :=
  (if k then [EKeep] else []) ++
  EType (lit "exact") :: ECommandLine :: map ETag ts ++ EVersion :: EVersionExpr :: map ETag qs.

Lemma default_placed (k : bool) ts ps :
  place_words (map ETag ts) (map ETag ps) (if k then EKeep :: default_words else default_words) =
  Ok (default_shape k ts (ps ++ [lit "current"])).
Proof.
  unfold default_shape. set (K := if k then [EKeep] else []).
  replace (if k then EKeep :: default_words else default_words) with (K ++ default_words) by (now destruct k).
  assert (NK : forall p, p EKeep = false -> existsb p K = false) by (intros p H; destruct k; simpl; now rewrite ?H).
  unfold place_words, default_words. cbv zeta. rewrite (insert_at_nil (fun l => l)).
  rewrite (where_after_skip is_cmdline_or_type K) by now apply NK.
  cbn [where_after is_cmdline_or_type plus].
  change (S (S (length K))) with (2 + length K). rewrite insert_at_skip. cbn [insert_at firstn skipn app].
  rewrite (where_after_skip is_version_like K) by now apply NK. cbn [where_after is_version_like plus].
  rewrite where_after_skip by apply tags_not_version_like. cbn [where_after is_version_like plus].
  rewrite (insert_at_nil Ok).
  replace (S (S (S (S (length K + length (map ETag ts)))))) with ((4 + length (map ETag ts)) + length K) by lia.
  rewrite insert_at_skip. cbn [plus]. rewrite !insert_at_cons.
  change (S (S (length (map ETag ts)))) with (2 + length (map ETag ts)). rewrite insert_at_skip.
  cbn [insert_at firstn skipn app]. now rewrite map_app.
Qed.

(* duplicates: the -t names are new; of the names behind versionExpr those given with -t are dropped.
   There are no warnings to merge. *)
Lemma default_deduped k ts qs :
  NoDup ts ->
  merge_warn None (dedupe [] (default_shape k ts qs)) =
  default_shape k ts (filter (fun t => negb (mem_str t ts)) (uniq qs)).
Proof.
  intro ND. unfold default_shape. rewrite <- (app_nil_r (map ETag qs)).
  destruct k; cbn [app]; rewrite !dedupe_word by reflexivity; rewrite dedupe_tags.
  all: rewrite (filter_all (unseen _)) by reflexivity; rewrite (uniq_NoDup_id ts ND).
  all: rewrite !dedupe_word
    by (try reflexivity; cbn [mem_entry entry_eqb]; now rewrite mem_entry_app, mem_entry_rev, mem_entry_tags).
  all: rewrite dedupe_tags.
  all: rewrite (filter_ext (unseen _) (fun t => negb (mem_str t ts)))
    by (intro t; unfold unseen; cbn [mem_entry entry_eqb]; rewrite mem_entry_app, mem_entry_rev, mem_entry_tags;
        cbn [mem_entry entry_eqb]; now rewrite orb_false_r).
  all: cbn [dedupe merge_warn flush_warn app]; rewrite merge_warn_tags; cbn [merge_warn flush_warn app].
  all: now rewrite merge_warn_tags, app_nil_r.
Qed.

Section DefaultShape.
  Variable c : config.
  Variables ts qs : list str.
  Hypothesis HF : forallb (fixed_word c) [EKeep; EType (lit "exact"); ECommandLine; EVersion; EVersionExpr] = true.
  Hypothesis HT : forall t, In t ts -> plain_tag c t = true.
  Hypothesis HQ : forall t, In t qs -> plain_tag c t = true /\ mem_str t ts = false.

  Lemma default_words_fixed :
    fixed_word c EKeep = true /\ fixed_word c (EType (lit "exact")) = true /\ fixed_word c ECommandLine = true /\
    fixed_word c EVersion = true /\ fixed_word c EVersionExpr = true.
  Proof.
    pose proof HF as H. cbn [forallb] in H. repeat (apply andb_true_iff in H; destruct H as [? H]).
    repeat split; assumption.
  Qed.

  (* makeVroExact: the -t names stay, the names behind versionExpr move and are at the end already *)
  Lemma default_exact k : NoDup qs -> make_exact c ts (default_shape k ts qs) = default_shape k ts qs.
  Proof.
    intro ND. unfold default_shape. destruct default_words_fixed as [F1 [F2 [F3 [F4 F5]]]].
    set (K := if k then [EKeep] else []).
    assert (SK : existsb (moves c ts) K = false)
      by (destruct k; cbn [K existsb]; [now rewrite fixed_word_stays|reflexivity]).
    rewrite (make_exact_split c ts _
               (K ++ EType (lit "exact") :: ECommandLine :: map ETag ts ++ [EVersion; EVersionExpr]) (map ETag qs)).
    { rewrite <- app_assoc. cbn [app]. now rewrite <- app_assoc. }
    rewrite <- (app_nil_r (map ETag qs)), exact_split_stay by exact SK.
    rewrite !exact_split_word by now apply fixed_word_stays.
    rewrite exact_split_stay by now apply named_tags_stay.
    rewrite !exact_split_word by now apply fixed_word_stays.
    rewrite exact_split_move
      by (try exact ND; apply forallb_forall; intros t Ht; apply HQ in Ht; destruct Ht as [Pt Nt];
          now rewrite plain_tag_moves, Nt).
    cbn [exact_split app]. now rewrite <- !app_assoc, app_nil_r.
  Qed.

  Lemma default_recognized k : forallb (base_recognized c) (default_shape k ts qs) = true.
  Proof.
    assert (BW : forall e, fixed_word c e = true -> base_recognized c e = true)
      by (intros e He; unfold fixed_word in He; apply andb_true_iff in He; apply He).
    assert (BT : forall l, (forall t, In t l -> plain_tag c t = true) -> forallb (base_recognized c) (map ETag l) = true).
    { intros l Hl. apply forallb_forall. intros e He. apply in_map_iff in He. destruct He as [t [<- Ht]].
      now apply plain_tag_recognized, Hl. }
    destruct default_words_fixed as [F1 [F2 [F3 [F4 F5]]]].
    unfold default_shape. destruct k; cbn [app forallb]; rewrite forallb_app; cbn [forallb].
    all: rewrite !BW by assumption; rewrite !BT; auto.
    all: intros t Ht; now apply HQ.
  Qed.

End DefaultShape.
