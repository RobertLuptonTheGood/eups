(* The walk that calls the resolver (Model/DepWalk.v, over fixed look-ups: Proofs/DepWalkConst.v) against the
   walk over resolved edges (Model/Graph.v): on the world of the edges the resolver computes they are the same
   function, as long as no line met carries -j and the pinned look-ups agree with what Model/Graph.v says of a
   pinned name. *)
From Eupsv Require Import Base.Base Base.BaseLemmas Model.Resolve Model.Graph Model.DepWalk Proofs.DepWalkConst.

Section Sim.
  Variable lk : dline -> option found.
  Variable lkp : dline -> option str -> option found.
  Variable T : dtables.
  Variable pins : list (str * option str).

  Let w := edges_world lk T.

  (* the line denotes, for the walk with the resolver inside, what its edge denotes in Model/Graph.v *)
  Definition agrees (l : dline) : Prop := cresolve lk lkp pins l = resolve w pins (edge_of lk l).

  Lemma agrees_unpinned l : pin_of pins (dl_name l) = None -> agrees l.
  Proof.
    intros H. unfold agrees, cresolve, resolve. simpl. rewrite H. unfold own_target, tgt_of. simpl.
    destruct (lk l); reflexivity.
  Qed.

  (* [R]: the products whose tables the walk may read *)
  Variable R : node -> Prop.
  Definition line_ok (l : dline) : Prop := dl_just l = false /\ agrees l /\ R (cresolve lk lkp pins l).
  Hypothesis HR : forall t ls, R t -> dnode_table T t = Some ls -> forall l, In l ls -> line_ok l.

  Lemma sim_lines rec1 rec2 :
    (forall t d ls st, R t -> dnode_table T t = Some ls -> rec1 [] t d ls st = rec2 t d (map (edge_of lk) ls) st) ->
    forall ls tp depth st, (forall l, In l ls -> line_ok l) ->
      cwalk_lines lk lkp T pins rec1 tp depth ls st = walk_lines w pins rec2 tp depth (map (edge_of lk) ls) st.
  Proof.
    intros Hrec. induction ls as [|l r IH]; intros tp depth st Hok; [reflexivity|].
    rewrite cwalk_lines_cons. cbn [walk_lines map].
    destruct (Hok l (or_introl eq_refl)) as [Hj [Ha Hr]]. unfold agrees in Ha. rewrite <- Ha.
    set (t := cresolve lk lkp pins l) in *. rewrite Hj, (node_table_edges lk T).
    assert (Hsub : dwalk_sub T rec1 [] t depth false st =
      (if nreal t && negb (mem_node t (vis st))
       then match option_map (map (edge_of lk)) (dnode_table T t) with
            | Some es' => rec2 t (S depth) es' (pd_ensure t (mark t st))
            | None => Ok ([], mark t st)
            end
       else Ok ([], st))).
    { unfold dwalk_sub. cbn [negb]. rewrite andb_true_r.
      destruct (nreal t && negb (mem_node t (vis st))); [|reflexivity].
      destruct (dnode_table T t) as [ls'|] eqn:E; [|reflexivity]. simpl. apply Hrec; auto. }
    rewrite <- Hsub. unfold walk_after. destruct (dwalk_sub T rec1 [] t depth false st) as [[l1 st2]|x]; [|reflexivity].
    change (eopt (edge_of lk l)) with (dl_optional l).
    rewrite (IH tp depth (pd_add tp t st2)); [reflexivity|].
    intros l' Hl'. apply Hok. right. exact Hl'.
  Qed.

  Lemma sim_walk fuel : forall tp depth ls st, (forall l, In l ls -> line_ok l) ->
    cwalk lk lkp T pins fuel [] tp depth ls st = walk fuel w pins tp depth (map (edge_of lk) ls) st.
  Proof.
    induction fuel as [|f IH]; intros tp depth ls st Hok; [reflexivity|].
    apply (sim_lines (cwalk lk lkp T pins f) (walk f w pins)); [|exact Hok].
    intros t d ls' st' Rt Tt. apply IH. intros l Hl. eapply HR; eauto.
  Qed.

  Lemma sim_walk_top fuel top : R top ->
    cwalk_top lk lkp T pins fuel top = walk_top fuel w pins top.
  Proof.
    intros Rt. unfold cwalk_top, dwalk_top, walk_top. rewrite (node_table_edges lk T).
    destruct (dnode_table T top) as [ls|] eqn:E; [|reflexivity]. simpl.
    apply sim_walk. intros l Hl. eapply HR; eauto.
  Qed.
End Sim.

(* tables without -j lines *)
Definition no_just (T : dtables) : Prop := forall n v ls l, dtable_of T n v = Some ls -> In l ls -> dl_just l = false.

(* the first walk: nothing is pinned *)
Lemma first_walk_is_graph_walk lk lkp T fuel top : no_just T ->
  cwalk_top lk lkp T [] fuel top = walk_top fuel (edges_world lk T) [] top.
Proof.
  intros NJ. apply (sim_walk_top lk lkp T [] (fun _ => True)); [|exact I].
  intros t ls _ Tt l Hl. destruct (dnode_table_inv _ _ _ Tt) as [n [v [_ Tnv]]].
  split; [eapply NJ; eauto|]. split; [apply agrees_unpinned; reflexivity | exact I].
Qed.
