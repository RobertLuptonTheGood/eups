(* A whole process keeps the invariant: the load, every group of every operation (database
   update, in-memory update, save), deaths, deletions of cache files. *)
From Eupsv Require Import Base.Base Base.BaseLemmas Model.Db Model.Cache.
From Eupsv Require Import Proofs.DbLib Proofs.Db Proofs.DbSim Proofs.DbInv Proofs.DbCor.
From Eupsv Require Import Proofs.CacheLib Proofs.CacheWt Proofs.CacheEff Proofs.CacheU Proofs.CacheInv Proofs.CacheLoad.
From Coq Require Import Lia.

Definition wpath (w : world) : list str := map fst (w_db w).

Lemma load_stacks_ok tick loc utd nf path : forall w w' m,
  clock_strict tick -> INV w -> utd = owner loc -> NoDup path -> load_stacks tick false w loc utd nf path = (w', m) ->
  INV w' /\ w_db w' = w_db w /\ w_uc w' = w_uc w /\ map fst m = path /\
  (forall s, ~ In s path -> forall l f, pk_get w' l s f = pk_get w l s f) /\
  (forall s ps, alookup s m = Some ps ->
     ps_ok w' utd s ps /\ (forall f, In f nf -> alookup f (ps_lookup ps) <> None)).
Proof.
  induction path as [|s r IH]; intros w w' m CS I Hu ND E; cbn [load_stacks] in E.
  - injection E as <- <-. split; [exact I|]. split; [reflexivity|]. split; [reflexivity|]. split; [reflexivity|].
    split; [reflexivity|]. intros s ps H. cbn in H. discriminate.
  - destruct (from_cache tick false w s loc utd nf) as [w1 ps1] eqn:Ef.
    destruct (load_stacks tick false w1 loc utd nf r) as [w2 m2] eqn:El. injection E as <- <-.
    destruct (from_cache_ok tick w s loc utd nf w1 ps1 CS I Hu Ef) as [I1 [OK1 [[D1 [_ [_ [U1 P1]]]] L1]]].
    inversion ND as [|? ? Hn ND']. subst.
    destruct (IH w1 w2 m2 CS I1 eq_refl ND' El) as [I2 [D2 [U2 [M2 [P2 R2]]]]].
    split; [exact I2|]. split; [congruence|]. split; [congruence|]. split; [cbn; rewrite M2; reflexivity|]. split.
    + intros s' Hs' l f. rewrite P2 by (intro; apply Hs'; right; assumption).
      apply P1. intro. subst. apply Hs'. left. reflexivity.
    + intros s' ps H. cbn [alookup] in H. destruct (str_eqb_spec s' s) as [->|N].
      * inversion H. subst ps. split; [|exact L1]. apply (ps_ok_ext w1); [intros; rewrite D2; auto|intros; rewrite U2; reflexivity| |exact OK1].
        intros l f. apply P2. exact Hn.
      * apply R2. exact H.
Qed.

Definition apply_acts (d : db) (g : list aact) : db := fold_left (fun d x => apply (compile d x) d) g d.

Lemma apply_acts_cons d x g : apply_acts d (x :: g) = apply_acts (apply (compile d x) d) g.
Proof. reflexivity. Qed.

Lemma do_acts_db tick g : forall w, w_db (do_acts tick w g) = apply_acts (w_db w) g.
Proof.
  induction g as [|x g IH]; intro w; [reflexivity|]. rewrite do_acts_cons. cbn [apply_acts fold_left].
  rewrite IH, do_act_db. reflexivity.
Qed.

Lemma do_acts_pickles tick g : forall w, w_pickles (do_acts tick w g) = w_pickles w.
Proof.
  induction g as [|x g IH]; intro w; [reflexivity|]. rewrite do_acts_cons.
  rewrite IH, do_act_pickles. reflexivity.
Qed.

Lemma apply_acts_refines g : forall d, aeq (view (apply_acts d g)) (aapply_all g (view d)).
Proof.
  induction g as [|x g IH]; intro d; [apply aeq_refl|]. rewrite apply_acts_cons. rewrite aapply_all_cons.
  eapply aeq_trans; [apply IH|]. apply aapply_all_aeq. apply compile_refines.
Qed.

Lemma apply_acts_path g : forall d, map fst (apply_acts d g) = map fst d.
Proof.
  induction g as [|x g IH]; intro d; [reflexivity|]. rewrite apply_acts_cons.
  rewrite IH. apply path_apply.
Qed.

Lemma do_acts_inv tick g : clock_strict tick -> forall w,
  INV w -> acts_ok (view (w_db w)) g -> INV (do_acts tick w g).
Proof.
  intro CS. induction g as [|x g IH]; intros w I OK; [exact I|]. rewrite do_acts_cons.
  destruct OK as [O1 O2]. apply IH.
  - apply do_act_inv; assumption.
  - rewrite do_act_db. eapply acts_ok_aeq; [apply aeq_sym, compile_refines|exact O2].
Qed.

Lemma do_acts_clock tick g : clock_strict tick -> forall w, w_clock w <= w_clock (do_acts tick w g).
Proof.
  intro CS. induction g as [|x g IH]; intro w; [cbn; lia|]. rewrite do_acts_cons.
  specialize (IH (do_act tick w x)). pose proof (do_effects_clock tick (compile (w_db w) x) CS w). unfold do_act in *. lia.
Qed.

Lemma wt_acts_agree uts s fl g : forall ps d,
  lookup_agree ps d s -> no_dangling (view d) -> acts_ok (view d) g ->
  Forall (fun x => act_root x = s /\ act_flavor x = fl) g ->
  has_stack d s = true -> alookup fl (ps_lookup ps) <> None ->
  exists ps' ch, wt_acts false uts g ps = Ok (ps', ch) /\
    lookup_agree ps' (apply_acts d g) s /\ ps_modtimes ps' = ps_modtimes ps /\
    (forall f, alookup f (ps_lookup ps) <> None -> alookup f (ps_lookup ps') <> None).
Proof.
  induction g as [|x g IH]; intros ps d A ND OK F Hs Hf.
  - exists ps, false. split; [reflexivity|]. split; [exact A|]. split; [reflexivity|auto].
  - destruct OK as [O1 O2]. inversion F as [|? ? [R1 R2] F']. subst.
    assert (Hf' : alookup (act_flavor x) (ps_lookup ps) <> None) by exact Hf.
    destruct (wt_act_agree uts ps d (act_root x) x A ND O1 eq_refl Hs Hf') as [ps1 [c1 [E1 [A1 [M1 K1]]]]].
    assert (ND1 : no_dangling (view (apply (compile d x) d))).
    { eapply no_dangling_aeq; [apply aeq_sym, compile_refines|]. apply aapply_no_dangling; assumption. }
    assert (OK1 : acts_ok (view (apply (compile d x) d)) g).
    { eapply acts_ok_aeq; [apply aeq_sym, compile_refines|exact O2]. }
    assert (Hs1 : has_stack (apply (compile d x) d) (act_root x) = true) by (rewrite has_stack_apply; exact Hs).
    destruct (IH ps1 _ A1 ND1 OK1 F' Hs1 (K1 _ Hf)) as [ps2 [c2 [E2 [A2 [M2 K2]]]]].
    exists ps2, (c1 || c2). cbn [wt_acts]. rewrite E1, E2. split; [reflexivity|]. split; [exact A2|].
    split; [congruence|]. intros f H. apply K2, K1, H.
Qed.

Lemma apply_acts_frame g s2 n k f : forall d, Forall (fun x => act_root x <> s2) g ->
  db_decl (apply_acts d g) s2 n k f = db_decl d s2 n k f /\ db_tag (apply_acts d g) s2 n k f = db_tag d s2 n k f.
Proof.
  induction g as [|x g IH]; intros d F; [auto|]. inversion F as [|? ? N F']. subst. rewrite apply_acts_cons.
  destruct (IH (apply (compile d x) d) F') as [E1 E2]. rewrite E1, E2. apply compile_frame.
  right. rewrite <- act_root_stack. congruence.
Qed.

(* the loaded stacks of an instance of user u (not an administrator): every one agrees with the files
   and with the tag directory of u *)
Definition mem_ok (w : world) (uo : option str) (fl : str) (m : mem) : Prop :=
  forall s ps, alookup s m = Some ps ->
    ps_ok w uo s ps /\ has_stack (w_db w) s = true /\ alookup fl (ps_lookup ps) <> None.

Definition group_wf (fl : str) (g : list aact) : Prop :=
  g <> [] /\ Forall (fun x => act_root x = group_stack g /\ act_flavor x = fl) g.

(* what [groups] produces: one action, or a declaration with the tag it carries *)
Definition group_shape (g : list aact) : Prop :=
  (exists x, g = [x]) \/
  (exists s n v f r t, g = [ASetDecl s n v f r; ASetTag s n t f v]).

Lemma mem_ok_set w uo fl m s ps :
  (forall s2 ps2, s2 <> s -> alookup s2 m = Some ps2 ->
     ps_ok w uo s2 ps2 /\ has_stack (w_db w) s2 = true /\ alookup fl (ps_lookup ps2) <> None) ->
  ps_ok w uo s ps -> has_stack (w_db w) s = true -> alookup fl (ps_lookup ps) <> None ->
  mem_ok w uo fl (aset s ps m).
Proof.
  intros M A B C s' ps' H. rewrite alookup_aset in H. destruct (str_eqb_spec s' s) as [->|N].
  - inversion H. subst. auto.
  - exact (M s' ps' N H).
Qed.

Lemma mem_ok_aset w uo fl m s ps :
  mem_ok w uo fl m -> ps_ok w uo s ps -> has_stack (w_db w) s = true -> alookup fl (ps_lookup ps) <> None ->
  mem_ok w uo fl (aset s ps m).
Proof. intro M. apply mem_ok_set. intros s2 ps2 _. apply M. Qed.

Lemma owner_user u : u <> upsdb -> owner u = Some u.
Proof. intro H. unfold owner. destruct (str_eqb_spec u upsdb); [contradiction|reflexivity]. Qed.

Lemma save_flavor_ok tick w s loc u fl ps w' ps' :
  clock_strict tick -> INV w -> ps_ok w (owner loc) s ps -> alookup fl (ps_lookup ps) <> None ->
  save_flavor tick w s loc u fl ps = (w', ps') ->
  INV w' /\ ps_ok w' (owner loc) s ps' /\ same_but s w w' /\ alookup fl (ps_lookup ps') <> None.
Proof.
  intros CS I OK Hf E. unfold save_flavor in E. rewrite (in_sync_true w w _ _ _ _ _ eq_refl OK) in E.
  destruct (persist_ok tick w s loc fl ps w' ps' CS I OK (fun H => False_ind _ (Hf H)) E) as [A [B [C [D _]]]].
  auto.
Qed.

(* w1 differs from w, for stack s2, in nothing the loaded data of s2 are compared with *)
Definition same_stack (s2 : str) (w w1 : world) : Prop :=
  (forall n k f, db_decl (w_db w1) s2 n k f = db_decl (w_db w) s2 n k f /\
                 db_tag (w_db w1) s2 n k f = db_tag (w_db w) s2 n k f) /\
  (forall u n t f, uc_tag (w_uc w1) u s2 n t f = uc_tag (w_uc w) u s2 n t f).

(* what follows the database call of a command on stack s (w1 is the world after it, no cache file written
   yet): ensureInSync, the in-memory update WT of the loaded stack, save.  [run_group] (when the process
   lives) and [run_uact] (after its database call) are this, by computation *)
Definition cache_update {R} tick (u fl : str) (w1 : world) (m : mem) (s : str) (WT : pstack -> res (pstack * bool))
  (always : bool) (ok raised : R) : world * mem * R :=
  match alookup s m with
  | None => (w1, m, ok)
  | Some ps =>
      let ps1 := ensure_in_sync w1 s u ps in
      match WT ps1 with
      | Err _ => (w1, aset s ps1 m, raised)
      | Ok (ps2, changed) =>
          if always || changed then
            let '(w2, ps3) := save_flavor tick w1 s u u fl ps2 in (w2, aset s ps3 m, ok)
          else (w1, aset s ps2 m, ok)
      end
  end.

Lemma cache_update_ok {R} tick u fl w w1 m s (WT : pstack -> res (pstack * bool)) (always : bool) (ok raised : R)
  w' m' (r : R) :
  clock_strict tick -> u <> upsdb -> INV w1 -> mem_ok w (Some u) fl m ->
  w_pickles w1 = w_pickles w -> wpath w1 = wpath w -> (forall s2, s2 <> s -> same_stack s2 w w1) ->
  (forall ps, alookup s m = Some ps -> exists ps2 ch, WT ps = Ok (ps2, ch) /\
     lookup_agree ps2 (w_db w1) s /\ ps_ugood ps2 (w_uc w1) (Some u) s /\ ps_modtimes ps2 = ps_modtimes ps /\
     (forall f, alookup f (ps_lookup ps) <> None -> alookup f (ps_lookup ps2) <> None)) ->
  cache_update tick u fl w1 m s WT always ok raised = (w', m', r) ->
  INV w' /\ r = ok /\ mem_ok w' (Some u) fl m' /\ w_db w' = w_db w1.
Proof.
  intros CS Hu I1 M P1 Pw Oth Hwt E. unfold cache_update in E.
  assert (HS : forall s0, has_stack (w_db w1) s0 = has_stack (w_db w) s0).
  { intro s0. rewrite <- !has_stack_path. fold (wpath w1) (wpath w). rewrite Pw. reflexivity. }
  assert (Others : forall s2 ps2, s2 <> s -> alookup s2 m = Some ps2 ->
            ps_ok w1 (Some u) s2 ps2 /\ has_stack (w_db w1) s2 = true /\ alookup fl (ps_lookup ps2) <> None).
  { intros s2 ps2 N H. destruct (M s2 ps2 H) as [OK [C D]]. destruct (Oth s2 N) as [Sdb Suc].
    split; [|split; [rewrite HS; exact C|exact D]].
    apply (ps_ok_ext w); [exact Sdb|exact Suc| |exact OK]. intros l f. apply pk_get_pickles. exact P1. }
  destruct (alookup s m) as [ps|] eqn:Em.
  2:{ injection E as <- <- <-. split; [exact I1|]. split; [reflexivity|]. split; [|reflexivity].
      intros s2 ps2 H. apply Others; [|exact H]. intro. subst. congruence. }
  destruct (M _ _ Em) as [OK [C D]]. cbv zeta in E. rewrite (ensure_in_sync_same w w1 (Some u) _ _ ps P1 OK) in E.
  destruct (Hwt ps eq_refl) as [ps2 [ch [Ew [A2 [U2 [M2 K2]]]]]]. rewrite Ew in E.
  assert (OK2 : ps_ok w1 (Some u) s ps2).
  { split; [exact A2|]. split; [exact U2|]. rewrite M2. intros l f mm p H1 H2.
    rewrite (pk_get_pickles w) in H2 by exact P1. exact (proj2 (proj2 OK) l f mm p H1 H2). }
  assert (HSs : has_stack (w_db w1) s = true) by (rewrite HS; exact C).
  destruct (always || ch).
  - destruct (save_flavor tick w1 s u u fl ps2) as [w2 ps3] eqn:Es. injection E as <- <- <-.
    rewrite <- (owner_user u Hu) in OK2.
    destruct (save_flavor_ok tick _ _ u u fl ps2 w2 ps3 CS I1 OK2 (K2 _ D) Es) as [I2 [OK3 [SB F3]]].
    rewrite (owner_user u Hu) in OK3. destruct SB as [Edb [_ [_ [Euc Epk]]]].
    split; [exact I2|]. split; [reflexivity|]. split; [|exact Edb]. rewrite <- Edb in HSs.
    apply mem_ok_set; auto. intros s2 ps2' N H. destruct (Others s2 ps2' N H) as [X1 X2].
    rewrite Edb. split; [|exact X2].
    apply (ps_ok_ext w1); [intros; rewrite Edb; auto|intros; rewrite Euc; reflexivity| |exact X1].
    intros l f. apply Epk. exact N.
  - injection E as <- <- <-. split; [exact I1|]. split; [reflexivity|]. split; [|reflexivity].
    apply mem_ok_set; auto.
Qed.

Lemma wt_group_ugood tick w u uts s fl g ps ps' ch :
  group_shape g -> Forall (fun x => act_root x = s /\ act_flavor x = fl) g ->
  (forall s n v f, uts s n v f = utags_on (w_uc (do_uacts tick w u g)) u s n v f) ->
  ps_ugood ps (w_uc w) (Some u) s -> lookup_agree ps (w_db w) s ->
  no_dangling (view (w_db w)) -> acts_ok (view (w_db w)) g -> has_stack (w_db w) s = true ->
  alookup fl (ps_lookup ps) <> None ->
  wt_acts false uts g ps = Ok (ps', ch) ->
  ps_ugood ps' (w_uc (do_acts tick (do_uacts tick w u g) g)) (Some u) s.
Proof.
  intros Sh F Huts G A ND OK HS Hfl E. rewrite do_acts_uc.
  destruct Sh as [[x ->]|[s0 [n [v [f [r [t ->]]]]]]].
  - inversion F as [|? ? [R1 R2] _]. subst. cbn [wt_acts] in E.
    destruct (wt_act false uts x ps) as [[ps1 c1]|] eqn:E1; [|discriminate]. inversion E. subst ps' ch.
    unfold do_uacts in *. cbn [fold_left] in *.
    rewrite <- (do_act_uc tick (do_uact tick w u x) x).
    apply (wt_act_ugood tick w u uts ps (act_root x) x ps1 c1); auto.
  - inversion F as [|? ? [R1 R2] F']. inversion F' as [|? ? [R3 R4] _]. subst. cbn [act_root act_flavor act_nf snd] in *.
    unfold do_uacts in *. cbn [fold_left do_uact] in *. cbn [wt_acts] in E.
    destruct (wt_act false uts (ASetDecl s0 n v f r) ps) as [[ps1 c1]|] eqn:E1; [|discriminate].
    destruct (wt_act false uts (ASetTag s0 n t f v) ps1) as [[ps2 c2]|] eqn:E2; [|discriminate].
    inversion E. subst ps' ch. destruct OK as [O1 [O2 _]].
    destruct (wt_act_agree uts ps (w_db w) s0 (ASetDecl s0 n v f r) A ND O1 eq_refl HS Hfl)
      as [ps1' [c1' [E1' [A1 [_ K1]]]]].
    rewrite E1 in E1'. inversion E1'. subst ps1' c1'.
    pose proof (wt_act_ugood tick w u uts ps s0 (ASetDecl s0 n v f r) ps1 c1 Huts G A eq_refl Hfl E1) as G1.
    cbn [do_uact] in G1.
    assert (G2 := wt_act_ugood tick (do_act tick w (ASetDecl s0 n v f r)) u uts ps1 s0 (ASetTag s0 n t f v) ps2 c2).
    cbn [do_uact] in G2. rewrite !do_act_uc in G2. rewrite do_act_uc in G1. apply G2; auto; try (rewrite do_act_db; exact A1); try (apply K1; exact Hfl).
Qed.

Lemma run_group_ok tick u fl w m g die w' m' r :
  clock_strict tick -> u <> upsdb -> INV w -> mem_ok w (Some u) fl m ->
  acts_ok (view (w_db w)) g -> group_wf fl g -> group_shape g ->
  run_group tick repaired u u fl w m g die = (w', m', r) ->
  INV w' /\ r <> GRaised /\ (r = GOk -> mem_ok w' (Some u) fl m') /\
  aeq (view (w_db w')) (aapply_all g (view (w_db w))).
Proof.
  intros CS Hu I M OK [Gne GF] Sh E. unfold run_group in E.
  set (wa := do_uacts tick w u g) in *. set (w1 := do_acts tick wa g) in *.
  destruct (do_uacts_quiet tick u g CS Hu w I) as [Ia [Da [Pa Ua]]]. fold wa in Ia, Da, Pa, Ua.
  assert (I1 : INV w1) by (apply do_acts_inv; [exact CS|exact Ia|rewrite Da; exact OK]).
  assert (D1 : w_db w1 = apply_acts (w_db w) g) by (unfold w1; rewrite do_acts_db, Da; reflexivity).
  assert (AE : aeq (view (w_db w1)) (aapply_all g (view (w_db w)))) by (rewrite D1; apply apply_acts_refines).
  destruct die; [injection E as <- <- <-; split; [exact I1|]; split; [discriminate|]; split; [discriminate|exact AE]|].
  assert (U1 : w_uc w1 = w_uc wa) by apply do_acts_uc.
  assert (X : INV w' /\ r = GOk /\ mem_ok w' (Some u) fl m' /\ w_db w' = w_db w1);
    [refine (cache_update_ok tick u fl w w1 m (group_stack g) _ _ GOk GRaised w' m' r CS Hu I1 M _ _ _ _ E)
    |destruct X as [I2 [-> [M2 Edb]]]].
  - unfold w1. rewrite do_acts_pickles. exact Pa.
  - unfold wpath. rewrite D1. apply apply_acts_path.
  - intros s2 N.
    assert (FN : Forall (fun x => act_root x <> s2) g).
    { apply Forall_forall. intros x Hx. destruct (proj1 (Forall_forall _ _) GF x Hx) as [R _]. congruence. }
    split; [intros; rewrite D1; apply apply_acts_frame; exact FN|].
    intros u0 n t f. rewrite U1. apply Ua. exact FN.
  - intros ps Em. destruct (M _ _ Em) as [[A [U B]] [C D]]. cbn [v_rm v_noread repaired].
    destruct (wt_acts_agree (read_back false w1 u) (group_stack g) fl g ps (w_db w) A (inv_nd w I) OK GF C D)
      as [ps2 [ch [Ew [A2 [Mt K2]]]]].
    exists ps2, ch. split; [exact Ew|]. split; [rewrite D1; exact A2|]. split; [|split; [exact Mt|exact K2]].
    apply (wt_group_ugood tick w u (read_back false w1 u) (group_stack g) fl g ps ps2 ch Sh GF); auto.
    + intros s0 n0 v0 f0. unfold read_back. rewrite U1. reflexivity.
    + apply (inv_nd w I).
  - split; [exact I2|]. split; [discriminate|]. split; [auto|]. rewrite Edb. exact AE.
Qed.

Definition gwf (g : list aact) : Prop := g <> [] /\ Forall (fun x => act_root x = group_stack g) g.

Lemma groups_spec_len n : forall xs, length xs <= n ->
  concat (groups xs) = xs /\ Forall gwf (groups xs) /\ Forall group_shape (groups xs).
Proof.
  induction n as [|n IH]; intros xs L.
  - destruct xs; [|cbn in L; lia]. split; [reflexivity|split; constructor].
  - destruct xs as [|x rest]; [split; [reflexivity|split; constructor]|]. cbn [length] in L.
    assert (Single : forall y, concat ([y] :: groups rest) = y :: rest /\ Forall gwf ([y] :: groups rest) /\
                                Forall group_shape ([y] :: groups rest)).
    { intro y. destruct (IH rest) as [C [F S]]; [lia|]. split; [|split].
      - cbn [concat app]. rewrite C. reflexivity.
      - constructor; [|exact F]. split; [discriminate|]. constructor; [reflexivity|constructor].
      - constructor; [|exact S]. left. exists y. reflexivity. }
    destruct x as [s n0 v f r|s n0 v f|s n0 t f v|s n0 t f]; cbn [groups]; try apply Single.
    destruct rest as [|y rest']; [apply (Single (ASetDecl s n0 v f r))|].
    destruct y as [s' n' v' f' r'|s' n' v' f'|s' n' t' f' v'|s' n' t' f']; try apply (Single (ASetDecl s n0 v f r)).
    destruct (str_eqb s s' && str_eqb n0 n' && str_eqb f f' && str_eqb v v') eqn:E;
      [|apply (Single (ASetDecl s n0 v f r))].
    rewrite !andb_true_iff, !str_eqb_eq in E. destruct E as [[[-> ->] ->] ->].
    cbn [length] in L. destruct (IH rest') as [C [F S]]; [lia|]. split; [|split].
    + cbn [concat app]. rewrite C. reflexivity.
    + constructor; [|exact F]. split; [discriminate|]. repeat constructor.
    + constructor; [|exact S]. right. exists s', n', v', f', r, t'. reflexivity.
Qed.

Lemma run_groups_ok tick u fl gs : forall w m crash w' m' r,
  clock_strict tick -> u <> upsdb -> INV w -> mem_ok w (Some u) fl m ->
  acts_ok (view (w_db w)) (concat gs) -> Forall (group_wf fl) gs -> Forall group_shape gs ->
  run_groups tick repaired u u fl w m gs crash = (w', m', r) ->
  INV w' /\ r <> GRaised /\ (r = GOk -> mem_ok w' (Some u) fl m') /\ wpath w' = wpath w.
Proof.
  induction gs as [|g rest IH]; intros w m crash w' m' r CS Hu I M OK F SH E; cbn [run_groups] in E.
  - injection E as <- <- <-. split; [exact I|]. split; [discriminate|]. split; [auto|reflexivity].
  - cbn [concat] in OK. apply acts_ok_app in OK. destruct OK as [OKg OKr]. inversion F as [|? ? Fg Fr]. subst.
    inversion SH as [|? ? Sg Sr]. subst.
    assert (Step : forall die crash',
      (let '(w1, m1, r1) := run_group tick repaired u u fl w m g die in
       match r1 with GOk => run_groups tick repaired u u fl w1 m1 rest crash' | _ => (w1, m1, r1) end) = (w', m', r) ->
      INV w' /\ r <> GRaised /\ (r = GOk -> mem_ok w' (Some u) fl m') /\ wpath w' = wpath w).
    { intros die crash' E'. destruct (run_group tick repaired u u fl w m g die) as [[w1 m1] r1] eqn:Eg.
      destruct (run_group_ok tick u fl w m g die w1 m1 r1 CS Hu I M OKg Fg Sg Eg) as [I1 [NR [M1 AE]]].
      assert (P1 : wpath w1 = wpath w).
      { unfold wpath. rewrite <- !apath_view, (proj1 AE), apath_aapply_all. reflexivity. }
      destruct r1.
      - destruct (IH w1 m1 crash' w' m' r CS Hu I1 (M1 eq_refl)) as [A [B [C D]]]; auto.
        + eapply acts_ok_aeq; [apply aeq_sym; exact AE|exact OKr].
        + split; [exact A|]. split; [exact B|]. split; [exact C|congruence].
      - injection E' as <- <- <-. split; [exact I1|]. split; [discriminate|]. split; [discriminate|exact P1].
      - congruence. }
    destruct crash as [[[|k] [|]]|].
    + apply (Step true None E).
    + injection E as <- <- <-. split; [exact I|]. split; [discriminate|]. split; [discriminate|reflexivity].
    + apply (Step false (Some (k, true)) E).
    + apply (Step false (Some (k, false)) E).
    + apply (Step false None E).
Qed.

Lemma run_op_ok tick u fl w m x crash w' m' oc :
  clock_strict tick -> u <> upsdb -> INV w -> mem_ok w (Some u) fl m ->
  run_op tick repaired u u fl w m x crash = (w', m', oc) ->
  INV w' /\ (oc <> OCrashed -> mem_ok w' (Some u) fl m') /\ wpath w' = wpath w.
Proof.
  intros CS Hu I M E. unfold run_op in E.
  destruct (str_eqb_spec (o_flavor (op_opts x)) fl) as [Efl|N]; cbn [negb] in E.
  2:{ injection E as <- <- <-. auto. }
  destruct (decide false (view (w_db w)) x) as [acts|e] eqn:Ed.
  2:{ injection E as <- <- <-. auto. }
  destruct (run_groups tick repaired u u fl w m (groups acts) crash) as [[w1 m1] r] eqn:Eg.
  injection E as <- <- <-.
  destruct (groups_spec_len (length acts) acts (le_n _)) as [C [G SH]].
  assert (FL : Forall (fun x0 => act_flavor x0 = fl) acts).
  { pose proof (decide_scope _ _ _ _ Ed) as S. apply Forall_forall. intros y Hy.
    pose proof (proj1 (Forall_forall _ _) S y Hy) as Hn. unfold act_flavor. rewrite Hn. exact Efl. }
  assert (GW : Forall (group_wf fl) (groups acts)).
  { apply Forall_forall. intros g Hg. destruct (proj1 (Forall_forall _ _) G g Hg) as [G1 G2].
    split; [exact G1|]. apply Forall_forall. intros y Hy. split.
    - exact (proj1 (Forall_forall _ _) G2 y Hy).
    - apply (proj1 (Forall_forall _ _) FL y). rewrite <- C. apply in_concat. exists g. auto. }
  destruct (run_groups_ok tick u fl (groups acts) w m crash w1 m1 r CS Hu I M) as [I1 [NR [M1 P1]]]; auto.
  - rewrite C. apply (decide_acts_ok _ _ _ _ Ed).
  - split; [exact I1|]. split; [|exact P1]. intro H. apply M1. destruct r; congruence.
Qed.

(* a USet is issued for a version that the files declare: the write-through does not raise *)
Definition uact_ok (d : db) (x : uact) : Prop :=
  match x with USet s n t f v => db_decl d s n v f <> None | UDel _ _ _ _ => True end.

Lemma run_uact_ok tick u fl w m x crash w' m' oc :
  clock_strict tick -> u <> upsdb -> INV w -> mem_ok w (Some u) fl m ->
  uact_ok (w_db w) x -> uact_flavor x = fl ->
  run_uact tick false u u fl w m x crash = (w', m', oc) ->
  INV w' /\ (oc <> OCrashed -> mem_ok w' (Some u) fl m') /\ wpath w' = wpath w.
Proof.
  intros CS Hu I M UOK UF E.
  (* by computation: the two deaths, else the database call followed by [cache_update] *)
  change (run_uact tick false u u fl w m x crash)
    with (match crash with
          | Some (0, false) => (w, m, OCrashed)
          | _ => match crash with
                 | Some (0, true) => (do_udb tick false w u x, m, OCrashed)
                 | _ => cache_update tick u fl (do_udb tick false w u x) m (uact_stack x) (wt_uact x)
                          (match x with USet _ _ _ _ _ => true | UDel _ _ _ _ => false end) OOk ORaised
                 end
          end) in E.
  pose proof (do_udb_ustep tick w u x CS I) as S1. pose proof (ustep_inv _ _ _ _ _ Hu S1 I) as I1.
  destruct S1 as [D1 P1 _ _ _ UC1 _]. set (w1 := do_udb tick false w u x) in *.
  assert (Pw : wpath w1 = wpath w) by (unfold wpath; rewrite D1; reflexivity).
  assert (Dead : forall w0, INV w0 -> wpath w0 = wpath w -> (w0, m, OCrashed) = (w', m', oc) ->
            INV w' /\ (oc <> OCrashed -> mem_ok w' (Some u) fl m') /\ wpath w' = wpath w).
  { intros w0 I0 P0 H. injection H as <- <- <-. split; [exact I0|]. split; [congruence|exact P0]. }
  assert (Live : cache_update tick u fl w1 m (uact_stack x) (wt_uact x)
                   (match x with USet _ _ _ _ _ => true | UDel _ _ _ _ => false end) OOk ORaised = (w', m', oc) ->
            INV w' /\ (oc <> OCrashed -> mem_ok w' (Some u) fl m') /\ wpath w' = wpath w).
  { clear E Dead. intro E.
    assert (X : INV w' /\ oc = OOk /\ mem_ok w' (Some u) fl m' /\ w_db w' = w_db w1);
      [refine (cache_update_ok tick u fl w w1 m (uact_stack x) _ _ OOk ORaised w' m' oc CS Hu I1 M P1 Pw _ _ E)
      |destruct X as [I2 [_ [M2 Edb]]]].
    - intros s2 N. split; [intros; rewrite D1; auto|]. intros u0 n t f. apply UC1. intro E0. inversion E0. congruence.
    - intros ps Em. destruct (M _ _ Em) as [[A [U _]] [_ D]]. subst fl.
      destruct (alookup (uact_flavor x) (ps_lookup ps)) as [fd|] eqn:Ef; [|congruence].
      destruct (wt_uact_total x ps fd Ef) as [[ps2 ch] Ew].
      { destruct x; [|exact Logic.I]. cbn [uact_ok uact_flavor] in *. rewrite (proj1 (A _ _ Ef _)). exact UOK. }
      destruct (wt_uact_agree x ps (w_db w) (uact_stack x) ps2 ch A Ew) as [A2 [M2 K2]].
      exists ps2, ch. split; [exact Ew|]. split; [rewrite D1; exact A2|]. split; [|auto].
      exact (wt_uact_ugood tick w u ps x ps2 ch U Ew).
    - split; [exact I2|]. split; [auto|]. unfold wpath. rewrite Edb. exact Pw. }
  destruct crash as [[[|k] [|]]|].
  - exact (Dead w1 I1 Pw E).
  - exact (Dead w I eq_refl E).
  - exact (Live E).
  - exact (Live E).
  - exact (Live E).
Qed.

Lemma uassign_plan_ok w o t n v x : uassign_plan w o t n v = Ok (Some x) ->
  uact_ok (w_db w) x /\ uact_flavor x = o_flavor o.
Proof.
  unfold uassign_plan. destruct (find_exact _ _ n v (o_flavor o)) as [[s' r]|] eqn:E; [|discriminate].
  intro H. inversion H. subst x. cbn [uact_ok uact_flavor]. split; [|reflexivity].
  apply find_exact_some in E. destruct E as [_ E]. rewrite a_decl_view in E. congruence.
Qed.

Lemma uunassign_plan_ok w m o t n vo x : uunassign_plan w m o t n vo = Ok (Some x) ->
  uact_ok (w_db w) x /\ uact_flavor x = o_flavor o.
Proof.
  unfold uunassign_plan. intro H.
  assert (G : forall s, uact_ok (w_db w) (UDel s n t (o_flavor o)) /\ uact_flavor (UDel s n t (o_flavor o)) = o_flavor o)
    by (intro s; split; [exact Logic.I|reflexivity]).
  destruct vo as [v|].
  - destruct (find_exact _ _ n v (o_flavor o)) as [[s' r]|]; [|discriminate].
    destruct (opt_str_eqb _ v); [|discriminate]. destruct (o_noaction o); [discriminate|]. inversion H. apply G.
  - destruct (o_stack o) as [s|].
    + destruct (o_noaction o); [discriminate|]. inversion H. apply G.
    + destruct (first_mutagged m _ n t (o_flavor o)) as [[s' v']|].
      * destruct (o_noaction o); [discriminate|]. inversion H. apply G.
      * destruct (find_tagged _ _ n current (o_flavor o)); discriminate.
Qed.

Lemma run_uop_ok tick u fl w m o plan crash w' m' oc :
  clock_strict tick -> u <> upsdb -> INV w -> mem_ok w (Some u) fl m ->
  (forall x, plan = Ok (Some x) -> uact_ok (w_db w) x /\ uact_flavor x = o_flavor o) ->
  run_uop tick false u u fl w m o plan crash = (w', m', oc) ->
  INV w' /\ (oc <> OCrashed -> mem_ok w' (Some u) fl m') /\ wpath w' = wpath w.
Proof.
  intros CS Hu I M HP E. unfold run_uop in E.
  destruct (str_eqb_spec (o_flavor o) fl) as [Efl|N]; cbn [negb] in E.
  2:{ injection E as <- <- <-. auto. }
  destruct plan as [[x|]|e].
  - destruct (HP x eq_refl) as [H1 H2]. eapply run_uact_ok; try eassumption. congruence.
  - injection E as <- <- <-. auto.
  - injection E as <- <- <-. auto.
Qed.

Lemma delete_cache_mem_ok w uo fl m l s f : mem_ok w uo fl m -> mem_ok (delete_cache w l s f) uo fl m.
Proof.
  intros M s' ps H. destruct (M s' ps H) as [[A [U B]] [C D]]. split; [split; [|split]|split]; auto.
  intros l' f' mm p H1 H2. unfold pk_get, delete_cache in H2. cbn [w_pickles] in H2.
  rewrite (glookup_gremove pkey_eqb pkey_eqb_eq) in H2.
  destruct (pkey_eqb (l', s', f') (l, s, f)); [discriminate|]. exact (B l' f' mm p H1 H2).
Qed.

Lemma run_pops_ok tick u fl xs : forall w m crash w' m' ocs,
  clock_strict tick -> u <> upsdb -> INV w -> mem_ok w (Some u) fl m ->
  run_pops tick repaired u u fl w m xs crash = (w', m', ocs) ->
  INV w' /\ wpath w' = wpath w.
Proof.
  induction xs as [|x rest IH]; intros w m crash w' m' ocs CS Hu I M E.
  - injection E as <- <- <-. auto.
  - rewrite run_pops_cons in E.
    destruct (run_pop tick repaired u u fl w m x
                (match crash with Some (0, g, b) => Some (g, b) | _ => None end)) as [[w1 m1] oc] eqn:Ep.
    assert (S1 : INV w1 /\ (oc <> OCrashed -> mem_ok w1 (Some u) fl m1) /\ wpath w1 = wpath w).
    { destruct x as [o|l s f|o t n v|o t n vo|o t n v]; cbn [run_pop v_uloc repaired] in Ep.
      - eapply run_op_ok; eassumption.
      - injection Ep as <- <- <-. split; [apply delete_cache_inv; exact I|]. split; [|reflexivity].
        intros _. apply delete_cache_mem_ok. exact M.
      - eapply run_uop_ok; try eassumption. intros x Hx. eapply uassign_plan_ok. exact Hx.
      - eapply run_uop_ok; try eassumption. intros x Hx. eapply uunassign_plan_ok. exact Hx.
      - eapply run_uop_ok; try eassumption. intros x Hx. eapply uassign_plan_ok. exact Hx. }
    destruct S1 as [I1 [M1 P1]]. destruct (died oc) eqn:Ed; [injection E as <- <- <-; auto|].
    assert (Noc : oc <> OCrashed) by (intros ->; discriminate).
    destruct (run_pops tick repaired u u fl w1 m1 rest _) as [[w2 m2] ocs2] eqn:Er. injection E as <- <- _.
    destruct (IH w1 m1 _ w2 m2 ocs2 CS Hu I1 (M1 Noc) Er) as [A B]. split; [exact A|]. rewrite B. exact P1.
Qed.

Lemma tag_dir_owner loc u : u <> upsdb -> loc = u \/ loc = upsdb -> tag_dir false loc u = owner loc.
Proof.
  intros Hu [->| ->]; unfold tag_dir, owner.
  - destruct (str_eqb_spec u upsdb); [contradiction|reflexivity].
  - rewrite str_eqb_refl. reflexivity.
Qed.

Lemma load_ok tick w loc u fl w1 m :
  clock_strict tick -> INV w -> NoDup (wpath w) -> u <> upsdb -> loc = u \/ loc = upsdb ->
  load tick repaired w loc u fl = (w1, m) ->
  INV w1 /\ w_db w1 = w_db w /\ w_uc w1 = w_uc w /\ map fst m = wpath w /\
  (forall s ps, alookup s m = Some ps ->
     ps_ok w1 (owner loc) s ps /\ (forall f, In f (fallbacks fl) -> alookup f (ps_lookup ps) <> None)).
Proof.
  intros CS I ND Hu Hl E. unfold load in E. cbn [v_init v_ustale v_shared repaired needed] in E.
  rewrite (tag_dir_owner loc u Hu Hl) in E.
  destruct (load_stacks_ok tick loc (owner loc) (fallbacks fl) (wpath w) w w1 m CS I eq_refl ND E)
    as [A [B [U [C [_ D]]]]]. auto.
Qed.

Lemma run_proc_ok tick w p : clock_strict tick -> INV w -> NoDup (wpath w) ->
  p_user p <> upsdb -> (p_admin p = true -> p_ops p = []) ->
  INV (run_proc tick repaired w p) /\ wpath (run_proc tick repaired w p) = wpath w.
Proof.
  intros CS I ND Hu Ha. unfold run_proc, run_proc_full.
  assert (Hloc : p_loc p = p_user p \/ p_loc p = upsdb) by (unfold p_loc; destruct (p_admin p); auto).
  destruct (load tick repaired w (p_loc p) (p_user p) (p_flavor p)) as [w1 m] eqn:El.
  destruct (load_ok tick w _ _ _ w1 m CS I ND Hu Hloc El) as [I1 [D1 [U1 [K1 L1]]]].
  destruct (run_pops tick repaired (p_loc p) (p_user p) (p_flavor p) w1 m (p_ops p) (p_crash p)) as [[w2 m2] ocs] eqn:Er.
  cbn [fst].
  assert (Pw : wpath w1 = wpath w) by (unfold wpath; rewrite D1; reflexivity).
  destruct (p_admin p) eqn:Ead.
  - (* an administrator's instance only loads *)
    rewrite (Ha eq_refl) in Er. cbn [run_pops] in Er. injection Er as <- <- <-. auto.
  - assert (El' : p_loc p = p_user p) by (unfold p_loc; rewrite Ead; reflexivity).
    rewrite El' in *. rewrite (owner_user _ Hu) in L1.
    assert (M1 : mem_ok w1 (Some (p_user p)) (p_flavor p) m).
    { intros s ps H. destruct (L1 s ps H) as [X Y]. split; [exact X|]. split.
      - rewrite <- has_stack_path. apply mem_str_In. rewrite D1. fold (wpath w). rewrite <- K1.
        change (In s (akeys m)). apply alookup_not_None_In. congruence.
      - apply Y. left. reflexivity. }
    destruct (run_pops_ok tick _ _ _ w1 m _ w2 m2 ocs CS Hu I1 M1 Er) as [I2 P2].
    split; [exact I2|]. congruence.
Qed.

Lemma init_path path : wpath (init_world path) = path.
Proof. unfold wpath, init_world, empty_db. cbn [w_db]. rewrite map_map. cbn. apply map_id. Qed.

Lemma reachable_inv tick w : clock_strict tick -> reachable tick repaired w -> INV w /\ NoDup (wpath w).
Proof.
  intros CS R. induction R as [path ND|w p Hu Ha R [I ND]|w loc s fl R [I ND]].
  - split; [apply init_INV|]. rewrite init_path. exact ND.
  - destruct (run_proc_ok tick w p CS I ND Hu Ha) as [A B]. split; [exact A|]. rewrite B. exact ND.
  - split; [apply delete_cache_inv; exact I|exact ND].
Qed.

Lemma vis_tag_ext dl dl' tl tl' s n t f :
  tl s n t f = tl' s n t f -> (forall v, dl s n v f = dl' s n v f) -> vis_tag dl tl s n t f = vis_tag dl' tl' s n t f.
Proof. intros HT HD. unfold vis_tag. rewrite HT. destruct (tl' s n t f); [rewrite HD|]; reflexivity. Qed.

Lemma first_tagged_ext dl dl' tl tl' path n t f :
  (forall s, vis_tag dl tl s n t f = vis_tag dl' tl' s n t f) ->
  first_tagged dl tl path n t f = first_tagged dl' tl' path n t f.
Proof. intro H. induction path as [|s r IH]; cbn [first_tagged]; [reflexivity|]. rewrite H, IH. reflexivity. Qed.

Lemma q_eval_ext dl dl' tl tl' path q :
  (forall s n v, dl s n v (q_flavor q) = dl' s n v (q_flavor q)) ->
  (forall s n t, tl s n t (q_flavor q) = tl' s n t (q_flavor q)) ->
  q_eval dl tl path q = q_eval dl' tl' path q.
Proof.
  intros HD HT.
  destruct q as [s n v f|s n v f|s n v t f|s n t f|n v f|n t f]; cbn [q_flavor] in *; cbn [q_eval];
    rewrite ?HD, ?HT; try reflexivity; f_equal.
  - apply vis_tag_ext; auto.
  - induction path as [|s r IH]; cbn [first_decl]; [reflexivity|]. rewrite HD, IH. reflexivity.
  - apply first_tagged_ext. intro s. apply vis_tag_ext; auto.
Qed.

Definition uq_tag (q : uquery) : str :=
  match q with UQHasTag _ _ _ t _ | UQTagged _ _ t _ | UQFindTagged _ t _ => t end.

Lemma uq_eval_ext dl dl' ul ul' path q :
  (forall s n v, dl s n v (uq_flavor q) = dl' s n v (uq_flavor q)) ->
  (forall s n, ul s n (uq_tag q) (uq_flavor q) = ul' s n (uq_tag q) (uq_flavor q)) ->
  uq_eval dl ul path q = uq_eval dl' ul' path q.
Proof.
  intros HD HU. destruct q as [s n v t f|s n t f|n t f]; cbn [uq_flavor uq_tag] in *; cbn [uq_eval];
    rewrite ?HD, ?HU; try reflexivity; f_equal.
  - apply vis_tag_ext; auto.
  - apply first_tagged_ext. intro s. apply vis_tag_ext; auto.
Qed.

(* a reader passes over a tag whose version is not declared: whether the source of the tags has passed over
   it already makes no difference *)
Lemma uq_eval_filtered dl ul raw path q :
  (forall s n, let t := uq_tag q in let f := uq_flavor q in
     ul s n t f = raw s n t f \/
     ul s n t f = match raw s n t f with Some v => if is_some (dl s n v f) then Some v else None | None => None end) ->
  uq_eval dl ul path q = uq_eval dl raw path q.
Proof.
  intro H.
  assert (VT : forall s n, vis_tag dl ul s n (uq_tag q) (uq_flavor q) = vis_tag dl raw s n (uq_tag q) (uq_flavor q)).
  { intros s n. unfold vis_tag. destruct (H s n) as [E|E]; rewrite E; [reflexivity|].
    destruct (raw s n (uq_tag q) (uq_flavor q)) as [v|]; [|reflexivity].
    destruct (is_some (dl s n v (uq_flavor q))) eqn:Ed; [rewrite Ed|]; reflexivity. }
  destruct q as [s n v t f|s n t f|n t f]; cbn [uq_flavor uq_tag] in *; cbn [uq_eval]; f_equal; auto.
  - destruct (H s n) as [E|E]; rewrite E; [reflexivity|]. destruct (raw s n t f) as [v'|]; [|reflexivity].
    cbn [opt_str_eqb]. destruct (str_eqb_spec v' v) as [->|N].
    + destruct (dl s n v f); cbn [is_some opt_str_eqb andb]; rewrite ?str_eqb_refl; reflexivity.
    + destruct (is_some (dl s n v' f)); cbn [opt_str_eqb]; [|rewrite andb_false_r; reflexivity].
      destruct (str_eqb_spec v' v); [contradiction|reflexivity].
  - apply first_tagged_ext. intro s. apply VT.
Qed.

Lemma served_held w m f fb : (forall s ps, alookup s m = Some ps -> alookup f (ps_lookup ps) <> None) ->
  (forall s n v, srv_decl w m s n v f = mem_decl m s n v f) /\ (forall s n t, srv_tag w m s n t f = mem_tag m s n t f) /\
  (forall s n t, srv_utag fb m s n t f = mem_utag m s n t f).
Proof.
  intro H. unfold srv_decl, mem_decl, srv_tag, mem_tag, srv_utag, mem_utag.
  repeat split; intros s n k; (destruct (alookup s m) as [ps|] eqn:Es; [|reflexivity]); specialize (H s ps Es);
    destruct (alookup f (ps_lookup ps)); congruence.
Qed.

Lemma not_loaded_no_stack w (m : mem) : map fst m = wpath w -> forall s, alookup s m = None -> has_stack (w_db w) s = false.
Proof.
  intros K s Hs. rewrite <- has_stack_path. apply mem_str_not_In. fold (wpath w). rewrite <- K.
  intro HI. change (In s (akeys m)) in HI. apply In_akeys_alookup in HI. contradiction.
Qed.

(* stacks that agree with the files answer as the files do, whatever flavors they hold: for a flavor that is
   not held the served lookups read the files themselves *)
Lemma served_agree w m q :
  map fst m = wpath w -> (forall s ps, alookup s m = Some ps -> lookup_agree ps (w_db w) s) ->
  q_served w m q = q_db w q.
Proof.
  intros K A. unfold q_served, q_db. rewrite K. fold (wpath w).
  pose proof (not_loaded_no_stack w m K) as Out.
  apply q_eval_ext; intros s n k; unfold srv_decl, srv_tag; destruct (alookup s m) as [ps|] eqn:Es.
  - destruct (alookup (q_flavor q) (ps_lookup ps)) as [fd|] eqn:Ef; [|reflexivity]. apply (A s ps Es _ _ Ef n).
  - symmetry. apply db_decl_no_stack. exact (Out s Es).
  - destruct (alookup (q_flavor q) (ps_lookup ps)) as [fd|] eqn:Ef; [|reflexivity]. apply (A s ps Es _ _ Ef n).
  - symmetry. apply db_tag_no_stack. exact (Out s Es).
Qed.

(* whatever flavor is asked about: the stack answers for the flavors it holds, the files for the others *)
Lemma coherent_load_served tick w loc u fl q :
  clock_strict tick -> reachable tick repaired w -> u <> upsdb -> loc = u \/ loc = upsdb ->
  q_served (fst (load tick repaired w loc u fl)) (snd (load tick repaired w loc u fl)) q = q_db w q.
Proof.
  intros CS R Hu Hl. destruct (reachable_inv tick w CS R) as [I ND].
  destruct (load tick repaired w loc u fl) as [w1 m] eqn:El. cbn [fst snd].
  destruct (load_ok tick w loc u fl w1 m CS I ND Hu Hl El) as [_ [D1 [_ [K1 L1]]]].
  unfold q_db. rewrite <- D1. apply served_agree; [unfold wpath; rewrite D1; exact K1|].
  intros s ps Es. apply (L1 s ps Es).
Qed.

(* the same for the user tags of user u, when the stacks agree with his tag directory as well: for a flavor that
   every stack holds, or for a tag name that no chain file of a stack bears (for a flavor that is not held
   findTaggedProduct reads Database.getChainFile, which looks among the stack's own chain files first) *)
Lemma userved_agree w m u q :
  map fst m = wpath w ->
  (forall s ps, alookup s m = Some ps -> lookup_agree ps (w_db w) s /\ ps_ugood ps (w_uc w) (Some u) s) ->
  (forall s ps, alookup s m = Some ps -> alookup (uq_flavor q) (ps_lookup ps) <> None) \/
  (forall s n, db_cfile (w_db w) s (n, uq_tag q) = None) ->
  uq_served w m u q = uq_db w u q.
Proof.
  intros K A Hq. unfold uq_served, uq_db. rewrite K. fold (wpath w).
  pose proof (not_loaded_no_stack w m K) as Out.
  set (f := uq_flavor q) in *. set (t := uq_tag q) in *.
  set (fb := match q with UQHasTag _ _ _ _ _ => fun s n t f => uc_tag (w_uc w) u s n t f | _ => ufile_tag w u end).
  (* where the fall-back is consulted -- a stack that does not hold the flavor -- it is the tag directory: for
     product.tags by definition, for findTaggedProduct by the hypothesis *)
  assert (FB : forall s n ps, alookup s m = Some ps -> alookup f (ps_lookup ps) = None ->
            fb s n t f = uc_tag (w_uc w) u s n t f).
  { intros s n ps E1 E2.
    assert (X : ufile_tag w u s n t f = uc_tag (w_uc w) u s n t f); [|destruct q; try exact X; reflexivity].
    unfold ufile_tag. destruct Hq as [Hh|Hc]; [destruct (Hh s ps E1 E2)|rewrite (Hc s n); reflexivity]. }
  transitivity (uq_eval (db_decl (w_db w)) (srv_utag fb m) (wpath w) q).
  - apply uq_eval_ext; [|reflexivity]. intros s n v. unfold srv_decl. destruct (alookup s m) as [ps|] eqn:Es.
    + destruct (alookup (uq_flavor q) (ps_lookup ps)) as [fd|] eqn:E2; [|reflexivity]. apply (proj1 (A s ps Es) _ _ E2 n).
    + symmetry. apply db_decl_no_stack. exact (Out s Es).
  - apply uq_eval_filtered. intros s n. cbv zeta. fold t f. unfold srv_utag.
    destruct (alookup s m) as [ps|] eqn:E1.
    + destruct (alookup f (ps_lookup ps)) as [fd|] eqn:E2; [|left; exact (FB s n ps E1 E2)]. right.
      destruct (A s ps E1) as [Ag Ug]. rewrite (Ug _ _ E2 n t). unfold vis_fd.
      destruct (uc_tag (w_uc w) u s n t f) as [v|]; [|reflexivity]. rewrite (proj1 (Ag _ _ E2 n) v). reflexivity.
    + right. destruct (uc_tag (w_uc w) u s n t f) as [v|]; [|reflexivity].
      rewrite db_decl_no_stack; [reflexivity|exact (Out s E1)].
Qed.

Lemma ucoherent_load_served tick w u fl q :
  clock_strict tick -> reachable tick repaired w -> u <> upsdb ->
  In (uq_flavor q) (fallbacks fl) \/ (forall s n, db_cfile (w_db w) s (n, uq_tag q) = None) ->
  uq_served (fst (load tick repaired w u u fl)) (snd (load tick repaired w u u fl)) u q = uq_db w u q.
Proof.
  intros CS R Hu Hq. destruct (reachable_inv tick w CS R) as [I ND].
  destruct (load tick repaired w u u fl) as [w1 m] eqn:El. cbn [fst snd].
  destruct (load_ok tick w u u fl w1 m CS I ND Hu (or_introl eq_refl) El) as [_ [D1 [U1 [K1 L1]]]].
  rewrite (owner_user u Hu) in L1. unfold uq_db. rewrite <- D1, <- U1. apply userved_agree.
  - unfold wpath. rewrite D1. exact K1.
  - intros s ps Es. destruct (L1 s ps Es) as [[A [U _]] _]. auto.
  - destruct Hq as [Hf|Hc]; [left; intros s ps Es; apply (L1 s ps Es); exact Hf|right; rewrite D1; exact Hc].
Qed.

Lemma load_holds tick w loc u fl f : clock_strict tick -> reachable tick repaired w -> u <> upsdb -> loc = u \/ loc = upsdb ->
  In f (fallbacks fl) ->
  forall s ps, alookup s (snd (load tick repaired w loc u fl)) = Some ps -> alookup f (ps_lookup ps) <> None.
Proof.
  intros CS R Hu Hl Hf s ps Es. destruct (reachable_inv tick w CS R) as [I ND].
  destruct (load tick repaired w loc u fl) as [w1 m] eqn:El.
  destruct (load_ok tick w loc u fl w1 m CS I ND Hu Hl El) as [_ [_ [_ [_ L1]]]]. apply (L1 s ps Es). exact Hf.
Qed.

Lemma coherent_load tick w loc u fl q :
  clock_strict tick -> reachable tick repaired w -> u <> upsdb -> loc = u \/ loc = upsdb ->
  In (q_flavor q) (fallbacks fl) ->
  q_cache (snd (load tick repaired w loc u fl)) q = q_db w q.
Proof.
  intros CS R Hu Hl Hq. rewrite <- (coherent_load_served tick w loc u fl q CS R Hu Hl).
  destruct (served_held (fst (load tick repaired w loc u fl)) _ _ (fun _ _ _ _ => None)
              (load_holds tick w loc u fl _ CS R Hu Hl Hq)) as [HD [HT _]].
  symmetry. apply q_eval_ext; assumption.
Qed.

(* the same for the user tags of the asking user (not an administrator: his instance holds none) *)
Lemma ucoherent_load tick w u fl q :
  clock_strict tick -> reachable tick repaired w -> u <> upsdb ->
  In (uq_flavor q) (fallbacks fl) ->
  uq_cache (snd (load tick repaired w u u fl)) q = uq_db w u q.
Proof.
  intros CS R Hu Hq. rewrite <- (ucoherent_load_served tick w u fl q CS R Hu (or_introl Hq)).
  pose proof (fun fb => served_held (fst (load tick repaired w u u fl)) _ _ fb
                         (load_holds tick w u u fl _ CS R Hu (or_introl eq_refl) Hq)) as H.
  symmetry. apply uq_eval_ext; intros; [apply (H (fun _ _ _ _ => None))|apply H].
Qed.
