(* C11 - the well-formedness predicates of Model/TableSpec.v, part by part. *)
From Eupsv Require Import Base.Base Model.Rx Model.Cond Model.Args Model.Legacy Model.Blocks Model.TableSpec.

(* [andb_hyps H] replaces H : b1 && ... && bn = true by the n hypotheses bi = true, through
   andb_prop.  [rewrite !andb_true_iff in H] gives the same conjunction by setoid rewriting,
   which is many times dearer to check on the long predicates of this file. *)
Ltac andb_hyps H :=
  match type of H with
  | _ && _ = true =>
      let H' := fresh in apply andb_prop in H; destruct H as [H H']; andb_hyps H; andb_hyps H'
  | _ => idtac
  end.

Definition no_syn (s : str) : bool := forallb (fun o => negb (contains o s)) synonym_olds.

Lemma wf_cmd_parts c : wf_cmd c = true ->
  str_eqb (lower_str (cl_spell (c_lay c))) (lower_str (kind_name (c_kind c))) = true /\
  wf_args (cl_args (c_lay c)) (c_args c) = true /\
  forallb wf_junk (cl_junk (c_lay c)) = true /\
  (all_ws (cl_indent (c_lay c)) = true /\ no_newline (cl_indent (c_lay c)) = true) /\
  (all_ws (cl_sp (c_lay c)) = true /\ no_newline (cl_sp (c_lay c)) = true) /\
  (all_ws (cl_presemi (c_lay c)) = true /\ no_newline (cl_presemi (c_lay c)) = true) /\
  wf_after (cl_after (c_lay c)) = true /\ no_syn (cmd_core c) = true /\
  arity_ok (c_kind c) (c_args c) = true /\ mem_str (lit "-f") (c_args c) = false.
Proof.
  unfold wf_cmd, no_syn. intros H. andb_hyps H.
  repeat split; try assumption. now apply Bool.negb_true_iff.
Qed.

Lemma wf_bracelay_parts l : wf_bracelay l = true ->
  forallb wf_junk (bl_junk l) = true /\ (all_ws (bl_indent l) = true /\ no_newline (bl_indent l) = true) /\
  (all_ws (bl_s0 l) = true /\ no_newline (bl_s0 l) = true) /\
  (all_ws (bl_s00 l) = true /\ no_newline (bl_s00 l) = true) /\
  (all_ws (bl_s1 l) = true /\ no_newline (bl_s1 l) = true) /\
  (all_ws (bl_s2 l) = true /\ no_newline (bl_s2 l) = true) /\ wf_after (bl_after l) = true.
Proof. unfold wf_bracelay. intros H. andb_hyps H. repeat split; assumption. Qed.

Lemma wf_branch_parts b : wf_branch b = true ->
  wf_cond (b_cond b) = true /\ forallb wf_cmd (b_body b) = true /\ wf_bracelay (b_lay b) = true.
Proof. unfold wf_branch. intros H. andb_hyps H. repeat split; assumption. Qed.

Lemma wf_chain_parts b0 elifs els cl : wf_item (IChain b0 elifs els cl) = true ->
  wf_branch b0 = true /\ forallb wf_branch elifs = true /\
  match els with Some (b, l) => forallb wf_cmd b = true /\ wf_bracelay l = true | None => True end /\
  wf_bracelay cl = true.
Proof.
  cbn [wf_item]. intros H. andb_hyps H. repeat split; try assumption.
  destruct els as [[b l]|]; [|exact I]. now apply andb_prop.
Qed.
