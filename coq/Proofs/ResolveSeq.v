(* C03 - histories: lemmas about the changes of the database view (Model/ResolveSeq.v) *)
From Coq Require Import List Bool Arith.
Import ListNotations.

From Eupsv Require Import Base.Base Base.BaseLemmas Model.Resolve Model.ResolveSpec Model.ResolveSeq
     Proofs.ResolveLib Proofs.Resolve.

Lemma chain_key_is_refl n f t v : chain_key_is n f t (n, f, t, v) = true.
Proof. unfold chain_key_is. now rewrite !str_eqb_refl. Qed.

Lemma chain_lookup_filter_same l n f t :
  chain_lookup (filter (fun x => negb (chain_key_is n f t x)) l) n f t = None.
Proof.
  induction l as [|[[[n' f'] t'] v'] r IH]; [reflexivity|].
  cbn [filter]. unfold chain_key_is at 1.
  destruct (str_eqb n n' && str_eqb f f' && str_eqb t t') eqn:K; cbn [negb].
  - exact IH.
  - cbn [chain_lookup]. rewrite K. exact IH.
Qed.

Lemma chain_lookup_filter_other l n f t n2 f2 t2 :
  (str_eqb n2 n && str_eqb f2 f && str_eqb t2 t) = false ->
  chain_lookup (filter (fun x => negb (chain_key_is n f t x)) l) n2 f2 t2 = chain_lookup l n2 f2 t2.
Proof.
  intros NE. induction l as [|[[[n' f'] t'] v'] r IH]; [reflexivity|].
  cbn [filter]. unfold chain_key_is at 1.
  destruct (str_eqb n n' && str_eqb f f' && str_eqb t t') eqn:K; cbn [negb].
  - cbn [chain_lookup].
    destruct (str_eqb n2 n' && str_eqb f2 f' && str_eqb t2 t') eqn:K2; [|exact IH].
    exfalso.
    apply andb_true_iff in K as [K Kt]. apply andb_true_iff in K as [Kn Kf].
    apply andb_true_iff in K2 as [K2 K2t]. apply andb_true_iff in K2 as [K2n K2f].
    apply str_eqb_eq in Kn, Kf, Kt, K2n, K2f, K2t. subst.
    now rewrite !str_eqb_refl in NE.
  - cbn [chain_lookup]. now rewrite IH.
Qed.

Lemma set_chain_version s n f t v : chain_version (set_chain s n f t v) n f t = Some v.
Proof. unfold chain_version, set_chain. cbn [st_chain chain_lookup]. now rewrite !str_eqb_refl. Qed.

Lemma set_chain_version_other s n f t v n2 f2 t2 :
  (str_eqb n2 n && str_eqb f2 f && str_eqb t2 t) = false ->
  chain_version (set_chain s n f t v) n2 f2 t2 = chain_version s n2 f2 t2.
Proof.
  intros NE. unfold chain_version, set_chain. cbn [st_chain chain_lookup]. rewrite NE.
  now apply chain_lookup_filter_other.
Qed.

Lemma set_chain_declared s n f t v n2 v2 f2 : declared (set_chain s n f t v) n2 v2 f2 = declared s n2 v2 f2.
Proof. reflexivity. Qed.

Lemma set_chain_id s n f t v : st_id (set_chain s n f t v) = st_id s.
Proof. reflexivity. Qed.

Lemma drop_chain_version s n f t : chain_version (drop_chain s n f t) n f t = None.
Proof. unfold chain_version, drop_chain. cbn [st_chain]. apply chain_lookup_filter_same. Qed.

Lemma drop_chain_version_other s n f t n2 f2 t2 :
  (str_eqb n2 n && str_eqb f2 f && str_eqb t2 t) = false ->
  chain_version (drop_chain s n f t) n2 f2 t2 = chain_version s n2 f2 t2.
Proof. intros NE. unfold chain_version, drop_chain. cbn [st_chain]. now apply chain_lookup_filter_other. Qed.

Lemma drop_chain_declared s n f t n2 v2 f2 : declared (drop_chain s n f t) n2 v2 f2 = declared s n2 v2 f2.
Proof. reflexivity. Qed.

Lemma undeclare_in_declared s n v f : declared (undeclare_in s n v f) n v f = false.
Proof.
  unfold declared, undeclare_in. cbn [st_decl].
  induction (st_decl s) as [|d r IH]; [reflexivity|].
  cbn [filter]. destruct (decl_is n v f d) eqn:D; cbn [negb]; [exact IH|].
  cbn [existsb]. now rewrite D, IH.
Qed.

Lemma undeclare_in_declared_other s n v f n2 v2 f2 :
  (str_eqb n n2 && str_eqb v v2 && str_eqb f f2) = false ->
  declared (undeclare_in s n v f) n2 v2 f2 = declared s n2 v2 f2.
Proof.
  intros NE. unfold declared, undeclare_in. cbn [st_decl].
  induction (st_decl s) as [|[[n' v'] f'] r IH]; [reflexivity|].
  cbn [filter existsb]. destruct (decl_is n v f (n', v', f')) eqn:D; cbn [negb].
  - rewrite IH. destruct (decl_is n2 v2 f2 (n', v', f')) eqn:D2; [|reflexivity].
    exfalso. unfold decl_is in D, D2.
    apply andb_true_iff in D as [D Df]. apply andb_true_iff in D as [Dn Dv].
    apply andb_true_iff in D2 as [D2 D2f]. apply andb_true_iff in D2 as [D2n D2v].
    apply str_eqb_eq in Dn, Dv, Df, D2n, D2v, D2f. subst.
    now rewrite !str_eqb_refl in NE.
  - cbn [existsb]. now rewrite IH.
Qed.

Lemma update_first_split p g db1 s db2 :
  (forall s', In s' db1 -> p s' = false) -> p s = true ->
  update_first p g (db1 ++ s :: db2) = Some (db1 ++ g s :: db2).
Proof.
  intros H1 Hs. induction db1 as [|a r IH]; cbn [app update_first].
  - now rewrite Hs.
  - rewrite (H1 a (or_introl eq_refl)), IH; [reflexivity|].
    intros s' I. apply H1. now right.
Qed.

Lemma update_first_none p g db : (forall s, In s db -> p s = false) -> update_first p g db = None.
Proof.
  induction db as [|a r IH]; intros H; [reflexivity|].
  cbn [update_first]. rewrite (H a (or_introl eq_refl)), IH; [reflexivity|].
  intros s I. apply H. now right.
Qed.

Lemma find_chain_tagged_skip db1 db2 n t f :
  (forall s, In s db1 -> carries s n f t = false) ->
  find_chain_tagged (db1 ++ db2) n t f = find_chain_tagged db2 n t f.
Proof.
  intros H. induction db1 as [|a r IH]; [reflexivity|].
  cbn [app find_chain_tagged].
  pose proof (H a (or_introl eq_refl)) as Ha. unfold carries in Ha.
  destruct (chain_version a n f t) as [v|].
  - rewrite Ha. apply IH. intros s I. apply H. now right.
  - apply IH. intros s I. apply H. now right.
Qed.

Lemma find_version_skip db1 db2 n v f :
  (forall s, In s db1 -> declared s n v f = false) ->
  find_version (db1 ++ db2) n v f = find_version db2 n v f.
Proof.
  intros H. induction db1 as [|a r IH]; [reflexivity|].
  cbn [app find_version]. rewrite (H a (or_introl eq_refl)). apply IH. intros s I. apply H. now right.
Qed.

Lemma add_decl_declared s n v f : declared (add_decl s n v f) n v f = true.
Proof.
  unfold add_decl. destruct (declared s n v f) eqn:D; [exact D|].
  unfold declared. cbn [st_decl]. rewrite existsb_app. cbn [existsb]. unfold decl_is.
  rewrite !str_eqb_refl. cbn. now rewrite orb_true_r.
Qed.

Lemma add_decl_id s n v f : st_id (add_decl s n v f) = st_id s.
Proof. unfold add_decl. now destruct (declared s n v f). Qed.

Definition wf_mut (m : mut) : bool :=
  match m with
  | MAssign t _ _ _ => negb (str_eqb (lit "keep") t)
  | MUnassign _ _ _ _ => true
  | MDeclare _ v _ ot => negb (is_expr v) && match ot with Some t => negb (str_eqb (lit "keep") t) | None => true end
  | MUndeclare _ _ _ => true
  end.

Lemma wf_stack_drop_chain s n f t : wf_stack s = true -> wf_stack (drop_chain s n f t) = true.
Proof.
  unfold wf_stack, drop_chain. cbn [st_decl st_chain]. intros H.
  apply andb_true_iff in H as [H1 H2]. rewrite H1. cbn [andb].
  apply negb_true_iff in H2. apply negb_true_iff. now apply existsb_tag_filter.
Qed.

Lemma wf_stack_set_chain s n f t v :
  str_eqb (lit "keep") t = false -> wf_stack s = true -> wf_stack (set_chain s n f t v) = true.
Proof.
  intros K H. pose proof (wf_stack_drop_chain s n f t H) as D.
  unfold wf_stack, set_chain, drop_chain in *. cbn [st_decl st_chain] in *.
  apply andb_true_iff in D as [D1 D2]. rewrite D1. cbn [andb existsb chain_tag_is].
  rewrite K. cbn [orb]. exact D2.
Qed.

Lemma wf_stack_add_decl s n v f : is_expr v = false -> wf_stack s = true -> wf_stack (add_decl s n v f) = true.
Proof.
  intros E H. unfold add_decl. destruct (declared s n v f); [exact H|].
  unfold wf_stack in *. cbn [st_decl st_chain].
  apply andb_true_iff in H as [H1 H2]. rewrite H2, forallb_app, H1. cbn [forallb]. now rewrite E.
Qed.

Lemma wf_stack_undeclare_in s n v f : wf_stack s = true -> wf_stack (undeclare_in s n v f) = true.
Proof.
  unfold wf_stack, undeclare_in. cbn [st_decl st_chain]. intros H.
  apply andb_true_iff in H as [H1 H2]. apply andb_true_iff. split.
  - apply forallb_forall. intros d Id. apply filter_In in Id as [Id _].
    now apply (proj1 (forallb_forall _ _) H1).
  - apply negb_true_iff in H2. apply negb_true_iff. now apply existsb_tag_filter.
Qed.

Lemma wf_update_first p g db d :
  (forall s, wf_stack s = true -> wf_stack (g s) = true) ->
  wf_db db = true -> update_first p g db = Some d -> wf_db d = true.
Proof.
  intros G. revert d. induction db as [|a r IH]; intros d W E; [discriminate|].
  cbn [update_first] in E. unfold wf_db in *. cbn [forallb] in W. apply andb_true_iff in W as [Wa Wr].
  destruct (p a).
  - inversion E; subst. cbn [forallb]. now rewrite (G a Wa), Wr.
  - destruct (update_first p g r) as [r'|] eqn:R; [|discriminate]. inversion E; subst.
    cbn [forallb]. now rewrite Wa, (IH r' Wr eq_refl).
Qed.

Lemma wf_or_unchanged p g db :
  (forall s, wf_stack s = true -> wf_stack (g s) = true) ->
  wf_db db = true -> wf_db (or_unchanged db (update_first p g db)) = true.
Proof.
  intros G W. destruct (update_first p g db) as [d|] eqn:E; cbn [or_unchanged]; [|exact W].
  now apply (wf_update_first p g db d).
Qed.

Lemma wf_map g db :
  (forall s, wf_stack s = true -> wf_stack (g s) = true) -> wf_db db = true -> wf_db (map g db) = true.
Proof.
  intros G W. unfold wf_db in *. rewrite forallb_forall in *. intros x Ix.
  apply in_map_iff in Ix as [s [<- Is]]. apply G. now apply W.
Qed.

Lemma wf_apply_mut flavors db m : wf_mut m = true -> wf_db db = true -> wf_db (apply_mut flavors db m) = true.
Proof.
  intros M W. destruct m as [t n v st|t n ov oi|n v i ot|n v st]; cbn [apply_mut].
  - cbn [wf_mut] in M. apply negb_true_iff in M.
    apply wf_or_unchanged; [|exact W]. intros s. now apply wf_stack_set_chain.
  - destruct ov as [v|], oi as [i|]; (apply wf_or_unchanged; [|exact W]); intros s Ws;
      try destruct (opt_is v _); auto using wf_stack_drop_chain.
  - cbn [wf_mut] in M. apply andb_true_iff in M as [Mv Mt]. apply negb_true_iff in Mv.
    destruct (existsb _ db); [|exact W].
    set (f := hd_flavor flavors).
    assert (K : forall t, str_eqb (lit "keep") t = false -> wf_db
       (map (fun s => if str_eqb (st_id s) i then set_chain (add_decl s n v f) n f t v
                      else if carries s n f t then drop_chain s n f t else s) db) = true).
    { intros t Kt. apply wf_map; [|exact W]. intros s Ws.
      destruct (str_eqb (st_id s) i).
      - apply wf_stack_set_chain; [exact Kt|]. now apply wf_stack_add_decl.
      - destruct (carries s n f t); [now apply wf_stack_drop_chain|exact Ws]. }
    destruct ot as [t|].
    + apply K. now apply negb_true_iff in Mt.
    + destruct (unknown_product flavors db n).
      * apply K. reflexivity.
      * apply wf_map; [|exact W]. intros s Ws.
        destruct (str_eqb (st_id s) i); [now apply wf_stack_add_decl|exact Ws].
  - apply wf_or_unchanged; [|exact W]. intros s. apply wf_stack_undeclare_in.
Qed.

Lemma wf_view_after flavors ms : forall db,
  forallb wf_mut ms = true -> wf_db db = true -> wf_db (view_after flavors db ms) = true.
Proof.
  unfold view_after. induction ms as [|m r IH]; intros db M W; [exact W|].
  cbn [forallb] in M. apply andb_true_iff in M as [Mm Mr]. cbn [fold_left].
  apply IH; [exact Mr|]. now apply wf_apply_mut.
Qed.

Lemma run_history_app vcmp vmatch c flavors vro h1 : forall db h2,
  run_history vcmp vmatch c flavors vro db (h1 ++ h2) =
  run_history vcmp vmatch c flavors vro db h1 ++
  run_history vcmp vmatch c flavors vro (view_after flavors db (changes_of h1)) h2.
Proof.
  induction h1 as [|[q|m] r IH]; intros db h2; cbn [app run_history changes_of].
  - reflexivity.
  - now rewrite IH.
  - rewrite IH. reflexivity.
Qed.

Lemma history_last_answer vcmp vmatch c flavors vro db h q :
  run_history vcmp vmatch c flavors vro db (h ++ [Ask q]) =
  run_history vcmp vmatch c flavors vro db h ++
  [answer_on vcmp vmatch c flavors vro (view_after flavors db (changes_of h)) q].
Proof. now rewrite run_history_app. Qed.

Lemma run_session_app vcmp vmatch c insts db h1 h2 :
  run_session vcmp vmatch c insts db (h1 ++ h2) =
  run_session vcmp vmatch c insts db h1 ++ run_session vcmp vmatch c insts db h2.
Proof.
  induction h1 as [|[j|j q] r IH]; cbn [app run_session]; [reflexivity|exact IH|].
  destruct (nth_error insts j); [cbn [app]; now rewrite IH|exact IH].
Qed.
