(* The composed model Model/SetupFull.v (setup + resolver) is Model/Setup.v run on the decisions it takes;
   consequences for the frame theorem and the invariant; explicit versions; what the pieces of a run do to the
   products the environment records. *)
From Eupsv Require Import Base.Base Base.BaseLemmas Model.PathAlg Proofs.PathAlg Model.Setup Proofs.SetupFrame
     Proofs.SetupInv Proofs.SetupOwn Model.Resolve Model.ResolveSpec Proofs.ResolveLib Proofs.Resolve Model.SetupFull.
From Coq Require Import Lia.

Lemma trace_with_trace pre r : trace_of (with_trace pre r) = pre ++ trace_of r.
Proof. destruct r; reflexivity. Qed.

Lemma erase_with_trace rest pre r : erase rest (with_trace pre r) = erase rest r.
Proof. destruct r; reflexivity. Qed.

Lemma with_trace_app pre1 pre2 r : with_trace (pre1 ++ pre2) r = with_trace pre1 (with_trace pre2 r).
Proof. destruct r; cbn [with_trace]; now rewrite app_assoc. Qed.

Lemma with_trace_nil r : with_trace [] r = r.
Proof. now destruct r. Qed.

Lemma with_trace_done pre r ok st al tr :
  with_trace pre r = FDone ok st al tr -> exists tr', r = FDone ok st al tr'.
Proof. destruct r; cbn [with_trace]; try discriminate. intro E. injection E as <- <- <- _. eauto. Qed.

Lemma dep_dec (a : action) : (exists o m j, a = ASetup o m j) \/ (forall o m j, a <> ASetup o m j).
Proof. destruct a as [o m j|ap var v d|k v|k|k v|]; [left; now exists o, m, j|right; discriminate..]. Qed.

Section Full.
Variable vcmp : str -> str -> comparison.
Variable vmatch : str -> str -> bool.
Variable fw : fworld.
Variable cfg : Setup.config.
Variable rc : Resolve.config.
Variable flavors : list str.

Notation w := (fw_products fw).
Notation run_full := (run_actions_full cfg).
Notation step_full := (setup_full_step vcmp vmatch fw cfg rc flavors).
Notation full := (setup_full vcmp vmatch fw cfg rc flavors).

Definition resolve_call (al : already) (vro : list entry) (name : str) (li : lineinfo) (depth : nat) :=
  resolve_request vcmp vmatch rc (db_of cfg fw) (c_keep cfg) (alookup name al) flavors depth vro
                  (mkRequest name (li_version li) (li_expr li)).

(* What a forward call does once the version is chosen and not the one set up.  First whatever version is
   set up is unset, at the same depth (under --keep without its dependencies) ... *)
Definition unsetup_old (frec : full_fn) st al vro name depth just : fresult :=
  match find_setup_product w (s_env st) name with
  | Some _ => frec st al vro name no_info false depth (just || c_keep cfg)
  | None => FDone true st al []
  end.

(* ... then the variables of the product are set, its entry is made and its table is processed *)
Definition install (frec : full_fn) st al vro name depth just fd why p : fresult :=
  match unsetup_old frec st al vro name depth just with
  | FDone _ st1 al2 tr0 =>
      with_trace tr0 (run_full frec true depth just vro (p_actions p) (lines_of fw p)
                               (set_product_vars cfg st1 name p) (aset name (fd, why) al2))
  | other => other
  end.

Lemma step_full_forward frec st al vro name li depth just :
  step_full frec st al vro name li true depth just =
  match resolve_call al vro name li depth with
  | Ok (Some (fd, why)) =>
      match find_pv w name (fd_version fd) with
      | None => FBad [Some (fd_version fd)]
      | Some p =>
          let al1 := if depth =? 0 then aset name (fd, why) (rebuild w cfg (s_env st)) else al in
          if same_product p (find_setup_product w (s_env st) name) && negb (depth =? 0)
          then FDone true st al1 [Some (fd_version fd)]
          else with_trace [Some (fd_version fd)] (install frec st al1 vro name depth just fd why p)
      end
  | _ => FDone false st al [None]
  end.
Proof.
  unfold setup_full_step, install, unsetup_old. cbv zeta. fold (resolve_call al vro name li depth).
  destruct (resolve_call al vro name li depth) as [[[fd why]|]|e]; try reflexivity.
  destruct (find_pv w name (fd_version fd)) as [p|]; [|reflexivity].
  destruct (same_product p (find_setup_product w (s_env st) name) && negb (depth =? 0)); [reflexivity|].
  match goal with |- context [match ?X with FDone _ _ _ _ => _ | _ => _ end] => destruct X end; try reflexivity.
  apply (with_trace_app [Some (fd_version fd)]).
Qed.

Lemma run_full_simple frec fwd depth just vro a acts infos st al :
  (forall o m j, a <> ASetup o m j) ->
  run_full frec fwd depth just vro (a :: acts) infos st al =
  match exec_simple fwd a st with
  | Ok st' => run_full frec fwd depth just vro acts (tl infos) st' al
  | Err _ => FRaise st al []
  end.
Proof. intro N. destruct a as [o m j|ap var v d|k v|k|k v|]; [now destruct (N o m j)|reflexivity..]. Qed.

Lemma run_full_ok frec fwd depth just vro acts :
  forall infos st al ok st' al' tr,
    run_full frec fwd depth just vro acts infos st al = FDone ok st' al' tr -> ok = true.
Proof.
  induction acts as [|a acts IH]; intros infos st al ok st' al' tr.
  - intro E. now injection E as <- _ _ _.
  - destruct (dep_dec a) as [[o [m [j ->]]]|Hns].
    + cbn [run_actions_full]. destruct (cut_off cfg just (S depth)); [apply IH|].
      destruct (frec st al (child_vro vro) m (hd no_info infos) fwd (S depth) j) as [[|] st1 al1 tr1|st1 al1 tr1|tr1|tr1];
        try discriminate; try (destruct (fwd && negb o); [discriminate|]);
        intro E; destruct (with_trace_done _ _ _ _ _ _ E) as [tr' E']; exact (IH _ _ _ _ _ _ _ E').
    + rewrite run_full_simple by assumption. destruct (exec_simple fwd a st); [apply IH|discriminate].
Qed.

(* [frec] run without decisions does what [rec] does on the decisions [frec] takes, whatever follows them *)
Definition agrees (frec : full_fn) (rec : setup_fn) : Prop :=
  forall st al vro name li fwd depth just rest,
    rec st (trace_of (frec st al vro name li fwd depth just) ++ rest) name fwd depth just =
    erase rest (frec st al vro name li fwd depth just).

Lemma run_actions_agree frec rec fwd depth just vro :
  agrees frec rec ->
  forall acts infos st al rest,
    run_actions cfg rec fwd depth just acts st
                (trace_of (run_full frec fwd depth just vro acts infos st al) ++ rest) =
    erase rest (run_full frec fwd depth just vro acts infos st al).
Proof.
  intro HA. induction acts as [|a acts IH]; intros infos st al rest; [reflexivity|].
  destruct a as [o m j|ap var v d|k v|k|k v|]; cbn [run_actions run_actions_full].
  2-6: (destruct (exec_simple fwd _ st); [apply IH|reflexivity]).
  destruct (cut_off cfg just (S depth)); [apply IH|].
  pose proof (HA st al (child_vro vro) m (hd no_info infos) fwd (S depth) j) as HC.
  set (K := run_full frec fwd depth just vro acts (tl infos)).    (* keeps the terms rewritten below small *)
  destruct (frec st al (child_vro vro) m (hd no_info infos) fwd (S depth) j) as [[|] st' al' tr|st' al' tr|tr|tr];
    cbn [trace_of erase] in HC.
  2,3: destruct (fwd && negb o).
  (* the loop goes on after the dependency, or stops with its decisions *)
  1,3,5: (rewrite trace_with_trace, erase_with_trace, <- app_assoc, HC; apply IH).
  all: (cbn [trace_of erase]; now rewrite HC).
Qed.

Lemma install_agree frec rec st al vro name depth just fd why p rest :
  agrees frec rec ->
  let r0 := match find_setup_product w (s_env st) name with
            | Some _ => rec st (trace_of (install frec st al vro name depth just fd why p) ++ rest) name false depth
                            (just || c_keep cfg)
            | None => RDone true st (trace_of (install frec st al vro name depth just fd why p) ++ rest)
            end in
  match r0 with
  | RDone _ st1 ds2 => run_actions cfg rec true depth just (p_actions p) (set_product_vars cfg st1 name p) ds2
  | other => other
  end = erase rest (install frec st al vro name depth just fd why p).
Proof.
  intro HA. unfold install, unsetup_old. destruct (find_setup_product w (s_env st) name) as [sp|]; cbv zeta.
  - pose proof (HA st al vro name no_info false depth (just || c_keep cfg)) as H0.
    destruct (frec st al vro name no_info false depth (just || c_keep cfg)) as [ok st1 al2 tr0|st1 al2 tr0|tr0|tr0];
      cbn [trace_of erase] in H0.
    2-4: (cbn [trace_of erase]; now rewrite H0).
    rewrite trace_with_trace, erase_with_trace, <- app_assoc, H0. now apply run_actions_agree.
  - rewrite with_trace_nil. now apply run_actions_agree.
Qed.

Lemma setup_step_agree frec rec : agrees frec rec -> agrees (step_full frec) (setup_step w cfg rec).
Proof.
  intros HA st al vro name li fwd depth just rest. destruct fwd.
  - rewrite step_full_forward. unfold setup_step.
    destruct (resolve_call al vro name li depth) as [[[fd why]|]|e]; try reflexivity.
    destruct (find_pv w name (fd_version fd)) as [p|] eqn:Hf; cbv zeta.
    2:{ cbn [trace_of app]. now rewrite Hf. }
    destruct (same_product p (find_setup_product w (s_env st) name) && negb (depth =? 0)) eqn:Hs.
    + cbn [trace_of app erase]. now rewrite Hf, Hs.
    + rewrite trace_with_trace, erase_with_trace. cbn [app]. rewrite Hf, Hs.
      exact (install_agree frec rec st _ vro name depth just fd why p rest HA).
  - unfold setup_full_step, setup_step.
    destruct (find_setup_product w (s_env st) name) as [sp|]; [|reflexivity]. now apply run_actions_agree.
Qed.

Theorem setup_full_agrees fuel : agrees (setup_full vcmp vmatch fw cfg rc flavors fuel) (setup w cfg fuel).
Proof.
  induction fuel as [|fuel IH].
  - intros st al vro name li fwd depth just rest. reflexivity.
  - cbn [setup_full setup]. now apply setup_step_agree.
Qed.

Theorem setup_full_own_trace fuel st al vro name li fwd depth just :
  setup w cfg fuel st (trace_of (full fuel st al vro name li fwd depth just)) name fwd depth just =
  erase [] (full fuel st al vro name li fwd depth just).
Proof.
  pose proof (setup_full_agrees fuel st al vro name li fwd depth just []) as H.
  now rewrite app_nil_r in H.
Qed.

Lemma full_done_setup fuel st al vro name li fwd depth just ok st' al' tr :
  full fuel st al vro name li fwd depth just = FDone ok st' al' tr ->
  setup w cfg fuel st tr name fwd depth just = RDone ok st' [].
Proof.
  intro E. pose proof (setup_full_own_trace fuel st al vro name li fwd depth just) as H.
  now rewrite E in H.
Qed.

Lemma setup_full_frame_lemma dl fuel st al vro name li fwd depth just :
  WF w dl -> nodollar_paths w (s_env st) -> depth_ok cfg depth ->
  good w dl (touches w (levels cfg depth just) name) st (erase [] (full fuel st al vro name li fwd depth just)).
Proof.
  intros H Hnd Hd. rewrite <- setup_full_own_trace. now apply (setup_frame w cfg dl H fuel).
Qed.

Lemma setup_full_inv_lemma dl rank fuel st al vro name li fwd depth just ok st' al' tr :
  WF2 w dl rank -> nodollar_paths w (s_env st) -> depth_ok cfg depth -> Inv w (s_env st) ->
  full fuel st al vro name li fwd depth just = FDone ok st' al' tr ->
  Inv w (s_env st') /\ nodollar_paths w (s_env st').
Proof.
  intros H Hnd Hd HI E.
  exact (setup_preserves_Inv w cfg dl rank H fuel st tr name fwd depth just ok st' [] Hnd Hd HI
           (full_done_setup _ _ _ _ _ _ _ _ _ _ _ _ _ E)).
Qed.

Lemma step_trace_head frec st al vro name li depth just fd why :
  resolve_call al vro name li depth = Ok (Some (fd, why)) ->
  exists tr, trace_of (step_full frec st al vro name li true depth just) = Some (fd_version fd) :: tr.
Proof.
  intro E. rewrite step_full_forward, E.
  destruct (find_pv w name (fd_version fd)) as [p|]; [|now exists []]. cbv zeta.
  destruct (same_product p (find_setup_product w (s_env st) name) && negb (depth =? 0)); [now exists []|].
  rewrite trace_with_trace. cbn [app]. eauto.
Qed.

Lemma step_success_resolved frec st al vro name li depth just st' al' tr :
  step_full frec st al vro name li true depth just = FDone true st' al' tr ->
  exists fd why, resolve_call al vro name li depth = Ok (Some (fd, why)).
Proof.
  rewrite step_full_forward.
  destruct (resolve_call al vro name li depth) as [[[fd why]|]|e]; try discriminate.
  intros _. now exists fd, why.
Qed.

(* C01: a top-level request that names an explicit version sets that version up or fails *)
Lemma explicit_version_lemma dl rank fuel st al vro name v x just st' al' tr :
  WF2 w dl rank -> nodollar_paths w (s_env st) -> Inv w (s_env st) ->
  v <> [] -> is_expr v = false ->
  full fuel st al vro name {| li_version := Some v; li_expr := x |} true 0 just = FDone true st' al' tr ->
  exists p, find_pv w name v = Some p /\ p_version p = v /\ find_setup_product w (s_env st') name = Some p.
Proof.
  intros H Hnd HI Hne Hx E.
  destruct fuel as [|fuel]; [discriminate|]. cbn [setup_full] in E.
  destruct (step_success_resolved _ _ _ _ _ _ _ _ _ _ _ E) as [fd [why R]].
  destruct (step_trace_head (full fuel) st al vro name _ 0 just fd why R) as [tr0 T].
  rewrite E in T. cbn [trace_of] in T. subst tr.
  assert (V : fd_version fd = v).
  { apply (resolve_version vcmp vmatch rc (db_of cfg fw) (c_keep cfg) (alookup name al) flavors vro
             (mkRequest name (Some v) x) v fd why); auto.
    cbn [rq_version truthy]. destruct v; [contradiction|reflexivity]. }
  rewrite V in E.
  assert (S0 : setup w cfg (S fuel) st (Some v :: tr0) name true 0 just = RDone true st' [])
    by exact (full_done_setup (S fuel) st al vro name _ true 0 just true st' al' _ E).
  pose proof (setup_inv w cfg dl rank H (S fuel) st (Some v :: tr0) name true 0 just Hnd (depth_ok_top cfg)
                (fun n _ => HI n)) as I0.
  rewrite S0 in I0. destruct I0 as [_ [_ T0]].
  destruct (T0 eq_refl eq_refl eq_refl v tr0 eq_refl) as [p [Hf Hs]].
  exists p. split; [assumption|split; [|assumption]]. now destruct (find_pv_spec w name v p Hf).
Qed.

Variable dl : str -> ascii.
Variable rank : str -> nat.
Hypothesis H : WF2 w dl rank.

Definition recorded (e : amap str) (n : str) (q : product) : Prop := find_setup_product w e n = Some q.
Definition retains (e e' : amap str) : Prop := forall n q, recorded e n q -> recorded e' n q.

Lemma retains_refl e : retains e e.
Proof. intros n q R. exact R. Qed.
Lemma retains_trans e1 e2 e3 : retains e1 e2 -> retains e2 e3 -> retains e1 e3.
Proof. intros A B n q R. apply B. now apply A. Qed.

Lemma same_records e e' :
  (forall n, find_setup_product w e' n = find_setup_product w e n) -> retains e e' /\ retains e' e.
Proof. intro F. split; intros n q; unfold recorded; now rewrite F. Qed.

Lemma recorded_inj e n q q' : recorded e n q -> recorded e n q' -> q = q'.
Proof. unfold recorded. congruence. Qed.

Lemma recorded_known e n q : recorded e n q -> known w n.
Proof. intro R. apply (known_has_name w n q). exact (find_setup_product_spec w e n q R). Qed.

Lemma recorded_find_pv e n q : recorded e n q -> find_pv w n (p_version q) = Some q.
Proof.
  unfold recorded, find_setup_product. destruct (alookup (setup_var n) e) as [s|]; [|discriminate].
  destruct (recorded_version s) as [v|]; [|discriminate]. intro F.
  destruct (find_pv_spec w n v q F) as [_ <-]. exact F.
Qed.

Lemma find_same_setup_var e e' n :
  alookup (setup_var n) e' = alookup (setup_var n) e -> find_setup_product w e' n = find_setup_product w e n.
Proof. intro E. unfold find_setup_product. now rewrite E. Qed.

Lemma rebuild_lookup names e n q :
  In n names -> find_setup_product w e n = Some q ->
  alookup n (rebuild_from w cfg names e) = Some (found_of cfg q, None).
Proof.
  intros Hin F. induction names as [|n0 names IH]; [contradiction|]. cbn [rebuild_from].
  destruct (str_eq_dec n0 n) as [->|N].
  - rewrite F. cbn [alookup]. now rewrite str_eqb_refl.
  - assert (Hin' : In n names) by (destruct Hin; [contradiction|assumption]).
    assert (X : str_eqb n n0 = false) by (apply str_eqb_neq; congruence).
    destruct (find_setup_product w e n0); [cbn [alookup]; rewrite X|]; now apply IH.
Qed.

Lemma rebuild_lookup_inv names e n x :
  alookup n (rebuild_from w cfg names e) = Some x -> find_setup_product w e n <> None.
Proof.
  induction names as [|n0 names IH]; cbn [rebuild_from alookup]; [discriminate|].
  destruct (find_setup_product w e n0) as [q0|] eqn:E0; [|exact IH]. cbn [alookup].
  destruct (str_eqb_spec n n0) as [->|N]; [|exact IH]. intros _. rewrite E0. discriminate.
Qed.

Lemma set_vars_other st m p n : known w n -> known w m -> n <> m ->
  find_setup_product w (s_env (set_product_vars cfg st m p)) n = find_setup_product w (s_env st) n.
Proof.
  intros Kn Km Hne. pose proof (reserved_apart w dl rank H n m Kn Km Hne (setup_var n)) as A.
  apply find_same_setup_var. apply (set_vars_lookup cfg); apply A; auto.
Qed.

Lemma unset_vars_other st m n : known w n -> known w m -> n <> m ->
  find_setup_product w (s_env (unset_product_vars st m)) n = find_setup_product w (s_env st) n.
Proof.
  intros Kn Km Hne. pose proof (reserved_apart w dl rank H n m Kn Km Hne (setup_var n)) as A.
  apply find_same_setup_var. apply unset_vars_lookup; apply A; auto.
Qed.

Lemma unset_vars_self st m : find_setup_product w (s_env (unset_product_vars st m)) m = None.
Proof.
  apply find_none_when_unset. unfold unset_product_vars, unset_env. cbn [s_env].
  rewrite alookup_aremove_other by apply setup_extra_differ. apply alookup_aremove_same.
Qed.

Lemma set_vars_self st m p : find_pv w m (p_version p) = Some p -> recorded (s_env (set_product_vars cfg st m p)) m p.
Proof.
  intro F. destruct (find_pv_spec w m _ p F) as [[Hin Hn] _].
  destruct (wf_words w dl rank H p Hin) as [Wn [Wv Wf]]. rewrite Hn in Wn.
  unfold recorded, find_setup_product, set_product_vars, set_env. cbn [s_env]. rewrite alookup_aset_same.
  now rewrite (recorded_setup_string cfg m (p_version p) Wn Wv Wf).
Qed.

Lemma set_vars_records st m p :
  find_pv w m (p_version p) = Some p -> find_setup_product w (s_env st) m = None -> nodollar_paths w (s_env st) ->
  let st1 := set_product_vars cfg st m p in
  recorded (s_env st1) m p /\ retains (s_env st) (s_env st1) /\
  (forall k q, recorded (s_env st1) k q -> k = m \/ recorded (s_env st) k q) /\ nodollar_paths w (s_env st1).
Proof.
  intros F Hs Hnd st1. pose proof (known_has_name w m p (proj1 (find_pv_spec w m _ p F))) as Km.
  split; [now apply set_vars_self|]. split; [|split].
  - intros n q R. unfold recorded, st1. destruct (str_eq_dec n m) as [->|N]; [congruence|].
    now rewrite (set_vars_other st m p n (recorded_known _ n q R) Km N).
  - intros k q R. destruct (str_eq_dec k m) as [->|N]; [now left|right].
    unfold recorded. now rewrite <- (set_vars_other st m p k (recorded_known _ k q R) Km N).
  - exact (proj1 (proj2 (set_product_vars_ok w cfg dl (wf_base w dl rank H) (eq m) m p st eq_refl Hnd))).
Qed.

Lemma simple_records name p fwd a st :
  has_name w name p -> In a (p_actions p) -> (forall o m j, a <> ASetup o m j) -> nodollar_paths w (s_env st) ->
  exists st', exec_simple fwd a st = Ok st' /\ nodollar_paths w (s_env st') /\
    (forall n, find_setup_product w (s_env st') n = find_setup_product w (s_env st) n) /\
    (s_aliases st' = s_aliases st \/
     exists k v, a = AAlias k v /\ s_aliases st' = if fwd then aset k v (s_aliases st) else aremove k (s_aliases st)).
Proof.
  intros Hp Ha Hns Hnd.
  destruct (simple_rel w cfg dl rank H (eq name) name p fwd a st eq_refl Hp Ha Hns Hnd) as [st' [E [_ [Dn [Res Al]]]]].
  exists st'. split; [assumption|]. split; [assumption|]. split.
  - intro n. apply find_same_setup_var. apply Res. exists n. now left.
  - destruct Al as [[_ EA]|[k [v [Ea [_ EA]]]]]; [now left|right; now exists k, v].
Qed.

Lemma same_product_self q : In q w -> same_product q (Some q) = true.
Proof.
  intro Hin. destruct (wf_words w dl rank H q Hin) as [_ [[Wv _] _]].
  unfold same_product. rewrite str_eqb_refl. destruct (p_version q); [contradiction|reflexivity].
Qed.

(* Below the top level, when whatever the environment records for the product has the version the resolver
   returns, nothing is ever unset: a recorded product is left as it is, one that is not recorded has its
   variables set and its table processed. *)
Lemma step_full_below frec st al vro m li d just :
  (forall fd why q,
     resolve_call al vro m li (S d) = Ok (Some (fd, why)) ->
     recorded (s_env st) m q -> p_version q = fd_version fd) ->
  step_full frec st al vro m li true (S d) just =
  match resolve_call al vro m li (S d) with
  | Ok (Some (fd, why)) =>
      match find_pv w m (fd_version fd) with
      | None => FBad [Some (fd_version fd)]
      | Some p =>
          match find_setup_product w (s_env st) m with
          | Some _ => FDone true st al [Some (fd_version fd)]
          | None => with_trace [Some (fd_version fd)]
                      (run_full frec true (S d) just vro (p_actions p) (lines_of fw p)
                                (set_product_vars cfg st m p) (aset m (fd, why) al))
          end
      end
  | _ => FDone false st al [None]
  end.
Proof.
  intro V. rewrite step_full_forward.
  destruct (resolve_call al vro m li (S d)) as [[[fd why]|]|e]; try reflexivity.
  destruct (find_pv w m (fd_version fd)) as [p|] eqn:F; [|reflexivity].
  cbn [Nat.eqb negb]. rewrite andb_true_r. unfold install, unsetup_old.
  destruct (find_setup_product w (s_env st) m) as [q|] eqn:Hs; [|now rewrite with_trace_nil].
  pose proof (recorded_find_pv _ m q Hs) as Fq. rewrite (V fd why q eq_refl Hs), F in Fq. injection Fq as ->.
  now rewrite (same_product_self q (proj1 (find_setup_product_spec w _ m q Hs))).
Qed.

(* unsetup of a product without its dependencies: only its own variables are touched *)
Lemma run_just frec name p depth vro :
  has_name w name p ->
  forall acts, (forall a, In a acts -> In a (p_actions p)) ->
  forall infos st al, nodollar_paths w (s_env st) ->
    match run_full frec false depth true vro acts infos st al with
    | FDone _ st' al' _ => al' = al /\ nodollar_paths w (s_env st') /\
                           forall n, find_setup_product w (s_env st') n = find_setup_product w (s_env st) n
    | _ => True
    end.
Proof.
  intro Hp. induction acts as [|a acts IH]; intros Hsub infos st al Hnd.
  - cbn [run_actions_full]. auto.
  - assert (Hsub' : forall a0, In a0 acts -> In a0 (p_actions p)) by (intros; apply Hsub; now right).
    destruct (dep_dec a) as [[o [m [j ->]]]|Hns].
    + cbn [run_actions_full]. unfold cut_off. cbn [orb]. now apply IH.
    + rewrite run_full_simple by assumption.
      destruct (simple_records name p false a st Hp (Hsub a (or_introl eq_refl)) Hns Hnd)
        as [st1 [E [D [F _]]]].
      rewrite E. pose proof (IH Hsub' (tl infos) st1 al D) as R.
      destruct (run_full frec false depth true vro acts (tl infos) st1 al) as [ok st' al' tr|st' al' tr|tr|tr]; auto.
      destruct R as [A [D' F']]. split; [assumption|]. split; [assumption|]. intro n. now rewrite F', F.
Qed.

Lemma unsetup_old_just fuel st al vro name depth just :
  just || c_keep cfg = true -> nodollar_paths w (s_env st) ->
  match unsetup_old (full fuel) st al vro name depth just with
  | FDone _ st1 al1 _ => al1 = al /\ nodollar_paths w (s_env st1) /\ find_setup_product w (s_env st1) name = None /\
                         forall n, n <> name -> known w n ->
                           find_setup_product w (s_env st1) n = find_setup_product w (s_env st) n
  | _ => True
  end.
Proof.
  intros J Hnd. unfold unsetup_old. rewrite J. destruct (find_setup_product w (s_env st) name) as [sp|] eqn:Hs; [|auto].
  destruct fuel as [|fuel]; [exact I|]. cbn [setup_full]. unfold setup_full_step. rewrite Hs.
  pose proof (find_setup_product_spec w _ _ _ Hs) as Hsp.
  destruct (unset_product_vars_ok w dl (wf_base w dl rank H) (eq name) name st eq_refl Hnd) as [_ [D1 _]].
  pose proof (run_just (full fuel) name sp depth vro Hsp (p_actions sp) (fun a Ha => Ha)
                (lines_of fw sp) (unset_product_vars st name) al D1) as RJ.
  destruct (run_full (full fuel) false depth true vro (p_actions sp) (lines_of fw sp) (unset_product_vars st name) al)
    as [ok1 st1 al1 tr1|st1 al1 tr1|tr1|tr1]; auto.
  destruct RJ as [A [D F1]]. split; [assumption|]. split; [assumption|]. split.
  - rewrite F1. apply unset_vars_self.
  - intros n N K. rewrite F1. apply unset_vars_other; [assumption| |assumption].
    exact (known_has_name w name sp Hsp).
Qed.

End Full.
