(* Library lemmas for Model/Db.v: generic association lists, key equalities. *)
From Eupsv Require Import Base.Base Base.BaseLemmas Model.Db.

Section GMap.
  Context {K V : Type} (eqb : K -> K -> bool).
  Hypothesis eqb_eq : forall a b, eqb a b = true <-> a = b.

  Lemma geqb_refl (a : K) : eqb a a = true.
  Proof using eqb_eq. apply eqb_eq. reflexivity. Qed.

  Lemma geqb_neq (a b : K) : a <> b -> eqb a b = false.
  Proof using eqb_eq.
    intro H. destruct (eqb a b) eqn:E; [|reflexivity]. apply eqb_eq in E. contradiction.
  Qed.

  Lemma geqb_dec (a b : K) : {a = b} + {a <> b}.
  Proof using eqb_eq.
    destruct (eqb a b) eqn:E.
    - left. apply eqb_eq. exact E.
    - right. intro H. apply eqb_eq in H. congruence.
  Qed.

  Lemma glookup_gset k k' (v : V) m :
    glookup eqb k' (gset eqb k v m) = if eqb k' k then Some v else glookup eqb k' m.
  Proof using eqb_eq.
    induction m as [|[k2 v2] m IH]; cbn; [reflexivity|].
    destruct (eqb k k2) eqn:E; cbn.
    - apply eqb_eq in E. subst k2. destruct (eqb k' k); reflexivity.
    - rewrite IH. destruct (eqb k' k2) eqn:E2; [|reflexivity].
      destruct (eqb k' k) eqn:E3; [|reflexivity].
      apply eqb_eq in E2, E3. subst. rewrite geqb_refl in E. discriminate.
  Qed.

  Lemma glookup_gremove k k' (m : list (K * V)) :
    glookup eqb k' (gremove eqb k m) = if eqb k' k then None else glookup eqb k' m.
  Proof using eqb_eq.
    induction m as [|[k2 v2] m IH]; cbn.
    - destruct (eqb k' k); reflexivity.
    - destruct (eqb k k2) eqn:E.
      + apply eqb_eq in E. subst k2. rewrite IH. destruct (eqb k' k); reflexivity.
      + cbn. destruct (eqb k' k2) eqn:E2.
        * apply eqb_eq in E2. subst k2.
          destruct (eqb k' k) eqn:E3; [|reflexivity].
          apply eqb_eq in E3. subst. rewrite geqb_refl in E. discriminate.
        * exact IH.
  Qed.

  Lemma glookup_gfilterk (p : K -> bool) k (m : list (K * V)) :
    glookup eqb k (gfilterk p m) = if p k then glookup eqb k m else None.
  Proof using eqb_eq.
    unfold gfilterk. induction m as [|[k2 v2] m IH]; cbn.
    - destruct (p k); reflexivity.
    - destruct (p k2) eqn:P2; cbn.
      + destruct (eqb k k2) eqn:E.
        * apply eqb_eq in E. subst. rewrite P2. reflexivity.
        * exact IH.
      + destruct (eqb k k2) eqn:E.
        * apply eqb_eq in E. subst. rewrite P2 in *. rewrite IH. reflexivity.
        * exact IH.
  Qed.

  Lemma glookup_In k (v : V) m : glookup eqb k m = Some v -> In (k, v) m.
  Proof using eqb_eq.
    induction m as [|[k2 v2] m IH]; cbn; [discriminate|].
    destruct (eqb k k2) eqn:E.
    - apply eqb_eq in E. subst. intro H. inversion H. auto.
    - auto.
  Qed.

  Lemma In_glookup_some k (v : V) m : In (k, v) m -> exists v', glookup eqb k m = Some v'.
  Proof using eqb_eq.
    induction m as [|[k2 v2] m IH]; cbn; [tauto|].
    intros [H|H]; [inversion H; subst; rewrite geqb_refl; eauto|].
    destruct (eqb k k2); eauto.
  Qed.

  Lemma glookup_functional (f : K -> option V) (m : list (K * V)) k :
    (forall k' v, In (k', v) m -> f k' = Some v) ->
    glookup eqb k m = if existsb (fun kv => eqb k (fst kv)) m then f k else None.
  Proof using eqb_eq.
    induction m as [|[k2 v2] m IH]; cbn; intro H; [reflexivity|].
    destruct (eqb k k2) eqn:E; cbn.
    - apply eqb_eq in E. subst. symmetry. apply H. auto.
    - apply IH. intros. apply H. auto.
  Qed.
End GMap.

Lemma andb4_true (a b c d : bool) : a && b && c && d = true -> a = true /\ b = true /\ c = true /\ d = true.
Proof. destruct a, b, c; cbn; auto; discriminate. Qed.

Lemma key_eqb_eq (a b : key) : key_eqb a b = true <-> a = b.
Proof.
  destruct a as [a1 a2], b as [b1 b2]. unfold key_eqb. cbn.
  rewrite andb_true_iff, !str_eqb_eq. split; [intros [-> ->]; reflexivity|intros [= -> ->]; auto].
Qed.

Lemma dkey_eqb_eq (a b : dkey) : dkey_eqb a b = true <-> a = b.
Proof.
  destruct a as [[[a1 a2] a3] a4], b as [[[b1 b2] b3] b4]. unfold dkey_eqb. split.
  - intro H. destruct (andb4_true _ _ _ _ H) as [H1 [H2 [H3 H4]]].
    apply str_eqb_eq in H1, H2, H3, H4. subst. reflexivity.
  - intros [= -> -> -> ->]. rewrite !str_eqb_refl. reflexivity.
Qed.

Lemma vf_eqb_eq (a b : str * str) : vf_eqb a b = true <-> a = b.
Proof. exact (key_eqb_eq a b). Qed.

Lemma vrec_eqb_eq (a b : vrec) : vrec_eqb a b = true <-> a = b.
Proof. exact (key_eqb_eq a b). Qed.

Lemma key_eqb_refl k : key_eqb k k = true.
Proof. apply key_eqb_eq. reflexivity. Qed.

Lemma dkey_eqb_refl k : dkey_eqb k k = true.
Proof. apply dkey_eqb_eq. reflexivity. Qed.

Lemma opt_str_eqb_true o v : opt_str_eqb o v = true <-> o = Some v.
Proof.
  destruct o as [x|]; cbn.
  - rewrite str_eqb_eq. split; [intros ->; reflexivity|intro H; inversion H; reflexivity].
  - split; discriminate.
Qed.

Lemma is_some_true {A} (o : option A) : is_some o = true <-> o <> None.
Proof. destruct o; cbn; split; congruence. Qed.

Lemma is_some_false {A} (o : option A) : is_some o = false <-> o = None.
Proof. destruct o; cbn; split; congruence. Qed.

Lemma alookup_glookup {V} k (m : amap V) : alookup k m = glookup str_eqb k m.
Proof. induction m as [|[k' v] m IH]; cbn; [reflexivity|]. destruct (str_eqb k k'); auto. Qed.

Lemma alookup_aset {V} k k' (v : V) m : alookup k' (aset k v m) = if str_eqb k' k then Some v else alookup k' m.
Proof.
  destruct (str_eqb k' k) eqn:E.
  - apply str_eqb_eq in E. subst. apply alookup_aset_same.
  - apply alookup_aset_other. apply str_eqb_neq. exact E.
Qed.

Lemma alookup_aremove {V} k k' (m : amap V) : alookup k' (aremove k m) = if str_eqb k' k then None else alookup k' m.
Proof.
  destruct (str_eqb k' k) eqn:E.
  - apply str_eqb_eq in E. subst. apply alookup_aremove_same.
  - apply alookup_aremove_other. apply str_eqb_neq. exact E.
Qed.

Lemma In_alookup_some {V} k (v : V) m : In (k, v) m -> exists v', alookup k m = Some v'.
Proof. rewrite alookup_glookup. apply In_glookup_some. exact str_eqb_eq. Qed.

Lemma amem_true {V} k (m : amap V) : amem k m = true <-> alookup k m <> None.
Proof. unfold amem. destruct (alookup k m); split; congruence. Qed.

Lemma is_nil_true {A} (l : list A) : is_nil l = true <-> l = [].
Proof. destruct l; cbn; split; congruence. Qed.

Lemma aremove_nil_lookup {V} k (m : amap V) : aremove k m = [] -> forall k', k' <> k -> alookup k' m = None.
Proof.
  intros H k' N. rewrite <- (alookup_aremove_other k k' m N). rewrite H. reflexivity.
Qed.

Lemma existsb_false_forall {A} (p : A -> bool) l : existsb p l = false <-> forall x, In x l -> p x = false.
Proof.
  split.
  - intros H x Hx. destruct (p x) eqn:E; [|reflexivity].
    assert (existsb p l = true) by (apply existsb_exists; eauto). congruence.
  - intro H. destruct (existsb p l) eqn:E; [|reflexivity].
    apply existsb_exists in E. destruct E as [x [Hx Px]]. rewrite (H x Hx) in Px. discriminate.
Qed.

Lemma forallb_members {A} (p : A -> bool) l l' : (forall z, In z l <-> In z l') -> forallb p l = forallb p l'.
Proof. intro H. apply eq_true_iff_eq. rewrite !forallb_forall. split; intros F z Hz; apply F, H, Hz. Qed.

Lemma is_nil_ext {A} (l l' : list A) : (forall x, In x l <-> In x l') -> is_nil l = is_nil l'.
Proof.
  intro H. destruct l as [|x r], l' as [|y r']; cbn; auto.
  - exfalso. apply (proj2 (H y)). left. reflexivity.
  - exfalso. apply (proj1 (H x)). left. reflexivity.
Qed.
