(* The consistency invariant of the environment is preserved by setup and unsetup with several stacks (C01, C02).
   WF2: the hypotheses on the world, a declaration being identified by name, version and stack; clause n e: what e
   says about the name n - the declaration found in the stack SETUP_N records is present, every other one of the
   name, of whatever stack, is absent; Inv: all clauses, lowinv r: those of rank below r.  fn_inv is what the
   induction carries (its third part: a forward call that succeeds records the decision taken, version and stack);
   same_for / frame_same: a call leaves alone the clauses of the names it does not touch (by the frame theorem of
   Proofs/SetupMSFrame.v), progress / during: the table of one declaration half executed.
   The Arguments lines below make the world and the delimiters implicit in the fields of SetupMSFrame.WF for every
   file that imports this one. *)
From Eupsv Require Import Base.Base Base.BaseLemmas Model.PathAlg Proofs.PathAlg Model.Setup Model.SetupMS Proofs.SetupMSFrame.
From Coq Require Import Lia.

Arguments wf_path {w dl} _.
Arguments wf_set {w dl} _.
Arguments wf_nounset {w dl} _.
Arguments wf_path_not_set {w dl} _.
Arguments wf_path_not_reserved {w dl} _.
Arguments wf_set_not_reserved {w dl} _.

Lemma declared_dec (l : mworld) n :
  (exists p, In p l /\ mp_name p = n) \/ (forall p, ~ (In p l /\ mp_name p = n)).
Proof.
  induction l as [|q l IH].
  - right. intros p [[] _].
  - destruct (str_eq_dec (mp_name q) n) as [E|N].
    + left. exists q. split; [now left|assumption].
    + destruct IH as [[p [Hin Hn]]|Hno].
      * left. exists p. split; [now right|assumption].
      * right. intros p [[<-|Hin] Hn]; [now apply N|]. apply (Hno p). split; assumption.
Qed.

Section Inv.
Variable w : mworld.
Variable cfg : config.
Variable dl : str -> ascii.
Variable rank : str -> nat.            (* a witness that the dependency graph over names is acyclic *)

Notation has_name := (has_name w).
Notation own_var := (own_var w).
Notation own_elem := (own_elem w).
Notation path_var := (path_var w).
Notation set_var := (set_var w).
Notation touches := (touches w).
Notation nodollar_paths := (nodollar_paths w).
Notation env_frame := (env_frame w dl).
Notation levels := (levels cfg).
Notation depth_ok := (depth_ok cfg).

Definition word (x : str) : Prop := x <> [] /\ mem_ascii c_space x = false.

(* a stack root that utils.decodePath gives back from utils.encodePath (it does not for a root with the
   characters minus plus in front of a blank: the blank becomes the marker minus plus minus, and the decoder
   reads the marker one character too early) *)
Definition root_ok (r : str) : Prop := r <> [] /\ decode_path (encode_path r) = r.

(* the names the mworld speaks about: names of declared products and targets of setupRequired /
   setupOptional lines.  own_var n k holds of ANY string n for its three reserved variables, and two
   different strings can have the same upper-case form (SETUP_A is owned by both a and A), so apartness
   of variables can only be asked of names the mworld knows. *)
Definition known (n : str) : Prop :=
  exists p, In p w /\ (mp_name p = n \/ exists o j, In (ASetup o n j) (mp_actions p)).

Record WF2 : Prop := {
  wf_base : WF w dl;
  wf_rank : forall n m, dep_edge w n m -> rank m < rank n;
  wf_elem_apart : forall n m var v, n <> m -> own_elem n var v -> ~ own_elem m var v;
  wf_var_apart : forall n m k, known n -> known m -> n <> m -> own_var n k -> ~ own_var m k;
  wf_versions_path : forall p q ap var v d ap' d', In p w -> In q w -> mp_name p = mp_name q -> p <> q ->
      In (APath ap var v d) (mp_actions p) -> ~ In (APath ap' var v d') (mp_actions q);
  wf_versions_set : forall p q k v, In p w -> In q w -> mp_name p = mp_name q -> p <> q ->
      In (ASet k v) (mp_actions p) -> ~ In (ASet k v) (mp_actions q);
  wf_set_once : forall p k v v', In p w -> In (ASet k v) (mp_actions p) -> In (ASet k v') (mp_actions p) -> v = v';
  (* a declaration is identified by its name, its version and its stack *)
  wf_keys : forall p q, In p w -> In q w -> mp_name p = mp_name q -> mp_version p = mp_version q ->
            mp_root p = mp_root q -> p = q;
  wf_words : forall p, In p w -> word (mp_name p) /\ word (mp_version p) /\ mp_version p <> lit "-f" /\
                                 word (mp_flavor p) /\ root_ok (mp_root p)
}.

Definition present (p : mproduct) (e : amap str) : Prop :=
  (forall ap var v d, In (APath ap var v d) (mp_actions p) -> In v (elems d (oldv var e))) /\
  (forall k v, In (ASet k v) (mp_actions p) -> alookup k e = Some v).

Definition absent (p : mproduct) (e : amap str) : Prop :=
  (forall ap var v d, In (APath ap var v d) (mp_actions p) -> ~ In v (elems d (oldv var e))) /\
  (forall k v, In (ASet k v) (mp_actions p) -> alookup k e <> Some v).

(* what the environment says about one product name: the recorded version OF THE RECORDED STACK *)
Definition clause (name : str) (e : amap str) : Prop :=
  match mfind_setup_product w (c_flavor cfg) e name with
  | Some p => alookup (dir_var name) e = Some (mp_dir p) /\ present p e /\
              forall q, has_name name q -> q <> p -> absent q e
  | None => forall q, has_name name q -> absent q e
  end.

Definition Inv (e : amap str) : Prop := forall name, clause name e.
Definition lowinv (r : nat) (e : amap str) : Prop := forall n, rank n < r -> clause n e.

Lemma known_has_name n p : has_name n p -> known n.
Proof. intros [Hin Hn]. exists p. split; [assumption|now left]. Qed.

Lemma known_dep n m : dep_edge w n m -> known m.
Proof. intros [p [o [j [[Hin _] Ha]]]]. exists p. split; [assumption|right; now exists o, j]. Qed.

Lemma touches_known b n k : known n -> touches b n k -> known k.
Proof.
  intros Kn Ht. induction Ht as [b n|b n m k Hp He Ht IH]; [assumption|].
  apply IH. now apply (known_dep n m).
Qed.

Lemma touches_rank (H : WF2) b n k : touches b n k -> k = n \/ rank k < rank n.
Proof.
  induction 1 as [b n|b n m k Hp He Ht IH]; [now left|].
  right. pose proof (wf_rank H n m He) as Hlt. destruct IH as [->|IH]; [exact Hlt|exact (Nat.lt_trans _ _ _ IH Hlt)].
Qed.

(* the two environments agree on everything the clause of the name m reads: whether an element that a table of
   m contributes is in its path variable, the variables the tables of m set, the reserved variables of m *)
Definition same_for (m : str) (e e' : amap str) : Prop :=
  (forall p ap var v d, has_name m p -> In (APath ap var v d) (mp_actions p) ->
     (In v (elems d (oldv var e')) <-> In v (elems d (oldv var e)))) /\
  (forall p k v, has_name m p -> In (ASet k v) (mp_actions p) -> alookup k e' = alookup k e) /\
  (forall k, res_of m k -> alookup k e' = alookup k e).

Lemma frame_same (H : WF2) (N : str -> Prop) e e' m :
  env_frame N e e' -> (forall n, N n -> n <> m) -> (forall n, N n -> known n) -> known m -> same_for m e e'.
Proof.
  intros [V P] HN HK Km.
  assert (Var : forall k, own_var m k -> ~ path_var k -> alookup k e' = alookup k e).
  { intros k Hown Hnp. apply V; [assumption|].
    intros n Hn Hon. exact (wf_var_apart H n m k (HK n Hn) Km (HN n Hn) Hon Hown). }
  split; [|split].
  - intros p ap var v d [Hin Hnm] Ha.
    destruct (wf_path (wf_base H) p ap var v d Hin Ha) as [_ [_ Hd]]. subst d.
    apply mask_In_iff. apply P.
    + exists p, ap, v, (dl var). split; assumption.
    + intros n x Hn Hown. apply str_eqb_neq. intros ->.
      apply (wf_elem_apart H n m var v (HN n Hn) Hown).
      exists p, ap, (dl var). split; [split|]; assumption.
  - intros p k v Hp Ha. apply (Var k (own_set w m p k v Hp Ha)). intro Pk.
    apply (wf_path_not_set (wf_base H) k Pk). exists p, v. split; [apply Hp|exact Ha].
  - intros k R. exact (Var k (res_own w m k R) (res_not_path w dl (wf_base H) m k R)).
Qed.

Lemma same_present m e e' p : same_for m e e' -> has_name m p -> present p e -> present p e'.
Proof.
  intros [SP [SS _]] Hp [A B]. split.
  - intros ap var v d Ha. apply (SP p ap var v d Hp Ha). now apply (A ap var v d).
  - intros k v Ha. rewrite (SS p k v Hp Ha). now apply B.
Qed.

Lemma same_absent m e e' p : same_for m e e' -> has_name m p -> absent p e -> absent p e'.
Proof.
  intros [SP [SS _]] Hp [A B]. split.
  - intros ap var v d Ha Hin. apply (A ap var v d Ha). now apply (SP p ap var v d Hp Ha).
  - intros k v Ha. rewrite (SS p k v Hp Ha). exact (B k v Ha).
Qed.

Lemma same_clause m e e' : same_for m e e' -> clause m e -> clause m e'.
Proof.
  intros S. pose proof (proj2 (proj2 S)) as SR. unfold clause, mfind_setup_product. rewrite (SR _ (res_setup m)).
  fold (mfind_setup_product w (c_flavor cfg) e m).
  destruct (mfind_setup_product w (c_flavor cfg) e m) as [p|] eqn:Hf.
  - intros [D [P A]]. pose proof (mfind_setup_product_spec w cfg e m p Hf) as Hp. split; [|split].
    + now rewrite (SR _ (res_dir m)).
    + now apply (same_present m e e' p S Hp).
    + intros q Hq Hne. apply (same_absent m e e' q S Hq). now apply A.
  - intros A q Hq. apply (same_absent m e e' q S Hq). now apply A.
Qed.

Lemma frame_clause (H : WF2) (N : str -> Prop) e e' m :
  env_frame N e e' -> (forall n, N n -> n <> m) -> (forall n, N n -> known n) -> clause m e -> clause m e'.
Proof.
  intros F HN HK. destruct (declared_dec w m) as [[p0 Hp0]|Hno].
  - apply same_clause. exact (frame_same H N e e' m F HN HK (known_has_name m p0 Hp0)).
  - (* no product has this name: its clause says nothing *)
    intros _. unfold clause. destruct (mfind_setup_product w (c_flavor cfg) e' m) as [p|] eqn:Hf.
    + exfalso. apply (Hno p). now apply (mfind_setup_product_spec w cfg e' m p).
    + intros q Hq. exfalso. now apply (Hno q).
Qed.

Lemma clause_by_rank (H : WF2) b x e e' n :
  known x -> env_frame (touches b x) e e' -> clause n e ->
  (n = x \/ rank n < rank x -> clause n e') -> clause n e'.
Proof.
  intros Kx F C Hlow. destruct (str_eq_dec n x) as [E|Nn]; [now apply Hlow; left|].
  destruct (Nat.lt_ge_cases (rank n) (rank x)) as [Hlt|Hge]; [now apply Hlow; right|].
  apply (frame_clause H _ e e' n F); [|intros k Hk; now apply (touches_known b x k)|exact C].
  intros k Hk ->. destruct (touches_rank H b x n Hk) as [E|E]; [now apply Nn|exact (Nat.lt_irrefl _ (Nat.lt_le_trans _ _ _ E Hge))].
Qed.

Lemma path_step_facts (H : WF2) name p ap fwd var v d e :
  has_name name p -> In (APath ap var v d) (mp_actions p) -> nodollar_paths e ->
  exists e', env_prepend ap fwd var v d e = Ok (Some e') /\ env_frame (eq name) e e' /\ nodollar_paths e' /\
    (forall k, k <> var -> alookup k e' = alookup k e) /\
    (forall x, In x (elems d (oldv var e')) <->
               if fwd then x = v \/ In x (elems d (oldv var e)) else In x (elems d (oldv var e)) /\ x <> v).
Proof.
  intros Hp Ha Hnd.
  destruct (frame_path_step w dl (wf_base H) (eq name) name p ap fwd var v d e eq_refl Hp Ha Hnd)
    as [e' [E1 [E2 [E3 [E4 E5]]]]].
  exists e'. repeat (split; [assumption|]).
  intro x. rewrite E5. destruct fwd; [apply result_fwd_In|apply result_rev_In].
Qed.

Definition progress (fwd : bool) (p : mproduct) (todo : list action) (e : amap str) : Prop :=
  (forall ap var v d, In (APath ap var v d) (mp_actions p) ->
     In (APath ap var v d) todo \/
     (if fwd then In v (elems d (oldv var e)) else ~ In v (elems d (oldv var e)))) /\
  (forall k v, In (ASet k v) (mp_actions p) ->
     In (ASet k v) todo \/ (if fwd then alookup k e = Some v else alookup k e <> Some v)).

(* what holds about the product name while the table of p is being processed *)
Definition during (fwd : bool) (name : str) (p : mproduct) (e : amap str) : Prop :=
  (if fwd then alookup (setup_var name) e = Some (ms_setup_string p) /\
               alookup (dir_var name) e = Some (mp_dir p)
   else alookup (setup_var name) e = None) /\
  (forall q, has_name name q -> q <> p -> absent q e) /\
  lowinv (rank name) e /\ nodollar_paths e.

Lemma progress_done fwd p e : progress fwd p [] e -> if fwd then present p e else absent p e.
Proof.
  intros [PP PS]. destruct fwd; split.
  1,3: intros ap var x d Ha; destruct (PP ap var x d Ha) as [[]|Hs]; exact Hs.
  all: intros k x Ha; destruct (PS k x Ha) as [[]|Hs]; exact Hs.
Qed.

Lemma progress_tail fwd p a todo e :
  (forall ap var v d, a <> APath ap var v d) -> (forall k v, a <> ASet k v) ->
  progress fwd p (a :: todo) e -> progress fwd p todo e.
Proof.
  intros N1 N2 [PP PS]. split.
  - intros ap var v d Ha. destruct (PP ap var v d Ha) as [[Eq|Ht]|Hs]; auto. exfalso. now apply (N1 ap var v d).
  - intros k v Ha. destruct (PS k v Ha) as [[Eq|Ht]|Hs]; auto. exfalso. now apply (N2 k v).
Qed.

Lemma if_iff (b : bool) (P Q : Prop) : (P <-> Q) -> (if b then Q else ~ Q) -> if b then P else ~ P.
Proof. intros [PQ QP] X. destruct b; [now apply QP|intro Y; apply X; now apply PQ]. Qed.

Lemma same_progress fwd name p todo e e' :
  same_for name e e' -> has_name name p -> progress fwd p todo e -> progress fwd p todo e'.
Proof.
  intros [SP [SS _]] Hp [PP PS]. split.
  - intros ap var v d Ha. destruct (PP ap var v d Ha) as [Ht|Hs]; [now left|right].
    exact (if_iff fwd _ _ (SP p ap var v d Hp Ha) Hs).
  - intros k v Ha. destruct (PS k v Ha) as [Ht|Hs]; [now left|right]. now rewrite (SS p k v Hp Ha).
Qed.

Lemma during_step fwd name p e e' :
  (forall k, res_of name k -> alookup k e' = alookup k e) ->
  (forall q, has_name name q -> q <> p -> absent q e -> absent q e') ->
  lowinv (rank name) e' -> nodollar_paths e' -> during fwd name p e -> during fwd name p e'.
Proof.
  intros SR A' L' D' [DV [DA _]]. split; [|split; [|split; assumption]].
  - rewrite (SR _ (res_setup name)). destruct fwd; [rewrite (SR _ (res_dir name))|]; exact DV.
  - intros q Hq Hne. exact (A' q Hq Hne (DA q Hq Hne)).
Qed.

Lemma lowinv_frame_self (H : WF2) name e e' :
  known name -> env_frame (eq name) e e' -> lowinv (rank name) e -> lowinv (rank name) e'.
Proof.
  intros Kn F L n Hn. apply (frame_clause H (eq name) e e' n F); [| |now apply L].
  - intros x <- ->. exact (Nat.lt_irrefl _ Hn).
  - now intros x <-.
Qed.

Lemma dl_of (H : WF2) p ap var v d : In p w -> In (APath ap var v d) (mp_actions p) -> d = dl var.
Proof. intros Hin Ha. now destruct (wf_path (wf_base H) p ap var v d Hin Ha) as [_ [_ E]]. Qed.

Lemma own_path_step (H : WF2) fwd name p todo ap var v d e :
  has_name name p -> In (APath ap var v d) (mp_actions p) ->
  progress fwd p (APath ap var v d :: todo) e -> during fwd name p e ->
  exists e', env_prepend ap fwd var v d e = Ok (Some e') /\ progress fwd p todo e' /\ during fwd name p e'.
Proof.
  intros Hp Ha [PP PS] DU. pose proof DU as [_ [_ [DL DN]]].
  destruct (path_step_facts H name p ap fwd var v d e Hp Ha DN) as [e' [E1 [E2 [E3 [E4 E5]]]]].
  exists e'. split; [assumption|].
  assert (Hin : In p w) by apply Hp.
  assert (Hpv : path_var var) by (exists p, ap, v, d; split; assumption).
  assert (Self : if fwd then In v (elems d (oldv var e')) else ~ In v (elems d (oldv var e'))).
  { destruct fwd; [apply E5; now left|intro Hx; apply E5 in Hx; now destruct Hx]. }
  (* an entry of any table is this element of this variable, or its membership is unchanged *)
  assert (Oth : forall q ap2 var2 v2 d2, In q w -> In (APath ap2 var2 v2 d2) (mp_actions q) ->
            (var2 = var /\ v2 = v /\ d2 = d) \/ (In v2 (elems d2 (oldv var2 e')) <-> In v2 (elems d2 (oldv var2 e)))).
  { intros q ap2 var2 v2 d2 Hq Ha2. destruct (str_eq_dec var2 var) as [->|Nv]; [|right; unfold oldv; now rewrite E4].
    assert (d2 = d) by (rewrite (dl_of H q ap2 var v2 d2 Hq Ha2); symmetry; exact (dl_of H p ap var v d Hin Ha)). subst d2.
    destruct (str_eq_dec v2 v) as [->|Nx]; [left; now repeat split|right]. rewrite E5.
    destruct fwd; [split; [intros [X|X]; [contradiction|exact X]|now right]|split; [now intros [X _]|now split]]. }
  assert (Sets : forall q k2 v2, In q w -> In (ASet k2 v2) (mp_actions q) -> alookup k2 e' = alookup k2 e).
  { intros q k2 v2 Hq Ha2. apply E4. intros ->. apply (wf_path_not_set (wf_base H) var Hpv). exists q, v2. split; assumption. }
  split; [split|apply (during_step fwd name p e e'); [| | |exact E3|exact DU]].
  - intros ap2 var2 v2 d2 Ha2. destruct (PP ap2 var2 v2 d2 Ha2) as [[Eq|Ht]|Hs]; [|now left|right].
    { injection Eq as <- <- <- <-. now right. }
    destruct (Oth p ap2 var2 v2 d2 Hin Ha2) as [[-> [-> ->]]|I]; [exact Self|exact (if_iff fwd _ _ I Hs)].
  - intros k2 v2 Ha2. destruct (PS k2 v2 Ha2) as [[Eq|Ht]|Hs]; [discriminate|now left|right].
    now rewrite (Sets p k2 v2 Hin Ha2).
  - intros k R. apply E4. intros ->. exact (wf_path_not_reserved (wf_base H) var Hpv (res_reserved name var R)).
  - (* the other versions stay absent: none of them has this element *)
    intros q Hq Hne [QA QS]. split.
    + intros ap2 var2 v2 d2 Ha2 Hx. apply (QA ap2 var2 v2 d2 Ha2).
      destruct (Oth q ap2 var2 v2 d2 (proj1 Hq) Ha2) as [[-> [-> ->]]|I]; [|now apply I].
      now elim (wf_versions_path H p q ap var v d ap2 d Hin (proj1 Hq) (eq_trans (proj2 Hp) (eq_sym (proj2 Hq)))
                  (fun X => Hne (eq_sym X)) Ha Ha2).
    + intros k2 v2 Ha2. rewrite (Sets q k2 v2 (proj1 Hq) Ha2). now apply (QS k2 v2).
  - exact (lowinv_frame_self H name e e' (known_has_name name p Hp) E2 DL).
Qed.

Lemma own_set_step (H : WF2) fwd name p todo k v e :
  has_name name p -> In (ASet k v) (mp_actions p) ->
  progress fwd p (ASet k v :: todo) e -> during fwd name p e ->
  let e' := if fwd then aset k v e else aremove k e in
  env_set fwd k v e = Ok (Some e') /\ progress fwd p todo e' /\ during fwd name p e'.
Proof.
  intros Hp Ha [PP PS] DU e'. pose proof DU as [_ [_ [DL DN]]].
  destruct (frame_set_step w dl (wf_base H) (eq name) name p fwd k v e eq_refl Hp Ha DN) as [E1 [E2 E3]].
  fold e' in E1, E2, E3. split; [assumption|].
  assert (Hin : In p w) by apply Hp.
  assert (Hsv : set_var k) by (exists p, v; split; assumption).
  assert (Hold : forall q ap2 var2 v2 d2, In q w -> In (APath ap2 var2 v2 d2) (mp_actions q) -> oldv var2 e' = oldv var2 e).
  { intros q ap2 var2 v2 d2 Hq Ha2.
    assert (k <> var2) by (intros ->; apply (wf_path_not_set (wf_base H) var2); [exists q, ap2, v2, d2; split; assumption|assumption]).
    subst e'. destruct fwd; [now apply oldv_other|now apply oldv_other_remove]. }
  assert (Hother : forall k2, k2 <> k -> alookup k2 e' = alookup k2 e).
  { intros k2 N. subst e'. destruct fwd; [now apply alookup_aset_other|now apply alookup_aremove_other]. }
  assert (Hself : alookup k e' = if fwd then Some v else None).
  { subst e'. destruct fwd; [apply alookup_aset_same|apply alookup_aremove_same]. }
  split; [split|apply (during_step fwd name p e e'); [| | |exact E3|exact DU]].
  - intros ap2 var2 v2 d2 Ha2. destruct (PP ap2 var2 v2 d2 Ha2) as [[Eq|Ht]|Hs]; [discriminate|now left|right].
    now rewrite (Hold p ap2 var2 v2 d2 Hin Ha2).
  - intros k2 v2 Ha2. destruct (PS k2 v2 Ha2) as [[Eq|Ht]|Hs]; [|now left|right].
    { injection Eq as <- <-. right. rewrite Hself. destruct fwd; [reflexivity|discriminate]. }
    destruct (str_eq_dec k2 k) as [->|N]; [|now rewrite Hother].
    rewrite Hself. destruct fwd; [|discriminate]. f_equal. now apply (wf_set_once H p k v v2 Hin).
  - intros r R. apply Hother. intros ->. exact (wf_set_not_reserved (wf_base H) k Hsv (res_reserved name k R)).
  - (* the other versions stay absent: none of them sets this value *)
    intros q Hq Hne [QA QS]. split.
    + intros ap2 var2 v2 d2 Ha2. rewrite (Hold q ap2 var2 v2 d2 (proj1 Hq) Ha2). now apply (QA ap2 var2 v2 d2).
    + intros k2 v2 Ha2. destruct (str_eq_dec k2 k) as [->|N]; [|rewrite Hother by assumption; now apply (QS k2 v2)].
      rewrite Hself. destruct fwd; [|discriminate]. intro Eq. injection Eq as ->.
      exact (wf_versions_set H p q k v2 Hin (proj1 Hq) (eq_trans (proj2 Hp) (eq_sym (proj2 Hq)))
               (fun X => Hne (eq_sym X)) Ha Ha2).
  - exact (lowinv_frame_self H name e e' (known_has_name name p Hp) E2 DL).
Qed.

Definition fn_inv (rec : msetup_fn) : Prop :=
  forall st ds name fwd depth just,
    nodollar_paths (s_env st) -> depth_ok depth -> lowinv (S (rank name)) (s_env st) ->
    match rec st ds name fwd depth just with
    | MDone ok st' _ =>
        lowinv (S (rank name)) (s_env st') /\
        (fwd = false -> mfind_setup_product w (c_flavor cfg) (s_env st) name <> None ->
         alookup (setup_var name) (s_env st') = None) /\
        (* a forward call that succeeds leaves the product it decided on recorded - version and stack - or, below
           the top level, found the product already set up (same version or same directory, whatever the stack
           that SETUP_NAME records) and changed nothing *)
        (fwd = true -> ok = true -> forall v ds1, ds = Some v :: ds1 ->
         exists p, find_pvr w name v = Some p /\
           ((mfind_setup_product w (c_flavor cfg) (s_env st') name = Some p /\
             alookup (setup_var name) (s_env st') = Some (ms_setup_string p)) \/
            (depth <> 0 /\ st' = st /\
             msame_product p (mfind_setup_product w (c_flavor cfg) (s_env st) name) = true)))
    | _ => True
    end.

Lemma nested_call (H : WF2) (rec : msetup_fn) fwd name p todo m depth j st ds :
  fn_framed w cfg dl rec -> fn_inv rec -> has_name name p -> dep_edge w name m -> depth_ok (S depth) ->
  progress fwd p todo (s_env st) -> during fwd name p (s_env st) ->
  match rec st ds m fwd (S depth) j with
  | MDone _ st' _ => progress fwd p todo (s_env st') /\ during fwd name p (s_env st')
  | _ => True
  end.
Proof.
  intros Hok Hinv Hp He Hd PR DU.
  pose proof DU as [_ [_ [DL DN]]].
  pose proof (wf_rank H name m He) as Hr. pose proof (known_dep name m He) as Km.
  pose proof (Hok st ds m fwd (S depth) j DN Hd) as G.
  assert (Hlow : lowinv (S (rank m)) (s_env st)) by (intros n Hn; apply DL; exact (Nat.lt_le_trans _ _ _ Hn Hr)).
  pose proof (Hinv st ds m fwd (S depth) j DN Hd Hlow) as I.
  destruct (rec st ds m fwd (S depth) j) as [ok st' ds'|st' ds'| |]; try exact I.
  destruct G as [[F _] D']. destruct I as [L' _].
  (* the call stays below [name] *)
  assert (S : same_for name (s_env st) (s_env st')).
  { apply (frame_same H _ _ _ name F); [| |exact (known_has_name name p Hp)].
    - intros n Ht ->. destruct (touches_rank H _ _ _ Ht) as [E|E]; [rewrite E in Hr|apply (Nat.lt_trans _ _ _ E) in Hr];
        exact (Nat.lt_irrefl _ Hr).
    - intros n Ht. now apply (touches_known (levels (S depth) j) m n). }
  split; [exact (same_progress fwd name p todo _ _ S Hp PR)|].
  apply (during_step fwd name p (s_env st) (s_env st')); [| | |exact D'|exact DU].
  - exact (proj2 (proj2 S)).
  - intros q Hq _. exact (same_absent name _ _ q S Hq).
  - intros n Hn. apply (clause_by_rank H _ m _ _ n Km F (DL n Hn)). intros [->|Hlt]; apply L';
      [apply Nat.lt_succ_diag_r|now apply Nat.lt_lt_succ_r].
Qed.

Lemma run_actions_inv (H : WF2) (rec : msetup_fn) name p fwd depth just :
  fn_framed w cfg dl rec -> fn_inv rec -> has_name name p -> depth_ok depth ->
  forall st ds, during fwd name p (s_env st) ->
    match mrun_actions cfg rec fwd depth just (mp_actions p) st ds with
    | MDone _ st' _ => (if fwd then present p (s_env st') else absent p (s_env st')) /\ during fwd name p (s_env st')
    | _ => True
    end.
Proof.
  intros Hok Hinv Hp Hdepth st ds DU.
  apply (run_actions_rule cfg rec fwd depth just (mp_actions p)
           (fun todo st => progress fwd p todo (s_env st) /\ during fwd name p (s_env st))
           (fun r => match r with
                     | MDone _ st' _ => (if fwd then present p (s_env st') else absent p (s_env st')) /\
                                        during fwd name p (s_env st')
                     | _ => True
                     end)); [| | |apply incl_refl|split; [split; intros; now left|exact DU]].
  - intros st0 ds0 [PR0 DU0]. split; [exact (progress_done fwd p _ PR0)|exact DU0].
  - intros a todo st0 ds0 Ha Hns [PR0 DU0]. destruct a as [o m j|ap var v d|k v|k|k v|]; cbn [exec_simple].
    + now elim (Hns o m j).
    + destruct (own_path_step H fwd name p todo ap var v d (s_env st0) Hp Ha PR0 DU0) as [e' [E1 E2]].
      rewrite E1. exact E2.
    + destruct (own_set_step H fwd name p todo k v (s_env st0) Hp Ha PR0 DU0) as [E1 E2]. rewrite E1. exact E2.
    + now elim (wf_nounset (wf_base H) p k (proj1 Hp)).
    + split; [|exact DU0]. apply (progress_tail fwd p (AAlias k v) todo); [discriminate|discriminate|assumption].
    + split; [|exact DU0]. apply (progress_tail fwd p ANone todo); [discriminate|discriminate|assumption].
  - intros o m j todo st0 ds0 Ha [PR0 DU0].
    assert (PT : progress fwd p todo (s_env st0))
      by (apply (progress_tail fwd p (ASetup o m j) todo); [discriminate|discriminate|assumption]).
    destruct (cut_off cfg just (S depth)) eqn:Hc; [now split|].
    destruct (child_levels w cfg name p o m j depth just Hp Ha Hdepth Hc) as [Hd' _].
    assert (He : dep_edge w name m) by (exists p, o, j; split; assumption).
    pose proof (nested_call H rec fwd name p todo m depth j st0 ds0 Hok Hinv Hp He Hd' PT DU0) as NC.
    destruct (rec st0 ds0 m fwd (S depth) j) as [[|] st' ds'|st' ds'| |]; try exact I; try exact NC;
      (destruct (fwd && negb o); [exact I|now split]).
Qed.

Lemma words_head x y : word x -> words (x ++ c_space :: y) = x :: words y.
Proof.
  intros [Hne Hsp]. unfold words. rewrite (split_on_app c_space x y Hsp). cbn [filter].
  destruct x; [congruence|reflexivity].
Qed.

Lemma encode_path_nospace r : mem_ascii c_space (encode_path r) = false.
Proof.
  induction r as [|c r IH]; [reflexivity|]. cbn [encode_path].
  destruct (ascii_eqb c c_space) eqn:E.
  - exact IH.
  - cbn [mem_ascii]. rewrite ascii_eqb_sym, E. exact IH.
Qed.

Lemma encode_path_nonempty r : r <> [] -> encode_path r <> [].
Proof. destruct r as [|c r]; [congruence|]. intros _. cbn [encode_path]. destruct (ascii_eqb c c_space); discriminate. Qed.

Lemma words_word x : word x -> words x = [x].
Proof.
  intros [Hne Hsp]. unfold words. rewrite (split_on_nodelim c_space x Hsp). cbn [filter].
  destruct x; [congruence|reflexivity].
Qed.

(* findSetupVersion on the words  version -f flavor -Z root *)
Lemma recorded_args_full v f z :
  str_eqb v (lit "-f") = false -> recorded_args [v; lit "-f"; f; lit "-Z"; z] = Some (v, Some f, Some (decode_path z)).
Proof.
  (* cbv with these flags, not unfold: the rewrite that follows is several times slower to check after unfold *)
  intro E. cbv beta delta [recorded_args] iota. cbv beta delta [is_dash_f]. rewrite E. reflexivity.
Qed.

(* what findSetupVersion reads in the value Eups.setup wrote *)
Lemma recorded_setup_string p :
  word (mp_name p) -> word (mp_version p) -> mp_version p <> lit "-f" -> word (mp_flavor p) -> root_ok (mp_root p) ->
  recorded_fields (ms_setup_string p) = Some (mp_version p, Some (mp_flavor p), Some (mp_root p)).
Proof.
  intros Hn Hv Hf Hfl [Hr1 Hr2]. unfold recorded_fields.
  assert (Wr : word (encode_path (mp_root p))) by (split; [now apply encode_path_nonempty|apply encode_path_nospace]).
  assert (Wf : word (lit "-f")) by (split; [discriminate|reflexivity]).
  assert (Wz : word (lit "-Z")) by (split; [discriminate|reflexivity]).
  change (ms_setup_string p)
    with (mp_name p ++ c_space :: (mp_version p ++ c_space :: (lit "-f" ++ c_space :: (mp_flavor p ++ c_space ::
           (lit "-Z" ++ c_space :: encode_path (mp_root p)))))).
  rewrite (words_head _ _ Hn), (words_head _ _ Hv), (words_head _ _ Wf), (words_head _ _ Hfl), (words_head _ _ Wz),
    (words_word _ Wr).
  rewrite recorded_args_full by (now apply str_eqb_neq). now rewrite Hr2.
Qed.

Lemma only_res_absent (H : WF2) q n e e' : In q w -> only_res n e e' -> absent q e -> absent q e'.
Proof.
  intros Hq O [QA QS]. split.
  - intros ap var v d Ha. unfold oldv. rewrite O; [now apply (QA ap var v d)|]. intro R.
    apply (wf_path_not_reserved (wf_base H) var); [exists q, ap, v, d; split; assumption|exact (res_reserved n var R)].
  - intros k v Ha. rewrite O; [now apply (QS k v)|]. intro R.
    apply (wf_set_not_reserved (wf_base H) k); [exists q, v; split; assumption|exact (res_reserved n k R)].
Qed.

Lemma find_none_when_unset e name : alookup (setup_var name) e = None -> mfind_setup_product w (c_flavor cfg) e name = None.
Proof. intro E. unfold mfind_setup_product. now rewrite E. Qed.

Lemma all_absent_of_clause name e :
  clause name e -> alookup (setup_var name) e = None -> forall q, has_name name q -> absent q e.
Proof. intros C E. unfold clause in C. now rewrite (find_none_when_unset e name E) in C. Qed.

(* equality of two declarations of one name is decided by version and stack (wf_keys); there is no boolean test
   on records of lists to decide it by *)
Lemma wf_keys_dec_in (H : WF2) q sp : In q w -> In sp w -> mp_name q = mp_name sp -> q = sp \/ q <> sp.
Proof.
  intros Hq Hs Hn. destruct (str_eq_dec (mp_version q) (mp_version sp)) as [E|N].
  - destruct (str_eq_dec (mp_root q) (mp_root sp)) as [E2|N2].
    + left. now apply (wf_keys H).
    + right. intros ->. now apply N2.
  - right. intros ->. now apply N.
Qed.

(* findSetupProduct on an environment in which SETUP_NAME holds what Eups.setup wrote for the declaration p: it is p
   that is found - in the stack recorded, under the flavor recorded - and not a declaration of the same name and
   version in a stack that comes earlier on the path *)
Lemma recorded_product_found native e p :
  WF2 -> In p w -> alookup (setup_var (mp_name p)) e = Some (ms_setup_string p) ->
  mfind_setup_product w native e (mp_name p) = Some p.
Proof.
  intros H Hin E. unfold mfind_setup_product. rewrite E.
  destruct (wf_words H p Hin) as [Wn [Wv [Wf [Wfl Wr]]]].
  rewrite (recorded_setup_string p Wn Wv Wf Wfl Wr).
  assert (F : exists q, find_pvr w (mp_name p) (mkVref (mp_version p) (mp_root p)) = Some q).
  { clear E. induction w as [|p0 l IH]; [destruct Hin|]. cbn [find_pvr]. destruct Hin as [->|Hin].
    - unfold mp_is. cbn [vr_version vr_root]. rewrite !str_eqb_refl. now exists p.
    - destruct (mp_is (mp_name p) _ p0); [now exists p0|now apply IH]. }
  destruct F as [q F]. rewrite F. destruct (find_pvr_in w _ _ q F) as [Hq [Hn [Hv Hr]]].
  rewrite (wf_keys H q p Hq Hin Hn Hv Hr). now rewrite str_eqb_refl.
Qed.

Lemma forward_table_inv (H : WF2) (rec : msetup_fn) name p depth just st ds :
  fn_framed w cfg dl rec -> fn_inv rec -> has_name name p -> depth_ok depth ->
  nodollar_paths (s_env st) -> lowinv (S (rank name)) (s_env st) -> (forall q, has_name name q -> absent q (s_env st)) ->
  match mrun_actions cfg rec true depth just (mp_actions p) (mset_product_vars st name p) ds with
  | MDone _ st' _ => lowinv (rank name) (s_env st') /\ clause name (s_env st') /\
                     mfind_setup_product w (c_flavor cfg) (s_env st') name = Some p /\
                     alookup (setup_var name) (s_env st') = Some (ms_setup_string p)
  | _ => True
  end.
Proof.
  intros Hok Hinv Hp Hdepth D L A.
  (* the old version unset, the variables of p written *)
  assert (DU : during true name p (s_env (mset_product_vars st name p))).
  { destruct (set_vars_framed w dl (wf_base H) (eq name) name p st eq_refl D) as [[F _] D2].
    split; [split; [apply set_vars_setup|apply set_vars_dir]|split; [|split; [|assumption]]].
    - intros q Hq _. apply (only_res_absent H q name _ _ (proj1 Hq) (set_vars_only_res name p st)). now apply A.
    - apply (lowinv_frame_self H name (s_env st) _ (known_has_name name p Hp) F). intros n Hn. apply L.
      now apply Nat.lt_lt_succ_r. }
  pose proof (run_actions_inv H rec name p true depth just Hok Hinv Hp Hdepth (mset_product_vars st name p) ds DU) as R.
  destruct (mrun_actions cfg rec true depth just (mp_actions p) (mset_product_vars st name p) ds)
    as [ok st' ds'|st' ds'| |]; try exact I.
  destruct R as [PR [[DS DD] [DA [DL DN]]]]. destruct Hp as [Hin <-].
  pose proof (recorded_product_found (c_flavor cfg) (s_env st') p H Hin DS) as Hfound.
  split; [assumption|split; [|split; assumption]]. unfold clause. rewrite Hfound.
  split; [assumption|split; assumption].
Qed.

Lemma backward_table_inv (H : WF2) (rec : msetup_fn) name sp depth just st ds :
  fn_framed w cfg dl rec -> fn_inv rec -> depth_ok depth ->
  nodollar_paths (s_env st) -> lowinv (S (rank name)) (s_env st) ->
  mfind_setup_product w (c_flavor cfg) (s_env st) name = Some sp ->
  match mrun_actions cfg rec false depth just (mp_actions sp) (unset_product_vars st name) ds with
  | MDone _ st' _ => lowinv (rank name) (s_env st') /\ clause name (s_env st') /\
                     alookup (setup_var name) (s_env st') = None
  | _ => True
  end.
Proof.
  intros Hok Hinv Hdepth D L Hs.
  pose proof (mfind_setup_product_spec w cfg (s_env st) name sp Hs) as Hp.
  pose proof (L name (Nat.lt_succ_diag_r _)) as C. unfold clause in C. rewrite Hs in C. destruct C as [_ [_ CA]].
  assert (DU : during false name sp (s_env (unset_product_vars st name))).
  { destruct (unset_vars_framed w dl (wf_base H) (eq name) name st eq_refl D) as [[F _] D1].
    split; [exact (unset_vars_gone name st _ (res_setup name))|split; [|split; [|assumption]]].
    - intros q Hq Hne. apply (only_res_absent H q name _ _ (proj1 Hq) (unset_vars_only_res name st)). now apply CA.
    - apply (lowinv_frame_self H name (s_env st) _ (known_has_name name sp Hp) F). intros n Hn. apply L.
      now apply Nat.lt_lt_succ_r. }
  pose proof (run_actions_inv H rec name sp false depth just Hok Hinv Hp Hdepth (unset_product_vars st name) ds DU) as R.
  destruct (mrun_actions cfg rec false depth just (mp_actions sp) (unset_product_vars st name) ds)
    as [ok st' ds'|st' ds'| |]; try exact I.
  destruct R as [PR [DS [DA [DL DN]]]]. split; [assumption|split; [|assumption]].
  unfold clause. rewrite (find_none_when_unset _ _ DS). intros q Hq.
  destruct (wf_keys_dec_in H q sp (proj1 Hq) (proj1 Hp) (eq_trans (proj2 Hq) (eq_sym (proj2 Hp)))) as [->|Hne];
    [exact PR|now apply DA].
Qed.

Lemma setup_step_undeclared rec st ds name fwd depth just :
  (forall p, ~ has_name name p) ->
  match msetup_step w cfg rec st ds name fwd depth just with
  | MDone ok st' _ => ok = false /\ st' = st
  | MRaise _ _ => False
  | _ => True
  end.
Proof.
  intro Hno. unfold msetup_step.
  assert (Hf : forall e, mfind_setup_product w (c_flavor cfg) e name = None).
  { intro e. destruct (mfind_setup_product w (c_flavor cfg) e name) as [p|] eqn:E; [|reflexivity].
    exfalso. apply (Hno p). now apply (mfind_setup_product_spec w cfg e name p). }
  destruct fwd.
  - destruct ds as [|[v|] ds1]; auto.
    destruct (find_pvr w name v) as [p|] eqn:E; auto.
    exfalso. apply (Hno p). now destruct (find_pvr_spec w name v p E).
  - rewrite Hf. auto.
Qed.

Lemma setup_step_inv (H : WF2) (rec : msetup_fn) :
  fn_framed w cfg dl rec -> fn_inv rec -> fn_inv (msetup_step w cfg rec).
Proof.
  intros Hok Hinv st ds name fwd depth just Hnd Hdepth Hlow.
  destruct (declared_dec w name) as [[p0 Hp0]|Hno].
  2:{ pose proof (setup_step_undeclared rec st ds name fwd depth just Hno) as U.
      destruct (msetup_step w cfg rec st ds name fwd depth just) as [ok st' ds'|st' ds'| |]; try exact I; try contradiction.
      destruct U as [-> ->]. split; [assumption|split; [|discriminate]].
      intros _ Hx. exfalso. destruct (mfind_setup_product w (c_flavor cfg) (s_env st) name) as [p|] eqn:E; [|now apply Hx].
      apply (Hno p). now apply (mfind_setup_product_spec w cfg (s_env st) name p). }
  pose proof (known_has_name name p0 Hp0) as Kn.
  pose proof (setup_step_ok w cfg dl (wf_base H) rec Hok st ds name fwd depth just Hnd Hdepth) as G.
  (* the clause of [name] and the clauses below it give all the clauses up to its rank: names of the same rank
     are not touched *)
  assert (Hrest : forall st', env_frame (touches (levels depth just) name) (s_env st) (s_env st') ->
                  lowinv (rank name) (s_env st') -> clause name (s_env st') -> lowinv (S (rank name)) (s_env st')).
  { intros st' F L C n Hn. apply (clause_by_rank H _ name _ _ n Kn F (Hlow n Hn)).
    intros [->|Hlt]; [exact C|now apply L]. }
  revert G. unfold msetup_step. destruct fwd.
  - destruct ds as [|[v|] ds1]; [intros _; exact I| |intros _; split; [assumption|split; discriminate]].
    destruct (find_pvr w name v) as [p|] eqn:Hf; [|intros _; exact I].
    destruct (find_pvr_spec w name v p Hf) as [Hp _].
    destruct (msame_product p (mfind_setup_product w (c_flavor cfg) (s_env st) name) && negb (depth =? 0)) eqn:Hsame.
    { intros _. split; [assumption|split; [discriminate|]]. intros _ _ v0 ds0 Eq. injection Eq as <- _.
      exists p. split; [exact Hf|right]. apply andb_true_iff in Hsame. destruct Hsame as [Hs1 Hs2].
      split; [intros ->; discriminate|split; [reflexivity|exact Hs1]]. }
    fold (unset_old w cfg rec st ds1 name depth just).
    assert (H0 : match unset_old w cfg rec st ds1 name depth just with
                 | MDone _ st1 _ => lowinv (S (rank name)) (s_env st1) /\ nodollar_paths (s_env st1) /\
                                    forall q, has_name name q -> absent q (s_env st1)
                 | _ => True end).
    { apply (unset_old_cases w cfg rec (fun r => match r with MDone _ st1 _ => _ | _ => True end)); intro Hs.
      - split; [assumption|split; [assumption|]].
        pose proof (Hlow name (Nat.lt_succ_diag_r _)) as C. unfold clause in C. now rewrite Hs in C.
      - pose proof (Hinv st ds1 name false depth (just || c_keep cfg) Hnd Hdepth Hlow) as I0.
        pose proof (Hok st ds1 name false depth (just || c_keep cfg) Hnd Hdepth) as G0.
        destruct (rec st ds1 name false depth (just || c_keep cfg)) as [ok st1 ds2|st1 ds2| |]; try exact I.
        destruct I0 as [L1 [U1 _]]. destruct G0 as [_ D1]. split; [assumption|split; [assumption|]].
        apply (all_absent_of_clause name _ (L1 name (Nat.lt_succ_diag_r _))). now apply U1. }
    destruct (unset_old w cfg rec st ds1 name depth just) as [ok1 st1 ds2|st1 ds2| |]; try (intros _; exact I).
    destruct H0 as [L1 [D1 A1]].
    pose proof (forward_table_inv H rec name p depth just st1 ds2 Hok Hinv Hp Hdepth D1 L1 A1) as R.
    destruct (mrun_actions cfg rec true depth just (mp_actions p) (mset_product_vars st1 name p) ds2)
      as [ok st' ds'|st' ds'| |]; intro G; try exact I.
    destruct R as [DL [C [Hfound DS]]]. split; [exact (Hrest st' (proj1 (proj1 G)) DL C)|split; [discriminate|]].
    intros _ _ v0 ds0 Eq. injection Eq as <- _. exists p. split; [assumption|left; split; assumption].
  - destruct (mfind_setup_product w (c_flavor cfg) (s_env st) name) as [sp|] eqn:Hs;
      [|intros _; split; [assumption|split; [intros _ Hx; now elim Hx|discriminate]]].
    pose proof (backward_table_inv H rec name sp depth just st ds Hok Hinv Hdepth Hnd Hlow Hs) as R.
    destruct (mrun_actions cfg rec false depth just (mp_actions sp) (unset_product_vars st name) ds)
      as [ok st' ds'|st' ds'| |]; intro G; try exact I.
    destruct R as [DL [C DS]]. split; [exact (Hrest st' (proj1 (proj1 G)) DL C)|split; [intros _ _; exact DS|discriminate]].
Qed.

Theorem setup_inv (H : WF2) fuel : fn_inv (msetup w cfg fuel).
Proof.
  induction fuel as [|fuel IH].
  - intros st ds name fwd depth just _ _ _. exact I.
  - cbn [msetup]. apply (setup_step_inv H); [apply (setup_frame_raise w cfg dl (wf_base H))|exact IH].
Qed.

Theorem setup_preserves_Inv (H : WF2) fuel st ds name fwd depth just ok st' ds' :
  nodollar_paths (s_env st) -> depth_ok depth -> Inv (s_env st) ->
  msetup w cfg fuel st ds name fwd depth just = MDone ok st' ds' ->
  Inv (s_env st') /\ nodollar_paths (s_env st').
Proof.
  intros Hnd Hd HI Hrun.
  destruct (declared_dec w name) as [[p0 Hp0]|Hno].
  2:{ destruct fuel as [|fuel]; [discriminate|]. cbn [msetup] in Hrun.
      pose proof (setup_step_undeclared (msetup w cfg fuel) st ds name fwd depth just Hno) as U.
      rewrite Hrun in U. destruct U as [_ ->]. split; assumption. }
  pose proof (setup_inv H fuel st ds name fwd depth just Hnd Hd (fun n _ => HI n)) as I0.
  pose proof (setup_frame w cfg dl (wf_base H) fuel st ds name fwd depth just Hnd Hd) as G.
  rewrite Hrun in I0, G. destruct I0 as [L _]. destruct G as [F [D _]]. split; [|assumption].
  intro n. apply (clause_by_rank H _ name _ _ n (known_has_name name p0 Hp0) F (HI n)).
  intros [->|Hlt]; apply L; [apply Nat.lt_succ_diag_r|now apply Nat.lt_lt_succ_r].
Qed.

End Inv.

