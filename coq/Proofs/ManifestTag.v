(* C18: tagged-release lists: write then read. *)
From Eupsv Require Import Base.Base Base.BaseLemmas Model.Manifest Model.ManifestSpec
  Proofs.ManifestLib Proofs.ManifestText Proofs.ManifestWidth.

Definition tl_entry_line (e : str * tlinfo) : str := tl_line None (fst e) (snd e).

Lemma sorted_entries_keys m : akeys (sorted_entries m) = sort_str (akeys m).
Proof.
  unfold sorted_entries.
  assert (H : forall ks, (forall k, In k ks -> In k (akeys m)) ->
    akeys (flat_map (fun p => match alookup p m with Some i => [(p, i)] | None => [] end) ks) = ks).
  { induction ks as [|k ks IH]; intros Hin; cbn [flat_map]; [reflexivity|].
    destruct (alookup_In_keys k m (Hin k (or_introl eq_refl))) as [v ->].
    cbn [app]. unfold akeys in *. cbn [map fst]. f_equal. apply IH. intros; apply Hin; now right. }
  apply H. intros k Hk. exact (proj1 (sort_str_In _ _) Hk).
Qed.

Lemma alookup_flat_keys {V} (m : amap V) ks p : NoDup ks ->
  alookup p (flat_map (fun k => match alookup k m with Some i => [(k, i)] | None => [] end) ks)
  = if mem_str p ks then alookup p m else None.
Proof.
  induction 1 as [|k ks Hk Hnd IH]; cbn [flat_map mem_str]; [reflexivity|].
  rewrite alookup_app, IH.
  destruct (str_eqb_spec p k) as [->|Hne].
  - destruct (alookup k m) as [v|]; cbn [alookup]; [now rewrite str_eqb_refl|].
    now destruct (mem_str k ks).
  - destruct (alookup k m) as [v|]; cbn [alookup]; [|reflexivity].
    destruct (str_eqb_spec p k); [congruence|reflexivity].
Qed.

Lemma alookup_sorted_entries m p : NoDup (akeys m) -> alookup p (sorted_entries m) = alookup p m.
Proof.
  intros Hnd. unfold sorted_entries. rewrite alookup_flat_keys by now apply sort_str_NoDup.
  destruct (mem_str p (sort_str (akeys m))) eqn:E; [reflexivity|].
  apply mem_str_not_In in E. symmetry. apply alookup_not_In. intros H. apply E. exact (proj2 (sort_str_In _ _) H).
Qed.

Lemma sorted_entries_In m e : In e (sorted_entries m) -> In e m.
Proof.
  unfold sorted_entries. intros H. apply in_flat_map in H. destruct H as [p [_ H]].
  destruct (alookup p m) eqn:E; [|destruct H]. destruct H as [<-|[]]. now apply alookup_In.
Qed.

Lemma tl_write_lines_entries fa t :
  tl_write_lines fa t
  = tlheader (tl_tag t) ++ map (fun e => tl_line fa (fst e) (snd e)) (sorted_entries (tl_entries t)).
Proof.
  unfold tl_write_lines, sorted_entries. f_equal.
  induction (sort_str (akeys (tl_entries t))) as [|p ks IH]; cbn [flat_map]; [reflexivity|].
  rewrite map_app, <- IH. now destruct (alookup p (tl_entries t)).
Qed.

Lemma wf_tlinfo_parts p f v ex : wf_tlinfo (p, (f, v, ex)) = true ->
  wf_product p = true /\ word f /\ word v /\ Forall word ex.
Proof.
  cbn [wf_tlinfo]. intros H. do 3 (apply andb_true_iff in H; destruct H as [H ?]).
  split; [assumption|]. split; [now apply wf_word_word|]. split; [now apply wf_word_word|].
  apply Forall_forall. intros e He. rewrite forallb_forall in H0. auto using wf_word_word.
Qed.

(* the words of a written line are its fields, for every override and every field length *)
Lemma words_tl_line_fields fa p f v ex :
  word p -> word (tl_flav fa f) -> word v -> Forall word ex ->
  words (tl_line fa p (f, v, ex)) = p :: tl_flav fa f :: v :: ex.
Proof.
  intros Wp Wf Wv Wex. cbn [tl_line]. fold (tl_flav fa f). rewrite !words_ljust by assumption. now rewrite words_extras.
Qed.

Lemma words_tl_line p f v ex : wf_tlinfo (p, (f, v, ex)) = true ->
  words (tl_line None p (f, v, ex)) = p :: f :: v :: ex.
Proof.
  intros H. destruct (wf_tlinfo_parts _ _ _ _ H) as [Hp [Wf [Wv Wex]]].
  destruct (wf_product_parts _ Hp) as [Wp _]. now apply (words_tl_line_fields None).
Qed.

Lemma boc_tl_line p i : wf_tlinfo (p, i) = true -> blank_or_comment (tl_line None p i) = false.
Proof.
  destruct i as [[f v] ex]. intros H. destruct (wf_tlinfo_parts _ _ _ _ H) as [Hp _].
  destruct (wf_product_parts _ Hp) as [_ [c [r [-> [Hc Hh]]]]].
  cbn [tl_line]. unfold ljust. cbn [app]. rewrite boc_word_start by assumption. exact Hh.
Qed.

Lemma tl_read_body_line t p f v ex ls : wf_tlinfo (p, (f, v, ex)) = true ->
  tl_read_body t (tl_line None p (f, v, ex) :: ls)
  = tl_read_body (if visible (tl_flavor t) (p, (f, v, ex)) then tl_add t p v (Some (tl_flavor t)) ex else t) ls.
Proof.
  intros H. cbn [tl_read_body]. rewrite boc_tl_line, words_tl_line by assumption. cbn [visible].
  destruct (str_eqb_spec f s_generic) as [->|Hg].
  - now rewrite str_eqb_refl, orb_true_r.
  - rewrite orb_false_r. now destruct (str_eqb_spec f (tl_flavor t)) as [->|Hf].
Qed.

Lemma tl_read_body_entries tag fl es : forall acc,
  forallb wf_tlinfo es = true -> NoDup (map fst es) ->
  (forall p, In p (map fst es) -> ~ In p (akeys acc)) ->
  tl_read_body (mkTl tag fl acc) (map tl_entry_line es)
  = Ok (mkTl tag fl (acc ++ map (as_flavor fl) (filter (visible fl) es))).
Proof.
  induction es as [|[p [[f v] ex]] es IH]; intros acc Hwf Hnd Hfresh; cbn [map filter].
  - cbn [tl_read_body]. now rewrite app_nil_r.
  - cbn [forallb] in Hwf. apply andb_true_iff in Hwf. destruct Hwf as [He Hes].
    cbn [map fst] in Hnd. inversion Hnd as [|? ? Hp Hnd']; subst.
    change (tl_entry_line (p, (f, v, ex))) with (tl_line None p (f, v, ex)).
    rewrite tl_read_body_line by assumption. cbn [tl_flavor visible].
    destruct (str_eqb f fl || str_eqb f s_generic).
    + unfold tl_add. cbn [tl_tag tl_flavor tl_entries]. rewrite aset_fresh by (apply Hfresh; now left).
      rewrite IH; auto.
      * cbn [map as_flavor]. now rewrite <- app_assoc.
      * intros q Hq. unfold akeys. rewrite map_app, in_app_iff. cbn [map fst In].
        intros [H|[<-|[]]]; [eapply Hfresh; [right; exact Hq | exact H] | auto].
    + apply IH; auto. intros q Hq. apply Hfresh. now right.
Qed.

Lemma parse_tlheader_written tag :
  parse_tlheader tag (k_eups_distribution ++ tag ++ k_version_list_version ++ fmtversion) = Some fmtversion.
Proof.
  unfold parse_tlheader.
  change (k_version_list_version ++ fmtversion)
    with (k_version_list ++ "."%char :: (k_sp_version ++ fmtversion)).
  replace (k_eups_distribution ++ tag ++ k_version_list ++ "."%char :: k_sp_version ++ fmtversion)
    with ((k_eups_distribution ++ tag ++ k_version_list) ++ "."%char :: k_sp_version ++ fmtversion)
    by (now rewrite <- !app_assoc).
  rewrite strip_prefix_app. reflexivity.
Qed.

Definition wf_entries (m : amap tlinfo) : Prop := forallb wf_tlinfo m = true /\ NoDup (akeys m).

(* addProduct keeps each product once *)
Lemma tl_add_nodup t p v fl info :
  NoDup (akeys (tl_entries t)) -> NoDup (akeys (tl_entries (tl_add t p v fl info))).
Proof. apply NoDup_aset. Qed.

Lemma wf_sorted_entries m : wf_entries m ->
  forallb wf_tlinfo (sorted_entries m) = true /\ NoDup (map fst (sorted_entries m)).
Proof.
  intros [Hwf Hnd]. split.
  - apply forallb_forall. intros e He. rewrite forallb_forall in Hwf. auto using sorted_entries_In.
  - fold (akeys (sorted_entries m)). rewrite sorted_entries_keys. now apply sort_str_NoDup.
Qed.

Lemma nonl_tl_line p i : wf_tlinfo (p, i) = true -> nonl (tl_line None p i).
Proof.
  destruct i as [[f v] ex]. intros H. destruct (wf_tlinfo_parts _ _ _ _ H) as [Hp [[_ Wf] [[_ Wv] Wex]]].
  destruct (wf_product_parts _ Hp) as [[_ Wp] _].
  cbn [tl_line]. do 2 (apply nonl_column; [assumption|]). apply nonl_app; [now apply nosp_nonl|].
  clear H Hp. induction Wex as [|e ex [_ We] _ IH]; cbn [map concat]; [constructor|].
  apply nonl_app; [|exact IH]. do 2 (apply nonl_cons; [reflexivity|reflexivity|]). now apply nosp_nonl.
Qed.

Lemma tl_read_entries tag fl es :
  nonl tag -> forallb wf_tlinfo es = true -> NoDup (map fst es) ->
  tl_read (tl_new tag (Some fl)) (unlines (tlheader tag ++ map tl_entry_line es))
  = Ok (mkTl tag fl (map (as_flavor fl) (filter (visible fl) es))).
Proof.
  intros Ht Hwf Hnd. unfold tl_read. rewrite lines_of_unlines.
  - unfold tlheader. cbn [app]. unfold tl_read_lines, tl_new. cbn [tl_tag].
    rewrite parse_tlheader_written. cbn [tl_read_body].
    change (blank_or_comment k_product_flavor_version) with true. rewrite boc_hash. cbv iota.
    rewrite tl_read_body_entries; auto.
  - apply Forall_app. split.
    + apply forallb_no_nl. unfold tlheader. cbn [forallb]. rewrite !no_nl_app, (nonl_no_nl _ Ht). reflexivity.
    + apply Forall_forall. intros l Hl. apply in_map_iff in Hl. destruct Hl as [[p i] [<- He]].
      rewrite forallb_forall in Hwf. apply nonl_tl_line. now apply Hwf.
Qed.

Lemma tl_read_write t fl :
  nonl (tl_tag t) -> wf_entries (tl_entries t) ->
  tl_read (tl_new (tl_tag t) (Some fl)) (tl_write None t)
  = Ok (mkTl (tl_tag t) fl (map (as_flavor fl) (filter (visible fl) (sorted_entries (tl_entries t))))).
Proof.
  intros Ht Hwf. destruct (wf_sorted_entries _ Hwf) as [H1 H2].
  unfold tl_write. rewrite tl_write_lines_entries.
  now apply (tl_read_entries (tl_tag t) fl (sorted_entries (tl_entries t))).
Qed.

Definition homogeneous (fl : str) (m : amap tlinfo) : Prop :=
  forall p f v ex, In (p, (f, v, ex)) m -> f = fl.

Lemma homogeneous_visible fl es : homogeneous fl es ->
  map (as_flavor fl) (filter (visible fl) es) = es.
Proof.
  induction es as [|[p [[f v] ex]] es IH]; intros H; cbn [filter map]; [reflexivity|].
  assert (f = fl) by (eapply H; now left). subst f.
  cbn [visible]. rewrite str_eqb_refl. cbn [orb map as_flavor]. f_equal.
  apply IH. intros q f' v' ex' Hq. eapply H. right. exact Hq.
Qed.

Lemma tl_read_write_homogeneous t :
  nonl (tl_tag t) -> wf_entries (tl_entries t) -> homogeneous (tl_flavor t) (tl_entries t) ->
  tl_read (tl_new (tl_tag t) (Some (tl_flavor t))) (tl_write None t)
  = Ok (mkTl (tl_tag t) (tl_flavor t) (sorted_entries (tl_entries t))).
Proof.
  intros Ht Hwf Hh. rewrite tl_read_write by assumption. rewrite homogeneous_visible; [reflexivity|].
  intros p f v ex Hin. eapply Hh. eapply sorted_entries_In. exact Hin.
Qed.

(* writing depends only on the map, not on the insertion order *)
Lemma tl_write_sorted_entries t fa :
  NoDup (akeys (tl_entries t)) ->
  tl_write fa (mkTl (tl_tag t) (tl_flavor t) (sorted_entries (tl_entries t))) = tl_write fa t.
Proof.
  intros Hnd. unfold tl_write, tl_write_lines. cbn [tl_tag tl_entries].
  rewrite sorted_entries_keys, sort_str_idem. f_equal. f_equal.
  induction (sort_str (akeys (tl_entries t))) as [|p ks IH]; cbn [flat_map]; [reflexivity|].
  rewrite alookup_sorted_entries by assumption. now rewrite IH.
Qed.
