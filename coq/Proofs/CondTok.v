(* C11 - level A for conditions: the tokeniser of VersionParser.__init__ applied to the
   text of a printed condition gives back its tokens, whatever the spacing, the letter case
   of FLAVOR / TYPE and the quoting of the literals. *)
From Coq Require Import Lia.
From Eupsv Require Import Base.Base Base.BaseLemmas Model.Rx Model.Cond Model.Args Model.Legacy
  Model.Blocks Model.TableSpec Proofs.RxLib Proofs.CondEval.

Lemma wordc_facts c : is_wordc c = true ->
  is_quote c = false /\ ascii_eqb c c_dollar = false /\ ascii_eqb c c_hash = false.
Proof.
  intros H. unfold is_quote. rewrite !(class_neq is_wordc c _ H) by reflexivity. auto.
Qed.

Lemma alpha_wordc c : is_alpha c = true -> is_wordc c = true.
Proof. unfold is_wordc, is_word. intros ->. reflexivity. Qed.

Lemma lower_is_lower_alpha s : forallb is_lower (lower_str s) = true -> forallb is_alpha s = true.
Proof.
  induction s as [|c r IH]; [reflexivity|]. cbn [lower_str map forallb]. intros H.
  apply andb_true_iff in H. destruct H as [H1 H2]. now rewrite (lower_alpha c H1), (IH H2).
Qed.

(* the printed text as a list of pieces: blanks, then the token between its quotes *)
Inductive ftok := FT (n : nat) (q : quote) (t : str).
Definition ft_tok (f : ftok) : str := match f with FT _ _ t => t end.
Definition ft_strip (f : ftok) : ftok := match f with FT n _ t => FT n QNone t end.
Definition pr_ftok (f : ftok) : str :=
  match f with FT n q t => sp n ++ pr_quote q ++ t ++ pr_quote q end.
Definition pr_flat (l : list ftok) : str := flat_map pr_ftok l.

Fixpoint flat_of (n : nat) (c : cond) : list ftok :=
  match c with
  | Atom l v o x => [FT n QNone (al_sp l); FT (al_s1 l) QNone (pr_cmp o); FT (al_s2 l) (al_q l) x]
  | Bin s1 s2 o a b =>
      flat_of n a ++ FT s1 QNone (pr_bin o) ::
      (if is_bin b then FT s2 QNone s_lp :: flat_of 0 b ++ [FT 0 QNone s_rp] else flat_of s2 b)
  | Paren s1 s2 c' => FT n QNone s_lp :: flat_of s1 c' ++ [FT s2 QNone s_rp]
  end.

Lemma pr_flat_app a b : pr_flat (a ++ b) = pr_flat a ++ pr_flat b.
Proof. apply flat_map_app. Qed.

Lemma pr_flat_cons f l : pr_flat (f :: l) = pr_ftok f ++ pr_flat l.
Proof. reflexivity. Qed.

Lemma pr_flat_paren n l m :
  pr_flat (FT n QNone s_lp :: l ++ [FT m QNone s_rp]) = sp n ++ s_lp ++ pr_flat l ++ sp m ++ s_rp.
Proof.
  rewrite pr_flat_cons, pr_flat_app. cbn [pr_flat flat_map pr_ftok pr_quote app].
  now rewrite !app_nil_r, <- !app_assoc.
Qed.

Lemma pr_flat_of n c : pr_flat (flat_of n c) = sp n ++ print_cond c.
Proof.
  revert n. induction c as [l v o x | s1 s2 o a IHa b IHb | s1 s2 c IHc]; intros n; cbn [flat_of print_cond].
  - cbn [pr_flat flat_map pr_ftok pr_quote app]. now rewrite !app_nil_r, <- !app_assoc.
  - rewrite pr_flat_app, IHa, pr_flat_cons. cbn [pr_ftok pr_quote app].
    rewrite app_nil_r, <- !app_assoc. do 4 f_equal.
    destruct (is_bin b); [rewrite pr_flat_paren, IHb; reflexivity|apply IHb].
  - rewrite pr_flat_paren, IHc, <- !app_assoc. reflexivity.
Qed.

Lemma toks_flat_of n c : map ft_tok (flat_of n c) = cond_toks c.
Proof.
  revert n. induction c as [l v o x | s1 s2 o a IHa b IHb | s1 s2 c IHc]; intros n; cbn [flat_of cond_toks].
  - reflexivity.
  - rewrite map_app, IHa. cbn [map ft_tok]. destruct (is_bin b).
    + cbn [map ft_tok]. rewrite map_app, IHb. reflexivity.
    + now rewrite IHb.
  - cbn [map ft_tok]. rewrite map_app, IHc. reflexivity.
Qed.

Definition noq (s : str) : bool := forallb (fun c => negb (is_quote c)) s.
Definition ft_ok (f : ftok) : bool :=
  match f with FT _ q t => noq t && (match q with QNone => true | _ => nonempty t end) end.

Lemma unq_copy s rest : noq s = true -> scan unq_match 0 (s ++ rest) = s ++ scan unq_match 0 rest.
Proof.
  apply scan_copy. intros c r H. apply negb_true_iff in H. cbn [unq_match]. rewrite H. reflexivity.
Qed.

Lemma unquote_quoted q t rest :
  is_quote q = true -> noq t = true -> nonempty t = true ->
  scan unq_match 0 (q :: t ++ q :: rest) = t ++ scan unq_match 0 rest.
Proof.
  intros Hq Ht Hne. apply scan_delimited. cbn [unq_match]. rewrite Hq.
  rewrite (span_app _ t q rest Ht) by (now rewrite Hq). destruct t; [discriminate|reflexivity].
Qed.

Lemma unquote_flat l rest :
  forallb ft_ok l = true ->
  scan unq_match 0 (pr_flat l ++ rest) = pr_flat (map ft_strip l) ++ scan unq_match 0 rest.
Proof.
  induction l as [|[n q t] l IH]; intros Hok; [reflexivity|].
  cbn [forallb ft_ok] in Hok. apply andb3 in Hok. destruct Hok as (Ht & Hq & Hl).
  cbn [pr_flat flat_map map ft_strip pr_ftok pr_quote]. fold (pr_flat l). fold (pr_flat (map ft_strip l)).
  rewrite <- !app_assoc. rewrite (unq_copy (sp n)) by (apply forallb_repeat; reflexivity). f_equal.
  destruct q; cbn [pr_quote app].
  - rewrite (unq_copy t) by exact Ht. now rewrite IH.
  - rewrite unquote_quoted by auto. now rewrite IH.
  - rewrite unquote_quoted by auto. now rewrite IH.
Qed.

Lemma dollar_none c r : ascii_eqb c c_dollar = false -> dollar_match (c :: r) = None.
Proof. intros H. cbn [dollar_match]. now rewrite H. Qed.

Definition not_pword (p : pend) : Prop := match p with PWord _ => False | _ => True end.
Definition not_ptext (p : pend) : Prop := match p with PText _ => False | _ => True end.

Lemma tok_word_more a w rest :
  forallb is_wordc w = true -> tok_go (PWord a) 0 (w ++ rest) = tok_go (PWord (a ++ w)) 0 rest.
Proof.
  revert a. induction w as [|c w IH]; intros a Hw; [now rewrite app_nil_r|].
  cbn [forallb] in Hw. apply andb_true_iff in Hw. destruct Hw as [Hc Hw].
  destruct (wordc_facts c Hc) as (_ & Hd & _).
  cbn [app tok_go]. rewrite (dollar_none c _ Hd), Hc. rewrite (IH _ Hw). now rewrite <- app_assoc.
Qed.

Lemma tok_word_start p w rest :
  not_pword p -> nonempty w = true -> forallb is_wordc w = true ->
  tok_go p 0 (w ++ rest) = flush p ++ tok_go (PWord w) 0 rest.
Proof.
  intros Hp Hne Hw. destruct w as [|c w]; [discriminate|].
  cbn [forallb] in Hw. apply andb_true_iff in Hw. destruct Hw as [Hc Hw].
  destruct (wordc_facts c Hc) as (_ & Hd & _).
  cbn [app tok_go]. rewrite (dollar_none c _ Hd), Hc.
  destruct p as [|a|a]; [|destruct Hp|]; rewrite (tok_word_more [c] w rest Hw); reflexivity.
Qed.

Definition is_texttok (t : str) : bool := str_eqb t (lit "||") || str_eqb t (lit "&&").
Definition is_cmptok (t : str) : bool := str_eqb t (lit "==") || str_eqb t (lit "!=").
Definition is_partok (t : str) : bool := str_eqb t s_lp || str_eqb t s_rp.
Definition is_wordtok (t : str) : bool := nonempty t && forallb is_wordc t.

Lemma tok_text p t rest :
  not_ptext p -> is_texttok t = true -> tok_go p 0 (t ++ rest) = flush p ++ tok_go (PText t) 0 rest.
Proof.
  intros Hp Ht. unfold is_texttok in Ht. apply orb_true_iff in Ht.
  destruct Ht as [Ht|Ht]; apply str_eqb_eq in Ht; subst t;
    (destruct p as [|a|a]; [| |destruct Hp]; reflexivity).
Qed.

Lemma tok_punct p t rest :
  is_cmptok t || is_partok t = true -> tok_go p 0 (t ++ rest) = flush p ++ t :: tok_go PNone 0 rest.
Proof.
  unfold is_cmptok, is_partok. intros Ht. repeat (apply orb_true_iff in Ht; destruct Ht as [Ht|Ht]);
    apply str_eqb_eq in Ht; subst t; reflexivity.
Qed.

Definition tok_class_ok (t : str) : bool := is_wordtok t || is_texttok t || (is_cmptok t || is_partok t).
Definition after_tok (t : str) : pend :=
  if is_wordtok t then PWord t else if is_texttok t then PText t else PNone.

(* the scanner would add [t] to what it holds: a word after a word, an operator text after
   an operator text *)
Definition clash (p : pend) (t : str) : bool :=
  match p with PNone => false | PWord _ => is_wordtok t | PText _ => is_texttok t end.

Lemma clash_false p t : clash p t = false ->
  (is_wordtok t = true -> not_pword p) /\ (is_texttok t = true -> not_ptext p).
Proof. destruct p; cbn; intros H; split; intros E; try exact I; congruence. Qed.

Fixpoint sep_ok (p : pend) (l : list str) : bool :=
  match l with [] => true | t :: r => negb (clash p t) && sep_ok (after_tok t) r end.

Lemma word_not_others t : is_wordtok t = true -> is_texttok t = false /\ is_cmptok t = false /\ is_partok t = false.
Proof.
  (* each of the other tokens begins with a character that is not a word character *)
  unfold is_wordtok. destruct t as [|c r]; [discriminate|]. cbn [nonempty forallb andb]. intros H.
  apply andb_true_iff in H. destruct H as [H _].
  assert (N : forall k s, is_wordc k = false -> str_eqb (c :: r) (k :: s) = false).
  { intros k s Hk. cbn [str_eqb]. now rewrite (class_neq is_wordc c k H Hk). }
  unfold is_texttok, is_cmptok, is_partok, s_lp, s_rp, lit. cbn [String.list_ascii_of_string].
  rewrite !N by reflexivity. auto.
Qed.

Lemma text_not_others t : is_texttok t = true -> is_cmptok t = false /\ is_partok t = false.
Proof.
  unfold is_texttok. intros H. apply orb_true_iff in H.
  destruct H as [H|H]; apply str_eqb_eq in H; subst t; split; reflexivity.
Qed.

Lemma tok_one p n t rest :
  tok_class_ok t = true -> clash p t = false ->
  tok_go p 0 (sp n ++ t ++ rest) = flush p ++ (match after_tok t with PNone => [t] | _ => [] end)
                                 ++ tok_go (after_tok t) 0 rest.
Proof.
  intros Hc. revert p. induction n as [|n IH]; intros p Hp.
  - destruct (clash_false _ _ Hp) as [Hw Ht].
    unfold tok_class_ok in Hc. unfold after_tok. cbn [sp repeat app].
    destruct (is_wordtok t) eqn:Ew.
    + unfold is_wordtok in Ew. apply andb_true_iff in Ew. destruct Ew as [E1 E2].
      apply tok_word_start; auto.
    + destruct (is_texttok t) eqn:Et.
      * apply tok_text; auto.
      * now apply tok_punct.
  - (* a blank ends what the scanner holds *)
    change (tok_go p 0 (sp (S n) ++ t ++ rest)) with (flush p ++ tok_go PNone 0 (sp n ++ t ++ rest)).
    now rewrite (IH PNone eq_refl).
Qed.

Lemma tok_flat l p :
  forallb tok_class_ok (map ft_tok l) = true -> sep_ok p (map ft_tok l) = true ->
  tok_go p 0 (pr_flat (map ft_strip l)) = flush p ++ map ft_tok l.
Proof.
  revert p. induction l as [|[n q t] l IH]; intros p Hc Hs.
  - cbn. now rewrite app_nil_r.
  - cbn [map ft_tok forallb sep_ok] in Hc, Hs.
    apply andb_true_iff in Hc. destruct Hc as [Ht Hl].
    apply andb_true_iff in Hs. destruct Hs as [Hp Hs]. apply negb_true_iff in Hp.
    cbn [map ft_strip pr_flat flat_map pr_ftok pr_quote app]. fold (pr_flat (map ft_strip l)).
    rewrite app_nil_r, <- app_assoc, (tok_one p n t _ Ht Hp), (IH _ Hl Hs).
    cbn [map ft_tok]. f_equal. unfold after_tok.
    destruct (is_wordtok t); [reflexivity|]. destruct (is_texttok t); reflexivity.
Qed.

Definition first_class (c : cond) : str := match flat_of 0 c with f :: _ => ft_tok f | [] => [] end.

Lemma wf_lit_wordtok x : wf_lit x = true -> is_wordtok x = true /\ noq x = true.
Proof.
  unfold wf_lit. intros H. apply andb4 in H. destruct H as (Ha & Hw & _). split.
  - unfold is_wordtok. rewrite Hw. destruct x; [discriminate|reflexivity].
  - unfold noq. eapply forallb_impl; [|exact Hw]. intros c Hc.
    destruct (wordc_facts c Hc) as (H & _). now rewrite H.
Qed.

Lemma spelling_wordtok v l : wf_alay v l = true -> is_wordtok (al_sp l) = true /\ noq (al_sp l) = true.
Proof.
  unfold wf_alay. intros H. apply str_eqb_eq in H.
  assert (Ha : forallb is_alpha (al_sp l) = true).
  { apply lower_is_lower_alpha. rewrite H. destruct v; reflexivity. }
  assert (Hw : forallb is_wordc (al_sp l) = true).
  { eapply forallb_impl; [|exact Ha]. apply alpha_wordc. }
  split.
  - unfold is_wordtok. rewrite Hw. destruct (al_sp l); [destruct v; discriminate H|reflexivity].
  - unfold noq. eapply forallb_impl; [|exact Hw]. intros c Hc.
    destruct (wordc_facts c Hc) as (Hq & _). now rewrite Hq.
Qed.

Lemma flat_ft_ok c : wf_cond c = true -> forall n, forallb ft_ok (flat_of n c) = true.
Proof.
  induction c as [l v o x | s1 s2 o a IHa b IHb | s1 s2 c IHc]; cbn [wf_cond]; intros Hwf n.
  - apply andb_true_iff in Hwf. destruct Hwf as [Hl Hx].
    destruct (wf_lit_wordtok x Hx) as [Xw Xq]. destruct (spelling_wordtok v l Hl) as [_ Sq].
    unfold is_wordtok in Xw. apply andb_true_iff in Xw. destruct Xw as [Xn _].
    cbn [flat_of forallb ft_ok]. rewrite Sq, Xq, Xn. destruct o, (al_q l); reflexivity.
  - apply andb_true_iff in Hwf. destruct Hwf as [Ha Hb].
    cbn [flat_of]. rewrite forallb_app, (IHa Ha). cbn [forallb].
    replace (ft_ok (FT s1 QNone (pr_bin o))) with true by (destruct o; reflexivity).
    destruct (is_bin b); [cbn [forallb]; rewrite forallb_app|]; rewrite (IHb Hb); reflexivity.
  - cbn [flat_of forallb]. rewrite forallb_app, (IHc Hwf). reflexivity.
Qed.

Lemma class_paren l : forallb tok_class_ok l = true -> forallb tok_class_ok (s_lp :: l ++ [s_rp]) = true.
Proof. intros H. cbn [forallb]. now rewrite forallb_app, H. Qed.

Lemma toks_class c : wf_cond c = true -> forallb tok_class_ok (cond_toks c) = true.
Proof.
  induction c as [l v o x | s1 s2 o a IHa b IHb | s1 s2 c IHc]; cbn [wf_cond]; intros Hwf.
  - apply andb_true_iff in Hwf. destruct Hwf as [Hl Hx].
    destruct (wf_lit_wordtok x Hx) as [Xw _]. destruct (spelling_wordtok v l Hl) as [Sw _].
    cbn [cond_toks forallb]. unfold tok_class_ok. rewrite Sw, Xw. destruct o; reflexivity.
  - apply andb_true_iff in Hwf. destruct Hwf as [Ha Hb].
    rewrite bin_toks, forallb_app, (IHa Ha). cbn [forallb].
    replace (tok_class_ok (pr_bin o)) with true by (destruct o; reflexivity).
    unfold term_toks. destruct (is_bin b); [apply class_paren|]; auto.
  - apply class_paren, IHc, Hwf.
Qed.

(* what may stand after a condition: nothing that would extend a word *)
Definition tail_ok (rest : list str) : Prop := forall p, not_ptext p -> sep_ok p rest = true.

Lemma sep_paren l :
  (forall p rest, not_pword p -> tail_ok rest -> sep_ok p (l ++ rest) = true) ->
  forall p rest, tail_ok rest -> sep_ok p (s_lp :: l ++ s_rp :: rest) = true.
Proof.
  intros Hl p rest Hr. cbn [sep_ok].
  replace (clash p s_lp) with false by (destruct p; reflexivity).
  apply (Hl PNone); [exact I|]. intros p' _. cbn [sep_ok].
  replace (clash p' s_rp) with false by (destruct p'; reflexivity). exact (Hr PNone I).
Qed.

(* continuation form, as for the evaluator; a condition begins with a word or a parenthesis
   and ends with one *)
Lemma toks_sep c : wf_cond c = true ->
  forall p rest, not_pword p -> tail_ok rest -> sep_ok p (cond_toks c ++ rest) = true.
Proof.
  induction c as [l v o x | s1 s2 o a IHa b IHb | s1 s2 c IHc]; cbn [wf_cond]; intros Hwf p rest Hp Hr.
  - apply andb_true_iff in Hwf. destruct Hwf as [Hl Hx].
    destruct (wf_lit_wordtok x Hx) as [Xw _]. destruct (spelling_wordtok v l Hl) as [Sw _].
    destruct (word_not_others _ Sw) as (St & _).
    assert (C : clash p (al_sp l) = false) by (destruct p; [reflexivity|destruct Hp|exact St]).
    cbn [cond_toks app sep_ok]. rewrite C. unfold after_tok at 1. rewrite Sw. cbn [clash].
    replace (is_wordtok (pr_cmp o)) with false by (destruct o; reflexivity).
    replace (after_tok (pr_cmp o)) with PNone by (destruct o; reflexivity).
    unfold after_tok. rewrite Xw. exact (Hr (PWord x) I).
  - apply andb_true_iff in Hwf. destruct Hwf as [Ha Hb].
    rewrite bin_toks, <- app_assoc. apply (IHa Ha); [exact Hp|]. intros p' Hp'. cbn [app sep_ok].
    replace (clash p' (pr_bin o)) with false by (destruct p', o; try reflexivity; destruct Hp').
    replace (after_tok (pr_bin o)) with (PText (pr_bin o)) by (destruct o; reflexivity).
    unfold term_toks. destruct (is_bin b).
    + cbn [app]. rewrite <- app_assoc. apply sep_paren; auto.
    + apply (IHb Hb); [exact I|exact Hr].
  - cbn [cond_toks app]. rewrite <- app_assoc. apply sep_paren; auto.
Qed.

Theorem tokenize_print_cond c : wf_cond c = true -> tokenize (print_cond c) = cond_toks c.
Proof.
  intros Hwf. unfold tokenize, unquote, resub.
  pose proof (pr_flat_of 0 c) as Hp. cbn [sp repeat app] in Hp. rewrite <- Hp.
  rewrite <- (app_nil_r (pr_flat (flat_of 0 c))), (unquote_flat _ [] (flat_ft_ok c Hwf 0)).
  cbn [scan]. rewrite app_nil_r, tok_flat; rewrite toks_flat_of.
  - reflexivity.
  - apply toks_class, Hwf.
  - rewrite <- (app_nil_r (cond_toks c)). apply toks_sep; [exact Hwf|exact I|]. intros p _. reflexivity.
Qed.
