(* A directory BESIDE the stack whose name begins with the stack's name (stack2, stack-extras next
   to stack) is not inside the stack for utils.isSubpath. *)
From Coq Require Import List Bool Ascii.
Import ListNotations.
From Eupsv Require Import Base.Base Base.BaseLemmas Model.Paths Proofs.RecordsLib Proofs.PathsLib.

Lemma subpath_abs_sibling root c s :
  root <> [] -> ends_slash root = false -> ascii_eqb c_slash c = false ->
  subpath_abs (root ++ c :: s) root = false.
Proof.
  intros Hn He Hc. unfold subpath_abs.
  rewrite (path_join_nil root Hn He), starts_with_app. cbn [starts_with]. rewrite Hc.
  rewrite orb_false_r. apply str_eqb_neq. apply app_cons_neq.
Qed.

