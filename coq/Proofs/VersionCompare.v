(* C10: facts about the model of stdCompare -- the shape of _splitVersion results, the recursion on the
   secondary and tertiary parts (fuel, unfolding equation, induction principle), and on accepted names
   reflexivity, antisymmetry and that a comparison always has an answer. *)
From Coq Require Import Lia.
From Eupsv Require Import Base.Base Base.BaseLemmas Model.VersionCompare Proofs.VersionCompareLib.

Lemma opt_group_spec d r e r1 :
  opt_group d r = (e, r1) -> exists a, r = a ++ e ++ r1 /\ forallb notpm e = true.
Proof.
  unfold opt_group. destruct r as [|c r']; [intros [= <- <-]; now exists []|].
  destruct (ascii_eqb c d); [|intros [= <- <-]; now exists []].
  destruct (span notpm r') as [e' r2] eqn:E. destruct (nonempty e'); intros [= <- <-]; [|now exists []].
  exists [c]. split; [cbn; f_equal; now apply span_app in E|eapply span_all_fst; eauto].
Qed.

Lemma mp_suffix_spec v c ds base :
  mp_suffix v = Some (c, ds, base) ->
  v = base ++ c :: ds /\ all_digits ds = true /\ (ascii_eqb c c_m || ascii_eqb c c_p = true).
Proof.
  unfold mp_suffix. destruct (span is_digit (rev v)) as [rd rest] eqn:E.
  destruct rd as [|d0 rd']; [discriminate|]. destruct rest as [|c' rb]; [discriminate|].
  destruct (ascii_eqb c' c_m || ascii_eqb c' c_p) eqn:M; [|discriminate].
  remember (d0 :: rd') as rd eqn:Erd.
  intros [= <- <- <-]. split; [|split; [|assumption]].
  - pose proof (span_app _ _ _ _ E) as R.
    rewrite <- (rev_involutive v), R. rewrite rev_app_distr. simpl. now rewrite <- app_assoc.
  - apply span_all_fst in E. unfold all_digits. rewrite forallb_rev, E.
    destruct (rev rd) eqn:X; [|reflexivity].
    apply (f_equal (@length _)) in X. rewrite rev_length, Erd in X. discriminate.
Qed.

Lemma split_shape v p s t :
  split_version v = Ok (p, s, t) ->
  (exists a b z, v = p ++ a ++ s ++ b ++ t ++ z) /\ forallb notpm s = true /\ forallb notpm t = true /\
  length s + length t <= pred (length v).
Proof.
  unfold split_version. destruct v as [|c0 v0]; [intros [= <- <- <-]; split; [now exists [], [], []|auto]|].
  set (v := c0 :: v0).
  destruct (2 <? length (split_on c_minus v)).
  { intros [= <- <- <-]. split; [exists [], [], []; now rewrite app_nil_r|cbn; auto with arith]. }
  destruct (span notpm v) as [g1 r] eqn:E. pose proof (span_app _ _ _ _ E) as V.
  destruct g1 as [|c1 g1]; [discriminate|]. cbn [nonempty].
  destruct (opt_group c_minus r) as [eee r1] eqn:O1. destruct (opt_group c_plus r1) as [fff r2] eqn:O2.
  apply opt_group_spec in O1 as (a & R & Ne). apply opt_group_spec in O2 as (b & R1 & Nf).
  destruct (nonempty eee || nonempty fff).
  - intros [= <- <- <-]. rewrite V, R, R1. split; [now exists a, b, r2|].
    rewrite !app_length. cbn [length]. split; [assumption|]. split; [assumption|lia].
  - destruct (mp_suffix v) as [[[c ds] base]|] eqn:M.
    + apply mp_suffix_spec in M as (V' & D & _). apply andb_true_iff in D as [_ D].
      pose proof (forallb_impl _ _ _ digit_notpm D) as Dn.
      assert (L : length ds <= pred (length v)) by (rewrite V', app_length; cbn [length]; lia).
      destruct (ascii_eqb c c_m); intros [= <- <- <-]; [rewrite Nat.add_0_r|rewrite Nat.add_0_l];
        (split; [|auto]); [exists [c], [], []|exists [], [c], []]; cbn [app]; now rewrite app_nil_r.
    + intros [= <- <- <-]. split; [exists r, [], []; cbn [app]; now rewrite app_nil_r|cbn; auto with arith].
Qed.

Lemma split_chars v p s t (q : ascii -> bool) :
  split_version v = Ok (p, s, t) -> forallb q v = true ->
  forallb q p = true /\ forallb q s = true /\ forallb q t = true.
Proof.
  intros E H. apply split_shape in E as ((a & b & z & V) & _).
  rewrite V, !forallb_app in H. apply andb_prop in H as [Hp H]. apply andb_prop in H as [_ H].
  apply andb_prop in H as [Hs H]. apply andb_prop in H as [_ H]. apply andb_prop in H as [Ht _]. auto.
Qed.

(* The recursive calls of stdCompare are on shorter names: on the secondary parts when both are there, on the
   tertiary parts when one of the four is (the conditions are written as sec_ter tests them). *)
Lemma split_smaller v1 p1 s1 t1 v2 p2 s2 t2 :
  split_version v1 = Ok (p1, s1, t1) -> split_version v2 = Ok (p2, s2, t2) ->
  (nonempty s1 && nonempty s2 = true -> length s1 + length s2 < length v1 + length v2) /\
  (nonempty s1 || nonempty s2 || nonempty t1 || nonempty t2 = true -> length t1 + length t2 < length v1 + length v2).
Proof.
  intros E1 E2. apply split_shape in E1 as (_ & _ & _ & L1). apply split_shape in E2 as (_ & _ & _ & L2).
  assert (N : forall x : str, nonempty x = true -> 0 < length x) by (intros [|]; [discriminate|cbn; lia]).
  split; intro A.
  - apply andb_prop in A as [A B]. apply N in A, B. lia.
  - apply orb_prop in A as [A|A]; [apply orb_prop in A as [A|A]; [apply orb_prop in A as [A|A]|]|]; apply N in A; lia.
Qed.

(* induction along the recursive calls of stdCompare *)
Lemma std_compare_ind (P : str -> str -> Prop) :
  (forall v1 v2,
     (forall p1 s1 t1 p2 s2 t2, split_version v1 = Ok (p1, s1, t1) -> split_version v2 = Ok (p2, s2, t2) ->
        (nonempty s1 && nonempty s2 = true -> P s1 s2) /\
        (nonempty s1 || nonempty s2 || nonempty t1 || nonempty t2 = true -> P t1 t2)) ->
     P v1 v2) ->
  forall v1 v2, P v1 v2.
Proof.
  intros H v1 v2. remember (length v1 + length v2) as n eqn:En. revert v1 v2 En.
  induction n as [n IH] using lt_wf_ind. intros v1 v2 ->. apply H. intros p1 s1 t1 p2 s2 t2 E1 E2.
  destruct (split_smaller _ _ _ _ _ _ _ _ E1 E2) as [Ls Lt].
  split; intros; (eapply IH; [|reflexivity]); auto.
Qed.

Lemma notpm_no_minus x : forallb notpm x = true -> mem_ascii c_minus x = false.
Proof. now apply forallb_not_mem. Qed.

Lemma notpm_no_plus x : forallb notpm x = true -> mem_ascii c_plus x = false.
Proof. now apply forallb_not_mem. Qed.

Lemma split_simple_eq x :
  forallb notpm x = true -> x <> [] ->
  split_version x =
  match mp_suffix x with
  | Some (c, ds, base) => if ascii_eqb c c_m then Ok (base, ds, []) else Ok (base, [], ds)
  | None => Ok (x, [], [])
  end.
Proof.
  intros H N. destruct x as [|c0 x0]; [congruence|].
  unfold split_version. rewrite (split_on_nodelim c_minus _ (notpm_no_minus _ H)). simpl length.
  change (2 <? 1) with false. cbv iota. rewrite (span_all _ _ H). reflexivity.
Qed.

Lemma split_simple_ok x : forallb notpm x = true -> exists y, split_version x = Ok y.
Proof.
  intro H. destruct x as [|c0 x0]; [eexists; reflexivity|]. rewrite split_simple_eq by (auto; discriminate).
  destruct (mp_suffix (c0 :: x0)) as [[[c ds] base]|]; [destruct (ascii_eqb c c_m)|]; eauto.
Qed.

Lemma sec_ter_ext (rec rec' : str -> str -> res comparison) s1 t1 s2 t2 :
  (nonempty s1 && nonempty s2 = true -> rec s1 s2 = rec' s1 s2) ->
  (nonempty s1 || nonempty s2 || nonempty t1 || nonempty t2 = true -> rec t1 t2 = rec' t1 t2) ->
  sec_ter rec s1 t1 s2 t2 = sec_ter rec' s1 t1 s2 t2.
Proof.
  intros Hs Ht. unfold sec_ter.
  destruct (nonempty s1 || nonempty s2 || nonempty t1 || nonempty t2); [|reflexivity]. rewrite (Ht eq_refl).
  destruct (nonempty s1 || nonempty s2); [|reflexivity].
  destruct (nonempty s1 && nonempty s2); [|reflexivity]. now rewrite (Hs eq_refl).
Qed.

(* one level of stdCompare over the function called for the secondary and tertiary parts *)
Definition scmp_step (fixed : bool) (rec : str -> str -> res comparison) (strict : bool) (v1 v2 : str)
  : res comparison :=
  match split_version v1 with
  | Err e => Err e
  | Ok (p1, s1, t1) =>
      match split_version v2 with
      | Err e => Err e
      | Ok (p2, s2, t2) =>
          if str_eqb p1 p2 then sec_ter rec s1 t1 s2 t2
          else match cmp_primaries strict p1 p2 with
               | Ok Eq => if fixed then sec_ter rec s1 t1 s2 t2 else Ok Eq
               | r => r
               end
      end
  end.

Lemma std_compare_gen_S fixed f strict v1 v2 :
  std_compare_gen fixed (S f) strict v1 v2 = scmp_step fixed (std_compare_gen fixed f false) strict v1 v2.
Proof. reflexivity. Qed.

Lemma scmp_step_ext fixed rec rec' strict v1 v2 :
  (forall a b, length a + length b < length v1 + length v2 -> rec a b = rec' a b) ->
  scmp_step fixed rec strict v1 v2 = scmp_step fixed rec' strict v1 v2.
Proof.
  intro H. unfold scmp_step.
  destruct (split_version v1) as [[[p1 s1] t1]|e1] eqn:E1; [|reflexivity].
  destruct (split_version v2) as [[[p2 s2] t2]|e2] eqn:E2; [|reflexivity].
  destruct (split_smaller _ _ _ _ _ _ _ _ E1 E2) as [Ls Lt].
  now rewrite (sec_ter_ext rec rec' s1 t1 s2 t2) by (intros; apply H; auto).
Qed.

Lemma fuel_indep fixed f1 : forall f2 strict v1 v2,
  length v1 + length v2 < f1 -> length v1 + length v2 < f2 ->
  std_compare_gen fixed f1 strict v1 v2 = std_compare_gen fixed f2 strict v1 v2.
Proof.
  induction f1 as [|f1 IH]; intros [|f2] strict v1 v2 H1 H2; try lia.
  rewrite !std_compare_gen_S. apply scmp_step_ext. intros a b L. apply IH; lia.
Qed.

(* stdCompare with enough fuel *)
Definition scmp (fixed strict : bool) (v1 v2 : str) : res comparison :=
  std_compare_gen fixed (cmp_fuel v1 v2) strict v1 v2.

Lemma std_compare_scmp strict v1 v2 : std_compare strict v1 v2 = scmp true strict v1 v2.
Proof. reflexivity. Qed.

Lemma scmp_unfold fixed strict v1 v2 :
  scmp fixed strict v1 v2 = scmp_step fixed (scmp fixed false) strict v1 v2.
Proof.
  unfold scmp at 1, cmp_fuel. rewrite std_compare_gen_S. apply scmp_step_ext.
  intros a b L. apply fuel_indep; unfold cmp_fuel; lia.
Qed.

Lemma scmp_nil fixed strict : scmp fixed strict [] [] = Ok Eq.
Proof. reflexivity. Qed.

Lemma sec_ter_refl (rec : str -> str -> res comparison) s t :
  (nonempty s = true -> rec s s = Ok Eq) -> rec t t = Ok Eq -> sec_ter rec s t s t = Ok Eq.
Proof.
  intros Hs Ht. unfold sec_ter. destruct (nonempty s); cbn [orb andb].
  - now rewrite (Hs eq_refl).
  - destruct (nonempty t); [assumption|reflexivity].
Qed.

Lemma scmp_refl fixed strict v : (exists y, split_version v = Ok y) -> scmp fixed strict v v = Ok Eq.
Proof.
  enough (H : forall v1 v2, v1 = v2 -> forall strict, (exists y, split_version v1 = Ok y) ->
                            scmp fixed strict v1 v2 = Ok Eq) by now apply H.
  clear. apply (std_compare_ind (fun v1 v2 => v1 = v2 -> forall strict, _ -> scmp fixed strict v1 v2 = Ok Eq)).
  intros v ? IH <- strict [[[p s] t] E].
  rewrite scmp_unfold. unfold scmp_step. rewrite E, str_eqb_refl.
  destruct (IH _ _ _ _ _ _ E E) as [IHs IHt]. apply split_shape in E as (_ & Ns & Nt & _).
  apply sec_ter_refl.
  - intro A. apply IHs; auto using split_simple_ok. now rewrite A.
  - destruct t as [|b t]; [apply scmp_nil|]. apply IHt; auto using split_simple_ok. apply orb_true_r.
Qed.

Lemma all_digits_head d : all_digits d = true -> exists c r, d = c :: r /\ is_digit c = true.
Proof.
  unfold all_digits. destruct d as [|c r]; [discriminate|]. simpl. intro H.
  apply andb_true_iff in H as [H _]. eauto.
Qed.

Lemma all_digits_forall d : all_digits d = true -> forallb is_digit d = true /\ d <> [].
Proof.
  unfold all_digits. intro H. apply andb_true_iff in H as [N D]. split; [assumption|now apply nonempty_true_iff].
Qed.

Lemma decomp_some x pre d :
  decomp x = Some (pre, d) ->
  x = pre ++ d /\ pre <> [] /\ forallb not_digit pre = true /\ all_digits d = true.
Proof.
  unfold decomp. destruct (span not_digit x) as [a b] eqn:E.
  destruct (nonempty a && all_digits b) eqn:C; [|discriminate].
  intros [= <- <-]. apply andb_true_iff in C as [C1 C2].
  split; [now apply span_app in E|]. split; [now apply nonempty_true_iff|]. split; [|assumption].
  eapply span_all_fst; eauto.
Qed.

Lemma decomp_intro pre d :
  pre <> [] -> forallb not_digit pre = true -> all_digits d = true -> decomp (pre ++ d) = Some (pre, d).
Proof.
  intros Hn Hp Hd. destruct (all_digits_head d Hd) as [c [r [-> Hc]]].
  unfold decomp. rewrite span_stop; [|assumption|unfold not_digit; now rewrite Hc].
  apply nonempty_true_iff in Hn. now rewrite Hn, Hd.
Qed.

Lemma mpd_decomp pre y :
  pre <> [] -> forallb not_digit pre = true ->
  match_prefix_digits pre y =
  match decomp y with
  | Some (pre', d2) => if str_eqb pre pre' then Some d2 else None
  | None => None
  end.
Proof.
  intros Hn Hp. unfold match_prefix_digits.
  destruct (starts_with pre y) eqn:S.
  - apply starts_with_app in S. set (r := skipn (length pre) y) in *.
    destruct (all_digits r) eqn:D.
    + rewrite S, (decomp_intro pre r Hn Hp D). now rewrite str_eqb_refl.
    + destruct (decomp y) as [[pre' d2]|] eqn:E; [|reflexivity].
      destruct (str_eqb_spec pre pre') as [<-|]; [|reflexivity].
      apply decomp_some in E as (E & _ & _ & D2). rewrite S in E. apply app_inv_head in E. congruence.
  - destruct (decomp y) as [[pre' d2]|] eqn:E; [|reflexivity].
    destruct (str_eqb_spec pre pre') as [<-|]; [|reflexivity].
    apply decomp_some in E as (E & _). rewrite E, starts_with_refl in S. discriminate.
Qed.

(* the prefix of x that stdCompare would interpolate into a pattern, if there is one, is free of
   metacharacters: on such components the model does not answer Undefined *)
Definition nometa (x : str) : Prop :=
  forall pre d, decomp x = Some (pre, d) -> existsb regex_meta pre = false.

(* the comparison of two components written symmetrically *)
Definition fallback (x y : str) : bool * comparison :=
  match py_int x, py_int y with
  | Some a, Some b => (true, Z.compare a b)
  | _, _ => (false, str_compare x y)
  end.

Lemma cmp_component_alt x y :
  nometa x ->
  cmp_component x y =
  Ok (match decomp x, decomp y with
      | Some (pre, d1), Some (pre', d2) =>
          if str_eqb pre pre' then (true, N.compare (num_of_digits d1) (num_of_digits d2)) else fallback x y
      | _, _ => fallback x y
      end).
Proof.
  intro Hx. unfold cmp_component. fold (fallback x y).
  destruct (decomp x) as [[pre d1]|] eqn:Ex; [|reflexivity].
  rewrite (Hx pre d1 Ex). apply decomp_some in Ex as (_ & Hn & Hp & _).
  rewrite (mpd_decomp pre y Hn Hp). destruct (decomp y) as [[pre' d2]|]; [|reflexivity].
  now destruct (str_eqb pre pre').
Qed.

Definition flip_pair (r : bool * comparison) : bool * comparison := (fst r, CompOpp (snd r)).

Lemma fallback_flip x y : fallback y x = flip_pair (fallback x y).
Proof.
  unfold fallback, flip_pair. destruct (py_int x), (py_int y); simpl; try (now rewrite (ok_anti _ ord_ok_str x y)).
  now rewrite Z.compare_antisym.
Qed.

Lemma cmp_component_flip x y :
  nometa x -> nometa y ->
  exists r, cmp_component x y = Ok r /\ cmp_component y x = Ok (flip_pair r).
Proof.
  intros Hx Hy. rewrite (cmp_component_alt x y Hx), (cmp_component_alt y x Hy).
  eexists. split; [reflexivity|]. f_equal.
  destruct (decomp x) as [[pre d1]|], (decomp y) as [[pre' d2]|]; try apply fallback_flip.
  rewrite (str_eqb_sym pre' pre). destruct (str_eqb pre pre'); [|apply fallback_flip].
  unfold flip_pair. simpl. now rewrite N.compare_antisym.
Qed.

Lemma cmp_component_self y : nometa y -> exists i, cmp_component y y = Ok (i, Eq).
Proof.
  intro Hy. rewrite (cmp_component_alt y y Hy).
  destruct (decomp y) as [[pre dd]|].
  - rewrite str_eqb_refl, N.compare_refl. eauto.
  - unfold fallback. destruct (py_int y).
    + rewrite Z.compare_refl. eauto.
    + rewrite (ok_refl _ ord_ok_str). eauto.
Qed.

Definition flip_res (r : res comparison) : res comparison :=
  match r with Ok c => Ok (CompOpp c) | Err e => Err e end.

(* What the strict mode answers when two components differ otherwise than as numbers: only at the last
   component of one of the lists, and only if one of the two is a prefix of the other, is there an order. *)
Definition prefix_order (x y : str) (r1 r2 : list str) : res comparison :=
  if is_nil r1 || is_nil r2 then
    if starts_with x y then Ok Lt else if starts_with y x then Ok Gt else Err Unsortable
  else Err Unsortable.

Lemma cmp_loop_cons strict x r1 y r2 :
  cmp_loop strict (x :: r1) (y :: r2) =
  match cmp_component x y with
  | Err e => Err e
  | Ok (_, Eq) => cmp_loop strict r1 r2
  | Ok (integral, d) => if strict && negb integral then prefix_order x y r1 r2 else Ok d
  end.
Proof. reflexivity. Qed.

Lemma prefix_order_flip x y r1 r2 : x <> y -> prefix_order y x r2 r1 = flip_res (prefix_order x y r1 r2).
Proof.
  intro N. unfold prefix_order. rewrite (orb_comm (is_nil r2)). destruct (is_nil r1 || is_nil r2); [|reflexivity].
  destruct (starts_with x y) eqn:A, (starts_with y x) eqn:B; try reflexivity.
  destruct N. now apply starts_with_both.
Qed.

Lemma prefix_order_defined x y r1 r2 :
  (exists c, prefix_order x y r1 r2 = Ok c) \/ prefix_order x y r1 r2 = Err Unsortable.
Proof.
  unfold prefix_order. destruct (is_nil r1 || is_nil r2); [|now right].
  destruct (starts_with x y); [left; eauto|]. destruct (starts_with y x); [left; eauto|now right].
Qed.

Lemma cmp_loop_flip strict c1 : forall c2,
  Forall nometa c1 -> Forall nometa c2 ->
  cmp_loop strict c2 c1 = flip_res (cmp_loop strict c1 c2).
Proof.
  induction c1 as [|x r1 IH]; intros [|y r2] H1 H2; try reflexivity.
  inversion H1 as [|? ? Hx Hr1]; inversion H2 as [|? ? Hy Hr2]; subst.
  rewrite !cmp_loop_cons. destruct (cmp_component_flip x y Hx Hy) as [[i d] [E1 E2]]. rewrite E1, E2.
  unfold flip_pair. cbn [fst snd].
  (* two different components: equal ones compare Eq *)
  assert (N : d <> Eq -> x <> y).
  { intros Hd ->. destruct (cmp_component_self y Hy) as [i' E]. congruence. }
  destruct d; cbn [CompOpp]; [now apply IH| |];
    (destruct (strict && negb i); [|reflexivity]; apply prefix_order_flip, N; discriminate).
Qed.

(* a separator never reaches a component, so it may be a metacharacter (the dot is one) *)
Definition safe_char (c : ascii) : bool := negb (regex_meta c) || is_sep c.

Lemma wf_safe c : wf_char c = true -> ascii_eqb c c_plus = false -> safe_char c = true.
Proof.
  unfold wf_char, safe_char. intros W P. rewrite P, orb_false_r in W.
  apply orb_true_iff in W as [W|W]; [|apply ascii_eqb_eq in W; now subst].
  apply orb_true_iff in W as [W|W]; [|now rewrite W, orb_true_r].
  apply orb_true_iff in W as [W|W]; [now rewrite (alpha_not_meta c W)|now rewrite (digit_not_meta c W)].
Qed.

Lemma safe_nonsep_nometa c : safe_char c && negb (is_sep c) = true -> regex_meta c = false.
Proof. unfold safe_char. now destruct (regex_meta c), (is_sep c). Qed.

Lemma split_dotus_chars (q : ascii -> bool) p :
  forallb q p = true ->
  Forall (fun x => forallb (fun c => q c && negb (is_sep c)) x = true) (split_dotus p).
Proof.
  induction p as [|c r IH]; cbn [split_dotus forallb]; intro H.
  - repeat constructor.
  - apply andb_true_iff in H as [Hc Hr]. specialize (IH Hr).
    destruct (is_sep c) eqn:S; [constructor; [reflexivity|assumption]|].
    destruct (split_dotus r) as [|h t].
    + repeat constructor. cbn [forallb]. now rewrite Hc, S.
    + inversion IH; subst. constructor; [|assumption]. cbn [forallb]. now rewrite Hc, S.
Qed.

Lemma nometa_of_chars x : forallb (fun c => safe_char c && negb (is_sep c)) x = true -> nometa x.
Proof.
  intros H pre d E. apply decomp_some in E as (-> & _). rewrite forallb_app in H.
  apply andb_true_iff in H as [H _]. clear d.
  induction pre as [|c pre IH]; [reflexivity|]. cbn [forallb existsb] in *.
  apply andb_true_iff in H as [Hc H]. now rewrite (safe_nonsep_nometa c Hc), IH.
Qed.

Lemma safe_components p :
  forallb wf_char p = true -> mem_ascii c_plus p = false -> Forall nometa (split_dotus p).
Proof.
  intros W P.
  assert (S : forallb safe_char p = true).
  { induction p as [|c r IH]; [reflexivity|]. cbn [forallb mem_ascii] in *.
    apply andb_true_iff in W as [Wc Wr]. destruct (ascii_eqb c_plus c) eqn:Ec; [discriminate|].
    rewrite ascii_eqb_sym in Ec. now rewrite (wf_safe c Wc Ec), IH. }
  apply split_dotus_chars in S. eapply Forall_impl; [|exact S]. intros x. apply nometa_of_chars.
Qed.

(* accepts, as a proposition *)
Definition good (v : str) : Prop :=
  wf_name v = true /\ exists p s t, split_version v = Ok (p, s, t) /\ mem_ascii c_plus p = false.

Lemma accepts_good v : accepts v = true <-> good v.
Proof.
  unfold accepts, good. split.
  - intro H. apply andb_true_iff in H as [W H]. split; [assumption|].
    destruct (split_version v) as [[[p s] t]|]; [|discriminate]. apply negb_true_iff in H. eauto.
  - intros [W [p [s [t [E P]]]]]. now rewrite W, E, P.
Qed.

Lemma good_simple x : wf_name x = true -> forallb notpm x = true -> good x.
Proof.
  intros W N. split; [assumption|]. destruct (split_simple_ok x N) as [[[p s] t] E].
  exists p, s, t. split; [assumption|]. now apply notpm_no_plus, (split_chars x p s t notpm E).
Qed.

Lemma good_parts v :
  good v -> exists p s t, split_version v = Ok (p, s, t) /\ Forall nometa (split_dotus p) /\ good s /\ good t.
Proof.
  intros [W (p & s & t & E & P)]. exists p, s, t. split; [assumption|].
  destruct (split_chars v p s t wf_char E W) as (Wp & Ws & Wt). apply split_shape in E as (_ & Ns & Nt & _).
  split; [now apply safe_components|]. split; now apply good_simple.
Qed.

Lemma good_nil : good [].
Proof. split; [reflexivity|]. exists [], [], []. split; reflexivity. Qed.

Lemma sec_ter_flip (rec : str -> str -> res comparison) s1 t1 s2 t2 :
  (nonempty s1 && nonempty s2 = true -> rec s2 s1 = flip_res (rec s1 s2)) ->
  (nonempty s1 || nonempty s2 || nonempty t1 || nonempty t2 = true -> rec t2 t1 = flip_res (rec t1 t2)) ->
  sec_ter rec s2 t2 s1 t1 = flip_res (sec_ter rec s1 t1 s2 t2).
Proof.
  intros Hs Ht. unfold sec_ter. destruct (nonempty s1), (nonempty s2); cbn [orb andb] in *; try reflexivity.
  - rewrite (Hs eq_refl). destruct (rec s1 s2) as [[| |]|]; try reflexivity. apply (Ht eq_refl).
  - rewrite (orb_comm (nonempty t2)). destruct (nonempty t1 || nonempty t2); [apply (Ht eq_refl)|reflexivity].
Qed.

Lemma scmp_flip fixed strict v1 v2 :
  good v1 -> good v2 -> scmp fixed strict v2 v1 = flip_res (scmp fixed strict v1 v2).
Proof.
  revert strict. pattern v1, v2. apply std_compare_ind. clear v1 v2. intros v1 v2 IH strict G1 G2.
  rewrite !scmp_unfold. unfold scmp_step.
  destruct (good_parts v1 G1) as (p1 & s1 & t1 & E1 & C1 & Gs1 & Gt1).
  destruct (good_parts v2 G2) as (p2 & s2 & t2 & E2 & C2 & Gs2 & Gt2).
  rewrite E1, E2. destruct (IH _ _ _ _ _ _ E1 E2) as [IHs IHt].
  assert (X : sec_ter (scmp fixed false) s2 t2 s1 t1 = flip_res (sec_ter (scmp fixed false) s1 t1 s2 t2))
    by (apply sec_ter_flip; auto).
  rewrite (str_eqb_sym p2 p1). destruct (str_eqb p1 p2); [exact X|].
  unfold cmp_primaries. rewrite (cmp_loop_flip strict _ _ C1 C2).
  destruct (cmp_loop strict (split_dotus p1) (split_dotus p2)) as [[| |]|e]; try reflexivity.
  simpl. destruct fixed; [exact X|reflexivity].
Qed.

Lemma cmp_loop_defined strict c1 : forall c2,
  Forall nometa c1 ->
  (exists c, cmp_loop strict c1 c2 = Ok c) \/ (strict = true /\ cmp_loop strict c1 c2 = Err Unsortable).
Proof.
  induction c1 as [|x r1 IH]; intros [|y r2] H1; try (left; eexists; reflexivity).
  inversion H1 as [|? ? Hx Hr1]; subst. rewrite cmp_loop_cons, (cmp_component_alt x y Hx).
  destruct (match decomp x with Some _ => _ | None => _ end) as [i d].
  destruct d; [now apply IH| |];
    (destruct strict; [|left; eexists; reflexivity]; destruct i; [left; eexists; reflexivity|];
     destruct (prefix_order_defined x y r1 r2) as [?|?]; auto).
Qed.

Lemma sec_ter_defined (rec : str -> str -> res comparison) s1 t1 s2 t2 :
  (nonempty s1 && nonempty s2 = true -> exists c, rec s1 s2 = Ok c) ->
  (nonempty s1 || nonempty s2 || nonempty t1 || nonempty t2 = true -> exists c, rec t1 t2 = Ok c) ->
  exists c, sec_ter rec s1 t1 s2 t2 = Ok c.
Proof.
  intros Hs Ht. unfold sec_ter.
  destruct (nonempty s1 || nonempty s2 || nonempty t1 || nonempty t2); [|eexists; reflexivity].
  destruct (nonempty s1 || nonempty s2); [|exact (Ht eq_refl)].
  destruct (nonempty s1 && nonempty s2); [|destruct (nonempty s1); eexists; reflexivity].
  destruct (Hs eq_refl) as [[| |] ->]; [exact (Ht eq_refl)| |]; eexists; reflexivity.
Qed.

Lemma scmp_defined fixed strict v1 v2 :
  good v1 -> good v2 ->
  (exists c, scmp fixed strict v1 v2 = Ok c) \/ (strict = true /\ scmp fixed strict v1 v2 = Err Unsortable).
Proof.
  revert strict. pattern v1, v2. apply std_compare_ind. clear v1 v2. intros v1 v2 IH strict G1 G2.
  rewrite scmp_unfold. unfold scmp_step.
  destruct (good_parts v1 G1) as (p1 & s1 & t1 & E1 & C1 & Gs1 & Gt1).
  destruct (good_parts v2 G2) as (p2 & s2 & t2 & E2 & C2 & Gs2 & Gt2).
  rewrite E1, E2. destruct (IH _ _ _ _ _ _ E1 E2) as [IHs IHt].
  (* the recursive calls are not strict *)
  assert (X : exists c, sec_ter (scmp fixed false) s1 t1 s2 t2 = Ok c).
  { apply sec_ter_defined; intro A.
    - destruct (IHs A false) as [?|[? _]]; auto; discriminate.
    - destruct (IHt A false) as [?|[? _]]; auto; discriminate. }
  destruct (str_eqb p1 p2); [now left|].
  unfold cmp_primaries. destruct (cmp_loop_defined strict (split_dotus p1) (split_dotus p2) C1) as [[c ->]|[S ->]].
  - destruct c; [destruct fixed; [now left|]| |]; left; eexists; reflexivity.
  - now right.
Qed.
