(* C03 - helper lemmas: entries, first_some, maxima of candidate lists under a total order *)
From Eupsv Require Import Base.Base Base.BaseLemmas Model.Resolve Model.ResolveSpec.
From Coq Require Import Lia.

Lemma entry_eqb_eq a b : entry_eqb a b = true <-> a = b.
Proof.
  split.
  - destruct a, b; intro H; try discriminate H; try reflexivity; f_equal;
      (apply str_eqb_eq || apply Nat.eqb_eq); exact H.
  - intros <-. destruct a; simpl; auto using str_eqb_refl, Nat.eqb_refl.
Qed.

Lemma entry_eqb_refl a : entry_eqb a a = true.
Proof. now apply entry_eqb_eq. Qed.

Lemma entry_eqb_neq a b : entry_eqb a b = false <-> a <> b.
Proof.
  split.
  - intros H ->. now rewrite entry_eqb_refl in H.
  - intro H. destruct (entry_eqb a b) eqn:E; [|reflexivity]. apply entry_eqb_eq in E. contradiction.
Qed.

Lemma mem_entry_In e l : mem_entry e l = true <-> In e l.
Proof.
  induction l as [|x l IH]; simpl; [split; [discriminate|tauto]|].
  destruct (entry_eqb e x) eqn:E.
  - apply entry_eqb_eq in E. subst. split; auto.
  - apply entry_eqb_neq in E. rewrite IH. split; [auto|]. intros [H|H]; [congruence|assumption].
Qed.

Lemma mem_entry_false e l : mem_entry e l = false <-> ~ In e l.
Proof. rewrite <- mem_entry_In. destruct (mem_entry e l); split; congruence. Qed.

Lemma mem_entry_app e a b : mem_entry e (a ++ b) = mem_entry e a || mem_entry e b.
Proof. induction a as [|x a IH]; simpl; [reflexivity|]. destruct (entry_eqb e x); auto. Qed.

Lemma mem_entry_index_of e l : mem_entry e l = match index_of e l with Some _ => true | None => false end.
Proof.
  induction l as [|x l IH]; simpl; [reflexivity|]. destruct (entry_eqb e x); [reflexivity|].
  rewrite IH. now destruct (index_of e l).
Qed.

Lemma index_of_first e pre later :
  ~ In e pre -> index_of e (pre ++ e :: later) = Some (length pre).
Proof.
  induction pre as [|x pre IH]; simpl; intro H.
  - now rewrite entry_eqb_refl.
  - destruct (entry_eqb e x) eqn:E.
    + apply entry_eqb_eq in E. subst. tauto.
    + rewrite IH by tauto. reflexivity.
Qed.

Lemma skipn_after pre (e : entry) later : skipn (S (length pre)) (pre ++ e :: later) = later.
Proof. induction pre as [|x pre IH]; simpl; [reflexivity|exact IH]. Qed.

Lemma existsb_app_vl a b :
  existsb is_version_like (a ++ b) = existsb is_version_like a || existsb is_version_like b.
Proof. apply existsb_app. Qed.

Lemma first_some_app {A B} (g : A -> option B) l1 l2 :
  first_some g (l1 ++ l2) = match first_some g l1 with Some b => Some b | None => first_some g l2 end.
Proof. induction l1 as [|a l1 IH]; simpl; [reflexivity|]. destruct (g a); auto. Qed.

Lemma first_some_none {A B} (g : A -> option B) l :
  (forall a, In a l -> g a = None) -> first_some g l = None.
Proof.
  induction l as [|a l IH]; simpl; intro H; [reflexivity|].
  rewrite (H a) by auto. apply IH. auto.
Qed.

Definition verb (v : str) (p : found) : bool := str_eqb (fd_version p) v.

Lemma find_none_iff {A} (p : A -> bool) l : find p l = None <-> forall x, In x l -> p x = false.
Proof.
  induction l as [|a l IH]; simpl.
  - split; [tauto|reflexivity].
  - destruct (p a) eqn:E.
    + split; [discriminate|]. intro H. rewrite (H a) in E by auto. discriminate.
    + rewrite IH. split; [intros H x [<-|Hx]; auto | auto].
Qed.

Lemma existsb_find {A} (p : A -> bool) l : existsb p l = match find p l with Some _ => true | None => false end.
Proof. induction l as [|a l IH]; simpl; [reflexivity|]. destruct (p a); auto. Qed.

Section Order.
  Variable vcmp : str -> str -> comparison.
  Variable U : list str.
  Hypothesis HT : total_order_on vcmp U.

  Definition le (x y : str) : Prop := vcmp x y <> Gt.

  Lemma vle_refl x : In x U -> le x x.
  Proof. intro H. unfold le. destruct HT as [R _]. rewrite R by assumption. discriminate. Qed.

  Lemma vle_trans x y z : In x U -> In y U -> In z U -> le x y -> le y z -> le x z.
  Proof. destruct HT as [_ [_ [_ T]]]. apply T. Qed.

  Lemma gt_le x y : In x U -> In y U -> vcmp y x = Gt -> le x y.
  Proof.
    intros Hx Hy H. unfold le. destruct HT as [_ [_ [S _]]].
    rewrite (S y x Hy Hx), H. simpl. discriminate.
  Qed.

  Lemma notlt_le x y : In x U -> In y U -> vcmp y x <> Lt -> le x y.
  Proof.
    intros Hx Hy H. unfold le. destruct HT as [_ [_ [S _]]].
    rewrite (S y x Hy Hx). destruct (vcmp y x); simpl; congruence.
  Qed.

  Lemma le_antisym x y : In x U -> In y U -> le x y -> le y x -> x = y.
  Proof.
    intros Hx Hy H1 H2. destruct HT as [_ [E [S _]]]. apply E; try assumption.
    unfold le in *. rewrite (S x y Hx Hy) in H2. destruct (vcmp x y); simpl in *; congruence.
  Qed.

  Definition vers_in_U (l : list found) : Prop := forall q, In q l -> In (fd_version q) U.

  Definition is_best (l : list found) (p : found) : Prop :=
    In p l /\ (forall q, In q l -> le (fd_version q) (fd_version p)) /\ find (verb (fd_version p)) l = Some p.

  Lemma is_best_unique l p q : vers_in_U l -> is_best l p -> is_best l q -> p = q.
  Proof.
    intros HU [Ip [Mp Fp]] [Iq [Mq Fq]].
    assert (E : fd_version p = fd_version q).
    { apply le_antisym; auto. }
    rewrite E in Fp. rewrite Fp in Fq. now injection Fq.
  Qed.

  Lemma verb_refl p : verb (fd_version p) p = true.
  Proof. unfold verb. apply str_eqb_refl. Qed.

  Lemma is_best_single p : In (fd_version p) U -> is_best [p] p.
  Proof.
    intro H. split; [now left|]. split.
    - intros q [<-|[]]. now apply vle_refl.
    - simpl. now rewrite verb_refl.
  Qed.

  Lemma is_best_app A B a b :
    vers_in_U (A ++ B) -> is_best A a -> is_best B b -> is_best (A ++ B) (higher vcmp a b).
  Proof.
    intros HU [Ia [Ma Fa]] [Ib [Mb Fb]].
    assert (HUA : forall q, In q A -> In (fd_version q) U) by (intros q Hq; apply HU, in_or_app; now left).
    assert (HUB : forall q, In q B -> In (fd_version q) U) by (intros q Hq; apply HU, in_or_app; now right).
    assert (KEEP : vcmp (fd_version b) (fd_version a) <> Gt -> is_best (A ++ B) a).
    { intro NG. split; [apply in_or_app; now left|]. split; [|now rewrite find_app, Fa].
      intros q Hq. apply in_app_or in Hq. destruct Hq as [Hq|Hq]; [now apply Ma|].
      apply vle_trans with (fd_version b); auto. }
    unfold higher. destruct (vcmp (fd_version b) (fd_version a)) eqn:E; [apply KEEP; discriminate|apply KEEP; discriminate|].
    split; [apply in_or_app; now right|]. split.
    - intros q Hq. apply in_app_or in Hq. destruct Hq as [Hq|Hq]; [|now apply Mb].
      apply vle_trans with (fd_version a); auto. now apply gt_le; auto.
    - rewrite find_app.
      assert (N : find (verb (fd_version b)) A = None).
      { apply find_none_iff. intros q Hq. unfold verb.
        destruct (str_eqb (fd_version q) (fd_version b)) eqn:Eq; [|reflexivity].
        apply str_eqb_eq in Eq. exfalso. apply (Ma q Hq). now rewrite Eq. }
      now rewrite N.
  Qed.

  Lemma fold_higher_best r : forall A b,
    vers_in_U (A ++ r) -> is_best A b -> is_best (A ++ r) (fold_left (higher vcmp) r b).
  Proof.
    induction r as [|y r IH]; intros A b HU HB; simpl.
    - now rewrite app_nil_r.
    - replace (A ++ y :: r) with ((A ++ [y]) ++ r) by (rewrite <- app_assoc; reflexivity).
      apply IH.
      + rewrite <- app_assoc. exact HU.
      + assert (HU' : vers_in_U (A ++ [y])).
        { intros q Hq. apply HU. apply in_app_or in Hq. apply in_or_app.
          destruct Hq as [Hq|[<-|[]]]; [now left|right; now left]. }
        apply is_best_app; [exact HU'|assumption|]. apply is_best_single, HU', in_or_app. right. now left.
  Qed.

  Lemma highest_best l p : vers_in_U l -> highest vcmp l = Some p -> is_best l p.
  Proof.
    destruct l as [|a l]; simpl; [discriminate|]. intros HU H. injection H as <-.
    change (a :: l) with ([a] ++ l). apply fold_higher_best; [exact HU|].
    apply is_best_single. apply HU. now left.
  Qed.

  Lemma highest_none l : highest vcmp l = None <-> l = [].
  Proof. destruct l; simpl; split; congruence. Qed.

  Lemma best_is_highest l p : vers_in_U l -> is_best l p -> highest vcmp l = Some p.
  Proof.
    intros HU HB. destruct (highest vcmp l) as [q|] eqn:E.
    - f_equal. apply (is_best_unique l); auto. now apply highest_best.
    - apply highest_none in E. subst. destruct HB as [[] _].
  Qed.

  (* one step of python's sort-then-last: the later of two names unless it is strictly below *)
  Lemma later_max b y :
    In b U -> In y U ->
    let m := match vcmp y b with Lt => b | _ => y end in (m = b \/ m = y) /\ le b m /\ le y m.
  Proof.
    intros Hb Hy. cbv zeta. destruct (vcmp y b) eqn:E.
    2: split; [now left|]; split; [now apply vle_refl|unfold le; rewrite E; discriminate].
    all: split; [now right|]; split; [apply notlt_le; auto; rewrite E; discriminate|now apply vle_refl].
  Qed.

  Lemma last_max_fold r : forall b,
    In b U -> (forall q, In q r -> In q U) ->
    let m := fold_left (fun best y => match vcmp y best with Lt => best | _ => y end) r b in
    (m = b \/ In m r) /\ le b m /\ (forall q, In q r -> le q m).
  Proof.
    induction r as [|y r IH]; intros b Hb Hr; simpl.
    - split; [now left|]. split; [now apply vle_refl|tauto].
    - assert (Hy : In y U) by (apply Hr; now left).
      destruct (later_max b y Hb Hy) as [E [Lb Ly]]. cbv zeta in *.
      set (b' := match vcmp y b with Lt => b | _ => y end) in *.
      assert (Hb' : In b' U) by (destruct E as [->| ->]; assumption).
      assert (Hr' : forall q, In q r -> In q U) by (intros q Hq; apply Hr; now right).
      destruct (IH b' Hb' Hr') as [M [L A]]. cbv zeta in *.
      set (m := fold_left _ r b') in *.
      assert (Hm : In m U) by (destruct M as [M|M]; [now rewrite M|auto]).
      split; [destruct M as [M|M]; [rewrite M; destruct E as [->| ->]|]; auto|].
      split; [now apply vle_trans with b'|]. intros q [<-|Hq]; [now apply vle_trans with b'|auto].
  Qed.

  Lemma last_max_spec l :
    (forall q, In q l -> In q U) ->
    match last_max vcmp l with
    | None => l = []
    | Some v => In v l /\ forall q, In q l -> le q v
    end.
  Proof.
    destruct l as [|a l]; simpl; [reflexivity|]. intro H.
    destruct (last_max_fold l a) as [M [L A]]; [apply H; now left|intros q Hq; apply H; now right|].
    cbv zeta in *. split; [destruct M as [->|M]; [now left|now right]|].
    intros q [<-|Hq]; auto.
  Qed.

End Order.
