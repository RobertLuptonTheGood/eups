(* C08, second layer: which declarations and tag assignments are the target of a command.
   Whatever reads the same before and after the completed command reads the same at every crash
   point; the completed undeclare is one ADelDecl on the view, so it changes the declaration it
   names and the tags that point at that version for that flavor, nothing else - in particular not
   the entries of other flavors in the same chain files, whatever versions they point at
   (Props/C08.crash_undeclare_frame), and the state on which that is exercised. *)
From Eupsv Require Import Base.Base Base.BaseLemmas Model.Db Model.Crash Model.CrashDb
  Proofs.DbLib Proofs.Db Proofs.DbSim Proofs.DbInv Proofs.DbCor Proofs.Crash
  Proofs.CrashDbLib Proofs.CrashDb Proofs.CrashDbAct Proofs.CrashDbMain Proofs.CrashDbWitness.

Lemma crash_unchanged_decl f d o es k d' : crash_point f d o es k d' -> forall s n v fl,
  a_decl (view (apply es d)) s n v fl = a_decl (view d) s n v fl ->
  a_decl (view d') s n v fl = a_decl (view d) s n v fl.
Proof.
  intros C s n v fl E. destruct (crash_old_or_new _ _ _ _ _ _ C) as [S1 _].
  destruct (S1 s n v fl) as [H|H]; rewrite H; [reflexivity|exact E].
Qed.

Lemma crash_unchanged_tag f d o es k d' : crash_point f d o es k d' -> forall s n t fl,
  a_tag (view (apply es d)) s n t fl = a_tag (view d) s n t fl ->
  a_tag (view d') s n t fl = a_tag (view d) s n t fl.
Proof.
  intros C s n t fl E. destruct (crash_old_or_new _ _ _ _ _ _ C) as [_ S2].
  destruct (S2 s n t fl) as [H|H]; rewrite H; [reflexivity|exact E].
Qed.

Lemma undeclare_completed d o n vo es s0 v0 :
  effects d (Undeclare o n vo) = Ok es -> undeclare_target (view d) o n vo = Ok (s0, v0) ->
  aeq (view (apply es d)) (if o_noaction o then view d else aapply (ADelDecl s0 n v0 (o_flavor o)) (view d)).
Proof.
  unfold effects, effects_gen. cbn [decide]. unfold undeclare_acts. intros He Ht. rewrite Ht in He.
  destruct (o_noaction o); injection He as <-.
  - apply (compile_all_refines [] d).
  - apply (compile_all_refines [ADelDecl s0 n v0 (o_flavor o)] d).
Qed.

(* declare a 1 -t current (Linux64); declare a 1 -t stable ; declare a 2 -t current (Darwin) ; a 2 -t stable (Darwin) *)
Definition x_hist : list op :=
  [Declare (w_o w_L) (lit "a") (lit "1") (Some (lit "/p/a/1")) None (Some (lit "current"));
   Declare (w_o w_L) (lit "a") (lit "1") None None (Some (lit "stable"));
   Declare (w_o w_D) (lit "a") (lit "2") (Some (lit "/q/a/2")) None (Some (lit "current"));
   Declare (w_o w_D) (lit "a") (lit "2") None None (Some (lit "stable"))].
Definition x_d : db := run false (empty_db w_path) x_hist.
Definition x_f : fs := store_of w_path x_hist.
Definition x_undeclare : op := Undeclare (w_o w_L) (lit "a") (Some (lit "1")).

Lemma x_represents : represents x_f x_d.
Proof. apply reachable_is_represented; reflexivity. Qed.
