(* Several live instances (Model/CacheLive.v): what ensureInSync gives an instance whose cache files
   were rewritten by another instance of the same user.

   [live_ok w loc s ps]: the state of one loaded stack of a live instance between two of its steps --
   every flavor it holds is right, or its cache file was rewritten since the instance loaded or wrote
   it; and when some held file was rewritten, the files of the held flavors are right.  The second half
   is what the write-through of the other instance establishes (persist_ok, save_flavor_ok of
   Proofs/CacheLoad.v, CacheProc.v: the file an instance writes agrees with the database).
   A freshly loaded instance, and an instance right after its own step, satisfy it ([ps_ok_live_ok]). *)
From Eupsv Require Import Base.Base Base.BaseLemmas Model.Db Model.Cache Model.CacheLive.
From Eupsv Require Import Proofs.DbLib Proofs.Db Proofs.DbInv Proofs.DbCor.
From Eupsv Require Import Proofs.CacheLib Proofs.CacheWt Proofs.CacheEff Proofs.CacheU Proofs.CacheInv
  Proofs.CacheLoad Proofs.CacheProc.
From Coq Require Import Lia.

(* the cache file of some held flavor was rewritten since this stack loaded or wrote it *)
Definition held_moved (w : world) (s loc : str) (ps : pstack) : bool :=
  negb (forallb (in_sync w s ps loc) (akeys (ps_lookup ps))).

Definition live_ok (w : world) (loc s : str) (ps : pstack) : Prop :=
  (forall f fd, alookup f (ps_lookup ps) = Some fd -> agree fd (w_db w) s f \/ in_sync w s ps loc f = false) /\
  (held_moved w s loc ps = true ->
   forall f p, alookup f (ps_lookup ps) <> None -> pk_get w loc s f = Some p -> agree (pk_data p) (w_db w) s f).

Lemma sync_held_unmoved w s loc ps : held_moved w s loc ps = false -> ensure_in_sync_held w s loc ps = ps.
Proof.
  unfold held_moved, ensure_in_sync_held. destruct (forallb _ _); [reflexivity|discriminate].
Qed.

Lemma sync_held_moved w s loc ps :
  held_moved w s loc ps = true -> ensure_in_sync_held w s loc ps = reload w loc s (akeys (ps_lookup ps)) ps.
Proof.
  unfold held_moved, ensure_in_sync_held. destruct (forallb _ _); [discriminate|reflexivity].
Qed.


(* when a held file moved, every held flavor that has a cache file holds exactly what the file holds:
   versions, directories, tables and tags -- nothing of the old copy is kept *)
Lemma sync_held_wholesale w s loc ps f p :
  held_moved w s loc ps = true -> alookup f (ps_lookup ps) <> None -> pk_get w loc s f = Some p ->
  alookup f (ps_lookup (ensure_in_sync_held w s loc ps)) = Some (pk_data p).
Proof.
  intros M H P. rewrite (sync_held_moved _ _ _ _ M), reload_lookup.
  assert (E : mem_str f (akeys (ps_lookup ps)) = true) by (apply mem_str_In, alookup_not_None_In; exact H).
  rewrite E, P. reflexivity.
Qed.

Lemma sync_held_no_new_flavor w s loc ps f :
  alookup f (ps_lookup ps) = None -> alookup f (ps_lookup (ensure_in_sync_held w s loc ps)) = None.
Proof.
  intro H. unfold ensure_in_sync_held. destruct (forallb _ _); [exact H|]. rewrite reload_lookup.
  assert (E : mem_str f (akeys (ps_lookup ps)) = false).
  { apply mem_str_not_In. intro HI. apply In_akeys_alookup in HI. contradiction. }
  rewrite E. exact H.
Qed.

Lemma sync_held_agree w s loc ps : live_ok w loc s ps -> lookup_agree (ensure_in_sync_held w s loc ps) (w_db w) s.
Proof.
  intros [H1 H2]. destruct (held_moved w s loc ps) eqn:M.
  - rewrite (sync_held_moved _ _ _ _ M). intros f fd Ef. rewrite reload_lookup in Ef.
    destruct (mem_str f (akeys (ps_lookup ps))) eqn:Em.
    + destruct (pk_get w loc s f) as [p|] eqn:Ep.
      * inversion Ef. subst fd. apply (H2 eq_refl f p); [|exact Ep].
        apply In_akeys_alookup, mem_str_In. exact Em.
      * destruct (H1 f fd Ef) as [A|B]; [exact A|]. unfold in_sync in B. rewrite Ep in B.
        destruct (glookup key_eqb (loc, f) (ps_modtimes ps)); discriminate.
    + apply mem_str_not_In in Em. exfalso. apply Em. apply alookup_not_None_In. congruence.
  - rewrite (sync_held_unmoved _ _ _ _ M). intros f fd Ef. destruct (H1 f fd Ef) as [A|B]; [exact A|].
    unfold held_moved in M. apply Bool.negb_false_iff in M. rewrite forallb_forall in M.
    rewrite (M f) in B; [discriminate|]. apply alookup_not_None_In. congruence.
Qed.

(* a stack that agrees with the files and whose cache files did not move behind its back: a freshly
   loaded instance, an instance right after its own step *)
Lemma ps_ok_live_ok w uo loc s ps : ps_ok w uo s ps -> live_ok w loc s ps.
Proof.
  intro H. split.
  - intros f fd Ef. left. destruct H as [A _]. exact (A f fd Ef).
  - intro M. exfalso. unfold held_moved in M. apply Bool.negb_true_iff in M.
    assert (E : forallb (in_sync w s ps loc) (akeys (ps_lookup ps)) = true).
    { apply forallb_forall. intros fl _. exact (in_sync_true w w uo s ps loc fl eq_refl H). }
    congruence.
Qed.

Lemma alookup_sync_mem pin w loc m s :
  alookup s (sync_mem pin w loc m) =
  match alookup s m with Some ps => Some (ensure_sync pin w s loc ps) | None => None end.
Proof.
  unfold sync_mem. induction m as [|[s' ps] m IH]; cbn [map alookup fst snd]; [reflexivity|].
  destruct (str_eqb_spec s s') as [->|N]; [reflexivity|exact IH].
Qed.

Lemma sync_mem_keys pin w loc m : map fst (sync_mem pin w loc m) = map fst m.
Proof. unfold sync_mem. rewrite map_map. cbn [fst]. reflexivity. Qed.
