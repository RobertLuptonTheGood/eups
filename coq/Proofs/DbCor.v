(* What the commands do to the records: the frame of the actions, a successful step read through its
   actions, and declare, undeclare and the tag commands on the abstract transition and on the files (C06). *)
From Eupsv Require Import Base.Base Base.BaseLemmas Model.Db Proofs.DbLib Proofs.Db Proofs.DbSim Proofs.DbInv.

Definition act_nf (x : aact) : str * str :=
  match x with
  | ASetDecl _ n _ f _ | ADelDecl _ n _ f | ASetTag _ n _ f _ | ADelTag _ n _ f => (n, f)
  end.

Definition act_stack (x : aact) : str :=
  match x with
  | ASetDecl s _ _ _ _ | ADelDecl s _ _ _ | ASetTag s _ _ _ _ | ADelTag s _ _ _ => s
  end.

Lemma tag_points_true_inv a s' n' f' v' s n t f :
  tag_points a s' n' f' v' (s, n, t, f) = true -> s = s' /\ n = n' /\ f = f' /\ a_tag a s n t f = Some v'.
Proof.
  unfold tag_points. intro H.
  destruct (andb4_true _ _ _ _ H) as [H1 [H2 [H3 H4]]]. apply str_eqb_eq in H1, H2, H3.
  apply opt_str_eqb_true in H4. subst. auto.
Qed.

Lemma dkey_eqb_other s n k f s' n' k' f' :
  (n, f) <> (n', f') \/ s <> s' -> dkey_eqb (s, n, k, f) (s', n', k', f') = false.
Proof.
  intro H. apply (geqb_neq dkey_eqb dkey_eqb_eq). intro E. inversion E. subst. destruct H; congruence.
Qed.

Lemma tag_points_other a s n k f s' n' v' f' :
  (n, f) <> (n', f') \/ s <> s' -> tag_points a s' n' f' v' (s, n, k, f) = false.
Proof.
  intro H. destruct (tag_points a s' n' f' v' (s, n, k, f)) eqn:E; [|reflexivity].
  apply tag_points_true_inv in E. destruct E as [? [? [? _]]]. subst. destruct H; congruence.
Qed.

Lemma aapply_frame x a s n k f :
  (n, f) <> act_nf x \/ s <> act_stack x ->
  a_decl (aapply x a) s n k f = a_decl a s n k f /\ a_tag (aapply x a) s n k f = a_tag a s n k f.
Proof.
  intro H. rewrite a_decl_aapply, a_tag_aapply.
  destruct x; cbn [act_nf act_stack] in H;
    rewrite ?(dkey_eqb_other _ _ _ _ _ _ _ _ H), ?(tag_points_other _ _ _ _ _ _ _ _ _ H), ?andb_false_r;
    split; reflexivity.
Qed.

Lemma aapply_all_frame_nf xs nf : Forall (fun x => act_nf x = nf) xs ->
  forall a s n k f, (n, f) <> nf ->
  a_decl (aapply_all xs a) s n k f = a_decl a s n k f /\ a_tag (aapply_all xs a) s n k f = a_tag a s n k f.
Proof.
  induction 1 as [|x xs Hx _ IH]; intros a s n k f N; [split; reflexivity|].
  rewrite aapply_all_cons. destruct (IH (aapply x a) s n k f N) as [-> ->].
  apply aapply_frame. left. congruence.
Qed.

Lemma aapply_all_frame_stack xs s0 : Forall (fun x => act_stack x = s0) xs ->
  forall a s n k f, s <> s0 ->
  a_decl (aapply_all xs a) s n k f = a_decl a s n k f /\ a_tag (aapply_all xs a) s n k f = a_tag a s n k f.
Proof.
  induction 1 as [|x xs Hx _ IH]; intros a s n k f N; [split; reflexivity|].
  rewrite aapply_all_cons. destruct (IH (aapply x a) s n k f N) as [-> ->].
  apply aapply_frame. right. congruence.
Qed.

Definition op_nf (o : op) : str * str := (op_name o, o_flavor (op_opts o)).

Lemma declare_acts1_scope f n v pl : Forall (fun x => act_nf x = (n, f)) (declare_acts1 f n v pl).
Proof.
  unfold declare_acts1. destruct (dp_write pl); [|constructor]. constructor; [reflexivity|].
  destruct (dp_tag pl); repeat constructor.
Qed.

Lemma declare_finish_scope p a f n v pl acts :
  declare_finish p a f n v pl = Ok acts -> Forall (fun x => act_nf x = (n, f)) acts.
Proof.
  intro H. apply declare_finish_shape in H.
  destruct (dp_tag pl) as [x|]; [|subst acts; apply declare_acts1_scope].
  destruct H as [rs [rs' [-> _]]].
  apply Forall_app. split; [apply declare_acts1_scope|]. apply Forall_app. split; [apply deltags_Forall; reflexivity|].
  constructor; [reflexivity|apply deltags_Forall; reflexivity].
Qed.

Definition is_declare (o : op) : bool := match o with Declare _ _ _ _ _ _ => true | _ => false end.

Definition is_assign (o : op) : bool := match o with AssignTag _ _ _ _ => true | _ => false end.

Lemma is_declare_false o : is_declare o = false -> other_than_declare o.
Proof. destruct o; [discriminate|intros _; exact I..]. Qed.

Lemma local_acts_nf a s n f acts : local_acts a s n f acts -> Forall (fun x => act_nf x = (n, f)) acts.
Proof. destruct 1; repeat constructor. Qed.

Lemma local_acts_stack a s n f acts : local_acts a s n f acts -> Forall (fun x => act_stack x = s) acts.
Proof. destruct 1; repeat constructor. Qed.

Lemma decide_scope p a o acts : decide p a o = Ok acts -> Forall (fun x => act_nf x = op_nf o) acts.
Proof.
  destruct (is_declare o) eqn:Eo.
  - destruct o as [o n v dir table t| | | | |]; try discriminate. cbn [decide]. unfold declare_acts.
    destruct (declare_plan a o n v dir table t) as [pl|e]; [|discriminate].
    destruct (o_noaction o); [intro H; inversion H; constructor|]. apply declare_finish_scope.
  - intro H. destruct (decide_local _ _ _ _ (is_declare_false _ Eo) H) as [[s L] _]. apply (local_acts_nf _ _ _ _ _ L).
Qed.

Lemma decide_one_stack p a o acts : is_declare o = false -> decide p a o = Ok acts ->
  exists s0, Forall (fun x => act_stack x = s0) acts.
Proof.
  intros Eo H. destruct (decide_local _ _ _ _ (is_declare_false _ Eo) H) as [[s L] _].
  exists s. apply (local_acts_stack _ _ _ _ _ L).
Qed.

Lemma step_gen_ok p d o d' : step_gen p d o = Ok d' ->
  exists acts, decide p (view d) o = Ok acts /\ d' = apply (compile_all d acts) d.
Proof.
  unfold step_gen, effects_gen. destruct (decide p (view d) o) as [acts|e]; [|discriminate].
  intro H. inversion H. eauto.
Qed.

Lemma compile_all_decl d acts s n v f :
  db_decl (apply (compile_all d acts) d) s n v f = a_decl (aapply_all acts (view d)) s n v f.
Proof. rewrite <- a_decl_view. apply (compile_all_refines acts d). Qed.

Lemma compile_all_tag d acts s n t f :
  db_tag (apply (compile_all d acts) d) s n t f = a_tag (aapply_all acts (view d)) s n t f.
Proof. rewrite <- a_tag_view. apply (compile_all_refines acts d). Qed.

Lemma acts_frame_nf d acts nf : Forall (fun x => act_nf x = nf) acts ->
  forall s n k f, (n, f) <> nf ->
  db_decl (apply (compile_all d acts) d) s n k f = db_decl d s n k f /\
  db_tag (apply (compile_all d acts) d) s n k f = db_tag d s n k f.
Proof.
  intros Hs s n k f N. rewrite compile_all_decl, compile_all_tag, <- a_decl_view, <- a_tag_view.
  apply (aapply_all_frame_nf acts nf Hs). exact N.
Qed.

Lemma step_total_err p d o e : effects_gen p d o = Err e -> step_total p d o = d.
Proof. intro H. unfold step_total, step_gen. rewrite H. reflexivity. Qed.

Lemma noaction_step p d o d' : o_noaction (op_opts o) = true -> is_assign o = false ->
  step_gen p d o = Ok d' -> effects_gen p d o = Ok [] /\ d' = d.
Proof.
  intros Hn Ha. unfold step_gen, effects_gen. destruct (decide p (view d) o) as [acts|e] eqn:E; [|discriminate].
  assert (acts = []); [|subst acts; cbn; intro H; inversion H; auto].
  destruct (is_declare o) eqn:Eo.
  - destruct o as [o n v dir table t| | | | |]; try discriminate. cbn [decide op_opts] in *. unfold declare_acts in E.
    destruct (declare_plan (view d) o n v dir table t); [|discriminate]. rewrite Hn in E. inversion E. reflexivity.
  - destruct (proj2 (decide_local _ _ _ _ (is_declare_false _ Eo) E) Hn) as [->|[o' [t [n [v ->]]]]];
      [reflexivity|discriminate].
Qed.

Lemma deltags_spec rs n x f : forall a,
  (forall s n' t' f', a_tag (aapply_all (map (fun r => ADelTag r n x f) rs) a) s n' t' f' =
     if mem_str s rs && str_eqb n' n && str_eqb t' x && str_eqb f' f then None else a_tag a s n' t' f').
Proof.
  induction rs as [|r rs IH]; intros a s n' t' f'; [reflexivity|].
  cbn [map]. rewrite aapply_all_cons, IH, a_tag_aapply. cbn [mem_str].
  rewrite dkey_eqb_parts.
  destruct (str_eqb_spec s r) as [->|N]; cbn [andb].
  - destruct (mem_str r rs); cbn [andb]; destruct (str_eqb n' n && str_eqb t' x && str_eqb f' f); reflexivity.
  - reflexivity.
Qed.

Lemma declare_acts1_decl f n v pl a s n' v' f' : mem_str (dp_target pl) (apath a) = true ->
  a_decl (aapply_all (declare_acts1 f n v pl) a) s n' v' f' =
  if dp_write pl && dkey_eqb (s, n', v', f') (dp_target pl, n, v, f) then Some (dp_dir pl, dp_table pl)
  else a_decl a s n' v' f'.
Proof.
  intro Hm. unfold declare_acts1. destruct (dp_write pl); cbn [andb]; [|reflexivity].
  rewrite aapply_all_cons.
  assert (Ht : Forall is_tag_act match dp_tag pl with Some x => [ASetTag (dp_target pl) n x f v] | None => [] end)
    by (destruct (dp_tag pl); repeat constructor).
  rewrite (tag_acts_keep_decls _ Ht).
  rewrite a_decl_aapply, Hm. reflexivity.
Qed.

Lemma declare_acts1_tag f n v pl a s n' t' f' : mem_str (dp_target pl) (apath a) = true ->
  a_tag (aapply_all (declare_acts1 f n v pl) a) s n' t' f' =
  match dp_tag pl with
  | Some x => if dp_write pl && dkey_eqb (s, n', t', f') (dp_target pl, n, x, f) then Some v else a_tag a s n' t' f'
  | None => a_tag a s n' t' f'
  end.
Proof.
  intro Hm. unfold declare_acts1. destruct (dp_write pl); cbn [andb].
  - rewrite aapply_all_cons. destruct (dp_tag pl) as [x|].
    + rewrite aapply_all_cons. cbn [aapply_all fold_left]. rewrite a_tag_aapply, apath_aapply, Hm. cbn [andb].
      rewrite a_tag_aapply. reflexivity.
    + cbn [aapply_all fold_left]. rewrite a_tag_aapply. reflexivity.
  - destruct (dp_tag pl); reflexivity.
Qed.

Lemma find_tagged_single a r n x f : no_dangling a ->
  is_some (find_tagged a [r] n x f) = is_some (a_tag a r n x f).
Proof.
  intro H. cbn [find_tagged]. destruct (a_tag a r n x f) as [v0|] eqn:E; [|reflexivity].
  specialize (H _ _ _ _ _ E). destruct (a_decl a r n v0 f); [reflexivity|congruence].
Qed.

Lemma declare_finish_new_unfold a f n v pl :
  declare_finish false a f n v pl =
  match dp_tag pl with
  | None => Ok (declare_acts1 f n v pl)
  | Some x =>
      let a1 := aapply_all (declare_acts1 f n v pl) a in
      match find_exact a1 [dp_target pl; dp_target pl] n v f with
      | Some (s', _) =>
          Ok (declare_acts1 f n v pl ++ ASetTag s' n x f v ::
              map (fun r => ADelTag r n x f) (other_occurrences (aapply (ASetTag s' n x f v) a1) s' n x f))
      | None => Err NotFound
      end
  end.
Proof. reflexivity. Qed.

(* the tag after a declaration that assigns one (assigned first, then removed from the other stacks) *)
Lemma declare_finish_tag a f n v pl acts x : no_dangling a ->
  mem_str (dp_target pl) (apath a) = true -> dp_tag pl = Some x ->
  declare_finish false a f n v pl = Ok acts ->
  forall s n' t' f',
  a_tag (aapply_all acts a) s n' t' f' =
  if str_eqb n' n && str_eqb t' x && str_eqb f' f
  then (if str_eqb s (dp_target pl) then Some v else if mem_str s (apath a) then None else a_tag a s n' t' f')
  else a_tag a s n' t' f'.
Proof.
  intros Hnd Hm Et. rewrite declare_finish_new_unfold, Et. cbv zeta.
  set (acts1 := declare_acts1 f n v pl). set (a1 := aapply_all acts1 a).
  destruct (find_exact a1 [dp_target pl; dp_target pl] n v f) as [[s' r]|] eqn:Ef; [|discriminate].
  destruct (find_exact_twice _ _ _ _ _ _ _ Ef) as [-> Hd1].
  set (a2 := aapply (ASetTag (dp_target pl) n x f v) a1).
  intro H. inversion H. subst acts. clear H. intros s n' t' f'.
  assert (Hnd1 : no_dangling a1).
  { unfold a1. apply aapply_all_no_dangling; [exact Hnd|]. apply declare_acts1_ok. exact Hm. }
  assert (Hnd2 : no_dangling a2).
  { unfold a2. apply aapply_no_dangling; [exact Hnd1|]. cbn [act_ok]. rewrite Hd1. discriminate. }
  assert (Hp1 : apath a1 = apath a) by (unfold a1; apply apath_aapply_all).
  assert (Hp2 : apath a2 = apath a) by (unfold a2; rewrite apath_aapply; exact Hp1).
  (* the tag once it is assigned: Some v at the key it is assigned to, elsewhere as in a *)
  assert (A2 : forall s n' t' f', a_tag a2 s n' t' f' =
            if str_eqb s (dp_target pl) && (str_eqb n' n && (str_eqb t' x && str_eqb f' f)) then Some v
            else a_tag a s n' t' f').
  { intros s0 n0 t0 f0. unfold a2. rewrite a_tag_aapply, Hp1, Hm. unfold a1, acts1.
    rewrite (declare_acts1_tag f n v pl a _ _ _ _ Hm), Et, dkey_eqb_parts, <- !andb_assoc. cbn [andb].
    destruct (str_eqb s0 (dp_target pl) && _); [|rewrite andb_false_r]; reflexivity. }
  rewrite aapply_all_app. fold a1. rewrite aapply_all_cons. fold a2.
  rewrite deltags_spec. unfold other_occurrences.
  rewrite mem_str_filter, (find_tagged_single a2 _ _ _ _ Hnd2), Hp2, !A2, <- !andb_assoc.
  destruct (str_eqb n' n && (str_eqb t' x && str_eqb f' f)) eqn:K; [|rewrite !andb_false_r; reflexivity].
  apply andb_true_iff in K. destruct K as [K1 K]. apply andb_true_iff in K. destruct K as [K2 K3].
  apply str_eqb_eq in K1, K2, K3. subst n' t' f'. rewrite !andb_true_r.
  destruct (str_eqb_spec s (dp_target pl)) as [->|Ns]; cbn [andb negb].
  - rewrite andb_false_r. reflexivity.
  - destruct (mem_str s (apath a)); cbn [andb]; [|reflexivity].
    destruct (a_tag a s n x f); reflexivity.
Qed.

Lemma view_target_has_stack d tg : mem_str tg (apath (view d)) = true <-> has_stack d tg = true.
Proof. rewrite apath_view, has_stack_path. tauto. Qed.

Lemma declare_step p d o n v dir table t d' :
  o_noaction o = false -> step_gen p d (Declare o n v dir table t) = Ok d' ->
  exists pl acts,
    declare_plan (view d) o n v dir table t = Ok pl /\
    declare_finish p (view d) (o_flavor o) n v pl = Ok acts /\
    has_stack d (dp_target pl) = true /\
    d' = apply (compile_all d acts) d.
Proof.
  intros Hn H. destruct (step_gen_ok _ _ _ _ H) as [acts [Hd ->]].
  cbn [decide] in Hd. unfold declare_acts in Hd.
  destruct (declare_plan (view d) o n v dir table t) as [pl|e] eqn:Ep; [|discriminate].
  rewrite Hn in Hd. exists pl, acts. repeat split; auto.
  apply view_target_has_stack. apply (declare_plan_target _ _ _ _ _ _ _ _ Ep).
Qed.

Lemma finish_decls p d f n v pl acts :
  declare_finish p (view d) f n v pl = Ok acts -> has_stack d (dp_target pl) = true ->
  forall s n' v' f',
    db_decl (apply (compile_all d acts) d) s n' v' f' =
    if dp_write pl && dkey_eqb (s, n', v', f') (dp_target pl, n, v, f)
    then Some (dp_dir pl, dp_table pl) else db_decl d s n' v' f'.
Proof.
  intros Hf Hs s n' v' f'. apply view_target_has_stack in Hs.
  rewrite compile_all_decl, <- (a_decl_view d). apply declare_finish_shape in Hf.
  destruct (dp_tag pl) as [x|]; [|subst acts; apply declare_acts1_decl; exact Hs].
  destruct Hf as [rs [rs' [-> _]]]. rewrite aapply_all_app, tag_acts_keep_decls.
  - apply declare_acts1_decl. exact Hs.
  - apply Forall_app. split; [apply deltags_Forall; exact (fun _ => I)|]. constructor; [exact I|apply deltags_Forall; exact (fun _ => I)].
Qed.

Lemma finish_tags d f n v pl acts :
  no_dangling (view d) ->
  declare_finish false (view d) f n v pl = Ok acts -> has_stack d (dp_target pl) = true ->
  forall s n' t' f',
    db_tag (apply (compile_all d acts) d) s n' t' f' =
    match dp_tag pl with
    | None => db_tag d s n' t' f'
    | Some x =>
        if str_eqb n' n && str_eqb t' x && str_eqb f' f
        then (if str_eqb s (dp_target pl) then Some v else None)
        else db_tag d s n' t' f'
    end.
Proof.
  intros Hnd Hf Hs s n' t' f'. apply view_target_has_stack in Hs.
  rewrite compile_all_tag. destruct (dp_tag pl) as [x|] eqn:Et.
  - rewrite (declare_finish_tag _ _ _ _ _ _ x Hnd Hs Et Hf), a_tag_view.
    destruct (str_eqb n' n && str_eqb t' x && str_eqb f' f); [|reflexivity].
    destruct (str_eqb s (dp_target pl)); [reflexivity|].
    rewrite apath_view, has_stack_path. destruct (has_stack d s) eqn:Es; [reflexivity|].
    apply db_tag_no_stack. exact Es.
  - apply declare_finish_shape in Hf. rewrite Et in Hf. subst acts.
    unfold declare_acts1. rewrite Et. destruct (dp_write pl); [|apply a_tag_view].
    cbn [aapply_all fold_left]. rewrite a_tag_aapply. apply a_tag_view.
Qed.

Lemma decl_findable a tg n v f r : mem_str tg (apath a) = true -> a_decl a tg n v f = Some r ->
  findable a n (fallbacks f) = true.
Proof.
  intros Hm Hd. unfold findable.
  destruct (decl_versions a (apath a) (fallbacks f) n) as [|x l] eqn:E; [|reflexivity].
  exfalso. assert (Hin : In (v, f) (decl_versions a (apath a) (fallbacks f) n)).
  { apply decl_versions_In. exists tg. repeat split; [exact Hm| |congruence].
    cbn. rewrite str_eqb_refl. reflexivity. }
  rewrite E in Hin. exact Hin.
Qed.

Definition declare_target (a : adb) (o : opts) : option str :=
  match o_stack o with Some s => Some s | None => hd_error (apath a) end.

(* with the directory given, and the table given or no tag asked for, nothing is completed from an
   existing declaration: the request goes to the redeclaration check as it stands *)
Lemma plan_given a o n v dir table t tg : declare_target a o = Some tg -> mem_str tg (apath a) = true ->
  table <> None \/ t = None ->
  declare_plan a o n v (Some dir) table t =
  redeclare (o_force o) dir (match table with Some x => x | None => default_table dir n end) tg
    (plan_tag a o n t) (a_decl a tg n v (o_flavor o)).
Proof.
  unfold declare_target. intros Ht Hm Hg. rewrite declare_plan_stages. cbv zeta. cbn [plan_dir].
  rewrite Ht, Hm. cbn [negb]. f_equal. unfold plan_table, plan_info.
  destruct table as [tb|]; [reflexivity|]. destruct Hg as [Hg| ->]; [congruence|reflexivity].
Qed.

Lemma undeclare_target_found a o n vo s' v : undeclare_target a o n vo = Ok (s', v) ->
  exists r, a_decl a s' n v (o_flavor o) = Some r /\ In s' (roots_of a (o_stack o)).
Proof.
  unfold undeclare_target.
  destruct (match vo with Some v0 => Ok v0 | None => _ end) as [v0|e]; [|discriminate].
  destruct (find_exact a _ n v0 _) as [[s0 r]|] eqn:E; [|discriminate].
  intro H. inversion H. subst. apply find_exact_some in E. destruct E. eauto.
Qed.

Lemma undeclare_step p d o n vo d' :
  o_noaction o = false -> step_gen p d (Undeclare o n vo) = Ok d' ->
  exists s' v r,
    undeclare_target (view d) o n vo = Ok (s', v) /\
    db_decl d s' n v (o_flavor o) = Some r /\
    (forall s n' v' f', db_decl d' s n' v' f' =
       if dkey_eqb (s, n', v', f') (s', n, v, o_flavor o) then None else db_decl d s n' v' f') /\
    (forall s n' t f', db_tag d' s n' t f' =
       if str_eqb s s' && str_eqb n' n && str_eqb f' (o_flavor o) && opt_str_eqb (db_tag d s n' t f') v
       then None else db_tag d s n' t f').
Proof.
  intros Hn H. destruct (step_gen_ok _ _ _ _ H) as [acts [Hd ->]].
  destruct (undeclare_acts_ok _ _ _ _ _ Hd) as [s' [v [Et Ha]]]. rewrite Hn in Ha. subst acts.
  destruct (undeclare_target_found _ _ _ _ _ _ Et) as [r [Hr _]].
  exists s', v, r. split; [exact Et|]. rewrite <- a_decl_view. split; [exact Hr|]. split; intros.
  - rewrite compile_all_decl. cbn [aapply_all fold_left]. rewrite a_decl_aapply, Hr, a_decl_view. reflexivity.
  - rewrite compile_all_tag. cbn [aapply_all fold_left]. rewrite a_tag_aapply, Hr. cbn [is_some andb].
    unfold tag_points. rewrite !a_tag_view. reflexivity.
Qed.

Lemma assign_step p d o t n v d' : step_gen p d (AssignTag o t n v) = Ok d' ->
  exists s' r,
    find_exact (view d) (roots_of (view d) (o_stack o)) n v (o_flavor o) = Some (s', r) /\
    (forall s n' v' f', db_decl d' s n' v' f' = db_decl d s n' v' f') /\
    (forall s n' t' f', db_tag d' s n' t' f' =
       if dkey_eqb (s, n', t', f') (s', n, t, o_flavor o) then Some v else db_tag d s n' t' f').
Proof.
  intro H. destruct (step_gen_ok _ _ _ _ H) as [acts [Hd ->]].
  destruct (assign_acts_ok _ _ _ _ _ _ Hd) as [s' [r [E ->]]]. exists s', r. split; [exact E|].
  apply find_exact_some in E. destruct E as [_ E].
  assert (Hm : mem_str s' (apath (view d)) = true).
  { apply view_target_has_stack. rewrite a_decl_view in E. apply (db_decl_has_stack _ _ _ _ _ _ E). }
  split; intros.
  - rewrite compile_all_decl. cbn [aapply_all fold_left]. rewrite a_decl_aapply. apply a_decl_view.
  - rewrite compile_all_tag. cbn [aapply_all fold_left]. rewrite a_tag_aapply, Hm, a_tag_view. reflexivity.
Qed.

Lemma unassign_step p d o t n vo d' : step_gen p d (UnassignTag o t n vo) = Ok d' ->
  (forall s n' v' f', db_decl d' s n' v' f' = db_decl d s n' v' f') /\
  exists so : option str,
    forall s n' t' f', db_tag d' s n' t' f' =
      if match so with Some s0 => dkey_eqb (s, n', t', f') (s0, n, t, o_flavor o) | None => false end
      then None else db_tag d s n' t' f'.
Proof.
  intro H. destruct (step_gen_ok _ _ _ _ H) as [acts [Hd ->]].
  cbn [decide] in Hd. destruct (unassign_acts_shape _ _ _ _ _ _ Hd) as [->|[s0 ->]].
  - split; [intros; rewrite compile_all_decl; apply a_decl_view|].
    exists None. intros. rewrite compile_all_tag. apply a_tag_view.
  - split; [intros; rewrite compile_all_decl; cbn [aapply_all fold_left]; rewrite a_decl_aapply; apply a_decl_view|].
    exists (Some s0). intros. rewrite compile_all_tag. cbn [aapply_all fold_left].
    rewrite a_tag_aapply, a_tag_view. reflexivity.
Qed.

Lemma find_tagged_unique a roots n x f tg v :
  In tg roots -> a_decl a tg n v f <> None ->
  (forall s, In s roots -> a_tag a s n x f = if str_eqb s tg then Some v else None) ->
  find_tagged a roots n x f = Some (tg, v).
Proof.
  induction roots as [|s0 rs IH]; intros Hin Hd Ht; [contradiction|].
  cbn [find_tagged]. rewrite (Ht s0 (or_introl eq_refl)).
  destruct (str_eqb_spec s0 tg) as [->|N].
  - destruct (a_decl a tg n v f); [reflexivity|congruence].
  - apply IH; [destruct Hin; [contradiction|assumption]|exact Hd|]. intros s Hs. apply Ht. right. exact Hs.
Qed.

Lemma declare_plan_tag a o n v dir table x pl :
  declare_plan a o n v dir table (Some x) = Ok pl -> dp_tag pl = Some x.
Proof. intro H. destruct (declare_plan_ok _ _ _ _ _ _ _ _ H) as [d [tg [_ [_ [_ ->]]]]]. reflexivity. Qed.

Lemma path_step p d o d' : step_gen p d o = Ok d' -> map fst d' = map fst d.
Proof.
  unfold step_gen. destruct (effects_gen p d o); [|discriminate]. intro H. inversion H. apply path_apply.
Qed.

Lemma step_no_dangling p d o d' : no_dangling (view d) -> step_gen p d o = Ok d' -> no_dangling (view d').
Proof.
  intros H E. pose proof (step_total_no_dangling p d o H) as H1. unfold step_total in H1. rewrite E in H1. exact H1.
Qed.

Lemma no_dangling_db d : no_dangling (view d) <->
  forall s n t f v, db_tag d s n t f = Some v -> db_decl d s n v f <> None.
Proof.
  unfold no_dangling. split; intros H s n t f v Hv.
  - rewrite <- a_decl_view. apply (H s n t f v). rewrite a_tag_view. exact Hv.
  - rewrite a_decl_view. apply (H s n t f v). rewrite <- a_tag_view. exact Hv.
Qed.

Lemma step_keeps_stack p d o d' s : step_gen p d o = Ok d' -> has_stack d s = true -> In s (map fst d').
Proof. intros H Hs. rewrite (path_step _ _ _ _ H). apply mem_str_In. rewrite has_stack_path. exact Hs. Qed.

Lemma find_tagged_only d tg n x f v : no_dangling (view d) -> In tg (map fst d) ->
  (forall s, db_tag d s n x f = if str_eqb s tg then Some v else None) ->
  find_tagged (view d) (map fst d) n x f = Some (tg, v).
Proof.
  intros Hnd Hin Ha. apply find_tagged_unique; [exact Hin| |intros s _; rewrite a_tag_view; apply Ha].
  apply (Hnd tg n x). rewrite a_tag_view, Ha, str_eqb_refl. reflexivity.
Qed.

(* a declaration with the directory given, and the table given or no tag asked for: its plan is known,
   the record is rewritten exactly when it is new or forced *)
Lemma declare_given_step p d o n v dir table t tg d' :
  declare_target (view d) o = Some tg -> has_stack d tg = true -> o_noaction o = false ->
  table <> None \/ t = None ->
  step_gen p d (Declare o n v (Some dir) table t) = Ok d' ->
  exists acts,
    declare_finish p (view d) (o_flavor o) n v
      (mkPlan dir (match table with Some x => x | None => default_table dir n end) tg (plan_tag (view d) o n t)
         match db_decl d tg n v (o_flavor o) with Some _ => o_force o | None => true end) = Ok acts /\
    d' = apply (compile_all d acts) d.
Proof.
  intros Ht Hs Hn Hg H. destruct (declare_step _ _ _ _ _ _ _ _ _ Hn H) as [pl [acts [Hp [Hf [_ ->]]]]].
  rewrite (plan_given _ _ _ _ _ _ _ _ Ht (proj2 (view_target_has_stack d tg) Hs) Hg), a_decl_view in Hp.
  apply redeclare_ok in Hp. subst pl. eauto.
Qed.

Lemma declare_given_recorded p d o n v dir table t tg d' :
  declare_target (view d) o = Some tg -> has_stack d tg = true -> o_noaction o = false ->
  table <> None \/ t = None ->
  o_force o = true \/ db_decl d tg n v (o_flavor o) = None ->
  step_gen p d (Declare o n v (Some dir) table t) = Ok d' ->
  db_decl d' tg n v (o_flavor o) = Some (dir, match table with Some x => x | None => default_table dir n end).
Proof.
  intros Ht Hs Hn Hg Hc H. destruct (declare_given_step _ _ _ _ _ _ _ _ _ _ Ht Hs Hn Hg H) as [acts [Hf ->]].
  rewrite (finish_decls _ _ _ _ _ _ _ Hf Hs). cbn [dp_write dp_target dp_dir dp_table]. rewrite dkey_eqb_refl.
  destruct Hc as [Hc|Hc]; rewrite Hc; [destruct (db_decl d tg n v (o_flavor o))|]; reflexivity.
Qed.

Lemma declare_finish_total p a f n v pl :
  mem_str (dp_target pl) (apath a) = true ->
  (dp_write pl = false -> a_decl a (dp_target pl) n v f <> None) ->
  exists acts, declare_finish p a f n v pl = Ok acts.
Proof.
  intros Hm Hw.
  assert (D : exists r, a_decl (aapply_all (declare_acts1 f n v pl) a) (dp_target pl) n v f = Some r).
  { rewrite (declare_acts1_decl f n v pl a _ _ _ _ Hm), dkey_eqb_refl, andb_true_r.
    destruct (dp_write pl); [eauto|].
    destruct (a_decl a (dp_target pl) n v f); [eauto|]. exfalso. apply Hw; reflexivity. }
  destruct D as [r D]. unfold declare_finish. destruct p.
  - unfold declare_finish_old. destruct (dp_tag pl) as [x|]; [|eauto]. cbv zeta. cbn [find_exact].
    rewrite (tag_acts_keep_decls _ (deltags_Forall _ _ _ _ _ (fun _ => I))), D. eauto.
  - unfold declare_finish_new. destruct (dp_tag pl) as [x|]; [|eauto]. cbv zeta. cbn [find_exact].
    rewrite D. eauto.
Qed.

Lemma declare_error_is_planning_error p a o n v dir table t e :
  decide p a (Declare o n v dir table t) = Err e -> declare_plan a o n v dir table t = Err e.
Proof.
  cbn [decide]. unfold declare_acts. destruct (declare_plan a o n v dir table t) as [pl|e'] eqn:Ep.
  - destruct (o_noaction o); [discriminate|].
    destruct (declare_finish_total p a (o_flavor o) n v pl) as [acts Ha].
    + apply (declare_plan_target _ _ _ _ _ _ _ _ Ep).
    + destruct (declare_plan_ok _ _ _ _ _ _ _ _ Ep) as [d0 [tg [_ [_ [_ ->]]]]]. cbn [dp_write dp_target].
      destruct (a_decl a tg n v (o_flavor o)); discriminate.
    + rewrite Ha. discriminate.
  - intro H. inversion H. reflexivity.
Qed.
