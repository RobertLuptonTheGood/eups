(* The in-memory write-through of the ProductStack follows the database: if the loaded data of
   a stack agrees with the files before a record-level action, the updated data agrees with
   the files after it (repaired removeVersion).  What an action makes of the versions, tags and user
   tags of its product is written once, as functions on lookups ([upd_decl], [upd_tag], [upd_utag]);
   the data ([wt_act_spec]) and the files ([compile_spec]) are each shown to follow them.
   Also: refreshFromDatabase yields data that agrees with the files, for every flavor. *)
From Eupsv Require Import Base.Base Base.BaseLemmas Model.Db Model.Cache.
From Eupsv Require Import Proofs.DbLib Proofs.Db Proofs.DbSim Proofs.DbInv Proofs.DbCor Proofs.CacheLib.
From Coq Require Import Lia.

Definition agree_n (fd : fdata) (d : db) (s f n : str) : Prop :=
  (forall v, fd_decl fd n v = db_decl d s n v f) /\ (forall t, fd_tag fd n t = db_tag d s n t f).

Definition agree (fd : fdata) (d : db) (s f : str) : Prop := forall n, agree_n fd d s f n.

Definition lookup_agree (ps : pstack) (d : db) (s : str) : Prop :=
  forall f fd, alookup f (ps_lookup ps) = Some fd -> agree fd d s f.

Definition act_flavor (x : aact) : str := snd (act_nf x).
Definition act_name (x : aact) : str := fst (act_nf x).

Lemma act_root_stack x : act_root x = act_stack x.
Proof. destruct x; reflexivity. Qed.

Lemma act_nf_eq x : act_nf x = (act_name x, act_flavor x).
Proof. apply surjective_pairing. Qed.

Lemma fd_decl_aset n fm fd n' v :
  fd_decl (aset n fm fd) n' v = if str_eqb n' n then alookup v (f_versions fm) else fd_decl fd n' v.
Proof. unfold fd_decl. rewrite alookup_aset. destruct (str_eqb n' n); reflexivity. Qed.

Lemma fd_tag_aset n fm fd n' t :
  fd_tag (aset n fm fd) n' t = if str_eqb n' n then alookup t (f_tags fm) else fd_tag fd n' t.
Proof. unfold fd_tag. rewrite alookup_aset. destruct (str_eqb n' n); reflexivity. Qed.

Lemma fd_decl_aremove n fd n' v :
  fd_decl (aremove n fd) n' v = if str_eqb n' n then None else fd_decl fd n' v.
Proof. unfold fd_decl. rewrite alookup_aremove. destruct (str_eqb n' n); reflexivity. Qed.

Lemma fd_tag_aremove n fd n' t :
  fd_tag (aremove n fd) n' t = if str_eqb n' n then None else fd_tag fd n' t.
Proof. unfold fd_tag. rewrite alookup_aremove. destruct (str_eqb n' n); reflexivity. Qed.

Lemma mem_tags_of_version v tags t : mem_str t (tags_of_version v tags) = opt_str_eqb (alookup t tags) v.
Proof.
  unfold tags_of_version. rewrite mem_str_filter.
  destruct (alookup t tags) as [v'|] eqn:E; cbn [opt_str_eqb].
  - assert (H : mem_str t (akeys tags) = true).
    { apply mem_str_In. apply alookup_not_None_In. congruence. }
    rewrite H. reflexivity.
  - rewrite andb_false_r. reflexivity.
Qed.

Lemma fd_utag_aset n fm fd n' t :
  fd_utag (aset n fm fd) n' t = if str_eqb n' n then alookup t (f_utags fm) else fd_utag fd n' t.
Proof. unfold fd_utag. rewrite alookup_aset. destruct (str_eqb n' n); reflexivity. Qed.

Lemma fd_utag_aremove n fd n' t :
  fd_utag (aremove n fd) n' t = if str_eqb n' n then None else fd_utag fd n' t.
Proof. unfold fd_utag. rewrite alookup_aremove. destruct (str_eqb n' n); reflexivity. Qed.

Lemma alookup_fold_aset v l : forall (m : amap str) t,
  alookup t (fold_left (fun m t => aset t v m) l m) = if mem_str t l then Some v else alookup t m.
Proof.
  induction l as [|t0 l IH]; intros m t; cbn [fold_left mem_str]; [reflexivity|].
  rewrite IH, alookup_aset. destruct (str_eqb t t0); [|reflexivity]. destruct (mem_str t l); reflexivity.
Qed.

Definition ps_upd (ps ps' : pstack) (f : str) (fd' : fdata) : Prop :=
  ps_modtimes ps' = ps_modtimes ps /\
  forall f', alookup f' (ps_lookup ps') = if str_eqb f' f then Some fd' else alookup f' (ps_lookup ps).

Lemma ps_upd_refl ps f fd : alookup f (ps_lookup ps) = Some fd -> ps_upd ps ps f fd.
Proof. intro H. split; [reflexivity|]. intro f'. destruct (str_eqb_spec f' f) as [->|]; [exact H|reflexivity]. Qed.

Lemma ps_upd_set ps f n fm fd : alookup f (ps_lookup ps) = Some fd -> ps_upd ps (ps_set_family ps f n fm) f (aset n fm fd).
Proof. intro H. unfold ps_set_family. rewrite H. split; [reflexivity|]. intro f'. apply alookup_aset. Qed.

Lemma ps_upd_del ps f n fd : alookup f (ps_lookup ps) = Some fd -> ps_upd ps (ps_del_family ps f n) f (aremove n fd).
Proof. intro H. unfold ps_del_family. rewrite H. split; [reflexivity|]. intro f'. apply alookup_aset. Qed.

Lemma ps_upd_keys ps ps' f fd' : ps_upd ps ps' f fd' ->
  forall f0, alookup f0 (ps_lookup ps) <> None -> alookup f0 (ps_lookup ps') <> None.
Proof. intros [_ H] f0 K. rewrite H. destruct (str_eqb f0 f); [discriminate|exact K]. Qed.

Lemma ps_family_fam ps f n fd : alookup f (ps_lookup ps) = Some fd -> ps_family ps f n = alookup n fd.
Proof. intro H. unfold ps_family. rewrite H. reflexivity. Qed.

(* the versions, tags and user tags of the product of a record-level action after it, as functions of
   what they were before: the files and the loaded data are both shown to follow these *)
Definition upd_decl (x : aact) (D : str -> option vrec) (k : str) : option vrec :=
  match x with
  | ASetDecl _ _ v _ r => if str_eqb k v then Some r else D k
  | ADelDecl _ _ v _ => if str_eqb k v then None else D k
  | _ => D k
  end.

Definition upd_tag (x : aact) (T : str -> option str) (k : str) : option str :=
  match x with
  | ADelDecl _ _ v _ => if opt_str_eqb (T k) v then None else T k
  | ASetTag _ _ t _ v => if str_eqb k t then Some v else T k
  | ADelTag _ _ t _ => if str_eqb k t then None else T k
  | ASetDecl _ _ _ _ _ => T k
  end.

Definition upd_utag (x : aact) (uts : str -> str -> str -> str -> list str) (U : str -> option str) (k : str)
  : option str :=
  match x with
  | ASetDecl s n v f _ => if mem_str k (uts s n v f) then Some v else U k
  | ADelDecl _ _ v _ => if opt_str_eqb (U k) v then None else U k
  | _ => U k
  end.

(* every tag names a version that is there *)
Definition closed (D : str -> option vrec) (T : str -> option str) : Prop := forall t v, T t = Some v -> D v <> None.

Lemma closed_not_tagged D T v : closed D T -> D v = None -> forall k, opt_str_eqb (T k) v = false.
Proof.
  intros C H k. destruct (opt_str_eqb (T k) v) eqn:E; [|reflexivity]. apply opt_str_eqb_true in E.
  exfalso. exact (C k v E H).
Qed.

Lemma wt_act_total uts x ps fd : alookup (act_flavor x) (ps_lookup ps) = Some fd ->
  match x with ASetTag _ n _ _ v => fd_decl fd n v <> None | _ => True end ->
  exists r, wt_act false uts x ps = Ok r.
Proof.
  intros Efd P. destruct x as [s n v f r|s n v f|s n t f v|s n t f]; cbn [act_flavor act_nf snd] in Efd; cbn [wt_act];
    rewrite (ps_family_fam _ _ _ _ Efd).
  - eexists. reflexivity.
  - destruct (alookup n fd) as [fm|]; [|eexists; reflexivity].
    destruct (fam_remove_version false v fm) as [fm' [|]]; [destruct (is_nil _)|]; eexists; reflexivity.
  - unfold fd_decl in P. destruct (alookup n fd) as [fm|]; [|congruence].
    unfold fam_assign_tag, fam_has_version, amem. destruct (alookup v (f_versions fm)); [eexists; reflexivity|congruence].
  - destruct (alookup n fd) as [fm|]; [|eexists; reflexivity].
    destruct (fam_unassign_tag t fm) as [fm' [|]]; eexists; reflexivity.
Qed.

(* ps' is ps with the data fd of the action's flavor changed at the action's product only, and there as
   the tables say *)
Definition act_upd uts (x : aact) (n f : str) (ps : pstack) (fd : fdata) (ps' : pstack) : Prop :=
  exists fd', ps_upd ps ps' f fd' /\
    (forall n', n' <> n -> alookup n' fd' = alookup n' fd) /\
    (forall k, fd_decl fd' n k = upd_decl x (fd_decl fd n) k) /\
    (closed (fd_decl fd n) (fd_tag fd n) -> forall k, fd_tag fd' n k = upd_tag x (fd_tag fd n) k) /\
    (closed (fd_decl fd n) (fd_utag fd n) -> forall k, fd_utag fd' n k = upd_utag x uts (fd_utag fd n) k).

(* the lookups of the data for product n are the lookups of its family, or of the empty family *)
Lemma fd_fam fd n :
  let fm := match alookup n fd with Some fm => fm | None => fam_empty end in
  (forall k, fd_decl fd n k = alookup k (f_versions fm)) /\ (forall k, fd_tag fd n k = alookup k (f_tags fm)) /\
  (forall k, fd_utag fd n k = alookup k (f_utags fm)).
Proof. unfold fd_decl, fd_tag, fd_utag. destruct (alookup n fd); cbn; auto. Qed.

Lemma fd_fam_some fd n fm : alookup n fd = Some fm ->
  (forall k, fd_decl fd n k = alookup k (f_versions fm)) /\ (forall k, fd_tag fd n k = alookup k (f_tags fm)) /\
  (forall k, fd_utag fd n k = alookup k (f_utags fm)).
Proof. intro H. pose proof (fd_fam fd n) as F. rewrite H in F. exact F. Qed.

Lemma wt_act_spec uts x ps fd ps' ch : alookup (act_flavor x) (ps_lookup ps) = Some fd ->
  wt_act false uts x ps = Ok (ps', ch) -> act_upd uts x (act_name x) (act_flavor x) ps fd ps'.
Proof.
  intro Efd.
  (* nothing changed, and the tables leave the lookups as they are *)
  assert (Same : forall n, (forall k, fd_decl fd n k = upd_decl x (fd_decl fd n) k) ->
                 (closed (fd_decl fd n) (fd_tag fd n) -> forall k, fd_tag fd n k = upd_tag x (fd_tag fd n) k) ->
                 (closed (fd_decl fd n) (fd_utag fd n) -> forall k, fd_utag fd n k = upd_utag x uts (fd_utag fd n) k) ->
                 Ok (ps, false) = Ok (ps', ch) -> act_upd uts x n (act_flavor x) ps fd ps').
  { intros n Hd Ht Hu H. injection H as <- <-. exists fd. split; [apply ps_upd_refl; exact Efd|]. auto. }
  (* the family of the product is replaced *)
  assert (Repl : forall n fm', (forall k, alookup k (f_versions fm') = upd_decl x (fd_decl fd n) k) ->
                 (closed (fd_decl fd n) (fd_tag fd n) -> forall k, alookup k (f_tags fm') = upd_tag x (fd_tag fd n) k) ->
                 (closed (fd_decl fd n) (fd_utag fd n) -> forall k, alookup k (f_utags fm') = upd_utag x uts (fd_utag fd n) k) ->
                 Ok (ps_set_family ps (act_flavor x) n fm', true) = Ok (ps', ch) -> act_upd uts x n (act_flavor x) ps fd ps').
  { intros n fm' Hd Ht Hu H. injection H as <- <-. exists (aset n fm' fd). split; [apply ps_upd_set; exact Efd|].
    split; [intros n' N; apply alookup_aset_other; exact N|].
    split; [|split]; intros.
    - rewrite fd_decl_aset, str_eqb_refl. apply Hd.
    - rewrite fd_tag_aset, str_eqb_refl. auto.
    - rewrite fd_utag_aset, str_eqb_refl. auto. }
  destruct x as [s n v f r|s n v f|s n t f v|s n t f]; unfold act_name; cbn [act_flavor act_nf fst snd] in Efd |- *;
    cbn [wt_act]; rewrite (ps_family_fam _ _ _ _ Efd).
  - destruct (fd_fam fd n) as [Hd [Ht Hu]].
    apply Repl; cbn [upd_decl upd_tag upd_utag fam_read_back fam_add_version f_versions f_tags f_utags]; intros.
    + rewrite alookup_aset, Hd. reflexivity.
    + rewrite Ht. reflexivity.
    + rewrite alookup_fold_aset, Hu. reflexivity.
  - assert (Gone : fd_decl fd n v = None -> Ok (ps, false) = Ok (ps', ch) -> act_upd uts (ADelDecl s n v f) n f ps fd ps').
    { intro Dv. apply Same; cbn [upd_decl upd_tag upd_utag].
      - intro k. destruct (str_eqb_spec k v) as [->|]; [exact Dv|reflexivity].
      - intros C k. rewrite (closed_not_tagged _ _ _ C Dv). reflexivity.
      - intros C k. rewrite (closed_not_tagged _ _ _ C Dv). reflexivity. }
    destruct (alookup n fd) as [fm|] eqn:Efm; [|apply Gone; unfold fd_decl; rewrite Efm; reflexivity].
    destruct (fd_fam_some _ _ _ Efm) as [Hd [Ht Hu]].
    unfold fam_remove_version, fam_has_version, amem.
    destruct (alookup v (f_versions fm)) as [r0|] eqn:Ev; [|apply Gone; rewrite Hd; exact Ev].
    cbn [f_versions]. destruct (is_nil (aremove v (f_versions fm))) eqn:Enil.
    + (* the last version: the family goes; a tag it had was a tag of that version *)
      apply is_nil_true in Enil. pose proof (aremove_nil_lookup _ _ Enil) as Last.
      assert (Tagged : forall T : str -> option str, closed (fd_decl fd n) T ->
                       forall k, None = if opt_str_eqb (T k) v then None else T k).
      { intros T C k. destruct (T k) as [v'|] eqn:E; [|reflexivity]. cbn [opt_str_eqb].
        destruct (str_eqb_spec v' v) as [|N]; [reflexivity|]. destruct (C k v' E). rewrite Hd. exact (Last v' N). }
      intro H. injection H as <- <-. exists (aremove n fd). split; [apply ps_upd_del; exact Efd|].
      split; [intros n' N; apply alookup_aremove_other; exact N|].
      split; [|split]; intros; cbn [upd_decl upd_tag upd_utag].
      * rewrite fd_decl_aremove, str_eqb_refl. destruct (str_eqb_spec k v) as [|N]; [reflexivity|].
        rewrite Hd. symmetry. exact (Last k N).
      * rewrite fd_tag_aremove, str_eqb_refl. apply Tagged. assumption.
      * rewrite fd_utag_aremove, str_eqb_refl. apply Tagged. assumption.
    + apply Repl; cbn [upd_decl upd_tag upd_utag f_versions f_tags f_utags]; intros.
      * rewrite Hd. apply alookup_aremove.
      * rewrite Ht, alookup_remove_keys, mem_tags_of_version. reflexivity.
      * rewrite Hu, alookup_remove_keys, mem_tags_of_version. reflexivity.
  - destruct (alookup n fd) as [fm|] eqn:Efm; [|discriminate]. destruct (fd_fam_some _ _ _ Efm) as [Hd [Ht Hu]].
    unfold fam_assign_tag. destruct (fam_has_version v fm); [|discriminate].
    apply Repl; cbn [upd_decl upd_tag upd_utag f_versions f_tags f_utags]; intros; rewrite ?Hd, ?Ht, ?Hu; [reflexivity|apply alookup_aset|reflexivity].
  - assert (Untagged : fd_tag fd n t = None -> Ok (ps, false) = Ok (ps', ch) -> act_upd uts (ADelTag s n t f) n f ps fd ps').
    { intro Tt. apply Same; cbn [upd_decl upd_tag upd_utag]; auto. intros _ k. destruct (str_eqb_spec k t) as [->|]; [exact Tt|reflexivity]. }
    destruct (alookup n fd) as [fm|] eqn:Efm; [|apply Untagged; unfold fd_tag; rewrite Efm; reflexivity].
    destruct (fd_fam_some _ _ _ Efm) as [Hd [Ht Hu]]. unfold fam_unassign_tag, amem.
    destruct (alookup t (f_tags fm)) as [v0|] eqn:Et; [|apply Untagged; rewrite Ht; exact Et].
    apply Repl; cbn [upd_decl upd_tag upd_utag f_versions f_tags f_utags]; intros; rewrite ?Hd, ?Ht, ?Hu; [reflexivity|apply alookup_aremove|reflexivity].
Qed.

Lemma compile_frame d x s n k f :
  (n, f) <> act_nf x \/ s <> act_stack x ->
  db_decl (apply (compile d x) d) s n k f = db_decl d s n k f /\
  db_tag (apply (compile d x) d) s n k f = db_tag d s n k f.
Proof.
  intro H. rewrite db_decl_compile, db_tag_compile, <- a_decl_view, <- a_tag_view.
  apply aapply_frame. exact H.
Qed.

Lemma dkey_same s n f k k' : dkey_eqb (s, n, k', f) (s, n, k, f) = str_eqb k' k.
Proof. unfold dkey_eqb. rewrite !str_eqb_refl. cbn. rewrite andb_true_r. reflexivity. Qed.

(* the files follow the same tables (no tag of the stack dangles, so an undeclaration of a version that
   is not declared finds no tag to take away) *)
Lemma compile_spec d x D T :
  has_stack d (act_stack x) = true -> no_dangling (view d) ->
  (forall k, D k = db_decl d (act_stack x) (act_name x) k (act_flavor x)) ->
  (forall k, T k = db_tag d (act_stack x) (act_name x) k (act_flavor x)) ->
  (forall k, db_decl (apply (compile d x) d) (act_stack x) (act_name x) k (act_flavor x) = upd_decl x D k) /\
  (forall k, db_tag (apply (compile d x) d) (act_stack x) (act_name x) k (act_flavor x) = upd_tag x T k).
Proof.
  intros Hst ND HD HT. pose proof (proj1 (no_dangling_db d) ND) as C.
  split; intro k; [rewrite db_decl_compile, a_decl_aapply|rewrite db_tag_compile, a_tag_aapply];
    destruct x as [s n v f r|s n v f|s n t f v|s n t f]; unfold act_name, act_flavor in *;
    cbn [act_stack act_nf fst snd upd_decl upd_tag] in *.
  - rewrite apath_view, has_stack_path, Hst, a_decl_view, dkey_same, HD. reflexivity.
  - rewrite !a_decl_view, dkey_same, HD. destruct (db_decl d s n v f) eqn:Dv; [reflexivity|]. cbn [is_some andb].
    destruct (str_eqb_spec k v) as [->|]; [exact Dv|reflexivity].
  - rewrite a_decl_view, HD. reflexivity.
  - rewrite a_decl_view, HD. reflexivity.
  - rewrite a_tag_view, HT. reflexivity.
  - unfold tag_points. rewrite !str_eqb_refl, a_decl_view, !a_tag_view, HT. cbn [andb].
    destruct (db_decl d s n v f) eqn:Dv; [reflexivity|]. cbn [is_some andb].
    destruct (opt_str_eqb (db_tag d s n k f) v) eqn:E; [|reflexivity].
    apply opt_str_eqb_true in E. destruct (C _ _ _ _ _ E Dv).
  - rewrite apath_view, has_stack_path, Hst, a_tag_view, dkey_same, HT. reflexivity.
  - rewrite a_tag_view, dkey_same, HT. reflexivity.
Qed.

Lemma lookup_agree_update ps ps' d d' s f n fd fd' :
  lookup_agree ps d s ->
  alookup f (ps_lookup ps) = Some fd -> ps_upd ps ps' f fd' ->
  (forall n', n' <> n -> alookup n' fd' = alookup n' fd) ->
  agree_n fd' d' s f n ->
  (forall n' k f', (n', f') <> (n, f) ->
     db_decl d' s n' k f' = db_decl d s n' k f' /\ db_tag d' s n' k f' = db_tag d s n' k f') ->
  lookup_agree ps' d' s.
Proof.
  intros HA Hf [_ Up] Hother Hn Hframe f0 fd0 H0 n0. rewrite Up in H0.
  destruct (str_eqb_spec f0 f) as [->|Nf].
  - inversion H0. subst fd0. destruct (str_eq_dec n0 n) as [->|Nn]; [exact Hn|].
    destruct (HA f fd Hf n0) as [A1 A2]. split; intro k.
    + destruct (Hframe n0 k f) as [E _]; [congruence|]. rewrite E, <- A1. unfold fd_decl. rewrite (Hother n0 Nn). reflexivity.
    + destruct (Hframe n0 k f) as [_ E]; [congruence|]. rewrite E, <- A2. unfold fd_tag. rewrite (Hother n0 Nn). reflexivity.
  - destruct (HA f0 fd0 H0 n0) as [A1 A2]. split; intro k.
    + destruct (Hframe n0 k f0) as [E _]; [congruence|]. rewrite E. apply A1.
    + destruct (Hframe n0 k f0) as [_ E]; [congruence|]. rewrite E. apply A2.
Qed.

Lemma agree_closed fd d s f n : agree_n fd d s f n -> no_dangling (view d) -> closed (fd_decl fd n) (fd_tag fd n).
Proof. intros [A1 A2] ND t v H. rewrite A2 in H. rewrite A1. exact (proj1 (no_dangling_db d) ND _ _ _ _ _ H). Qed.

Lemma wt_act_agree uts ps d s x :
  lookup_agree ps d s ->
  no_dangling (view d) ->
  act_ok (view d) x ->
  act_root x = s ->
  has_stack d s = true ->
  alookup (act_flavor x) (ps_lookup ps) <> None ->
  exists ps' ch, wt_act false uts x ps = Ok (ps', ch) /\
    lookup_agree ps' (apply (compile d x) d) s /\
    ps_modtimes ps' = ps_modtimes ps /\
    (forall f, alookup f (ps_lookup ps) <> None -> alookup f (ps_lookup ps') <> None).
Proof.
  intros HA ND OK Hs Hst Hfl. rewrite act_root_stack in Hs. subst s.
  destruct (alookup (act_flavor x) (ps_lookup ps)) as [fd|] eqn:Efd; [clear Hfl|congruence].
  pose proof (HA _ _ Efd (act_name x)) as An. pose proof An as [A1 A2].
  destruct (wt_act_total uts x ps fd Efd) as [[ps' ch] E].
  { destruct x; try exact I. unfold act_name in A1. cbn [act_ok act_stack act_nf fst snd act_flavor] in *.
    rewrite A1, <- a_decl_view. exact OK. }
  destruct (wt_act_spec uts x ps fd ps' ch Efd E) as [fd' [Up [Oth [Sd [St _]]]]].
  destruct (compile_spec d x _ _ Hst ND A1 A2) as [Dd Dt].
  exists ps', ch. split; [exact E|]. split; [|split; [apply Up|exact (ps_upd_keys _ _ _ _ Up)]].
  apply (lookup_agree_update ps ps' d _ _ _ _ fd fd' HA Efd Up Oth).
  - split; intro k; [rewrite Sd, Dd; reflexivity|]. rewrite St, Dt; [reflexivity|]. exact (agree_closed _ _ _ _ _ An ND).
  - intros n' k f' N. apply compile_frame. left. rewrite act_nf_eq. exact N.
Qed.

Lemma stack_of_lookup d s st : alookup s d = Some st -> stack_of d s = st.
Proof. intro H. unfold stack_of. rewrite H. reflexivity. Qed.

Lemma db_decl_In d s n v f r : db_decl d s n v f = Some r ->
  exists c, In ((n, v), c) (vfiles (stack_of d s)) /\ alookup f c = Some r.
Proof.
  unfold db_decl, db_vfile. destruct (alookup s d) as [st|] eqn:Es; [|discriminate].
  destruct (glookup key_eqb (n, v) (vfiles st)) as [c|] eqn:Ec; [|discriminate].
  intro H. exists c. rewrite (stack_of_lookup _ _ _ Es). split; [|exact H].
  exact (glookup_In key_eqb key_eqb_eq _ _ _ Ec).
Qed.

Lemma db_tag_In d s n t f v : db_tag d s n t f = Some v ->
  exists c, In ((n, t), c) (cfiles (stack_of d s)) /\ alookup f c = Some v.
Proof.
  unfold db_tag, db_cfile. destruct (alookup s d) as [st|] eqn:Es; [|discriminate].
  destruct (glookup key_eqb (n, t) (cfiles st)) as [c|] eqn:Ec; [|discriminate].
  intro H. exists c. rewrite (stack_of_lookup _ _ _ Es). split; [|exact H].
  exact (glookup_In key_eqb key_eqb_eq _ _ _ Ec).
Qed.

Lemma db_names_In d s n : In n (db_names d s) <-> exists v c, In ((n, v), c) (vfiles (stack_of d s)).
Proof.
  unfold db_names. rewrite uniq_In, in_map_iff. split.
  - intros [[[n' v] c] [H1 H2]]. cbn in H1. subst n'. exists v, c. exact H2.
  - intros [v [c H]]. exists ((n, v), c). split; [reflexivity|exact H].
Qed.

Lemma db_decl_named d s n v f r : db_decl d s n v f = Some r -> In n (db_names d s).
Proof. intro H. destruct (db_decl_In _ _ _ _ _ _ H) as [c [H1 _]]. apply db_names_In. eauto. Qed.

Lemma db_decl_flavor d s n v f r : db_decl d s n v f = Some r -> In f (db_flavors d s).
Proof.
  intro H. destruct (db_decl_In _ _ _ _ _ _ H) as [c [H1 H2]].
  unfold db_flavors. rewrite uniq_In, in_flat_map. exists ((n, v), c). split; [exact H1|].
  cbn [snd]. apply alookup_not_None_In. congruence.
Qed.

Lemma not_named_no_decl d s n : ~ In n (db_names d s) -> forall v f, db_decl d s n v f = None.
Proof.
  intros H v f. destruct (db_decl d s n v f) eqn:E; [|reflexivity].
  exfalso. apply H. eapply db_decl_named. exact E.
Qed.

Lemma rebuild_versions d uc utd s f n v :
  alookup v (f_versions (rebuild_family d uc utd s f n)) = db_decl d s n v f.
Proof.
  cbn [rebuild_family f_versions].
  rewrite (alookup_flat_map_guard _ (fun kv : key * vcontent => str_eqb (vname kv) n)
             (fun v => db_decl d s n v f) (fun kv : key * vcontent => snd (fst kv)))
    by (intros [[n' v'] c]; reflexivity).
  destruct (db_decl d s n v f) as [r|] eqn:E; [|destruct (existsb _ _); reflexivity].
  destruct (db_decl_In _ _ _ _ _ _ E) as [c [H1 _]].
  assert (X : existsb (fun a : key * vcontent => str_eqb (vname a) n && str_eqb v (snd (fst a)))
                (vfiles (stack_of d s)) = true).
  { apply existsb_exists. exists ((n, v), c). split; [exact H1|]. cbn. rewrite !str_eqb_refl. reflexivity. }
  rewrite X. reflexivity.
Qed.

Lemma rebuild_tags d uc utd s f n t : no_dangling (view d) ->
  alookup t (f_tags (rebuild_family d uc utd s f n)) = db_tag d s n t f.
Proof.
  intro ND. cbn [rebuild_family f_tags].
  rewrite (alookup_flat_map_guard _ (fun kv : key * ccontent => str_eqb (cname kv) n)
             (fun t => match db_tag d s n t f with
                       | Some v => if is_some (db_decl d s n v f) then Some v else None
                       | None => None end) (fun kv : key * ccontent => snd (fst kv))).
  2:{ intros [[n' t'] c]. cbn [fst snd cname]. destruct (str_eqb n' n); [|reflexivity].
      destruct (db_tag d s n t' f) as [v|]; [|reflexivity]. destruct (is_some (db_decl d s n v f)); reflexivity. }
  destruct (db_tag d s n t f) as [v|] eqn:E; [|destruct (existsb _ _); reflexivity].
  pose proof (proj1 (no_dangling_db d) ND s n t f v E) as Hd.
  destruct (db_decl d s n v f) as [r|]; [|congruence]. cbn [is_some].
  destruct (db_tag_In _ _ _ _ _ _ E) as [c [H1 _]].
  assert (X : existsb (fun a : key * ccontent => str_eqb (cname a) n && str_eqb t (snd (fst a)))
                (cfiles (stack_of d s)) = true).
  { apply existsb_exists. exists ((n, t), c). split; [exact H1|]. cbn. rewrite !str_eqb_refl. reflexivity. }
  rewrite X. reflexivity.
Qed.

Lemma rebuild_fdata_lookup d uc utd s f n :
  alookup n (rebuild_fdata d uc utd s f) =
  if mem_str n (db_names d s) && negb (is_nil (f_versions (rebuild_family d uc utd s f n)))
  then Some (rebuild_family d uc utd s f n) else None.
Proof.
  unfold rebuild_fdata.
  rewrite (alookup_flat_map_guard _ (fun _ => true)
             (fun n => if is_nil (f_versions (rebuild_family d uc utd s f n)) then None else Some (rebuild_family d uc utd s f n))
             (fun n => n)).
  2:{ intro a. cbv beta zeta. destruct (is_nil (f_versions (rebuild_family d uc utd s f a))); reflexivity. }
  assert (E : existsb (fun a => true && str_eqb n a) (db_names d s) = mem_str n (db_names d s)).
  { induction (db_names d s) as [|y l IH]; cbn [existsb mem_str]; [reflexivity|]. rewrite IH. cbn [andb]. destruct (str_eqb n y); reflexivity. }
  rewrite E. destruct (mem_str n (db_names d s)); cbn [andb]; [|reflexivity].
  destruct (is_nil (f_versions (rebuild_family d uc utd s f n))); reflexivity.
Qed.

Lemma rebuild_agree d uc utd s f : no_dangling (view d) -> agree (rebuild_fdata d uc utd s f) d s f.
Proof.
  intros ND n.
  assert (NoFam : alookup n (rebuild_fdata d uc utd s f) = None -> forall v, db_decl d s n v f = None).
  { rewrite rebuild_fdata_lookup. intros H v. destruct (db_decl d s n v f) as [r|] eqn:E; [|reflexivity]. exfalso.
    assert (H1 : mem_str n (db_names d s) = true) by (apply mem_str_In; eapply db_decl_named; exact E).
    rewrite H1 in H. cbn [andb] in H.
    destruct (is_nil (f_versions (rebuild_family d uc utd s f n))) eqn:En; [|discriminate].
    apply is_nil_true in En. pose proof (rebuild_versions d uc utd s f n v) as R. rewrite En, E in R. discriminate. }
  split; intro k.
  - unfold fd_decl. destruct (alookup n (rebuild_fdata d uc utd s f)) as [fm|] eqn:E.
    + rewrite rebuild_fdata_lookup in E. destruct (_ && _); inversion E. apply rebuild_versions.
    + symmetry. apply NoFam. reflexivity.
  - unfold fd_tag. destruct (alookup n (rebuild_fdata d uc utd s f)) as [fm|] eqn:E.
    + rewrite rebuild_fdata_lookup in E. destruct (_ && _); inversion E. apply rebuild_tags. exact ND.
    + destruct (db_tag d s n k f) as [v|] eqn:Et; [|reflexivity]. exfalso.
      apply (proj1 (no_dangling_db d) ND s n k f v Et). apply NoFam. reflexivity.
Qed.

Lemma rebuild_lookup_lookup d uc utd s f :
  alookup f (rebuild_lookup d uc utd s) = if mem_str f (db_flavors d s) then Some (rebuild_fdata d uc utd s f) else None.
Proof.
  unfold rebuild_lookup. induction (db_flavors d s) as [|y l IH]; cbn; [reflexivity|].
  destruct (str_eqb_spec f y) as [->|N]; [reflexivity|exact IH].
Qed.

Lemma empty_agree d s f : no_dangling (view d) -> ~ In f (db_flavors d s) -> agree [] d s f.
Proof.
  intros ND H n.
  assert (D : forall v, db_decl d s n v f = None).
  { intro v. destruct (db_decl d s n v f) eqn:E; [|reflexivity]. exfalso. apply H. eapply db_decl_flavor. exact E. }
  split; intro k; cbn.
  - symmetry. apply D.
  - destruct (db_tag d s n k f) as [v|] eqn:Et; [|reflexivity]. exfalso.
    apply (proj1 (no_dangling_db d) ND s n k f v Et). apply D.
Qed.
