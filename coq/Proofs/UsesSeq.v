(* Lemmas about Model/UsesSeq.v: sessions of queries and database changes on one instance (C13). *)
From Coq Require Import Lia.
From Eupsv Require Import Base.Base Base.BaseLemmas Model.Graph Model.UsesSeq.
From Eupsv Require Import Proofs.GraphLib Proofs.GraphWalk Proofs.GraphListing Proofs.GraphOrder Proofs.GraphTotal.

Lemma table_of_world_of extra db n v :
  table_of (world_of extra db) n v =
  option_map (fun ls => map (resolve_line db) ls ++ extra) (lines_of (sd_decl db) n v).
Proof.
  unfold world_of. induction (sd_decl db) as [|[[n' v'] ls] r IH]; simpl; [reflexivity|].
  destruct (str_eqb n n' && str_eqb v v'); [reflexivity | exact IH].
Qed.

Lemma declared_world_of extra db n v : declared (world_of extra db) n v = sdeclared db n v.
Proof.
  unfold declared, sdeclared. rewrite table_of_world_of. destruct (lines_of (sd_decl db) n v); reflexivity.
Qed.

Lemma world_of_keys extra db : map fst (world_of extra db) = map fst (sd_decl db).
Proof. unfold world_of. rewrite map_map. reflexivity. Qed.

Lemma world_of_length extra db : length (world_of extra db) = length (sd_decl db).
Proof. unfold world_of. apply map_length. Qed.

Lemma current_of_declared db n v : current_of db n = Some v -> sdeclared db n v = true.
Proof.
  unfold current_of. destruct (cur_get (sd_cur db) n) as [u|]; [|discriminate].
  destruct (sdeclared db n u) eqn:E; [|discriminate]. intros H. inversion H. subst. exact E.
Qed.

(* the edges every table ends with denote nothing declared and carry no version text *)
Definition extras_plain (extra : list edge) : Prop :=
  forall e, In e extra -> eres e = None /\ evers e = None.

Lemma world_of_wf extra db : extras_plain extra -> wf_world (world_of extra db).
Proof.
  intros Hx n v es e T I. rewrite table_of_world_of in T.
  destruct (lines_of (sd_decl db) n v) as [ls|]; [|discriminate]. simpl in T. inversion T. subst es.
  apply in_app_or in I as [I|I].
  - apply in_map_iff in I as [l [<- _]]. unfold resolve_line. destruct (tl_vers l) as [u|]; simpl.
    + destruct (sdeclared db (tl_name l) u) eqn:E; split; try discriminate.
      * intros r H. inversion H. subst. rewrite declared_world_of. exact E.
      * intros v' _ H. inversion H. subst. rewrite declared_world_of. exact E.
    + split; [|discriminate]. intros r H. rewrite declared_world_of. apply current_of_declared, H.
  - destruct (Hx e I) as [A B]. split; [intros r H; congruence | intros v' _ H; congruence].
Qed.

Lemma session_last_answer extra db h q :
  run_session extra db (h ++ [SAsk q]) =
  run_session extra db h ++ [answer_on (world_after extra db (changes_of h)) q].
Proof.
  revert db. induction h as [|[q'|o] r IH]; intros db; simpl.
  - reflexivity.
  - rewrite IH. reflexivity.
  - rewrite IH. reflexivity.
Qed.

Lemma session_answers extra db h a :
  In a (run_session extra db h) ->
  exists h1 q h2, h = h1 ++ SAsk q :: h2 /\ a = answer_on (world_after extra db (changes_of h1)) q.
Proof.
  revert db. induction h as [|[q'|o] r IH]; intros db; simpl.
  - tauto.
  - intros [<-|I].
    + exists [], q', r. split; reflexivity.
    + destruct (IH db I) as [h1 [q [h2 [-> ->]]]]. exists (SAsk q' :: h1), q, h2. split; reflexivity.
  - intros I. destruct (IH _ I) as [h1 [q [h2 [-> ->]]]]. exists (SChange o :: h1), q, h2. split; reflexivity.
Qed.

Lemma fuel_of_enough w : length w < fuel_of w.
Proof. unfold fuel_of. lia. Qed.

Lemma answer_on_ok w q :
  match answer_on w q with
  | AUses r => exists us, r = Ok us
  | ADeps r => exists l, r = Ok l
  end.
Proof.
  destruct q as [x ov|n v t]; simpl.
  - unfold uses. destruct (uses_index_total w (fuel_of w) (fuel_of_enough w)) as [idx E]. rewrite E.
    destruct (users_total_ok idx x ov) as [us [Eu _]]. eauto.
  - destruct t.
    + apply dependent_products_total, fuel_of_enough.
    + destruct (listing_plain w (n, Some v, true) (fuel_of w) (fuel_of_enough w)) as [l [E _]]. eauto.
Qed.

Lemma cur_get_drop_same c n : cur_get (cur_drop c n) n = None.
Proof.
  induction c as [|[k v] r IH]; simpl; [reflexivity|].
  destruct (str_eqb n k) eqn:E; simpl; [exact IH | rewrite E; exact IH].
Qed.

Lemma cur_get_drop_other c n m : m <> n -> cur_get (cur_drop c n) m = cur_get c m.
Proof.
  intros N. induction c as [|[k v] r IH]; simpl; [reflexivity|].
  destruct (str_eqb n k) eqn:E; simpl.
  - apply str_eqb_eq in E. subst k. apply str_eqb_neq in N. rewrite N. exact IH.
  - destruct (str_eqb m k); [reflexivity | exact IH].
Qed.

Lemma cur_get_set_same c n v : cur_get (cur_set c n v) n = Some v.
Proof. unfold cur_set. simpl. rewrite str_eqb_refl. reflexivity. Qed.

Lemma cur_get_set_other c n v m : m <> n -> cur_get (cur_set c n v) m = cur_get c m.
Proof.
  intros N. unfold cur_set. simpl. destruct (str_eqb m n) eqn:E.
  - apply str_eqb_eq in E. contradiction.
  - apply cur_get_drop_other, N.
Qed.

Lemma sdeclared_retag db n v m u : sdeclared (retag db n v) m u = sdeclared db m u.
Proof. reflexivity. Qed.

Lemma current_of_retag_same db n v : sdeclared db n v = true -> current_of (retag db n v) n = Some v.
Proof.
  intros D. unfold current_of. cbn [retag sd_cur]. rewrite cur_get_set_same, sdeclared_retag, D. reflexivity.
Qed.

Lemma current_of_retag_other db n v m : m <> n -> current_of (retag db n v) m = current_of db m.
Proof.
  intros N. unfold current_of. cbn [retag sd_cur]. rewrite (cur_get_set_other _ _ _ _ N).
  destruct (cur_get (sd_cur db) m); reflexivity.
Qed.

Lemma current_of_untag_same db n : current_of (untag db n) n = None.
Proof. unfold current_of. cbn [untag sd_cur]. rewrite cur_get_drop_same. reflexivity. Qed.

Lemma resolve_line_retag_bare db n v l :
  sdeclared db n v = true -> tl_name l = n -> tl_vers l = None ->
  resolve_line (retag db n v) l = mkEdge n None (Some v) (tl_opt l).
Proof.
  intros D Hn Hv. unfold resolve_line. rewrite Hv, Hn, (current_of_retag_same db n v D). reflexivity.
Qed.

Lemma resolve_line_retag_other db n v l :
  tl_name l <> n \/ tl_vers l <> None -> resolve_line (retag db n v) l = resolve_line db l.
Proof.
  intros H. unfold resolve_line. destruct (tl_vers l) as [u|].
  - rewrite sdeclared_retag. reflexivity.
  - destruct H as [H|H]; [|congruence]. rewrite (current_of_retag_other db n v _ H). reflexivity.
Qed.

Lemma resolve_line_untag_bare db n l :
  tl_name l = n -> tl_vers l = None -> resolve_line (untag db n) l = mkEdge n None None (tl_opt l).
Proof.
  intros Hn Hv. unfold resolve_line. rewrite Hv, Hn, current_of_untag_same. reflexivity.
Qed.

Lemma apply_assign_declared db n v : sdeclared db n v = true -> apply_op db (SAssign n v) = retag db n v.
Proof. intros D. simpl. rewrite D. reflexivity. Qed.

Lemma apply_declare_tag_declared db n v : sdeclared db n v = true -> apply_op db (SDeclareTag n v) = retag db n v.
Proof. intros D. simpl. rewrite D. reflexivity. Qed.

Lemma step_after_retag extra db n v y ls l :
  sdeclared db n v = true ->
  lines_of (sd_decl db) (fst y) (snd y) = Some ls -> In l ls -> tl_name l = n -> tl_vers l = None ->
  step (world_of extra (retag db n v)) (pnode y) (n, Some v, true).
Proof.
  intros D L I Hn Hv. destruct y as [yn yv]. cbn [fst snd] in L. unfold step.
  exists (map (resolve_line (retag db n v)) ls ++ extra), (resolve_line (retag db n v) l). split; [|split].
  - unfold node_table, pnode, nreal, nver, nname. cbn [fst snd]. rewrite table_of_world_of. cbn [retag sd_decl].
    rewrite L. reflexivity.
  - apply in_or_app. left. apply in_map, I.
  - rewrite (resolve_line_retag_bare db n v l D Hn Hv). reflexivity.
Qed.

Lemma lines_of_In d n v ls : lines_of d n v = Some ls -> In (n, v) (map fst d).
Proof.
  induction d as [|[[n' v'] ls'] r IH]; simpl; [discriminate|].
  destruct (str_eqb n n' && str_eqb v v') eqn:E.
  - apply andb_true_iff in E as [A B]. apply str_eqb_eq in A, B. subst. intros _. left. reflexivity.
  - intros H. right. apply IH, H.
Qed.

Lemma users_after_retag extra db n v y ls l us :
  sdeclared db n v = true ->
  lines_of (sd_decl db) (fst y) (snd y) = Some ls -> In l ls -> tl_name l = n -> tl_vers l = None ->
  y <> (n, v) ->
  uses (fuel_of (world_of extra (retag db n v))) (world_of extra (retag db n v)) n (Some v) = Ok us ->
  In y (map cuser us).
Proof.
  intros D L I Hn Hv Ny U. set (w' := world_of extra (retag db n v)) in *.
  unfold uses in U. destruct (uses_index (fuel_of w') w') as [idx|] eqn:Ei; [|discriminate].
  apply (uses_inverse_reach (fuel_of w') w' idx n (Some v) us y (fuel_of_enough w') Ei U). split.
  - unfold w'. rewrite world_of_keys. destruct y as [yn yv]. apply (lines_of_In _ _ _ _ L).
  - exists (n, Some v, true). split; [|split].
    + destruct y as [yn yv]. unfold pnode. simpl. intros E. inversion E. subst. apply Ny. reflexivity.
    + apply rp_one. apply step_is_stepP. apply (step_after_retag extra db n v y ls l D L I Hn Hv).
    + split; reflexivity.
Qed.
