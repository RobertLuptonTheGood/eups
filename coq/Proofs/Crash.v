(* C08, generic layer (Model/Crash.v): the write-temporary-then-rename lowering.  All the calls of an effect
   together do what the effect does (atomic_complete); a strict prefix of them touches nothing but the temporary
   file (atomic_partial); so a crash after any number of calls leaves the main paths as after a whole number of
   effects (crash_is_effect_prefix_gen). *)
From Eupsv Require Import Base.Base Base.BaseLemmas Model.Crash.
From Coq Require Import Lia.

Definition clean (f : fs) : Prop := forall k, is_tmp k = true -> alookup k f = None.
Definition wf_effect (e : effect) : Prop := is_tmp (effect_target e) = false.

Lemma clean_nil : clean [].
Proof. intros k _. reflexivity. Qed.

Lemma clean_cons p n f : is_tmp p = false -> clean f -> clean ((p, n) :: f).
Proof.
  intros Hp Hf k Hk. cbn [alookup]. destruct (str_eqb_spec k p) as [->|N]; [congruence|now apply Hf].
Qed.

Lemma is_tmp_tmp_of p : is_tmp (tmp_of p) = true.
Proof.
  unfold is_tmp, tmp_of, ends_with. rewrite rev_app_distr. apply starts_with_refl.
Qed.

Lemma tmp_of_neq p q : is_tmp q = false -> q <> tmp_of p.
Proof. intros H ->. rewrite is_tmp_tmp_of in H. discriminate. Qed.

Lemma aremove_absent {V} k (m : amap V) : alookup k m = None -> aremove k m = m.
Proof.
  induction m as [|[k' v] m IH]; simpl; intro H; [reflexivity|].
  destruct (str_eqb k k'); [discriminate|]. now rewrite IH.
Qed.

Lemma aremove_aset_absent {V} k (v : V) m : alookup k m = None -> aremove k (aset k v m) = m.
Proof.
  induction m as [|[k' v'] m IH]; simpl; intro H.
  - now rewrite str_eqb_refl.
  - destruct (str_eqb k k') eqn:E; [discriminate|]. simpl. rewrite E. now rewrite IH.
Qed.

Lemma aset_aset {V} k (v w : V) m : aset k v (aset k w m) = aset k v m.
Proof.
  induction m as [|[k' v'] m IH]; simpl.
  - now rewrite str_eqb_refl.
  - destruct (str_eqb k k') eqn:E; simpl; rewrite ?str_eqb_refl, ?E; [reflexivity|now rewrite IH].
Qed.

Lemma In_firstn {A} (x : A) j l : In x (firstn j l) -> In x l.
Proof. intro H. rewrite <- (firstn_skipn j l). apply in_or_app. now left. Qed.

Lemma In_firstn_strict {A} (x : A) k pre y : k < length (pre ++ [y]) -> In x (firstn k (pre ++ [y])) -> In x pre.
Proof.
  rewrite app_length, firstn_app. cbn [length]. intros Hk H. replace (k - length pre) with 0 in H by lia.
  rewrite app_nil_r in H. now apply In_firstn in H.
Qed.

Lemma apply_effect_other f e q : q <> effect_target e -> alookup q (apply_effect f e) = alookup q f.
Proof.
  intro N. destruct e as [p c|p|p|p]; cbn [apply_effect effect_target] in *.
  - now apply alookup_aset_other.
  - now apply alookup_aremove_other.
  - destruct (amem p f); [reflexivity|now apply alookup_aset_other].
  - destruct (dir_empty p f); [now apply alookup_aremove_other|reflexivity].
Qed.

Lemma clean_apply f e : clean f -> wf_effect e -> clean (apply_effect f e).
Proof.
  intros Hc Hw k Hk. rewrite apply_effect_other; [now apply Hc|]. intros ->. unfold wf_effect in Hw. congruence.
Qed.

Lemma apply_effect_file f e q c :
  alookup q (apply_effect f e) = Some (File c) -> alookup q f = Some (File c) \/ e = EWrite q c.
Proof.
  destruct (str_eq_dec q (effect_target e)) as [->|N]; [|rewrite apply_effect_other by exact N; now left].
  destruct e as [p c0|p|p|p]; cbn [apply_effect effect_target].
  - rewrite alookup_aset_same. intro H. injection H as ->. now right.
  - rewrite alookup_aremove_same. discriminate.
  - destruct (amem p f); [now left|]. rewrite alookup_aset_same. discriminate.
  - destruct (dir_empty p f); [|now left]. rewrite alookup_aremove_same. discriminate.
Qed.

Lemma apply_effects_file l : forall f q c,
  alookup q (apply_effects f l) = Some (File c) -> alookup q f = Some (File c) \/ In (EWrite q c) l.
Proof.
  induction l as [|e l IH]; intros f q c H; [now left|].
  unfold apply_effects in *. cbn [fold_left] in H. destruct (IH _ _ _ H) as [H1|H1].
  - destruct (apply_effect_file _ _ _ _ H1) as [H2|H2]; [now left|right; now left].
  - right. now right.
Qed.

Lemma apply_effects_other l : forall f q,
  (forall e, In e l -> q <> effect_target e) -> alookup q (apply_effects f l) = alookup q f.
Proof.
  induction l as [|e l IH]; intros f q H; [reflexivity|].
  unfold apply_effects in *. cbn [fold_left]. rewrite IH.
  - apply apply_effect_other. apply H. now left.
  - intros e' He'. apply H. now right.
Qed.

Lemma run_all_cons f s l : run_all f (s :: l) = run_all (run_sys f s) l.
Proof. reflexivity. Qed.

Lemma run_all_app f a b : run_all f (a ++ b) = run_all (run_all f a) b.
Proof. unfold run_all. apply fold_left_app. Qed.

Lemma run_appends t c : forall c0 f,
  run_all (aset t (File c0) f) (map (SAppend t) c) = aset t (File (c0 ++ c)) f.
Proof.
  induction c as [|l c IH]; intros c0 f.
  - cbn [map]. unfold run_all. cbn [fold_left]. now rewrite app_nil_r.
  - cbn [map]. rewrite run_all_cons. cbn [run_sys]. rewrite alookup_aset_same, aset_aset, IH.
    now rewrite <- app_assoc.
Qed.

Lemma firstn_map_SAppend t c k : exists c', firstn k (map (SAppend t) c) = map (SAppend t) c'.
Proof. exists (firstn k c). apply firstn_map. Qed.

Definition on_tmp (t : path) (s : syscall) : Prop :=
  match s with
  | SOpenTrunc p | SAppend p _ | SClose p => p = t
  | _ => False
  end.

Lemma run_sys_on_tmp t s f q : on_tmp t s -> q <> t -> alookup q (run_sys f s) = alookup q f.
Proof.
  destruct s as [p|p l|p|a b|p|p|p]; cbn [on_tmp run_sys]; intros H N; try contradiction; subst.
  - now apply alookup_aset_other.
  - destruct (alookup t f) as [[c|]|]; [|reflexivity|reflexivity]. now apply alookup_aset_other.
  - reflexivity.
Qed.

Lemma run_all_on_tmp t l : forall f q, (forall s, In s l -> on_tmp t s) -> q <> t ->
  alookup q (run_all f l) = alookup q f.
Proof.
  induction l as [|s l IH]; intros f q H N; [reflexivity|].
  rewrite run_all_cons, (IH _ _); [|intros s' Hs; apply H; now right|exact N].
  apply (run_sys_on_tmp t); [apply H; now left|exact N].
Qed.

(* all calls of an atomic write but the last, the rename, are on the temporary file *)
Lemma lower_atomic_write p c :
  lower_atomic (EWrite p c) = (SOpenTrunc (tmp_of p) :: map (SAppend (tmp_of p)) c ++ [SClose (tmp_of p)]) ++ [SRename (tmp_of p) p].
Proof. cbn [lower_atomic app]. now rewrite <- app_assoc. Qed.

Lemma run_write_calls f t c : run_all f (SOpenTrunc t :: map (SAppend t) c ++ [SClose t]) = aset t (File c) f.
Proof. rewrite run_all_cons. cbn [run_sys]. rewrite run_all_app, run_appends. reflexivity. Qed.

Lemma write_calls_on_tmp t c s : In s (SOpenTrunc t :: map (SAppend t) c ++ [SClose t]) -> on_tmp t s.
Proof.
  intros [<-|H]; [reflexivity|]. apply in_app_or in H. destruct H as [H|[<-|[]]]; [|reflexivity].
  apply in_map_iff in H. destruct H as [l [<- _]]. reflexivity.
Qed.

Lemma atomic_write_complete f p c :
  clean f -> run_all f (lower_atomic (EWrite p c)) = apply_effect f (EWrite p c).
Proof.
  intro Hc. rewrite lower_atomic_write, run_all_app, run_write_calls.
  cbn [run_all fold_left run_sys apply_effect]. rewrite alookup_aset_same.
  rewrite aremove_aset_absent; [reflexivity|]. apply Hc, is_tmp_tmp_of.
Qed.

Lemma atomic_complete f e : clean f -> run_all f (lower_atomic e) = apply_effect f e.
Proof.
  intro Hc. destruct e as [p c|p|p|p]; [now apply atomic_write_complete| | |]; reflexivity.
Qed.

Lemma atomic_partial f e k q :
  k < length (lower_atomic e) -> is_tmp q = false ->
  alookup q (run_all f (firstn k (lower_atomic e))) = alookup q f.
Proof.
  intros Hk Hq. destruct e as [p c|p|p|p].
  2-4: cbn [lower_atomic length] in Hk; assert (k = 0) by lia; subst; reflexivity.
  rewrite lower_atomic_write in *. apply (run_all_on_tmp (tmp_of p)); [|now apply tmp_of_neq].
  intros s Hs. apply (write_calls_on_tmp _ c). exact (In_firstn_strict _ _ _ _ Hk Hs).
Qed.

Theorem crash_is_effect_prefix_gen l : forall f k,
  clean f -> Forall wf_effect l ->
  exists j, j <= length l /\
    forall q, is_tmp q = false ->
      alookup q (crash_state lower_atomic f l k) = alookup q (apply_effects f (firstn j l)).
Proof.
  induction l as [|e l IH]; intros f k Hc Hw.
  - exists 0. split; [lia|]. intros q _. unfold crash_state, lower_all. cbn [flat_map].
    now rewrite firstn_nil.
  - inversion Hw as [|? ? He Hl]; subst.
    unfold crash_state, lower_all. cbn [flat_map]. rewrite firstn_app.
    destruct (Nat.lt_ge_cases k (length (lower_atomic e))) as [Hlt|Hge].
    + (* the crash falls inside the first effect *)
      exists 0. split; [lia|]. intros q Hq.
      replace (k - length (lower_atomic e)) with 0 by lia. cbn [firstn]. rewrite app_nil_r.
      cbn [apply_effects fold_left]. now apply atomic_partial.
    + (* the first effect is complete *)
      rewrite firstn_all2 by lia. rewrite run_all_app, atomic_complete by assumption.
      destruct (IH (apply_effect f e) (k - length (lower_atomic e)) (clean_apply f e Hc He) Hl)
        as [j [Hj Hq]].
      exists (S j). split; [cbn [length]; lia|]. intros q Hqt.
      cbn [firstn]. unfold apply_effects. cbn [fold_left]. now apply Hq.
Qed.

Lemma crash_one_effect f e k : clean f -> wf_effect e ->
  (forall q, is_tmp q = false -> alookup q (crash_state lower_atomic f [e] k) = alookup q f) \/
  (forall q, is_tmp q = false -> alookup q (crash_state lower_atomic f [e] k) = alookup q (apply_effect f e)).
Proof.
  intros Hc Hw. destruct (crash_is_effect_prefix_gen [e] f k Hc (Forall_cons _ Hw (Forall_nil _))) as [j [Hj H]].
  destruct j as [|[|j]]; [left|right|cbn [length] in Hj; lia]; exact H.
Qed.
