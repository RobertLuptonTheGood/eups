(* Symbolic links (C16): what realpath makes of the names below a stack that is reached
   through a link, for the link tables the theorems are instantiated with. *)
From Eupsv Require Import Base.Base Base.BaseLemmas Model.Paths Proofs.RecordsLib Proofs.PathsLib.
From Coq Require Import Lia.

(* a suffix that continues a directory name: nothing, or a slash and more *)
Definition sfx (x : str) : bool :=
  match x with [] => true | c :: _ => ascii_eqb c c_slash end.

(* The stack named root is the directory rroot: the name itself and every name below it
   resolve to the same place below rroot. *)
Definition link_view (lk : links) (root rroot : str) : Prop :=
  forall x, sfx x = true -> realpath lk (root ++ x) = rroot ++ x.

Lemma realpath_step lk s :
  realpath lk s = match resolve1 lk s with Some s' => realpath_f 39 lk s' | None => s end.
Proof. reflexivity. Qed.

Lemma realpath_f_none fuel lk s : resolve1 lk s = None -> realpath_f fuel lk s = s.
Proof. intro H. destruct fuel; [reflexivity|]. cbn [realpath_f]. now rewrite H. Qed.

Lemma realpath_nil s : realpath [] s = s.
Proof. reflexivity. Qed.

Lemma link_view_nil root : link_view [] root root.
Proof. intros x _. reflexivity. Qed.

Lemma link_view_root lk root rroot : link_view lk root rroot -> realpath lk root = rroot.
Proof. intro H. specialize (H [] eq_refl). now rewrite !app_nil_r in H. Qed.

Lemma sfx_cons x : sfx x = true -> x = [] \/ exists y, x = c_slash :: y.
Proof.
  destruct x as [|c y]; [now left|]. cbn. intro H. right. exists y. f_equal.
  now apply ascii_eqb_eq in H.
Qed.

Lemma sfx_app s x : sfx s = true -> sfx x = true -> sfx (s ++ x) = true.
Proof. destruct s; cbn; auto. Qed.

(* neither name is the other one or a directory above it *)
Definition unrelated (l t : str) : bool :=
  negb (starts_with (l ++ [c_slash]) (t ++ [c_slash])) && negb (starts_with (t ++ [c_slash]) l).

Lemma snoc_eq_split (l t : str) (q : str) :
  l ++ [c_slash] = t ++ c_slash :: q -> l = t \/ starts_with (t ++ [c_slash]) l = true.
Proof.
  intro E. destruct (exists_last (l := c_slash :: q)) as [q' [e Eq]]; [discriminate|].
  rewrite Eq in E. rewrite app_assoc in E. apply app_inj_tail in E. destruct E as [E _].
  destruct q' as [|c q''].
  - left. cbn in Eq. now rewrite app_nil_r in E.
  - right. cbn [app] in Eq. injection Eq as <- _. subst l.
    apply starts_with_sep.
Qed.

Lemma unrelated_none l t x : unrelated l t = true -> sfx x = true -> resolve1 [(l, t)] (t ++ x) = None.
Proof.
  unfold unrelated. rewrite andb_true_iff, !negb_true_iff. intros [U1 U2] Hx.
  cbn [resolve1].
  assert (A : str_eqb (t ++ x) l = false).
  { apply str_eqb_neq. intro E. destruct (sfx_cons x Hx) as [->|[y ->]].
    - rewrite app_nil_r in E. subst l. now rewrite starts_with_self in U1.
    - subst l. now rewrite starts_with_sep in U2. }
  assert (B : starts_with (l ++ [c_slash]) (t ++ x) = false).
  { destruct (starts_with (l ++ [c_slash]) (t ++ x)) eqn:E; [|reflexivity].
    destruct (starts_with_true_app _ _ E) as [r Er]. apply app_eq_app in Er.
    destruct Er as [m [[Et _]|[El Ex]]].
    - (* l/ is a prefix of t *)
      rewrite Et, <- app_assoc, starts_with_refl in U1. discriminate.
    - destruct m as [|c m'].
      + rewrite app_nil_r in El. rewrite El, starts_with_refl in U1. discriminate.
      + (* x goes on with a slash, so l/ = t/m'/ *)
        rewrite Ex in Hx. cbn in Hx. apply ascii_eqb_eq in Hx. subst c.
        destruct (snoc_eq_split l t m' El) as [->|S]; [now rewrite starts_with_self in U1|congruence]. }
  now rewrite A, B.
Qed.

(* one link: the stack directory itself (s empty) or a directory above it *)
Lemma link_view_single l t s : unrelated l t = true -> sfx s = true ->
  link_view [(l, t)] (l ++ s) (t ++ s).
Proof.
  intros U Hs x Hx. rewrite <- !app_assoc. set (y := s ++ x).
  assert (Hy : sfx y = true) by now apply sfx_app.
  rewrite realpath_step. cbn [resolve1].
  assert (H : str_eqb (l ++ y) l || starts_with (l ++ [c_slash]) (l ++ y) = true).
  { destruct (sfx_cons y Hy) as [->|[z ->]].
    - rewrite app_nil_r, str_eqb_refl. reflexivity.
    - rewrite starts_with_sep. apply orb_true_r. }
  rewrite H, skipn_app_len. apply realpath_f_none. now apply unrelated_none.
Qed.

Lemma realpath_none lk s : resolve1 lk s = None -> realpath lk s = s.
Proof. apply realpath_f_none. Qed.
