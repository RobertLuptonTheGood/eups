(* Histories without user-tag commands: the tag directories stay empty, and then the five behaviours that
   the proposed user-tag repairs change (where Eups.assignTag writes a user tag, whether cacheIsUpToDate
   looks into the tag directory, whether Eups.declare reads the tags back, whose tag directory an
   administrator's rebuild reads) make no difference: every process does, step by step, what the repaired
   code does.  So the theorems about declarations and global tags hold for the tree as it is. *)
From Eupsv Require Import Base.Base Base.BaseLemmas Model.Db Model.Cache.
From Eupsv Require Import Proofs.DbLib Proofs.Db Proofs.CacheLib Proofs.CacheEff Proofs.CacheU Proofs.CacheInv.
From Coq Require Import Lia.

(* no chain file in any tag directory, no file of a tag directory ever stamped *)
Definition nouc (w : world) : Prop :=
  w_uc w = [] /\ forall k, is_ukey k = true -> glookup rkey_eqb k (w_stamps w) = None.

(* same declarations-and-global-tags code as the repaired tree: removeVersion and the flavor set-up *)
Definition base_repaired (vr : variant) : Prop := v_rm vr = false /\ v_init vr = false.

Definition base_pop (x : pop) : bool := match x with POp _ | PDel _ _ _ => true | _ => false end.

Lemma nouc_same w w' : w_uc w' = w_uc w -> w_stamps w' = w_stamps w -> nouc w -> nouc w'.
Proof. intros A B [H1 H2]. split; [congruence|]. intros k Hk. rewrite B. apply H2. exact Hk. Qed.

Lemma unewer_than_nouc w u s tau : nouc w -> unewer_than w u s tau = false.
Proof.
  intros [H1 H2]. unfold unewer_than. apply existsb_false_forall. intros n _. unfold unewer_n. rewrite H1.
  unfold stamp_of. rewrite (H2 (RUDir u s n)) by reflexivity. cbn. reflexivity.
Qed.

Lemma up_to_date_nouc b w loc s fl : nouc w -> up_to_date b w loc s fl = up_to_date false w loc s fl.
Proof.
  intro H. unfold up_to_date. destruct (pk_get w loc s fl) as [p|]; [|reflexivity].
  rewrite (unewer_than_nouc w loc s (pk_stamp p) H), !andb_false_r. reflexivity.
Qed.

Lemma try_cache_nouc b w loc s fls ps : nouc w -> try_cache b w loc s fls ps = try_cache false w loc s fls ps.
Proof.
  intro H. unfold try_cache.
  assert (E : forallb (up_to_date b w loc s) fls = forallb (up_to_date false w loc s) fls).
  { induction fls as [|f r IH]; cbn; [reflexivity|]. rewrite (up_to_date_nouc b w loc s f H), IH. reflexivity. }
  rewrite E. reflexivity.
Qed.

Lemma rebuild_utags_nil d utd s f n : rebuild_utags d [] utd s f n = [].
Proof. destruct utd; reflexivity. Qed.

Lemma rebuild_lookup_nil d utd s : rebuild_lookup d [] utd s = rebuild_lookup d [] None s.
Proof.
  unfold rebuild_lookup. apply map_ext. intro f. f_equal. unfold rebuild_fdata. apply flat_map_ext. intro n.
  unfold rebuild_family. rewrite !rebuild_utags_nil. reflexivity.
Qed.

Lemma load_user_tags_nil d utd s ps : load_user_tags d [] utd s ps = ps.
Proof.
  destruct utd as [u|]; [|reflexivity]. unfold load_user_tags.
  assert (E : forall names lk, fold_left (fun lk n => load_utags_n [] u s n lk) names lk = lk).
  { induction names as [|n r IH]; intro lk; [reflexivity|]. cbn [fold_left]. rewrite IH. reflexivity. }
  rewrite E. destruct ps. reflexivity.
Qed.

Lemma persist_frame tick w s loc fl ps : w_uc (fst (persist tick w s loc fl ps)) = w_uc w /\
  w_stamps (fst (persist tick w s loc fl ps)) = w_stamps w.
Proof. unfold persist. cbn. auto. Qed.

Lemma save_frame tick s loc fls : forall w ps,
  w_uc (fst (fst (save tick w s loc fls ps))) = w_uc w /\ w_stamps (fst (fst (save tick w s loc fls ps))) = w_stamps w.
Proof.
  induction fls as [|fl r IH]; intros w ps; cbn [save]; [auto|].
  destruct (in_sync w s ps loc fl).
  - destruct (persist tick w s loc fl ps) as [w1 ps1] eqn:Ep. destruct (IH w1 ps1) as [A B].
    destruct (persist_frame tick w s loc fl ps) as [C D]. rewrite Ep in C, D. cbn [fst] in C, D.
    destruct (save tick w1 s loc r ps1) as [[w2 ps2] b]. cbn [fst] in *. split; congruence.
  - destruct (IH w ps) as [A B]. destruct (save tick w s loc r ps) as [[w2 ps2] b]. cbn [fst] in *. auto.
Qed.

Lemma save_flavor_frame tick w s loc u fl ps :
  w_uc (fst (save_flavor tick w s loc u fl ps)) = w_uc w /\ w_stamps (fst (save_flavor tick w s loc u fl ps)) = w_stamps w.
Proof. unfold save_flavor. destruct (in_sync w s ps loc fl); [apply persist_frame|cbn; auto]. Qed.

Lemma from_cache_nouc tick b w s loc utd nf : nouc w ->
  from_cache tick b w s loc utd nf = from_cache tick false w s loc None nf /\
  nouc (fst (from_cache tick false w s loc None nf)).
Proof.
  intro H. pose proof H as [H1 _]. unfold from_cache.
  rewrite (try_cache_nouc b w loc s nf ps_empty H).
  destruct (try_cache false w loc s nf ps_empty) as [ps1 [|]]; [split; [reflexivity|exact H]|].
  rewrite (try_cache_nouc b w upsdb s nf ps1 H).
  destruct (try_cache false w upsdb s nf ps1) as [ps2 [|]].
  - rewrite H1, !load_user_tags_nil. split; [reflexivity|].
    destruct (str_eqb loc upsdb); [exact H|].
    (* the stack loaded from the shared files is persisted into the instance's own directory *)
    destruct (save_frame tick s loc nf w ps2) as [A B].
    destruct (save tick w s loc nf ps2) as [[w' ps3] b']. cbn [fst] in *.
    apply (nouc_same w); assumption.
  - rewrite H1, (rebuild_lookup_nil (w_db w) utd s).
    destruct (save_frame tick s loc (uniq (akeys (rebuild_lookup (w_db w) [] None s) ++ nf)) w
                (mkPS (rebuild_lookup (w_db w) [] None s) (ps_modtimes ps2))) as [A B].
    destruct (save tick w s loc _ _) as [[w' ps3] b']. cbn [fst] in *. split; [reflexivity|].
    apply (nouc_same w); assumption.
Qed.

Lemma load_stacks_nouc tick b loc utd nf path : forall w, nouc w ->
  load_stacks tick b w loc utd nf path = load_stacks tick false w loc None nf path /\
  nouc (fst (load_stacks tick false w loc None nf path)).
Proof.
  induction path as [|s r IH]; intros w H; cbn [load_stacks]; [split; [reflexivity|exact H]|].
  destruct (from_cache_nouc tick b w s loc utd nf H) as [E N]. rewrite E.
  destruct (from_cache tick false w s loc None nf) as [w1 ps]. cbn [fst] in N.
  destruct (IH w1 N) as [E2 N2]. rewrite E2.
  destruct (load_stacks tick false w1 loc None nf r) as [w2 m]. cbn [fst] in *. split; [reflexivity|exact N2].
Qed.

Lemma load_nouc tick vr w loc u fl : base_repaired vr -> nouc w ->
  load tick vr w loc u fl = load tick repaired w loc u fl /\ nouc (fst (load tick repaired w loc u fl)).
Proof.
  intros [_ Hi] H. unfold load. rewrite Hi. cbn [v_init v_ustale v_shared repaired].
  destruct (load_stacks_nouc tick (v_ustale vr) loc (tag_dir (v_shared vr) loc u) (needed false fl) (map fst (w_db w)) w H) as [E1 N].
  destruct (load_stacks_nouc tick false loc (tag_dir false loc u) (needed false fl) (map fst (w_db w)) w H) as [E2 _].
  rewrite E1, E2. split; [reflexivity|exact N].
Qed.

Lemma do_uacts_nouc tick u g : forall w, w_uc w = [] -> do_uacts tick w u g = w.
Proof.
  unfold do_uacts. induction g as [|x g IH]; intros w H; [reflexivity|]. cbn [fold_left].
  assert (E : do_uact tick w u x = w).
  { destruct x; cbn [do_uact]; try reflexivity. rewrite H. destruct (is_some _); reflexivity. }
  rewrite E. apply IH. exact H.
Qed.

Lemma do_acts_nouc tick g : forall w, nouc w -> nouc (do_acts tick w g).
Proof.
  induction g as [|x g IH]; intros w H; [exact H|]. rewrite do_acts_cons. apply IH.
  destruct H as [H1 H2]. split; [rewrite do_act_uc; exact H1|].
  intros k Hk. unfold do_act. rewrite do_effects_ukey by exact Hk. apply H2. exact Hk.
Qed.

Lemma run_group_nouc tick vr loc u fl w m g die : base_repaired vr -> nouc w ->
  run_group tick vr loc u fl w m g die = run_group tick repaired loc u fl w m g die /\
  nouc (fst (fst (run_group tick repaired loc u fl w m g die))).
Proof.
  intros [Hr _] H. pose proof H as [H1 _]. unfold run_group. rewrite Hr. cbn [v_rm v_noread repaired].
  rewrite (do_uacts_nouc tick u g w H1).
  pose proof (do_acts_nouc tick g w H) as N1. pose proof N1 as [U1 _].
  destruct die; [split; [reflexivity|exact N1]|].
  destruct (alookup (group_stack g) m) as [ps|]; [|split; [reflexivity|exact N1]].
  assert (RB : read_back (v_noread vr) (do_acts tick w g) u = read_back false (do_acts tick w g) u).
  { unfold read_back. rewrite U1. destruct (v_noread vr); reflexivity. }
  rewrite RB.
  destruct (wt_acts false (read_back false (do_acts tick w g) u) g _) as [[ps2 ch]|]; [|split; [reflexivity|exact N1]].
  destruct (save_always g || ch); [|split; [reflexivity|exact N1]].
  destruct (save_flavor_frame tick (do_acts tick w g) (group_stack g) loc u fl ps2) as [A B].
  destruct (save_flavor tick (do_acts tick w g) (group_stack g) loc u fl ps2) as [w2 ps3]. cbn [fst] in *.
  split; [reflexivity|]. apply (nouc_same (do_acts tick w g)); assumption.
Qed.

Lemma run_groups_nouc tick vr loc u fl gs : base_repaired vr -> forall w m crash, nouc w ->
  run_groups tick vr loc u fl w m gs crash = run_groups tick repaired loc u fl w m gs crash /\
  nouc (fst (fst (run_groups tick repaired loc u fl w m gs crash))).
Proof.
  intro B. induction gs as [|g rest IH]; intros w m crash H; cbn [run_groups]; [split; [reflexivity|exact H]|].
  assert (Step : forall die crash',
    (let '(w1, m1, r) := run_group tick vr loc u fl w m g die in
     match r with GOk => run_groups tick vr loc u fl w1 m1 rest crash' | _ => (w1, m1, r) end) =
    (let '(w1, m1, r) := run_group tick repaired loc u fl w m g die in
     match r with GOk => run_groups tick repaired loc u fl w1 m1 rest crash' | _ => (w1, m1, r) end) /\
    nouc (fst (fst (let '(w1, m1, r) := run_group tick repaired loc u fl w m g die in
     match r with GOk => run_groups tick repaired loc u fl w1 m1 rest crash' | _ => (w1, m1, r) end)))).
  { intros die crash'. destruct (run_group_nouc tick vr loc u fl w m g die B H) as [E N]. rewrite E.
    destruct (run_group tick repaired loc u fl w m g die) as [[w1 m1] r]. cbn [fst] in N.
    destruct r; try (split; [reflexivity|exact N]). apply IH. exact N. }
  destruct crash as [[[|k] [|]]|]; try apply Step. split; [reflexivity|exact H].
Qed.

Lemma run_pop_nouc tick vr loc u fl w m x crash : base_repaired vr -> nouc w -> base_pop x = true ->
  run_pop tick vr loc u fl w m x crash = run_pop tick repaired loc u fl w m x crash /\
  nouc (fst (fst (run_pop tick repaired loc u fl w m x crash))).
Proof.
  intros B H Hx. destruct x as [o|l s f|o t n v|o t n vo|o t n v]; try discriminate; cbn [run_pop].
  - unfold run_op. destruct (negb _); [split; [reflexivity|exact H]|].
    destruct (decide false (view (w_db w)) o) as [acts|e]; [|split; [reflexivity|exact H]].
    destruct (run_groups_nouc tick vr loc u fl (groups acts) B w m crash H) as [E N]. rewrite E.
    destruct (run_groups tick repaired loc u fl w m (groups acts) crash) as [[w1 m1] r]. cbn [fst] in *.
    split; [reflexivity|exact N].
  - split; [reflexivity|]. cbn [fst]. apply (nouc_same w); [reflexivity|reflexivity|exact H].
Qed.

Lemma run_pops_nouc tick vr loc u fl xs : base_repaired vr -> forall w m crash, nouc w -> forallb base_pop xs = true ->
  run_pops tick vr loc u fl w m xs crash = run_pops tick repaired loc u fl w m xs crash /\
  nouc (fst (fst (run_pops tick repaired loc u fl w m xs crash))).
Proof.
  intro B. induction xs as [|x rest IH]; intros w m crash H F; [split; [reflexivity|exact H]|]. rewrite !run_pops_cons.
  cbn [forallb] in F. apply andb_true_iff in F. destruct F as [Fx Fr].
  destruct (run_pop_nouc tick vr loc u fl w m x (match crash with Some (0, g, b) => Some (g, b) | _ => None end) B H Fx)
    as [E N]. rewrite E.
  destruct (run_pop tick repaired loc u fl w m x _) as [[w1 m1] oc]. cbn [fst] in N.
  destruct (died oc); [split; [reflexivity|exact N]|].
  destruct (IH w1 m1 (match crash with Some (S i, g, b) => Some (i, g, b) | _ => None end) N Fr) as [E2 N2].
  rewrite E2. destruct (run_pops tick repaired loc u fl w1 m1 rest _) as [[w2 m2] ocs]. split; [reflexivity|exact N2].
Qed.

Lemma run_proc_nouc tick vr w p : base_repaired vr -> nouc w -> forallb base_pop (p_ops p) = true ->
  run_proc tick vr w p = run_proc tick repaired w p /\ nouc (run_proc tick repaired w p).
Proof.
  intros B H F. unfold run_proc, run_proc_full.
  destruct (load_nouc tick vr w (p_loc p) (p_user p) (p_flavor p) B H) as [E N]. rewrite E.
  destruct (load tick repaired w (p_loc p) (p_user p) (p_flavor p)) as [w1 m]. cbn [fst] in N.
  destruct (run_pops_nouc tick vr (p_loc p) (p_user p) (p_flavor p) (p_ops p) B w1 m (p_crash p) N F) as [E2 N2].
  rewrite E2. split; [reflexivity|exact N2].
Qed.

(* the worlds of histories without user-tag commands, under any behaviour of the five user-tag switches *)
Inductive reachable_nut (tick : nat -> nat) (vr : variant) : world -> Prop :=
| RN_init path : NoDup path -> reachable_nut tick vr (init_world path)
| RN_proc w p : p_user p <> upsdb -> (p_admin p = true -> p_ops p = []) -> forallb base_pop (p_ops p) = true ->
    reachable_nut tick vr w -> reachable_nut tick vr (run_proc tick vr w p)
| RN_del w loc s fl : reachable_nut tick vr w -> reachable_nut tick vr (delete_cache w loc s fl).

Lemma reachable_nut_repaired tick vr w : base_repaired vr -> reachable_nut tick vr w ->
  reachable tick repaired w /\ nouc w.
Proof.
  intros B R. induction R as [path ND|w p Hu Ha F R [IH N]|w loc s fl R [IH N]].
  - split; [apply R_init; exact ND|]. split; [reflexivity|]. intros k _. reflexivity.
  - destruct (run_proc_nouc tick vr w p B N F) as [E N2]. rewrite E. split; [|exact N2]. apply R_proc; assumption.
  - split; [apply R_del; exact IH|]. apply (nouc_same w); [reflexivity|reflexivity|exact N].
Qed.
