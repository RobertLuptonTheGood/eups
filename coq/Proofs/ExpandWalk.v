(* C17 - [lists_cover] (Proofs/ExpandFull.v), the hypothesis of exact_reproduces about the dependency lists, proved
   for the lists the dependency walk of C13 (Model/DepWalk.v: Table.dependencies with the resolver of C03 inside,
   getDependentProducts without topological sort) returns on the world of the composed setup model
   (Model/SetupFull.v), under the hypotheses exact_reproduces already has about the build (conflict_free: one
   assignment D explains every dependency line of every reachable table, none with -j; no keep in the VRO).

   The tables of the walk are read off the composed world: one dependency line per setup action, with the version /
   expression of the line information and no -t / -k (the composed model has none), so the VRO is handed down
   unchanged (plain_tables) and every line resolves, by vro_lookup_designates (C13 over C03), to what desig - the
   designation conflict_free speaks about - gives: the version D assigns.  Hence every member of the closure
   reach_ok below a product x is reached by the walk from (x, D x) and is listed (dwalk_top_spec). *)
From Eupsv Require Import Base.Base Base.BaseLemmas Model.PathAlg Model.Setup Model.Resolve Model.ResolveSpec
     Model.SetupFull Model.Expand.
From Eupsv Require Model.Graph Model.DepWalk.
From Eupsv Require Import Proofs.SetupFrame Proofs.SetupFullClosure Proofs.Expand Proofs.ExpandFull.
From Eupsv Require Proofs.DepWalkConst Proofs.DepWalkComplete Proofs.DepWalkEdges Proofs.DepWalkMain.

Import DepWalk.


Definition dline_of (x : str) (o j : bool) (li : lineinfo) : dline :=
  mkDline x (li_version li) (li_expr li) [] false o j.

(* one line information per action, as lines_ok reads them *)
Fixpoint dlines_of (acts : list action) (infos : list lineinfo) : list dline :=
  match acts with
  | [] => []
  | ASetup o x j :: r => dline_of x o j (hd no_info infos) :: dlines_of r (tl infos)
  | _ :: r => dlines_of r (tl infos)
  end.

Definition dtables_in (fw : fworld) (w : Setup.world) : dtables :=
  map (fun p => ((p_name p, p_version p), dlines_of (p_actions p) (lines_of fw p))) w.
Definition dtables_of (fw : fworld) : dtables := dtables_in fw (fw_products fw).

Lemma dtable_of_find_pv fw : forall w n v p, find_pv w n v = Some p ->
  dtable_of (dtables_in fw w) n v = Some (dlines_of (p_actions p) (lines_of fw p)).
Proof.
  induction w as [|q w IH]; intros n v p H; [discriminate|]. cbn [find_pv] in H. cbn [dtables_in map dtable_of].
  rewrite (str_eqb_sym n (p_name q)), (str_eqb_sym v (p_version q)).
  destruct (str_eqb (p_name q) n && str_eqb (p_version q) v); [now inversion H|]. now apply IH.
Qed.

Lemma dlines_plain x : forall acts infos, In x (dlines_of acts infos) -> dl_tags x = [] /\ dl_keep x = false.
Proof.
  induction acts as [|a acts IH]; intros infos I; [contradiction|]. destruct a; cbn [dlines_of] in I; try (now apply (IH _ I)).
  destruct I as [<-|I]; [now split|now apply (IH _ I)].
Qed.

Lemma dtable_of_in fw : forall w n v ls, dtable_of (dtables_in fw w) n v = Some ls ->
  exists p, ls = dlines_of (p_actions p) (lines_of fw p).
Proof.
  induction w as [|q w IH]; intros n v ls H; [discriminate|]. cbn [dtables_in map dtable_of] in H.
  destruct (str_eqb n (p_name q) && str_eqb v (p_version q)); [inversion H; eauto|now apply IH in H].
Qed.

Section Walk.
Variable vcmp : str -> str -> comparison.
Variable vmatch : str -> str -> bool.
Variable fw : fworld.
Variable cfg : Setup.config.
Variable rc : Resolve.config.
Variable flavors : list str.
Variable vro : list Resolve.entry.
Variable top : str.
Variable D : str -> option str.

Notation w := (fw_products fw).
Notation db := (db_of cfg fw).
Notation T := (dtables_of fw).

Hypothesis Hwfdb : wf_db db = true.
Hypothesis Hto : forall n, total_order_on vcmp (names_of db n).
Hypothesis Hnokeep : mem_entry EKeep vro = false.
Hypothesis Hlines : forall n v p, reachN fw top n -> D n = Some v -> find_pv w n v = Some p ->
                                  lines_ok vcmp vmatch fw cfg rc flavors vro D (p_actions p) (lines_of fw p).

Definition wlk : dline -> option found :=
  DepWalkConst.lk_under (line_vro rc) (lookup_at vcmp vmatch rc db flavors) vro.
Definition wlkp : dline -> option str -> option found :=
  DepWalkConst.lkp_under (line_vro rc) (lookup_pinned_at vcmp vmatch rc db flavors) vro.

Lemma line_vro_plain l : dl_tags l = [] -> dl_keep l = false -> line_vro rc vro l = vro.
Proof. intros Ht Hk. unfold line_vro. rewrite Ht, Hk, Hnokeep. reflexivity. Qed.

Lemma tables_plain : DepWalkConst.plain_tables (line_vro rc) vro T.
Proof.
  intros n v ls l Tn I. destruct (dtable_of_in fw _ _ _ _ Tn) as [p ->].
  destruct (dlines_plain l _ _ I). now apply line_vro_plain.
Qed.

Lemma wlk_desig x o j li :
  option_map fd_version (wlk (dline_of x o j li)) = desig vcmp vmatch fw cfg rc flavors vro 1 x li.
Proof.
  unfold wlk, DepWalkConst.lk_under, lookup_at. rewrite line_vro_plain by reflexivity.
  rewrite (DepWalkEdges.vro_lookup_designates vcmp vmatch rc db Hwfdb Hto flavors vro _ 0). reflexivity.
Qed.

Lemma in_dlines o x j : forall acts infos, In (ASetup o x j) acts ->
  lines_ok vcmp vmatch fw cfg rc flavors vro D acts infos ->
  exists li, In (dline_of x o j li) (dlines_of acts infos) /\ j = false /\
             desig vcmp vmatch fw cfg rc flavors vro 1 x li = D x.
Proof.
  induction acts as [|a acts IH]; intros infos I L; [contradiction|]. cbn [lines_ok] in L. destruct L as [La Lr].
  destruct I as [->|I].
  - destruct La as [-> Ld]. exists (hd no_info infos). cbn [dlines_of]. split; [now left|]. split; [reflexivity|assumption].
  - destruct (IH _ I Lr) as [li [Il R]]. exists li. split; [|assumption]. destruct a; cbn [dlines_of]; try assumption. now right.
Qed.

Definition nd (n v : str) : Graph.node := (n, Some v, true).

Lemma table_of_node n v p : find_pv w n v = Some p ->
  dnode_table T (nd n v) = Some (dlines_of (p_actions p) (lines_of fw p)).
Proof. intro F. unfold dnode_table, nd. cbn. now apply dtable_of_find_pv. Qed.

Lemma reach_is_walked m k : reach_ok fw D m k -> forall vm, reachN fw top m -> D m = Some vm ->
  k = m \/ exists vk, D k = Some vk /\ DepWalkComplete.dreach wlk wlkp T [] (nd m vm) (nd k vk).
Proof.
  induction 1 as [m|m v p o x j k Dm Fm Hin Sx Rxk IH]; intros vm Rm Dvm; [now left|]. right.
  rewrite Dm in Dvm. injection Dvm as <-.
  destruct (in_dlines o x j _ _ Hin (Hlines m v p Rm Dm Fm)) as [li [Il [-> Dx]]].
  inversion Sx as [n vx px Dxv Fx _]; subst n.
  assert (Rx : reachN fw top x) by (eapply reachN_step; [exact Rm|exact (proj1 (find_pv_spec w m v p Fm))|exact Hin]).
  set (l := dline_of x o false li) in *.
  assert (Dl : DepWalkComplete.dline_in T (nd m v) l).
  { exists (dlines_of (p_actions p) (lines_of fw p)). split; [exact (table_of_node m v p Fm)|exact Il]. }
  assert (Tg : DepWalkComplete.dtg wlk wlkp [] l = nd x vx).
  { unfold DepWalkComplete.dtg, DepWalkConst.cresolve. cbn [Graph.pin_of]. pose proof (wlk_desig x o false li) as Q.
    fold l in Q. rewrite Dx, Dxv in Q. destruct (wlk l) as [fd|]; [|discriminate]. cbn in Q. injection Q as Q.
    unfold tgt_of, nd. now rewrite Q. }
  destruct (IH vx Rx Dxv) as [->|[vk [Dk Rk]]].
  - exists vx. split; [assumption|]. rewrite <- Tg. now apply DepWalkComplete.dr_one.
  - exists vk. split; [assumption|]. eapply DepWalkComplete.dr_more; [exact Dl|reflexivity|]. now rewrite Tg.
Qed.

Definition dep_of_entry (en : Graph.entry) : dep :=
  {| d_name := Graph.nname (Graph.enode en); d_optional := Graph.eoptional en; d_depth := Graph.edepth en |}.

(* getDependentProducts(product n v) without topological sort, as names *)
Definition walk_list (fuel : nat) (n v : str) : list dep :=
  match dep_products2 (line_vro rc) (lookup_at vcmp vmatch rc db flavors) (lookup_pinned_at vcmp vmatch rc db flavors)
                      (vro_pref_ok rc vro) vro fuel T T (nd n v) false false with
  | Ok l => map dep_of_entry l
  | Err _ => []
  end.

Definition walk_lists (fuel : nat) (names : list (str * str)) : rawdeps :=
  map (fun nv => (fst nv, snd nv, walk_list fuel (fst nv) (snd nv))) names.

Lemma lookup_raw_walk fuel n v : forall names, In (n, v) names -> lookup_raw (walk_lists fuel names) n v = walk_list fuel n v.
Proof.
  induction names as [|[n' v'] names IH]; intro I; [contradiction|]. cbn [walk_lists map lookup_raw fst snd].
  destruct (str_eqb n' n && str_eqb v' v) eqn:E.
  - apply andb_true_iff in E. destruct E as [E1 E2]. apply str_eqb_eq in E1, E2. now subst.
  - destruct I as [I|I]; [|now apply IH]. inversion I; subst. now rewrite !str_eqb_refl in E.
Qed.

Lemma walk_list_complete fuel n v k vk : length T < fuel -> k <> n ->
  DepWalkComplete.dreach wlk wlkp T [] (nd n v) (nd k vk) -> exists d, In d (walk_list fuel n v) /\ d_name d = k.
Proof.
  intros Hf Nk R. unfold walk_list.
  destruct (DepWalkMain.listing_plain_general (line_vro rc) (lookup_at vcmp vmatch rc db flavors)
              (lookup_pinned_at vcmp vmatch rc db flavors) (vro_pref_ok rc vro) vro fuel T T (nd n v) tables_plain Hf)
    as [l [-> Hl]].
  assert (I : In (nd k vk) (map Graph.enode l)).
  { apply Hl. split; [intro E; inversion E; contradiction|exact R]. }
  apply in_map_iff in I. destruct I as [en [E I]]. exists (dep_of_entry en). split; [now apply in_map|].
  unfold dep_of_entry. cbn [d_name]. now rewrite E.
Qed.

(* [lists_cover] for the lists of the walk.  What ties the table TEXT of top to the composed world stays a
   hypothesis: the setup lines of the classified table name the dependency actions of top's table (the two readers
   of the text - Table._read for the build, the scanner of expandTableFile - see the same commands), none with -j,
   none naming top itself; and the lists were asked for every such line's product at its assigned version. *)
Theorem lists_cover_walk fuel names ls topv ptop :
  length T < fuel ->
  D top = Some topv -> find_pv w top topv = Some ptop ->
  (forall o x j, In (ASetup o x j) (p_actions ptop) ->
     x <> top /\ exists s, In (LSetup s) ls /\ sl_name s = x /\ mem_str (lit "-j") (sl_flags s) = false) ->
  (forall s va, In (LSetup s) ls -> D (sl_name s) = Some va -> In (sl_name s, va) names) ->
  lists_cover fw D top (walk_lists fuel names) ls.
Proof.
  intros Hf Dt Ft Tie Nm k Rk Nk. inversion Rk as [|m v p o x j k' Dm Fm Hin Sx Rxk]; subst; [contradiction|].
  rewrite Dt in Dm. injection Dm as <-. rewrite Ft in Fm. injection Fm as <-.
  destruct (Tie o x j Hin) as [Nx [s [Is [Es Js]]]]. inversion Sx as [n vx px Dx Fx _]; subst n.
  assert (Rtop : reachN fw top top) by constructor.
  assert (Rx : reachN fw top x) by (eapply reachN_step; [exact Rtop|exact (proj1 (find_pv_spec w top topv ptop Ft))|exact Hin]).
  exists s, vx. split; [assumption|]. split; [now rewrite Es|]. split.
  - rewrite Es. eapply ro_dep; [exact Dt|exact Ft|exact Hin|exact Sx|constructor].
  - split; [now rewrite Es|]. destruct (reach_is_walked x k Rxk vx Rx Dx) as [->|[vk [Dk Rw]]]; [left; now rewrite Es|].
    destruct (str_eq_dec k x) as [->|Nkx]; [left; now rewrite Es|]. right. split; [assumption|].
    rewrite Es. rewrite lookup_raw_walk by (rewrite <- Es; apply Nm; [assumption|now rewrite Es]).
    eapply walk_list_complete; eauto.
Qed.
End Walk.
