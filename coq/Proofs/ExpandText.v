(* C17, level A - the composition expand_text = print . expand . classify:
   - the written lines are, indentation aside, the renderings of what Model/Expand.v expand_gen returns for the
     classified lines (text_factors);
   - what the classification guarantees about the lines it lets through (classify_lines_ok);
   - reading the written text back (tview, tpins) gives the renderings of the two views of Model/Expand.v and of
     the pins;
   - the other lines and the setup lines of a rendered view (other_lines_render, setup_texts_render). *)
From Eupsv Require Import Base.Base Base.BaseLemmas Model.Rx Proofs.RxLib Model.PathAlg Model.Setup Model.Expand Model.ExpandText.
From Eupsv Require Import Proofs.Expand Proofs.ExpandTextLib.

Lemma map_snd_at_level lvl l : map snd (at_level lvl l) = l.
Proof. unfold at_level. rewrite map_map. cbn. apply map_id. Qed.

Lemma emit_levels pins : forall bs lvl, map snd (emit_z lvl pins bs) = emit lvl pins bs.
Proof.
  induction bs as [|[f b] bs IH]; intro lvl; [reflexivity|]. destruct f; cbn [emit_z emit].
  - destruct (existsb fst bs).
    + cbn [map snd]. rewrite map_app, map_snd_at_level. cbn [map snd]. now rewrite IH.
    + cbn [map snd]. rewrite map_app, map_snd_at_level. cbn [map snd]. rewrite map_app, map_snd_at_level.
      cbn [map snd]. now rewrite IH.
  - destruct (block_levels lvl b) as [l1 l2] eqn:L. cbn [snd]. rewrite map_app, IH. f_equal.
    destruct (map out_bline b) as [|x r]; [reflexivity|]. cbn [map snd]. now rewrite map_snd_at_level.
Qed.

Lemma layout_lines jf sf cf w e top plist force rd ls lay :
  expand_layout jf sf cf w e top plist force rd ls = Ok lay ->
  expand_gen jf sf cf w e top plist force rd ls = Ok (map snd lay).
Proof.
  unfold expand_layout, expand_gen.
  destruct (collect jf sf cf w e top plist force rd _ _) as [a|x]; [|discriminate].
  intro H. inversion H; subst. now rewrite map_app, emit_levels, map_snd_at_level.
Qed.

Definition ok_tline (tf : bool) (l : tline) : Prop :=
  match l with
  | LBlank => True
  | LComment t => strip t = t /\ (exists r, t = c_hash :: r) /\ exactish t = false
  | LOther t => strip t = t /\ t <> [] /\ exactish t = false /\ mentions_setup tf t = false /\ mem_ascii c_hash t = false
  | LSetup s => strip (sl_orig s) = sl_orig s /\ kw_here tf (sl_orig s) = true /\ mem_ascii c_hash (sl_orig s) = false
  | LEups t => strip t = t /\ kw_here tf t = true /\ mem_ascii c_hash t = false
  end.

Lemma classify_args_orig tf o g orig x : classify_args tf o g orig = Inside x ->
  (exists s, x = LSetup s /\ sl_orig s = orig) \/ x = LEups orig.
Proof.
  unfold classify_args. destruct (split_set (is_argsep tf) g) as [|t0 ts]; [discriminate|].
  destruct (str_eqb t0 (lit "eups")).
  - destruct (str_eqb _ t0); [|discriminate]. intro H. inversion H. now right.
  - destruct (scan_args (t0 :: ts)) as [fl ws| |]; try discriminate. destruct ws as [|name ws]; [discriminate|].
    destruct (negb (str_eqb _ name)); [discriminate|].
    destruct (match ws with [] => _ | v :: ws' => _ end) as [version ws1].
    destruct (take_bracket ws1) as [logical ws2]. intro H. inversion H. left. eexists. split; reflexivity.
Qed.

Lemma classify_line_ok tf l x : classify_line tf l = Inside x -> ok_tline tf x.
Proof.
  unfold classify_line. destruct (negb (forallb ascii_ok l)); [discriminate|].
  destruct (has_sub (lit "--external") l); [discriminate|].
  destruct (drop_ws l) as [|c r] eqn:D; [intro H; inversion H; exact I|].
  assert (Wc : is_pyspace c = false).
  { destruct (drop_ws_shape l) as [E|[c' [r' [E W]]]]; rewrite D in E; [discriminate|]. now inversion E; subst. }
  destruct (ascii_eqb c c_hash) eqn:Hc.
  - destruct (exactish l) eqn:X; [discriminate|]. intro H. inversion H; subst. cbn [ok_tline].
    split; [apply strip_idem|]. split.
    + unfold strip. rewrite D, rstrip_head by assumption. apply ascii_eqb_eq in Hc. subst c. eauto.
    + now rewrite exactish_strip.
  - pose proof (drop_ws_before_hash l c r D Hc) as D1. set (l1 := before_hash l) in *.
    assert (NH : mem_ascii c_hash (strip l1) = false) by (apply mem_ascii_strip, before_hash_no_hash).
    destruct (negb (mentions_setup tf l1)) eqn:M.
    + destruct (exactish l1) eqn:X; [discriminate|]. intro H. injection H as <-. cbn [ok_tline].
      split; [apply strip_idem|]. split.
      * unfold strip. rewrite D1, rstrip_head by assumption. discriminate.
      * split; [now rewrite exactish_strip|]. split; [|assumption].
        apply mentions_strip. now apply negb_true_iff in M.
    + destruct (cmd_at tf (drop_ws l1)) as [[[o g] rest]|] eqn:C; [|discriminate].
      destruct (negb (all_ws rest)); [discriminate|]. destruct (existsb paren g); [discriminate|].
      assert (K : kw_here tf (strip l1) = true).
      { unfold strip. apply kw_here_rstrip. unfold cmd_at in C. unfold kw_here. destruct (kw_at tf (drop_ws l1)); [reflexivity|discriminate]. }
      intro H. apply classify_args_orig in H. destruct H as [[s [-> Eo]]| ->]; cbn [ok_tline]; rewrite ?Eo;
        (split; [apply strip_idem|split; assumption]).
Qed.

Lemma classify_lines_ok tf : forall ls xs, classify_lines tf ls = Inside xs -> Forall (ok_tline tf) xs.
Proof.
  induction ls as [|l ls IH]; intros xs H; [inversion H; constructor|]. cbn [classify_lines] in H.
  destruct (classify_line tf l) as [a|?|?] eqn:A; destruct (classify_lines tf ls) as [b|?|?] eqn:B; try discriminate.
  inversion H; subst. constructor; [now apply (classify_line_ok tf l)|now apply IH].
Qed.

Lemma all_ws_repeat n : all_ws (repeat c_space n) = true.
Proof. now apply forallb_repeat. Qed.

Lemma strip_render_at x : strip (render_at x) = strip (render (snd x)).
Proof. unfold render_at, indent. apply strip_ws_prefix, all_ws_repeat. Qed.

Lemma cmd_name_head o : exists r, cmd_name o = "s"%char :: r.
Proof. destruct o; eexists; reflexivity. Qed.

Lemma tight_cmd o body : tight (cmd_name o ++ lit "(" ++ body ++ lit ")").
Proof.
  destruct (cmd_name_head o) as [r ->]. cbn [app]. rewrite !app_assoc. apply tight_ends; reflexivity.
Qed.

Lemma kw_here_cmd tf o body : kw_here tf (cmd_name o ++ lit "(" ++ body) = true.
Proof. rewrite app_assoc. apply kw_here_ext. destruct tf, o; reflexivity. Qed.

Definition fixed (o : oline) : Prop := strip (render o) = render o.

Lemma render_pin o n v : render (OPin o n v) = cmd_name o ++ lit "(" ++ (pad15 n ++ lit " -j " ++ v) ++ lit ")".
Proof. cbn [render]. now rewrite <- !app_assoc. Qed.

Lemma rewrite_keep w e plist s s' : rewrite w e plist s = RKeep s' -> s' = s.
Proof.
  unfold rewrite. destruct (match truthy (sl_version s) with Some v => _ | None => _ end) as [v1 l1].
  destruct (truthy _); [discriminate|]. destruct (find_setup_product w e (sl_name s)); [|intro R; now inversion R].
  destruct (p_version p); [intro R; now inversion R|discriminate].
Qed.

Lemma fixed_line tf w e plist l : ok_tline tf l -> fixed (out_bline (rewrite_line w e plist l)).
Proof.
  unfold fixed. destruct l as [|t|s|t|t]; cbn [rewrite_line out_bline ok_tline].
  - intros _. reflexivity.
  - intros [S _]. exact S.
  - intros [S _]. cbn [render]. destruct (rewrite w e plist s) as [s'|o n fl v lg] eqn:R.
    + apply rewrite_keep in R. now subst s'.
    + cbn [render_rline]. apply strip_tight, tight_cmd.
  - intros [S _]. exact S.
  - intros [S _]. exact S.
Qed.

Lemma expand_fixed tf jf sf cf w e top plist force rd ls out :
  Forall (ok_tline tf) ls -> expand_gen jf sf cf w e top plist force rd ls = Ok out -> Forall fixed out.
Proof.
  intros Hl. apply expand_forall; try reflexivity.
  - intros o n v. unfold fixed. rewrite render_pin. apply strip_tight, tight_cmd.
  - intros l I. apply (fixed_line tf). rewrite Forall_forall in Hl. auto.
Qed.

(* the bridge: the text goes through the classified lines, and the lines of the written text, their indentation
   aside, are the renderings of what expand_gen returns (no written line holds a line feed, so the text splits back
   into the lines) *)
Theorem text_factors tf jf sf cf w e top plist force rd text otxt :
  expand_text_gen tf jf sf cf w e top plist force rd text = Inside otxt ->
  exists ls out,
    classify_text tf text = Inside ls /\ Forall (ok_tline tf) ls /\
    expand_gen jf sf cf w e top plist force rd ls = Ok out /\
    stripped_lines otxt = map render out.
Proof.
  unfold expand_text_gen, expand_text_lines_gen. destruct (classify_text tf text) as [ls|?|?] eqn:C; try discriminate.
  destruct (expr_checks w e plist ls); try discriminate.
  destruct (expand_layout jf sf cf w e top plist force rd ls) as [lay|?] eqn:L; [|discriminate].
  cbv zeta. destruct (forallb (fun l => negb (mem_ascii c_nl l)) (map render_at lay)) eqn:N; [|discriminate].
  intros [= <-]. pose proof (layout_lines _ _ _ _ _ _ _ _ _ _ _ L) as E.
  pose proof (classify_lines_ok tf _ _ C) as Ok1.
  exists ls, (map snd lay). split; [reflexivity|]. split; [assumption|]. split; [assumption|].
  unfold stripped_lines. rewrite lines_of_unlines.
  - pose proof (expand_fixed tf _ _ _ _ _ _ _ _ _ _ _ Ok1 E) as F. rewrite !map_map.
    clear - F. induction lay as [|x lay IH]; [reflexivity|]. inversion F; subst. cbn [map]. f_equal; [|now apply IH].
    now rewrite strip_render_at.
  - rewrite forallb_forall in N. apply Forall_forall. intros l I. apply N in I. now apply negb_true_iff in I.
Qed.

Definition not_if (x : str) : Prop := str_eqb x t_if_exact = false /\ str_eqb x t_if_not_exact = false.
Definition not_brace (x : str) : Prop := str_eqb x t_else = false /\ str_eqb x t_close = false.

Lemma not_if_head c r : ascii_eqb c "i"%char = false -> not_if (c :: r).
Proof. intro H. split; cbn; now rewrite H. Qed.
Lemma not_brace_head c r : ascii_eqb c "}"%char = false -> not_brace (c :: r).
Proof. intro H. split; cbn; now rewrite H. Qed.

Definition stays (m : vmode) (x : str) : Prop := match m with VOut => not_if x | _ => not_brace x end.

Lemma tview_app b m l r : Forall (stays m) l -> tview b m (l ++ r) = (if seen b m then l else []) ++ tview b m r.
Proof.
  intro F. destruct m; induction F as [|x l [H1 H2] _ IH]; try (now destruct b);
    cbn [app tview]; rewrite ?H1, ?H2, IH; now destruct b.
Qed.

Lemma tpins_app m l r : Forall (stays m) l ->
  tpins m (l ++ r) = match m with VPins => l | _ => [] end ++ tpins m r.
Proof.
  intro F. destruct m; induction F as [|x l [H1 H2] _ IH]; try reflexivity; cbn [app tpins]; now rewrite ?H1, ?H2, IH.
Qed.

(* what is known of a line of a block: a line of another kind is no if-line of the generated blocks; a line that
   may stand in a setup block is no brace line either *)
Definition okb (x : bline) : Prop :=
  match x with
  | BOther t => not_if t
  | _ => not_if (render (out_bline x)) /\ not_brace (render (out_bline x))
  end.

Lemma okb_not_if x : okb x -> not_if (render (out_bline x)).
Proof. destruct x; cbn [okb out_bline render]; tauto. Qed.
Lemma okb_not_brace x : okb x -> is_bother x = false -> not_brace (render (out_bline x)).
Proof. destruct x; cbn [okb is_bother]; try tauto. discriminate. Qed.

Section ReadBack.
Variables (exact : bool) (pins : list oline) (tl : list str).
Hypothesis Hpins : Forall (fun o => not_brace (render o)) pins.
Hypothesis Htl : Forall not_if tl.

Lemma body_ok lvl b : Forall okb b -> Forall (fun x => is_bother x = false) b ->
  Forall not_brace (map render (map out_bline (setup_body lvl b))).
Proof.
  intros Hk Hb. rewrite map_map. apply Forall_map. apply Forall_forall. intros x I. apply in_setup_body in I.
  rewrite Forall_forall in Hk, Hb. apply okb_not_brace; auto.
Qed.

Lemma tview_emit : forall bs lvl, Forall block_ok bs -> Forall (fun x => Forall okb (snd x)) bs ->
  tview exact VOut (map render (emit lvl pins bs) ++ tl) = map render (view_blocks exact lvl pins bs) ++ tl.
Proof.
  induction bs as [|[f b] bs IH]; intros lvl Hb Hk.
  - cbn [emit view_blocks map app]. rewrite <- (app_nil_r tl) at 1. rewrite (tview_app _ VOut) by assumption.
    cbn [tview]. now rewrite app_nil_r.
  - inversion Hb as [|? ? B1 B2]; subst. inversion Hk as [|? ? K1 K2]; subst. cbn [snd] in K1.
    destruct f; cbn [emit view_blocks].
    + unfold block_ok in B1. cbn [fst snd] in B1. pose proof (body_ok lvl b K1 B1) as Bd.
      destruct (existsb fst bs).
      * cbn [map app tview]. rewrite map_app, <- app_assoc. change (str_eqb (render OIfNotExact) t_if_exact) with false.
        change (str_eqb (render OIfNotExact) t_if_not_exact) with true. cbn match.
        rewrite (tview_app _ VNot) by assumption. cbn [map app tview].
        change (str_eqb (render OClose) t_close) with true. cbn match. rewrite IH by assumption.
        destruct exact; cbn [seen negb app]; now rewrite ?map_app, ?app_assoc.
      * cbn [map app tview]. rewrite map_app, <- app_assoc. change (str_eqb (render OIfExact) t_if_exact) with true. cbn match.
        rewrite (tview_app _ VPins) by (now apply Forall_map). cbn [map app tview].
        change (str_eqb (render OElse) t_else) with true. cbn match.
        rewrite map_app, <- app_assoc. rewrite (tview_app _ VElse) by assumption. cbn [map app tview].
        change (str_eqb (render OClose) t_close) with true. cbn match. rewrite IH by assumption.
        destruct exact; cbn [seen negb app]; now rewrite ?map_app, ?app_nil_r, ?app_assoc.
    + rewrite map_app, <- app_assoc. rewrite (tview_app _ VOut).
      * rewrite IH by assumption. now rewrite map_app, app_assoc.
      * rewrite map_map. apply Forall_map. eapply Forall_impl; [|exact K1]. apply okb_not_if.
Qed.

Lemma tpins_emit : forall bs lvl, Forall block_ok bs -> Forall (fun x => Forall okb (snd x)) bs ->
  tpins VOut (map render (emit lvl pins bs) ++ tl) = (if existsb fst bs then map render pins else []) ++ tpins VOut tl.
Proof.
  induction bs as [|[f b] bs IH]; intros lvl Hb Hk; [reflexivity|].
  inversion Hb as [|? ? B1 B2]; subst. inversion Hk as [|? ? K1 K2]; subst. cbn [snd] in K1.
  destruct f; cbn [emit existsb fst orb].
  - unfold block_ok in B1. cbn [fst snd] in B1. pose proof (body_ok lvl b K1 B1) as Bd.
    destruct (existsb fst bs) eqn:X.
    + cbn [map app tpins]. rewrite map_app, <- app_assoc. change (str_eqb (render OIfNotExact) t_if_exact) with false.
      change (str_eqb (render OIfNotExact) t_if_not_exact) with true. cbn match.
      rewrite (tpins_app VNot) by assumption. cbn [map app tpins].
      change (str_eqb (render OClose) t_close) with true. cbn match. now rewrite IH by assumption.
    + cbn [map app tpins]. rewrite map_app, <- app_assoc. change (str_eqb (render OIfExact) t_if_exact) with true. cbn match.
      rewrite (tpins_app VPins) by (now apply Forall_map). cbn [map app tpins].
      change (str_eqb (render OElse) t_else) with true. cbn match.
      rewrite map_app, <- app_assoc. rewrite (tpins_app VElse) by assumption. cbn [map app tpins].
      change (str_eqb (render OClose) t_close) with true. cbn match. rewrite IH by assumption.
      reflexivity.
  - rewrite map_app, <- app_assoc. rewrite (tpins_app VOut); [now apply IH|].
    rewrite map_map. apply Forall_map. eapply Forall_impl; [|exact K1]. apply okb_not_if.
Qed.
End ReadBack.

Lemma cmd_head_s : cmd_head "s"%char.
Proof. reflexivity. Qed.

Lemma render_setup_head tf w e plist s : ok_tline tf (LSetup s) ->
  exists c r, render (OSetup (rewrite w e plist s)) = c :: r /\ cmd_head c.
Proof.
  intros [_ [K _]]. cbn [render]. destruct (rewrite w e plist s) as [s'|o n fl v lg] eqn:R.
  - apply rewrite_keep in R. subst s'. cbn [render_rline]. now apply (kw_here_head tf).
  - cbn [render_rline]. destruct (cmd_name_head o) as [r ->]. cbn [app]. eexists _, _. split; [reflexivity|exact cmd_head_s].
Qed.

Lemma head_safe c r : cmd_head c -> not_if (c :: r) /\ not_brace (c :: r).
Proof.
  intro H. split; [apply not_if_head|apply not_brace_head]; apply (cmd_head_not c _ H); intro E; vm_compute in E; discriminate E.
Qed.

Lemma exactish_if_exact : exactish t_if_exact = true.
Proof. reflexivity. Qed.
Lemma exactish_if_not_exact : exactish t_if_not_exact = true.
Proof. reflexivity. Qed.

Lemma okb_line tf w e plist l : ok_tline tf l -> okb (rewrite_line w e plist l).
Proof.
  destruct l as [|t|s|t|t]; cbn [rewrite_line okb out_bline]; intro H.
  - repeat split.
  - destruct H as [_ [[r ->] _]]. cbn [render]. split; [now apply not_if_head|now apply not_brace_head].
  - destruct (render_setup_head tf w e plist s H) as [c [r [-> Hc]]]. now apply head_safe.
  - destruct H as [_ [_ [X _]]]. split.
    + destruct (str_eqb t t_if_exact) eqn:E; [|reflexivity]. apply str_eqb_eq in E. subst t. now rewrite exactish_if_exact in X.
    + destruct (str_eqb t t_if_not_exact) eqn:E; [|reflexivity]. apply str_eqb_eq in E. subst t. now rewrite exactish_if_not_exact in X.
  - destruct H as [_ [K _]]. cbn [render]. destruct (kw_here_head tf t K) as [c [r [-> Hc]]]. now apply head_safe.
Qed.

Lemma pin_safe o n v : not_if (render (OPin o n v)) /\ not_brace (render (OPin o n v)).
Proof. rewrite render_pin. destruct (cmd_name_head o) as [r ->]. cbn [app]. apply head_safe, cmd_head_s. Qed.

Section Written.
Variables (tf jf sf cf : bool) (w : world) (e : amap str) (top : str) (plist : amap str) (force : bool) (rd : rawdeps).
Variables (ls : list tline) (out : list oline).
Hypothesis Hok : Forall (ok_tline tf) ls.
Hypothesis E : expand_gen jf sf cf w e top plist force rd ls = Ok out.

Let bl := map (rewrite_line w e plist) ls.

Lemma bl_okb : Forall okb bl.
Proof. unfold bl. apply Forall_map. eapply Forall_impl; [|exact Hok]. intro l. apply okb_line. Qed.

Lemma final_safe : Forall not_if (map render (final_lines bl)).
Proof.
  apply Forall_map, final_forall. intros t I. pose proof bl_okb as B. rewrite Forall_forall in B.
  apply (B _) in I. cbn [okb out_bline] in I. tauto.
Qed.

Lemma tview_out_nil b l : Forall not_if l -> tview b VOut l = l.
Proof. intro H. rewrite <- (app_nil_r l) at 1. rewrite (tview_app _ VOut) by assumption. cbn [tview]. apply app_nil_r. Qed.
Lemma tpins_out_nil l : Forall not_if l -> tpins VOut l = [].
Proof. intro H. rewrite <- (app_nil_r l). now rewrite (tpins_app VOut). Qed.

Lemma tview_render exact : tview exact VOut (map render out) = map render (view exact VOut out).
Proof.
  destruct (expand_shape E) as [a ->]. fold bl.
  rewrite view_emit by (apply plain_pins || apply plain_final). rewrite !map_app.
  apply tview_emit.
  - apply pin_lines_forall. apply pin_safe.
  - apply final_safe.
  - apply blocks_fine.
  - apply blocks_forall; [constructor|apply bl_okb].
Qed.

(* the lines between the two markers of the exact block are the renderings of the pins of the output, all of
   them, in order *)
Definition pin_line (x : nvo) : str := pin_text (snd x) (fst (fst x)) (snd (fst x)).

Lemma tpins_all : tpins VOut (map render out) = map pin_line (pins_of out).
Proof.
  destruct (expand_shape E) as [a ->]. fold bl. rewrite map_app.
  rewrite (tpins_emit (pin_lines a) (map render (final_lines bl))).
  - rewrite (tpins_out_nil _ final_safe), app_nil_r. rewrite pins_of_app, pins_final, app_nil_r.
    rewrite pins_of_emit. destruct (existsb fst (blocks false [] bl)); [|reflexivity].
    rewrite pins_of_pin_lines. unfold pin_lines. now rewrite !map_map.
  - apply pin_lines_forall. apply pin_safe.
  - apply blocks_fine.
  - apply blocks_forall; [constructor|apply bl_okb].
Qed.

End Written.
Arguments tview_render {tf jf sf cf w e top plist force rd ls out} Hok E exact.

Lemma all_ws_drop_ws x : all_ws x = true -> drop_ws x = [].
Proof. apply drop_while_all. Qed.

Lemma drop_ws_nil_all_ws x : drop_ws x = [] -> all_ws x = true.
Proof. intro H. destruct (drop_ws_split x) as [a [E A]]. rewrite H, app_nil_r in E. now subst. Qed.

Lemma all_ws_before_hash x : all_ws x = true -> all_ws (before_hash x) = true.
Proof.
  induction x as [|c x IH]; [reflexivity|]. unfold all_ws. cbn [forallb before_hash]. rewrite andb_true_iff. intros [H1 H2].
  destruct (ascii_eqb c c_hash); [reflexivity|]. cbn [forallb]. rewrite H1. now apply IH.
Qed.

Lemma comment_line_blank l r : drop_ws l = c_hash :: r -> all_ws (before_hash l) = true.
Proof.
  intro D. destruct (drop_ws_split l) as [a [E A]]. rewrite D in E. rewrite E.
  rewrite before_hash_app by (apply all_ws_no; [reflexivity|assumption]). rewrite before_hash_hash, app_nil_r. exact A.
Qed.

Lemma classify_other l x : classify_line true l = Inside x ->
  match x with
  | LOther t => is_other_line l = true /\ strip (before_hash l) = t
  | _ => is_other_line l = false
  end.
Proof.
  unfold classify_line, is_other_line. destruct (negb (forallb ascii_ok l)); [discriminate|].
  destruct (has_sub (lit "--external") l); [discriminate|].
  destruct (drop_ws l) as [|c r] eqn:D.
  - intro H. injection H as <-. apply drop_ws_nil_all_ws in D. now rewrite (all_ws_before_hash l D).
  - destruct (ascii_eqb c c_hash) eqn:Hc.
    + destruct (exactish l); [discriminate|]. intro H. injection H as <-. apply ascii_eqb_eq in Hc. subst c.
      now rewrite (comment_line_blank l r D).
    + pose proof (drop_ws_before_hash l c r D Hc) as D1.
      assert (A : all_ws (before_hash l) = false).
      { destruct (all_ws (before_hash l)) eqn:A; [|reflexivity]. apply all_ws_drop_ws in A. congruence. }
      rewrite A. cbn [negb andb]. destruct (mentions_setup true (before_hash l)) eqn:M; cbn [negb].
      * destruct (cmd_at true (drop_ws (before_hash l))) as [[[o g] rest]|]; [|discriminate].
        destruct (negb (all_ws rest)); [discriminate|]. destruct (existsb paren g); [discriminate|].
        intro H. apply classify_args_orig in H. destruct H as [[s [-> _]]| ->]; reflexivity.
      * destruct (exactish (before_hash l)); [discriminate|]. intro H. injection H as <-. now split.
Qed.

Lemma classify_others : forall L ls, classify_lines true L = Inside ls -> other_lines L = others_in ls.
Proof.
  induction L as [|l L IH]; intros ls H; [injection H as <-; reflexivity|]. cbn [classify_lines] in H.
  destruct (classify_line true l) as [x|?|?] eqn:A; destruct (classify_lines true L) as [b|?|?] eqn:B; try discriminate.
  injection H as <-. pose proof (classify_other l x A) as C. unfold other_lines in *. cbn [filter].
  destruct x; try (rewrite C; cbn [others_in]; now apply IH).
  destruct C as [C1 C2]. rewrite C1. cbn [map others_in]. rewrite C2. f_equal. now apply IH.
Qed.

(* what is known of a line of one of the two views *)
Definition okv (o : oline) : Prop :=
  match o with
  | OBlank => True
  | OComment t => exists r, t = c_hash :: r
  | OOther t => strip t = t /\ t <> [] /\ mentions_setup true t = false /\ mem_ascii c_hash t = false
  | OSetup _ | OPin _ _ _ | OEups _ => is_setup_text (render o) = true
  | _ => False
  end.

Lemma setup_text_prefix p x : mem_ascii c_hash p = false -> kw_here true p = true -> is_setup_text (p ++ x) = true.
Proof.
  intros N K. unfold is_setup_text. rewrite before_hash_app by assumption. apply mentions_here. now apply kw_here_ext.
Qed.

Lemma setup_text_cmd o body : is_setup_text (cmd_name o ++ lit "(" ++ body) = true.
Proof. rewrite app_assoc. apply setup_text_prefix; destruct o; reflexivity. Qed.

Lemma okv_line w e plist l : ok_tline true l -> okv (out_bline (rewrite_line w e plist l)).
Proof.
  destruct l as [|t|s|t|t]; cbn [rewrite_line out_bline okv ok_tline].
  - tauto.
  - tauto.
  - intros [_ [K N]]. cbn [render]. destruct (rewrite w e plist s) as [s'|o n fl v lg] eqn:R.
    + apply rewrite_keep in R. subst s'. cbn [render_rline]. rewrite <- (app_nil_r (sl_orig s)). now apply setup_text_prefix.
    + cbn [render_rline]. apply setup_text_cmd.
  - tauto.
  - intros [_ [K N]]. cbn [render]. rewrite <- (app_nil_r t). now apply setup_text_prefix.
Qed.

Lemma okv_pin o n v : okv (OPin o n v).
Proof. cbn [okv]. rewrite render_pin. apply setup_text_cmd. Qed.

Lemma other_lines_render : forall V, Forall okv V -> other_lines (map render V) = others_of V.
Proof.
  unfold other_lines. induction 1 as [|o V Ho _ IH]; [reflexivity|]. cbn [map filter].
  destruct o; cbn [okv] in Ho; try contradiction; cbn [others_of];
    try (unfold is_other_line; unfold is_setup_text in Ho; rewrite Ho; now rewrite andb_false_r).   (* setup lines, pins *)
  - exact IH.
  - destruct Ho as [r ->]. exact IH.
  - destruct Ho as [S [N [M H]]]. unfold is_other_line. cbn [render]. rewrite (before_hash_id t H), M.
    replace (all_ws t) with false.
    + cbn [negb andb map]. rewrite (before_hash_id t H), S. now f_equal.
    + destruct (all_ws t) eqn:A; [|reflexivity]. apply all_ws_drop_ws in A. unfold strip in S. rewrite A in S. now symmetry in S.
Qed.

Definition setupish (o : oline) : bool := match o with OSetup _ | OPin _ _ _ | OEups _ => true | _ => false end.

Lemma setup_texts_render : forall V, Forall okv V -> setup_texts (map render V) = map render (filter setupish V).
Proof.
  unfold setup_texts. induction 1 as [|o V Ho _ IH]; [reflexivity|]. cbn [map filter].
  destruct o; cbn [okv] in Ho; try contradiction; cbn [setupish]; try (rewrite Ho; cbn [map]; now f_equal).
  - exact IH.
  - destruct Ho as [r ->]. exact IH.
  - destruct Ho as [S [N [M H]]]. unfold is_setup_text. cbn [render]. now rewrite (before_hash_id t H), M.
Qed.

Lemma setupish_setups : forall L, pins_of L = [] -> eups_of L = [] -> filter setupish L = map OSetup (setups_of L).
Proof.
  induction L as [|o L IH]; [reflexivity|]. destruct o; cbn [pins_of eups_of filter setupish setups_of map]; try exact IH; try discriminate.
  intros P Q. f_equal. now apply IH.
Qed.

Section WrittenFixed.
Variables (jf sf cf : bool) (w : world) (e : amap str) (top : str) (plist : amap str) (force : bool) (rd : rawdeps).
Variables (ls : list tline) (out : list oline).
Hypothesis Hok : Forall (ok_tline true) ls.
Hypothesis E : expand_gen jf sf cf w e top plist force rd ls = Ok out.

Let bl := map (rewrite_line w e plist) ls.

Lemma bl_okv : forall x, In x bl -> okv (out_bline x).
Proof.
  intros x I. unfold bl in I. apply in_map_iff in I. destruct I as [l [<- I]]. apply okv_line.
  rewrite Forall_forall in Hok. auto.
Qed.

Lemma final_okv : Forall okv (final_lines bl).
Proof.
  apply final_forall. intros t I. exact (bl_okv _ I).
Qed.

Lemma view_okv exact : Forall okv (view exact VOut out).
Proof.
  destruct (expand_shape E) as [a ->]. fold bl.
  rewrite view_emit by (apply plain_pins || apply plain_final). apply Forall_app. split; [|apply final_okv].
  apply view_blocks_forall.
  - apply pin_lines_forall. apply okv_pin.
  - intros f b x I Ix. apply bl_okv. apply (in_blocks x f b _ _ _ I Ix).
Qed.

Lemma inexact_setupish :
  filter setupish (view false VOut out) = map OSetup (map (rewrite w e plist) (setups_in ls)) ++ map OEups (eups_in ls).
Proof.
  pose proof (inexact_setup_lines E) as S.
  destruct (expand_shape E) as [a ->]. fold bl in S |- *.
  rewrite view_emit in S |- * by (apply plain_pins || apply plain_final).
  rewrite setups_of_app, setups_final, app_nil_r in S. rewrite filter_app. f_equal.
  - rewrite setupish_setups; [now rewrite S|rewrite (proj_inexact _ _ pins_proj _ eq_refl (fun _ => eq_refl)); apply pins_of_out|].
    apply eups_of_view_blocks; [apply plain_pins_eups|apply blocks_fine].
  - unfold final_lines, bl. rewrite eups_rewrite. induction (eups_in ls) as [|t l IH]; [reflexivity|]. cbn [map filter setupish]. now f_equal.
Qed.
End WrittenFixed.
Arguments inexact_setupish {jf sf cf w e top plist force rd ls out} E.
