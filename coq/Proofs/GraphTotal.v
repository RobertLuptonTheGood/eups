(* Totality of the topological pipeline (utils.topologicalSort, Eups.getDependentProducts(topological),
   Eups.uses) and the exact outcome of the cycle check, from the general correctness of Tarjan's
   algorithm (Proofs/GraphTarjanFull.v):

   - the component graph built from a correct component list is acyclic (components are listed in
     reverse topological order), so the layering loop always finds a component without successors:
     [comp_layers false] answers on every graph, cyclic or not;
   - hence [dependent_products fuel w top true] answers on every world;
   - [check_cycles] raises its own RuntimeError ([Err Refused]) exactly on the graphs with a cycle. *)
From Coq Require Import Lia.
From Eupsv Require Import Base.Base Base.BaseLemmas Model.Graph Proofs.GraphLib Proofs.GraphWalk
     Proofs.GraphListing Proofs.GraphLayers Proofs.GraphTarjan Proofs.GraphPartition Proofs.GraphOrder
     Proofs.GraphTarjanLib Proofs.GraphTarjanFull.

Lemma cg_edges_total cs n cn : comp_of cs n = Some cn -> forall ss m,
  (forall s, In s ss -> exists c, comp_of cs s = Some c) -> exists m', cg_edges cs n ss m = Ok m'.
Proof.
  intros En. induction ss as [|s r IH]; intros m Hs; simpl; [eauto|].
  rewrite En. destruct (Hs s (or_introl eq_refl)) as [c_s Es]. rewrite Es.
  apply IH. intros s' H. apply Hs. right. exact H.
Qed.

Lemma cg_of_total cs : forall (g : graph) m,
  (forall n ss, In (n, ss) g -> (exists c, comp_of cs n = Some c) /\ forall s, In s ss -> exists c, comp_of cs s = Some c) ->
  exists m', cg_of cs g m = Ok m'.
Proof.
  induction g as [|[n ss] g IH]; intros m Hg; simpl; [eauto|].
  destruct (Hg n ss (or_introl eq_refl)) as [[cn En] Hs]. rewrite En.
  destruct (cg_edges_total cs n cn En ss m Hs) as [m1 E1]. rewrite E1.
  apply IH. intros n' ss' H. apply Hg. right. exact H.
Qed.

Lemma cg_init_no_edge cs k e : ~ has_edge (cg_init cs) k e.
Proof.
  induction cs as [|c r IH]; simpl; [intros [deps [[] _]]|].
  destruct (mem_comp c (map fst (cg_init r))); [exact IH|].
  intros [deps [[Q | I1] I2]]; [inversion Q; subst; destruct I2|]. apply IH. exists deps. auto.
Qed.

(* the layering loop ends when the component
   graph is acyclic: [rank] decreases along its edges *)
Lemma min_rank_entry (rank : comp -> nat) (m : cgraph) :
  m <> [] -> exists c deps, In (c, deps) m /\ forall c' deps', In (c', deps') m -> rank c <= rank c'.
Proof.
  induction m as [|[c deps] m IH]; [congruence|]. intros _.
  destruct m as [|x m'].
  - exists c, deps. split; [left; reflexivity|]. intros c' deps' [Q | []]. inversion Q. lia.
  - destruct IH as [c1 [d1 [I1 H1]]]; [discriminate|].
    destruct (Nat.le_gt_cases (rank c) (rank c1)) as [Hle | Hgt].
    + exists c, deps. split; [left; reflexivity|]. intros c' deps' [Q | I]; [inversion Q; lia|].
      specialize (H1 c' deps' I). lia.
    + exists c1, d1. split; [right; exact I1|]. intros c' deps' [Q | I]; [inversion Q; subst; lia|].
      apply (H1 c' deps' I).
Qed.

Lemma peel_total (rank : comp -> nat) f : forall m,
  NoDup (map fst m) ->
  (forall c deps d, In (c, deps) m -> In d deps -> In d (map fst m) /\ rank d < rank c) ->
  length m < f -> exists L, peel f m = Ok L.
Proof.
  induction f as [|f IH]; intros m ND Hr Hlt; [lia|]. rewrite peel_unfold.
  destruct (ready m) as [|o1 o] eqn:Eo.
  - destruct m as [|x m']; [eauto|]. exfalso.
    destruct (min_rank_entry rank (x :: m')) as [c [deps [Ic Hmin]]]; [discriminate|].
    destruct deps as [|d deps].
    + apply ready_In in Ic. rewrite Eo in Ic. destruct Ic.
    + destruct (Hr c (d :: deps) d Ic (or_introl eq_refl)) as [Kd Rd].
      apply in_map_iff in Kd as [[d' deps'] [Q Id]]. simpl in Q. subst d'.
      specialize (Hmin d deps' Id). lia.
  - rewrite <- Eo. assert (Hne : ready m <> []) by (rewrite Eo; discriminate).
    pose proof (rest_shorter m Hne) as Hm'.
    destruct (IH (rest m) (rest_NoDup m ND)) as [L' EL]; [|lia|rewrite EL; eauto].
    intros c deps d Ic Id. apply rest_In in Ic as [_ [deps0 [Ic ->]]].
    apply filter_In in Id as [Id Hd]. apply negb_true_iff, mem_comp_not_In in Hd.
    destruct (Hr c deps0 d Ic Id) as [Kd Rd]. split; [apply rest_keys; auto | exact Rd].
Qed.

Definition crank (cs : list (list node)) (c : comp) : nat :=
  match c with [] => 0 | x :: _ => cidx cs x end.

Lemma crank_of cs c x : NoDup (concat cs) -> In c cs -> In x c -> crank cs c = cidx cs x.
Proof.
  intros ND Ic Ix. destruct c as [|y c']; [destruct Ix|]. simpl.
  apply (cidx_same cs (y :: c')); auto. left. reflexivity.
Qed.

Lemma comp_layers_total check g cs :
  closed_graph g -> scc_spec g cs ->
  (check = false \/ forall c, In c cs -> length c <= 1) ->
  exists L, comp_layers check g cs = Ok L.
Proof.
  intros Hc S Hchk. unfold comp_layers.
  assert (Echk : check && existsb (fun c => Nat.ltb 1 (length c)) cs = false).
  { destruct Hchk as [-> | H]; [reflexivity|]. apply andb_false_iff. right. apply no_big_comp, H. }
  rewrite Echk.
  pose proof (ss_nodup _ _ S) as ND.
  assert (Hg : forall n ss, In (n, ss) g ->
            (exists c, comp_of cs n = Some c) /\ forall s, In s ss -> exists c, comp_of cs s = Some c).
  { intros n ss I. split.
    - apply comp_of_Some, (ss_cover _ _ S). apply in_map_iff. exists (n, ss). auto.
    - intros s Is. apply comp_of_Some, (ss_cover _ _ S). eapply Hc; eauto. }
  destruct (cg_of_total cs g (cg_init cs) Hg) as [m Em]. rewrite Em.
  destruct (cg_keys cs g m Em) as [NDm Km]. destruct (cg_of_Ok cs g _ m Em) as [_ Hm].
  apply (peel_total (crank cs)).
  - exact NDm.
  - intros c deps d Ic Id.
    destruct (proj1 (Hm c d) (ex_intro _ deps (conj Ic Id))) as [H0 | [n [ss [s [A [B [Cn [Cs Ne]]]]]]]].
    + destruct (cg_init_no_edge _ _ _ H0).
    + pose proof (comp_of_In _ _ _ Cn) as [Ic' In_]. pose proof (comp_of_In _ _ _ Cs) as [Id' Is].
      split; [apply Km, Id'|].
      rewrite (crank_of cs c n ND Ic' In_), (crank_of cs d s ND Id' Is).
      assert (Kn : In n (concat cs)) by (apply in_concat; eauto).
      destruct (ss_topo _ _ S n s Kn (ex_intro _ ss (conj A B))) as [_ Le].
      destruct (Nat.eq_dec (cidx cs s) (cidx cs n)) as [Eq | Neq]; [|lia].
      exfalso. apply Ne. rewrite <- (comp_of_nth cs n c ND Cn), <- (comp_of_nth cs s d ND Cs), Eq. reflexivity.
  - lia.
Qed.

Lemma prepare_keys_nodup g : NoDup (gkeys g) -> NoDup (gkeys (prepare g)).
Proof.
  intros ND. rewrite prepare_gkeys. apply NoDup_app_intro; [exact ND | apply NoDup_filter, uniq_nodes_NoDup|].
  intros x Hx J. apply filter_In in J as [_ J]. apply negb_true_iff, mem_node_not_In in J.
  contradiction.
Qed.

Lemma topo_layers_total check g0 :
  NoDup (gkeys g0) -> (check = false \/ acyclic (prepare g0)) -> exists NL, topo_layers check g0 = Ok NL.
Proof.
  intros ND Hchk. unfold topo_layers, topo_layers_with.
  destruct (scc_correct (prepare g0) (prepare_keys_nodup g0 ND) (prepare_closed g0)) as [cs [E S]]. rewrite E.
  destruct (comp_layers_total check (prepare g0) cs (prepare_closed g0) S) as [L EL].
  { destruct Hchk as [-> | Ha]; [auto|]. right. intros c Ic.
    destruct (scc_dag (prepare g0) cs Ha (prepare_closed g0) E) as [H _].
    destruct (H c Ic) as [x [-> _]]. simpl. lia. }
  rewrite EL. apply sort_layers_total.
Qed.

Lemma pd_ensure_l_nodup k m : NoDup (gkeys m) -> NoDup (gkeys (pd_ensure_l k m)).
Proof.
  intros H. rewrite gkeys_pd_ensure_eq. destruct (mem_node k (gkeys m)) eqn:E; [exact H|].
  apply NoDup_snoc; [exact H | apply mem_node_not_In, E].
Qed.

Lemma pd_add_l_nodup k t m : NoDup (gkeys m) -> NoDup (gkeys (pd_add_l k t m)).
Proof. rewrite gkeys_pd_add_eq. apply pd_ensure_l_nodup. Qed.

Definition pd_nodup (st : wstate) : Prop := NoDup (gkeys (pd st)).

Lemma walk_lines_pd_nodup w pins rec :
  (forall t d es st r st', rec t d es st = Ok (r, st') -> pd_nodup st -> pd_nodup st') ->
  forall es tp d st r st', walk_lines w pins rec tp d es st = Ok (r, st') -> pd_nodup st -> pd_nodup st'.
Proof.
  intros Hrec. induction es as [|e es IH]; intros tp d st r st'; cbn [walk_lines].
  - intros Q H. inversion Q. subst. exact H.
  - cbv zeta. set (t := resolve w pins e).
    set (sub := if nreal t && negb (mem_node t (vis st)) then _ else _).
    destruct sub as [[l1 st2]|] eqn:E1; [|discriminate].
    destruct (walk_lines w pins rec tp d es (pd_add tp t st2)) as [[l2 st3]|] eqn:E2; [|discriminate].
    intros Q H. inversion Q. subst. apply (IH _ _ _ _ _ E2). apply pd_add_l_nodup.
    unfold sub in E1. destruct (nreal t && negb (mem_node t (vis st))).
    + destruct (node_table w t) as [es'|].
      * apply (Hrec _ _ _ _ _ _ E1). apply pd_ensure_l_nodup, H.
      * inversion E1. subst. exact H.
    + inversion E1. subst. exact H.
Qed.

Lemma walk_pd_nodup w pins fuel : forall t d es st r st',
  walk fuel w pins t d es st = Ok (r, st') -> pd_nodup st -> pd_nodup st'.
Proof.
  induction fuel as [|f IH]; intros t d es st r st'; [discriminate|].
  cbn [walk]. apply walk_lines_pd_nodup. exact IH.
Qed.

Lemma walk_top_pd_nodup w pins fuel top out st : walk_top fuel w pins top = Ok (out, st) -> NoDup (gkeys (pd st)).
Proof.
  unfold walk_top. destruct (node_table w top) as [es|].
  - intros H. apply walk_pd_nodup in H; [exact H|]. unfold pd_nodup. simpl. constructor; [intros [] | constructor].
  - intros Q. inversion Q. simpl. constructor.
Qed.

Lemma dependent_products_total w top fuel :
  length w < fuel -> exists l, dependent_products fuel w top true = Ok l.
Proof.
  intros Hf. unfold dependent_products, dependent_products_with.
  destruct (walk_top_spec w [] top fuel Hf) as [out1 [st1 [E1 _]]]. rewrite E1. cbn [negb]. cbv zeta.
  destruct (walk_top_spec w (pins_for true top (drop_top top out1)) top fuel Hf)
    as [out2 [st2 [E2 _]]].
  rewrite E2.
  destruct (topo_layers_total false (pd st2) (walk_top_pd_nodup _ _ _ _ _ _ E2) (or_introl eq_refl)) as [NL EL].
  unfold topo_layers in EL. rewrite EL. eauto.
Qed.

Lemma uses_index_total w fuel : length w < fuel -> exists idx, uses_index fuel w = Ok idx.
Proof.
  intros Hf. unfold uses_index. induction (map fst w) as [|[n v] ps IH]; simpl; [eauto|].
  destruct (dependent_products_total w (n, Some v, true) fuel Hf) as [l El].
  unfold dependent_products in El. rewrite El. destruct IH as [idx Ei]. rewrite Ei. eauto.
Qed.

Lemma topo_graph_inv fuel w top g : topo_graph fuel w top = Ok g ->
  exists out1 st1 out2 st2, walk_top fuel w [] top = Ok (out1, st1) /\
    walk_top fuel w (pins_fixed top (drop_top top out1)) top = Ok (out2, st2) /\
    g = prepare (pd st2) /\ NoDup (gkeys (pd st2)).
Proof.
  unfold topo_graph, topo_graph_with, pins_for. destruct (walk_top fuel w [] top) as [[out1 st1]|]; [|discriminate].
  destruct (walk_top fuel w _ top) as [[out2 st2]|] eqn:E2; [|discriminate].
  intros Q. inversion Q. exists out1, st1, out2, st2. pose proof (walk_top_pd_nodup _ _ _ _ _ _ E2). auto.
Qed.

Lemma topo_graph_keys_nodup fuel w top g : topo_graph fuel w top = Ok g -> NoDup (gkeys g).
Proof.
  intros H. destruct (topo_graph_inv _ _ _ _ H) as [out1 [st1 [out2 [st2 [_ [_ [-> ND]]]]]]].
  apply prepare_keys_nodup, ND.
Qed.

Lemma check_cycles_refused g0 : NoDup (gkeys g0) -> ~ acyclic (prepare g0) -> check_cycles g0 = Err Refused.
Proof.
  intros ND Hcyc. unfold check_cycles, topo_layers, topo_layers_with.
  set (g := prepare g0) in *.
  destruct (scc_correct g (prepare_keys_nodup g0 ND) (prepare_closed g0)) as [cs [E S]]. rewrite E.
  unfold comp_layers. destruct (existsb (fun c => Nat.ltb 1 (length c)) cs) eqn:Ex; [reflexivity|].
  exfalso. apply Hcyc. intros a P.
  pose proof (proj1 (no_big_comp cs) Ex) as Hsmall.
  assert (Hab : exists b, a <> b /\ gedge g a b /\ gstar g b a).
  { inversion P as [a' b' Eab | a' b' c' Eab P']; subst.
    - exfalso. apply (prepare_gedge g0 a a) in Eab as [_ Ne]. congruence.
    - exists b'. split; [apply (prepare_gedge g0 a b'), Eab|]. split; [exact Eab | apply gpath_star, P']. }
  destruct Hab as [b [Ne [Eab Rba]]].
  assert (Ka : In a (gkeys g)) by apply (gedge_mentions g a b Eab).
  assert (Kb : In b (gkeys g)).
  { destruct Eab as [ss [I1 I2]]. eapply (prepare_closed g0); eauto. }
  destruct (proj2 (scc_spec_components g cs S a b Ka Kb) (conj (gstar_edge g a b Eab) Rba)) as [c [Ic [Ia Ib]]].
  rewrite (singleton_comp c a (Hsmall c Ic) Ia) in Ib. destruct Ib as [Q | []]. congruence.
Qed.

Lemma check_cycles_passes g0 : NoDup (gkeys g0) -> acyclic (prepare g0) -> exists NL, check_cycles g0 = Ok NL.
Proof. intros ND Ha. apply topo_layers_total; auto. Qed.

Definition graph_ok_b (g : graph) : bool :=
  nodup_nodes (gkeys g) && forallb (fun it => forallb (fun s => mem_node s (gkeys g)) (snd it)) g.

Lemma graph_ok_by_computation g : graph_ok_b g = true -> NoDup (gkeys g) /\ closed_graph g.
Proof.
  unfold graph_ok_b. rewrite andb_true_iff. intros [H1 H2]. split; [apply nodup_nodes_NoDup, H1|].
  intros n ss s I1 I2. apply mem_node_In. rewrite forallb_forall in H2. specialize (H2 _ I1). simpl in H2.
  rewrite forallb_forall in H2. apply H2, I2.
Qed.
