(* Lemmas about Model/SetupText.v: the setup actions derived from the text printed from a table syntax
   tree (Model/TableSpec.v) are the meaning of the tree, by C11's blocks_sound; worlds of printed texts;
   transport of the setup theorems to worlds given as texts. *)
From Eupsv Require Import Base.Base Base.BaseLemmas Model.PathAlg Model.Setup Model.Rx Model.Cond Model.Args
  Model.Legacy Model.Blocks Model.TableSpec Model.SetupText Proofs.SetupFrame Proofs.SetupInv.
From Eupsv Require Props.C11.

Lemma map_res_map {A B C} (f : B -> res C) (g : A -> B) l :
  map_res f (map g l) = map_res (fun x => f (g x)) l.
Proof. induction l as [|a l IH]; cbn [map map_res]; [reflexivity|]. now rewrite IH. Qed.

Lemma map_res_ext_in {A B} (f g : A -> res B) l : (forall a, In a l -> f a = g a) -> map_res f l = map_res g l.
Proof.
  induction l as [|a l IH]; intro H; cbn [map_res]; [reflexivity|].
  rewrite (H a (or_introl eq_refl)), IH; [reflexivity|]. intros b Hb. apply H. now right.
Qed.

Lemma map_res_app {A B} (f : A -> res B) l m :
  map_res f (l ++ m) = bind (map_res f l) (fun a => bind (map_res f m) (fun b => Ok (a ++ b))).
Proof.
  induction l as [|x l IH]; cbn [app map_res bind].
  - destruct (map_res f m); reflexivity.
  - destruct (f x) as [y|e]; cbn [bind]; [|reflexivity]. rewrite IH.
    destruct (map_res f l) as [a|e]; cbn [bind]; [|reflexivity].
    destruct (map_res f m) as [b|e]; reflexivity.
Qed.

Lemma map_res_fields {A B C} (f : A -> res B) (g : B -> C) (h : A -> C) l l' :
  (forall a b, f a = Ok b -> g b = h a) -> map_res f l = Ok l' -> map g l' = map h l.
Proof.
  intro Hf. revert l'. induction l as [|a l IH]; intros l'; cbn [map_res].
  - intro E. injection E as <-. reflexivity.
  - destruct (f a) as [b|e] eqn:Ea; cbn [bind]; [|discriminate].
    destruct (map_res f l) as [m|e]; cbn [bind]; [|discriminate].
    intro E. injection E as <-. cbn [map]. now rewrite (Hf a b Ea), (IH m eq_refl).
Qed.

(* the canonical command name and the flags of a documented command mean the action its kind means *)
Lemma tr_kind k args :
  tr_action (mkAction (fst (kind_sem k)) args (snd (kind_sem k))) = kind_action k args.
Proof. destruct k; reflexivity. Qed.

Lemma load_denote_cmd pi c : load_action pi (denote_cmd (pi_name pi) c) = cmd_setup_action pi c.
Proof.
  unfold load_action, cmd_setup_action, cmd_args, denote_cmd. destruct c as [k args lay]. cbn [c_kind c_args].
  destruct (kind_sem k) as [name extra] eqn:E. cbn [a_args a_cmd a_extra].
  destruct (expand_args pi (match k with KEnvUnset => [dir_env_name (pi_name pi)] | _ => args end)) as [args'|e];
    cbn [bind]; [|reflexivity].
  rewrite <- (tr_kind k args'), E. reflexivity.
Qed.

Lemma pick_branch_cmds e top bs els : pick_branch e top bs els = map (denote_cmd top) (pick_cmds e bs els).
Proof.
  induction bs as [|b bs IH]; cbn [pick_branch pick_cmds].
  - destruct els as [[b l]|]; reflexivity.
  - destruct (denote e (b_cond b)); [reflexivity|exact IH].
Qed.

Lemma denote_items_cmds e top is : denote_items e top is = map (denote_cmd top) (items_cmds e is).
Proof.
  unfold denote_items, items_cmds. induction is as [|i is IH]; cbn [flat_map]; [reflexivity|].
  rewrite map_app, IH. f_equal. destruct i as [c|b0 elifs els cl]; cbn [denote_item item_cmds map]; [reflexivity|].
  apply pick_branch_cmds.
Qed.

(* the text printed from a well-formed items list yields the meaning of the list *)
Lemma table_setup_actions_print tc pi flavor is :
  wf_flavor flavor = true -> wf_items is = true ->
  table_setup_actions tc pi flavor (print_table is) = items_setup_actions tc pi flavor is.
Proof.
  intros Hf Hw. unfold table_setup_actions, items_setup_actions.
  rewrite (Props.C11.blocks_sound (pi_name pi) (mkCenv flavor (tc_types tc)) is Hf Hw). cbn [bind].
  rewrite map_res_app, denote_items_cmds, map_res_map.
  rewrite (map_res_ext_in _ (cmd_setup_action pi) _ (fun c _ => load_denote_cmd pi c)). reflexivity.
Qed.

Lemma product_of_text_print cfg tc ap :
  wf_aproduct cfg ap = true -> product_of_text cfg tc (print_product ap) = product_of_ast cfg tc ap.
Proof.
  intros Hw. unfold wf_aproduct in Hw. apply andb_true_iff in Hw. destruct Hw as [Hi Hf].
  unfold product_of_text, product_of_text_at, product_of_ast, print_product. cbn [t_name t_version t_dir t_text].
  destruct (negb (pinfo_ok _)); [reflexivity|].
  now rewrite (table_setup_actions_print tc _ _ (ap_items ap) Hf Hi).
Qed.

Lemma world_of_text_print cfg tc aw :
  wf_ast_world cfg aw = true -> world_of_text cfg tc (print_world aw) = world_of_ast cfg tc aw.
Proof.
  intro Hall. unfold wf_ast_world in Hall.
  unfold world_of_text, world_of_ast, print_world. rewrite map_res_map. apply map_res_ext_in.
  intros ap Hin. apply product_of_text_print. rewrite forallb_forall in Hall. now apply Hall.
Qed.

Lemma product_of_text_fields cfg tc tp p :
  product_of_text cfg tc tp = Ok p -> p_name p = t_name tp /\ p_version p = t_version tp /\ p_dir p = t_dir tp.
Proof.
  unfold product_of_text, product_of_text_at. destruct (negb (pinfo_ok _)); [discriminate|].
  destruct (table_setup_actions _ _ _ _) as [acts|e]; cbn [bind]; [|discriminate].
  intro E. injection E as <-. repeat split.
Qed.

Lemma world_of_text_names cfg tc tw w :
  world_of_text cfg tc tw = Ok w ->
  map p_name w = map t_name tw /\ map p_version w = map t_version tw /\ map p_dir w = map t_dir tw.
Proof.
  intro E. pose proof (product_of_text_fields cfg tc) as F.
  repeat split; apply (map_res_fields (product_of_text cfg tc) _ _ tw w); try exact E;
    intros tp p Ep; now destruct (F tp p Ep) as [? [? ?]].
Qed.

Lemma setup_text_is_setup cfg tc tw w fuel st ds name fwd depth just :
  world_of_text cfg tc tw = Ok w ->
  setup_text cfg tc tw fuel st ds name fwd depth just = Ok (setup w cfg fuel st ds name fwd depth just).
Proof. intro H. unfold setup_text. now rewrite H. Qed.

Lemma request_text_is_request cfg tc tw w fuel st ds name fwd just :
  world_of_text cfg tc tw = Ok w ->
  request_text cfg tc tw fuel st ds name fwd just = request w cfg fuel st ds name fwd just.
Proof. intro H. unfold request_text. now rewrite H. Qed.
