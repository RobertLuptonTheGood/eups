(* The resolver of Model/Resolve.v below the top level when the product was chosen before (an entry in
   alreadySetupProducts): the product it returns is the earlier choice or the product the walk without
   an entry returns - so when both carry the same version, so does the result. *)
From Eupsv Require Import Base.Base Base.BaseLemmas Model.Resolve Model.ResolveSpec Proofs.ResolveLib Proofs.Resolve.

Section Prev.
Variable vcmp : str -> str -> comparison.
Variable vmatch : str -> str -> bool.
Variable c : config.
Variable db : dbv.

Lemma vro_step_prev op r rq f depth e later :
  vro_step vcmp vmatch c db (Some (op, r)) rq f depth e later = vro_step vcmp vmatch c db None rq f depth e later \/
  exists r', vro_step vcmp vmatch c db (Some (op, r)) rq f depth e later = Stop (Some (op, r')).
Proof.
  destruct e; cbn [vro_step]; try (left; reflexivity).
  - destruct (0 <? depth); [right; eauto|left; reflexivity].
  - destruct r as [[[| | | | | |s|k|t] x]|]; try (left; reflexivity). right. eauto.
Qed.

Lemma vro_loop_prev op r rq f depth l :
  match vro_loop vcmp vmatch c db (Some (op, r)) rq f depth l with
  | Some (p', r', e') => p' = op \/ vro_loop vcmp vmatch c db None rq f depth l = Some (p', r', e')
  | None => vro_loop vcmp vmatch c db None rq f depth l = None
  end.
Proof.
  induction l as [|e later IH]; cbn [vro_loop]; [reflexivity|].
  destruct (vro_step_prev op r rq f depth e later) as [E|[r' E]]; rewrite E.
  - destruct (vro_step vcmp vmatch c db None rq f depth e later) as [|[[p0 r0]|]]; [exact IH|now right|reflexivity].
  - now left.
Qed.

Lemma find_from_vro_prev op r f depth vro rq :
  match find_from_vro vcmp vmatch c db (Some (op, r)) f depth vro rq with
  | Some (p', _) => p' = op \/ option_map fst (find_from_vro vcmp vmatch c db None f depth vro rq) = Some p'
  | None => find_from_vro vcmp vmatch c db None f depth vro rq = None
  end.
Proof.
  pose proof (vro_loop_prev op r rq f depth vro) as L. unfold find_from_vro.
  destruct (vro_loop vcmp vmatch c db (Some (op, r)) rq f depth vro) as [[[p' r'] e']|].
  - destruct r as [[otag ox]|]; [destruct (mem_entry otag vro && gt_index (index_of e' vro) (index_of otag vro)); [now left|]|].
    all: destruct L as [L|L]; [now left|right; now rewrite L].
  - now rewrite L.
Qed.

(* below the top level the acceptance loop makes one round and never raises *)
Lemma accept_prev_deep keep op r f d vro rq k :
  exists x, accept_loop vcmp vmatch (S k) c db keep (Some (op, r)) f (S d) vro rq = Ok x /\
    match x with
    | Some (p', _) => p' = op \/ option_map fst (find_from_vro vcmp vmatch c db None f (S d) vro rq) = Some p'
    | None => find_from_vro vcmp vmatch c db None f (S d) vro rq = None
    end.
Proof.
  cbn [accept_loop]. destruct vro as [|e l]; [exists None; split; reflexivity|].
  pose proof (find_from_vro_prev op r f (S d) (e :: l) rq) as F.
  destruct (find_from_vro vcmp vmatch c db (Some (op, r)) f (S d) (e :: l) rq) as [[p' r']|].
  - exists (Some (p', Some r')). split; [|exact F]. destruct (truthy (rq_version rq)); reflexivity.
  - destruct (keep || opt_str_eqb (fd_version op) (rq_version rq)).
    + exists (Some (op, None)). split; [|now left]. destruct (truthy (rq_version rq)); reflexivity.
    + exists None. split; [reflexivity|exact F].
Qed.

Lemma designates_top_deep n vr f d vro :
  designates_top vcmp vmatch c db n vr f (S d) vro = designates_in vcmp vmatch c db n vr f vro.
Proof.
  induction vro as [|e l IH]; cbn [designates_top designates_in]; [reflexivity|].
  destruct (clause vcmp vmatch c db n vr f e l); [|reflexivity|exact IH].
  destruct vr; reflexivity.
Qed.

Lemma designates_deep flavors d vro rq :
  designates vcmp vmatch c db flavors (S d) vro rq = designates vcmp vmatch c db flavors 1 vro rq.
Proof.
  unfold designates. induction flavors as [|f fs IH]; cbn [first_some]; [reflexivity|].
  rewrite !designates_top_deep. now rewrite IH.
Qed.

(* the earlier choice and the designated product carry the same version: so does whatever is returned *)
Lemma resolve_prev_version keep op r flavors d vro rq pD :
  wf_db db = true -> total_order_on vcmp (names_of db (rq_name rq)) ->
  designates vcmp vmatch c db flavors (S d) vro rq = Some pD -> fd_version op = fd_version pD ->
  exists p' r', resolve_request vcmp vmatch c db keep (Some (op, r)) flavors (S d) vro rq = Ok (Some (p', r')) /\
                fd_version p' = fd_version pD.
Proof.
  intros WF HT. unfold resolve_request, designates.
  induction flavors as [|f fs IH]; cbn [flavor_loop first_some]; [discriminate|]. intros HD HV.
  rewrite designates_top_deep in HD.
  destruct (accept_prev_deep keep op r f d vro rq (length vro)) as [x [E X]]. rewrite E.
  pose proof (walk_designates vcmp vmatch c db rq f (S d) WF HT vro) as WD.
  destruct x as [[p' r']|].
  - exists p', r'. split; [reflexivity|]. destruct X as [->|X]; [assumption|].
    rewrite X in WD. rewrite <- WD in HD. now injection HD as ->.
  - rewrite X in WD. cbn [option_map] in WD. rewrite <- WD in HD. now apply IH.
Qed.

End Prev.
