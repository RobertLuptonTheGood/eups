(* C09 - local lemmas, second part: the facts about one call that need the second look (fx = true) and,
   for the clean ends, the release on failure (fr = true); and the steps that concern no stack. *)
From Eupsv Require Import Base.Base Model.Lock Proofs.LockLib Proofs.LockNext.
From Coq Require Import Lia.

Section NextFx.
Variables (fr : bool) (cfg : config).
Notation call := (call true fr cfg).

Lemma call_IN p d fs lo d' fs' lo' : call p d fs lo d' fs' lo' -> lpc lo <> LHeldNoLock -> lpc lo' <> LHeldNoLock.
Proof.
  intros C N. destruct (call_local _ _ _ _ _ _ _ _ _ _ C) as [[-> _] | [(m & []) | [(-> & _) | (l' & -> & _ & _ & _ & H)]]]; auto.
  apply lpc_advance.
Qed.

Lemma call_firm p d fs lo d' fs' lo' x :
  call p d fs lo d' fs' lo' -> firm lo' x = true ->
  firm lo x = true \/
  (lpc lo = LValidate /\ x = lnl lo /\ widx lo = lnl lo /\ conflict cfg p fs = false /\ fs' = fs).
Proof.
  assert (GB : forall m g lo lo', lpc lo = LGive m g -> lands m lo lo' -> firm lo' x = true -> firm lo x = true).
  { intros m g lo0 lo1 L B F. destruct (l_firm B x F) as [-> X].
    destruct lo0 as [l i n j]. cbn [lpc] in L. subst l. now apply Nat.ltb_lt. }
  destruct 1; intro F; try (left; exact F);
    try (left; destruct lo as [l i n j]; cbn [lpc] in *; subst l; exact F).
  - left. now apply (look_firm true cfg d fs p lo l').
  - left. subst lo'. destruct lo as [l i n j]. cbn [lpc] in *. subst l. exact F.
  - left. apply (GB m GRmdir lo _ L (lands_give_next fr cfg m p lo) F).
  - left. apply (l_firm (lands_retry fr cfg p lo)) in F. destruct (taking_spec lo T) as (_ & -> & _).
    now apply Nat.ltb_lt.
  - now rewrite firm_raise in F.
  - apply firm_advance in F. destruct lo as [l i n j]. cbn [lpc lnl] in *. subst l.
    destruct (Nat.eq_dec x n) as [->|Hne]; [right; auto | left; apply Nat.ltb_lt; cbn [lnl]; lia].
  - now rewrite firm_begin_release in F.
  - left. apply (GB m GIsdir lo _ L (lands_give_next fr cfg m p lo) F).
  - left. apply (GB m GCount lo _ L (lands_give_next fr cfg m p lo) F).
  - left. apply (GB m GRemove lo _ L (lands_give_crash fr m lo) F).
  - left. apply (GB m g lo _ L (lands_give_race true fr cfg m p lo) F).
Qed.

(* a process whose file on the stack is visible while an incompatible lock on that stack is firm cannot get
   past its second look: it stays on that stack, unvalidated, until it has removed the file *)
Lemma call_pending p d fs lo d' fs' lo' :
  call p d fs lo d' fs' lo' ->
  (In p fs -> unvalidated (lpc lo) = true) -> (In p fs -> d = true) -> conflict cfg p fs = true ->
  In p fs' -> unvalidated (lpc lo') = true /\ lnl lo' = lnl lo /\ widx lo = lnl lo.
Proof.
  intros C HU H0 HC Hin.
  (* but for the calls that create or remove the file, the file was there: the process was unvalidated, the
     directory existed *)
  destruct C; try (pose proof (HU Hin) as U; pose proof (H0 Hin) as D; apply (mem_In p fs) in Hin).
  - repeat split; [|now apply unvalidated_widx].
    destruct lo as [l i n j]. cbn [lpc] in *. destruct K; try discriminate; try reflexivity; now destruct m.
  - rewrite D, Hin in A. discriminate.
  - discriminate.
  - rewrite E. destruct lo as [l i n j]. cbn [lpc] in L. subst l. repeat split.
  - now destruct (not_in_rem p fs).
  - contradiction.
  - destruct (taking_spec lo T) as (_ & _ & _ & U' & _). congruence.
  - destruct (taking_spec lo T) as (_ & _ & _ & U' & _). congruence.
  - congruence.
  - destruct L as [L|L]; rewrite L in U; discriminate.
  - discriminate.
  - rewrite L in U. now apply unvalidated_give in U.
  - rewrite D, Hin in A. discriminate.
  - rewrite L in U. apply unvalidated_give in U. congruence.
  - destruct lo as [l i n j]. cbn [lpc] in *. now destruct l.
Qed.
End NextFx.

Lemma clean_give_next_rel cfg m p lo : m <> GBackoff -> clean (give_next true cfg m p lo).
Proof. intro H. apply clean_give_next. auto. Qed.

Lemma call_clean cfg p d fs lo d' fs' lo' :
  call true true cfg p d fs lo d' fs' lo' ->
  clean lo -> (owns lo (widx lo) = true -> In p fs) -> (In p fs -> d = true) -> clean lo'.
Proof.
  intros C CL H1 H0. unfold give_race in C. destruct C; try assumption; try (intro X; discriminate X);
    try (apply clean_give_next; now left).
  - intro X. cbn [setpc lpc] in X. now rewrite (proj1 (look_lpc _ _ _ _ _ _ _ K)) in X.
  - now rewrite E.
  - apply clean_retry. now left.
  - apply clean_raise. now left.
  - apply clean_advance.
  - apply clean_begin_release.
  - (* the lock file giveLocks is about to remove is not there: excluded by the invariants if the process owns
       the position, and otherwise nothing is left behind *)
    destruct (owns lo (widx lo)) eqn:O.
    + specialize (H1 eq_refl). rewrite (H0 H1), (proj2 (mem_In _ _) H1) in A. discriminate.
    + destruct m; [|apply clean_raise; now left|]; intros _; destruct lo as [l i n j]; cbn [lpc] in L; subst l;
        unfold owns, widx in O; cbn [give_crash lpc lnl lcur gfile] in *; rewrite Nat.leb_refl in O;
        apply Nat.ltb_ge in O; lia.
Qed.

Lemma nostack_cases lo :
  nostack lo = lo \/ (lpc lo = LMkdir /\ nostack lo = setpc lo LHeld) \/
  ((lpc lo = LHeld \/ lpc lo = LHeldNoLock) /\ nostack lo = begin_release lo).
Proof. destruct lo as [l i n j]. unfold nostack. cbn [lpc]. destruct l; auto. Qed.

Lemma owns_nostack lo x : owns (nostack lo) x = owns lo x.
Proof.
  destruct (nostack_cases lo) as [-> | [(L & ->) | (L & ->)]]; [reflexivity | |];
    rewrite ?(l_owns (lands_begin_release lo)); destruct lo as [l i n j]; cbn [lpc] in L; [|destruct L]; now subst l.
Qed.

Lemma firm_nostack lo x : firm (nostack lo) x = true -> firm lo x = true.
Proof.
  destruct (nostack_cases lo) as [-> | [(L & ->) | (_ & ->)]]; [auto | | now rewrite firm_begin_release].
  destruct lo as [l i n j]. cbn [lpc] in L. now subst l.
Qed.

Lemma nostack_lpc lo :
  resp (lpc (nostack lo)) = true \/ unvalidated (lpc (nostack lo)) = true -> nostack lo = lo.
Proof.
  destruct (nostack_cases lo) as [-> | [(_ & ->) | (_ & ->)]]; [reflexivity | |]; intros [H|H]; try discriminate.
  - now rewrite (l_resp (lands_begin_release lo)) in H.
  - now rewrite (l_unvalidated (lands_begin_release lo)) in H.
Qed.

Lemma nostack_same lo : resp (lpc lo) = true \/ unvalidated (lpc lo) = true -> nostack lo = lo.
Proof. destruct lo as [l i n j]. destruct l; cbn; intros [H|H]; try discriminate; reflexivity. Qed.

Lemma nostack_IN lo : lpc lo <> LHeldNoLock -> lpc (nostack lo) <> LHeldNoLock.
Proof.
  destruct (nostack_cases lo) as [-> | [(_ & ->) | (_ & ->)]]; [auto | discriminate | intros _].
  apply (l_nolock (lands_begin_release lo)).
Qed.

Lemma clean_nostack lo : clean lo -> clean (nostack lo).
Proof.
  destruct (nostack_cases lo) as [-> | [(_ & ->) | (_ & ->)]]; [auto | discriminate | intros _].
  apply clean_begin_release.
Qed.

Lemma nostack_IW cfg p lo :
  nth_error (path_of cfg p) (widx lo) = None -> lnl lo <= length (path_of cfg p) ->
  (lpc lo = LHeld -> lnl lo = length (path_of cfg p)) ->
  lnl (nostack lo) <= length (path_of cfg p) /\ (lpc (nostack lo) = LHeld -> lnl (nostack lo) = length (path_of cfg p)).
Proof.
  intros W L H. destruct (nostack_cases lo) as [-> | [(M & ->) | (_ & ->)]]; [auto | |].
  - apply nth_error_None in W. unfold widx in W. rewrite M in W. split; [assumption | intros _; cbn [lnl setpc]; lia].
  - destruct (lands_begin_release lo). split; [lia | contradiction].
Qed.
