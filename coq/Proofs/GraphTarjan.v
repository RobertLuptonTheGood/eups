(* Tarjan's algorithm as written in utils.stronglyConnectedComponents, on graphs without cycles:
   every component it reports is a single node and every node is reported - also when the association
   list names a key twice, where the general statement (Proofs/GraphTarjanFull.v: every graph with
   distinct keys, cycles included) does not apply.  Also here, for both proofs: a node once numbered
   stays numbered, and the count of nodes not yet numbered, by which the fuel is measured. *)
From Coq Require Import Lia.
From Eupsv Require Import Base.Base Base.BaseLemmas Model.Graph Proofs.GraphLib Proofs.GraphLayers.

Lemma low_get_set_same l n v : low_get (low_set l n v) n = Some v.
Proof.
  induction l as [|[k v'] l IH]; simpl.
  - rewrite node_eqb_refl. reflexivity.
  - destruct (node_eqb n k) eqn:E; simpl; rewrite E; [reflexivity | exact IH].
Qed.

Lemma low_get_set_other l n v x : x <> n -> low_get (low_set l n v) x = low_get l x.
Proof.
  intros N. induction l as [|[k v'] l IH]; simpl.
  - apply node_eqb_neq in N. rewrite N. reflexivity.
  - destruct (node_eqb n k) eqn:E; simpl.
    + apply node_eqb_eq in E. subst k. apply node_eqb_neq in N. rewrite N. reflexivity.
    + destruct (node_eqb x k); auto.
Qed.

Lemma low_set_same l n v : low_get l n = Some v -> low_set l n v = l.
Proof.
  induction l as [|[k v'] l IH]; simpl; [discriminate|].
  destruct (node_eqb n k); [intros Q; inversion Q; reflexivity | intros H; rewrite (IH H); reflexivity].
Qed.

Lemma low_get_None l x : low_get l x = None <-> ~ In x (map fst l).
Proof.
  induction l as [|[k v] l IH]; simpl; [tauto|].
  destruct (node_eqb x k) eqn:E.
  - apply node_eqb_eq in E. subst. split; [discriminate | tauto].
  - apply node_eqb_neq in E. rewrite IH. split; [intros H [Q | Q]; [congruence | tauto] | tauto].
Qed.

Lemma low_get_Some_In l x v : low_get l x = Some v -> In x (map fst l).
Proof.
  intros H. destruct (in_dec node_eq_dec x (map fst l)) as [I | I]; [exact I|].
  apply low_get_None in I. congruence.
Qed.

Lemma low_set_dom_in l n v : In n (map fst l) -> map fst (low_set l n v) = map fst l.
Proof.
  induction l as [|[k v'] l IH]; simpl; [tauto|].
  destruct (node_eqb n k) eqn:E; simpl.
  - apply node_eqb_eq in E. subst. reflexivity.
  - intros [H | H]; [apply node_eqb_neq in E; congruence|]. rewrite IH; auto.
Qed.

Lemma low_set_dom_new l n v : ~ In n (map fst l) -> map fst (low_set l n v) = map fst l ++ [n].
Proof.
  induction l as [|[k v'] l IH]; simpl; [reflexivity|].
  intros H. destruct (node_eqb n k) eqn:E; simpl.
  - apply node_eqb_eq in E. subst. tauto.
  - rewrite IH; tauto.
Qed.

Lemma succs_of_In g n ss : succs_of g n = Some ss -> In (n, ss) g.
Proof.
  induction g as [|[k l] g IH]; simpl; [discriminate|].
  destruct (node_eqb n k) eqn:E.
  - apply node_eqb_eq in E. subst. intros Q. inversion Q. auto.
  - auto.
Qed.

Definition dom (st : tstate) : list node := map fst (low st).

Lemma fold_low_set_dom comp : forall lw v x,
  In x (map fst lw) -> In x (map fst (fold_left (fun lw it => low_set lw it v) comp lw)).
Proof.
  induction comp as [|c comp IHc]; intros lw v x Hx; simpl; [exact Hx|].
  apply IHc. destruct (in_dec node_eq_dec c (map fst lw)) as [I | I].
  - rewrite low_set_dom_in by exact I. exact Hx.
  - rewrite low_set_dom_new by exact I. apply in_or_app. auto.
Qed.

Lemma visit_succs_mono rec n :
  (forall s a b, rec s a = Ok b -> incl (dom a) (dom b)) ->
  forall ss sta stb, visit_succs rec n ss sta = Ok stb -> incl (dom sta) (dom stb).
Proof.
  intros Hrec. induction ss as [|s ss IHs]; intros sta stb; simpl.
  - intros Q. inversion Q. subst. apply incl_refl.
  - destruct (rec s sta) as [stc|] eqn:Ec; [|discriminate].
    destruct (low_get (low stc) n) as [a|] eqn:La; [|discriminate].
    destruct (low_get (low stc) s) as [b|]; [|discriminate].
    intros Q. apply IHs in Q. intros x Hx. apply Q. unfold dom. cbn [low].
    rewrite low_set_dom_in by (eapply low_get_Some_In; eauto).
    apply (Hrec s sta stc Ec), Hx.
Qed.

Lemma visit_dom_mono g f : forall m st1 st2, visit f g m st1 = Ok st2 -> incl (dom st1) (dom st2).
Proof.
  induction f as [|f IHf]; intros m st1 st2; [discriminate|].
  cbn [visit]. destruct (low_get (low st1) m) eqn:Lm.
  - intros Q. inversion Q. subst. apply incl_refl.
  - destruct (succs_of g m) as [ss|]; [|discriminate].
    set (st0 := mkT _ _ _).
    destruct (visit_succs (visit f g) m ss st0) as [std|] eqn:Ed; [|discriminate].
    apply (visit_succs_mono _ m IHf) in Ed. destruct (low_get (low std) m) as [l|] eqn:Ll; [|discriminate].
    assert (D0 : incl (dom st1) (dom st0)).
    { unfold st0, dom. cbn [low]. apply low_get_None in Lm. rewrite low_set_dom_new by exact Lm.
      intros x Hx. apply in_or_app. auto. }
    destruct (Nat.eqb (length (low st1)) l).
    + intros Q. inversion Q. subst. intros x Hx. apply D0, Ed in Hx. unfold dom. cbn [low].
      apply fold_low_set_dom. exact Hx.
    + intros Q. inversion Q. subst. intros x Hx. apply Ed, D0, Hx.
Qed.

Lemma visit_all_dom_mono g f : forall ns st st', visit_all f g ns st = Ok st' -> incl (dom st) (dom st').
Proof.
  induction ns as [|n r IH]; intros st st'; simpl.
  - intros Q. inversion Q. apply incl_refl.
  - destruct (visit f g n st) as [st1|] eqn:E; [|discriminate]. intros Q x Hx.
    apply (IH _ _ Q), (visit_dom_mono _ _ _ _ _ E), Hx.
Qed.

Section Dag.
  Variable g : graph.
  Hypothesis Hacyc : acyclic g.
  Hypothesis Hclosed : forall n ss s, In (n, ss) g -> In s ss -> In s (gkeys g).
  Let N := length g.

  Record tinv (st : tstate) : Prop := {
    ti_nodup : NoDup (dom st);
    ti_keys : incl (dom st) (gkeys g)
  }.

  Record tpost (st st' : tstate) : Prop := {
    tp_stack : stack st' = stack st;
    tp_old : forall x v, low_get (low st) x = Some v -> low_get (low st') x = Some v;
    tp_new : forall x, In x (dom st') -> ~ In x (dom st) -> low_get (low st') x = Some N /\ In [x] (comps st');
    tp_comps_mono : forall c, In c (comps st) -> In c (comps st');
    tp_comps_new : forall c, In c (comps st') -> In c (comps st) \/ exists x, c = [x] /\ In x (dom st');
    tp_inv : tinv st'
  }.

  Lemma tpost_refl st : tinv st -> tpost st st.
  Proof. intros I. constructor; auto. tauto. Qed.

  Lemma tpost_dom_mono st st' : tpost st st' -> incl (dom st) (dom st').
  Proof.
    intros P x Hx. unfold dom in *.
    destruct (low_get (low st) x) as [v|] eqn:E.
    - eapply low_get_Some_In. apply (tp_old _ _ P), E.
    - apply low_get_None in E. contradiction.
  Qed.

  Lemma tpost_low st st' x v : tpost st st' -> low_get (low st') x = Some v -> low_get (low st) x = Some v \/ v = N.
  Proof.
    intros P L. destruct (low_get (low st) x) as [v0|] eqn:L0.
    - left. rewrite (tp_old _ _ P x v0 L0) in L. exact L.
    - right. apply low_get_None in L0. destruct (tp_new _ _ P x (low_get_Some_In _ _ _ L) L0) as [X _]. congruence.
  Qed.

  Lemma tpost_trans st1 st2 st3 : tpost st1 st2 -> tpost st2 st3 -> tpost st1 st3.
  Proof.
    intros P Q. constructor.
    - rewrite (tp_stack _ _ Q). apply (tp_stack _ _ P).
    - intros x v H. apply (tp_old _ _ Q), (tp_old _ _ P), H.
    - intros x H3 H1. destruct (in_dec node_eq_dec x (dom st2)) as [H2 | H2].
      + destruct (tp_new _ _ P x H2 H1) as [A B]. split; [apply (tp_old _ _ Q), A | apply (tp_comps_mono _ _ Q), B].
      + apply (tp_new _ _ Q x H3 H2).
    - intros c H. apply (tp_comps_mono _ _ Q), (tp_comps_mono _ _ P), H.
    - intros c H. destruct (tp_comps_new _ _ Q c H) as [H' | H']; [|auto].
      destruct (tp_comps_new _ _ P c H') as [H'' | [x [E Hx]]]; [auto|]. right. exists x. split; [exact E|].
      eapply tpost_dom_mono; eauto.
    - apply (tp_inv _ _ Q).
  Qed.

  (* every node already numbered is finished or lies on a path to n *)
  Definition tpre (st : tstate) (n : node) : Prop :=
    forall x v, low_get (low st) x = Some v -> v = N \/ gpath g x n.

  Definition rec_dag (rec : node -> tstate -> res tstate) : Prop :=
    forall s st st', rec s st = Ok st' -> tinv st -> In s (gkeys g) -> tpre st s ->
                     tpost st st' /\ In s (dom st').

  Lemma visit_succs_dag rec n num :
    rec_dag rec -> num <= N ->
    forall ss st st',
      (forall s, In s ss -> gedge g n s /\ In s (gkeys g)) ->
      visit_succs rec n ss st = Ok st' ->
      tinv st -> low_get (low st) n = Some num ->
      (forall x v, low_get (low st) x = Some v -> v = N \/ x = n \/ gpath g x n) ->
      tpost st st' /\ low_get (low st') n = Some num.
  Proof.
    intros Hrec Hnum. induction ss as [|s r IH]; intros st st' Hss; simpl.
    - intros Q I Ln A. inversion Q. subst. split; [apply tpost_refl, I | exact Ln].
    - destruct (rec s st) as [st1|] eqn:E1; [|discriminate].
      destruct (low_get (low st1) n) as [a|] eqn:La; [|discriminate].
      destruct (low_get (low st1) s) as [b|] eqn:Lb; [|discriminate].
      intros Q I Ln A.
      destruct (Hss s (or_introl eq_refl)) as [Es Ks].
      assert (Pre : tpre st s).
      { intros x v Lx. destruct (A x v Lx) as [-> | [-> | P]]; [auto | right; apply gp_one, Es | right; eapply gpath_snoc; eauto]. }
      destruct (Hrec s st st1 E1 I Ks Pre) as [P1 D1].
      assert (Ea : a = num).
      { pose proof (tp_old _ _ P1 n num Ln) as X. congruence. }
      assert (Eb : b = N).
      { destruct (low_get (low st) s) as [v|] eqn:Ls.
        - pose proof (tp_old _ _ P1 s v Ls) as X. rewrite Lb in X. inversion X. subst v.
          destruct (A s b Ls) as [-> | [-> | P]]; [reflexivity | |].
          + exfalso. apply (Hacyc n). apply gp_one, Es.
          + exfalso. apply (Hacyc s). eapply gpath_snoc; eauto.
        - apply low_get_None in Ls. destruct (tp_new _ _ P1 s D1 Ls) as [X _]. congruence. }
      subst a b. rewrite Nat.min_l in Q by exact Hnum.
      (* the low link of n is left as it was: the state after the update is st1 *)
      rewrite (low_set_same _ _ _ La) in Q.
      replace (mkT (low st1) (stack st1) (comps st1)) with st1 in Q by (destruct st1; reflexivity).
      assert (A1 : forall x v, low_get (low st1) x = Some v -> v = N \/ x = n \/ gpath g x n).
      { intros x v Lx. destruct (tpost_low _ _ _ _ P1 Lx) as [L0 | ->]; [eapply A; eauto | auto]. }
      destruct (IH st1 st' (fun s' H => Hss s' (or_intror H)) Q (tp_inv _ _ P1) La A1) as [P13 L3].
      split; [eapply tpost_trans; eauto | exact L3].
  Qed.

  Lemma visit_dag fuel : rec_dag (visit fuel g).
  Proof.
    induction fuel as [|f IH]; intros n st st'; [discriminate|].
    cbn [visit]. destruct (low_get (low st) n) as [v|] eqn:Ln.
    - intros Q I K _. inversion Q. subst. split; [apply tpost_refl, I | eapply low_get_Some_In; eauto].
    - destruct (succs_of g n) as [ss|] eqn:Es; [|discriminate].
      set (num := length (low st)). set (pos := length (stack st)).
      set (st1 := mkT (low_set (low st) n num) (stack st ++ [n]) (comps st)).
      destruct (visit_succs (visit f g) n ss st1) as [st2|] eqn:E2; [|discriminate].
      destruct (low_get (low st2) n) as [l|] eqn:L2; [|discriminate].
      intros Q I K Pre.
      apply low_get_None in Ln as Nn.
      assert (Dom1 : dom st1 = dom st ++ [n]) by (unfold dom, st1; simpl; apply low_set_dom_new, Nn).
      assert (I1 : tinv st1).
      { destruct I as [X Y]. constructor; rewrite Dom1.
        - apply NoDup_snoc; auto.
        - intros x H. apply in_app_iff in H as [H | [<- | []]]; auto. }
      assert (Hnum : num <= N).
      { unfold num, N. destruct I as [X Y]. unfold dom in *.
        rewrite <- (map_length fst (low st)). unfold gkeys in Y. rewrite <- (map_length fst g).
        apply NoDup_incl_length; assumption. }
      assert (Hss : forall s, In s ss -> gedge g n s /\ In s (gkeys g)).
      { intros s Hs. apply succs_of_In in Es. split; [exists ss; auto|]. apply Hclosed with (n := n) (ss := ss); auto. }
      assert (A1 : forall x v, low_get (low st1) x = Some v -> v = N \/ x = n \/ gpath g x n).
      { intros x v Lx. destruct (node_eq_dec x n) as [-> | Ne]; [auto|].
        unfold st1 in Lx. simpl in Lx. rewrite low_get_set_other in Lx by exact Ne.
        destruct (Pre x v Lx); auto. }
      assert (L1 : low_get (low st1) n = Some num) by (unfold st1; simpl; apply low_get_set_same).
      destruct (visit_succs_dag (visit f g) n num IH Hnum ss st1 st2 Hss E2 I1 L1 A1) as [P12 Ln2].
      rewrite L2 in Ln2. inversion Ln2. subst l. rewrite Nat.eqb_refl in Q. inversion Q. subst st'. clear Q.
      assert (Stk : stack st2 = stack st ++ [n]) by (rewrite (tp_stack _ _ P12); reflexivity).
      unfold pos. rewrite Stk, skipn_length_app, firstn_length_app. cbn [fold_left].
      assert (Dn2 : In n (dom st2)) by (unfold dom; eapply low_get_Some_In; eauto).
      assert (Dom3 : map fst (low_set (low st2) n (length g)) = dom st2) by (apply low_set_dom_in, Dn2).
      split.
      + constructor; cbn [stack low comps].
        * reflexivity.
        * intros x v Lx. assert (Ne : x <> n) by (intros ->; congruence).
          rewrite low_get_set_other by exact Ne. apply (tp_old _ _ P12). unfold st1. simpl.
          rewrite low_get_set_other by exact Ne. exact Lx.
        * intros x Hx Hnx. unfold dom in Hx. cbn [low] in Hx. rewrite Dom3 in Hx.
          destruct (node_eq_dec x n) as [-> | Ne].
          -- split; [apply low_get_set_same | apply in_or_app; right; left; reflexivity].
          -- rewrite low_get_set_other by exact Ne.
             assert (Hn1 : ~ In x (dom st1)).
             { rewrite Dom1. intros H. apply in_app_iff in H as [H | [<- | []]]; tauto. }
             destruct (tp_new _ _ P12 x Hx Hn1) as [X Y]. split; [exact X | apply in_or_app; left; exact Y].
        * intros c H. apply in_or_app. left. apply (tp_comps_mono _ _ P12). exact H.
        * intros c H. apply in_app_iff in H as [H | [<- | []]].
          -- destruct (tp_comps_new _ _ P12 c H) as [H' | [x [E Hx]]]; [auto|]. right. exists x. split; [exact E|].
             unfold dom. cbn [low]. rewrite Dom3. exact Hx.
          -- right. exists n. split; [reflexivity|]. unfold dom. cbn [low]. rewrite Dom3. exact Dn2.
        * destruct (tp_inv _ _ P12) as [X Y]. constructor; unfold dom; cbn [low]; rewrite Dom3; assumption.
      + unfold dom. cbn [low]. rewrite Dom3. exact Dn2.
  Qed.
End Dag.

Definition closed_graph (g : graph) : Prop := forall n ss s, In (n, ss) g -> In s ss -> In s (gkeys g).

(* between two visits from the outer loop every numbered node is finished *)
Lemma visit_all_dag g (Ha : acyclic g) (Hc : closed_graph g) fuel : forall ns st st',
  visit_all fuel g ns st = Ok st' ->
  incl ns (gkeys g) ->
  tinv g st ->
  (forall x v, low_get (low st) x = Some v -> v = length g) ->
  tpost g st st' /\ (forall x, In x ns -> In x (dom st')).
Proof.
  induction ns as [|n r IH]; intros st st'; simpl.
  - intros Q _ I _. inversion Q. subst. split; [apply tpost_refl, I | intros x []].
  - destruct (visit fuel g n st) as [st1|] eqn:E; [|discriminate].
    intros Q K I D.
    assert (Pre : tpre g st n) by (intros x v L; left; eapply D; eauto).
    destruct (visit_dag g Ha Hc fuel n st st1 E I (K n (or_introl eq_refl)) Pre) as [P Dn].
    assert (D1 : forall x v, low_get (low st1) x = Some v -> v = length g).
    { intros x v L. destruct (tpost_low _ _ _ _ _ P L) as [L0 | ->]; [eapply D; eauto | reflexivity]. }
    destruct (IH st1 st' Q (fun x H => K x (or_intror H)) (tp_inv _ _ _ P) D1) as [P1 R1].
    split; [eapply tpost_trans; eauto|]. intros x [<- | H]; [|auto].
    apply (visit_all_dom_mono _ _ _ _ _ Q), Dn.
Qed.

Theorem scc_dag g cs :
  acyclic g -> closed_graph g -> scc g = Ok cs ->
  (forall c, In c cs -> exists x, c = [x] /\ In x (gkeys g)) /\ (forall n, In n (gkeys g) -> In [n] cs).
Proof.
  intros Ha Hc. unfold scc.
  destruct (visit_all (S (length g)) g (gkeys g) (mkT [] [] [])) as [st|] eqn:E; [|discriminate].
  intros Q. inversion Q. subst.
  destruct (visit_all_dag g Ha Hc _ _ _ _ E (incl_refl _)) as [P R]; simpl.
  - constructor; simpl; [constructor | intros x []].
  - discriminate.
  - split.
    + intros c H. destruct (tp_comps_new _ _ _ P c H) as [[] | [x [Ec Hx]]]. exists x. split; [exact Ec|].
      apply (ti_keys _ _ (tp_inv _ _ _ P)), Hx.
    + intros n H. apply (tp_new _ _ _ P n (R n H)). intros [].
Qed.

Definition unnumbered (g : graph) (st : tstate) : nat :=
  length (filter (fun k => negb (mem_node k (dom st))) (gkeys g)).

Lemma unnumbered_mono g st st' : incl (dom st) (dom st') -> unnumbered g st' <= unnumbered g st.
Proof. apply count_not_in_mono. Qed.

Lemma unnumbered_add g st st' n :
  In n (gkeys g) -> ~ In n (dom st) -> incl (n :: dom st) (dom st') -> unnumbered g st' < unnumbered g st.
Proof.
  intros K N H. apply count_not_in_lt with (n := n); [|exact K|exact N|].
  - intros x Hx. apply H. right. exact Hx.
  - apply H. left. reflexivity.
Qed.

Lemma visit_fuel g f : forall n st, unnumbered g st < f -> visit f g n st <> Err OutOfFuel.
Proof.
  induction f as [|f IH]; intros n st Hlt; [lia|].
  cbn [visit]. destruct (low_get (low st) n) eqn:Ln; [discriminate|].
  destruct (succs_of g n) as [ss|] eqn:Es; [|discriminate].
  set (st1 := mkT _ _ _).
  apply low_get_None in Ln.
  assert (D1 : incl (n :: dom st) (dom st1)).
  { unfold st1, dom. cbn [low]. rewrite low_set_dom_new by exact Ln. intros x [<- | Hx]; apply in_or_app; simpl; auto. }
  assert (Kn : In n (gkeys g)).
  { apply succs_of_In in Es. apply in_map_iff. exists (n, ss). auto. }
  assert (H1 : unnumbered g st1 < f).
  { pose proof (unnumbered_add g st st1 n Kn Ln D1). lia. }
  assert (G : forall ss sta, unnumbered g sta < f -> visit_succs (visit f g) n ss sta <> Err OutOfFuel).
  { induction ss0 as [|s ss0 IHs]; intros sta Ha; simpl; [discriminate|].
    destruct (visit f g s sta) as [stc|e] eqn:Ec.
    - destruct (low_get (low stc) n) as [a|] eqn:La; [|discriminate].
      destruct (low_get (low stc) s) as [b|]; [|discriminate].
      apply IHs. apply visit_dom_mono in Ec.
      assert (Dom : dom (mkT (low_set (low stc) n (Nat.min a b)) (stack stc) (comps stc)) = dom stc).
      { unfold dom. cbn [low]. apply low_set_dom_in. eapply low_get_Some_In; eauto. }
      pose proof (unnumbered_mono g sta stc Ec). unfold unnumbered in *. rewrite Dom. lia.
    - intros Q. inversion Q. subst e. eapply IH; eauto. }
  specialize (G ss st1 H1).
  destruct (visit_succs (visit f g) n ss st1) as [st2|e]; [|congruence].
  destruct (low_get (low st2) n); [|discriminate]. destruct (Nat.eqb _ _); discriminate.
Qed.

Lemma scc_fuel g : scc g <> Err OutOfFuel.
Proof.
  unfold scc.
  assert (G : forall ns st, visit_all (S (length g)) g ns st <> Err OutOfFuel).
  { induction ns as [|n r IH]; intros st; cbn [visit_all]; [discriminate|].
    destruct (visit (S (length g)) g n st) as [st1|e] eqn:E; [apply IH|].
    intros Q. inversion Q. subst e. eapply visit_fuel; [|exact E].
    unfold unnumbered, gkeys. pose proof (filter_length_le_all (fun k => negb (mem_node k (dom st))) (map fst g)).
    rewrite map_length in H. lia. }
  specialize (G (gkeys g) (mkT [] [] [])). destruct (visit_all _ _ _ _); [discriminate | congruence].
Qed.
