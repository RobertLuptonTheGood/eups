(* C18: tables without duplicate keys, which is what Mapping.add builds; Mapping.inverse. *)
From Eupsv Require Import Base.Base Base.BaseLemmas Model.Manifest Model.ManifestSpec
  Proofs.ManifestLib Proofs.ManifestMap.

Definition fm_nodup (fm : fmap) : Prop :=
  NoDup (akeys fm) /\
  forall f pm, In (f, pm) fm -> NoDup (akeys pm) /\ forall p vm, In (p, vm) pm -> NoDup (akeys vm).

Lemma mget_In_rows fm f p v q w : mget fm f p v = Some (q, w) -> In (f, p, v, q, w) (fm_rows fm).
Proof.
  unfold mget, group_val, mgroup, fm_rows.
  destruct (alookup f fm) as [pm|] eqn:E1; [|discriminate].
  destruct (alookup p pm) as [vm|] eqn:E2; [|discriminate]. intros E3.
  apply alookup_In in E1, E2, E3.
  apply in_flat_map. exists (f, pm). split; [assumption|].
  apply in_flat_map. exists (p, vm). split; [assumption|].
  apply in_map_iff. exists (v, (q, w)). auto.
Qed.

Lemma In_rows_mget fm f p v q w :
  fm_nodup fm -> In (f, p, v, q, w) (fm_rows fm) -> mget fm f p v = Some (q, w).
Proof.
  intros [N1 N2] H. unfold fm_rows in H.
  apply in_flat_map in H. destruct H as [[f' pm] [Hf H]].
  apply in_flat_map in H. destruct H as [[p' vm] [Hp H]].
  apply in_map_iff in H. destruct H as [[v' [q' w']] [[= <- <- <- <- <-] Hv]].
  destruct (N2 _ _ Hf) as [N3 N4]. specialize (N4 _ _ Hp).
  unfold mget, group_val, mgroup.
  rewrite (In_NoDup_alookup _ _ _ N1 Hf), (In_NoDup_alookup _ _ _ N3 Hp).
  now apply In_NoDup_alookup.
Qed.

Definition pm_nodup (pm : pmap) : Prop :=
  NoDup (akeys pm) /\ forall p vm, In (p, vm) pm -> NoDup (akeys vm).

Lemma fm_nodup_alt fm : fm_nodup fm <-> NoDup (akeys fm) /\ forall f pm, In (f, pm) fm -> pm_nodup pm.
Proof. reflexivity. Qed.

Lemma oget_pm_nodup fm f : fm_nodup fm -> pm_nodup (oget f fm).
Proof.
  intros [_ H]. unfold oget. destruct (alookup f fm) as [pm|] eqn:E.
  - apply alookup_In in E. exact (H _ _ E).
  - split; [constructor|]. intros ? ? [].
Qed.

Lemma oget_vm_nodup pm p : pm_nodup pm -> NoDup (akeys (oget p pm)).
Proof.
  intros [_ H]. unfold oget. destruct (alookup p pm) as [vm|] eqn:E.
  - apply alookup_In in E. exact (H _ _ E).
  - constructor.
Qed.

Lemma pm_nodup_aset pm p X : pm_nodup pm -> NoDup (akeys X) -> pm_nodup (aset p X pm).
Proof.
  intros [P1 P2] HX. split; [now apply NoDup_aset|].
  intros p' vm Hp. apply In_aset in Hp. destruct Hp as [[-> ->]|Hp]; [assumption|now apply P2 in Hp].
Qed.

Lemma fm_nodup_aset fm f X : fm_nodup fm -> pm_nodup X -> fm_nodup (aset f X fm).
Proof.
  intros [N1 N2] HX. split; [now apply NoDup_aset|].
  intros f' pm Hin. apply In_aset in Hin. destruct Hin as [[-> ->]|Hin]; [exact HX|now apply N2 in Hin].
Qed.

Lemma fm_nodup_fm_add fm inP inV outP outV fl ow :
  fm_nodup fm -> fm_nodup (fm_add fm inP inV outP outV fl ow).
Proof.
  intros H. unfold fm_add.
  pose proof (oget_pm_nodup fm fl H) as HP. pose proof (oget_vm_nodup _ inP HP) as HV.
  destruct (negb ow && amem inV (oget inP (oget fl fm)));
    (apply fm_nodup_aset; [assumption|]; apply pm_nodup_aset; auto using NoDup_aset).
Qed.

Lemma m_add_nodup m inP inV outP outV fl ow :
  fm_nodup (mp_map m) -> fm_nodup (mp_map (m_add m inP inV outP outV fl ow)).
Proof.
  intros H. unfold m_add. destruct (is_noreinstall outV); cbn [mp_map]; [assumption|now apply fm_nodup_fm_add].
Qed.

Lemma m_of_rows_nodup rows : fm_nodup (mp_map (m_of_rows rows)).
Proof.
  induction rows as [|r rows IH] using rev_ind; [split; [constructor|intros ? ? []]|].
  rewrite m_of_rows_snoc. unfold add_row, add_row_ow. now apply m_add_nodup.
Qed.

Lemma fold_err R e : fold_left inv_step R (Err e) = Err e.
Proof. induction R as [|r R IH]; cbn [fold_left]; [reflexivity|]. exact IH. Qed.

Lemma live_parts f p v q w : invertible_row (f, p, v, q, Some w) = true ->
  nonempty p = true /\ nonempty v = true /\ str_eqb v s_any = false /\ str_eqb w s_any = false /\
  is_noreinstall (Some v) = false.
Proof.
  cbn [invertible_row]. intros H. do 4 (apply andb_true_iff in H; destruct H as [H ?]).
  rewrite !negb_true_iff in *. auto 10.
Qed.

(* one step of inverse on a replacement row it accepts *)
Lemma mget_inv_add inv f p v q w f' q' w' : invertible_row (f, p, v, q, Some w) = true ->
  mget (mp_map (m_add inv q w (Some p) (Some v) f true)) f' q' w' =
  if str_eqb f' f && str_eqb q' q && str_eqb w' w then Some (p, Some v) else mget (mp_map inv) f' q' w'.
Proof.
  intros H. destruct (live_parts _ _ _ _ _ H) as (Hp & Hv & _ & _ & Hn).
  unfold m_add. rewrite Hn. destruct p, v; try discriminate. cbn [mp_map]. now rewrite mget_fm_add.
Qed.

(* the inverse holds, beside what it held before, exactly the replacement rows turned round; a
   removal row leaves it as it is *)
Lemma inverse_fold R : forall inv0 inv,
  forallb invertible_row R = true ->
  fold_left inv_step R (Ok inv0) = Ok inv ->
  forall f q w x, mget (mp_map inv) f q w = Some x <->
     (mget (mp_map inv0) f q w = Some x \/ exists p v, x = (p, Some v) /\ In (f, p, v, q, Some w) R).
Proof.
  induction R as [|r R IH]; intros inv0 inv Hwf Hfold.
  - cbn [fold_left] in Hfold. injection Hfold as <-.
    intros f q w x. split; [auto|]. intros [H|[p [v [_ []]]]]. exact H.
  - cbn [forallb] in Hwf. apply andb_true_iff in Hwf. destruct Hwf as [Hr HR].
    destruct r as [[[[f p] v] q] [w|]]; cbn [fold_left inv_step] in Hfold.
    + destruct (m_exists1 inv0 q w f) eqn:Eex; [rewrite fold_err in Hfold; discriminate|].
      rewrite m_exists1_mget in Eex.
      intros f' q' w' x. rewrite (IH _ _ HR Hfold), (mget_inv_add _ _ _ _ _ _ _ _ _ Hr).
      destruct (str_eqb f' f && str_eqb q' q && str_eqb w' w) eqn:Ec.
      * apply str_eqb3_eq in Ec. destruct Ec as [-> [-> ->]].
        split.
        -- intros [[= <-]|[p' [v' [-> Hin]]]]; right.
           ++ exists p, v. split; [reflexivity|now left].
           ++ exists p', v'. split; [reflexivity|now right].
        -- intros [H|[p' [v' [-> [[= <- <-]|Hin]]]]].
           ++ rewrite H in Eex. discriminate.
           ++ now left.
           ++ right. eauto.
      * split.
        -- intros [H|[p' [v' [-> Hin]]]]; [now left|]. right. exists p', v'. split; [reflexivity|now right].
        -- intros [H|[p' [v' [-> [Heq|Hin]]]]]; [now left| |right; eauto].
           exfalso. injection Heq as <- <- <- <- <-. rewrite !str_eqb_refl in Ec. discriminate.
    + intros f' q' w' x. rewrite (IH _ _ HR Hfold).
      split; (intros [H|[p' [v' [-> Hin]]]]; [now left|right; exists p', v'; split; [reflexivity|]]).
      * now right.
      * destruct Hin as [Heq|Hin]; [discriminate|assumption].
Qed.

Lemma fold_refused R : forall acc e,
  (forall e', acc = Err e' -> e' = Refused) -> fold_left inv_step R acc = Err e -> e = Refused.
Proof.
  induction R as [|r R IH]; intros acc e Hacc H; cbn [fold_left] in H.
  - now apply Hacc.
  - eapply IH; [|exact H]. intros e' He'. destruct acc as [inv|e0].
    + destruct r as [[[[f p] v] q] [w|]]; cbn [inv_step] in He'; [|discriminate].
      destruct (m_exists1 inv q w f); congruence.
    + cbn [inv_step] in He'. injection He' as <-. now apply Hacc.
Qed.

Lemma fold_ok R : forall inv0,
  forallb invertible_row R = true -> NoDup (map row_target (filter live_row R)) ->
  (forall f p v q w, In (f, p, v, q, Some w) R -> mget (mp_map inv0) f q w = None) ->
  exists inv, fold_left inv_step R (Ok inv0) = Ok inv.
Proof.
  induction R as [|r R IH]; intros inv0 Hwf Hnd Hfree; cbn [fold_left]; [eauto|].
  cbn [forallb] in Hwf. apply andb_true_iff in Hwf. destruct Hwf as [Hr HR].
  destruct r as [[[[f p] v] q] [w|]]; cbn [inv_step]; cbn [filter live_row map row_target] in Hnd.
  - rewrite m_exists1_mget, (Hfree f p v q w) by now left.
    inversion Hnd as [|? ? Hnin Hnd']; subst.
    apply IH; auto.
    intros f' p' v' q' w' Hin. rewrite (mget_inv_add _ _ _ _ _ _ _ _ _ Hr).
    destruct (str_eqb f' f && str_eqb q' q && str_eqb w' w) eqn:Ec.
    + exfalso. apply str_eqb3_eq in Ec. destruct Ec as [-> [-> ->]]. apply Hnin.
      change (f, q, Some w) with (row_target (f, p', v', q, Some w)). apply in_map.
      apply filter_In. now split.
    + apply (Hfree f' p' v' q' w'). now right.
  - apply IH; auto. intros f' p' v' q' w' Hin. apply (Hfree f' p' v' q' w'). now right.
Qed.

Lemma apply_exact m p v fl r : mget (mp_map m) fl p v = Some r -> m_apply m p v fl = r.
Proof. intros H. rewrite m_apply_says. unfold fm_says, fm_find. now rewrite H. Qed.

Lemma apply_fallback m p v fl r :
  mget (mp_map m) fl p v = None -> mget (mp_map m) fl p s_any = None ->
  mget (mp_map m) s_generic p v = Some r -> m_apply m p v fl = r.
Proof.
  intros H1 H2 H3. destruct (str_eqb_spec fl s_generic) as [->|Hg]; [congruence|].
  rewrite m_apply_says. unfold fm_says, fm_find. rewrite H1, H2, H3.
  destruct (str_eqb_spec fl s_generic); [contradiction|reflexivity].
Qed.

Lemma invertible_no_any m f p v q w :
  forallb invertible_row (m_rows m) = true -> mget (mp_map m) f p v = Some (q, Some w) ->
  str_eqb v s_any = false /\ str_eqb w s_any = false.
Proof.
  intros Hwf E. apply mget_In_rows in E. rewrite forallb_forall in Hwf.
  destruct (live_parts _ _ _ _ _ (Hwf _ E)) as (_ & _ & Hv & Hw & _). auto.
Qed.

Lemma inverse_table m inv :
  fm_nodup (mp_map m) -> forallb invertible_row (m_rows m) = true -> m_inverse m = Ok inv ->
  forall f q w x, mget (mp_map inv) f q w = Some x <->
    exists p v, x = (p, Some v) /\ mget (mp_map m) f p v = Some (q, Some w).
Proof.
  intros Hnd Hwf Hinv f q w x. rewrite (inverse_fold _ _ _ Hwf Hinv). split.
  - intros [H|[p [v [-> H]]]]; [discriminate|]. exists p, v. split; [reflexivity|now apply In_rows_mget].
  - intros [p [v [-> H]]]. right. exists p, v. split; [reflexivity|now apply mget_In_rows].
Qed.

Lemma in_dom_list m fl p v : in_dom m fl p v = true -> In (p, v) (dom_list m fl).
Proof.
  unfold in_dom, dom_list. rewrite !m_exists1_mget. intros H.
  assert (Hex : exists f q w, (str_eqb f fl || str_eqb f s_generic) = true /\ mget (mp_map m) f p v = Some (q, w)).
  { destruct (mget (mp_map m) fl p v) as [[q w]|] eqn:E1.
    - exists fl, q, w. now rewrite str_eqb_refl.
    - destruct (mget (mp_map m) s_generic p v) as [[q w]|] eqn:E2; [|discriminate].
      exists s_generic, q, w. now rewrite str_eqb_refl, orb_true_r. }
  destruct Hex as [f [q [w [Hf Hm]]]]. apply mget_In_rows in Hm.
  apply in_flat_map. exists (f, p, v, q, w). split; [assumption|]. rewrite Hf. now left.
Qed.

Lemma res_eqb_refl a : res_eqb a a = true.
Proof. destruct a as [q [w|]]; unfold res_eqb; cbn [fst snd]; now rewrite ?str_eqb_refl. Qed.

Lemma one_to_one_inj m fl : one_to_one m fl = true ->
  forall p1 v1 p2 v2 q w, in_dom m fl p1 v1 = true -> in_dom m fl p2 v2 = true ->
    m_apply m p1 v1 fl = (q, Some w) -> m_apply m p2 v2 fl = (q, Some w) -> p1 = p2 /\ v1 = v2.
Proof.
  unfold one_to_one. intros H p1 v1 p2 v2 q w H1 H2 E1 E2.
  rewrite forallb_forall in H. specialize (H _ (in_dom_list _ _ _ _ H1)).
  rewrite forallb_forall in H. specialize (H _ (in_dom_list _ _ _ _ H2)).
  cbn [fst snd] in H. rewrite E1, E2, res_eqb_refl in H. cbn [implb] in H.
  unfold pv_eqb in H. cbn [fst snd] in H. apply andb_true_iff in H. destruct H as [Ha Hb].
  now apply str_eqb_eq in Ha, Hb.
Qed.

Lemma inverse_undoes_lemma m inv fl p v q w :
  fm_nodup (mp_map m) ->
  forallb invertible_row (m_rows m) = true ->
  one_to_one m fl = true ->
  m_inverse m = Ok inv ->
  in_dom m fl p v = true ->
  m_apply m p v fl = (q, Some w) ->
  m_apply inv q w fl = (p, Some v).
Proof.
  intros Hnd Hwf H11 Hinv Hdom Happ. pose proof (one_to_one_inj m fl H11) as Hinj.
  pose proof (inverse_table m inv Hnd Hwf Hinv) as HI.
  assert (F1 : forall f p v q w, mget (mp_map m) f p v = Some (q, Some w) -> mget (mp_map inv) f q w = Some (p, Some v))
    by (intros; apply HI; eauto).
  pose proof (fun f q w x => proj1 (HI f q w x)) as F2.
  assert (F3 : forall f q, mget (mp_map inv) f q s_any = None).
  { intros f0 q0. destruct (mget (mp_map inv) f0 q0 s_any) as [x|] eqn:E; [|reflexivity].
    destruct (F2 _ _ _ _ E) as [p0 [v0 [_ E']]].
    destruct (invertible_no_any _ _ _ _ _ _ Hwf E') as [_ H]. now rewrite str_eqb_refl in H. }
  pose proof Hdom as Hd1. unfold in_dom in Hdom. rewrite !m_exists1_mget in Hdom.
  destruct (mget (mp_map m) fl p v) as [r|] eqn:E.
  - (* named by a row of the running flavor (or fl is generic) *)
    rewrite (apply_exact _ _ _ _ _ E) in Happ. subst r.
    apply F1 in E. now apply apply_exact.
  - cbn [orb] in Hdom.
    destruct (mget (mp_map m) s_generic p v) as [r|] eqn:Eg; [|discriminate].
    destruct (str_eqb_spec fl s_generic) as [->|Hg]; [congruence|].
    destruct (mget (mp_map m) fl p s_any) as [[q' [w'|]]|] eqn:Ea.
    + exfalso. destruct (invertible_no_any _ _ _ _ _ _ Hwf Ea) as [H _]. now rewrite str_eqb_refl in H.
    + (* the flavor removes every version *)
      rewrite m_apply_says in Happ. unfold fm_says, fm_find in Happ. rewrite E, Ea in Happ. discriminate.
    + (* named by a generic row only *)
      pose proof (apply_fallback _ _ _ _ _ E Ea Eg) as Hr. rewrite Happ in Hr. subst r.
      pose proof (F1 _ _ _ _ _ Eg) as Eig.
      destruct (mget (mp_map inv) fl q w) as [x|] eqn:Ei.
      * (* a row of the flavor with the same target: the mapping would not be one-to-one *)
        exfalso. destruct (F2 _ _ _ _ Ei) as [p2 [v2 [-> E2]]].
        assert (Hd2 : in_dom m fl p2 v2 = true) by (unfold in_dom; rewrite !m_exists1_mget, E2; reflexivity).
        destruct (Hinj _ _ _ _ _ _ Hd2 Hd1 (apply_exact _ _ _ _ _ E2) Happ) as [-> ->]. congruence.
      * now apply apply_fallback.
Qed.

Lemma inverse_rejects_lemma m R1 r1 R2 r2 R3 :
  forallb invertible_row (m_rows m) = true ->
  m_rows m = R1 ++ r1 :: R2 ++ r2 :: R3 -> live_row r1 = true -> row_target r1 = row_target r2 ->
  m_inverse m = Err Refused.
Proof.
  intros Hwf Hsplit Hlive Htgt. unfold m_inverse. rewrite Hsplit in *.
  destruct r1 as [[[[f1 p1] v1] q1] [w1|]]; [|discriminate].
  destruct r2 as [[[[f2 p2] v2] q2] w2o]. cbn [row_target] in Htgt. injection Htgt as <- <- <-.
  (* up to the second row the fold either fails, or has filed the first row under the common target *)
  change (R1 ++ ?r :: R2 ++ ?r' :: R3) with (R1 ++ (r :: R2) ++ r' :: R3) in *. rewrite app_assoc in *.
  rewrite fold_left_app. rewrite forallb_app in Hwf. apply andb_true_iff in Hwf. destruct Hwf as [HA _].
  match goal with |- fold_left _ _ ?A = _ => destruct A as [inv'|e] eqn:EA end.
  - pose proof (inverse_fold _ _ _ HA EA) as HI.
    assert (E : mget (mp_map inv') f1 q1 w1 = Some (p1, Some v1)).
    { apply HI. right. exists p1, v1. split; auto. apply in_or_app. right. now left. }
    cbn [fold_left inv_step]. rewrite m_exists1_mget, E. apply fold_err.
  - rewrite fold_err. f_equal. eapply fold_refused; [|exact EA]. discriminate.
Qed.
