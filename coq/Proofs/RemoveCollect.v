(* The collection phase of Eups.remove with both fixes ([collect true true]): what it returns is
   exactly the product asked for plus (recursive) everything declared that its tables reach, every
   collected product has passed the in-use check, and the fuel |world| + 2 is enough. *)
From Coq Require Import Lia.
From Eupsv Require Import Base.Base Base.BaseLemmas Model.Graph Model.Db Model.Remove
     Proofs.GraphLib Proofs.GraphWalk Proofs.GraphListing Proofs.GraphOrder Proofs.RemoveLib.

(* a declared product as a node *)
Definition dnode (w : world) (d : node) : Prop := is_declared w d = true /\ nreal d = true.

Lemma dnode_shape w d : dnode w d -> exists n v, d = (n, Some v, true) /\ declared w n v = true.
Proof.
  destruct d as [[n ov] r]. unfold dnode, is_declared, nreal, nver, nname. cbn.
  intros [H ->]. destruct ov as [v|]; [|discriminate]. eauto.
Qed.

Lemma dnode_intro w n v : declared w n v = true -> dnode w (n, Some v, true).
Proof. intro H. split; [exact H|reflexivity]. Qed.

Lemma lookup_dnode w d : dnode w d -> lookup w (nname d) (nver d) = Some d.
Proof.
  intro H. destruct (dnode_shape _ _ H) as [n [v [-> D]]]. unfold lookup, nname, nver. cbn. rewrite D. reflexivity.
Qed.

Lemma lookup_some w n ov p : lookup w n ov = Some p -> dnode w p /\ nname p = n /\ nver p = ov.
Proof.
  unfold lookup. destruct ov as [v|]; [|discriminate]. destruct (declared w n v) eqn:D; [|discriminate].
  intro H. inversion H. subst. split; [apply dnode_intro, D|]. split; reflexivity.
Qed.

Lemma dnode_in_world w d : dnode w d -> In d (world_nodes w).
Proof.
  intro H. destruct (dnode_shape _ _ H) as [n [v [-> D]]]. unfold declared in D.
  destruct (table_of w n v) as [es|] eqn:T; [|discriminate]. apply table_of_In in T.
  unfold world_nodes. apply in_map_iff. exists ((n, v), es). auto.
Qed.

Lemma node_table_dnode w p es : node_table w p = Some es -> dnode w p.
Proof.
  destruct p as [[n ov] r]. unfold node_table, dnode, is_declared, declared, nreal, nver, nname. cbn.
  destruct r; [|discriminate]. destruct ov as [v|]; [|discriminate]. intros ->. auto.
Qed.

(* one line of the table of p denotes the declared product d *)
Definition dep (w : world) (p d : node) : Prop := In d (kept_deps true w p).

Lemma dep_step w p d : dep w p d <-> step w p d /\ is_declared w d = true.
Proof.
  unfold dep, kept_deps, step. destruct (node_table w p) as [es|] eqn:T.
  - rewrite filter_In, in_map_iff. split.
    + intros [[e [E I]] D]. split; [|exact D]. exists es, e. auto.
    + intros [[es' [e [T' [I E]]]] D]. inversion T'. subst. split; [|exact D]. exists e. auto.
  - cbn. split; [tauto|]. intros [[es' [e [T' _]]] _]. discriminate.
Qed.

Lemma dep_dnode w p d : wf_world w -> dep w p d -> dnode w d.
Proof.
  intros Hwf H. apply dep_step in H as [[es [e [T [I ->]]]] D]. split; [exact D|].
  pose proof (node_table_dnode _ _ _ T) as Hp. destruct (dnode_shape _ _ Hp) as [n [v [-> _]]].
  unfold node_table, nreal, nver, nname in T. cbn in T.
  destruct (Hwf n v es e T I) as [_ H2]. unfold own_target in *. destruct (eres e) as [r|] eqn:R; [reflexivity|].
  unfold is_declared, nver, nname in D. cbn in D. destruct (evers e) as [v'|] eqn:V; [|discriminate].
  rewrite (H2 v' eq_refl eq_refl) in D. discriminate.
Qed.

(* the product itself or something its tables reach through declared products *)
Inductive dpath (w : world) : node -> node -> Prop :=
| dp_refl p : dpath w p p
| dp_step p q x : dep w p q -> dpath w q x -> dpath w p x.

Lemma dpath_trans w p q x : dpath w p q -> dpath w q x -> dpath w p x.
Proof. induction 1; [auto|]. intro H'. eapply dp_step; eauto. Qed.

Lemma dpath_dnode w p x : wf_world w -> dnode w p -> dpath w p x -> dnode w x.
Proof. intros Hwf Hp H. induction H; [exact Hp|]. apply IHdpath. eapply dep_dnode; eauto. Qed.

Lemma dpath_reach w p x :
  dpath w p x <-> x = p \/ (reach_plus w p x /\ is_declared w x = true).
Proof.
  split.
  - induction 1 as [p|p q x D _ IH]; [left; reflexivity|]. right.
    apply dep_step in D as [S Dq]. apply step_is_stepP in S.
    destruct IH as [->|[R Dx]].
    + split; [apply rp_one, S|exact Dq].
    + split; [eapply rp_more; eauto|exact Dx].
  - intros [->|[R D]]; [apply dp_refl|]. unfold reach_plus in R.
    induction R as [p q S|p q r S R IH].
    + eapply dp_step; [|apply dp_refl]. apply dep_step. split; [apply step_is_stepP, S|exact D].
    + eapply dp_step; [|apply IH, D]. apply dep_step. split; [apply step_is_stepP, S|].
      assert (T : exists es, node_table w q = Some es).
      { inversion R as [? ? [es [e [T _]]]|? ? ? [es [e [T _]]] _]; subst; eauto. }
      destruct T as [es T]. apply (node_table_dnode _ _ _ T).
Qed.

Section Collect.
  Variables (chk : bool) (w : world) (idx : list ((str * str) * list entry)) (c : rconf) (top : option (str * str)).
  Hypothesis Hwf : wf_world w.
  Hypothesis Hdef : forall v, declared w (rc_default c) v = false.

  Notation C := (collect true true chk w idx c top).
  Notation L := (collect_loop true chk idx c top).
  Notation chk1 := (check_one chk idx c top).

  Lemma collect_S f seen n ov r :
    C (S f) seen n ov r =
    if str_eqb n (rc_default c) then Ok ([], seen)
    else match lookup w n ov with
         | None => Err NotFound
         | Some p => L (C f) r n (p :: (if r then kept_deps true w p else [])) (p :: seen)
         end.
  Proof. reflexivity. Qed.

  Lemma dnode_not_default d : dnode w d -> nname d <> rc_default c.
  Proof.
    intros H E. destruct (dnode_shape _ _ H) as [n [v [-> D]]]. unfold nname in E. cbn in E. subst.
    rewrite Hdef in D. discriminate.
  Qed.

  Lemma loop_list (p : node) (r : bool) d : In d (p :: (if r then kept_deps true w p else [])) -> d = p \/ (r = true /\ dep w p d).
  Proof. intros [<-|J]; [left; reflexivity|]. destruct r; [right; split; [reflexivity|exact J]|destruct J]. Qed.

  Lemma bind_ok {A B} (x : res A) (f : A -> res B) b :
    match x with Ok a => f a | Err e => Err e end = Ok b -> exists a, x = Ok a /\ f a = Ok b.
  Proof. destruct x as [a|e]; [eauto|discriminate]. Qed.

  (* Induction over a call on a declared product: the calls the loop makes are on declared products too (the
     product itself and the kept lines of its table), so neither the default product nor a failed lookup occurs *)
  Section Ind.
    Variables (Pc : list node -> node -> bool -> list node -> list node -> Prop)
              (Pl : node -> bool -> list node -> list node -> list node -> list node -> Prop).
    Hypothesis Hcall : forall seen p r l s', dnode w p ->
        Pl p r (p :: (if r then kept_deps true w p else [])) (p :: seen) l s' -> Pc seen p r l s'.
    Hypothesis Hnil : forall p r seen, Pl p r [] seen [] seen.
    Hypothesis Hcons : forall (p : node) (r : bool) (d : node) (ds seen l1 s1 l2 s2 : list node),
        dnode w d -> chk1 d = Ok tt ->
        (if r then (exists f, C f seen (nname d) (nver d) (negb (mem_node d seen)) = Ok (l1, s1)) /\
                   Pc seen d (negb (mem_node d seen)) l1 s1
         else l1 = [] /\ s1 = seen) ->
        Pl p r ds s1 l2 s2 -> Pl p r (d :: ds) seen (l1 ++ d :: l2) s2.

    Lemma collect_ind : forall fuel seen p r l s',
      dnode w p -> C fuel seen (nname p) (nver p) r = Ok (l, s') -> Pc seen p r l s'.
    Proof using Hwf Hdef Hcall Hnil Hcons.
      induction fuel as [|f IH]; intros seen p r l s' Hp H; [discriminate|].
      rewrite collect_S, (lookup_dnode _ _ Hp) in H.
      destruct (str_eqb_spec (nname p) (rc_default c)) as [E|_]; [elim (dnode_not_default p Hp E)|].
      apply (Hcall seen p r l s' Hp).
      assert (Loop : forall ds seen0 l0 s0, (forall d, In d ds -> dnode w d) ->
                L (C f) r (nname p) ds seen0 = Ok (l0, s0) -> Pl p r ds seen0 l0 s0).
      { clear H. induction ds as [|d ds IHds]; intros seen0 l0 s0 Hds H.
        - cbn in H. inversion H. apply Hnil.
        - cbn [collect_loop] in H. apply bind_ok in H as [[] [K H]]. apply bind_ok in H as [[l1 s1] [Sub H]].
          apply bind_ok in H as [[l2 s2] [Tl H]]. injection H as <- <-.
          pose proof (Hds d (or_introl eq_refl)) as Hd.
          apply (Hcons p r d ds seen0 l1 s1 l2 s2 Hd K); [|apply IHds; [intros d' J; apply Hds; right; exact J|exact Tl]].
          destruct r; [|injection Sub as <- <-; auto].
          split; [exists f; exact Sub|exact (IH _ _ _ _ _ Hd Sub)]. }
      apply Loop; [|exact H].
      intros d I. destruct (loop_list _ _ _ I) as [->|[_ J]]; [exact Hp|exact (dep_dnode _ _ _ Hwf J)].
    Qed.
  End Ind.

  (* seen only grows; what is new is listed *)

  Definition call_grows (seen : list node) (p : node) (r : bool) (l s' : list node) : Prop :=
    incl seen s' /\ (forall x, In x s' -> In x seen \/ In x l) /\ In p l /\ In p s'.
  Definition loop_grows (p : node) (r : bool) (ds seen l s' : list node) : Prop :=
    incl seen s' /\ (forall x, In x s' -> In x seen \/ In x l) /\ (forall d, In d ds -> In d l).

  Lemma collect_grows fuel seen p r l s' : dnode w p -> C fuel seen (nname p) (nver p) r = Ok (l, s') -> call_grows seen p r l s'.
  Proof using Hwf Hdef.
    apply (collect_ind call_grows loop_grows).
    - intros sn p0 r0 l0 s0 _ [H1 [H2 H3]]. split; [|split; [|split]].
      + intros x I. apply H1. right. exact I.
      + intros x I. destruct (H2 x I) as [[<-|J]|J]; auto. right. apply H3. left. reflexivity.
      + apply H3. left. reflexivity.
      + apply H1. left. reflexivity.
    - intros p0 r0 sn. split; [apply incl_refl|]. split; [auto|]. intros d [].
    - intros p0 r0 d ds sn l1 s1 l2 s2 _ _ Hsub [H1 [H2 H3]].
      assert (Hs : incl sn s1 /\ (forall x, In x s1 -> In x sn \/ In x l1)).
      { destruct r0; [destruct Hsub as [_ [A [B _]]]; auto|]. destruct Hsub as [-> ->]. split; [apply incl_refl|auto]. }
      destruct Hs as [A B]. split; [|split].
      + eapply incl_tran; eauto.
      + intros x I. destruct (H2 x I) as [J|J].
        * destruct (B x J) as [J'|J']; [left; exact J'|right; apply in_or_app; left; exact J'].
        * right. apply in_or_app. right. right. exact J.
      + intros d' [<-|I]; apply in_or_app; right; [left; reflexivity|right; apply H3, I].
  Qed.

  (* everything listed is reached *)

  Definition call_reached (seen : list node) (p : node) (r : bool) (l s' : list node) : Prop :=
    forall x, In x l -> if r then dpath w p x else x = p.
  Definition loop_reached (p : node) (r : bool) (ds seen l s' : list node) : Prop :=
    (forall d, In d ds -> d = p \/ (r = true /\ dep w p d)) -> forall x, In x l -> if r then dpath w p x else x = p.

  Lemma collect_reached fuel seen p r l s' : dnode w p -> C fuel seen (nname p) (nver p) r = Ok (l, s') -> call_reached seen p r l s'.
  Proof using Hwf Hdef.
    apply (collect_ind call_reached loop_reached).
    - intros sn p0 r0 l0 s0 _ H x I. apply H; [apply loop_list|exact I].
    - intros p0 r0 sn _ x [].
    - intros p0 r0 d ds sn l1 s1 l2 s2 _ _ Hsub Htl Hds x I.
      assert (Hpd : if r0 then dpath w p0 d else d = p0).
      { destruct (Hds d (or_introl eq_refl)) as [->|[-> D]]; [destruct r0; [apply dp_refl|reflexivity]|].
        eapply dp_step; [exact D|apply dp_refl]. }
      apply in_app_or in I as [I|[<-|I]]; [|exact Hpd|apply Htl; [intros d' J; apply Hds; right; exact J|exact I]].
      destruct r0; [|destruct Hsub as [-> _]; destruct I].
      destruct Hsub as [_ Hc]. specialize (Hc x I).
      destruct (negb (mem_node d sn)); [eapply dpath_trans; eauto|subst; exact Hpd].
  Qed.

  (* everything reached is listed: every product of S whose dependencies are not still being collected (G) has them all in S *)
  Definition closedx (S G : list node) : Prop :=
    forall x, In x S -> ~ In x G -> forall y, dep w x y -> In y S.

  Definition call_closed (seen : list node) (p : node) (r : bool) (l s' : list node) : Prop :=
    forall G, (r = false -> In p seen) -> closedx seen G -> closedx s' G.
  Definition loop_closed (p : node) (r : bool) (ds seen l s' : list node) : Prop :=
    forall G, (forall d, In d ds -> d = p \/ (r = true /\ dep w p d)) -> In p seen -> closedx seen (p :: G) ->
    incl seen s' /\ closedx s' (p :: G) /\ (r = true -> forall d, In d ds -> In d s').

  Lemma collect_closed fuel seen p r l s' : dnode w p -> C fuel seen (nname p) (nver p) r = Ok (l, s') -> call_closed seen p r l s'.
  Proof using Hwf Hdef.
    apply (collect_ind call_closed loop_closed).
    - intros sn p0 r0 l0 s0 _ H G Hr Hcl.
      destruct (H G) as [Hinc [Hcl' Hall]].
      + apply loop_list.
      + left. reflexivity.
      + intros x [<-|I] Nx y D; [exfalso; apply Nx; left; reflexivity|].
        right. apply (Hcl x I); [|exact D]. intro J. apply Nx. right. exact J.
      + intros x I Nx y D. destruct (node_eq_dec x p0) as [->|Np].
        * destruct r0.
          -- apply (Hall eq_refl). right. exact D.
          -- apply Hinc. right. apply (Hcl p0 (Hr eq_refl) Nx y D).
        * apply (Hcl' x I); [|exact D]. intros [E|J]; [congruence|contradiction].
    - intros p0 r0 sn G _ _ Hcl. split; [apply incl_refl|]. split; [exact Hcl|]. intros _ d [].
    - intros p0 r0 d ds sn l1 s1 l2 s2 Hd _ Hsub Htl G Hds Ip Hcl.
      assert (Hs : incl sn s1 /\ closedx s1 (p0 :: G) /\ (r0 = true -> In d s1)).
      { destruct r0.
        - destruct Hsub as [[f Eq] Hc]. destruct (collect_grows _ _ _ _ _ _ Hd Eq) as [A [_ [_ A3]]].
          split; [exact A|]. split; [|intros _; exact A3].
          apply (Hc (p0 :: G)); [|exact Hcl]. intro E. apply negb_false_iff, mem_node_In in E. exact E.
        - destruct Hsub as [_ ->]. split; [apply incl_refl|]. split; [exact Hcl|discriminate]. }
      destruct Hs as [A [Hcl1 Hd1]].
      destruct (Htl G) as [B [Hcl2 Hall]]; [intros d' J; apply Hds; right; exact J|apply A, Ip|exact Hcl1|].
      split; [eapply incl_tran; eauto|]. split; [exact Hcl2|].
      intros Er d' [<-|J]; [apply B, Hd1, Er|apply (Hall Er d' J)].
  Qed.

  (* everything listed was checked *)

  Definition call_checked (seen : list node) (p : node) (r : bool) (l s' : list node) : Prop := forall x, In x l -> chk1 x = Ok tt.
  Definition loop_checked (p : node) (r : bool) (ds seen l s' : list node) : Prop := forall x, In x l -> chk1 x = Ok tt.

  Lemma collect_checked fuel seen p r l s' : dnode w p -> C fuel seen (nname p) (nver p) r = Ok (l, s') -> call_checked seen p r l s'.
  Proof using Hwf Hdef.
    apply (collect_ind call_checked loop_checked).
    - intros sn p0 r0 l0 s0 _ H. exact H.
    - intros p0 r0 sn x [].
    - intros p0 r0 d ds sn l1 s1 l2 s2 _ K Hsub Htl x I. apply in_app_or in I as [I|[<-|I]]; [|exact K|apply Htl, I].
      destruct r0; [apply (proj2 Hsub), I|]. destruct Hsub as [-> _]. destruct I.
  Qed.

  Theorem collect_exact fuel n v r l s' :
    C fuel [] n (Some v) r = Ok (l, s') -> declared w n v = true ->
    forall x, In x l <-> x = (n, Some v, true) \/ (r = true /\ dpath w (n, Some v, true) x).
  Proof using Hwf Hdef.
    intros H D x. set (p := (n, Some v, true)). assert (Hp : dnode w p) by (apply dnode_intro, D).
    destruct (collect_grows fuel [] p r l s' Hp H) as [_ [A2 [Ipl Ips]]].
    split.
    - intro I. pose proof (collect_reached fuel [] p r l s' Hp H x I) as B. destruct r; [|left; exact B].
      destruct (node_eq_dec x p) as [->|N]; [left; reflexivity|right; auto].
    - intros [->|[-> P]]; [exact Ipl|].
      assert (Cl : closedx s' []).
      { apply (collect_closed fuel [] p true l s' Hp H []); [discriminate|]. intros y []. }
      assert (Is : In x s').
      { clear -P Ips Cl. induction P as [q|q q' x' Dq _ IH]; [exact Ips|]. apply IH. apply (Cl q Ips); auto. }
      destruct (A2 x Is) as [[]|I]. exact I.
  Qed.

  Definition unseen (seen : list node) : nat :=
    length (filter (fun x => negb (mem_node x seen)) (world_nodes w)).

  Lemma unseen_mono s s' : incl s s' -> unseen s' <= unseen s.
  Proof. intro H. apply filter_length_le. intro x. rewrite !negb_true_iff, !mem_node_not_In. auto. Qed.

  Lemma unseen_cons p s : In p (world_nodes w) -> ~ In p s -> unseen (p :: s) < unseen s.
  Proof.
    intros I N. unfold unseen. apply filter_length_lt with (x := p); auto.
    - intro y. rewrite !negb_true_iff, !mem_node_not_In. cbn. tauto.
    - rewrite negb_false_iff, mem_node_In. left. reflexivity.
    - rewrite negb_true_iff, mem_node_not_In. exact N.
  Qed.

  Lemma unseen_nil : unseen [] <= length w.
  Proof. unfold unseen, world_nodes. rewrite <- (map_length (fun it => (fst (fst it), Some (snd (fst it)), true)) w). apply filter_length_le_all. Qed.

  (* the call returns, or the in-use check (on, without force) has refused *)
  Definition good {A} (x : res A) : Prop :=
    (exists a, x = Ok a) \/ (x = Err Refused /\ chk = true /\ rc_force c = false).

  Lemma check_one_good d : good (chk1 d).
  Proof.
    unfold good, check_one. destruct chk; [|left; eauto].
    destruct (users_total_ok idx (nname d) (nver d)) as [us [E _]]. rewrite E.
    destruct (existsb (fun u => negb (is_top top (cuser u))) us); cbn; [|left; eauto].
    destruct (rc_force c); cbn; [left; eauto|right; auto].
  Qed.

  Lemma good_bind {A B} (x : res A) (f : A -> res B) :
    good x -> (forall a, x = Ok a -> good (f a)) -> good (match x with Ok a => f a | Err e => Err e end).
  Proof. intros [[a ->]|[-> R]] H; [apply H; reflexivity|right; split; [reflexivity|exact R]]. Qed.

  (* every product followed was not in [seen], which only grows: a call with [unseen seen] + 2 units of fuel returns *)
  Lemma collect_total : forall fuel seen n v r,
    declared w n v = true -> (r = true -> ~ In (n, Some v, true) seen) ->
    (if r then unseen seen + 2 <= fuel else 1 <= fuel) ->
    good (C fuel seen n (Some v) r).
  Proof.
    induction fuel as [|f IH]; intros seen n v r D Hns Hf; [destruct r; lia|].
    set (p := (n, Some v, true)). assert (Hp : dnode w p) by (apply dnode_intro, D).
    rewrite collect_S. destruct (str_eqb_spec n (rc_default c)) as [E|_]; [left; eauto|].
    unfold lookup. rewrite D. fold p.
    assert (Loop : forall ds seen0, incl (p :: seen) seen0 -> (forall d, In d ds -> dnode w d) -> good (L (C f) r n ds seen0)).
    { induction ds as [|d ds IHds]; intros seen0 Hinc Hds; [left; cbn; eauto|].
      cbn [collect_loop]. apply good_bind; [apply check_one_good|intros _ _]. apply good_bind.
      - destruct r; [|left; eauto]. unfold follow.
        destruct (dnode_shape _ _ (Hds d (or_introl eq_refl))) as [nd [vd [-> Dd]]]. unfold nname, nver. cbn [fst snd].
        apply IH; [exact Dd|intros E; apply negb_true_iff, mem_node_not_In in E; exact E|].
        pose proof (Nat.le_lt_trans _ _ _ (unseen_mono _ _ Hinc) (unseen_cons p seen (dnode_in_world _ _ Hp) (Hns eq_refl))).
        destruct (negb (mem_node (nd, Some vd, true) seen0)); lia.
      - intros [l1 s1] Eq. apply good_bind; [|intros [l2 s2] _; left; eauto].
        apply IHds; [|intros d' J; apply Hds; right; exact J].
        destruct r; [|injection Eq as _ <-; exact Hinc].
        destruct (collect_grows _ _ _ _ _ _ (Hds d (or_introl eq_refl)) Eq) as [A _]. exact (incl_tran Hinc A). }
    apply Loop; [apply incl_refl|].
    intros d I. destruct (loop_list _ _ _ I) as [->|[_ J]]; [exact Hp|exact (dep_dnode _ _ _ Hwf J)].
  Qed.

  Lemma collect_top_total fuel n v r :
    declared w n v = true -> length w + 2 <= fuel -> good (C fuel [] n (Some v) r).
  Proof.
    intros D Hf. apply collect_total; [exact D|intros _ []|].
    destruct r; [|lia]. pose proof unseen_nil. lia.
  Qed.
End Collect.
