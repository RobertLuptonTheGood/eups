(* C17, level A - lemmas about the small text functions of Model/ExpandText.v: strip, before_hash, has_sub,
   remove_ws, mentions_setup, the command name (kw_here), lines_of / unlines. *)
From Eupsv Require Import Base.Base Base.BaseLemmas Model.Rx Proofs.RxLib Model.PathAlg Model.Setup Model.Expand Model.ExpandText.

Lemma drop_ws_cons_nonws c r : is_pyspace c = false -> drop_ws (c :: r) = c :: r.
Proof. intro H. unfold drop_ws. cbn [drop_while]. now rewrite H. Qed.

Lemma drop_ws_cons_ws c r : is_pyspace c = true -> drop_ws (c :: r) = drop_ws r.
Proof. intro H. unfold drop_ws. cbn [drop_while]. now rewrite H. Qed.

Lemma drop_while_app_gen p a b :
  drop_while p (a ++ b) = if forallb p a then drop_while p b else drop_while p a ++ b.
Proof.
  induction a as [|c a IH]; [reflexivity|]. cbn [app drop_while forallb]. destruct (p c); [exact IH|reflexivity].
Qed.

Lemma rstrip_cons c r : rstrip (c :: r) = if all_ws (c :: r) then [] else c :: rstrip r.
Proof.
  unfold rstrip, drop_ws, all_ws. cbn [rev forallb]. rewrite drop_while_app_gen, forallb_rev.
  destruct (forallb is_pyspace r) eqn:A.
  - cbn [drop_while]. destruct (is_pyspace c); cbn [andb rev app]; [reflexivity|].
    rewrite (drop_while_all is_pyspace (rev r)) by now rewrite forallb_rev. reflexivity.
  - rewrite andb_false_r. rewrite rev_app_distr. reflexivity.
Qed.

Lemma rstrip_nil : rstrip [] = [].
Proof. reflexivity. Qed.

Lemma rstrip_all_ws s : all_ws s = true -> rstrip s = [].
Proof. destruct s as [|c r]; [reflexivity|]. intro H. now rewrite rstrip_cons, H. Qed.

Lemma all_ws_rstrip s : all_ws (rstrip s) = all_ws s.
Proof.
  induction s as [|c r IH]; [reflexivity|]. rewrite rstrip_cons. destruct (all_ws (c :: r)) eqn:A; [reflexivity|].
  unfold all_ws in *. cbn [forallb] in *. rewrite IH. exact A.
Qed.

Lemma rstrip_idem s : rstrip (rstrip s) = rstrip s.
Proof.
  induction s as [|c r IH]; [reflexivity|]. rewrite rstrip_cons. destruct (all_ws (c :: r)) eqn:A; [reflexivity|].
  rewrite rstrip_cons. replace (all_ws (c :: rstrip r)) with false; [now rewrite IH|].
  unfold all_ws in *. cbn [forallb] in *. fold (all_ws (rstrip r)). rewrite all_ws_rstrip. symmetry. exact A.
Qed.

Lemma rstrip_head c r : is_pyspace c = false -> rstrip (c :: r) = c :: rstrip r.
Proof. intro H. rewrite rstrip_cons. unfold all_ws. cbn [forallb]. now rewrite H. Qed.

Lemma drop_ws_rstrip_head c r : is_pyspace c = false -> drop_ws (rstrip (c :: r)) = rstrip (c :: r).
Proof. intro H. rewrite rstrip_head by assumption. now apply drop_ws_cons_nonws. Qed.

Lemma drop_ws_shape s : drop_ws s = [] \/ exists c r, drop_ws s = c :: r /\ is_pyspace c = false.
Proof.
  induction s as [|c r IH]; [now left|]. destruct (is_pyspace c) eqn:W.
  - rewrite drop_ws_cons_ws by assumption. exact IH.
  - right. exists c, r. now rewrite drop_ws_cons_nonws.
Qed.

Lemma strip_idem s : strip (strip s) = strip s.
Proof.
  unfold strip. destruct (drop_ws_shape s) as [->|[c [r [-> W]]]]; [reflexivity|].
  rewrite drop_ws_rstrip_head by assumption. apply rstrip_idem.
Qed.

Lemma strip_nil : strip [] = [].
Proof. reflexivity. Qed.

Lemma strip_ws_prefix a x : all_ws a = true -> strip (a ++ x) = strip x.
Proof. intro H. unfold strip. now rewrite drop_ws_app. Qed.

(* a text whose first and last characters are not white space *)
Definition tight (s : str) : Prop :=
  match s with
  | [] => True
  | c :: _ => is_pyspace c = false /\ match rev s with d :: _ => is_pyspace d = false | [] => True end
  end.

Lemma rstrip_last_nonws s d m : rev s = d :: m -> is_pyspace d = false -> rstrip s = s.
Proof.
  intros E W. unfold rstrip. rewrite E, drop_ws_cons_nonws by assumption. rewrite <- E. apply rev_involutive.
Qed.

Lemma strip_tight s : tight s -> strip s = s.
Proof.
  destruct s as [|c r]; [reflexivity|]. intros [W L]. unfold strip. rewrite drop_ws_cons_nonws by assumption.
  destruct (rev (c :: r)) as [|d m] eqn:E; [now apply (f_equal (@length _)) in E; rewrite rev_length in E|].
  now apply (rstrip_last_nonws _ d m).
Qed.

Lemma rstrip_tight_tail s : rstrip s = [] \/ exists d m, rev (rstrip s) = d :: m /\ is_pyspace d = false.
Proof.
  unfold rstrip. rewrite rev_involutive. destruct (drop_ws_shape (rev s)) as [->|[c [r [-> W]]]]; [now left|].
  right. now exists c, r.
Qed.

Lemma strip_is_tight s : tight (strip s).
Proof.
  unfold strip. destruct (drop_ws_shape s) as [->|[c [r [-> W]]]]; [exact I|].
  rewrite rstrip_head by assumption. split; [assumption|].
  rewrite <- rstrip_head by assumption. destruct (rstrip_tight_tail (c :: r)) as [E|[d [m [E Wd]]]].
  - rewrite rstrip_head in E by assumption. discriminate.
  - now rewrite E.
Qed.

Lemma strip_head c r : is_pyspace c = false -> exists r', strip (c :: r) = c :: r'.
Proof. intro W. unfold strip. rewrite drop_ws_cons_nonws, rstrip_head by assumption. eauto. Qed.

Lemma tight_ends c m d : is_pyspace c = false -> is_pyspace d = false -> tight (c :: m ++ [d]).
Proof.
  intros Wc Wd. split; [assumption|]. change (c :: m ++ [d]) with ((c :: m) ++ [d]). rewrite rev_app_distr. exact Wd.
Qed.

Lemma remove_ws_app a b : remove_ws (a ++ b) = remove_ws a ++ remove_ws b.
Proof. apply filter_app. Qed.

Lemma remove_ws_all_ws a : all_ws a = true -> remove_ws a = [].
Proof.
  induction a as [|c a IH]; [reflexivity|]. unfold all_ws. cbn [forallb]. rewrite andb_true_iff. intros [H1 H2].
  unfold remove_ws. cbn [filter]. rewrite H1. cbn [negb]. now apply IH.
Qed.

Lemma remove_ws_drop_ws s : remove_ws (drop_ws s) = remove_ws s.
Proof.
  induction s as [|c r IH]; [reflexivity|]. destruct (is_pyspace c) eqn:W.
  - rewrite drop_ws_cons_ws by assumption. unfold remove_ws at 2. cbn [filter]. rewrite W. exact IH.
  - now rewrite drop_ws_cons_nonws.
Qed.

Lemma remove_ws_rstrip s : remove_ws (rstrip s) = remove_ws s.
Proof.
  induction s as [|c r IH]; [reflexivity|]. rewrite rstrip_cons. destruct (all_ws (c :: r)) eqn:A.
  - symmetry. now apply remove_ws_all_ws.
  - unfold remove_ws in *. cbn [filter]. now rewrite IH.
Qed.

Lemma remove_ws_strip s : remove_ws (strip s) = remove_ws s.
Proof. unfold strip. now rewrite remove_ws_rstrip, remove_ws_drop_ws. Qed.

Lemma exactish_strip s : exactish (strip s) = exactish s.
Proof. unfold exactish. now rewrite remove_ws_strip. Qed.

Definition no_hash (s : str) : bool := negb (mem_ascii c_hash s).

Lemma before_hash_id s : mem_ascii c_hash s = false -> before_hash s = s.
Proof.
  induction s as [|c r IH]; [reflexivity|]. cbn [mem_ascii before_hash]. rewrite (ascii_eqb_sym c_hash c).
  destruct (ascii_eqb c c_hash); [discriminate|]. intro H. now rewrite IH.
Qed.

Lemma before_hash_no_hash s : mem_ascii c_hash (before_hash s) = false.
Proof.
  induction s as [|c r IH]; [reflexivity|]. cbn [before_hash]. destruct (ascii_eqb c c_hash) eqn:E; [reflexivity|].
  cbn [mem_ascii]. now rewrite (ascii_eqb_sym c_hash c), E.
Qed.

Lemma before_hash_idem s : before_hash (before_hash s) = before_hash s.
Proof. apply before_hash_id, before_hash_no_hash. Qed.

Lemma mem_ascii_drop_ws c s : mem_ascii c s = false -> mem_ascii c (drop_ws s) = false.
Proof.
  induction s as [|x r IH]; [reflexivity|]. intro H. destruct (is_pyspace x) eqn:W.
  - rewrite drop_ws_cons_ws by assumption. apply IH. cbn [mem_ascii] in H. now destruct (ascii_eqb c x).
  - now rewrite drop_ws_cons_nonws.
Qed.

Lemma mem_ascii_rev c s : mem_ascii c (rev s) = mem_ascii c s.
Proof.
  induction s as [|x r IH]; [reflexivity|]. cbn [rev mem_ascii]. rewrite mem_ascii_app, IH. cbn [mem_ascii].
  destruct (ascii_eqb c x); [apply orb_true_r|now rewrite orb_false_r].
Qed.

Lemma mem_ascii_strip c s : mem_ascii c s = false -> mem_ascii c (strip s) = false.
Proof.
  intro H. unfold strip, rstrip. rewrite mem_ascii_rev. apply mem_ascii_drop_ws. rewrite mem_ascii_rev.
  now apply mem_ascii_drop_ws.
Qed.

Lemma before_hash_head c r : ascii_eqb c c_hash = false -> before_hash (c :: r) = c :: before_hash r.
Proof. intro H. cbn [before_hash]. now rewrite H. Qed.

Lemma before_hash_hash r : before_hash (c_hash :: r) = [].
Proof. reflexivity. Qed.

Lemma before_hash_app p s : mem_ascii c_hash p = false -> before_hash (p ++ s) = p ++ before_hash s.
Proof.
  induction p as [|c p IH]; [reflexivity|]. cbn [mem_ascii app before_hash]. rewrite (ascii_eqb_sym c_hash c).
  destruct (ascii_eqb c c_hash); [discriminate|]. intro H. now rewrite IH.
Qed.

Lemma starts_with_app p s u : starts_with p s = true -> starts_with p (s ++ u) = true.
Proof.
  revert s. induction p as [|c p IH]; intros s; [reflexivity|]. destruct s as [|d s]; [discriminate|].
  cbn [app starts_with]. destruct (ascii_eqb c d); [apply IH|discriminate].
Qed.

Lemma ci_prefix_ext p s u r : ci_prefix p s = Some r -> ci_prefix p (s ++ u) = Some (r ++ u).
Proof.
  revert s. induction p as [|a p IH]; intros s H; [cbn in *; now inversion H|].
  destruct s as [|b s]; [discriminate|]. cbn [app ci_prefix] in *. destruct (ascii_eqb a (lower_ascii b)); [now apply IH|discriminate].
Qed.

Lemma cs_prefix_ext p s u r : cs_prefix p s = Some r -> cs_prefix p (s ++ u) = Some (r ++ u).
Proof.
  revert s. induction p as [|a p IH]; intros s H; [cbn in *; now inversion H|].
  destruct s as [|b s]; [discriminate|]. cbn [app cs_prefix] in *. destruct (ascii_eqb a b); [now apply IH|discriminate].
Qed.

Lemma drop_ws_ext r c r' u : drop_ws r = c :: r' -> drop_ws (r ++ u) = c :: r' ++ u.
Proof.
  induction r as [|x r IH]; [discriminate|]. destruct (is_pyspace x) eqn:W.
  - rewrite drop_ws_cons_ws by assumption. intro H. cbn [app]. rewrite drop_ws_cons_ws by assumption. now apply IH.
  - rewrite drop_ws_cons_nonws by assumption. intro H. inversion H; subst. cbn [app]. now rewrite drop_ws_cons_nonws.
Qed.

Lemma kw_paren_ext tf kw s u r : kw_paren tf kw s = Some r -> kw_paren tf kw (s ++ u) = Some (r ++ u).
Proof.
  unfold kw_paren. destruct tf.
  - destruct (ci_prefix (lower_str kw) s) as [r0|] eqn:E; [|discriminate]. rewrite (ci_prefix_ext _ _ u _ E).
    destruct (drop_ws r0) as [|c r'] eqn:D; [discriminate|]. rewrite (drop_ws_ext _ _ _ u D).
    destruct (ascii_eqb c c_lp); [|discriminate]. intro H. now inversion H.
  - destruct (cs_prefix kw s) as [r0|] eqn:E; [|discriminate]. rewrite (cs_prefix_ext _ _ u _ E).
    destruct r0 as [|c r']; [discriminate|]. cbn [app]. destruct (ascii_eqb c c_lp); [|discriminate]. intro H. now inversion H.
Qed.

Lemma kw_here_ext tf s u : kw_here tf s = true -> kw_here tf (s ++ u) = true.
Proof.
  unfold kw_here, kw_at. destruct (kw_paren tf kw_required s) as [r|] eqn:A.
  - now rewrite (kw_paren_ext _ _ _ u _ A).
  - destruct (kw_paren tf kw_optional s) as [r|] eqn:B; [|discriminate]. intros _.
    destruct (kw_paren tf kw_required (s ++ u)); [reflexivity|]. now rewrite (kw_paren_ext _ _ _ u _ B).
Qed.

Lemma mentions_here tf s : kw_here tf s = true -> mentions_setup tf s = true.
Proof. intro H. destruct s; cbn [mentions_setup]; now rewrite H. Qed.

(* what strip removes: s = a ++ strip s ++ b *)
Lemma drop_ws_split s : exists a, s = a ++ drop_ws s /\ all_ws a = true.
Proof.
  induction s as [|c r [a [IH A]]]; [now exists []|]. destruct (is_pyspace c) eqn:W.
  - rewrite drop_ws_cons_ws by assumption. exists (c :: a). cbn [app]. split; [now f_equal|].
    unfold all_ws in *. cbn [forallb]. now rewrite W.
  - exists []. now rewrite drop_ws_cons_nonws.
Qed.

Lemma rstrip_split s : exists b, s = rstrip s ++ b /\ all_ws b = true.
Proof.
  unfold rstrip. destruct (drop_ws_split (rev s)) as [a [E A]]. exists (rev a). split.
  - rewrite <- rev_app_distr, <- E. symmetry. apply rev_involutive.
  - unfold all_ws in *. now rewrite forallb_rev.
Qed.

Lemma strip_split s : exists a b, s = a ++ strip s ++ b.
Proof.
  destruct (drop_ws_split s) as [a [Ea _]]. destruct (rstrip_split (drop_ws s)) as [b [Eb _]].
  exists a, b. unfold strip. now rewrite <- Eb.
Qed.

Lemma rstrip_app_nonws p c r : is_pyspace c = false -> rstrip (p ++ c :: r) = p ++ c :: rstrip r.
Proof.
  intro W. induction p as [|x p IH]; cbn [app].
  - now apply rstrip_head.
  - rewrite rstrip_cons. replace (all_ws (x :: p ++ c :: r)) with false; [now rewrite IH|].
    unfold all_ws. cbn [forallb]. rewrite forallb_app. cbn [forallb]. rewrite W. cbn [andb]. now rewrite !andb_false_r.
Qed.

Lemma pyspace_not c x : is_pyspace c = true -> is_pyspace x = false -> ascii_eqb c x = false.
Proof. intros Hc Hx. destruct (ascii_eqb_spec c x) as [->|]; [congruence|reflexivity]. Qed.

Lemma hash_not_ws : is_pyspace c_hash = false.
Proof. reflexivity. Qed.
Lemma lp_not_ws : is_pyspace c_lp = false.
Proof. reflexivity. Qed.

Lemma all_ws_no c a : is_pyspace c = false -> all_ws a = true -> mem_ascii c a = false.
Proof.
  intros Wc. induction a as [|x a IH]; [reflexivity|]. unfold all_ws. cbn [forallb mem_ascii]. rewrite andb_true_iff.
  intros [Hx Ha]. rewrite ascii_eqb_sym, (pyspace_not x c Hx Wc). now apply IH.
Qed.

(* the comment-free text of a line whose first visible character is not a hash *)
Lemma drop_ws_before_hash l c r :
  drop_ws l = c :: r -> ascii_eqb c c_hash = false -> drop_ws (before_hash l) = c :: before_hash r.
Proof.
  induction l as [|x l IH]; [discriminate|]. destruct (is_pyspace x) eqn:W.
  - rewrite drop_ws_cons_ws by assumption. intros D H. cbn [before_hash]. rewrite (pyspace_not x c_hash W hash_not_ws).
    rewrite drop_ws_cons_ws by assumption. now apply IH.
  - rewrite drop_ws_cons_nonws by assumption. intros D H. inversion D; subst. cbn [before_hash]. rewrite H.
    now apply drop_ws_cons_nonws.
Qed.


Lemma ci_prefix_split p x r0 :
  ci_prefix p x = Some r0 -> exists p', x = p' ++ r0 /\ forall u, ci_prefix p (p' ++ u) = Some u.
Proof.
  revert x. induction p as [|a p IH]; intros x H.
  - exists []. cbn in H. inversion H. now split.
  - destruct x as [|b x]; [discriminate|]. cbn [ci_prefix] in H. destruct (ascii_eqb a (lower_ascii b)) eqn:E; [|discriminate].
    destruct (IH x H) as [p' [-> F]]. exists (b :: p'). split; [reflexivity|]. intro u. cbn [app ci_prefix]. now rewrite E.
Qed.

Lemma cs_prefix_split p x r0 : cs_prefix p x = Some r0 -> x = p ++ r0.
Proof.
  revert x. induction p as [|a p IH]; intros x H; [cbn in H; now inversion H|].
  destruct x as [|b x]; [discriminate|]. cbn [cs_prefix] in H. destruct (ascii_eqb a b) eqn:E; [|discriminate].
  apply ascii_eqb_eq in E. subst. cbn [app]. f_equal. now apply IH.
Qed.

Lemma kw_paren_split tf kw x r :
  kw_paren tf kw x = Some r -> exists pre, x = pre ++ c_lp :: r /\ kw_paren tf kw (pre ++ [c_lp]) = Some [].
Proof.
  unfold kw_paren. destruct tf.
  - destruct (ci_prefix (lower_str kw) x) as [r0|] eqn:E; [|discriminate].
    destruct (ci_prefix_split _ _ _ E) as [p' [-> F]].
    destruct (drop_ws r0) as [|c r'] eqn:D; [discriminate|]. destruct (ascii_eqb c c_lp) eqn:C; [|discriminate].
    intro H. inversion H; subst. apply ascii_eqb_eq in C. subst c.
    destruct (drop_ws_split r0) as [a [Ea A]]. rewrite D in Ea. exists (p' ++ a). split.
    + now rewrite <- app_assoc, <- Ea.
    + rewrite <- app_assoc, F. rewrite drop_ws_app by assumption. rewrite drop_ws_cons_nonws by reflexivity.
      now rewrite ascii_eqb_refl.
  - destruct (cs_prefix kw x) as [r0|] eqn:E; [|discriminate]. apply cs_prefix_split in E. subst x.
    destruct r0 as [|c r']; [discriminate|]. destruct (ascii_eqb c c_lp) eqn:C; [|discriminate].
    intro H. inversion H; subst. apply ascii_eqb_eq in C. subst c. exists kw. split; [reflexivity|].
    rewrite cs_prefix_app. now rewrite ascii_eqb_refl.
Qed.

Lemma kw_here_split tf x : kw_here tf x = true -> exists pre r, x = pre ++ c_lp :: r /\ kw_here tf (pre ++ [c_lp]) = true.
Proof.
  unfold kw_here, kw_at. destruct (kw_paren tf kw_required x) as [r|] eqn:A.
  - intros _. destruct (kw_paren_split _ _ _ _ A) as [pre [-> K]]. exists pre, r. split; [reflexivity|]. now rewrite K.
  - destruct (kw_paren tf kw_optional x) as [r|] eqn:B; [|discriminate]. intros _.
    destruct (kw_paren_split _ _ _ _ B) as [pre [-> K]]. exists pre, r. split; [reflexivity|].
    destruct (kw_paren tf kw_required (pre ++ [c_lp])); [reflexivity|]. now rewrite K.
Qed.

Lemma kw_here_rstrip tf x : kw_here tf x = true -> kw_here tf (rstrip x) = true.
Proof.
  intro H. destruct (kw_here_split tf x H) as [pre [r [-> K]]]. rewrite rstrip_app_nonws by reflexivity.
  change (pre ++ c_lp :: rstrip r) with (pre ++ [c_lp] ++ rstrip r). rewrite app_assoc. now apply kw_here_ext.
Qed.

(* the first character of a command *)
Definition cmd_head (c : ascii) : Prop := lower_ascii c = "s"%char.

Lemma kw_here_head tf x : kw_here tf x = true -> exists c r, x = c :: r /\ cmd_head c.
Proof.
  unfold kw_here, kw_at, kw_paren, cmd_head. destruct x as [|c r]; [destruct tf; discriminate|]. intro H. exists c, r. split; [reflexivity|].
  destruct tf; cbn [kw_required kw_optional lit String.list_ascii_of_string lower_str map ci_prefix cs_prefix] in H.
  - change (lower_ascii "s"%char) with "s"%char in H. destruct (ascii_eqb "s"%char (lower_ascii c)) eqn:E.
    + apply ascii_eqb_eq in E. now symmetry.
    + discriminate.
  - destruct (ascii_eqb "s"%char c) eqn:E.
    + apply ascii_eqb_eq in E. now subst.
    + discriminate.
Qed.

Lemma cmd_head_not c x : cmd_head c -> lower_ascii x <> "s"%char -> ascii_eqb c x = false.
Proof. intros H N. destruct (ascii_eqb_spec c x) as [->|]; [contradiction|reflexivity]. Qed.

(* has_sub p and mentions_setup tf both ask whether a test holds of some suffix; when the test survives text added
   behind, stripping cannot make it hold *)
Fixpoint anywhere (q : str -> bool) (s : str) : bool :=
  q s || match s with [] => false | _ :: r => anywhere q r end.

Lemma has_sub_anywhere p s : has_sub p s = anywhere (starts_with p) s.
Proof. induction s as [|c s IH]; [reflexivity|]. cbn [has_sub anywhere]. now rewrite IH. Qed.

Lemma mentions_anywhere tf s : mentions_setup tf s = anywhere (kw_here tf) s.
Proof. induction s as [|c s IH]; [reflexivity|]. cbn [mentions_setup anywhere]. now rewrite IH. Qed.

Lemma anywhere_strip q s : (forall x u, q x = true -> q (x ++ u) = true) ->
  anywhere q s = false -> anywhere q (strip s) = false.
Proof.
  intros Q H. destruct (anywhere q (strip s)) eqn:M; [|reflexivity]. destruct (strip_split s) as [a [b E]]. rewrite E in H.
  assert (L : forall p x, anywhere q x = true -> anywhere q (p ++ x) = true).
  { intros p x X. induction p as [|c p IH]; [exact X|]. cbn [app anywhere]. rewrite IH. apply orb_true_r. }
  assert (R : forall x u, anywhere q x = true -> anywhere q (x ++ u) = true).
  { induction x as [|c x IH]; intros u X; cbn [anywhere] in X.
    - rewrite orb_false_r in X. apply (Q [] u) in X. destruct u; cbn [app anywhere] in *; now rewrite X.
    - apply orb_true_iff in X. cbn [app anywhere]. destruct X as [X|X]; [apply (Q _ u) in X; cbn [app] in X; now rewrite X|rewrite (IH u X); apply orb_true_r]. }
  rewrite (L a _ (R _ b M)) in H. discriminate.
Qed.

Lemma mentions_strip tf s : mentions_setup tf s = false -> mentions_setup tf (strip s) = false.
Proof. rewrite !mentions_anywhere. apply anywhere_strip. intros x u. apply kw_here_ext. Qed.

Lemma has_sub_strip p s : has_sub p s = false -> has_sub p (strip s) = false.
Proof. rewrite !has_sub_anywhere. apply anywhere_strip. intros x u. apply starts_with_app. Qed.

Definition no_nl (s : str) : Prop := mem_ascii c_nl s = false.

Lemma lines_of_unlines ls : Forall no_nl ls -> lines_of (unlines ls) = ls.
Proof.
  unfold lines_of. induction 1 as [|l ls H _ IH]; [reflexivity|]. cbn [unlines].
  rewrite split_on_app by assumption. cbn [drop_last_empty].
  destruct (split_on c_nl (unlines ls)) as [|x r] eqn:E; [now apply split_on_nonnil in E|].
  destruct l as [|c l]; [|now rewrite IH]. now rewrite IH.
Qed.
