(* C11 - legacy table files in full: every line kind Table._rewrite recognises (Group: /
   Common: / End:, Flavor =, Qualifiers =, Action =, File =, Product =, blank and comment
   lines) in every position its state machine allows.  The text of a legacy file
   (Model/LegacySpec.v) is rewritten to exactly the lines of the corresponding if blocks: each
   group of Flavor= lines becomes the if block over the disjunction of its flavors. *)
From Eupsv Require Import Base.Base Base.BaseLemmas Model.Rx Model.Cond Model.Args Model.Legacy
  Model.Blocks Model.TableSpec Model.LegacySpec Proofs.RxLib Proofs.TableWf Proofs.Lines.

Definition eq_text (f : str) : str := lit "FLAVOR == " ++ f.

Fixpoint cond_text_from (acc : str) (fs : list str) : str :=
  match fs with
  | [] => acc
  | f :: r => cond_text_from (acc ++ lit " || " ++ eq_text f) r
  end.
Definition cond_text (fs : list str) : str :=
  match fs with [] => [] | f :: r => cond_text_from (eq_text f) r end.

Lemma print_flavor_atom f : print_cond (flavor_atom f) = eq_text f.
Proof. unfold flavor_atom, eq_text. cbn. now rewrite app_nil_r. Qed.

Lemma print_disj_from acc fs :
  print_cond (flavor_disj_from acc fs) = cond_text_from (print_cond acc) fs.
Proof.
  revert acc. induction fs as [|f r IH]; intros acc; [reflexivity|].
  cbn [flavor_disj_from cond_text_from]. rewrite IH. f_equal.
  change (print_cond (Bin 1 1 BOr acc (flavor_atom f)))
    with (print_cond acc ++ sp 1 ++ pr_bin BOr ++ sp 1 ++ print_cond (flavor_atom f)).
  rewrite print_flavor_atom. reflexivity.
Qed.

Lemma print_disj fs : fs <> [] -> print_cond (flavor_disj fs) = cond_text fs.
Proof.
  destruct fs as [|f r]; [congruence|]. intros _. unfold flavor_disj, cond_text.
  now rewrite print_disj_from, print_flavor_atom.
Qed.

Lemma denote_disj_from e acc fs :
  denote e (flavor_disj_from acc fs) = denote e acc || mem_str (ce_flavor e) fs.
Proof.
  revert acc. induction fs as [|f r IH]; intros acc; [cbn; now rewrite orb_false_r|].
  cbn [flavor_disj_from mem_str]. rewrite IH. cbn [denote flavor_atom denote_atom].
  destruct (denote e acc), (str_eqb (ce_flavor e) f); reflexivity.
Qed.

Lemma denote_disj e fs : fs <> [] -> denote e (flavor_disj fs) = mem_str (ce_flavor e) fs.
Proof.
  destruct fs as [|f r]; [congruence|]. intros _. unfold flavor_disj. rewrite denote_disj_from.
  cbn [denote flavor_atom denote_atom mem_str]. destruct (str_eqb (ce_flavor e) f); reflexivity.
Qed.

Lemma wf_disj_from acc fs : wf_cond acc = true -> forallb wf_lit fs = true -> wf_cond (flavor_disj_from acc fs) = true.
Proof.
  revert acc. induction fs as [|f r IH]; intros acc Ha Hf; [exact Ha|].
  cbn [forallb] in Hf. apply andb_prop in Hf. destruct Hf as [H1 H2].
  cbn [flavor_disj_from]. apply IH; [|exact H2]. cbn [wf_cond flavor_atom]. now rewrite Ha, H1.
Qed.

Lemma wf_flavors_parts fs : wf_flavors fs = true ->
  fs <> [] /\ forallb wf_lit fs = true /\ forallb (fun f => negb (str_eqb (lower_str f) (lit "any"))) fs = true.
Proof.
  unfold wf_flavors. intros H. andb_hyps H. repeat split; auto.
  destruct fs; [discriminate|congruence].
Qed.

Lemma wf_disj fs : wf_flavors fs = true -> wf_cond (flavor_disj fs) = true.
Proof.
  intros H. destruct (wf_flavors_parts fs H) as (Hn & Hl & _). destruct fs as [|f r]; [congruence|].
  cbn [forallb] in Hl. apply andb_prop in Hl. destruct Hl as [H1 H2].
  unfold flavor_disj. apply wf_disj_from; [|exact H2]. cbn [wf_cond flavor_atom]. now rewrite H1.
Qed.

Lemma wf_lit_okl2 f : wf_lit f = true -> okl2 f = true /\ first_alpha f = true /\ forallb is_wordc f = true.
Proof.
  unfold wf_lit. intros H. andb_hyps H. repeat split; auto.
  eapply forallb_impl; [|eassumption]. apply wordc_okc2.
Qed.

Lemma wordc_wdp c : is_wordc c = is_wdp c.
Proof. unfold is_wordc, is_wdp. destruct (is_word c); cbn [orb]; [reflexivity|apply orb_comm]. Qed.

Lemma plain_okc2 c : plain_char c = true -> okc2 c = true.
Proof.
  unfold plain_char, okc2, okc. destruct (ascii_eqb c c_hash), (ascii_eqb c c_nl), (ascii_eqb c (chr 13)), (ascii_eqb c c_dollar);
    cbn; congruence.
Qed.

Lemma plain_okl2 s : forallb plain_char s = true -> okl2 s = true.
Proof. apply forallb_impl. exact plain_okc2. Qed.

Lemma ws_ok_parts s : ws_ok s = true -> all_ws s = true /\ no_newline s = true.
Proof. apply andb_prop. Qed.

Lemma ws_ok_okl2 s : ws_ok s = true -> okl2 s = true.
Proof. intros H. destruct (ws_ok_parts s H). now apply ws_okl2. Qed.

Lemma pyspace_not_wdp c : is_pyspace c = true -> is_wdp c = false.
Proof. intros H. apply (pyspace_facts c H). Qed.

Lemma word_wdp c : is_word c = true -> is_wdp c = true.
Proof. unfold is_wdp. intros ->. reflexivity. Qed.

Lemma wdp_okl2 s : forallb is_wdp s = true -> okl2 s = true.
Proof. apply forallb_impl. intros c H. apply wordc_okc2. now rewrite wordc_wdp. Qed.

Lemma word_okl2 s : forallb is_word s = true -> okl2 s = true.
Proof. intros H. apply wdp_okl2. eapply forallb_impl; [|exact H]. exact word_wdp. Qed.

Lemma wf_key_parts word key : wf_key word key = true ->
  lower_str key = word /\ okl2 key = true /\ starts_nonblank key = true.
Proof.
  unfold wf_key. intros H. andb_hyps H. repeat split; auto.
  - now apply str_eqb_eq.
  - now apply plain_okl2.
Qed.

Lemma wf_ign_key_parts P k indent key s1 s2 val after :
  wf_ign P (GKey k indent key s1 s2 val after) = true ->
  ws_ok indent = true /\ ws_ok s1 = true /\ ws_ok s2 = true /\ wf_after after = true /\
  wf_key (ikind_key k) key = true /\
  match k with
  | IKFile => forallb is_word val && str_eqb (lower_str val) (lit "table")
  | IKProduct => P && nonempty val && forallb is_word val
  | IKAction => nonempty val && forallb is_wdp val && contains (lit "setup") (lower_str val)
  | IKQual => forallb plain_char val && forallb (fun c => negb (ascii_eqb c c_dq)) val
  end = true.
Proof. cbn [wf_ign]. intros H. andb_hyps H. repeat split; assumption. Qed.

Lemma wf_flav_parts P f : wf_flav P f = true ->
  forallb (wf_ign P) (fl_pre f) = true /\ ws_ok (fl_indent f) = true /\ ws_ok (fl_s1 f) = true /\
  ws_ok (fl_s2 f) = true /\ wf_after (fl_after f) = true /\ wf_key (lit "flavor") (fl_key f) = true.
Proof. unfold wf_flav. intros H. andb_hyps H. repeat split; assumption. Qed.

Lemma wf_kw_parts word l : wf_kw word l = true ->
  ws_ok (kw_indent l) = true /\ wf_key word (kw_key l) = true /\ wf_after (kw_after l) = true.
Proof. unfold wf_kw. intros H. andb_hyps H. repeat split; assumption. Qed.

Lemma wf_bcmd_parts P b : wf_bcmd P b = true -> forallb (wf_ign P) (bc_pre b) = true /\ wf_cmd (bc_cmd b) = true.
Proof. apply andb_prop. Qed.

Lemma wf_old_parts P pre g fs pc cm body pe en : wf_telem P (TOld pre g fs pc cm body pe en) = true ->
  forallb (wf_ign P) pre = true /\ wf_kw (lit "group:") g = true /\
  forallb (wf_flav P) fs = true /\ wf_flavors (map fl_name fs) = true /\
  forallb (wf_ign P) pc = true /\ wf_kw (lit "common:") cm = true /\
  forallb (wf_bcmd P) body = true /\ forallb (wf_ign P) pe = true /\ wf_kw (lit "end:") en = true.
Proof. cbn [wf_telem]. intros H. andb_hyps H. repeat split; assumption. Qed.

Lemma wf_ngroup_parts P g : wf_ngroup P g = true ->
  forallb (wf_flav P) (ng_flavors g) = true /\ wf_flavors (map fl_name (ng_flavors g)) = true /\
  forallb (wf_bcmd P) (ng_body g) = true /\ is_nil (ng_body g) = false.
Proof.
  unfold wf_ngroup. intros H. andb_hyps H. repeat split; try assumption. now apply negb_true_iff.
Qed.

Lemma wf_ltable_parts t : wf_ltable t = true ->
  forallb (wf_ign false) (lt_head t) = true /\ forallb (wf_telem (lt_prod t)) (lt_top t) = true /\
  forallb (wf_ngroup (lt_prod t)) (lt_groups t) = true /\ forallb (wf_ign (lt_prod t)) (lt_tail t) = true.
Proof. unfold wf_ltable. cbv zeta. intros H. andb_hyps H. repeat split; assumption. Qed.

Lemma keyed_okl2 key s1 s2 v :
  okl2 key = true -> ws_ok s1 = true -> ws_ok s2 = true -> okl2 v = true -> okl2 (keyed_core key s1 s2 v) = true.
Proof.
  intros Hk H1 H2 Hv. unfold keyed_core. rewrite !okl2_app. cbn [okl2 forallb]. fold (okl2 (s2 ++ v)).
  rewrite okl2_app, Hk, (ws_ok_okl2 _ H1), (ws_ok_okl2 _ H2), Hv. reflexivity.
Qed.

Lemma ign_core_okl2 P k indent key s1 s2 val after :
  wf_ign P (GKey k indent key s1 s2 val after) = true -> okl2 (keyed_core key s1 s2 (ign_val k val)) = true.
Proof.
  intros Hw. destruct (wf_ign_key_parts _ _ _ _ _ _ _ _ Hw) as (_ & H1 & H2 & _ & Hk & Hv).
  destruct (wf_key_parts _ _ Hk) as (_ & Ko & _). apply keyed_okl2; auto.
  destruct k; cbn [ign_val]; andb_hyps Hv.
  - now apply word_okl2.
  - now apply word_okl2.
  - now apply wdp_okl2.
  - cbn [okl2 forallb]. fold (okl2 (val ++ [c_dq])). now rewrite okl2_app, (plain_okl2 val).
Qed.

Lemma headed_prep indent key r after :
  ws_ok indent = true -> starts_nonblank key = true -> okl2 (key ++ r) = true -> wf_after after = true ->
  let l := key ++ r ++ ws_of after in
  prep_line (indent ++ (key ++ r) ++ after) = l /\ no_syn l = true /\ nonempty l = true.
Proof.
  intros Hi Hs Ho Ha l. destruct (ws_ok_parts _ Hi) as [I1 I2]. unfold l. rewrite (app_assoc key r). split; [|split].
  - apply prep_content; auto using okl2_okl. destruct key; [discriminate|exact Hs].
  - apply no_syn_app_ws; [now apply ws_of_ws|now apply okl2_no_syn].
  - destruct key; [discriminate|reflexivity].
Qed.

Lemma key_eq_hit kw cls key s1 s2 val w :
  lower_str key = kw -> all_ws s1 = true -> all_ws s2 = true ->
  nonempty val = true -> forallb cls val = true -> (forall c, is_pyspace c = true -> cls c = false) ->
  all_ws w = true ->
  key_eq kw cls (key ++ (s1 ++ c_eq :: s2 ++ val) ++ w) = Some val.
Proof.
  intros Hk H1 H2 Hn Hv Hc Hw. unfold key_eq.
  rewrite (ci_prefix_app kw key _ Hk). rewrite <- app_assoc. rewrite drop_ws_app by exact H1.
  cbn [app]. unfold drop_ws at 1. rewrite drop_while_stop by reflexivity. rewrite ascii_eqb_refl.
  rewrite <- app_assoc. rewrite drop_ws_app by exact H2.
  destruct val as [|v0 val]; [discriminate|]. cbn [forallb] in Hv. apply andb_prop in Hv. destruct Hv as [Hv0 Hv].
  assert (E0 : is_pyspace v0 = false).
  { destruct (is_pyspace v0) eqn:E; [|reflexivity]. rewrite (Hc v0 E) in Hv0. discriminate. }
  cbn [app]. unfold drop_ws. rewrite drop_while_stop by exact E0.
  change (v0 :: val ++ w) with ((v0 :: val) ++ w).
  destruct w as [|x w].
  - rewrite app_nil_r, span_all; [reflexivity|]. cbn [forallb]. now rewrite Hv0, Hv.
  - cbn [all_ws forallb] in Hw. apply andb_prop in Hw. destruct Hw as [Hx _].
    rewrite span_app; [reflexivity| |apply Hc, Hx]. cbn [forallb]. now rewrite Hv0, Hv.
Qed.

Lemma key_misses key kw k r : lower_str key = kw -> mismatch k kw = true -> ci_prefix k (key ++ r) = None.
Proof. intros <-. apply ci_prefix_mismatch. Qed.

Lemma colon_hit kw key w : lower_str key = kw -> all_ws w = true -> key_colon kw (key ++ w) = true.
Proof. intros Hk Hw. unfold key_colon. now rewrite (ci_prefix_app kw key w Hk). Qed.

Lemma qual_hit key s1 s2 val w :
  lower_str key = lit "qualifiers" -> all_ws s1 = true -> all_ws s2 = true ->
  forallb (fun c => negb (ascii_eqb c c_dq)) val = true ->
  qualifiers_match (key ++ (s1 ++ c_eq :: s2 ++ c_dq :: val ++ [c_dq]) ++ w) = true.
Proof.
  intros Hk H1 H2 Hv. unfold qualifiers_match.
  rewrite (ci_prefix_app _ key _ Hk). rewrite <- app_assoc. rewrite drop_ws_app by exact H1.
  cbn [app]. unfold drop_ws at 1. rewrite drop_while_stop by reflexivity. rewrite ascii_eqb_refl.
  rewrite <- app_assoc. rewrite drop_ws_app by exact H2.
  cbn [app]. unfold drop_ws. rewrite drop_while_stop by reflexivity. rewrite ascii_eqb_refl.
  rewrite <- app_assoc. cbn [app]. rewrite span_app; [reflexivity|exact Hv|]. now rewrite ascii_eqb_refl.
Qed.

(* [open_line Hp Hn], with Hp : prep_line raw = l and Hn : nonempty l = true, unfolds one step
   of rewrite_go on raw :: rest and takes the branch of a line that is not empty
   (match_nonempty): what is left is the cascade of patterns over l.

   The state of _rewrite in all that follows: o, a File = line has been seen (only then is a
   Product = line dropped); ig, between Group: and End:; ng, where a new-style group stands
   (NG0 none, NGFlavors after its Flavor = lines, NGBody in its body); cond, the condition
   text gathered so far.  P says that the file may hold Product = lines at all (its head
   has a File = line, Model/LegacySpec.v lt_prod); the side condition P = true -> o = true
   is that the flag is then already set. *)
Ltac open_line Hp Hn := cbn [rewrite_go]; rewrite Hp, (match_nonempty _ _ _ Hn).

Lemma rewrite_ign P g : wf_ign P g = true -> forall o ig ng cond rest, (P = true -> o = true) ->
  rewrite_go o ig ng cond (ign_line g :: rest) = rewrite_go (o || is_file_ign g) ig ng cond rest.
Proof.
  intros Hw o ig ng cond rest HP. destruct g as [s|k indent key s1 s2 val after].
  - cbn [ign_line is_file_ign]. rewrite orb_false_r. apply rewrite_skip. now apply prep_junk.
  - destruct (wf_ign_key_parts _ _ _ _ _ _ _ _ Hw) as (Hi & H1 & H2 & Ha & Hk & Hv).
    destruct (wf_key_parts _ _ Hk) as (Kl & Ko & Ks).
    destruct (ws_ok_parts _ H1) as [A1 _]. destruct (ws_ok_parts _ H2) as [A2 _].
    assert (Ww : all_ws (ws_of after) = true) by now apply ws_of_ws.
    pose proof (ign_core_okl2 _ _ _ _ _ _ _ _ Hw) as Oc.
    cbn [ign_line]. unfold keyed_core in *.
    destruct (headed_prep indent key (s1 ++ c_eq :: s2 ++ ign_val k val) after Hi Ks Oc Ha) as (Hp & Hs & Hn).
    set (l := key ++ (s1 ++ c_eq :: s2 ++ ign_val k val) ++ ws_of after) in *.
    open_line Hp Hn. destruct k; cbn [ign_val ikind_key is_file_ign] in *.
    + (* File = Table *)
      apply andb_prop in Hv. destruct Hv as [Vw Vt].
      assert (Vn : nonempty val = true) by (destruct val; [discriminate Vt|reflexivity]).
      unfold l.
      rewrite (key_eq_hit (lit "file") is_word key s1 s2 val (ws_of after) Kl A1 A2 Vn Vw pyspace_not_word Ww).
      rewrite Vt. now rewrite orb_true_r.
    + (* Product = name *)
      apply andb_prop in Hv. destruct Hv as [[Vp Vn]%andb_prop Vw]. rewrite (HP Vp). cbn [orb].
      unfold l.
      rewrite (key_eq_hit (lit "product") is_word key s1 s2 val (ws_of after) Kl A1 A2 Vn Vw pyspace_not_word Ww).
      unfold key_eq. now rewrite !(key_misses key _ _ _ Kl) by reflexivity.
    + (* Action = setup *)
      apply andb_prop in Hv. destruct Hv as [[Vn Vw]%andb_prop Vs]. rewrite orb_false_r.
      rewrite (synonyms_id l Hs). unfold l.
      rewrite (key_eq_hit (lit "action") is_wdp key s1 s2 val (ws_of after) Kl A1 A2 Vn Vw pyspace_not_wdp Ww).
      unfold key_eq. rewrite !(key_misses key _ _ _ Kl) by reflexivity. cbv iota. now rewrite andb_false_r, Vs.
    + (* Qualifiers = "" *)
      apply andb_prop in Hv. destruct Hv as [_ Vq]. rewrite orb_false_r.
      rewrite (synonyms_id l Hs). unfold l.
      rewrite (qual_hit key s1 s2 val (ws_of after) Kl A1 A2 Vq).
      unfold key_eq. rewrite !(key_misses key _ _ _ Kl) by reflexivity. cbv iota. now rewrite andb_false_r.
Qed.

Lemma rewrite_igns P gs : forallb (wf_ign P) gs = true -> forall o ig ng cond rest, (P = true -> o = true) ->
  rewrite_go o ig ng cond (map ign_line gs ++ rest) = rewrite_go (o || has_file gs) ig ng cond rest.
Proof.
  induction gs as [|g gs IH]; intros Hw o ig ng cond rest HP.
  - cbn [map app has_file existsb]. now rewrite orb_false_r.
  - cbn [forallb] in Hw. apply andb_prop in Hw. destruct Hw as [H1 H2].
    cbn [map app]. rewrite (rewrite_ign P g H1) by exact HP.
    rewrite (IH H2). 2:{ intros Hp. now rewrite (HP Hp). }
    unfold has_file. cbn [existsb]. now rewrite orb_assoc.
Qed.

Lemma rewrite_flav P f : wf_flav P f = true -> wf_lit (fl_name f) = true ->
  forall o0 ig ng cond rest, (P = true -> o0 = true) ->
  rewrite_go o0 ig ng cond (flav_lines f ++ rest) =
    let g := fl_name f in let o := o0 || has_file (fl_pre f) in
    if ig then
      rewrite_go o ig ng (cond ++ (match cond with [] => [] | _ => lit " || " end) ++
                          (if str_eqb (lower_str g) (lit "any") then lit "FLAVOR =~ .*" else lit "FLAVOR == " ++ g)) rest
    else match ng with
         | NGFlavors => rewrite_go o ig ng (cond ++ lit " || FLAVOR == " ++ g) rest
         | _ => bind (rewrite_go o ig NGFlavors (lit "FLAVOR == " ++ g) rest)
                     (fun out => Ok ((match ng with NGBody => [lit "}"] | _ => [] end) ++ out))
         end.
Proof.
  intros Hw Hlit o0 ig ng cond rest HP. destruct (wf_flav_parts _ _ Hw) as (Wpre & Hi & H1 & H2 & Ha & Hk).
  unfold flav_lines. rewrite <- app_assoc, (rewrite_igns P _ Wpre) by exact HP. cbn [app].
  generalize (o0 || has_file (fl_pre f)). intros o. destruct f as [pre indent key s1 s2 name after].
  cbn [fl_pre fl_indent fl_key fl_s1 fl_s2 fl_name fl_after] in *.
  destruct (wf_key_parts _ _ Hk) as (Kl & Ko & Ks).
  destruct (ws_ok_parts _ H1) as [A1 _]. destruct (ws_ok_parts _ H2) as [A2 _].
  assert (Ww : all_ws (ws_of after) = true) by now apply ws_of_ws.
  destruct (wf_lit_okl2 name Hlit) as (On & Fa & Fw).
  assert (Nn : nonempty name = true) by (destruct name; [discriminate Fa|reflexivity]).
  assert (Nw : forallb is_wdp name = true).
  { eapply forallb_impl; [|exact Fw]. intros c Hc. now rewrite <- wordc_wdp. }
  pose proof (keyed_okl2 key s1 s2 _ Ko H1 H2 On) as Oc.
  unfold flav_line. cbn [fl_pre fl_indent fl_key fl_s1 fl_s2 fl_name fl_after]. unfold keyed_core in *.
  destruct (headed_prep indent key (s1 ++ c_eq :: s2 ++ name) after Hi Ks Oc Ha) as (Hp & Hs & Hn).
  set (l := key ++ (s1 ++ c_eq :: s2 ++ name) ++ ws_of after) in *.
  open_line Hp Hn. rewrite (synonyms_id l Hs). unfold l.
  rewrite (key_eq_hit (lit "flavor") is_wdp key s1 s2 name (ws_of after) Kl A1 A2 Nn Nw pyspace_not_wdp Ww).
  unfold key_eq, qualifiers_match, key_colon. rewrite !(key_misses key _ _ _ Kl) by reflexivity.
  cbv iota. rewrite andb_false_r. destruct ig, ng; reflexivity.
Qed.

Definition flavs_file (fs : list flav) : bool := existsb (fun f => has_file (fl_pre f)) fs.
Definition bcmds_file (bs : list bcmd) : bool := existsb (fun b => has_file (bc_pre b)) bs.

Lemma file_seen_or (P o h : bool) : (P = true -> o = true) -> P = true -> o || h = true.
Proof. intros H Hp. now rewrite (H Hp). Qed.

Lemma rewrite_flavs_more P fs : forallb (wf_flav P) fs = true -> forallb wf_lit (map fl_name fs) = true ->
  forall o cond rest, (P = true -> o = true) ->
  rewrite_go o false NGFlavors cond (flat_map flav_lines fs ++ rest)
  = rewrite_go (o || flavs_file fs) false NGFlavors (cond_text_from cond (map fl_name fs)) rest.
Proof.
  induction fs as [|f fs IH]; intros Hw Hl o cond rest HP.
  - cbn. now rewrite orb_false_r.
  - cbn [forallb map] in Hw, Hl. apply andb_prop in Hw. apply andb_prop in Hl.
    destruct Hw as [W1 W2]. destruct Hl as [L1 L2].
    cbn [flat_map]. rewrite <- app_assoc, (rewrite_flav P f W1 L1) by exact HP. cbn zeta.
    rewrite (IH W2 L2) by (now apply file_seen_or). cbn [map cond_text_from flavs_file existsb].
    rewrite orb_assoc. reflexivity.
Qed.

Lemma rewrite_flavs_open P fs : forallb (wf_flav P) fs = true -> wf_flavors (map fl_name fs) = true ->
  forall o ng cond rest, ng <> NGFlavors -> (P = true -> o = true) ->
  rewrite_go o false ng cond (flat_map flav_lines fs ++ rest)
  = bind (rewrite_go (o || flavs_file fs) false NGFlavors (cond_text (map fl_name fs)) rest)
         (fun out => Ok ((match ng with NGBody => [lit "}"] | _ => [] end) ++ out)).
Proof.
  intros Hw Hf o ng cond rest Hng HP. destruct (wf_flavors_parts _ Hf) as (Hn & Hl & _).
  destruct fs as [|f fs]; [now elim Hn|].
  cbn [forallb map] in Hw, Hl. apply andb_prop in Hw. apply andb_prop in Hl.
  destruct Hw as [W1 W2]. destruct Hl as [L1 L2].
  cbn [flat_map]. rewrite <- app_assoc, (rewrite_flav P f W1 L1) by exact HP. cbn zeta.
  assert (E : rewrite_go (o || has_file (fl_pre f)) false NGFlavors (lit "FLAVOR == " ++ fl_name f) (flat_map flav_lines fs ++ rest)
              = rewrite_go (o || flavs_file (f :: fs)) false NGFlavors (cond_text (map fl_name (f :: fs))) rest).
  { rewrite (rewrite_flavs_more P fs W2 L2) by (now apply file_seen_or). cbn [map cond_text flavs_file existsb].
    rewrite orb_assoc. reflexivity. }
  destruct ng; try congruence; rewrite E; reflexivity.
Qed.

Lemma rewrite_flavs_group P fs : forallb (wf_flav P) fs = true -> forallb wf_lit (map fl_name fs) = true ->
  forallb (fun f => negb (str_eqb (lower_str f) (lit "any"))) (map fl_name fs) = true ->
  forall o ng cond rest, (P = true -> o = true) ->
  rewrite_go o true ng cond (flat_map flav_lines fs ++ rest)
  = rewrite_go (o || flavs_file fs) true ng
      (match cond with [] => cond_text (map fl_name fs) | _ => cond_text_from cond (map fl_name fs) end) rest.
Proof.
  induction fs as [|f fs IH]; intros Hw Hl Ha o ng cond rest HP.
  - cbn. rewrite orb_false_r. now destruct cond.
  - cbn [forallb map] in Hw, Hl, Ha. apply andb_prop in Hw. apply andb_prop in Hl. apply andb_prop in Ha.
    destruct Hw as [W1 W2]. destruct Hl as [L1 L2]. destruct Ha as [A1 A2]. apply negb_true_iff in A1.
    cbn [flat_map]. rewrite <- app_assoc, (rewrite_flav P f W1 L1) by exact HP. cbn zeta. rewrite A1.
    rewrite (IH W2 L2 A2) by (now apply file_seen_or). cbn [flavs_file existsb]. rewrite orb_assoc. now destruct cond.
Qed.

Lemma kw_prep word l : wf_kw word l = true ->
  let t := kw_key l ++ ws_of (kw_after l) in
  prep_line (kw_line l) = t /\ no_syn t = true /\ nonempty t = true /\ lower_str (kw_key l) = word
  /\ all_ws (ws_of (kw_after l)) = true.
Proof.
  intros Hw. destruct (wf_kw_parts _ _ Hw) as (Hi & Hk & Ha). cbv zeta.
  destruct (wf_key_parts _ _ Hk) as (Kl & Ko & Ks).
  assert (Oc : okl2 (kw_key l ++ []) = true) by now rewrite app_nil_r.
  destruct (headed_prep (kw_indent l) (kw_key l) [] (kw_after l) Hi Ks Oc Ha) as (Hp & Hs & Hn).
  cbn [app] in Hp, Hs, Hn. rewrite app_nil_r in Hp. repeat split; auto. now apply ws_of_ws.
Qed.

Lemma rewrite_group_kw l : wf_kw (lit "group:") l = true -> forall o ig ng cond rest,
  rewrite_go o ig ng cond (kw_line l :: rest) = rewrite_go o true ng [] rest.
Proof.
  intros Hw o ig ng cond rest. destruct (kw_prep _ l Hw) as (Hp & Hs & Hn & Kl & Ww).
  set (t := kw_key l ++ ws_of (kw_after l)) in *.
  open_line Hp Hn. rewrite (synonyms_id t Hs). unfold t.
  rewrite (colon_hit _ _ _ Kl Ww).
  unfold key_eq, qualifiers_match, key_colon. rewrite !(key_misses _ _ _ _ Kl) by reflexivity.
  cbv iota. now rewrite andb_false_r.
Qed.

Lemma rewrite_common_kw l : wf_kw (lit "common:") l = true -> forall o ng cond rest,
  rewrite_go o true ng cond (kw_line l :: rest)
  = bind (rewrite_go o true ng cond rest) (fun out => Ok (if_line cond :: out)).
Proof.
  intros Hw o ng cond rest. destruct (kw_prep _ l Hw) as (Hp & Hs & Hn & Kl & Ww).
  set (t := kw_key l ++ ws_of (kw_after l)) in *.
  open_line Hp Hn. rewrite (synonyms_id t Hs). unfold t.
  rewrite (colon_hit _ _ _ Kl Ww).
  unfold key_eq, qualifiers_match, key_colon. rewrite !(key_misses _ _ _ _ Kl) by reflexivity.
  cbv iota. now rewrite andb_false_r.
Qed.

Lemma rewrite_end_kw l : wf_kw (lit "end:") l = true -> forall o ng cond rest,
  rewrite_go o true ng cond (kw_line l :: rest)
  = bind (rewrite_go o false ng cond rest) (fun out => Ok (lit "}" :: out)).
Proof.
  intros Hw o ng cond rest. destruct (kw_prep _ l Hw) as (Hp & Hs & Hn & Kl & Ww).
  set (t := kw_key l ++ ws_of (kw_after l)) in *.
  open_line Hp Hn. rewrite (synonyms_id t Hs). unfold t.
  rewrite (colon_hit _ _ _ Kl Ww).
  unfold key_eq, qualifiers_match, key_colon. rewrite !(key_misses _ _ _ _ Kl) by reflexivity.
  cbv iota. now rewrite andb_false_r.
Qed.

Lemma rewrite_bcmds P body : forallb (wf_bcmd P) body = true ->
  forall o ig ng cond rest, ng <> NGFlavors -> (P = true -> o = true) ->
  rewrite_go o ig ng cond (flat_map bcmd_lines body ++ rest)
  = bind (rewrite_go (o || bcmds_file body) ig ng cond rest)
         (fun out => Ok (map cmd_out (map bc_cmd body) ++ out)).
Proof.
  induction body as [|b body IH]; intros Hw o ig ng cond rest Hng HP.
  - cbn. rewrite orb_false_r. destruct (rewrite_go o ig ng cond rest); reflexivity.
  - cbn [forallb] in Hw. apply andb_prop in Hw. destruct Hw as [W1 W2].
    destruct (wf_bcmd_parts P b W1) as [Wp Wc].
    cbn [flat_map]. unfold bcmd_lines at 1. rewrite <- !app_assoc.
    rewrite (rewrite_igns P _ Wp) by exact HP.
    rewrite (proj2 (emits_cmd _ Wc)) by exact Hng.
    rewrite (IH W2) by (try exact Hng; now apply file_seen_or).
    cbn [map bcmds_file existsb]. rewrite orb_assoc.
    fold (bcmds_file body). destruct (rewrite_go (o || has_file (bc_pre b) || bcmds_file body) ig ng cond rest); reflexivity.
Qed.

Lemma rewrite_body_open P body : forallb (wf_bcmd P) body = true -> is_nil body = false ->
  forall o cond rest, (P = true -> o = true) ->
  rewrite_go o false NGFlavors cond (flat_map bcmd_lines body ++ rest)
  = bind (rewrite_go (o || bcmds_file body) false NGBody cond rest)
         (fun out => Ok (if_line cond :: map cmd_out (map bc_cmd body) ++ out)).
Proof.
  intros Hw Hne o cond rest HP. destruct body as [|b body]; [discriminate|].
  cbn [forallb] in Hw. apply andb_prop in Hw. destruct Hw as [W1 W2].
  destruct (wf_bcmd_parts P b W1) as [Wp Wc].
  cbn [flat_map]. unfold bcmd_lines at 1. rewrite <- !app_assoc.
  rewrite (rewrite_igns P _ Wp) by exact HP.
  rewrite (rewrite_cmd _ false NGFlavors cond _ _ Wc). cbn [opened opening app].
  rewrite (rewrite_bcmds P body W2) by (try discriminate; now apply file_seen_or).
  cbn [map bcmds_file existsb]. rewrite orb_assoc. fold (bcmds_file body).
  destruct (rewrite_go (o || has_file (bc_pre b) || bcmds_file body) false NGBody cond rest); reflexivity.
Qed.

Definition group_out (fs : list str) (body : list cmd) : list str :=
  if_line (cond_text fs) :: map cmd_out body ++ [lit "}"].

Lemma item_outs_group fs body : wf_flavors (map fl_name fs) = true ->
  item_outs (group_item fs body) = group_out (map fl_name fs) (map bc_cmd body).
Proof.
  intros Hf. destruct (wf_flavors_parts _ Hf) as (Hn & _).
  unfold group_item. cbn [item_outs b_lay b_body flat_map app].
  unfold brace_out. cbn [bl_after plain_blay]. unfold ws_of. cbn [span fst]. rewrite !app_nil_r.
  unfold group_out. rewrite <- (print_disj _ Hn).
  unfold if_core, if_line, close_core. cbn [b_lay b_cond plain_blay bl_s1 bl_s2]. reflexivity.
Qed.

Definition telem_file (t : telem) : bool :=
  match t with
  | TItem pre _ => has_file pre
  | TOld pre _ fs pc _ body pe _ => has_file pre || flavs_file fs || has_file pc || bcmds_file body || has_file pe
  end.

Lemma rewrite_telem P t : wf_telem P t = true ->
  forall o ng cond rest, ng <> NGFlavors -> (P = true -> o = true) ->
  exists cond',
    rewrite_go o false ng cond (telem_lines t ++ rest)
    = bind (rewrite_go (o || telem_file t) false ng cond' rest)
           (fun out => Ok (flat_map item_outs (telem_items t) ++ out)).
Proof.
  intros Hw o ng cond rest Hng HP. destruct t as [pre i|pre g fs pc cm body pe en].
  - cbn [wf_telem] in Hw. apply andb_prop in Hw. destruct Hw as [Wp Wi]. exists cond.
    cbn [telem_lines telem_items telem_file flat_map]. rewrite <- app_assoc, app_nil_r.
    rewrite (rewrite_igns P _ Wp) by exact HP. exact (proj2 (emits_item i Wi) _ _ _ _ _ Hng).
  - destruct (wf_old_parts _ _ _ _ _ _ _ _ _ Hw) as (Wpre & Wg & Wfs & Wfl & Wpc & Wcm & Wb & Wpe & Wen).
    exists (cond_text (map fl_name fs)).
    cbn [telem_lines telem_items telem_file flat_map]. rewrite app_nil_r, <- !app_assoc. cbn [app].
    rewrite (rewrite_igns P _ Wpre) by exact HP.
    rewrite (rewrite_group_kw _ Wg).
    destruct (wf_flavors_parts _ Wfl) as (_ & Hl & Hany).
    rewrite (rewrite_flavs_group P fs Wfs Hl Hany) by (now apply file_seen_or).
    rewrite (rewrite_igns P _ Wpc) by (intros Hp; now rewrite (HP Hp)).
    rewrite (rewrite_common_kw _ Wcm).
    rewrite (rewrite_bcmds P body Wb) by (try exact Hng; intros Hp; now rewrite (HP Hp)).
    rewrite (rewrite_igns P _ Wpe) by (intros Hp; now rewrite (HP Hp)).
    rewrite (rewrite_end_kw _ Wen).
    rewrite !orb_assoc, (item_outs_group fs body Wfl).
    match goal with |- context [rewrite_go ?a false ng ?c rest] => destruct (rewrite_go a false ng c rest) end; [|reflexivity].
    cbn [bind]. unfold group_out. cbn [app]. now rewrite <- app_assoc.
Qed.

Definition tops_file (ts : list telem) : bool := existsb telem_file ts.

Lemma rewrite_tops P tops : forallb (wf_telem P) tops = true ->
  forall o cond rest, (P = true -> o = true) ->
  exists cond',
    rewrite_go o false NG0 cond (flat_map telem_lines tops ++ rest)
    = bind (rewrite_go (o || tops_file tops) false NG0 cond' rest)
           (fun out => Ok (flat_map item_outs (flat_map telem_items tops) ++ out)).
Proof.
  induction tops as [|t tops IH]; intros Hw o cond rest HP.
  - exists cond. cbn. rewrite orb_false_r. destruct (rewrite_go o false NG0 cond rest); reflexivity.
  - cbn [forallb] in Hw. apply andb_prop in Hw. destruct Hw as [W1 W2].
    cbn [flat_map tops_file existsb]. rewrite <- app_assoc.
    destruct (rewrite_telem P t W1 o NG0 cond (flat_map telem_lines tops ++ rest)) as [c1 E1]; [discriminate|exact HP|].
    destruct (IH W2 (o || telem_file t) c1 rest (file_seen_or _ _ _ HP)) as [c' E]. exists c'.
    rewrite E1, E, orb_assoc, flat_map_app. fold (tops_file tops).
    destruct (rewrite_go (o || telem_file t || tops_file tops) false NG0 c' rest); [|reflexivity].
    cbn [bind]. now rewrite app_assoc.
Qed.

Definition closing (ng : newgrp) : list str := match ng with NGBody => [lit "}"] | _ => [] end.
Definition ngroup_out (g : ngroup) : list str := group_out (map fl_name (ng_flavors g)) (map bc_cmd (ng_body g)).

Lemma rewrite_ngroups P gs tail : forallb (wf_ngroup P) gs = true -> forallb (wf_ign P) tail = true ->
  forall o ng cond, ng <> NGFlavors -> (P = true -> o = true) ->
  rewrite_go o false ng cond (flat_map ngroup_lines gs ++ map ign_line tail ++ [[]])
  = Ok (closing ng ++ flat_map ngroup_out gs).
Proof.
  induction gs as [|g gs IH]; intros Hw Ht o ng cond Hng HP.
  - cbn [flat_map app]. rewrite (rewrite_igns P _ Ht) by exact HP. rewrite app_nil_r.
    destruct ng; try congruence; reflexivity.
  - cbn [forallb] in Hw. apply andb_prop in Hw. destruct Hw as [W1 W2].
    destruct (wf_ngroup_parts _ _ W1) as (Wfs & Wfl & Wb & Wn).
    cbn [flat_map]. unfold ngroup_lines at 1. rewrite <- !app_assoc.
    rewrite (rewrite_flavs_open P _ Wfs Wfl) by assumption.
    rewrite (rewrite_body_open P _ Wb Wn) by (now apply file_seen_or).
    rewrite (IH W2 Ht) by (try discriminate; intros Hp; now rewrite (HP Hp)).
    cbn [bind closing]. unfold ngroup_out at 2, group_out. cbn [app]. now rewrite <- !app_assoc.
Qed.

Lemma ngroups_outs P gs : forallb (wf_ngroup P) gs = true ->
  flat_map item_outs (map (fun g => group_item (ng_flavors g) (ng_body g)) gs) = flat_map ngroup_out gs.
Proof.
  induction gs as [|g gs IH]; [reflexivity|]. cbn [forallb]. intros [W1 W2]%andb_prop.
  cbn [map flat_map]. rewrite (IH W2). f_equal.
  now apply item_outs_group, (wf_ngroup_parts _ _ W1).
Qed.

Lemma rewrite_legacy t : wf_ltable t = true ->
  rewrite (legacy_lines t ++ [[]]) = Ok (flat_map item_outs (legacy_items t)).
Proof.
  intros H. destruct (wf_ltable_parts t H) as (Wh & Wt & Wg & Wl).
  unfold rewrite, legacy_lines. rewrite <- !app_assoc.
  rewrite (rewrite_igns false _ Wh) by discriminate. cbn [orb]. fold (lt_prod t).
  destruct (rewrite_tops _ _ Wt (lt_prod t) [] (flat_map ngroup_lines (lt_groups t) ++ map ign_line (lt_tail t) ++ [[]]) (fun E => E))
    as [c' E]. rewrite E.
  rewrite (rewrite_ngroups _ _ _ Wg Wl) by (try discriminate; intros Hp; now rewrite Hp).
  cbn [bind closing app]. unfold legacy_items. now rewrite flat_map_app, (ngroups_outs _ _ Wg).
Qed.

Lemma keyed_line_nn indent core after :
  ws_ok indent = true -> okl2 core = true -> wf_after after = true -> nn (indent ++ core ++ after).
Proof.
  intros Hi Ho Ha. destruct (ws_ok_parts _ Hi) as [_ I2]. apply line_no_newline; auto using okl2_okl.
Qed.

Lemma ign_nn P g : wf_ign P g = true -> nn (ign_line g).
Proof.
  destruct g as [s|k indent key s1 s2 val after]; cbn [wf_ign ign_line].
  - intros H. unfold wf_junk, wf_after in H. apply andb_prop in H. now destruct H.
  - intros Hw. destruct (wf_ign_key_parts _ _ _ _ _ _ _ _ Hw) as (Hi & _ & _ & Ha & _).
    apply keyed_line_nn; auto. apply (ign_core_okl2 _ _ _ _ _ _ _ _ Hw).
Qed.

Lemma igns_nn P gs : forallb (wf_ign P) gs = true -> Forall nn (map ign_line gs).
Proof.
  induction gs as [|g gs IH]; cbn [forallb map]; [constructor|]. intros [H1 H2]%andb_prop.
  constructor; [now apply (ign_nn P)|now apply IH].
Qed.

Lemma kw_nn word l : wf_kw word l = true -> nn (kw_line l).
Proof.
  intros Hw. destruct (wf_kw_parts _ _ Hw) as (Hi & Hk & Ha). destruct (wf_key_parts _ _ Hk) as (_ & Ko & _).
  unfold kw_line. now apply keyed_line_nn.
Qed.

Lemma flav_lines_nn P f : wf_flav P f = true -> wf_lit (fl_name f) = true -> Forall nn (flav_lines f).
Proof.
  intros Hw Hl. destruct (wf_flav_parts _ _ Hw) as (Hp & Hi & H1 & H2 & Ha & Hk).
  destruct (wf_key_parts _ _ Hk) as (_ & Ko & _).
  destruct (wf_lit_okl2 _ Hl) as (On & _).
  unfold flav_lines. apply Forall_app. split; [now apply (igns_nn P)|]. constructor; [|constructor].
  unfold flav_line. apply keyed_line_nn; auto. now apply keyed_okl2.
Qed.

Lemma flavs_lines_nn P fs : forallb (wf_flav P) fs = true -> forallb wf_lit (map fl_name fs) = true ->
  Forall nn (flat_map flav_lines fs).
Proof.
  induction fs as [|f fs IH]; cbn [forallb map flat_map]; [constructor|].
  intros [W1 W2]%andb_prop [L1 L2]%andb_prop. apply Forall_app. split; [now apply (flav_lines_nn P)|now apply IH].
Qed.

Lemma bcmds_lines_nn P body : forallb (wf_bcmd P) body = true -> Forall nn (flat_map bcmd_lines body).
Proof.
  intros H. apply Forall_flat_map, Forall_forall. intros b Hb. rewrite forallb_forall in H. specialize (H b Hb).
  destruct (wf_bcmd_parts P b H) as [Wp Wc]. unfold bcmd_lines. apply Forall_app. split.
  - now apply (igns_nn P).
  - now apply emits_cmd.
Qed.

Lemma telem_lines_nn P t : wf_telem P t = true -> Forall nn (telem_lines t).
Proof.
  destruct t as [pre i|pre g fs pc cm body pe en]; cbn [wf_telem telem_lines].
  - intros [Wp Wi]%andb_prop. apply Forall_app. split; [now apply (igns_nn P)|now apply emits_item].
  - intros Hw. destruct (wf_old_parts _ _ _ _ _ _ _ _ _ Hw) as (Wpre & Wg & Wfs & Wfl & Wpc & Wcm & Wb & Wpe & Wen).
    destruct (wf_flavors_parts _ Wfl) as (_ & Hl & _).
    repeat (apply Forall_app; split); try (constructor; [|constructor]);
      eauto using igns_nn, kw_nn, flavs_lines_nn, bcmds_lines_nn.
Qed.

Lemma ngroup_lines_nn P g : wf_ngroup P g = true -> Forall nn (ngroup_lines g).
Proof.
  intros Hw. destruct (wf_ngroup_parts _ _ Hw) as (Wfs & Wfl & Wb & _).
  destruct (wf_flavors_parts _ Wfl) as (_ & Hl & _).
  unfold ngroup_lines. apply Forall_app. split; eauto using flavs_lines_nn, bcmds_lines_nn.
Qed.

Lemma legacy_lines_nn t : wf_ltable t = true -> Forall nn (legacy_lines t).
Proof.
  intros H. destruct (wf_ltable_parts t H) as (Wh & Wt & Wg & Wl).
  unfold legacy_lines. repeat (apply Forall_app; split).
  - now apply (igns_nn false).
  - apply Forall_flat_map, Forall_forall. intros x Hx. rewrite forallb_forall in Wt. now apply (telem_lines_nn (lt_prod t)), Wt.
  - apply Forall_flat_map, Forall_forall. intros x Hx. rewrite forallb_forall in Wg. now apply (ngroup_lines_nn (lt_prod t)), Wg.
  - now apply (igns_nn (lt_prod t)).
Qed.

Lemma bcmds_wf P body : forallb (wf_bcmd P) body = true -> forallb wf_cmd (map bc_cmd body) = true.
Proof.
  induction body as [|b body IH]; [reflexivity|]. cbn [forallb map]. intros [H1 H2]%andb_prop.
  now rewrite (proj2 (wf_bcmd_parts P b H1)), (IH H2).
Qed.

Lemma wf_group_item P fs body : wf_flavors (map fl_name fs) = true -> forallb (wf_bcmd P) body = true ->
  wf_item (group_item fs body) = true.
Proof.
  intros Hf Hb. unfold group_item. cbn [wf_item forallb]. unfold wf_branch. cbn [b_cond b_body b_lay].
  rewrite (wf_disj _ Hf), (bcmds_wf P body Hb). reflexivity.
Qed.

Lemma legacy_items_wf t : wf_ltable t = true -> wf_items (legacy_items t) = true.
Proof.
  intros H. destruct (wf_ltable_parts t H) as (_ & Wt & Wg & _).
  unfold wf_items, legacy_items. rewrite forallb_app. apply andb_true_iff. split.
  - induction (lt_top t) as [|x l IH]; [reflexivity|]. cbn [forallb] in Wt. apply andb_prop in Wt. destruct Wt as [W1 W2].
    cbn [flat_map]. rewrite forallb_app, (IH W2), andb_true_r.
    destruct x as [pre i|pre g fs pc cm body pe en]; cbn [wf_telem telem_items forallb] in *.
    + apply andb_prop in W1. destruct W1 as [_ ->]. reflexivity.
    + destruct (wf_old_parts _ _ _ _ _ _ _ _ _ W1) as (_ & _ & _ & Wfl & _ & _ & Wb & _).
      now rewrite (wf_group_item _ fs body Wfl Wb).
  - induction (lt_groups t) as [|x l IH]; [reflexivity|]. cbn [forallb] in Wg. apply andb_prop in Wg. destruct Wg as [W1 W2].
    cbn [map forallb]. rewrite (IH W2), andb_true_r.
    destruct (wf_ngroup_parts _ _ W1) as (_ & Wfl & Wb & _).
    now apply (wf_group_item (lt_prod t)).
Qed.

(* the text of a legacy file is read as the classified lines of the corresponding items:
   exactly what the text of those items is read as *)
Lemma legacy_file_read eb top t : wf_ltable t = true ->
  read_text true eb top (print_legacy t) = read_text true eb top (print_table (legacy_items t)).
Proof.
  intros H. rewrite (read_text_print eb top _ (legacy_items_wf t H)).
  unfold read_text, print_legacy, as_text. rewrite split_lines_print by (apply legacy_lines_nn, H).
  rewrite (rewrite_legacy t H). cbn [bind]. now rewrite (classify_items _ (legacy_items_wf t H)).
Qed.

Lemma denote_group_item e top fs body : wf_flavors (map fl_name fs) = true ->
  denote_item e top (group_item fs body) = denote_group e top fs body.
Proof.
  intros Hf. destruct (wf_flavors_parts _ Hf) as (Hn & _).
  unfold group_item, denote_group. cbn [denote_item pick_branch b_cond b_body]. now rewrite (denote_disj e _ Hn).
Qed.

Lemma denote_legacy_items e top t : wf_ltable t = true ->
  denote_items e top (legacy_items t) = denote_legacy e top t.
Proof.
  intros H. destruct (wf_ltable_parts t H) as (_ & Wt & Wg & _).
  unfold denote_items, legacy_items, denote_legacy. rewrite flat_map_app. f_equal.
  - induction (lt_top t) as [|x l IH]; [reflexivity|]. cbn [forallb] in Wt. apply andb_prop in Wt. destruct Wt as [W1 W2].
    cbn [flat_map]. rewrite flat_map_app, (IH W2). f_equal.
    destruct x as [pre i|pre g fs pc cm body pe en]; cbn [wf_telem telem_items flat_map denote_telem] in *.
    + now rewrite app_nil_r.
    + destruct (wf_old_parts _ _ _ _ _ _ _ _ _ W1) as (_ & _ & _ & Wfl & _).
      now rewrite app_nil_r, (denote_group_item e top fs body Wfl).
  - induction (lt_groups t) as [|x l IH]; [reflexivity|]. cbn [forallb] in Wg. apply andb_prop in Wg. destruct Wg as [W1 W2].
    cbn [map flat_map]. rewrite (IH W2). f_equal.
    now apply denote_group_item, (wf_ngroup_parts _ _ W1).
Qed.

(* the two texts of Model/TableSpec.v, a new-style and an old-style group printed without
   any layout, are legacy files *)
Definition plain_flav (f : str) : flav := mkFlav [] [] (lit "Flavor") [] [] f [].
Definition plain_kw (k : str) : kwlay := mkKw [] k [].
Definition new_group_table (fs : list str) (body : list cmd) : ltable :=
  mkLt [] [] [mkNg (map plain_flav fs) (map (mkBcmd []) body)] [].
Definition old_group_table (fs : list str) (body : list cmd) : ltable :=
  mkLt [] [TOld [] (plain_kw (lit "Group:")) (map plain_flav fs) [] (plain_kw (lit "Common:"))
                (map (mkBcmd []) body) [] (plain_kw (lit "End:"))] [] [].

Lemma plain_flavs fs :
  flat_map flav_lines (map plain_flav fs) = map flavor_line fs /\
  forallb (wf_flav false) (map plain_flav fs) = true /\ map fl_name (map plain_flav fs) = fs.
Proof.
  induction fs as [|f fs (IH1 & IH2 & IH3)]; [auto|]. cbn [map flat_map forallb]. rewrite IH1, IH2, IH3.
  repeat split. unfold flav_lines, flav_line, flavor_line, keyed_core. cbn. now rewrite app_nil_r.
Qed.

Lemma plain_bcmds body :
  flat_map bcmd_lines (map (mkBcmd []) body) = flat_map cmd_lines body /\
  forallb (wf_bcmd false) (map (mkBcmd []) body) = forallb wf_cmd body /\
  map bc_cmd (map (mkBcmd []) body) = body /\ is_nil (map (mkBcmd []) body) = is_nil body.
Proof.
  induction body as [|c body (IH1 & IH2 & IH3 & _)]; [auto|]. cbn [map flat_map forallb]. rewrite IH1, IH2, IH3.
  repeat split.
Qed.

Lemma legacy_groups_read eb top fs body : wf_flavors fs = true -> forallb wf_cmd body = true ->
  let chain := [IChain (mkBranch (flavor_disj fs) body plain_blay) [] None plain_blay] in
  wf_items chain = true /\
  (is_nil body = false ->
   read_text true eb top (print_new_group fs body) = read_text true eb top (print_table chain)) /\
  read_text true eb top (print_old_group fs body) = read_text true eb top (print_table chain).
Proof.
  intros Hf Hb chain.
  destruct (plain_flavs fs) as (F1 & F2 & F3). destruct (plain_bcmds body) as (B1 & B2 & B3 & B4).
  assert (IN : legacy_items (new_group_table fs body) = chain).
  { unfold legacy_items, group_item. cbn. now rewrite F3, B3. }
  assert (IO : legacy_items (old_group_table fs body) = chain).
  { unfold legacy_items. cbn. unfold group_item. now rewrite F3, B3. }
  assert (WO : wf_ltable (old_group_table fs body) = true).
  { unfold wf_ltable, lt_prod. cbn. now rewrite F2, F3, Hf, B2, Hb. }
  split; [rewrite <- IO; apply legacy_items_wf, WO|]. split.
  - intros Hne.
    assert (WN : wf_ltable (new_group_table fs body) = true).
    { unfold wf_ltable, lt_prod, wf_ngroup. cbn. now rewrite F2, F3, Hf, B2, Hb, B4, Hne. }
    rewrite <- IN, <- (legacy_file_read eb top _ WN). f_equal.
    unfold print_legacy, legacy_lines, ngroup_lines, print_new_group. cbn. now rewrite F1, B1, !app_nil_r.
  - rewrite <- IO, <- (legacy_file_read eb top _ WO). f_equal.
    unfold print_legacy, legacy_lines, print_old_group. cbn. now rewrite F1, B1, !app_nil_r.
Qed.
