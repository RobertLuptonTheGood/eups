(* C09 - elementary facts about the list and function-update helpers of Model/Lock.v *)
From Eupsv Require Import Base.Base Model.Lock.
From Coq Require Import Lia.

Lemma upd_same {A} (f : nat -> A) p v : upd f p v p = v.
Proof. unfold upd. now rewrite Nat.eqb_refl. Qed.

Lemma upd_other {A} (f : nat -> A) p v q : q <> p -> upd f p v q = f q.
Proof. unfold upd. intro H. apply Nat.eqb_neq in H. now rewrite H. Qed.

Lemma upd_id {A} (f : nat -> A) p q : upd f p (f p) q = f q.
Proof. unfold upd. destruct (Nat.eqb q p) eqn:E; [apply Nat.eqb_eq in E; now subst | reflexivity]. Qed.

Lemma mem_In p fs : mem p fs = true <-> In p fs.
Proof.
  induction fs as [|q r IH]; cbn [mem In].
  - split; [discriminate | tauto].
  - destruct (Nat.eqb q p) eqn:E.
    + apply Nat.eqb_eq in E. tauto.
    + apply Nat.eqb_neq in E. rewrite IH. tauto.
Qed.

Lemma mem_false p fs : mem p fs = false <-> ~ In p fs.
Proof. rewrite <- mem_In. destruct (mem p fs); split; congruence. Qed.

Lemma in_add x p fs : In x (add p fs) <-> x = p \/ In x fs.
Proof.
  unfold add. destruct (mem p fs) eqn:E.
  - apply mem_In in E. split; [tauto | intros [->|H]; assumption].
  - cbn [In]. split; intros [H|H]; auto.
Qed.

Lemma add_nonempty p fs : add p fs <> [].
Proof.
  unfold add. destruct (mem p fs) eqn:E; [|discriminate].
  apply mem_In in E. destruct fs; [contradiction | discriminate].
Qed.

Lemma in_rem x p fs : In x (rem p fs) <-> In x fs /\ x <> p.
Proof. unfold rem. rewrite filter_In, negb_true_iff, Nat.eqb_neq. tauto. Qed.

Lemma not_in_rem p fs : ~ In p (rem p fs).
Proof. rewrite in_rem. tauto. Qed.

Lemma in_nonempty {A} (x : A) l : In x l -> l <> [].
Proof. destruct l; [contradiction | discriminate]. Qed.

Lemma is_root_true cfg p q : is_root cfg p q = true <-> root_of cfg p = Some q.
Proof.
  unfold is_root. destruct (root_of cfg p) as [r|].
  - rewrite Nat.eqb_eq. split; congruence.
  - split; discriminate.
Qed.

Lemma is_root_false cfg p q : root_of cfg p <> Some q -> is_root cfg p q = false.
Proof. intro H. destruct (is_root cfg p q) eqn:E; [|reflexivity]. apply is_root_true in E. contradiction. Qed.

Lemma relatedb_true cfg p q : relatedb cfg p q = true <-> related cfg p q.
Proof. unfold relatedb, related. rewrite orb_true_iff, !is_root_true. tauto. Qed.

Lemma in_others cfg p q fs : In q fs -> q <> p -> root_of cfg p <> Some q -> In q (others cfg p fs).
Proof.
  intros Hin Hne Hr. unfold others. apply filter_In. split; [assumption|].
  apply andb_true_iff. split; apply negb_true_iff.
  - now apply Nat.eqb_neq.
  - now apply is_root_false.
Qed.

Lemma others_in cfg p q fs : In q (others cfg p fs) -> In q fs /\ q <> p /\ root_of cfg p <> Some q.
Proof.
  unfold others. intro H. apply filter_In in H. destruct H as [H1 H]. apply andb_true_iff in H. destruct H as [H2 H3].
  apply negb_true_iff in H2, H3. apply Nat.eqb_neq in H2. repeat split; try assumption.
  intro H. apply is_root_true in H. congruence.
Qed.

(* the heart of the repair: whoever looks after creating its own file sees every unrelated lock
   that is incompatible with its own *)
Lemma conflict_if_other cfg p q fs :
  In q fs -> q <> p -> root_of cfg p <> Some q -> (kind_of cfg p = Ex \/ kind_of cfg q = Ex) ->
  conflict cfg p fs = true.
Proof.
  intros Hin Hne Hr HK. pose proof (in_others cfg p q fs Hin Hne Hr) as Ho.
  unfold conflict. destruct (kind_of cfg p) eqn:Ep.
  - destruct HK as [HK|HK]; [discriminate|]. apply existsb_exists. exists q. split; [assumption|].
    unfold isEx. now rewrite HK.
  - destruct (others cfg p fs); [contradiction | reflexivity].
Qed.

Lemma conflict_false_ex cfg p fs :
  kind_of cfg p = Ex -> (forall q, In q fs -> q = p \/ root_of cfg p = Some q) -> conflict cfg p fs = false.
Proof.
  intros HK H. unfold conflict. rewrite HK.
  destruct (others cfg p fs) as [|q r] eqn:E; [reflexivity|].
  assert (Hq : In q (others cfg p fs)) by (rewrite E; now left).
  apply others_in in Hq. destruct Hq as [Hin [Hne Hr]]. destruct (H q Hin); contradiction.
Qed.

Lemma conflict_false_sh cfg p fs :
  kind_of cfg p = Sh ->
  (forall q, In q fs -> q = p \/ root_of cfg p = Some q \/ kind_of cfg q = Sh) -> conflict cfg p fs = false.
Proof.
  intros HK H. unfold conflict. rewrite HK.
  destruct (existsb (isEx cfg) (others cfg p fs)) eqn:E; [|reflexivity].
  apply existsb_exists in E. destruct E as [q [Hq Hx]].
  apply others_in in Hq. destruct Hq as [Hin [Hne Hr]].
  unfold isEx in Hx. destruct (H q Hin) as [?|[?|Hs]]; try contradiction. rewrite Hs in Hx. discriminate.
Qed.

Lemma run_gen_app fx fr cfg s a b :
  run_gen fx fr cfg s (a ++ b) = run_gen fx fr cfg (run_gen fx fr cfg s a) b.
Proof. revert s. induction a as [|[p c] r IH]; intro s; cbn [run_gen app]; [reflexivity | apply IH]. Qed.

Lemma reachable_run fx fr cfg s sched :
  reachable_gen fx fr cfg s -> reachable_gen fx fr cfg (run_gen fx fr cfg s sched).
Proof.
  revert s. induction sched as [|[p c] r IH]; intros s H; cbn [run_gen]; [assumption|].
  apply IH. now constructor.
Qed.

Lemma nodup_nth_eq (l : list nat) x y k :
  NoDup l -> nth_error l x = Some k -> nth_error l y = Some k -> x = y.
Proof.
  intros N X Y. apply (proj1 (NoDup_nth_error l) N).
  - apply nth_error_Some. congruence.
  - congruence.
Qed.

Lemma nth_error_lt {A} (l : list A) x k : nth_error l x = Some k -> x < length l.
Proof. intro H. apply nth_error_Some. congruence. Qed.

Fixpoint path_nodupb (l : list nat) : bool :=
  match l with [] => true | x :: r => negb (mem x r) && path_nodupb r end.

Lemma path_nodupb_NoDup l : path_nodupb l = true -> NoDup l.
Proof.
  induction l as [|x r IH]; cbn [path_nodupb]; intro H; [constructor|].
  apply andb_true_iff in H. destruct H as [A B]. apply negb_true_iff in A. apply mem_false in A.
  constructor; auto.
Qed.

Lemma wf_cfg_of (l : procs) : forallb (fun e => path_nodupb (snd (snd e))) l = true -> wf (cfg_of l).
Proof.
  intros H p. unfold cfg_of. cbn [path_of].
  induction l as [|[q v] r IH]; cbn [cfg_lookup].
  - constructor.
  - cbn [forallb] in H. apply andb_true_iff in H. destruct H as [A B].
    destruct (Nat.eqb q p); [now apply path_nodupb_NoDup | now apply IH].
Qed.

Lemma share_stack_true cfg p q :
  share_stack cfg p q = true -> exists k, In k (path_of cfg p) /\ In k (path_of cfg q).
Proof.
  unfold share_stack. intro H. apply existsb_exists in H. destruct H as (k & A & B).
  exists k. split; [assumption | now apply mem_In].
Qed.
