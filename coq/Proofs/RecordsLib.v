(* String and association-list lemmas (C16); level A of the record codec: what the readers' line
   classifiers make of a printed line; the alphabet of values that survive print and read. *)
From Eupsv Require Import Base.Base Base.BaseLemmas Model.Paths Model.Records.
From Coq Require Import Lia.

Lemma starts_with_nil x : starts_with [] x = true.
Proof. now destruct x. Qed.

Lemma starts_with_app p x y : starts_with (p ++ x) (p ++ y) = starts_with x y.
Proof. induction p as [|c p IH]; [reflexivity|]. cbn. now rewrite ascii_eqb_refl. Qed.

Lemma starts_with_app_l p x : starts_with p (p ++ x) = true.
Proof. apply starts_with_refl. Qed.

Lemma starts_with_self p : starts_with p p = true.
Proof. rewrite <- (app_nil_r p) at 2. apply starts_with_refl. Qed.

Lemma starts_with_head_neq c p d x : c <> d -> starts_with (c :: p) (d :: x) = false.
Proof. intro N. cbn. apply ascii_eqb_neq in N. now rewrite N. Qed.

Lemma starts_with_true_app p x : starts_with p x = true -> exists r, x = p ++ r.
Proof.
  revert x. induction p as [|c p IH]; intros x H; [now exists x|].
  destruct x as [|d x]; [discriminate|]. cbn in H.
  destruct (ascii_eqb_spec c d) as [->|]; [|discriminate].
  destruct (IH _ H) as [r ->]. now exists r.
Qed.

Lemma app_cons_middle {A} (a : list A) c b : a ++ c :: b = (a ++ [c]) ++ b.
Proof. now rewrite <- app_assoc. Qed.

Lemma starts_with_sep (a : str) (c : ascii) (b : str) : starts_with (a ++ [c]) (a ++ c :: b) = true.
Proof. rewrite (app_cons_middle a c b). apply starts_with_refl. Qed.

Lemma app_cons_app {A} (a : list A) c b d : (a ++ c :: b) ++ d = a ++ c :: b ++ d.
Proof. now rewrite <- app_assoc. Qed.

Lemma app_cons_neq {A} (a : list A) c s : a ++ c :: s <> a.
Proof.
  intro H. apply (f_equal (@length A)) in H. rewrite app_length in H. cbn in H. lia.
Qed.

Lemma str_eqb_app_cons_false (a : str) c b : str_eqb a (a ++ c :: b) = false.
Proof. apply str_eqb_neq. intro E. exact (app_cons_neq a c b (eq_sym E)). Qed.

Lemma starts_with_app_true a b x : starts_with (a ++ b) x = true -> starts_with a x = true.
Proof.
  intro H. destruct (starts_with_true_app _ _ H) as [r ->]. rewrite <- app_assoc. apply starts_with_refl.
Qed.

Lemma skipn_app_len {A} (a b : list A) : skipn (length a) (a ++ b) = b.
Proof. induction a; [reflexivity|]. cbn. assumption. Qed.

Lemma skipn_S_app_len {A} (a : list A) (c : A) b : skipn (S (length a)) (a ++ c :: b) = b.
Proof. induction a; [reflexivity|]. cbn [length app]. now rewrite skipn_cons. Qed.

Lemma abs_from_abs cwd s : isabs s = true -> abs_from cwd s = s.
Proof. intro H. unfold abs_from. now rewrite H. Qed.

Lemma after_app a c b : after (length a) (a ++ c :: b) = b.
Proof. unfold after. apply skipn_S_app_len. Qed.

Lemma last_opt_app {A} (l : list A) (c : A) : last_opt (l ++ [c]) = Some c.
Proof.
  induction l as [|x l IH]; [reflexivity|]. cbn [app].
  destruct (l ++ [c]) eqn:E; [now destruct l|]. cbn. now rewrite <- IH.
Qed.

Lemma last_opt_Some {A} (l : list A) (c : A) : last_opt l = Some c -> exists l', l = l' ++ [c].
Proof.
  destruct l as [|x l] using rev_ind; [discriminate|].
  rewrite last_opt_app. intros [= ->]. now exists l.
Qed.

Lemma last_opt_None {A} (l : list A) : last_opt l = None -> l = [].
Proof.
  destruct l as [|x l] using rev_ind; [reflexivity|]. rewrite last_opt_app. discriminate.
Qed.

Lemma last_opt_app_r {A} (a l : list A) : l <> [] -> last_opt (a ++ l) = last_opt l.
Proof.
  intro N. destruct (exists_last N) as [l' [c ->]].
  now rewrite app_assoc, !last_opt_app.
Qed.

Lemma mem_ascii_cons c x l : mem_ascii c (x :: l) = ascii_eqb c x || mem_ascii c l.
Proof. cbn. now destruct (ascii_eqb c x). Qed.

Lemma amem_alookup {V} k (m : amap V) : amem k m = match alookup k m with Some _ => true | None => false end.
Proof. reflexivity. Qed.

Lemma alookup_app_notin {V} k (a b : amap V) : ~ In k (akeys a) -> alookup k (a ++ b) = alookup k b.
Proof.
  induction a as [|[k' v] a IH]; intro N; [reflexivity|]. cbn in *.
  destruct (str_eqb_spec k k') as [->|]; [tauto|]. apply IH. tauto.
Qed.

Lemma alookup_app_in {V} k (a b : amap V) : In k (akeys a) -> alookup k (a ++ b) = alookup k a.
Proof.
  induction a as [|[k' v] a IH]; intro N; [destruct N|]. cbn in *.
  destruct (str_eqb_spec k k') as [->|NE]; [reflexivity|]. apply IH.
  destruct N as [E|I]; [exfalso; apply NE; now symmetry|exact I].
Qed.

Lemma alookup_None_notin {V} k (m : amap V) : alookup k m = None <-> ~ In k (akeys m).
Proof.
  induction m as [|[k' v] m IH]; cbn; [tauto|].
  destruct (str_eqb_spec k k') as [->|N].
  - split; [discriminate|]. intro H. exfalso. apply H. now left.
  - rewrite IH. split.
    + intros H [E|I]; [apply N; now symmetry|tauto].
    + intros H I. apply H. now right.
Qed.

Lemma alookup_In_snd {V} k (m : amap V) v : alookup k m = Some v -> In v (map snd m).
Proof.
  induction m as [|[k' v'] m IH]; [discriminate|]. cbn.
  destruct (str_eqb k k'); [intros [= ->]; now left|right; auto].
Qed.

Lemma aupd_last {V} f (g : V -> V) (d : amap V) (v : V) :
  ~ In f (akeys d) -> aupd f g (d ++ [(f, v)]) = d ++ [(f, g v)].
Proof.
  induction d as [|[k' v'] d IH]; intro N; cbn in *.
  - now rewrite str_eqb_refl.
  - destruct (str_eqb_spec f k') as [->|]; [tauto|]. rewrite IH; tauto.
Qed.

Lemma aupd_notin {V} f (g : V -> V) (d : amap V) : ~ In f (akeys d) -> aupd f g d = d.
Proof.
  induction d as [|[k' v'] d IH]; intro N; cbn in *; [reflexivity|].
  destruct (str_eqb_spec f k') as [->|]; [tauto|]. rewrite IH; tauto.
Qed.

Lemma akeys_app {V} (a b : amap V) : akeys (a ++ b) = akeys a ++ akeys b.
Proof. apply map_app. Qed.

Lemma alookup_last {V} f (d : amap V) v : ~ In f (akeys d) -> alookup f (d ++ [(f, v)]) = Some v.
Proof. intro N. rewrite alookup_app_notin by assumption. cbn. now rewrite str_eqb_refl. Qed.

(* the codes of word characters begin at that of the digit 0, blanks end at the space *)
Lemma is_word_code c : is_word c = true -> 48 <= nat_of_ascii c.
Proof.
  unfold is_word, is_alpha, is_upper, is_lower, is_digit. cbv zeta.
  generalize (nat_of_ascii c). intros n H.
  destruct (le_lt_dec 48 n) as [L|L]; [exact L|exfalso].
  rewrite (proj2 (Nat.leb_gt 65 n)), (proj2 (Nat.leb_gt 97 n)), (proj2 (Nat.leb_gt 48 n)),
    (proj2 (Nat.eqb_neq n 95)) in H by lia.
  discriminate H.
Qed.

Lemma py_space_code c : py_space c = true -> nat_of_ascii c <= 32.
Proof.
  unfold py_space, is_space. cbv zeta. generalize (nat_of_ascii c). intros n H.
  destruct (le_lt_dec n 32) as [L|L]; [exact L|exfalso].
  rewrite (proj2 (Nat.eqb_neq n 32)), (proj2 (Nat.leb_gt n 13)), (proj2 (Nat.leb_gt n 31)),
    !andb_false_r in H by lia.
  discriminate H.
Qed.

Lemma is_word_not_space c : is_word c = true -> py_space c = false.
Proof.
  intro H. apply is_word_code in H. destruct (py_space c) eqn:S; [|reflexivity].
  apply py_space_code in S. lia.
Qed.

Lemma is_word_not_hash c : is_word c = true -> ascii_eqb c_hash c = false.
Proof.
  intro H. destruct (ascii_eqb_spec c_hash c) as [<-|]; [discriminate H|reflexivity].
Qed.

Lemma lstrip_keep c r : py_space c = false -> lstrip (c :: r) = c :: r.
Proof. intro H. cbn [lstrip]. now rewrite H. Qed.

Lemma lstrip_spaces pre x : forallb py_space pre = true -> lstrip (pre ++ x) = lstrip x.
Proof.
  induction pre as [|c pre IH]; intro H; [reflexivity|]. cbn [forallb app lstrip] in *.
  apply andb_true_iff in H. destruct H as [-> H]. auto.
Qed.

Definition first_ok (v : str) : bool := match v with c :: _ => negb (py_space c) | [] => false end.
Definition last_ok (v : str) : bool :=
  match last_opt v with Some c => negb (py_space c) | None => false end.

Lemma lstrip_first_ok v : first_ok v = true -> lstrip v = v.
Proof.
  destruct v as [|c r]; [discriminate|]. cbn [first_ok lstrip]. intro H.
  apply negb_true_iff in H. now rewrite H.
Qed.

Lemma rstrip_last_ok a v : last_ok v = true -> rstrip (a ++ v) = a ++ v.
Proof.
  unfold last_ok. destruct (last_opt v) as [c|] eqn:E; [|discriminate]. intro H.
  apply last_opt_Some in E. destruct E as [v' ->].
  unfold rstrip. rewrite app_assoc, rev_app_distr. cbn [rev app lstrip].
  apply negb_true_iff in H. rewrite H. cbn [rev]. now rewrite rev_involutive.
Qed.

Lemma last_ok_app a v : v <> [] -> last_ok (a ++ v) = last_ok v.
Proof. intro N. unfold last_ok. now rewrite last_opt_app_r. Qed.

Lemma cut_comment_id x : mem_ascii c_hash x = false -> cut_comment x = x.
Proof.
  induction x as [|c x IH]; [reflexivity|]. rewrite mem_ascii_cons.
  intro H. apply orb_false_iff in H. destruct H as [H1 H2]. cbn.
  rewrite ascii_eqb_sym, H1. now rewrite IH.
Qed.

Lemma word_no_hash w : forallb is_word w = true -> mem_ascii c_hash w = false.
Proof.
  induction w as [|c w IH]; [reflexivity|]. cbn [forallb]. intro H.
  apply andb_true_iff in H. destruct H as [H1 H2]. rewrite mem_ascii_cons.
  now rewrite is_word_not_hash, IH.
Qed.

Lemma span_word_app w rest :
  forallb is_word w = true ->
  match rest with c :: _ => is_word c = false | [] => True end ->
  span_word (w ++ rest) = (w, rest).
Proof.
  induction w as [|c w IH]; cbn [forallb app]; intros H R.
  - destruct rest as [|c r]; [reflexivity|]. cbn. now rewrite R.
  - apply andb_true_iff in H. destruct H as [H1 H2]. cbn. now rewrite H1, IH.
Qed.

Definition s_eq : str := lit " = ".

Lemma lstrip_sp x : lstrip (" "%char :: x) = lstrip x.
Proof. reflexivity. Qed.
Lemma lstrip_eq x : lstrip ("="%char :: x) = "="%char :: x.
Proof. reflexivity. Qed.

Lemma key_value_kv w v :
  forallb is_word w = true -> w <> [] -> (v = [] \/ first_ok v = true) ->
  key_value (w ++ s_eq ++ v) = Some (w, v).
Proof.
  intros Hw Nw Hv. unfold key_value. rewrite span_word_app; [|assumption|reflexivity].
  destruct w as [|c w]; [congruence|].
  change (s_eq ++ v) with (" "%char :: "="%char :: " "%char :: v).
  rewrite lstrip_sp, lstrip_eq. change (ascii_eqb "="%char c_equal) with true. cbv iota.
  rewrite lstrip_sp. destruct Hv as [->|Hv]; [reflexivity|]. now rewrite lstrip_first_ok.
Qed.

(* a key that cannot be taken for End or Group: its first letter is neither E nor G *)
Definition safe_head (w : str) : bool :=
  match w with
  | c :: _ => negb (ascii_eqb c "E"%char) && negb (ascii_eqb c "G"%char)
  | [] => false
  end.

Lemma is_group_end_safe w x : safe_head w = true -> is_group_end (w ++ x) = false.
Proof.
  destruct w as [|c w]; [discriminate|]. cbn [safe_head]. intro H.
  apply andb_true_iff in H. destruct H as [H1 H2]. apply negb_true_iff in H1, H2.
  unfold is_group_end. cbn [app lit String.list_ascii_of_string starts_with].
  rewrite (ascii_eqb_sym "E"%char), H1, (ascii_eqb_sym "G"%char), H2. reflexivity.
Qed.

Definition word (w : str) : bool := forallb is_word w && safe_head w.

Lemma vf_classify_kv pre w v :
  forallb py_space pre = true -> word w = true ->
  first_ok v = true -> last_ok v = true -> mem_ascii c_hash v = false ->
  vf_classify (pre ++ w ++ s_eq ++ v) = CKV (lower_str w) v.
Proof.
  intros Hp Hw Hf Hl Hh. unfold word in Hw. apply andb_true_iff in Hw. destruct Hw as [Hw Hs].
  assert (Nw : w <> []) by (destruct w; [discriminate|congruence]).
  unfold vf_classify, strip.
  rewrite lstrip_spaces by assumption.
  rewrite lstrip_first_ok.
  2:{ destruct w as [|c w]; [congruence|]. cbn in *. apply andb_true_iff in Hw.
      destruct Hw as [Hc _]. now rewrite (is_word_not_space c Hc). }
  rewrite app_assoc, rstrip_last_ok by assumption. rewrite <- app_assoc.
  rewrite cut_comment_id.
  2:{ rewrite !mem_ascii_app, word_no_hash by assumption. now rewrite Hh. }
  destruct (w ++ s_eq ++ v) eqn:E; [destruct w; [congruence|discriminate]|]. rewrite <- E.
  rewrite is_group_end_safe by assumption.
  rewrite key_value_kv; auto.
Qed.

Lemma cf_classify_kv pre w v :
  forallb py_space pre = true -> word w = true -> first_ok v = true ->
  cf_classify (pre ++ w ++ s_eq ++ v) = CKV (lower_str w) v.
Proof.
  intros Hp Hw Hf. unfold word in Hw. apply andb_true_iff in Hw. destruct Hw as [Hw Hs].
  assert (Nw : w <> []) by (destruct w; [discriminate|congruence]).
  unfold cf_classify. rewrite lstrip_spaces by assumption.
  rewrite lstrip_first_ok.
  2:{ destruct w as [|c w]; [congruence|]. cbn in *. apply andb_true_iff in Hw.
      destruct Hw as [Hc _]. now rewrite (is_word_not_space c Hc). }
  destruct w as [|c w]; [congruence|]. cbn [app].
  assert (Hc : ascii_eqb c c_hash = false).
  { cbn in Hw. apply andb_true_iff in Hw. destruct Hw as [Hc _].
    rewrite ascii_eqb_sym. now apply is_word_not_hash. }
  rewrite Hc. change (c :: w ++ s_eq ++ v) with ((c :: w) ++ s_eq ++ v).
  rewrite key_value_kv; auto.
Qed.

Definition no_quote_ends (v : str) : bool :=
  match v with c :: _ => negb (ascii_eqb c c_dquote) | [] => true end &&
  match last_opt v with Some c => negb (ascii_eqb c c_dquote) | None => true end.

Lemma strip_last_quote_id v :
  match last_opt v with Some c => negb (ascii_eqb c c_dquote) | None => true end = true ->
  strip_last_quote v = v.
Proof.
  destruct (last_opt v) as [c|] eqn:E.
  - apply last_opt_Some in E. destruct E as [v' ->]. intro H. apply negb_true_iff in H.
    unfold strip_last_quote. rewrite rev_app_distr. cbn. now rewrite H.
  - now rewrite (last_opt_None v E).
Qed.

Lemma unquote1_id v : no_quote_ends v = true -> unquote1 v = v.
Proof.
  unfold no_quote_ends. intro H. apply andb_true_iff in H. destruct H as [H1 H2].
  destruct v as [|c r]; [reflexivity|]. apply negb_true_iff in H1.
  unfold unquote1. rewrite H1. now apply strip_last_quote_id.
Qed.

Lemma unquote2_id v : no_quote_ends v = true -> unquote2 v = v.
Proof.
  unfold no_quote_ends. intro H. apply andb_true_iff in H. destruct H as [H1 _].
  destruct v as [|c r]; [reflexivity|]. apply negb_true_iff in H1.
  unfold unquote2. now rewrite H1.
Qed.

Lemma lstrip_quotes_id v :
  match v with c :: _ => negb (ascii_eqb c c_dquote) | [] => true end = true -> lstrip_quotes v = v.
Proof. destruct v as [|c r]; [reflexivity|]. intro H. apply negb_true_iff in H. cbn. now rewrite H. Qed.

Lemma strip_quotes_id v : no_quote_ends v = true -> strip_quotes v = v.
Proof.
  unfold no_quote_ends. intro H. apply andb_true_iff in H. destruct H as [H1 H2].
  unfold strip_quotes. rewrite (lstrip_quotes_id v H1).
  destruct (last_opt v) as [c|] eqn:E.
  - apply last_opt_Some in E. destruct E as [v' ->]. rewrite rev_app_distr. cbn.
    apply negb_true_iff in H2. rewrite H2. cbn. now rewrite rev_involutive.
  - now rewrite (last_opt_None v E).
Qed.

Definition c_nl : ascii := ascii_of_nat 10.
Definition c_cr : ascii := ascii_of_nat 13.

(* a value that survives print and read: not empty, no hash, no line break, neither
   blank nor a double quote at either end *)
Definition wf_value (v : str) : bool :=
  first_ok v && last_ok v && no_quote_ends v &&
  negb (mem_ascii c_hash v) && negb (mem_ascii c_nl v) && negb (mem_ascii c_cr v).

Lemma wf_value_parts v : wf_value v = true ->
  first_ok v = true /\ last_ok v = true /\ no_quote_ends v = true /\ mem_ascii c_hash v = false.
Proof.
  unfold wf_value. rewrite !andb_true_iff, !negb_true_iff. tauto.
Qed.

Lemma wf_value_no_quotes v : wf_value v = true -> no_quote_ends v = true.
Proof. intro H. apply wf_value_parts in H. tauto. Qed.

Lemma wf_value_nonempty v : wf_value v = true -> exists c r, v = c :: r.
Proof.
  intro H. apply wf_value_parts in H. destruct H as [H _]. destruct v as [|c r]; [discriminate|eauto].
Qed.

Lemma wf_value_none : wf_value s_none = true.
Proof. reflexivity. Qed.
