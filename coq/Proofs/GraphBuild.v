(* The repaired second walk of getDependentProducts (D16): the graph handed to topologicalSort is the
   graph of the closure of the top product, every node with its own edges, whatever the closure holds
   (two versions of one name, stubs, cycles); hence the build order and the exact outcome of the cycle
   check in terms of the declared products. *)
From Coq Require Import Lia.
From Eupsv Require Import Base.Base Base.BaseLemmas Model.Graph Proofs.GraphLib Proofs.GraphWalk
     Proofs.GraphListing Proofs.GraphLayers Proofs.GraphTarjan Proofs.GraphPartition Proofs.GraphOrder
     Proofs.GraphTarjanLib Proofs.GraphTarjanFull Proofs.GraphTotal.

Lemma dbnode_other NL x : forall i nl m,
  (forall j, ~ In x (nth j NL [])) -> low_get (depth_by_node NL i nl m) x = low_get m x.
Proof.
  induction NL as [|l r IH]; intros i nl m H; simpl; [reflexivity|].
  rewrite IH.
  - apply fold_low_get_out. apply (H 0).
  - intros j. apply (H (S j)).
Qed.

Lemma dbnode_spec NL x : forall i nl m j,
  (forall j', In x (nth j' NL []) -> j' = j) -> In x (nth j NL []) ->
  low_get (depth_by_node NL i nl m) x = Some (nl - (i + j) - 1).
Proof.
  induction NL as [|l r IH]; intros i nl m j Hu Hx; [destruct j; destruct Hx|].
  simpl. destruct j as [|j]; simpl in Hx.
  - rewrite dbnode_other.
    + rewrite (fold_low_get_in l _ m x Hx). f_equal. lia.
    + intros j' Iy. specialize (Hu (S j') Iy). discriminate.
  - rewrite (IH (S i) nl _ j).
    + f_equal. lia.
    + intros j' Iy. specialize (Hu (S j') Iy). lia.
    + exact Hx.
Qed.

Record closure_graph (w : world) (top : node) (G : graph) : Prop := {
  cgr_edge : forall a b, gedge G a b <-> closure w top a /\ step w a b /\ a <> b;
  cgr_keys : forall n, In n (gkeys G) -> closure w top n;
  cgr_reach : forall n, reach_plus w top n -> In n (gkeys G);
  cgr_nodup : NoDup (gkeys G)
}.

Lemma second_walk_graph w top fuel out1 st1 out2 st2 es :
  length w < fuel -> wf_world w -> node_table w top = Some es ->
  walk_top fuel w [] top = Ok (out1, st1) ->
  walk_top fuel w (pins_fixed top (drop_top top out1)) top = Ok (out2, st2) ->
  closure_graph w top (prepare (pd st2)).
Proof.
  intros Hf Hwf Ttop E1 E2.
  destruct (walk_top_spec w [] top fuel Hf) as [out1' [st1' [E1' Hout1]]].
  rewrite E1 in E1'. inversion E1'. subst out1' st1'. clear E1'.
  set (dp := drop_top top out1) in *.
  set (pins := pins_fixed top dp) in *.
  assert (Hdp : forall q, In q (map enode dp) <-> q <> top /\ reach_plus w top q).
  { intros q. unfold dp. rewrite drop_top_nodes, Hout1. reflexivity. }
  destruct (walk_top_full w pins top fuel es Hf Ttop) as [out2' [st2' [E2' [Hout2 [Hg [Hvis [Hreal Hkeys]]]]]]].
  rewrite E2 in E2'. inversion E2'. subst out2' st2'. clear E2'.
  pose proof (pins_agree w top dp Hwf Hdp) as Hag. fold pins in Hag.
  destruct (reach_agree w pins top Hag) as [Hs Hr].
  assert (Ctop : closure w top top) by (left; reflexivity).
  set (G0 := pd st2) in *.
  assert (Hsrc : forall a, a = top \/ In a (vis st2) -> closure w top a).
  { intros a [-> | H]; [exact Ctop|]. right. apply Hr; [exact Ctop|]. apply Hvis, H. }
  assert (Hsrc' : forall a b, closure w top a -> step w a b -> a = top \/ In a (vis st2)).
  { intros a b [-> | R] S; [auto|]. right. apply Hreal.
    - apply Hr; [exact Ctop | exact R].
    - destruct S as [es_a [e [T _]]]. eapply node_table_real; eauto. }
  constructor.
  - intros a b. split.
    + intros H. apply prepare_gedge in H as [H Ne]. apply Hg in H as [Ha Hst].
      pose proof (Hsrc a Ha) as Ca. split; [exact Ca|]. split; [apply Hs; auto | exact Ne].
    + intros [Ca [S Ne]]. apply prepare_gedge. split; [|exact Ne]. apply Hg. split; [eapply Hsrc'; eauto|].
      apply Hs; auto.
  - intros n H. apply prepare_keys in H as [H | [k H]].
    + apply Hsrc, Hkeys, H.
    + apply Hg in H as [Hk Hst]. pose proof (Hsrc k Hk) as Ck. eapply closure_step; [exact Ck|]. apply Hs; auto.
  - intros n R. destruct (reach_plus_last w top n R) as [k [Ck Sk]]. apply prepare_keys. right. exists k.
    apply Hg. split; [eapply Hsrc'; eauto | apply Hs; auto].
  - apply prepare_keys_nodup. eapply walk_top_pd_nodup; eauto.
Qed.

Lemma closure_graph_path w top G : closure_graph w top G ->
  forall a b, gpath G a b -> closure w top a /\ reach_plus w a b.
Proof.
  intros CG a b P. induction P as [a b E | a b c E _ [_ IH]].
  - apply (cgr_edge _ _ _ CG) in E as [Ca [S _]]. split; [exact Ca|]. apply rp_one, step_is_stepP, S.
  - apply (cgr_edge _ _ _ CG) in E as [Ca [S _]]. split; [exact Ca|]. eapply rp_more; [apply step_is_stepP, S | exact IH].
Qed.

Lemma closure_graph_reach w top G : closure_graph w top G ->
  forall a b, reach_plus w a b -> closure w top a -> a = b \/ gpath G a b.
Proof.
  intros CG a b R. unfold reach_plus in R. induction R as [a b S | a b c S R IH]; intros Ca.
  - apply step_is_stepP in S. destruct (node_eq_dec a b) as [-> | Ne]; [auto|]. right. apply gp_one.
    apply (cgr_edge _ _ _ CG). auto.
  - apply step_is_stepP in S. assert (Cb : closure w top b) by (eapply closure_step; eauto).
    destruct (node_eq_dec a b) as [-> | Ne]; [apply IH, Cb|].
    assert (E : gedge G a b) by (apply (cgr_edge _ _ _ CG); auto).
    destruct (IH Cb) as [<- | P]; right; [apply gp_one, E | eapply gp_more; eauto].
Qed.

(* a cycle worth the name: two different products of the closure that need each other *)
Definition proper_cycle (w : world) (top : node) : Prop :=
  exists p q, closure w top p /\ p <> q /\ reach_plus w p q /\ reach_plus w q p.

Lemma closure_graph_cyclic w top G : closure_graph w top G -> proper_cycle w top -> ~ acyclic G.
Proof.
  intros CG [p [q [Cp [Ne [R1 R2]]]]] Ha.
  assert (Cq : closure w top q).
  { destruct Cp as [-> | Rp]; right; [exact R1 | exact (reachP_trans _ _ _ _ _ Rp R1)]. }
  destruct (closure_graph_reach w top G CG p q R1 Cp) as [? | P1]; [contradiction|].
  destruct (closure_graph_reach w top G CG q p R2 Cq) as [? | P2]; [congruence|].
  apply (Ha p). eapply gpath_trans; eauto.
Qed.

Lemma closure_graph_acyclic w top G : closure_graph w top G -> ~ proper_cycle w top -> acyclic G.
Proof.
  intros CG Hn a P. apply Hn.
  inversion P as [a' b' E | a' b' c' E P']; subst.
  - apply (cgr_edge _ _ _ CG) in E as [_ [_ Ne]]. congruence.
  - pose proof E as E0. apply (cgr_edge _ _ _ CG) in E as [Ca [S Ne]].
    exists a, b'. split; [exact Ca|]. split; [exact Ne|]. split; [apply rp_one, step_is_stepP, S|].
    apply (closure_graph_path w top G CG b' a P').
Qed.

Lemma dependent_products_inv w top fuel l :
  length w < fuel -> dependent_products fuel w top true = Ok l ->
  exists out1 st1 out2 st2 NL,
    walk_top fuel w [] top = Ok (out1, st1) /\
    (forall q, In q (map enode (drop_top top out1)) <-> q <> top /\ reach_plus w top q) /\
    walk_top fuel w (pins_fixed top (drop_top top out1)) top = Ok (out2, st2) /\
    topo_layers_with node_cmp false (pd st2) = Ok NL /\
    l = topo_finish true NL (drop_top top out1).
Proof.
  intros Hf D. destruct (dependent_products_with_inv _ _ _ _ _ _ D) as [out1 [st1 [out2 [st2 [NL [E1 [E2 [ET ->]]]]]]]].
  destruct (walk_top_spec w [] top fuel Hf) as [out [st [E Hout1]]]. rewrite E1 in E. inversion E. subst out st.
  exists out1, st1, out2, st2, NL. split; [exact E1|]. split; [|auto].
  intros q. rewrite drop_top_nodes, Hout1. reflexivity.
Qed.

(* every listed product that needs another listed product has a strictly smaller depth, unless the two
   lie on a common cycle (where no order exists).  No hypothesis on what the closure holds. *)
Theorem build_order_general w top fuel l :
  length w < fuel -> wf_world w ->
  dependent_products fuel w top true = Ok l ->
  forall x y, In x l -> In y l -> step w (enode x) (enode y) ->
    ~ reach_plus w (enode y) (enode x) -> edepth x < edepth y.
Proof.
  intros Hf Hwf D x y Ix Iy Sxy Nyx.
  destruct (dependent_products_inv w top fuel l Hf D) as [out1 [st1 [out2 [st2 [NL [E1 [Hdp [E2 [ET ->]]]]]]]]].
  set (dp := drop_top top out1) in *.
  set (tn := depth_by_node NL 0 (S (length NL)) []).
  set (td := depth_by_name NL 0 (S (length NL)) []).
  destruct (topo_finish_entry true NL dp x Ix) as [x0 [Ix0 [Ex Dx]]].
  destruct (topo_finish_entry true NL dp y Iy) as [y0 [Iy0 [Ey Dy]]].
  fold tn td in Dx, Dy.
  assert (Rx : enode x <> top /\ reach_plus w top (enode x)) by (apply Hdp; rewrite Ex; apply in_map, Ix0).
  assert (Ry : enode y <> top /\ reach_plus w top (enode y)) by (apply Hdp; rewrite Ey; apply in_map, Iy0).
  destruct (reach_first_table _ _ _ _ (proj2 Rx)) as [es Ttop].
  pose proof (second_walk_graph w top fuel out1 st1 out2 st2 es Hf Hwf Ttop E1 E2) as CG.
  set (G := prepare (pd st2)) in *.
  destruct (topo_layers_with_inv _ _ _ _ ET) as [cs [L [Escc [Elay Esort]]]]. fold G in Escc, Elay.
  destruct (scc_correct G (cgr_nodup _ _ _ CG) (prepare_closed (pd st2))) as [cs' [Escc' Sp]].
  rewrite Escc in Escc'. inversion Escc'. subst cs'. clear Escc'.
  pose proof (ss_nodup _ _ Sp) as ND.
  destruct (sort_layers_spec L NL Esort) as [Hlen Hmem].
  (* where a node of G sits, and the depth it gets *)
  assert (Hnode : forall n c, comp_of cs n = Some c ->
            lidx L c < length NL /\ low_get tn n = Some (length NL - lidx L c)).
  { intros n c Hc. apply comp_of_In in Hc as [Ic In_]. set (j := lidx L c).
    assert (Ij : In c (nth j L [])) by (apply (comp_layers_yields _ _ _ _ Elay), Ic).
    assert (Jlt : j < length L).
    { destruct (Nat.lt_ge_cases j (length L)) as [H | H]; [exact H|]. rewrite nth_overflow in Ij by exact H. destruct Ij. }
    split; [lia|].
    assert (Hdb : low_get tn n = Some (S (length NL) - (0 + j) - 1)).
    { apply dbnode_spec.
      - intros j' Iz. apply Hmem in Iz. apply in_concat in Iz as [c' [Ic' Inc']].
        assert (Ics : In c' cs) by (eapply comp_layers_elems; eauto).
        assert (c' = c).
        { rewrite <- (cidx_unique cs c' n ND Ics Inc'). apply cidx_unique; auto. }
        subst c'. eapply comp_layers_unique; eauto.
      - apply Hmem. apply in_concat. exists c. split; [exact Ij | exact In_]. }
    rewrite Hdb. f_equal. lia. }
  assert (Cx : closure w top (enode x)) by (right; apply Rx).
  assert (Nxy : enode x <> enode y).
  { intros Q. apply Nyx. rewrite <- Q. rewrite <- Q in Sxy. apply rp_one, step_is_stepP, Sxy. }
  assert (Exy : gedge G (enode x) (enode y)) by (apply (cgr_edge _ _ _ CG); auto).
  pose proof Exy as [ss [I1 I2]].
  destruct (comp_layers_order _ _ _ _ Elay _ _ _ I1 I2) as [ca [cb [Ha [Hb Hord]]]].
  destruct (Hnode _ _ Ha) as [La Ta]. destruct (Hnode _ _ Hb) as [Lb Tb].
  destruct Hord as [Q | Hord].
  - exfalso. subst cb. apply comp_of_In in Ha as [Ica Ixa]. apply comp_of_In in Hb as [_ Iya].
    destruct (ss_sc _ _ Sp ca Ica) as [_ Hsc]. specialize (Hsc _ _ Iya Ixa).
    destruct (gstar_path G _ _ Hsc) as [Q | P]; [congruence|].
    apply Nyx. apply (closure_graph_path w top G CG _ _ P).
  - unfold relabel in Dx, Dy. rewrite <- Ex in Dx. rewrite <- Ey in Dy. rewrite Ta in Dx. rewrite Tb in Dy.
    unfold edepth in Dx at 2. unfold edepth in Dy at 2. simpl in Dx, Dy. lia.
Qed.

Theorem build_order w top fuel l :
  length w < fuel -> wf_world w -> acyclic_from w top ->
  dependent_products fuel w top true = Ok l ->
  forall x y, In x l -> In y l -> step w (enode x) (enode y) -> edepth x < edepth y.
Proof.
  intros Hf Hwf Hac D x y Ix Iy Sxy.
  apply (build_order_general w top fuel l Hf Hwf D x y Ix Iy Sxy).
  intros R.
  destruct (listing_topological true node_cmp w top fuel l Hf D) as [HL _].
  assert (Cx : closure w top (enode x)) by (right; apply HL, in_map, Ix).
  apply (Hac _ Cx). eapply rp_more; [apply step_is_stepP, Sxy | exact R].
Qed.

Lemma topo_graph_closure w top fuel g :
  length w < fuel -> wf_world w -> topo_graph fuel w top = Ok g ->
  (exists es, node_table w top = Some es) -> closure_graph w top g.
Proof.
  intros Hf Hwf Hg [es Ttop]. destruct (topo_graph_inv _ _ _ _ Hg) as [out1 [st1 [out2 [st2 [E1 [E2 [-> _]]]]]]].
  eapply second_walk_graph; eauto.
Qed.

Lemma gpath_prepare_prepared g a b : gpath (prepare (prepare g)) a b <-> gpath (prepare g) a b.
Proof.
  assert (He : forall x y, gedge (prepare (prepare g)) x y <-> gedge (prepare g) x y).
  { intros x y. rewrite (prepare_gedge (prepare g)). split; [tauto|]. intros H. split; [exact H|].
    apply (prepare_gedge g x y), H. }
  split; intros P; induction P as [x y E | x y z E _ IH].
  - apply gp_one, He, E.
  - eapply gp_more; [apply He, E | exact IH].
  - apply gp_one, He, E.
  - eapply gp_more; [apply He, E | exact IH].
Qed.

Lemma no_table_no_cycle w top : node_table w top = None -> ~ proper_cycle w top.
Proof.
  intros Tn [p [q [Cp [_ [R1 _]]]]].
  assert (Hno : forall x, ~ reach_plus w top x).
  { intros x R. destruct (reach_first_table _ _ _ _ R) as [es T]. congruence. }
  destruct Cp as [-> | Rp]; [apply (Hno _ R1) | apply (Hno _ Rp)].
Qed.

Theorem world_cycle_reported w top fuel g :
  length w < fuel -> wf_world w -> topo_graph fuel w top = Ok g ->
  proper_cycle w top -> check_cycles g = Err Refused.
Proof.
  intros Hf Hwf Hg Hc.
  destruct (node_table w top) as [es|] eqn:Ttop; [|destruct (no_table_no_cycle w top Ttop Hc)].
  pose proof (topo_graph_closure w top fuel g Hf Hwf Hg (ex_intro _ es Ttop)) as CG.
  apply check_cycles_refused; [apply (cgr_nodup _ _ _ CG)|].
  intros Ha. apply (closure_graph_cyclic w top g CG Hc).
  destruct (topo_graph_inv _ _ _ _ Hg) as [_ [_ [_ [st2 [_ [_ [-> _]]]]]]].
  intros a P. apply (Ha a). apply gpath_prepare_prepared, P.
Qed.

Theorem world_without_cycle_passes w top fuel g :
  length w < fuel -> wf_world w -> topo_graph fuel w top = Ok g ->
  ~ proper_cycle w top -> exists NL, check_cycles g = Ok NL.
Proof.
  intros Hf Hwf Hg Hc.
  destruct (node_table w top) as [es|] eqn:Ttop.
  - pose proof (topo_graph_closure w top fuel _ Hf Hwf Hg (ex_intro _ es Ttop)) as CG.
    destruct (topo_graph_inv _ _ _ _ Hg) as [_ [_ [_ [st2 [_ [_ [-> ND0]]]]]]].
    apply check_cycles_passes; [apply prepare_keys_nodup, ND0|].
    intros a P. apply (proj1 (gpath_prepare_prepared _ a a)) in P. exact (closure_graph_acyclic w top _ CG Hc a P).
  - unfold topo_graph, topo_graph_with, walk_top in Hg. rewrite Ttop in Hg. inversion Hg.
    eexists. vm_compute. reflexivity.
Qed.

Definition two_versions_b (l : list node) : bool :=
  existsb (fun p => existsb (fun q => str_eqb (nname p) (nname q) && negb (node_eqb p q)) l) l.
