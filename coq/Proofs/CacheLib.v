(* Library lemmas for Model/Cache.v: key equalities, association lists, names; at the end the unfoldings of
   the loops over actions and over the commands of a process ([died]: the process stops at a death). *)
From Eupsv Require Import Base.Base Base.BaseLemmas Model.Db Model.Cache Proofs.DbLib Proofs.Db.
From Coq Require Import Lia.

Lemma and_eqb b c (P Q : Prop) : (b = true <-> P) -> (c = true <-> Q) -> (b && c = true <-> P /\ Q).
Proof. intros HP HQ. split; [intro H; apply andb_true_iff in H|intro H; apply andb_true_iff]; tauto. Qed.

Lemma pkey_eqb_eq (a b : pkey) : pkey_eqb a b = true <-> a = b.
Proof.
  destruct a as [[l s] f], b as [[l' s'] f']. cbn.
  etransitivity; [exact (and_eqb _ _ _ _ (and_eqb _ _ _ _ (str_eqb_eq l l') (str_eqb_eq s s')) (str_eqb_eq f f'))|].
  split; [intros [[-> ->] ->]; reflexivity|intro H; injection H as -> -> ->; auto].
Qed.

Lemma rkey_eqb_eq (a b : rkey) : rkey_eqb a b = true <-> a = b.
Proof.
  destruct a as [s n|s k|s k|u s n|u s k], b as [s' n'|s' k'|s' k'|u' s' n'|u' s' k']; cbn; try (split; discriminate).
  - etransitivity; [exact (and_eqb _ _ _ _ (str_eqb_eq s s') (str_eqb_eq n n'))|].
    split; [intros [-> ->]; reflexivity|intro H; injection H as -> ->; auto].
  - etransitivity; [exact (and_eqb _ _ _ _ (str_eqb_eq s s') (key_eqb_eq k k'))|].
    split; [intros [-> ->]; reflexivity|intro H; injection H as -> ->; auto].
  - etransitivity; [exact (and_eqb _ _ _ _ (str_eqb_eq s s') (key_eqb_eq k k'))|].
    split; [intros [-> ->]; reflexivity|intro H; injection H as -> ->; auto].
  - etransitivity; [exact (and_eqb _ _ _ _ (and_eqb _ _ _ _ (str_eqb_eq u u') (str_eqb_eq s s')) (str_eqb_eq n n'))|].
    split; [intros [[-> ->] ->]; reflexivity|intro H; injection H as -> -> ->; auto].
  - etransitivity; [exact (and_eqb _ _ _ _ (and_eqb _ _ _ _ (str_eqb_eq u u') (str_eqb_eq s s')) (key_eqb_eq k k'))|].
    split; [intros [[-> ->] ->]; reflexivity|intro H; injection H as -> -> ->; auto].
Qed.

Lemma ukey_eqb_eq (a b : ukey) : ukey_eqb a b = true <-> a = b.
Proof.
  destruct a as [[[u s] n] t], b as [[[u' s'] n'] t']. cbn.
  etransitivity; [exact (and_eqb _ _ _ _ (and_eqb _ _ _ _ (and_eqb _ _ _ _ (str_eqb_eq u u') (str_eqb_eq s s')) (str_eqb_eq n n'))
                           (str_eqb_eq t t'))|].
  split; [intros [[[-> ->] ->] ->]; reflexivity|intro H; injection H as -> -> -> ->; auto].
Qed.

Lemma alookup_not_None_In {V} k (m : amap V) : alookup k m <> None -> In k (akeys m).
Proof.
  induction m as [|[k' v] m IH]; cbn; [congruence|].
  destruct (str_eqb_spec k k') as [->|N]; [auto|]. intro H. right. exact (IH H).
Qed.

Lemma In_akeys_alookup {V} k (m : amap V) : In k (akeys m) -> alookup k m <> None.
Proof.
  induction m as [|[k' v] m IH]; cbn; [tauto|].
  destruct (str_eqb_spec k k') as [->|N]; [discriminate|]. intros [H|H]; [congruence|]. exact (IH H).
Qed.

Lemma alookup_remove_keys {V} ks : forall (m : amap V) k,
  alookup k (remove_keys ks m) = if mem_str k ks then None else alookup k m.
Proof.
  unfold remove_keys. induction ks as [|k0 ks IH]; intros m k; cbn [fold_left mem_str]; [reflexivity|].
  rewrite IH, alookup_aremove. destruct (str_eqb k k0); [|reflexivity]. destruct (mem_str k ks); reflexivity.
Qed.

Lemma alookup_flat_map_guard {A V} (h : A -> list (str * V)) (p : A -> bool) (g : str -> option V)
  (key : A -> str) (l : list A) k :
  (forall a, h a = if p a then match g (key a) with Some v => [(key a, v)] | None => [] end else []) ->
  alookup k (flat_map h l) = if existsb (fun a => p a && str_eqb k (key a)) l then g k else None.
Proof.
  intro Hh. induction l as [|a l IH]; cbn [flat_map existsb]; [reflexivity|].
  rewrite Hh. destruct (p a); cbn [andb app]; [|exact IH].
  destruct (str_eqb_spec k (key a)) as [->|N]; cbn [orb].
  - destruct (g (key a)) as [v|] eqn:G; cbn [app alookup].
    + rewrite str_eqb_refl. reflexivity.
    + rewrite IH. destruct (existsb _ l); reflexivity.
  - destruct (g (key a)) as [v|]; cbn [app alookup]; [|exact IH].
    destruct (str_eqb_spec k (key a)); [contradiction|exact IH].
Qed.

Lemma alookup_flat_map_fun {A V} (g : str -> option V) (key : A -> str) (l : list A) k :
  alookup k (flat_map (fun a => match g (key a) with Some v => [(key a, v)] | None => [] end) l) =
  if existsb (fun a => str_eqb k (key a)) l then g k else None.
Proof. exact (alookup_flat_map_guard _ (fun _ => true) g key l k (fun _ => eq_refl)). Qed.

Lemma existsb_In_str (k : str) {A} (key : A -> str) (l : list A) :
  existsb (fun a => str_eqb k (key a)) l = true <-> exists a, In a l /\ key a = k.
Proof.
  rewrite existsb_exists. split; intros [a [H1 H2]]; exists a; split; auto.
  - apply str_eqb_eq in H2. auto.
  - apply str_eqb_eq. auto.
Qed.

Lemma same_names_true a b : same_names a b = true <-> (forall x, In x a <-> In x b).
Proof.
  unfold same_names. rewrite andb_true_iff, !forallb_forall. split.
  - intros [H1 H2] x. split; intro H; apply mem_str_In; auto.
  - intro H. split; intros x Hx; apply mem_str_In; apply H; exact Hx.
Qed.

Lemma glookup_In_keys {K V} (eqb : K -> K -> bool) (eqb_eq : forall a b, eqb a b = true <-> a = b)
  (k : K) (v : V) m : In (k, v) m -> glookup eqb k m <> None.
Proof.
  intro H. destruct (In_glookup_some eqb eqb_eq k v m H) as [v' E]. congruence.
Qed.

Lemma In_gset_other {K V} (eqb : K -> K -> bool) (eqb_eq : forall a b, eqb a b = true <-> a = b)
  (k0 : K) (v0 : V) m k v : k <> k0 -> (In (k, v) (gset eqb k0 v0 m) <-> In (k, v) m).
Proof.
  intro N. induction m as [|[k1 v1] m IH]; cbn.
  - split; [intros [H|[]]; inversion H; congruence|tauto].
  - destruct (eqb k0 k1) eqn:E; cbn.
    + apply eqb_eq in E. subst k1. split; intros [H|H]; auto; inversion H; congruence.
    + rewrite IH. tauto.
Qed.

Lemma In_gremove_other {K V} (eqb : K -> K -> bool) (eqb_eq : forall a b, eqb a b = true <-> a = b)
  (k0 : K) (m : list (K * V)) k v : k <> k0 -> (In (k, v) (gremove eqb k0 m) <-> In (k, v) m).
Proof.
  intro N. induction m as [|[k1 v1] m IH]; cbn; [tauto|].
  destruct (eqb k0 k1) eqn:E; cbn.
  - apply eqb_eq in E. subst k1. rewrite IH. split; [auto|]. intros [H|H]; [inversion H; congruence|exact H].
  - rewrite IH. tauto.
Qed.

Lemma do_acts_cons tick w x g : do_acts tick w (x :: g) = do_acts tick (do_act tick w x) g.
Proof. reflexivity. Qed.

(* a process goes on after a command unless it died in it *)
Definition died (oc : outcome) : bool := match oc with OCrashed => true | _ => false end.

Lemma run_pops_cons tick vr loc u fl w m x rest crash :
  run_pops tick vr loc u fl w m (x :: rest) crash =
  let '(w1, m1, oc) := run_pop tick vr loc u fl w m x (match crash with Some (0, g, b) => Some (g, b) | _ => None end) in
  if died oc then (w1, m1, [oc]) else
  let '(w2, m2, ocs) := run_pops tick vr loc u fl w1 m1 rest
                          (match crash with Some (S i, g, b) => Some (i, g, b) | _ => None end) in
  (w2, m2, oc :: ocs).
Proof. cbn [run_pops]. destruct (run_pop tick vr loc u fl w m x _) as [[w1 m1] oc]. destruct oc; reflexivity. Qed.
