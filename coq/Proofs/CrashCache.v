(* C08 - the atomic-write helper: across a file-system boundary (Model/CrashXdev.v), ended by an
   exception, and the rebuild of the cache at start-up (Model/CrashCache.v). *)
From Eupsv Require Import Base.Base Base.BaseLemmas Model.Crash Model.CrashXdev Model.CrashCache Proofs.Crash.
From Coq Require Import Lia.

(* beside the target the helper is the write-temporary-then-rename protocol of the record writers *)
Lemma lower_same_fs e : lower_atomic_at SameFs e = lower_atomic e.
Proof.
  destruct e as [p c|p|p|p]; reflexivity.
Qed.

Lemma crash_state_same_fs f l k : crash_state (lower_atomic_at SameFs) f l k = crash_state lower_atomic f l k.
Proof. unfold crash_state, lower_all. now rewrite (flat_map_ext _ _ lower_same_fs). Qed.

(* a loader that could read the cache before the write can read the old file and the new, complete one *)
Lemma load_old_or_new (old now : option node) c : c <> [] -> load_cache old <> Err Crash ->
  now = old \/ now = Some (File c) -> load_cache now <> Err Crash.
Proof. intros Hn Ho [->| ->]; [exact Ho|]. destruct c; [congruence|discriminate]. Qed.

Lemma same_fs_old_or_new f p c k : clean f -> is_tmp p = false ->
  alookup p (crash_state (lower_atomic_at SameFs) f [EWrite p c] k) = alookup p f \/
  alookup p (crash_state (lower_atomic_at SameFs) f [EWrite p c] k) = Some (File c).
Proof.
  intros Hc Hp. rewrite crash_state_same_fs.
  destruct (crash_one_effect f (EWrite p c) k Hc Hp) as [H|H]; rewrite (H p Hp); [now left|right; apply alookup_aset_same].
Qed.

(* across the boundary: after the temporary is complete and the target has been opened for the copy the
   target is empty, whatever it held *)
Lemma other_fs_truncates f p c :
  alookup p (crash_state (lower_atomic_at OtherFs) f [EWrite p c] (length c + 3)) = Some (File []).
Proof.
  unfold crash_state, lower_all. cbn [flat_map]. rewrite app_nil_r. cbn [lower_atomic_at install].
  set (t := tmp_of p). set (post := map (SAppend p) c ++ [SClose p; SUnlink t]).
  set (pre := SOpenTrunc t :: map (SAppend t) c ++ [SClose t]).
  assert (E : SOpenTrunc t :: map (SAppend t) c ++ SClose t :: SOpenTrunc p :: post = pre ++ SOpenTrunc p :: post).
  { unfold pre. cbn [app]. f_equal. rewrite <- app_assoc. reflexivity. }
  rewrite E.
  assert (L : length c + 3 = length pre + 1).
  { unfold pre. cbn [length]. rewrite app_length, map_length. cbn [length]. lia. }
  rewrite L, firstn_app_2, run_all_app. cbn [run_all fold_left run_sys]. apply alookup_aset_same.
Qed.

Lemma filter_tmp_appends t c : is_tmp t = true ->
  filter (fun x : path * sys_kind => negb (is_tmp (fst x))) (map sys_target (map (SAppend t) c)) = [].
Proof. intro H. induction c as [|l c IH]; [reflexivity|]. cbn [map sys_target filter fst]. rewrite H. exact IH. Qed.

Lemma filter_target_appends p c : is_tmp p = false ->
  map snd (filter (fun x : path * sys_kind => negb (is_tmp (fst x))) (map sys_target (map (SAppend p) c)))
  = map (fun _ => KWrite) c.
Proof. intro H. induction c as [|l c IH]; [reflexivity|]. cbn [map sys_target filter fst]. rewrite H. cbn [negb map snd]. now rewrite IH. Qed.

Lemma target_kinds_other_fs p c : is_tmp p = false ->
  target_kinds OtherFs (EWrite p c) = KOpen :: map (fun _ => KWrite) c ++ [KClose].
Proof.
  intro Hp. unfold target_kinds. cbn [lower_atomic_at install]. pose proof (is_tmp_tmp_of p) as Ht.
  cbn [map sys_target filter fst]. rewrite Ht. cbn [negb]. rewrite map_app, filter_app, filter_tmp_appends by exact Ht.
  cbn [map sys_target filter fst app]. rewrite Ht, Hp. cbn [negb map snd]. f_equal.
  rewrite map_app, filter_app, map_app, filter_target_appends by exact Hp.
  cbn [map sys_target filter fst]. rewrite Hp, Ht. reflexivity.
Qed.

Lemma length_body p c : length (helper_body p c) = S (length c).
Proof. unfold helper_body. cbn [length]. now rewrite map_length. Qed.

Lemma interrupted_skip_untouched f p c k q : is_tmp q = false -> k < length c + 3 ->
  alookup q (interrupted SkipOnRaise f p c k) = alookup q f.
Proof.
  intros Hq Hk. unfold interrupted. cbv zeta. rewrite length_body.
  (* whichever call the exception replaces, only calls of body ++ [close] have run *)
  assert (W : forall l, incl l (helper_body p c ++ [SClose (tmp_of p)]) -> alookup q (run_all f l) = alookup q f).
  { intros l H. apply (run_all_on_tmp (tmp_of p)); [|now apply tmp_of_neq].
    intros s Hs. apply (write_calls_on_tmp _ c). exact (H s Hs). }
  destruct (Nat.ltb_spec k (S (length c))).
  - destruct k; [reflexivity|]. apply W. apply incl_app; [|now apply incl_appr, incl_refl].
    intros s Hs. apply in_or_app. left. now apply In_firstn in Hs.
  - destruct (Nat.eqb_spec k (S (length c))); [apply W; now apply incl_appl, incl_refl|].
    destruct (Nat.eqb_spec k (S (S (length c)))); [apply W; apply incl_refl|lia].
Qed.

Lemma interrupted_complete st f p c k : clean f -> length c + 3 <= k ->
  interrupted st f p c k = apply_effect f (EWrite p c).
Proof.
  intros Hc Hk. unfold interrupted. cbv zeta. rewrite length_body.
  destruct (Nat.ltb_spec k (S (length c))); [lia|].
  destruct (Nat.eqb_spec k (S (length c))); [lia|]. destruct (Nat.eqb_spec k (S (S (length c)))); [lia|].
  rewrite <- (atomic_write_complete f p c Hc). reflexivity.
Qed.

Lemma interrupted_skip_old_or_new f p c k : clean f -> is_tmp p = false ->
  alookup p (interrupted SkipOnRaise f p c k) = alookup p f \/
  alookup p (interrupted SkipOnRaise f p c k) = Some (File c).
Proof.
  intros Hc Hp. destruct (Nat.lt_ge_cases k (length c + 3)) as [H|H].
  - left. now apply interrupted_skip_untouched.
  - right. rewrite interrupted_complete by assumption. cbn [apply_effect]. apply alookup_aset_same.
Qed.

(* every file that passes for newer than the database holds exactly the rows of its flavor *)
Definition sound (db : list prow) (cs : caches) : Prop :=
  forall fl rows, alookup fl cs = Some (true, rows) -> rows = rows_of fl db.

Lemma sound_nil db : sound db [].
Proof. intros fl rows E. discriminate. Qed.

Lemma sound_cons db fl b rows cs : (b = true -> rows = rows_of fl db) -> sound db cs -> sound db ((fl, (b, rows)) :: cs).
Proof.
  intros H Hs g r E. cbn [alookup] in E. destruct (str_eqb g fl) eqn:N; [|exact (Hs g r E)].
  apply str_eqb_eq in N. inversion E. subst. auto.
Qed.

Lemma sound_aset db cs fl : sound db cs -> sound db (aset fl (true, rows_of fl db) cs).
Proof.
  intros H g rows E. destruct (str_eqb_spec g fl) as [->|N].
  - rewrite alookup_aset_same in E. now injection E as <-.
  - rewrite alookup_aset_other in E by exact N. now apply H.
Qed.

Lemma sound_crash_caches fls db cs k : sound db cs -> sound db (crash_caches false fls db cs k).
Proof.
  unfold crash_caches, persists, final_saves. rewrite firstn_map. generalize (firstn k (saved_flavors fls db)).
  intro l. revert cs. induction l as [|fl l IH]; intros cs H; [exact H|].
  cbn [map fold_left fst snd]. apply IH. now apply sound_aset.
Qed.

Lemma sound_reader fls db cs fl : sound db cs -> reader_answer fls db cs fl = rows_of fl db.
Proof.
  intro H. unfold reader_answer.
  destruct (_ && _); [|reflexivity].
  unfold cache_rows. destruct (alookup fl cs) as [[[|] rows]|] eqn:E; try reflexivity. now apply H.
Qed.
