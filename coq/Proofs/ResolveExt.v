(* C03, extension - lemmas about Model/ResolveExt.v: user tags as chain entries (flatten), the extended walk and the
   extended designation rule, the world of stacks only, inert prefixes, selectVRO with --vro. *)
From Coq Require Import Lia.
From Eupsv Require Import Base.Base Base.BaseLemmas Model.Resolve Model.ResolveSpec Model.ResolveExt
     Proofs.ResolveLib Proofs.Resolve.

Lemma chain_lookup_app l1 l2 n f t :
  chain_lookup (l1 ++ l2) n f t =
  match chain_lookup l1 n f t with Some v => Some v | None => chain_lookup l2 n f t end.
Proof.
  induction l1 as [|[[[n' f'] t'] v'] r IH]; simpl; [reflexivity|].
  destruct (str_eqb n n' && str_eqb f f' && str_eqb t t'); [reflexivity|exact IH].
Qed.

Lemma chain_lookup_has_file l n f t v : chain_lookup l n f t = Some v -> has_chain_file l n t = true.
Proof.
  unfold has_chain_file. induction l as [|[[[n' f'] t'] v'] r IH]; simpl; [discriminate|].
  destruct (str_eqb n n'), (str_eqb f f'), (str_eqb t t'); simpl; auto.
Qed.

Lemma chain_lookup_no_file l n f t : has_chain_file l n t = false -> chain_lookup l n f t = None.
Proof.
  intro H. destruct (chain_lookup l n f t) eqn:E; [|reflexivity].
  apply chain_lookup_has_file in E. rewrite E in H. discriminate.
Qed.

Lemma chain_lookup_filter_reach c own l n f t :
  chain_lookup (filter (reachable_user c own) l) n f t =
  if is_user_tag c t && negb (has_chain_file own n t) then chain_lookup l n f t else None.
Proof.
  induction l as [|[[[n' f'] t'] v'] r IH]; simpl.
  - destruct (is_user_tag c t && negb (has_chain_file own n t)); reflexivity.
  - destruct (str_eqb n n' && str_eqb f f' && str_eqb t t') eqn:M.
    + apply andb_true_iff in M. destruct M as [M Et]. apply andb_true_iff in M. destruct M as [En Ef].
      apply str_eqb_eq in En, Ef, Et. subst n' f' t'.
      destruct (is_user_tag c t && negb (has_chain_file own n t)) eqn:R; simpl.
      * now rewrite !str_eqb_refl.
      * rewrite IH. reflexivity.
    + destruct (is_user_tag c t' && negb (has_chain_file own n' t')); simpl; [rewrite M|]; exact IH.
Qed.

Lemma flat_chain_version c sx n f t :
  chain_version (flat_stack c sx) n f t = chain_version_x c sx n f t.
Proof.
  unfold chain_version, chain_version_x, flat_stack. cbn [st_chain]. rewrite chain_lookup_app, chain_lookup_filter_reach.
  destruct (has_chain_file (st_chain (sx_base sx)) n t) eqn:H.
  - rewrite andb_false_r. unfold chain_version. destruct (chain_lookup (st_chain (sx_base sx)) n f t); reflexivity.
  - rewrite (chain_lookup_no_file _ _ _ _ H), andb_true_r. reflexivity.
Qed.

Lemma find_chain_tagged_flat c d n t f :
  find_chain_tagged (flatten c d) n t f = find_chain_tagged_x c d n t f.
Proof.
  induction d as [|sx r IH]; simpl; [reflexivity|].
  rewrite flat_chain_version. destruct (chain_version_x c sx n f t) as [v|]; [|exact IH].
  change (declared (flat_stack c sx) n v f) with (declared (sx_base sx) n v f).
  destruct (declared (sx_base sx) n v f); [reflexivity|exact IH].
Qed.

Lemma find_version_flat c d n v f : find_version (flatten c d) n v f = find_version (base_db d) n v f.
Proof.
  induction d as [|sx r IH]; simpl; [reflexivity|].
  change (declared (flat_stack c sx) n v f) with (declared (sx_base sx) n v f).
  destruct (declared (sx_base sx) n v f); [reflexivity|exact IH].
Qed.

Lemma find_latest_flat vcmp c d n f : find_latest vcmp (flatten c d) n f = find_latest vcmp (base_db d) n f.
Proof.
  unfold find_latest. generalize (@None found). induction d as [|sx r IH]; intro out; simpl; [reflexivity|].
  change (stack_latest vcmp (flat_stack c sx) n f) with (stack_latest vcmp (sx_base sx) n f).
  destruct (stack_latest vcmp (sx_base sx) n f) as [l|]; [|apply IH].
  destruct out as [o|]; [|apply IH]. destruct (vcmp (fd_version l) (fd_version o)); apply IH.
Qed.

Lemma add_new_flat c sx n f vs : forall out,
  add_new (flat_stack c sx) n f vs out = add_new (sx_base sx) n f vs out.
Proof.
  induction vs as [|v r IH]; intro out; simpl; [reflexivity|].
  destruct (existsb (fun p => str_eqb (fd_version p) v) out); apply IH.
Qed.

Lemma find_by_expr_flat vmatch c d n x f :
  find_by_expr vmatch (flatten c d) n x f = find_by_expr vmatch (base_db d) n x f.
Proof.
  unfold find_by_expr. generalize (@nil found). induction d as [|sx r IH]; intro out; simpl; [reflexivity|].
  rewrite add_new_flat. apply IH.
Qed.

Lemma names_of_flat c d n : names_of (flatten c d) n = names_of (base_db d) n.
Proof. induction d as [|sx r IH]; simpl; [reflexivity|]. now rewrite IH. Qed.

Lemma candidates_flat c d n f : candidates (flatten c d) n f = candidates (base_db d) n f.
Proof. induction d as [|sx r IH]; simpl; [reflexivity|]. now rewrite IH. Qed.

Lemma find_tagged_flat vcmp c d n t f : find_tagged vcmp (flatten c d) n t f = find_tagged_x vcmp c d n t f.
Proof.
  unfold find_tagged, find_tagged_x. destruct (str_eqb t (lit "latest")); [apply find_latest_flat|].
  destruct (str_eqb t (lit "setup")); [reflexivity|apply find_chain_tagged_flat].
Qed.

Lemma find_chain_tagged_x_spec c d n t f : find_chain_tagged_x c d n t f = tag_designates_x c d n t f.
Proof.
  unfold tag_designates_x. induction d as [|sx r IH]; simpl; [reflexivity|].
  destruct (chain_version_x c sx n f t) as [v|]; [|exact IH].
  destruct (declared (sx_base sx) n v f); [reflexivity|exact IH].
Qed.

Lemma tag_designates_flat c d n t f : tag_designates (flatten c d) n t f = tag_designates_x c d n t f.
Proof. now rewrite <- find_chain_tagged_spec, find_chain_tagged_flat, find_chain_tagged_x_spec. Qed.

Lemma wf_flat_stack c sx :
  wf_stack (sx_base sx) = true -> existsb (chain_tag_is (lit "keep")) (sx_user sx) = false ->
  wf_stack (flat_stack c sx) = true.
Proof.
  unfold wf_stack. intros H U. apply andb_true_iff in H. destruct H as [Hd Hk].
  cbn [flat_stack st_decl st_chain]. rewrite Hd. cbn [andb]. rewrite existsb_app.
  apply negb_true_iff in Hk. rewrite Hk. cbn [orb]. apply negb_true_iff. now apply existsb_tag_filter.
Qed.

Lemma wf_flatten c d : wf_dbx d = true -> wf_db (flatten c d) = true.
Proof.
  unfold wf_dbx, wf_db. intro H. apply andb_true_iff in H. destruct H as [H1 H2].
  induction d as [|sx r IH]; [reflexivity|].
  cbn [base_db flatten map forallb] in *.
  apply andb_true_iff in H1. destruct H1 as [Hs H1]. apply andb_true_iff in H2. destruct H2 as [Hu H2].
  apply negb_true_iff in Hu. rewrite (wf_flat_stack c sx Hs Hu). cbn [andb]. now apply IH.
Qed.

Lemma wf_dbx_base d : wf_dbx d = true -> wf_db (base_db d) = true.
Proof. unfold wf_dbx. intro H. apply andb_true_iff in H. tauto. Qed.

Lemma wf_no_keep_x c d n f : wf_dbx d = true -> find_chain_tagged_x c d n (lit "keep") f = None.
Proof. intro WF. rewrite <- find_chain_tagged_flat. apply wf_no_keep. now apply wf_flatten. Qed.

Definition step_outcome_x (s : res step) : res outcome := res_map step_outcome s.

Section WalkX.
  Variable vcmp : str -> str -> comparison.
  Variable vmatch : str -> str -> bool.
  Variable c : config.
  Variable w : world.
  Variable rq : request.
  Variable f : str.
  Variable depth : nat.
  Hypothesis WF : wf_dbx (w_db w) = true.
  Hypothesis HT : total_order_on vcmp (names_of (base_db (w_db w)) (rq_name rq)).
  Hypothesis NOKEEP : is_file (w_files w) (lit "keep") = false.
  (* the text of a relational request does not start with LOCAL: *)
  Hypothesis NOLOCALEXPR : forall v, truthy (rq_version rq) = Some v -> is_expr v = true -> is_local v = false.

  Local Notation n := (rq_name rq).
  Local Notation vr := (classify rq).
  Local Notation db := (base_db (w_db w)).

  Lemma find_tagged_x_spec t :
    find_tagged_x vcmp c (w_db w) n t f =
    if str_eqb t (lit "latest") then highest vcmp (candidates db n f)
    else if str_eqb t (lit "setup") then None else tag_designates_x c (w_db w) n t f.
  Proof.
    unfold find_tagged_x. destruct (str_eqb t (lit "latest")); [now apply find_latest_spec|].
    destruct (str_eqb t (lit "setup")); [reflexivity|apply find_chain_tagged_x_spec].
  Qed.

  Lemma file_step_clause e lines :
    step_outcome_x (file_step w n f e lines) = file_clause w n f lines.
  Proof.
    unfold file_step, file_clause. destruct (tf_lookup lines n) as [[v|]|k]; try reflexivity.
    destruct (is_expr v); [reflexivity|]. rewrite find_version_spec.
    destruct (version_designates db n v f); [reflexivity|]. destruct (is_local v); reflexivity.
  Qed.

  Lemma word_step_clause e word known :
    step_outcome_x (word_step vcmp c w n f e word known) = word_clause vcmp c w n f word known.
  Proof.
    unfold word_step, word_clause. destruct (alookup word (w_files w)) as [lines|]; [apply file_step_clause|].
    destruct known; [|reflexivity]. unfold step_outcome_x, res_map, tag_step_x. rewrite find_tagged_x_spec.
    destruct (str_eqb word (lit "latest")).
    - destruct (highest vcmp (candidates db n f)); reflexivity.
    - destruct (str_eqb word (lit "setup")); [reflexivity|].
      destruct (tag_designates_x c (w_db w) n word f); reflexivity.
  Qed.

  Lemma explicit_step_x_outcome v later :
    step_outcome (explicit_step_x w n v f depth later) = or_fail (named_designates_x w n v f) later.
  Proof.
    unfold explicit_step_x, named_designates_x. rewrite find_version_spec.
    destruct (version_designates db n v f); simpl; [reflexivity|].
    destruct (is_local v && mem_str (local_dir v) (w_dirs w)); simpl; [reflexivity|].
    destruct (existsb is_version_like later); reflexivity.
  Qed.

  Lemma explicit_step_x_expr v later :
    is_expr v = true -> is_local v = false ->
    step_outcome (explicit_step_x w n v f depth later) = or_fail None later.
  Proof.
    intros H L. unfold explicit_step_x. rewrite (wf_no_expr_version db n v f (wf_dbx_base _ WF) H), L. simpl.
    destruct (existsb is_version_like later); reflexivity.
  Qed.

  Lemma version_step_x_clause e later :
    is_version_like e = true ->
    Ok (step_outcome (version_step_x vcmp vmatch w rq f depth e later)) = clause_x vcmp vmatch c w n vr f e later.
  Proof.
    intro He. unfold version_step_x, classify. pose proof NOLOCALEXPR as NL.
    destruct (rq_version rq) as [[|ch v]|]; simpl.
    - destruct e; try discriminate; reflexivity.
    - set (V := ch :: v) in *. destruct (is_expr V) eqn:EX.
      + assert (LV : is_local V = false) by (apply NL; [reflexivity|exact EX]).
        destruct e; try discriminate; simpl.
        * destruct (mem_entry EVersionExpr later); reflexivity.
        * destruct (mem_entry EVersionExpr later); reflexivity.
        * rewrite EX. rewrite expr_spec by exact HT.
          destruct (expr_designates vcmp vmatch db n V f); [reflexivity|].
          f_equal. now apply explicit_step_x_expr.
      + destruct e; try discriminate; simpl.
        * f_equal. apply explicit_step_x_outcome.
        * f_equal. apply explicit_step_x_outcome.
        * destruct (rq_expr rq) as [[|c' x']|]; simpl; try (f_equal; apply explicit_step_x_outcome).
          set (X := c' :: x') in *. destruct (is_expr X) eqn:EX2.
          -- rewrite expr_spec by exact HT.
             destruct (expr_designates vcmp vmatch db n X f); [reflexivity|].
             f_equal. apply explicit_step_x_outcome.
          -- f_equal. apply explicit_step_x_outcome.
    - destruct e; try discriminate; reflexivity.
  Qed.

  Lemma step_clause_x e later :
    step_outcome_x (vro_step_x vcmp vmatch c w None rq f depth e later) = clause_x vcmp vmatch c w n vr f e later.
  Proof.
    destruct e; try (unfold vro_step_x, step_outcome_x, res_map; apply version_step_x_clause; reflexivity);
      try reflexivity.
    - (* keep *)
      unfold vro_step_x. cbn [clause_x]. destruct (0 <? depth); [reflexivity|].
      rewrite word_step_clause. unfold word_clause.
      unfold is_file, amem in NOKEEP. destruct (alookup (lit "keep") (w_files w)); [discriminate|].
      destruct (recognized c (lit "keep")); [|reflexivity].
      change (str_eqb (lit "keep") (lit "latest")) with false.
      change (str_eqb (lit "keep") (lit "setup")) with false. cbv iota.
      now rewrite <- find_chain_tagged_x_spec, (wf_no_keep_x c (w_db w) n f WF).
    - (* type:s *) unfold vro_step_x. cbn [clause_x]. apply word_step_clause.
    - (* tag or file *) unfold vro_step_x. cbn [clause_x]. apply word_step_clause.
  Qed.

  Lemma loop_designates_x vro :
    res_map (option_map (fun x => fst (fst x))) (vro_loop_x vcmp vmatch c w None rq f depth vro) =
    designates_in_x vcmp vmatch c w n vr f vro.
  Proof.
    induction vro as [|e later IH]; simpl; [reflexivity|].
    pose proof (step_clause_x e later) as H.
    destruct (vro_step_x vcmp vmatch c w None rq f depth e later) as [[|[[p r]|]]|k]; simpl in H; rewrite <- H.
    - exact IH.
    - reflexivity.
    - reflexivity.
    - reflexivity.
  Qed.

  Lemma walk_x_designates vro :
    res_map (option_map fst) (find_from_vro_x vcmp vmatch c w None f depth vro rq) =
    designates_in_x vcmp vmatch c w n vr f vro.
  Proof.
    rewrite <- loop_designates_x. unfold find_from_vro_x.
    destruct (vro_loop_x vcmp vmatch c w None rq f depth vro) as [[[[p r] e0]|]|k]; reflexivity.
  Qed.

End WalkX.

Section Plain.
  Variable vcmp : str -> str -> comparison.
  Variable vmatch : str -> str -> bool.
  Variable c : config.
  Variable d : dbx.

  Lemma explicit_step_plain n v f depth later :
    explicit_step_x (plain_world d) n v f depth later = explicit_step (flatten c d) n v f depth later.
  Proof.
    unfold explicit_step_x, explicit_step. cbn [plain_world w_db w_dirs mem_str].
    rewrite find_version_flat, andb_false_r. reflexivity.
  Qed.

  Lemma version_step_plain rq f depth e later :
    version_step_x vcmp vmatch (plain_world d) rq f depth e later =
    version_step vcmp vmatch (flatten c d) rq f depth e later.
  Proof.
    unfold version_step_x, version_step. cbv zeta.
    destruct (truthy (rq_version rq)) as [v|]; [|reflexivity].
    destruct (is_expr v && negb (entry_eqb e EVersionExpr)); [reflexivity|].
    destruct (if entry_eqb e EVersionExpr then if is_expr v then Some v else truthy (rq_expr rq) else None) as [x|];
      [|apply explicit_step_plain].
    destruct (is_expr x); [|apply explicit_step_plain].
    cbn [plain_world w_db]. rewrite find_by_expr_flat.
    destruct (select_latest vcmp (find_by_expr vmatch (base_db d) (rq_name rq) x f)); [reflexivity|].
    apply explicit_step_plain.
  Qed.

  Lemma word_step_plain n f e word known :
    word_step vcmp c (plain_world d) n f e word known =
    Ok (if known then tag_step vcmp (flatten c d) n f e word else Continue).
  Proof.
    unfold word_step. cbn [plain_world w_files alookup w_db]. destruct known; [|reflexivity].
    unfold tag_step_x, tag_step. now rewrite find_tagged_flat.
  Qed.

  Lemma vro_step_plain prev rq f depth e later :
    vro_step_x vcmp vmatch c (plain_world d) prev rq f depth e later =
    Ok (vro_step vcmp vmatch c (flatten c d) prev rq f depth e later).
  Proof.
    destruct e; unfold vro_step_x, vro_step; try reflexivity; try (now rewrite version_step_plain).
    - destruct (0 <? depth); [reflexivity|]. rewrite word_step_plain. reflexivity.
    - now rewrite word_step_plain.
  Qed.

  Lemma vro_loop_plain prev rq f depth vro :
    vro_loop_x vcmp vmatch c (plain_world d) prev rq f depth vro =
    Ok (vro_loop vcmp vmatch c (flatten c d) prev rq f depth vro).
  Proof.
    induction vro as [|e later IH]; simpl; [reflexivity|]. rewrite vro_step_plain.
    destruct (vro_step vcmp vmatch c (flatten c d) prev rq f depth e later) as [|[[p r]|]]; [exact IH|reflexivity|reflexivity].
  Qed.

  Lemma find_from_vro_plain prev f depth vro rq :
    find_from_vro_x vcmp vmatch c (plain_world d) prev f depth vro rq =
    Ok (find_from_vro vcmp vmatch c (flatten c d) prev f depth vro rq).
  Proof.
    unfold find_from_vro_x, find_from_vro. rewrite vro_loop_plain.
    destruct (vro_loop vcmp vmatch c (flatten c d) prev rq f depth vro) as [[[p r] e0]|]; [|reflexivity].
    destruct prev as [[op [[otag ox]|]]|]; try reflexivity.
    destruct (mem_entry otag vro && gt_index (index_of e0 vro) (index_of otag vro)); reflexivity.
  Qed.

  Lemma accept_loop_plain keep prev f depth rq : forall fuel vro,
    accept_loop_g (fun l => find_from_vro_x vcmp vmatch c (plain_world d) prev f depth l rq) fuel keep prev depth vro rq =
    accept_loop vcmp vmatch fuel c (flatten c d) keep prev f depth vro rq.
  Proof.
    induction fuel as [|k IH]; intro vro; [reflexivity|].
    destruct vro as [|e l]; [reflexivity|]. cbn [accept_loop_g accept_loop]. rewrite find_from_vro_plain.
    destruct (find_from_vro vcmp vmatch c (flatten c d) prev f depth (e :: l) rq) as [[p r]|].
    - destruct (truthy (rq_version rq)) as [v|]; [|reflexivity].
      destruct ((depth =? 0) && negb (is_expr v) && negb (str_eqb (fd_version p) v)); [|reflexivity].
      destruct r as [tag x]. destruct (index_of tag (e :: l)); [apply IH|reflexivity].
    - destruct prev as [[op r0]|]; [|reflexivity].
      destruct (keep || opt_str_eqb (fd_version op) (rq_version rq)); [|reflexivity].
      destruct (truthy (rq_version rq)) as [v|]; [|reflexivity].
      destruct ((depth =? 0) && negb (is_expr v) && negb (str_eqb (fd_version op) v)); reflexivity.
  Qed.

  Lemma resolve_plain keep prev flavors depth vro rq :
    resolve_request_x vcmp vmatch c (plain_world d) keep prev flavors depth vro rq =
    resolve_request vcmp vmatch c (flatten c d) keep prev flavors depth vro rq.
  Proof.
    unfold resolve_request_x, resolve_request. induction flavors as [|f fs IH]; [reflexivity|].
    cbn [flavor_loop_x flavor_loop]. rewrite accept_loop_plain.
    destruct (accept_loop vcmp vmatch (S (length vro)) c (flatten c d) keep prev f depth vro rq) as [[x|]|k];
      [reflexivity|exact IH|reflexivity].
  Qed.

End Plain.
(* entries that are passed over whatever the world holds: not a word that could name a file *)
Definition is_inert_x (e : entry) : bool :=
  match e with ECommandLine | EPath | EWarn _ => true | _ => false end.

Lemma inert_loop_x vcmp vmatch c w rq f depth pre l :
  forallb is_inert_x pre = true ->
  vro_loop_x vcmp vmatch c w None rq f depth (pre ++ l) = vro_loop_x vcmp vmatch c w None rq f depth l.
Proof.
  induction pre as [|e pre IH]; simpl; [reflexivity|]. intro H. apply andb_true_iff in H. destruct H as [He H].
  destruct e; try discriminate; simpl; now apply IH.
Qed.
(* the words of --vro, every one of them a registered word as a whole (so no type:x, no warn:n, no file), without
   repetition: the VRO is those words, keep in front of them when asked for *)
Lemma somes_map_some {A} (l : list A) : somes (map Some l) = l.
Proof. induction l; simpl; congruence. Qed.

Lemma kindly_set_x_all_ok c files l old :
  l <> [] -> forallb (fun e => match kindly_word c files e with Some e' => entry_eqb e' e | None => false end) l = true ->
  kindly_set_x c files l old = l.
Proof.
  intros NE H. unfold kindly_set_x.
  assert (E : map (kindly_word c files) l = map Some l).
  { induction l as [|e r IH]; [reflexivity|]. simpl in H. apply andb_true_iff in H. destruct H as [H1 H2].
    simpl. destruct (kindly_word c files e) as [e'|]; [|discriminate]. apply entry_eqb_eq in H1. subst e'.
    f_equal. destruct r; [reflexivity|]. apply IH; [discriminate|exact H2]. }
  rewrite E.
  assert (A : forallb (fun k : option entry => match k with Some _ => true | None => false end) (map Some l) = true)
    by (clear; induction l; simpl; auto).
  rewrite A, somes_map_some. destruct l; [contradiction|reflexivity].
Qed.

(* makeVroExact, repaired: what was named with -t is never moved *)
Lemma exact_split_x_keeps c cmd : forall l kept moved b kept' moved' b',
  exact_split_x c cmd l kept moved b = (kept', moved', b') ->
  (forall v, In v moved -> mem_str (entry_str v) cmd = false /\ mem_str (entry_base v) cmd = false) ->
  (forall v, In v moved' -> mem_str (entry_str v) cmd = false /\ mem_str (entry_base v) cmd = false) /\
  kept' = kept ++ filter (fun v => (mem_str (entry_base v) cmd || mem_str (entry_str v) cmd) ||
                                   negb (negb (recognized c (entry_base v)) || global_or_user c (entry_base v))) l.
Proof.
  induction l as [|v r IH]; intros kept moved b kept' moved' b' H HM; simpl in H.
  - injection H as <- <- <-. split; [exact HM|]. simpl. now rewrite app_nil_r.
  - simpl. destruct (mem_str (entry_base v) cmd || mem_str (entry_str v) cmd) eqn:C; simpl in H |- *.
    + apply IH in H; [|exact HM]. destruct H as [H1 H2]. split; [exact H1|]. rewrite H2, <- app_assoc. reflexivity.
    + destruct (negb (recognized c (entry_base v)) || global_or_user c (entry_base v)) eqn:M; simpl in H |- *.
      * apply IH in H.
        -- exact H.
        -- intros v0 Hin. apply orb_false_iff in C. destruct C as [C1 C2].
           destruct (mem_entry v moved) eqn:ME; [now apply HM|].
           apply in_app_or in Hin. destruct Hin as [Hin|[<-|[]]]; [now apply HM|]. split; assumption.
      * apply IH in H; [|exact HM]. destruct H as [H1 H2]. split; [exact H1|]. rewrite H2, <- app_assoc. reflexivity.
Qed.

Lemma make_exact_x_keeps c cmd l v :
  In v (make_exact_x c cmd l) -> (mem_str (entry_str v) cmd = true \/ mem_str (entry_base v) cmd = true) ->
  forall kept moved b, exact_split_x c cmd l [] [] false = (kept, moved, b) -> In v kept \/ v = EWarn 1.
Proof.
  intros Hin Hc kept moved b E. pose proof (exact_split_x_keeps c cmd l [] [] false kept moved b E) as K.
  destruct K as [K1 _]; [intros ? []|].
  unfold make_exact_x in Hin. rewrite E in Hin.
  assert (NM : ~ In v moved).
  { intro Hm. destruct (K1 v Hm) as [A B]. destruct Hc as [Hc|Hc]; congruence. }
  destruct moved as [|m ms]; [now left|].
  apply in_app_or in Hin. destruct Hin as [Hin|Hin]; [|contradiction].
  destruct (b && negb (existsb warn_lead01 kept)); [|now left].
  apply in_app_or in Hin. destruct Hin as [Hin|[<-|[]]]; [now left|now right].
Qed.
