(* C09 - the file-name layer (Model/LockName.v): the name of a lock file parses back to its parts, foreign
   entries are invisible to listLockers, and the protocol over names refines the protocol over owners. *)
From Coq Require Import DecimalString DecimalNat DecimalFacts Decimal Lia.
From Eupsv Require Import Base.Base Base.BaseLemmas Model.Lock Model.LockName Proofs.LockLib Proofs.Lock.

Lemma list_ascii_inj a b : String.list_ascii_of_string a = String.list_ascii_of_string b -> a = b.
Proof.
  intro H. rewrite <- (String.string_of_list_ascii_of_string a), <- (String.string_of_list_ascii_of_string b).
  now rewrite H.
Qed.

Lemma string_of_uint_inj a b : NilEmpty.string_of_uint a = NilEmpty.string_of_uint b -> a = b.
Proof.
  intro H. pose proof (NilEmpty.usu a) as A. rewrite H, NilEmpty.usu in A. now injection A.
Qed.

Lemma digits_inj p q : digits p = digits q -> p = q.
Proof. intro H. apply Unsigned.to_uint_inj, string_of_uint_inj, list_ascii_inj, H. Qed.

Lemma uint_chars_digits d : forallb is_digit (String.list_ascii_of_string (NilEmpty.string_of_uint d)) = true.
Proof. induction d; cbn [NilEmpty.string_of_uint String.list_ascii_of_string forallb]; try rewrite IHd; reflexivity. Qed.

Lemma little_nonnil n acc : acc <> Nil -> Nat.to_little_uint n acc <> Nil.
Proof.
  revert acc. induction n as [|n IH]; intros acc H; cbn [Nat.to_little_uint]; [exact H|].
  apply IH. destruct acc; cbn; discriminate.
Qed.

Lemma to_uint_nonnil n : Nat.to_uint n <> Nil.
Proof.
  unfold Nat.to_uint. intro H. apply rev_nil_inv in H. revert H. apply little_nonnil. discriminate.
Qed.

Lemma digits_all_digits n : all_digits (digits n) = true.
Proof.
  unfold all_digits, digits. rewrite uint_chars_digits, Bool.andb_true_r.
  destruct (Nat.to_uint n) eqn:E; try reflexivity. now apply to_uint_nonnil in E.
Qed.

Lemma all_digits_no c x : is_digit c = false -> all_digits x = true -> mem_ascii c x = false.
Proof.
  intros Hc H. unfold all_digits in H. apply Bool.andb_true_iff in H. destruct H as [_ H].
  induction x as [|y r IH]; [reflexivity|]. cbn [forallb] in H. apply Bool.andb_true_iff in H. destruct H as [Hy Hr].
  cbn [mem_ascii]. destruct (ascii_eqb c y) eqn:E; [|now apply IH].
  apply ascii_eqb_eq in E. subst y. congruence.
Qed.

Lemma digits_no_dot n : mem_ascii dot (digits n) = false.
Proof. apply all_digits_no; [reflexivity | apply digits_all_digits]. Qed.

Lemma digits_not_minus1 n : str_eqb (digits n) (lit "-1") = false.
Proof.
  apply str_eqb_neq. intro H. pose proof (all_digits_no dash (digits n) eq_refl (digits_all_digits n)) as M.
  rewrite H in M. discriminate M.
Qed.

Lemma inj_eqb (f : nat -> str) : (forall a b, f a = f b -> a = b) -> forall p q, str_eqb (f q) (f p) = Nat.eqb q p.
Proof.
  intros I p q. destruct (Nat.eqb q p) eqn:E.
  - apply Nat.eqb_eq in E. subst. apply str_eqb_refl.
  - apply str_eqb_neq. intro H. apply I in H. apply Nat.eqb_neq in E. contradiction.
Qed.

Lemma digits_eqb p q : str_eqb (digits q) (digits p) = Nat.eqb q p.
Proof. apply inj_eqb, digits_inj. Qed.

Lemma strip_app p x : strip p (p ++ x) = Some x.
Proof. induction p as [|c p IH]; [reflexivity|]. cbn [strip app]. now rewrite ascii_eqb_refl. Qed.

Lemma split_last_none d b : mem_ascii d b = false -> split_last d b = None.
Proof.
  induction b as [|c r IH]; [reflexivity|]. cbn [mem_ascii split_last]. rewrite (ascii_eqb_sym d c).
  destruct (ascii_eqb c d); [discriminate|]. intro H. now rewrite (IH H).
Qed.

Lemma split_last_app d a b : mem_ascii d b = false -> split_last d (a ++ d :: b) = Some (a, b).
Proof.
  intro H. induction a as [|c a IH].
  - cbn [app split_last]. now rewrite (split_last_none d b H), ascii_eqb_refl.
  - cbn [app split_last]. now rewrite IH.
Qed.

Lemma parse_lock_name_roundtrip k u p :
  user_ok u = true -> parse_lock_name (lock_name k u p) = Some (k, u, digits p).
Proof.
  intro U. unfold parse_lock_name, lock_name.
  assert (S : (match strip (kind_name Ex ++ [dash]) (kind_name k ++ dash :: u ++ dot :: digits p) with
               | Some r => Some (Ex, r)
               | None => match strip (kind_name Sh ++ [dash]) (kind_name k ++ dash :: u ++ dot :: digits p) with
                         | Some r => Some (Sh, r) | None => None end
               end) = Some (k, u ++ dot :: digits p)).
  { destruct k.
    - change (kind_name Sh ++ dash :: u ++ dot :: digits p) with ((kind_name Sh ++ [dash]) ++ (u ++ dot :: digits p)).
      rewrite strip_app. reflexivity.
    - change (kind_name Ex ++ dash :: u ++ dot :: digits p) with ((kind_name Ex ++ [dash]) ++ (u ++ dot :: digits p)).
      rewrite strip_app. reflexivity. }
  rewrite S. rewrite (split_last_app dot u (digits p) (digits_no_dot p)). now rewrite U, digits_all_digits.
Qed.

Lemma glob_lock_name pt k u p :
  glob_match pt (lock_name k u p) = match pt with PAll => true | PExcl => match k with Ex => true | Sh => false end end.
Proof. destruct pt, k; reflexivity. Qed.

Lemma foreign_invisible pt ig a j b :
  parse_lock_name j = None \/ glob_match pt j = false ->
  list_lockers pt ig (a ++ j :: b) = list_lockers pt ig (a ++ b).
Proof.
  intro H. unfold list_lockers. rewrite !flat_map_app. f_equal. cbn [flat_map].
  destruct (glob_match pt j); [|reflexivity]. destruct H as [H|H]; [now rewrite H | discriminate].
Qed.

(* the queries of the protocol over names, on a directory that holds the lock files of fs *)
Section Queries.
Variable cfg : config.
Variable usr : pid -> str.
Hypothesis UOK : users_ok usr.

Notation nm := (myname cfg usr).

Lemma parse_myname q : parse_lock_name (nm q) = Some (kind_of cfg q, usr q, digits q).
Proof. apply parse_lock_name_roundtrip, UOK. Qed.

Lemma myname_inj p q : nm p = nm q -> p = q.
Proof.
  intro H. pose proof (parse_myname p) as A. rewrite H, parse_myname in A. injection A as _ _ A.
  now apply digits_inj in A.
Qed.

Lemma myname_eqb p q : str_eqb (nm q) (nm p) = Nat.eqb q p.
Proof. apply inj_eqb, myname_inj. Qed.

Definition sel (pt : pat) (q : pid) : bool := match pt with PAll => true | PExcl => isEx cfg q end.

Lemma list_lockers_names pt ig fs :
  list_lockers pt ig (map nm fs) =
  map digits (filter (fun q => sel pt q && negb (mem_str (digits q) ig)) fs).
Proof.
  unfold list_lockers. induction fs as [|q r IH]; [reflexivity|].
  cbn [map flat_map filter]. rewrite IH. unfold myname at 1. rewrite glob_lock_name.
  fold (nm q). rewrite parse_myname.
  assert (E : match pt with PAll => true | PExcl => match kind_of cfg q with Ex => true | Sh => false end end = sel pt q)
    by (destruct pt; reflexivity).
  rewrite E. destruct (sel pt q); [|reflexivity]. cbn [andb].
  destruct (mem_str (digits q) ig); reflexivity.
Qed.

Lemma list_all fs : list_lockers PAll [] (map nm fs) = map digits fs.
Proof.
  rewrite list_lockers_names. cbn [sel mem_str negb andb].
  now rewrite forallb_filter_id by (apply forallb_forall; reflexivity).
Qed.

Lemma list_excl fs : list_lockers PExcl [] (map nm fs) = map digits (filter (isEx cfg) fs).
Proof.
  rewrite list_lockers_names. f_equal. apply filter_ext. intro q. cbn [sel mem_str negb]. apply Bool.andb_true_r.
Qed.

Lemma env_pid_eqb p q : str_eqb (digits q) (env_pid cfg p) = is_root cfg p q.
Proof.
  unfold env_pid, is_root. destruct (root_of cfg p) as [r|].
  - rewrite digits_eqb. apply Nat.eqb_sym.
  - apply digits_not_minus1.
Qed.

Lemma n_only_root_names p fs : n_only_root cfg p (map nm fs) = only_root cfg p fs.
Proof.
  unfold n_only_root, only_root. rewrite list_all. destruct fs as [|q [|q' r]]; try reflexivity.
  cbn [map]. apply env_pid_eqb.
Qed.

Lemma n_conflict_names p fs : n_conflict cfg p (map nm fs) = conflict cfg p fs.
Proof.
  unfold n_conflict, conflict, others. rewrite list_lockers_names.
  assert (G : forall q, negb (mem_str (digits q) [digits p; env_pid cfg p]) = negb (Nat.eqb q p) && negb (is_root cfg p q)).
  { intro q. cbn [mem_str]. rewrite digits_eqb, env_pid_eqb.
    destruct (Nat.eqb q p); [reflexivity|]. destruct (is_root cfg p q); reflexivity. }
  destruct (kind_of cfg p).
  - (* shared: exclusive files of others *)
    induction fs as [|q r IH]; [reflexivity|]. cbn [filter]. rewrite G. cbn [sel].
    destruct (negb (Nat.eqb q p) && negb (is_root cfg p q)) eqn:O.
    + cbn [existsb]. destruct (isEx cfg q); [reflexivity|]. cbn [andb orb]. exact IH.
    + rewrite Bool.andb_false_r. exact IH.
  - set (g := fun q => negb (Nat.eqb q p) && negb (is_root cfg p q)).
    rewrite (filter_ext _ g) by (intro q; apply G). now destruct (filter g fs).
Qed.

Lemma mem_myname p fs : mem_str (nm p) (map nm fs) = mem p fs.
Proof.
  induction fs as [|q r IH]; [reflexivity|]. cbn [map mem_str mem]. rewrite (str_eqb_sym (nm p) (nm q)), myname_eqb.
  destruct (Nat.eqb q p); [reflexivity | exact IH].
Qed.

Lemma nadd_names p fs : nadd (nm p) (map nm fs) = map nm (add p fs).
Proof. unfold nadd, add. rewrite mem_myname. destruct (mem p fs); reflexivity. Qed.

Lemma remove_names p fs : remove_str (nm p) (map nm fs) = map nm (rem p fs).
Proof.
  unfold remove_str, rem. induction fs as [|q r IH]; [reflexivity|]. cbn [map filter]. rewrite myname_eqb, IH.
  destruct (Nat.eqb q p); reflexivity.
Qed.

Lemma npick_names c (l : list pid) : npick c (map digits l) = option_map digits (pick c l).
Proof. unfold npick, pick. rewrite map_length. apply nth_error_map. Qed.

Definition lift3 (r : bool * list pid * local) : bool * list str * local :=
  match r with (d, fs, lo) => (d, map nm fs, lo) end.

Lemma nnext_refines fx fr d fs lo p c :
  nnext fx fr cfg usr d (map nm fs) lo p c = lift3 (next fx fr cfg d fs lo p c).
Proof.
  unfold nnext, next. destruct (lpc lo) as [ | | | | | | | | | |m g| | | ].
  - destruct d; reflexivity.
  - rewrite n_only_root_names. reflexivity.
  - reflexivity.
  - destruct d; [reflexivity|]. destruct fx; reflexivity.
  - rewrite list_excl. cbn [lift3]. destruct (filter (isEx cfg) fs) as [|a [|b r]]; reflexivity.
  - rewrite list_excl, npick_names. cbn [lift3]. destruct (pick c (filter (isEx cfg) fs)) as [q|]; [|reflexivity].
    cbn [option_map]. now rewrite env_pid_eqb.
  - destruct d; [|reflexivity]. cbn [lift3]. now rewrite nadd_names.
  - rewrite n_conflict_names. reflexivity.
  - reflexivity.
  - reflexivity.
  - destruct g.
    + reflexivity.
    + rewrite mem_myname. reflexivity.
    + rewrite mem_myname. destruct (d && mem p fs); [|reflexivity]. cbn [lift3]. now rewrite remove_names.
    + destruct d; [|reflexivity]. destruct fs; reflexivity.
    + destruct d; [|reflexivity]. destruct fs; reflexivity.
  - reflexivity.
  - reflexivity.
  - reflexivity.
Qed.

(* the state over names ns shows the state over owners s *)
Definition shows (ns : nstate) (s : state) : Prop :=
  (forall k, ndir ns k = dir s k) /\ (forall k, nfiles ns k = map nm (files s k)) /\
  (forall p, nlocal ns p = local_of s p).

Lemma shows_init : shows (ninit no_junk) init.
Proof. repeat split. Qed.

Lemma shows_step fx fr ns s p c :
  shows ns s -> shows (nstep fx fr cfg usr ns p c) (step_gen fx fr cfg s p c).
Proof.
  intros (HD & HF & HL). unfold nstep, step_gen. rewrite HL.
  destruct (nth_error (path_of cfg p) (widx (local_of s p))) as [k|].
  - rewrite HD, HF, nnext_refines.
    destruct (next fx fr cfg (dir s k) (files s k) (local_of s p) p c) as [[d' fs'] lo']. cbn [lift3].
    repeat split; cbn [ndir nfiles nlocal]; intro x.
    + cbn [put write dir]. unfold upd. destruct (Nat.eqb x k); [reflexivity | apply HD].
    + cbn [put write files]. unfold upd. destruct (Nat.eqb x k); [reflexivity | apply HF].
    + rewrite local_put. unfold upd. destruct (Nat.eqb x p); [reflexivity | apply HL].
  - repeat split; cbn [ndir nfiles nlocal]; intro x.
    + apply HD.
    + apply HF.
    + rewrite local_put. unfold upd. destruct (Nat.eqb x p); [reflexivity | apply HL].
Qed.

Lemma nreachable_shows fx fr ns :
  nreachable fx fr cfg usr no_junk ns -> exists s, reachable_gen fx fr cfg s /\ shows ns s.
Proof.
  induction 1 as [|ns p c _ (s & R & S)].
  - exists init. split; [constructor | apply shows_init].
  - exists (step_gen fx fr cfg s p c). split; [now constructor | now apply shows_step].
Qed.

Lemma shows_holds ns s p : shows ns s -> nholdsb ns p = holdsb s p.
Proof. intros (_ & _ & HL). unfold nholdsb, holdsb. now rewrite HL. Qed.

End Queries.

Lemma mutex_named_proof cfg usr ns p q k :
  wf cfg -> users_ok usr -> nreachable true true cfg usr no_junk ns ->
  nholds ns p -> nholds ns q -> p <> q -> ~ related cfg p q ->
  In k (path_of cfg p) -> In k (path_of cfg q) ->
  kind_of cfg p = Sh /\ kind_of cfg q = Sh.
Proof.
  intros WF U R Hp Hq Hpq Hrel Kp Kq.
  destruct (nreachable_shows cfg usr U true true ns R) as (s & Rs & S).
  unfold nholds in Hp, Hq. rewrite (shows_holds cfg usr ns s p S) in Hp. rewrite (shows_holds cfg usr ns s q S) in Hq.
  exact (mutex_proof true cfg s p q k WF Rs Hp Hq Hpq Hrel Kp Kq).
Qed.

Lemma exclusive_seen cfg usr p q fs :
  users_ok usr -> In q fs -> kind_of cfg q = Ex -> kind_of cfg p = Sh -> q <> p -> root_of cfg p <> Some q ->
  list_lockers PExcl [] (map (myname cfg usr) fs) <> [] /\ n_conflict cfg p (map (myname cfg usr) fs) = true.
Proof.
  intros U Hin Kq Kp Hne Hroot. split.
  - rewrite (list_excl cfg usr U). intro H. apply map_eq_nil in H.
    assert (I : In q (filter (isEx cfg) fs)) by (apply filter_In; split; [exact Hin | unfold isEx; now rewrite Kq]).
    rewrite H in I. destruct I.
  - rewrite (n_conflict_names cfg usr U). apply (conflict_if_other cfg p q fs); auto.
Qed.
