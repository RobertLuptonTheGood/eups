(* Table values that refer to a variable whose value is a LIST in the delimiter of the command
   (envAppend(PLUGIN_PATH, SITE_DIRS, semicolon) with SITE_DIRS = /site/a;/site/b): Action.execute_envPrepend
   expands the WHOLE value first and splits the expansion afterwards, in setup and in unsetup mode alike, so
   setup adds the elements of the list and unsetup removes exactly those (C02; C12's theorems about references,
   Props/C12.v reference_read_at_execution ff., ask for an expansion that is ONE element). *)
From Eupsv Require Import Base.Base Base.BaseLemmas Model.PathAlg Proofs.PathAlg.

(* the expansion is a clean list: no reference left in it, no empty part *)
Definition clean_list (d : ascii) (x : str) : Prop :=
  mem_ascii c_dollar x = false /\ split_on d x = elems d x.

Definition many_list (ap fwd : bool) (xs old : list str) : list str :=
  uniq (fold_left (path_step ap fwd) xs old).

Lemma good_fold d ap fwd xs : forall old,
  Forall (good d) xs -> Forall (good d) old -> Forall (good d) (fold_left (path_step ap fwd) xs old).
Proof.
  induction xs as [|x xs IH]; intros old Hx Ho; [exact Ho|].
  cbn [fold_left]. inversion Hx; subst. apply IH; [assumption|]. now apply good_step.
Qed.

Lemma env_prepend_list ap fwd (var v x : str) d e :
  wf_delim d = true -> mem_ascii d v = false -> expand_var e v = Ok (Some x) -> clean_list d x ->
  no_dollar (oldv var e) = true ->
  exists e', env_prepend ap fwd var v d e = Ok (Some e') /\
    elems d (oldv var e') = many_list ap fwd (elems d x) (elems d (oldv var e)) /\
    no_dollar (oldv var e') = true /\
    (forall k, k <> var -> alookup k e' = alookup k e).
Proof.
  intros Hd Hdv Hx [Hnx Hsp] Ho.
  unfold no_dollar in Ho. rewrite negb_true_iff in Ho.
  assert (Gx : Forall (good d) (elems d x)) by now apply elems_good_parts.
  assert (Go : Forall (good d) (elems d (oldv var e))) by now apply elems_good_parts.
  assert (G : Forall (good d) (many_list ap fwd (elems d x) (elems d (oldv var e)))).
  { unfold many_list. apply good_uniq. now apply good_fold. }
  exists (aset var (join d (many_list ap fwd (elems d x) (elems d (oldv var e)))) e).
  split; [|split; [|split]].
  - unfold env_prepend. fold (oldv var e).
    rewrite (strip_lead_none d v Hdv). rewrite (strip_trail_none d v Hdv).
    assert (Hx' : (if fwd then expand_var e v
                   else match expand_var e v with Ok (Some y) => Ok (Some y) | _ => Ok (Some v) end)
                  = Ok (Some x)) by (rewrite Hx; now destruct fwd).
    rewrite Hx'. cbn [bind]. unfold new_path_text. rewrite Hsp. cbn [andb].
    fold (many_list ap fwd (elems d x) (elems d (oldv var e))).
    rewrite interp_nodollar; [reflexivity|].
    apply join_nodollar; [now apply wf_delim_not_dollar|assumption].
  - rewrite oldv_aset_same. now apply elems_join.
  - rewrite oldv_aset_same. unfold no_dollar. rewrite negb_true_iff.
    apply join_nodollar; [now apply wf_delim_not_dollar|assumption].
  - intros k Hk. now apply alookup_aset_other.
Qed.

Lemma fold_remove_In y xs : forall old,
  In y (fold_left (path_step false false) xs old) <-> In y old /\ ~ In y xs.
Proof.
  induction xs as [|x xs IH]; intros old; cbn [fold_left].
  - simpl. tauto.
  - rewrite IH. unfold path_step. rewrite remove_str_In. simpl. split.
    + intros [[H1 H2] H3]. split; [assumption|]. intros [E|E]; [now apply H2|now apply H3].
    + intros [H1 H2]. split; [split; [assumption|]|]; intro E; apply H2; [now left|now right].
Qed.

Lemma path_step_reverse ap np x : path_step ap false np x = path_step false false np x.
Proof. reflexivity. Qed.

Lemma fold_reverse_any ap xs : forall old,
  fold_left (path_step ap false) xs old = fold_left (path_step false false) xs old.
Proof. induction xs as [|x xs IH]; intros old; cbn [fold_left]; [reflexivity|]. now rewrite IH. Qed.

Lemma many_list_reverse_In ap y xs old :
  In y (many_list ap false xs old) <-> In y old /\ ~ In y xs.
Proof. unfold many_list. rewrite uniq_In, fold_reverse_any. apply fold_remove_In. Qed.

Lemma fold_forward_In ap y xs : forall old,
  In y (fold_left (path_step ap true) xs old) <-> In y old \/ In y xs.
Proof.
  induction xs as [|x xs IH]; intros old; cbn [fold_left In]; [split; [now left|now intros [Hy|[]]]|].
  rewrite IH, path_step_forward_In. split.
  - intros [[Hy|E]|Hy]; [now left|right; left; now symmetry|right; now right].
  - intros [Hy|[E|Hy]]; [left; now left|left; right; now symmetry|now right].
Qed.

Lemma many_list_forward_In ap y xs old :
  In y (many_list ap true xs old) <-> In y old \/ In y xs.
Proof. unfold many_list. rewrite uniq_In. apply fold_forward_In. Qed.
