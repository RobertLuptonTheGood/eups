(* Lemmas about Model/ExpandOpt.v: the two switches expandVersions / addExactBlock of table.expandTableFile. *)
From Coq Require Import List ZArith Bool Ascii Lia.
Import ListNotations.
From Eupsv Require Import Base.Base Base.BaseLemmas Model.Rx Model.PathAlg Model.Setup Model.Expand Model.ExpandText
                          Model.ExpandRe Model.ExpandOpt.
From Eupsv Require Import Proofs.Expand Proofs.ExpandText.


Lemma strip_logical_true r : strip_logical true r = r.
Proof. destruct r; reflexivity. Qed.

Lemma rewrite_line_opt_true w e plist l : rewrite_line_opt true w e plist l = rewrite_line w e plist l.
Proof. unfold rewrite_line_opt. destruct (rewrite_line w e plist l); try reflexivity. now rewrite strip_logical_true. Qed.

Lemma rewritten_true w e plist ls : rewritten true w e plist ls = map (rewrite_line w e plist) ls.
Proof. unfold rewritten. apply map_ext. intro; apply rewrite_line_opt_true. Qed.

Lemma emit_z_opt_true pins : forall bs lvl, emit_z_opt true lvl pins bs = emit_z lvl pins bs.
Proof.
  induction bs as [|[f b] rest IH]; intro lvl; [reflexivity|]. destruct f; cbn [emit_z_opt emit_z].
  - destruct (existsb fst rest); now rewrite IH.
  - destruct (block_levels lvl b) as [l1 l2]. now rewrite IH.
Qed.

Lemma expand_layout_opt_defaults jf sf cf w e top plist force rd ls :
  expand_layout_opt true true jf sf cf w e top plist force rd ls = expand_layout jf sf cf w e top plist force rd ls.
Proof.
  unfold expand_layout_opt, expand_layout, collected, acc0. rewrite rewritten_true.
  destruct (collect jf sf cf w e top plist force rd _ _); [|reflexivity]. now rewrite emit_z_opt_true.
Qed.

Lemma expand_text_opt_defaults tf jf sf cf w e top plist force rd text :
  expand_text_opt true true tf jf sf cf w e top plist force rd text = expand_text_gen tf jf sf cf w e top plist force rd text.
Proof.
  unfold expand_text_opt, expand_text_gen, expand_text_lines_opt, expand_text_lines_gen.
  destruct (classify_text tf text); try reflexivity. destruct (expr_checks w e plist a); try reflexivity.
  now rewrite expand_layout_opt_defaults.
Qed.

(* the closure that is collected does not depend on
   expandVersions: name, optional and -j are read from the name and the flags of the rewritten line *)

Lemma rl_name_strip ev r : rl_name (strip_logical ev r) = rl_name r.
Proof. destruct r; reflexivity. Qed.
Lemma rl_optional_strip ev r : rl_optional (strip_logical ev r) = rl_optional r.
Proof. destruct r; reflexivity. Qed.
Lemma rl_just_strip ev r : rl_just (strip_logical ev r) = rl_just r.
Proof. destruct r; reflexivity. Qed.

Lemma collect_strip ev jf sf cf w e top plist force rd : forall prods a,
  collect jf sf cf w e top plist force rd (map (strip_logical ev) prods) a = collect jf sf cf w e top plist force rd prods a.
Proof.
  induction prods as [|r prods IH]; intro a; [reflexivity|]. cbn [map collect].
  rewrite rl_name_strip, rl_optional_strip, rl_just_strip.
  destruct (line_closure jf sf cf w e top plist force rd (rl_name r) (rl_optional r) (rl_just r)) as [[| |l]|x]; auto.
  destruct (add_nvol l (a_des a) (a_opt a)). apply IH.
Qed.

Lemma setup_rlines_rewritten ev w e plist ls :
  setup_rlines (rewritten ev w e plist ls) = map (strip_logical ev) (setup_rlines (map (rewrite_line w e plist) ls)).
Proof.
  unfold rewritten. induction ls as [|l ls IH]; [reflexivity|]. cbn [map]. unfold rewrite_line_opt at 1.
  destruct (rewrite_line w e plist l); cbn [setup_rlines map]; now rewrite IH.
Qed.

Lemma collected_any ev jf sf cf w e top plist force rd ls :
  collected ev jf sf cf w e top plist force rd ls =
  collect jf sf cf w e top plist force rd (setup_rlines (map (rewrite_line w e plist) ls)) acc0.
Proof. unfold collected. now rewrite setup_rlines_rewritten, collect_strip. Qed.


Lemma out_bline_not_added b : is_added (out_bline b) = false.
Proof. destruct b; reflexivity. Qed.

Definition none_added (l : list (Z * oline)) : Prop := Forall (fun x => is_added (snd x) = false) l.

Lemma at_level_not_added lvl bl : none_added (at_level lvl (map out_bline bl)).
Proof.
  unfold none_added, at_level. apply Forall_forall. intros x I. apply in_map_iff in I. destruct I as [o [E I]]. subst x.
  apply in_map_iff in I. destruct I as [b [E _]]. subst o. apply out_bline_not_added.
Qed.

Lemma emit_z_opt_false_not_added pins : forall bs lvl, none_added (emit_z_opt false lvl pins bs).
Proof.
  induction bs as [|[f b] rest IH]; intro lvl; [constructor|]. destruct f; cbn [emit_z_opt].
  - apply Forall_app. split; [apply at_level_not_added|apply IH].
  - destruct (block_levels lvl b) as [l1 l2]. apply Forall_app. split; [|apply IH].
    destruct b as [|x b]; [constructor|]. cbn [map]. constructor; [apply out_bline_not_added|apply at_level_not_added].
Qed.

Lemma final_not_added bl : none_added (at_level 0 (final_lines bl)).
Proof.
  unfold none_added, at_level, final_lines. apply Forall_forall. intros x I. apply in_map_iff in I. destruct I as [o [E I]]. subst x.
  apply in_map_iff in I. destruct I as [t [E _]]. now subst o.
Qed.

(* the lines that are written are the lines of the table after subSetup: setup lines and other lines, in order *)

Lemma first_block_lines l1 l2 (l : list oline) :
  map snd (match l with [] => [] | x :: r => (l1, x) :: at_level l2 r end) = l.
Proof. destruct l as [|x r]; [reflexivity|]. cbn [map snd]. now rewrite map_snd_at_level. Qed.

Section Plain.
Context {A : Type} (g : list oline -> list A) (h : oline -> list A) (P : Proj g h).
Hypothesis HB : h OBlank = [].
Hypothesis HE : forall t, h (OEups t) = [].

Lemma proj_body_plain lvl b : g (map out_bline (setup_body_plain lvl b)) = g (map out_bline b).
Proof. unfold setup_body_plain. destruct (0 <? lvl)%Z; now rewrite ?(proj_drop _ _ P), (proj_bodyl _ _ P). Qed.

Lemma proj_plain pins : forall bs lvl,
  g (map snd (emit_z_opt false lvl pins bs)) = g (map out_bline (concat (map snd bs))).
Proof.
  induction bs as [|[f b] rest IH]; intro lvl; [reflexivity|]. cbn [map snd concat]. rewrite map_app, (proj_app _ _ P).
  destruct f; cbn [emit_z_opt].
  - rewrite map_app, (proj_app _ _ P), map_snd_at_level, proj_body_plain. now rewrite IH.
  - destruct (block_levels lvl b) as [l1 l2]. rewrite map_app, (proj_app _ _ P), first_block_lines. now rewrite IH.
Qed.
End Plain.

(* expandVersions off: the text is the text written with
   the switch on, the expression taken off every rewritten setup line - nothing else changes, the exact block included *)


Lemma rewrite_line_opt_sb ev w e plist l : rewrite_line_opt ev w e plist l = sb ev (rewrite_line w e plist l).
Proof. unfold rewrite_line_opt. destruct (rewrite_line w e plist l); reflexivity. Qed.

Lemma rewritten_sb ev w e plist ls : rewritten ev w e plist ls = map (sb ev) (map (rewrite_line w e plist) ls).
Proof. unfold rewritten. rewrite map_map. apply map_ext. intro. apply rewrite_line_opt_sb. Qed.

Lemma blocks_sb ev : forall ls f cur, blocks f (map (sb ev) cur) (map (sb ev) ls) = map (sblk ev) (blocks f cur ls).
Proof.
  induction ls as [|l ls IH]; intros f cur.
  - cbn [map blocks]. unfold sblk; cbn [fst snd]. now rewrite map_rev.
  - assert (R : forall c, sblk ev (c, rev cur) = (c, rev (map (sb ev) cur))).
    { intro c. unfold sblk; cbn [fst snd]. now rewrite map_rev. }
    destruct l; cbn [map sb blocks].
    + exact (IH f (BBlank :: cur)).
    + exact (IH f (BComment t :: cur)).
    + destruct f.
      * exact (IH true (BSetup r :: cur)).
      * cbn [map]. rewrite R. f_equal. exact (IH true [BSetup r]).
    + destruct f.
      * cbn [map]. rewrite R. f_equal. exact (IH false [BOther t]).
      * exact (IH false (BOther t :: cur)).
    + destruct f.
      * exact (IH true (BEups t :: cur)).
      * cbn [map]. rewrite R. f_equal. exact (IH true [BEups t]).
Qed.

Lemma out_sb ev b : out_bline (sb ev b) = so ev (out_bline b).
Proof. destruct b; reflexivity. Qed.
Lemma map_out_sb ev b : map out_bline (map (sb ev) b) = map (so ev) (map out_bline b).
Proof. rewrite !map_map. apply map_ext. intro. apply out_sb. Qed.

Lemma body_lines_sb ev b : body_lines (map (sb ev) b) = map (sb ev) (body_lines b).
Proof. unfold body_lines. induction b as [|x b IH]; [reflexivity|]. destruct x; simpl; now rewrite IH. Qed.

Lemma drop_last_blank_sb ev b : drop_last_blank (map (sb ev) b) = map (sb ev) (drop_last_blank b).
Proof.
  induction b as [|x b IH]; [reflexivity|].
  destruct x; try (cbn [map sb drop_last_blank]; now rewrite IH).
  destruct b as [|y b]; [reflexivity|].
  change (BBlank :: drop_last_blank (map (sb ev) (y :: b)) = BBlank :: map (sb ev) (drop_last_blank (y :: b))).
  now rewrite IH.
Qed.

Lemma setup_body_sb ev lvl b : setup_body lvl (map (sb ev) b) = map (sb ev) (setup_body lvl b).
Proof. unfold setup_body. destruct (0 <? lvl + 1)%Z; now rewrite ?body_lines_sb, ?drop_last_blank_sb. Qed.
Lemma setup_body_plain_sb ev lvl b : setup_body_plain lvl (map (sb ev) b) = map (sb ev) (setup_body_plain lvl b).
Proof. unfold setup_body_plain. destruct (0 <? lvl)%Z; now rewrite ?body_lines_sb, ?drop_last_blank_sb. Qed.

Lemma block_levels_sb ev lvl b : block_levels lvl (map (sb ev) b) = block_levels lvl b.
Proof. destruct b as [|[] b]; reflexivity. Qed.

Lemma existsb_sblk ev rest : existsb fst (map (sblk ev) rest) = existsb fst rest.
Proof. induction rest as [|[f b] r IH]; [reflexivity|]. cbn [map existsb sblk fst]. now rewrite IH. Qed.

Lemma at_level_so ev lvl l : at_level lvl (map (so ev) l) = map (sz ev) (at_level lvl l).
Proof. unfold at_level. rewrite !map_map. reflexivity. Qed.

Lemma emit_z_opt_sb ev ab pins : map (so ev) pins = pins -> forall bs lvl,
  emit_z_opt ab lvl pins (map (sblk ev) bs) = map (sz ev) (emit_z_opt ab lvl pins bs).
Proof.
  intro Hp. induction bs as [|[f b] rest IH]; intro lvl; [reflexivity|]. destruct f; cbn [map]; unfold sblk at 1; cbn [fst snd emit_z_opt].
  - destruct ab.
    + rewrite existsb_sblk, setup_body_sb, map_out_sb, at_level_so, IH. destruct (existsb fst rest).
      * cbn [map]. rewrite map_app. reflexivity.
      * cbn [map]. rewrite map_app. cbn [map]. rewrite map_app. cbn [map]. rewrite <- (at_level_so ev (lvl + 1)%Z pins), Hp. reflexivity.
    + rewrite setup_body_plain_sb, map_out_sb, at_level_so, map_app, IH. reflexivity.
  - rewrite block_levels_sb. destruct (block_levels lvl b) as [l1 l2]. rewrite map_out_sb, map_app, IH. f_equal.
    destruct (map out_bline b) as [|x r]; [reflexivity|]. cbn [map]. rewrite at_level_so. reflexivity.
Qed.

Lemma pin_lines_so ev a : map (so ev) (pin_lines a) = pin_lines a.
Proof. unfold pin_lines. rewrite map_map. reflexivity. Qed.

Lemma eups_lines_sb ev bl : eups_lines (map (sb ev) bl) = eups_lines bl.
Proof. induction bl as [|x bl IH]; [reflexivity|]. destruct x; cbn [map sb eups_lines]; now rewrite IH. Qed.

Lemma final_sz ev bl : at_level 0 (final_lines bl) = map (sz ev) (at_level 0 (final_lines bl)).
Proof. unfold at_level, final_lines. rewrite !map_map. reflexivity. Qed.

Lemma layout_strip ev ab jf sf cf w e top plist force rd ls :
  expand_layout_opt ev ab jf sf cf w e top plist force rd ls =
  match expand_layout_opt true ab jf sf cf w e top plist force rd ls with
  | Ok lay => Ok (map (sz ev) lay)
  | Err x => Err x
  end.
Proof.
  unfold expand_layout_opt. rewrite !collected_any, rewritten_sb, rewritten_true.
  destruct (collect jf sf cf w e top plist force rd _ acc0) as [a|x]; [|reflexivity]. f_equal.
  pose proof (blocks_sb ev (map (rewrite_line w e plist) ls) false []) as B. cbn [map] in B. rewrite B.
  rewrite (emit_z_opt_sb ev ab (pin_lines a) (pin_lines_so ev a)). rewrite map_app. f_equal.
  unfold final_lines at 1. rewrite eups_lines_sb. apply final_sz.
Qed.

Lemma map_snd_sz ev lay : map snd (map (sz ev) lay) = map (so ev) (map snd lay).
Proof. rewrite !map_map. reflexivity. Qed.
Lemma pins_of_so ev l : pins_of (map (so ev) l) = pins_of l.
Proof. induction l as [|o l IH]; [reflexivity|]. destruct o; cbn [map so pins_of]; now rewrite ?IH. Qed.
Lemma others_of_so ev l : others_of (map (so ev) l) = others_of l.
Proof. induction l as [|o l IH]; [reflexivity|]. destruct o; cbn [map so others_of]; now rewrite ?IH. Qed.
Lemma setups_of_so ev l : setups_of (map (so ev) l) = map (strip_logical ev) (setups_of l).
Proof. induction l as [|o l IH]; [reflexivity|]. destruct o; cbn [map so setups_of]; now rewrite ?IH. Qed.

Lemma stripped_carries_none r : carries_expression (strip_logical false r) = false.
Proof. destruct r; reflexivity. Qed.
