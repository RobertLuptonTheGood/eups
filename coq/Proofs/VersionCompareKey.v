(* C10: conventional names -- what the recogniser accepts, how such names split, and the
   refinement of the comparison to the lexicographic order on keys. *)
From Eupsv Require Import Base.Base Base.BaseLemmas Model.VersionCompare Model.VersionKey
  Proofs.VersionCompareLib Proofs.VersionCompare.

Definition flat (rest : list (ascii * str)) : str := flat_map (fun sd => fst sd :: snd sd) rest.

(* The structures of the grammar: what print_part and print_cname make of them are exactly the texts that the
   recogniser accepts (parse_conv_spec, parse_conv_complete). *)
Definition wf_rest (rest : list (ascii * str)) : Prop :=
  Forall (fun sd => is_sep (fst sd) = true /\ all_digits (snd sd) = true) rest.

Definition wf_part (p : part) : Prop :=
  let '(l, d0, rest) := p in
  forallb is_alpha l = true /\ ends_mp l = false /\ all_digits d0 = true /\ wf_rest rest.

Definition wf_opt (o : option part) : Prop := match o with Some p => wf_part p | None => True end.

Definition wf_cname (c : cname) : Prop :=
  let '(pp, sp, tp) := c in wf_part pp /\ wf_opt sp /\ wf_opt tp.

(* the letters of a part, and of the primary part of a name: prefix_of, on structures *)
Definition letters (p : part) : str := fst (fst p).
Definition cname_letters (c : cname) : str := letters (fst (fst c)).

Definition print_opt (o : option part) : str := match o with Some p => print_part p | None => [] end.

Lemma flat_forallb (q : ascii -> bool) rest :
  (forall c, is_sep c = true -> q c = true) -> (forall c, is_digit c = true -> q c = true) ->
  wf_rest rest -> forallb q (flat rest) = true.
Proof.
  intros Hs Hd W. induction W as [|[s d] rest [S D] W IH]; [reflexivity|].
  cbn [fst snd] in *. change (flat ((s, d) :: rest)) with (s :: d ++ flat rest). cbn [forallb].
  rewrite forallb_app, IH, (Hs s S). apply all_digits_forall in D as [D _].
  now rewrite (forallb_impl _ _ _ Hd D).
Qed.

Lemma part_forallb (q : ascii -> bool) l d0 rest :
  (forall c, is_alpha c = true -> q c = true) ->
  (forall c, is_sep c = true -> q c = true) -> (forall c, is_digit c = true -> q c = true) ->
  wf_part (l, d0, rest) -> forallb q (print_part (l, d0, rest)) = true.
Proof.
  intros Ha Hs Hd (L & _ & D & W). cbn [print_part]. fold (flat rest).
  rewrite !forallb_app, (flat_forallb q rest Hs Hd W), (forallb_impl _ _ _ Ha L).
  apply all_digits_forall in D as [D _]. now rewrite (forallb_impl _ _ _ Hd D).
Qed.

Lemma part_notpm p : wf_part p -> forallb notpm (print_part p) = true.
Proof. destruct p as [[l d0] rest]. apply part_forallb; [apply alpha_notpm|apply sep_notpm|apply digit_notpm]. Qed.

Lemma part_wf_name p : wf_part p -> forallb wf_char (print_part p) = true.
Proof.
  destruct p as [[l d0] rest]. apply part_forallb; intros c H; unfold wf_char; rewrite H; now rewrite ?orb_true_r.
Qed.

Lemma part_nonempty p : wf_part p -> print_part p <> [].
Proof.
  destruct p as [[l d0] rest]. intros (_ & _ & D & _). apply all_digits_forall in D as [_ D].
  cbn [print_part]. destruct l; [|discriminate]. destruct d0; [congruence|discriminate].
Qed.

Lemma all_digits_rev cur : nonempty cur = true -> forallb is_digit cur = true -> all_digits (rev cur) = true.
Proof.
  intros N D. unfold all_digits. rewrite forallb_rev, D, andb_true_r.
  destruct cur as [|c cur]; [discriminate|]. simpl. now destruct (rev cur).
Qed.

Lemma parse_body_spec x : forall cur d0 rest,
  forallb is_digit cur = true ->
  parse_body cur x = Some (d0, rest) ->
  rev cur ++ x = d0 ++ flat rest /\ all_digits d0 = true /\ wf_rest rest.
Proof.
  induction x as [|c r IH]; intros cur d0 rest Hc; cbn [parse_body].
  - destruct (nonempty cur) eqn:N; [|discriminate]. intros [= <- <-].
    split; [reflexivity|]. split; [now apply all_digits_rev|constructor].
  - destruct (is_digit c) eqn:D.
    + intro H. apply IH in H; [|cbn [forallb]; now rewrite D].
      destruct H as (H & ? & ?). split; [|auto]. rewrite <- H. cbn [rev]. now rewrite <- app_assoc.
    + destruct (is_sep c && nonempty cur) eqn:S; [|discriminate].
      apply andb_true_iff in S as [S N].
      destruct (parse_body [] r) as [[d rest']|] eqn:E; [|discriminate].
      intros [= <- <-]. apply IH in E; [|reflexivity]. destruct E as (E & Dd & Wr).
      cbn [rev app] in E. split; [|split].
      * unfold flat. cbn [flat_map fst snd]. fold (flat rest'). now rewrite E.
      * now apply all_digits_rev.
      * constructor; [split; assumption|assumption].
Qed.

Lemma parse_part_spec x p : parse_part x = Some p -> wf_part p /\ print_part p = x.
Proof.
  unfold parse_part. destruct (span is_alpha x) as [l b] eqn:E.
  destruct (ends_mp l) eqn:M; [discriminate|].
  destruct (parse_body [] b) as [[d0 rest]|] eqn:B; [|discriminate].
  intros [= <-]. apply parse_body_spec in B; [|reflexivity]. destruct B as (B & D & W).
  cbn [rev app] in B. split.
  - cbn. repeat split; auto. eapply span_all_fst; eauto.
  - cbn. fold (flat rest). rewrite <- B. symmetry. now apply span_app in E.
Qed.

Lemma parse_conv_spec v c : parse_conv v = Some c -> wf_cname c /\ print_cname c = v.
Proof.
  unfold parse_conv. destruct (span notpm v) as [xp r1] eqn:E1.
  pose proof (span_app _ _ _ _ E1) as V.
  destruct (parse_part xp) as [pp|] eqn:Pp; [|discriminate]. apply parse_part_spec in Pp as [Wp Xp].
  destruct r1 as [|c1 r].
  - intros [= <-]. split; [cbn; auto|]. cbn [print_cname]. now rewrite V, Xp, !app_nil_r.
  - destruct (ascii_eqb_spec c1 c_minus) as [->|Nm].
    + destruct (span notpm r) as [xs r2] eqn:E2. pose proof (span_app _ _ _ _ E2) as R.
      destruct (parse_part xs) as [sp|] eqn:Ps; [|discriminate]. apply parse_part_spec in Ps as [Ws Xs].
      destruct r2 as [|c2 r3].
      * intros [= <-]. split; [cbn; auto|]. cbn [print_cname]. now rewrite V, R, Xp, Xs, !app_nil_r.
      * destruct (ascii_eqb_spec c2 c_plus) as [->|]; [|discriminate].
        destruct (parse_part r3) as [tp|] eqn:Pt; [|discriminate]. apply parse_part_spec in Pt as [Wt Xt].
        intros [= <-]. split; [cbn; auto|]. cbn [print_cname]. now rewrite V, R, Xp, Xs, Xt.
    + destruct (parse_part r) as [tp|] eqn:Pt; [|discriminate]. apply parse_part_spec in Pt as [Wt Xt].
      intros [= <-]. split; [cbn; auto|]. cbn [print_cname app]. rewrite V, Xp, Xt. do 2 f_equal.
      pose proof (span_snd_head _ _ _ _ _ E1) as Hc. unfold notpm in Hc. apply negb_false_iff, orb_true_iff in Hc.
      destruct Hc as [Hc|Hc]; apply ascii_eqb_eq in Hc; [contradiction|now subst].
Qed.

Lemma conv_spec v : conv v = true -> exists c, wf_cname c /\ print_cname c = v /\ key v = cname_key c.
Proof.
  unfold conv, key. destruct (parse_conv v) as [c|] eqn:E; [|discriminate]. intros _.
  apply parse_conv_spec in E as [W P]. eauto.
Qed.

Lemma parse_body_digits d : forall cur x,
  forallb is_digit d = true -> parse_body cur (d ++ x) = parse_body (rev d ++ cur) x.
Proof.
  induction d as [|c d IH]; intros cur x H; [reflexivity|]. cbn [forallb] in H. apply andb_true_iff in H as [Hc H].
  cbn [app parse_body rev]. now rewrite Hc, IH, <- app_assoc.
Qed.

Lemma parse_body_complete rest : forall cur,
  wf_rest rest -> cur <> [] -> parse_body cur (flat rest) = Some (rev cur, rest).
Proof.
  induction rest as [|[s e] rest IH]; intros cur W N; apply nonempty_true_iff in N.
  - cbn [flat flat_map parse_body]. now rewrite N.
  - inversion W as [|? ? [S E] W']; subst. cbn [fst snd] in *. apply all_digits_forall in E as [E Ne].
    change (flat ((s, e) :: rest)) with (s :: e ++ flat rest). cbn [parse_body].
    rewrite (sep_not_digit s S), S, N, parse_body_digits, app_nil_r, IH by auto using rev_nonnil.
    now rewrite rev_involutive.
Qed.

Lemma span_letters l d x :
  forallb is_alpha l = true -> all_digits d = true -> span is_alpha (l ++ d ++ x) = (l, d ++ x).
Proof.
  intros L D. destruct (all_digits_head d D) as [c [r [-> Hc]]]. apply span_stop; [assumption|now apply digit_not_alpha].
Qed.

Lemma span_alpha_part l d0 rest :
  wf_part (l, d0, rest) -> span is_alpha (print_part (l, d0, rest)) = (l, d0 ++ flat rest).
Proof. intros (L & _ & D & _). now apply span_letters. Qed.

Lemma parse_part_complete p : wf_part p -> parse_part (print_part p) = Some p.
Proof.
  destruct p as [[l d0] rest]. intro W. unfold parse_part. rewrite (span_alpha_part l d0 rest W).
  destruct W as (L & M & D & W). rewrite M. apply all_digits_forall in D as [D N].
  rewrite parse_body_digits, app_nil_r, parse_body_complete by auto using rev_nonnil. now rewrite rev_involutive.
Qed.

Lemma parse_conv_complete c : wf_cname c -> parse_conv (print_cname c) = Some c.
Proof.
  destruct c as [[p s] t]. intros (Wp & Ws & Wt). unfold parse_conv. cbn [print_cname].
  pose proof (part_notpm p Wp) as Hp.
  destruct s as [s|], t as [t|]; cbn [wf_opt] in *.
  - cbn [app]. rewrite span_stop, (parse_part_complete p Wp), ascii_eqb_refl by (auto; reflexivity). cbv iota.
    rewrite span_stop, (parse_part_complete s Ws), ascii_eqb_refl by (auto using part_notpm; reflexivity). cbv iota.
    now rewrite (parse_part_complete t Wt).
  - rewrite app_nil_r. cbn [app]. rewrite span_stop, (parse_part_complete p Wp), ascii_eqb_refl by (auto; reflexivity).
    cbv iota. now rewrite span_all, (parse_part_complete s Ws) by now apply part_notpm.
  - cbn [app]. rewrite span_stop, (parse_part_complete p Wp) by (auto; reflexivity).
    change (ascii_eqb c_plus c_minus) with false. cbv iota. now rewrite (parse_part_complete t Wt).
  - cbn [app]. rewrite !app_nil_r, span_all by assumption. now rewrite (parse_part_complete p Wp).
Qed.

Lemma print_part_letters l1 d1 r1 l2 d2 r2 :
  wf_part (l1, d1, r1) -> wf_part (l2, d2, r2) ->
  print_part (l1, d1, r1) = print_part (l2, d2, r2) -> l1 = l2.
Proof.
  intros W1 W2 E. pose proof (span_alpha_part _ _ _ W1) as S1. pose proof (span_alpha_part _ _ _ W2) as S2.
  rewrite E, S2 in S1. congruence.
Qed.

Lemma mp_suffix_none x :
  forallb is_digit x = true \/
  (exists base c d, x = base ++ c :: d /\ forallb is_digit d = true /\ is_digit c = false /\
                    ascii_eqb c c_m || ascii_eqb c c_p = false) ->
  mp_suffix x = None.
Proof.
  unfold mp_suffix. intros [H|[base [c [d [-> [D [C M]]]]]]].
  - rewrite span_all by (now rewrite forallb_rev). now destruct (rev x).
  - rewrite rev_app_distr. cbn [rev]. rewrite <- app_assoc. cbn [app].
    rewrite span_stop by (rewrite ?forallb_rev; assumption). rewrite M. now destruct (rev d).
Qed.

Lemma part_mp_suffix p : wf_part p -> mp_suffix (print_part p) = None.
Proof.
  destruct p as [[l d0] rest]. intros (L & M & D & W). apply mp_suffix_none. cbn [print_part]. fold (flat rest).
  destruct (all_digits_forall _ D) as [Dd _].
  destruct rest as [|sd rest0].
  - cbn [flat flat_map]. rewrite app_nil_r.
    destruct l as [|c0 l0]; [now left|]. right.
    destruct (@exists_last _ (c0 :: l0)) as [l' [c E]]; [discriminate|]. rewrite E in *.
    exists l', c, d0. rewrite <- app_assoc. split; [reflexivity|]. split; [assumption|].
    unfold ends_mp in M. rewrite last_opt_snoc in M. split; [|assumption].
    rewrite forallb_app in L. apply andb_true_iff in L as [_ L]. cbn [forallb] in L.
    apply andb_true_iff in L as [L _]. now apply alpha_not_digit.
  - right. destruct (@exists_last _ (sd :: rest0)) as [rest' [[s d] E]]; [discriminate|]. rewrite E in *.
    unfold wf_rest in W. apply Forall_app in W as [_ W]. inversion W as [|? ? [S Ds] _]; subst. cbn [fst snd] in *.
    exists (l ++ d0 ++ flat rest'), s, d. split.
    + unfold flat. rewrite flat_map_app. cbn [flat_map fst snd]. now rewrite app_nil_r, <- !app_assoc.
    + split; [now apply all_digits_forall in Ds as [? _]|]. split; [now apply sep_not_digit|now apply sep_not_mp].
Qed.

Lemma part_split p : wf_part p -> split_version (print_part p) = Ok (print_part p, [], []).
Proof.
  intro W. rewrite split_simple_eq; [|now apply part_notpm|now apply part_nonempty].
  now rewrite part_mp_suffix.
Qed.

Lemma split_version_groups v g1 r e r1 f r2 :
  (2 <? length (split_on c_minus v)) = false -> span notpm v = (g1, r) -> g1 <> [] ->
  opt_group c_minus r = (e, r1) -> opt_group c_plus r1 = (f, r2) -> nonempty e || nonempty f = true ->
  split_version v = Ok (g1, e, f).
Proof.
  intros C S N O1 O2 G. unfold split_version. destruct v as [|c v]; [cbn in S; congruence|].
  apply nonempty_true_iff in N. now rewrite C, S, N, O1, O2, G.
Qed.

Lemma opt_group_stop d xs c r :
  forallb notpm xs = true -> xs <> [] -> notpm c = false -> opt_group d (d :: xs ++ c :: r) = (xs, c :: r).
Proof.
  intros H N Hc. unfold opt_group. apply nonempty_true_iff in N. now rewrite ascii_eqb_refl, span_stop, N.
Qed.

Lemma opt_group_all d xs : forallb notpm xs = true -> xs <> [] -> opt_group d (d :: xs) = (xs, []).
Proof.
  intros H N. unfold opt_group. apply nonempty_true_iff in N. now rewrite ascii_eqb_refl, span_all, N.
Qed.

Lemma split_pst xp xs xt :
  forallb notpm xp = true -> xp <> [] -> forallb notpm xs = true -> xs <> [] ->
  forallb notpm xt = true -> xt <> [] ->
  split_version (xp ++ c_minus :: xs ++ c_plus :: xt) = Ok (xp, xs, xt).
Proof.
  intros Hp Np Hs Ns Ht Nt.
  apply (split_version_groups _ xp (c_minus :: xs ++ c_plus :: xt) xs (c_plus :: xt) xt []); auto.
  - rewrite split_on_app, split_on_nodelim by (rewrite ?mem_ascii_app; cbn [mem_ascii]; now rewrite ?notpm_no_minus).
    reflexivity.
  - now apply span_stop.
  - now apply opt_group_stop.
  - now apply opt_group_all.
  - apply nonempty_true_iff in Ns. now rewrite Ns.
Qed.

Lemma split_ps xp xs :
  forallb notpm xp = true -> xp <> [] -> forallb notpm xs = true -> xs <> [] ->
  split_version (xp ++ c_minus :: xs) = Ok (xp, xs, []).
Proof.
  intros Hp Np Hs Ns. apply (split_version_groups _ xp (c_minus :: xs) xs [] [] []); auto.
  - now rewrite split_on_app, split_on_nodelim by now apply notpm_no_minus.
  - now apply span_stop.
  - now apply opt_group_all.
  - apply nonempty_true_iff in Ns. now rewrite Ns.
Qed.

Lemma split_pt xp xt :
  forallb notpm xp = true -> xp <> [] -> forallb notpm xt = true -> xt <> [] ->
  split_version (xp ++ c_plus :: xt) = Ok (xp, [], xt).
Proof.
  intros Hp Np Ht Nt. apply (split_version_groups _ xp (c_plus :: xt) [] (c_plus :: xt) xt []); auto.
  - now rewrite split_on_nodelim by (rewrite mem_ascii_app; cbn [mem_ascii]; now rewrite !notpm_no_minus).
  - now apply span_stop.
  - now apply opt_group_all.
  - apply nonempty_true_iff in Nt. now rewrite Nt.
Qed.

Lemma cname_split pp sp tp :
  wf_cname (pp, sp, tp) ->
  split_version (print_cname (pp, sp, tp)) = Ok (print_part pp, print_opt sp, print_opt tp).
Proof.
  intros (Wp & Ws & Wt). cbn [print_cname print_opt].
  pose proof (part_notpm _ Wp) as Hp. pose proof (part_nonempty _ Wp) as Np.
  destruct sp as [s|], tp as [t|]; cbn [wf_opt print_opt] in *.
  - apply split_pst; auto using part_notpm, part_nonempty.
  - rewrite app_nil_r. apply split_ps; auto using part_notpm, part_nonempty.
  - cbn [app]. apply split_pt; auto using part_notpm, part_nonempty.
  - cbn [app]. rewrite app_nil_r. now apply part_split.
Qed.

Lemma split_dotus_nosep a : forallb (fun c => negb (is_sep c)) a = true -> split_dotus a = [a].
Proof.
  induction a as [|c a IH]; [reflexivity|]. cbn [forallb split_dotus]. intro H.
  apply andb_true_iff in H as [Hc Ha]. apply negb_true_iff in Hc. now rewrite Hc, IH.
Qed.

Lemma split_dotus_app a s r :
  forallb (fun c => negb (is_sep c)) a = true -> is_sep s = true ->
  split_dotus (a ++ s :: r) = a :: split_dotus r.
Proof.
  intros Ha Hs. induction a as [|c a IH]; cbn [app split_dotus].
  - now rewrite Hs.
  - cbn [forallb] in Ha. apply andb_true_iff in Ha as [Hc Ha]. apply negb_true_iff in Hc.
    now rewrite Hc, IH.
Qed.

Lemma split_dotus_flat rest : forall a,
  forallb (fun c => negb (is_sep c)) a = true -> wf_rest rest ->
  split_dotus (a ++ flat rest) = a :: map snd rest.
Proof.
  induction rest as [|[s d] rest IH]; intros a Ha W.
  - cbn [flat flat_map map]. rewrite app_nil_r. now apply split_dotus_nosep.
  - inversion W as [|? ? [S D] W']; subst. cbn [fst snd] in *.
    change (flat ((s, d) :: rest)) with (s :: d ++ flat rest). cbn [map snd].
    rewrite split_dotus_app by assumption. f_equal. apply IH; [|assumption].
    apply all_digits_forall in D as [D _]. eapply forallb_impl; [|exact D].
    intros c Hc. now rewrite (digit_not_sep c Hc).
Qed.

Lemma part_components l d0 rest :
  wf_part (l, d0, rest) -> split_dotus (print_part (l, d0, rest)) = (l ++ d0) :: map snd rest.
Proof.
  intros (L & _ & D & W). cbn [print_part]. fold (flat rest). rewrite app_assoc.
  apply split_dotus_flat; [|assumption]. rewrite forallb_app. apply all_digits_forall in D as [D _].
  apply andb_true_iff. split; (eapply forallb_impl; [|eassumption]); intros c Hc.
  - now rewrite (alpha_not_sep c Hc).
  - now rewrite (digit_not_sep c Hc).
Qed.

Lemma decomp_ld l d :
  forallb is_alpha l = true -> all_digits d = true -> decomp (l ++ d) = if nonempty l then Some (l, d) else None.
Proof.
  intros L D. destruct l as [|c l]; cbn [nonempty].
  - destruct (all_digits_head d D) as [c [r [-> Hc]]]. unfold decomp. cbn [app].
    rewrite span_nil_head by (unfold not_digit; now rewrite Hc). reflexivity.
  - apply decomp_intro; [discriminate| |assumption]. eapply forallb_impl; [|exact L].
    intros x H. unfold not_digit. now rewrite (alpha_not_digit x H).
Qed.

Lemma py_int_ld l d :
  forallb is_alpha l = true -> all_digits d = true ->
  py_int (l ++ d) = if nonempty l then None else Some (Z.of_N (num_of_digits d)).
Proof.
  intros L D. destruct l as [|c l]; cbn [nonempty app].
  - destruct (all_digits_head d D) as [c [r [-> Hc]]]. unfold py_int.
    destruct (proj1 (notpm_iff c) (digit_notpm c Hc)) as [-> ->]. now rewrite D.
  - cbn [forallb] in L. apply andb_true_iff in L as [Hc _]. cbn [py_int].
    destruct (proj1 (notpm_iff c) (alpha_notpm c Hc)) as [-> ->].
    unfold all_digits. cbn [forallb nonempty]. now rewrite (alpha_not_digit c Hc).
Qed.

Lemma alpha_no_meta l : forallb is_alpha l = true -> existsb regex_meta l = false.
Proof.
  induction l as [|c l IH]; [reflexivity|]. cbn [forallb existsb]. intro H.
  apply andb_true_iff in H as [Hc H]. now rewrite (alpha_not_meta c Hc), IH.
Qed.

Lemma nometa_ld l d : forallb is_alpha l = true -> all_digits d = true -> nometa (l ++ d).
Proof.
  intros L D pre dd E. rewrite decomp_ld in E by assumption. destruct l as [|c l]; [discriminate|].
  injection E as <- <-. now apply alpha_no_meta.
Qed.

Lemma str_compare_letters l1 : forall l2 d e,
  forallb is_alpha l1 = true -> forallb is_alpha l2 = true -> all_digits d = true -> all_digits e = true ->
  l1 <> l2 -> str_compare (l1 ++ d) (l2 ++ e) = str_compare l1 l2.
Proof.
  unfold str_compare.
  induction l1 as [|c l1 IH]; intros [|c' l2] d e L1 L2 D E N; try congruence.
  - destruct (all_digits_head d D) as [x [r [-> Hx]]]. cbn [forallb] in L2. apply andb_true_iff in L2 as [Hc _].
    cbn [app lex_compare]. now rewrite (digit_lt_alpha x c' Hx Hc).
  - destruct (all_digits_head e E) as [x [r [-> Hx]]]. cbn [forallb] in L1. apply andb_true_iff in L1 as [Hc _].
    cbn [app lex_compare]. rewrite (ok_anti _ ord_ok_ascii x c). now rewrite (digit_lt_alpha x c Hx Hc).
  - cbn [forallb] in L1, L2. apply andb_true_iff in L1 as [_ L1]. apply andb_true_iff in L2 as [_ L2].
    cbn [app lex_compare]. destruct (ascii_compare c c') eqn:C; try reflexivity.
    apply (ok_eq _ ord_ok_ascii) in C. subst c'. apply IH; auto. congruence.
Qed.

(* the first components of two parts: equal letters are stripped and the numbers compared,
   different letters decide as strings *)
Lemma comp_first l1 d l2 e :
  forallb is_alpha l1 = true -> forallb is_alpha l2 = true -> all_digits d = true -> all_digits e = true ->
  cmp_component (l1 ++ d) (l2 ++ e) =
  Ok (if str_eqb l1 l2 then (true, N.compare (num_of_digits d) (num_of_digits e))
      else (false, str_compare l1 l2)).
Proof.
  intros L1 L2 D E. rewrite cmp_component_alt by now apply nometa_ld. unfold fallback.
  rewrite !decomp_ld, !py_int_ld by assumption. f_equal.
  destruct (str_eqb_spec l1 l2) as [<-|N].
  - destruct l1; cbn [nonempty]; [now rewrite N2Z.inj_compare|now rewrite str_eqb_refl].
  - rewrite <- (str_compare_letters l1 l2 d e) by assumption.
    destruct l1 as [|c l1], l2 as [|c' l2]; cbn [nonempty]; try reflexivity; [congruence|].
    now destruct (str_eqb_spec (c :: l1) (c' :: l2)).
Qed.

Lemma comp_digits d e :
  all_digits d = true -> all_digits e = true ->
  cmp_component d e = Ok (true, N.compare (num_of_digits d) (num_of_digits e)).
Proof. exact (comp_first [] d [] e eq_refl eq_refl). Qed.

Lemma cmp_loop_digits strict ds : forall es,
  Forall (fun d => all_digits d = true) ds -> Forall (fun d => all_digits d = true) es ->
  cmp_loop strict ds es = Ok (lex_compare N.compare (map num_of_digits ds) (map num_of_digits es)).
Proof.
  induction ds as [|d ds IH]; intros [|e es] Hd He; try reflexivity.
  inversion Hd; inversion He; subst. cbn [cmp_loop map lex_compare]. rewrite comp_digits by assumption.
  destruct (N.compare (num_of_digits d) (num_of_digits e)); [now apply IH| |]; now rewrite andb_false_r.
Qed.

Lemma wf_rest_digits rest : wf_rest rest -> Forall (fun d => all_digits d = true) (map snd rest).
Proof. intro W. induction W as [|[s d] rest [_ D] W IH]; constructor; auto. Qed.

Lemma cmp_primaries_parts strict p1 p2 :
  wf_part p1 -> wf_part p2 -> (strict = false \/ letters p1 = letters p2) ->
  cmp_primaries strict (print_part p1) (print_part p2) = Ok (pkey_compare (part_key p1) (part_key p2)).
Proof.
  destruct p1 as [[l1 d] r1], p2 as [[l2 e] r2]. intros W1 W2 S.
  unfold cmp_primaries. rewrite !part_components by assumption.
  destruct W1 as (L1 & _ & D & R1), W2 as (L2 & _ & E & R2).
  cbn [cmp_loop]. rewrite comp_first by assumption.
  unfold pkey_compare, part_key. cbn [fst snd lex_compare].
  destruct (str_eqb_spec l1 l2) as [<-|N].
  - rewrite (ok_refl _ ord_ok_str). cbn [then_cmp].
    destruct (N.compare (num_of_digits d) (num_of_digits e)).
    + rewrite cmp_loop_digits by (now apply wf_rest_digits). now rewrite !map_map.
    + now rewrite andb_false_r.
    + now rewrite andb_false_r.
  - destruct S as [->|S]; [|contradiction]. cbn [andb].
    destruct (str_compare l1 l2) eqn:C; try reflexivity.
    apply (ok_eq _ ord_ok_str) in C. contradiction.
Qed.

Lemma starts_with_letters l1 d l2 e :
  forallb is_alpha l1 = true -> forallb is_alpha l2 = true -> all_digits d = true -> all_digits e = true ->
  starts_with (l1 ++ d) (l2 ++ e) = true -> l1 = l2.
Proof.
  intros L1 L2 D E H. apply starts_with_app in H.
  pose proof (span_letters l2 e [] L2 E) as S. rewrite app_nil_r, H, <- app_assoc, (span_letters l1 d _ L1 D) in S.
  congruence.
Qed.

Lemma cmp_primaries_unsortable l1 d1 r1 l2 d2 r2 :
  wf_part (l1, d1, r1) -> wf_part (l2, d2, r2) -> l1 <> l2 ->
  cmp_primaries true (print_part (l1, d1, r1)) (print_part (l2, d2, r2)) = Err Unsortable.
Proof.
  intros Wp1 Wp2 N. unfold cmp_primaries. rewrite !part_components by assumption.
  destruct Wp1 as (L1 & _ & D1 & _), Wp2 as (L2 & _ & D2 & _).
  rewrite cmp_loop_cons, comp_first by assumption.
  destruct (str_eqb_spec l1 l2) as [|_]; [contradiction|]. cbn [andb negb].
  assert (P : prefix_order (l1 ++ d1) (l2 ++ d2) (map snd r1) (map snd r2) = Err Unsortable).
  { unfold prefix_order.
    destruct (starts_with (l1 ++ d1) (l2 ++ d2)) eqn:A; [apply starts_with_letters in A; auto; contradiction|].
    destruct (starts_with (l2 ++ d2) (l1 ++ d1)) eqn:B; [apply starts_with_letters in B; auto; congruence|].
    now destruct (is_nil (map snd r1) || is_nil (map snd r2)). }
  destruct (str_compare l1 l2) eqn:C; [|exact P|exact P].
  apply (ok_eq _ ord_ok_str) in C. contradiction.
Qed.

Lemma cmp_primaries_part_nil a : wf_part a -> cmp_primaries false (print_part a) [] = Ok Gt.
Proof.
  intro W. unfold cmp_primaries. destruct a as [[l d] rest]. rewrite part_components by assumption.
  destruct W as (L & _ & D & _). destruct (all_digits_head _ D) as (c & r & -> & _).
  change (split_dotus []) with [@nil ascii]. cbn [cmp_loop].
  rewrite cmp_component_alt by now apply nometa_ld.
  change (decomp []) with (@None (str * str)).
  assert (F : fallback (l ++ c :: r) [] = (false, Gt)).
  { unfold fallback. change (py_int []) with (@None Z). destruct (py_int (l ++ c :: r)); now destruct l. }
  destruct (decomp (l ++ c :: r)) as [[? ?]|]; now rewrite F.
Qed.

Lemma ord_ok_ext {A} (c c' : A -> A -> comparison) : (forall a b, c a b = c' a b) -> ord_ok c -> ord_ok c'.
Proof.
  intros E [R Q An T]. split.
  - intro a. rewrite <- E. apply R.
  - intros a b. rewrite <- E. apply Q.
  - intros a b. rewrite <- !E. apply An.
  - intros a b d. rewrite <- !E. apply T.
Qed.

Lemma ord_ok_pair {A B} (ca : A -> A -> comparison) (cb : B -> B -> comparison) :
  ord_ok ca -> ord_ok cb ->
  ord_ok (fun x y : A * B => then_cmp (ca (fst x) (fst y)) (cb (snd x) (snd y))).
Proof.
  intros [Ra Ea Aa Ta] [Rb Eb Ab Tb]. split.
  - intros [a b]. cbn. now rewrite Ra, Rb.
  - intros [a b] [a' b']. cbn. destruct (ca a a') eqn:C; cbn; try discriminate.
    intro H. apply Ea in C. apply Eb in H. now subst.
  - intros [a b] [a' b']. cbn. rewrite (Aa a a'), (Ab b b'). now destruct (ca a a').
  - intros [a b] [a' b'] [a'' b'']. cbn.
    destruct (ca a a') eqn:C1; cbn; try discriminate.
    + apply Ea in C1. subst a'. destruct (ca a a''); cbn; auto. apply Tb.
    + intros _. destruct (ca a' a'') eqn:C2; cbn; try discriminate.
      * apply Ea in C2. subst a''. now rewrite C1.
      * now rewrite (Ta a a' a'' C1 C2).
Qed.

Lemma ord_ok_pkey : ord_ok pkey_compare.
Proof. apply (ord_ok_pair str_compare (lex_compare N.compare)); [apply ord_ok_str|apply ord_ok_lex, ord_ok_N]. Qed.

Lemma ord_ok_sec : ord_ok sec_compare.
Proof.
  destruct ord_ok_pkey as [R E An T]. split.
  - intros [a|]; cbn; auto.
  - intros [a|] [b|]; cbn; try discriminate; auto. intro H. f_equal. now apply E.
  - intros [a|] [b|]; cbn; auto.
  - intros [a|] [b|] [d|]; cbn; try discriminate; auto. apply T.
Qed.

Lemma ord_ok_ter : ord_ok ter_compare.
Proof.
  destruct ord_ok_pkey as [R E An T]. split.
  - intros [a|]; cbn; auto.
  - intros [a|] [b|]; cbn; try discriminate; auto. intro H. f_equal. now apply E.
  - intros [a|] [b|]; cbn; auto.
  - intros [a|] [b|] [d|]; cbn; try discriminate; auto. apply T.
Qed.

Lemma ord_ok_key : ord_ok key_compare.
Proof.
  eapply ord_ok_ext; [|apply (ord_ok_pair _ _ (ord_ok_pair _ _ ord_ok_pkey ord_ok_sec) ord_ok_ter)].
  intros [[p1 s1] t1] [[p2 s2] t2]. cbn. now destruct (pkey_compare p1 p2).
Qed.

(* what stdCompare does with two primaries that are conventional parts *)
Lemma prim_stage strict p1 p2 (R : res comparison) :
  wf_part p1 -> wf_part p2 -> (strict = false \/ letters p1 = letters p2) ->
  (if str_eqb (print_part p1) (print_part p2) then R
   else match cmp_primaries strict (print_part p1) (print_part p2) with
        | Ok Eq => R
        | r => r
        end) =
  match pkey_compare (part_key p1) (part_key p2) with Eq => R | c => Ok c end.
Proof.
  intros W1 W2 S. pose proof (cmp_primaries_parts strict p1 p2 W1 W2 S) as C.
  destruct (str_eqb_spec (print_part p1) (print_part p2)) as [E|N].
  - pose proof (cmp_primaries_parts strict p1 p1 W1 W1 (or_intror eq_refl)) as C'.
    rewrite (ok_refl _ ord_ok_pkey) in C'. rewrite <- E, C' in C. now injection C as <-.
  - rewrite C. now destruct (pkey_compare (part_key p1) (part_key p2)).
Qed.

Lemma scmp_part a b :
  wf_part a -> wf_part b ->
  scmp true false (print_part a) (print_part b) = Ok (pkey_compare (part_key a) (part_key b)).
Proof.
  intros Wa Wb. rewrite scmp_unfold. unfold scmp_step. rewrite !part_split by assumption.
  rewrite (prim_stage false a b _ Wa Wb (or_introl eq_refl)).
  now destruct (pkey_compare (part_key a) (part_key b)).
Qed.

Lemma scmp_part_nil a : wf_part a ->
  scmp true false (print_part a) [] = Ok Gt /\ scmp true false [] (print_part a) = Ok Lt.
Proof.
  intro W.
  assert (G : scmp true false (print_part a) [] = Ok Gt).
  { rewrite scmp_unfold. unfold scmp_step. rewrite part_split by assumption.
    change (split_version []) with (@Ok (str * str * str) ([], [], [])). cbv iota beta.
    rewrite cmp_primaries_part_nil by assumption.
    destruct (str_eqb_spec (print_part a) []) as [E|_]; [|reflexivity]. now apply part_nonempty in E. }
  (* the other order by antisymmetry *)
  split; [exact G|]. rewrite (scmp_flip true false (print_part a) []), G; [reflexivity| |apply good_nil].
  apply good_simple; [now apply part_wf_name|now apply part_notpm].
Qed.

Lemma scmp_ter t1 t2 :
  wf_opt t1 -> wf_opt t2 ->
  scmp true false (print_opt t1) (print_opt t2) =
  Ok (ter_compare (option_map part_key t1) (option_map part_key t2)).
Proof.
  intros W1 W2. destruct t1 as [a|], t2 as [b|]; cbn [print_opt option_map ter_compare wf_opt] in *.
  - now apply scmp_part.
  - now apply scmp_part_nil.
  - now apply scmp_part_nil.
  - apply scmp_nil.
Qed.

Lemma nonempty_print a : wf_part a -> nonempty (print_part a) = true.
Proof. intro W. apply nonempty_true_iff. now apply part_nonempty. Qed.

Lemma sec_ter_stage s1 t1 s2 t2 :
  wf_opt s1 -> wf_opt t1 -> wf_opt s2 -> wf_opt t2 ->
  sec_ter (scmp true false) (print_opt s1) (print_opt t1) (print_opt s2) (print_opt t2) =
  Ok (then_cmp (sec_compare (option_map part_key s1) (option_map part_key s2))
               (ter_compare (option_map part_key t1) (option_map part_key t2))).
Proof.
  intros Ws1 Wt1 Ws2 Wt2. pose proof (scmp_ter t1 t2 Wt1 Wt2) as T. unfold sec_ter.
  destruct s1 as [a|], s2 as [b|]; cbn [print_opt option_map sec_compare wf_opt nonempty] in *;
    rewrite ?nonempty_print by assumption; cbn [orb andb nonempty then_cmp]; try reflexivity.
  - rewrite scmp_part by assumption. destruct (pkey_compare (part_key a) (part_key b)); cbn [then_cmp]; auto.
  - destruct t1 as [c|], t2 as [d|]; cbn [print_opt nonempty wf_opt] in *;
      rewrite ?nonempty_print by assumption; cbn [orb]; auto.
Qed.

Lemma scmp_cname strict c1 c2 :
  wf_cname c1 -> wf_cname c2 ->
  (strict = false \/ cname_letters c1 = cname_letters c2) ->
  scmp true strict (print_cname c1) (print_cname c2) = Ok (key_compare (cname_key c1) (cname_key c2)).
Proof.
  destruct c1 as [[p1 s1] t1], c2 as [[p2 s2] t2]. intros W1 W2 S.
  rewrite scmp_unfold. unfold scmp_step. rewrite !cname_split by assumption.
  destruct W1 as (Wp1 & Ws1 & Wt1), W2 as (Wp2 & Ws2 & Wt2).
  rewrite sec_ter_stage by assumption.
  rewrite (prim_stage strict p1 p2 _ Wp1 Wp2 S).
  cbn [cname_key key_compare]. now destruct (pkey_compare (part_key p1) (part_key p2)).
Qed.

Lemma scmp_cname_unsortable c1 c2 :
  wf_cname c1 -> wf_cname c2 -> cname_letters c1 <> cname_letters c2 ->
  scmp true true (print_cname c1) (print_cname c2) = Err Unsortable.
Proof.
  destruct c1 as [[[[l1 d1] r1] s1] t1], c2 as [[[[l2 d2] r2] s2] t2]. intros W1 W2 N.
  rewrite scmp_unfold. unfold scmp_step. rewrite !cname_split by assumption.
  destruct W1 as (Wp1 & _), W2 as (Wp2 & _). rewrite cmp_primaries_unsortable by assumption.
  destruct (str_eqb_spec (print_part (l1, d1, r1)) (print_part (l2, d2, r2))) as [E|_]; [|reflexivity].
  apply print_part_letters in E; auto. contradiction.
Qed.

Lemma prefix_of_cname v c : key v = cname_key c -> prefix_of v = cname_letters c.
Proof. unfold prefix_of. intros ->. now destruct c as [[[[l d] r] s] t]. Qed.

(* the refinement theorem in both modes *)
Lemma std_compare_key_order strict a b :
  conv a = true -> conv b = true -> (strict = false \/ prefix_of a = prefix_of b) ->
  std_compare strict a b = Ok (key_compare (key a) (key b)).
Proof.
  intros Ca Cb Hp. destruct (conv_spec a Ca) as [c1 (W1 & P1 & K1)]. destruct (conv_spec b Cb) as [c2 (W2 & P2 & K2)].
  rewrite (prefix_of_cname a c1 K1), (prefix_of_cname b c2 K2) in Hp.
  rewrite std_compare_scmp, K1, K2, <- P1, <- P2. now apply scmp_cname.
Qed.

Lemma cmp_key_order a b :
  conv a = true -> conv b = true -> version_cmp a b = Ok (key_compare (key a) (key b)).
Proof. intros Ca Cb. apply std_compare_key_order; auto. Qed.

Lemma cmp_strict_key_order a b :
  conv a = true -> conv b = true -> prefix_of a = prefix_of b ->
  version_cmp_strict a b = Ok (key_compare (key a) (key b)).
Proof. intros Ca Cb Hp. apply std_compare_key_order; auto. Qed.

Lemma cmp_strict_unsortable a b :
  conv a = true -> conv b = true -> prefix_of a <> prefix_of b -> version_cmp_strict a b = Err Unsortable.
Proof.
  intros Ca Cb Hp. destruct (conv_spec a Ca) as [c1 (W1 & P1 & K1)]. destruct (conv_spec b Cb) as [c2 (W2 & P2 & K2)].
  rewrite (prefix_of_cname a c1 K1), (prefix_of_cname b c2 K2) in Hp.
  unfold version_cmp_strict. rewrite std_compare_scmp, <- P1, <- P2. now apply scmp_cname_unsortable.
Qed.

Lemma version_cmp_printed c1 c2 :
  wf_cname c1 -> wf_cname c2 ->
  version_cmp (print_cname c1) (print_cname c2) = Ok (key_compare (cname_key c1) (cname_key c2)).
Proof. intros W1 W2. unfold version_cmp. rewrite std_compare_scmp. apply scmp_cname; auto. Qed.

Lemma version_cmp_parts p q :
  wf_part p -> wf_part q -> version_cmp (print_part p) (print_part q) = Ok (pkey_compare (part_key p) (part_key q)).
Proof. apply scmp_part. Qed.

Definition part_snoc (p : part) (s : ascii) (d : str) : part :=
  let '(l, d0, rest) := p in (l, d0, rest ++ [(s, d)]).

Lemma wf_part_snoc p s d : wf_part p -> is_sep s = true -> all_digits d = true -> wf_part (part_snoc p s d).
Proof.
  destruct p as [[l d0] rest]. intros (L & M & D & W) S Dd. cbn. repeat split; auto.
  apply Forall_app. split; [assumption|]. constructor; [split; assumption|constructor].
Qed.

Lemma print_part_snoc p s d : print_part (part_snoc p s d) = print_part p ++ s :: d.
Proof.
  destruct p as [[l d0] rest]. cbn [part_snoc print_part]. rewrite flat_map_app. cbn [flat_map fst snd].
  now rewrite app_nil_r, <- !app_assoc.
Qed.

Lemma part_key_snoc p s d :
  part_key (part_snoc p s d) = (fst (part_key p), snd (part_key p) ++ [num_of_digits d]).
Proof.
  destruct p as [[l d0] rest]. cbn [part_snoc part_key fst snd]. now rewrite map_app.
Qed.
