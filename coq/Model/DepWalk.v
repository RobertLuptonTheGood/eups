(* C13 - the dependency walk with the version resolver inside.

     Table.dependencies            python/eups/table.py  518-670   -> [dwalk]
     Action.processArgs            python/eups/table.py  795-960   -> [line_vro] here, the words in Model/DepWalkText.v
     Eups.getDependentProducts     python/eups/Eups.py  3076-3268  -> [dep_products2], [dep_products]

   Model/Graph.v takes the product every table line denotes as an INPUT (the field eres of an edge).  Here
   the walk calls the resolver of Model/Resolve.v (C03) for every line it meets, as the code does:

     for a in self.actions(flavor, setupType):                 one [dline] per setupRequired / setupOptional
         requestedVRO, name, _, vers, versExpr, extra = a.processArgs(Eups)
         Eups.pushStack(vro, requestedVRO)                      [line_vro]: the recognised -t tags of the line in front
                                                                of the VRO in force, keep in front of them (-k)
         if name in requiredVersions: findProduct(name, requiredVersions[name])      [lookup_pinned_at]
         else: for flavor in fallbackFlavors(includeMe): findProductFromVRO(name, vers, versExpr, flavor)
                                                                [lookup_at]: the first flavor that answers
         not found (ProductNotFound): the stub Product(name, vers), listed, never walked
         found: listed; unless -j or already in recursiveDict, marked there and its table walked one level deeper
                - BEFORE popStack: the lines of that table are read with the VRO of this line in force, so the
                -t tags (and keep) of every line on the way down accumulate in front of the VRO of the command
         productDictionary[topProduct].append(...)
         Eups.popStack(vro)

   What findProductFromVRO reads besides the database and the VRO is Eups.alreadySetupProducts: empty for a
   process that lists (nothing is set up by a listing), hence prev = None and depth 0 in every call.

   Nodes, entries, the walk state (recursiveDict as a list of nodes, productDictionary) and everything after
   the walk (topologicalSort, depths, de-duplication) are those of Model/Graph.v.  A product is therefore
   identified by name and version; the world gives ONE table per declared (name, version) - [dworld_ok]
   in Proofs/DepWalkEdges.v says what that asks of a database with several stacks and flavors.

   Which lines a table has depends on the setup types and on the flavor it is read for (Model/DepWalkText.v):
   the first walk reads the tables for Eups.setupType when followExact (Eups.exact_version) holds, the second,
   ordering walk always without the exact type; [dep_products2] takes the two table sets.  The Eups a command
   builds is in exact mode as soon as its VRO holds type:exact - the shipped VRO starts with it
   (Model/DepWalkText.v follow_of).  findProductFromVRO appends exact to Eups.setupType whenever its loop passes
   a type:exact entry; the type list of a walk is unchanged by that when followExact is false (exact is filtered
   out at every level) or exact is already in the list - the cases a command can be in.

   Pinned names (requiredVersions): findProduct(name, version) is an explicit look-up - under every flavor of
   the list in the repaired code (proposed_fixes/C13-pinned-lookup-fallback-flavor), under the running flavor
   only in the pinned tree ([pf] is that list); a pin of None makes it findPreferredProduct, modelled as the
   walk over the line VRO with no version named (equal unless the VRO holds a warn entry or an unrecognised
   word, where the code raises TagNotRecognized: [vro_pref_ok], answered Err Undefined); a pinned relational
   expression (the one product listed for a name is the stub of an unresolved relational line) would go through
   _findPreferredProductByExpr with the preferred tags: Err Undefined as well.  Err Refused is the RuntimeError
   of checkCycles, as in Model/Graph.v.
   Not modelled: unsetupRequired lines, --external listings, a table file that is missing (TableFileNotFound),
   a declared implicit product (hooks.config.Eups.defaultProduct), Eups.findProducts choosing the root product.
   Executable definitions only. *)
From Eupsv Require Import Base.Base Model.Resolve Model.ResolveSpec Model.Graph.

(* both Model/Resolve.v and Model/Graph.v have an entry: a word of the VRO / a line of a listing *)
Notation ventry := Resolve.entry.

(* ---------------------------------------------------------------- one dependency line, after processArgs *)

Record dline := mkDline {
  dl_name : str;
  dl_version : option str;      (* vers *)
  dl_expr : option str;         (* versExpr: the bracketed expression *)
  dl_tags : list str;           (* -t / --tag words, in order *)
  dl_keep : bool;               (* -k *)
  dl_optional : bool;           (* setupOptional *)
  dl_just : bool }.             (* -j: noRecursion *)

(* declared (name, version) -> the dependency lines of its table for the flavor and setup types at hand *)
Definition dtables := list ((str * str) * list dline).

Fixpoint dtable_of (T : dtables) (n v : str) : option (list dline) :=
  match T with
  | [] => None
  | ((n', v'), ls) :: r => if str_eqb n n' && str_eqb v v' then Some ls else dtable_of r n v
  end.

Definition dnode_table (T : dtables) (p : node) : option (list dline) :=
  if nreal p then match nver p with Some v => dtable_of T (nname p) v | None => None end else None.

(* processArgs: requestedVRO = the recognised -t tags, then the current list; keep in front when -k was given
   or the current list has it *)
Definition line_vro (c : config) (vro : list ventry) (l : dline) : list ventry :=
  let v := map parse_entry (filter (recognized c) (dl_tags l)) ++ vro in
  if dl_keep l || mem_entry EKeep vro then EKeep :: v else v.

Definition dreq (l : dline) : request := mkRequest (dl_name l) (dl_version l) (dl_expr l).

(* ---------------------------------------------------------------- the look-ups *)

Section Lookup.
  Variable vcmp : str -> str -> comparison.
  Variable vmatch : str -> str -> bool.
  Variable c : config.
  Variable db : dbv.
  Variable flavors : list str.          (* the running flavor, then its fall-back flavors *)
  Variable vro : list ventry.            (* Eups.getPreferredTags() when the listing starts *)

  (* the loop over the flavors around findProductFromVRO (depth 0, nothing set up before) *)
  Definition vro_lookup (fl : list str) (lv : list ventry) (rq : request) : option found :=
    first_some (fun f => option_map fst (find_from_vro vcmp vmatch c db None f 0 lv rq)) fl.

  (* a line whose VRO (after processArgs) is [lv] *)
  Definition lookup_at (lv : list ventry) (l : dline) : option found := vro_lookup flavors lv (dreq l).

  (* a line met while [vro] is in force *)
  Definition lookup_line (l : dline) : option found := lookup_at (line_vro c vro l) l.

  (* Eups.findProduct(name, requiredVersions[name]) under the flavors [pf], the VRO of the line being [lv] *)
  Definition lookup_pinned_at (pf : list str) (lv : list ventry) (l : dline) (pv : option str) : option found :=
    match pv with
    | None => vro_lookup pf lv (mkRequest (dl_name l) None None)
    | Some v => first_some (fun f => find_version db (dl_name l) v f) pf
    end.

  Definition lookup_pinned (pf : list str) (l : dline) (pv : option str) : option found :=
    lookup_pinned_at pf (line_vro c vro l) l pv.
End Lookup.

(* findPreferredProduct asks Tags.getTag for every entry that is not a number or a type: entry *)
Definition vro_pref_ok (c : config) (vro : list ventry) : bool :=
  forallb (fun e => match e with
                    | EWarn _ => false
                    | ETag t => recognized c t || all_digits t
                    | _ => true
                    end) vro.

(* ---------------------------------------------------------------- Table.dependencies *)

Definition tgt_of (l : dline) (o : option found) : node :=
  match o with
  | Some fd => (dl_name l, Some (fd_version fd), true)
  | None => (dl_name l, dl_version l, false)
  end.

Section Walk.
  (* the VRO in force is handed down: Table.dependencies pushes the VRO of a line before it resolves the line
     AND walks the table of the product found, and pops it afterwards - so the lines of that table are read
     with the -t tags (and keep) of every line on the way down in front of the VRO of the command *)
  Variable lvro : list ventry -> dline -> list ventry.                         (* processArgs: requestedVRO *)
  Variable lk : list ventry -> dline -> option found.                          (* a line under the VRO given *)
  Variable lkp : list ventry -> dline -> option str -> option found.           (* a line whose name is pinned *)
  Variable T : dtables.
  Variable pins : list (str * option str).

  Definition dresolve (lv : list ventry) (l : dline) : node :=
    match pin_of pins (dl_name l) with
    | None => tgt_of l (lk lv l)
    | Some pv => tgt_of l (lkp lv l pv)
    end.

  Section Lines.
    Variable rec : list ventry -> node -> nat -> list dline -> wstate -> res (list entry * wstate).

    Fixpoint dwalk_lines (vro : list ventry) (tp : node) (depth : nat) (ls : list dline) (st : wstate)
      : res (list entry * wstate) :=
      match ls with
      | [] => Ok ([], st)
      | l :: r =>
          let lv := lvro vro l in
          let t := dresolve lv l in
          let sub :=
            if nreal t && negb (dl_just l) && negb (mem_node t (vis st)) then
              match dnode_table T t with
              | Some ls' => rec lv t (S depth) ls' (pd_ensure t (mark t st))
              | None => Ok ([], mark t st)
              end
            else Ok ([], st) in
          match sub with
          | Err x => Err x
          | Ok (l1, st2) =>
              match dwalk_lines vro tp depth r (pd_add tp t st2) with
              | Err x => Err x
              | Ok (l2, st3) => Ok ((t, dl_optional l, depth) :: l1 ++ l2, st3)
              end
          end
      end.
  End Lines.

  Fixpoint dwalk (fuel : nat) (vro : list ventry) (tp : node) (depth : nat) (ls : list dline) (st : wstate)
    : res (list entry * wstate) :=
    match fuel with
    | 0 => Err OutOfFuel
    | S f => dwalk_lines (dwalk f) vro tp depth ls st
    end.

  (* prodtbl.dependencies(recursive=True, recursionDepth=1, requiredVersions=pins) *)
  Definition dwalk_top (fuel : nat) (vro : list ventry) (top : node) : res (list entry * wstate) :=
    match dnode_table T top with
    | None => Ok ([], mkW [] [])
    | Some ls => dwalk fuel vro top 1 ls (mkW [] [(top, [])])
    end.
End Walk.

(* ---------------------------------------------------------------- the edges the walk follows, as a world of Model/Graph.v *)

Definition edge_of (lk : dline -> option found) (l : dline) : edge :=
  mkEdge (dl_name l) (dl_version l) (option_map fd_version (lk l)) (dl_optional l).

Definition edges_world (lk : dline -> option found) (T : dtables) : world :=
  map (fun it => (fst it, map (edge_of lk) (snd it))) T.

(* ---------------------------------------------------------------- getDependentProducts *)

Definition expr_pin (p : str * option str) : bool :=
  match snd p with Some v => is_expr v | None => false end.
Definition none_pin (p : str * option str) : bool :=
  match snd p with None => true | Some _ => false end.

Section Products.
  Variable lvro : list ventry -> dline -> list ventry.
  Variable lk : list ventry -> dline -> option found.
  Variable lkp : list ventry -> dline -> option str -> option found.
  Variable pref_ok : bool.              (* vro_pref_ok of the VRO of the command *)
  Variable vro : list ventry.           (* Eups.getPreferredTags() when the listing starts *)

  (* the second, inexact walk: the listed names tied to the versions listed for them (D16 repaired) *)
  Definition dep_second (fuel : nat) (TB : dtables) (top : node) (dp : list entry) : res wstate :=
    let pins := pins_fixed top dp in
    if existsb expr_pin pins then Err Undefined
    else if existsb none_pin pins && negb pref_ok then Err Undefined
    else match dwalk_top lvro lk lkp TB pins fuel vro top with
         | Err x => Err x
         | Ok (_, st) => Ok st
         end.

  (* [TA]: the tables as the first walk reads them (followExact as given); [TB]: without the exact type *)
  Definition dep_products2 (fuel : nat) (TA TB : dtables) (top : node) (topological check : bool)
    : res (list entry) :=
    match dwalk_top lvro lk lkp TA [] fuel vro top with
    | Err x => Err x
    | Ok (l, _) =>
        let dp := drop_top top l in
        if negb (topological || check) then Ok dp
        else
          match dep_second fuel TB top dp with
          | Err x => Err x
          | Ok st =>
              match topo_layers_with node_cmp check (pd st) with
              | Err x => Err x
              | Ok L => Ok (topo_finish true L dp)
              end
          end
    end.

  (* the graph handed to topologicalSort *)
  Definition dep_topo_graph (fuel : nat) (TA TB : dtables) (top : node) : res graph :=
    match dwalk_top lvro lk lkp TA [] fuel vro top with
    | Err x => Err x
    | Ok (l, _) =>
        match dep_second fuel TB top (drop_top top l) with
        | Err x => Err x
        | Ok st => Ok (prepare (pd st))
        end
    end.
End Products.

(* ---------------------------------------------------------------- a listing command *)

Record dworld := mkDworld {
  dw_db : dbv;
  dw_exact : dtables;          (* the tables read with the setup types of the command *)
  dw_inexact : dtables }.      (* ... and with exact removed from them *)

Section Command.
  Variable vcmp : str -> str -> comparison.
  Variable vmatch : str -> str -> bool.
  Variable c : config.
  Variable flavors : list str.
  Variable pf : list str.       (* the flavors a pinned look-up tries *)

  Definition lk_at (W : dworld) : list ventry -> dline -> option found :=
    lookup_at vcmp vmatch c (dw_db W) flavors.
  Definition lkp_at (W : dworld) : list ventry -> dline -> option str -> option found :=
    lookup_pinned_at vcmp vmatch c (dw_db W) pf.

  (* getDependentProducts(top, topological, checkCycles) on an Eups whose preferred tags are [vro] and whose
     exact_version is [follow] *)
  Definition dep_products (W : dworld) (vro : list ventry) (follow : bool) (fuel : nat) (top : node)
             (topological check : bool) : res (list entry) :=
    dep_products2 (line_vro c) (lk_at W) (lkp_at W) (vro_pref_ok c vro) vro fuel
                  (if follow then dw_exact W else dw_inexact W) (dw_inexact W) top topological check.

  Definition dep_graph (W : dworld) (vro : list ventry) (follow : bool) (fuel : nat) (top : node) : res graph :=
    dep_topo_graph (line_vro c) (lk_at W) (lkp_at W) (vro_pref_ok c vro) vro fuel
                   (if follow then dw_exact W else dw_inexact W) (dw_inexact W) top.

  (* eups list --dependencies [--topological] [--checkCycles] [-e] [-t tag ...] name [version]:
     Eups(exact_version), selectVRO(tags, None, version, None), then the listing of the product found *)
  Definition list_command (W : dworld) (o : opts) (fuel : nat) (top : node) (topological check : bool)
    : res (list entry) :=
    match select_vro c o with
    | Err e => Err e
    | Ok vro => dep_products W vro (o_exact o) fuel top topological check
    end.
End Command.

(* ---------------------------------------------------------------- decidable forms of the hypotheses of Props/C13.v *)

(* (sound: Proofs/DepWalkEdges.v; the correspondence check evaluates them on every world it compares) *)
Definition is_some {A} (o : option A) : bool := match o with Some _ => true | None => false end.


Definition dworld_ok_b (db : dbv) (flavors : list str) (T : dtables) : bool :=
  wf_db db &&
  forallb (fun s => forallb (fun d => match d with (n, v, f) =>
                                        if mem_str f flavors then is_some (dtable_of T n v) else true
                                      end) (st_decl s)) db &&
  forallb (fun it => match it with ((n, v), _) =>
                       nonempty v && existsb (fun s => existsb (fun f => Resolve.declared s n v f) flavors) db
                     end) T.

Definition db_names (db : dbv) : list str :=
  flat_map (fun s => map (fun d => match d with (n, _, _) => n end) (st_decl s)) db.

Definition vcmp_ok_b (vcmp : str -> str -> comparison) (db : dbv) : bool :=
  forallb (fun n => total_orderb vcmp (names_of db n)) (db_names db).

Definition no_just_b (T : dtables) : bool := forallb (fun it => forallb (fun l => negb (dl_just l)) (snd it)) T.

Definition plain_line_b (c : config) (l : dline) : bool :=
  negb (dl_keep l) && match filter (recognized c) (dl_tags l) with [] => true | _ => false end.

Definition plain_tables_b (c : config) (vro : list ventry) (T : dtables) : bool :=
  negb (mem_entry EKeep vro) && forallb (fun it => forallb (plain_line_b c) (snd it)) T.


(* Eups.uses: the topological listing of every declared product (the index Uses.invert / Uses.users of
   Model/Graph.v work on) *)
Fixpoint dep_listings (f : node -> res (list entry)) (ps : list (str * str))
  : res (list ((str * str) * list entry)) :=
  match ps with
  | [] => Ok []
  | (n, v) :: r =>
      match f (n, Some v, true) with
      | Err x => Err x
      | Ok l => match dep_listings f r with
                | Err x => Err x
                | Ok ls => Ok (((n, v), l) :: ls)
                end
      end
  end.

Definition dep_uses_index (vcmp : str -> str -> comparison) (vmatch : str -> str -> bool) (c : config)
           (flavors pf : list str) (W : dworld) (vro : list ventry) (fuel : nat)
  : res (list ((str * str) * list entry)) :=
  dep_listings (fun top => dep_products vcmp vmatch c flavors pf W vro true fuel top true false)
               (map fst (dw_exact W)).

(* the instance that is extracted with the dotted-numeric comparator of Model/Resolve.v *)
Definition list_command_simple := list_command vcmp_simple vmatch_simple.
