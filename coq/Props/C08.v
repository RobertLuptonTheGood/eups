(* C08 - An interrupted update never corrupts or loses existing declarations.
   Generic layer: whatever list of record-level effects a mutating operation performs (C06's
   model computes it), killing the process after any number k of system calls of the repaired
   (write-temporary-then-rename) protocol leaves the database records exactly as after a whole
   number j of those effects.  Hence every record is seen in its old or its new form, never
   truncated, and records the operation does not target are untouched.
   Second layer (below, from crash_db_is_effect_prefix on): the commands of C06 on this store -
   which command produces which effects and what a fresh reader sees at every crash point. *)
From Eupsv Require Import Base.Base Base.BaseLemmas Model.Crash Proofs.Crash.
From Coq Require Import Lia.

Theorem crash_is_effect_prefix f l k :
  clean f -> Forall wf_effect l ->
  exists j, j <= length l /\
    forall q, is_tmp q = false ->
      alookup q (crash_state lower_atomic f l k) = alookup q (apply_effects f (firstn j l)).
Proof. exact (crash_is_effect_prefix_gen l f k). Qed.
Print Assumptions crash_is_effect_prefix.

(* each record is seen in its old form or in the complete form some write of the operation gives it *)
Theorem records_old_or_new f l k q c :
  clean f -> Forall wf_effect l -> is_tmp q = false ->
  alookup q (crash_state lower_atomic f l k) = Some (File c) ->
  alookup q f = Some (File c) \/ In (EWrite q c) l.
Proof.
  intros Hc Hw Hq H. destruct (crash_is_effect_prefix f l k Hc Hw) as [j [_ Hj]].
  rewrite (Hj q Hq) in H. destruct (apply_effects_file _ _ _ _ H) as [H1|H1]; [now left|].
  right. now apply (In_firstn _ j).
Qed.
Print Assumptions records_old_or_new.

(* records that are not the target of any effect of the interrupted operation are exactly as before *)
Theorem untargeted_records_untouched f l k q :
  clean f -> Forall wf_effect l -> is_tmp q = false ->
  (forall e, In e l -> q <> effect_target e) ->
  alookup q (crash_state lower_atomic f l k) = alookup q f.
Proof.
  intros Hc Hw Hq Hn. destruct (crash_is_effect_prefix f l k Hc Hw) as [j [_ Hj]].
  rewrite (Hj q Hq). apply apply_effects_other. intros e He. apply Hn. now apply (In_firstn _ j).
Qed.
Print Assumptions untargeted_records_untouched.

(* running to completion is the special case k = all system calls *)
Theorem completed_operation_applies_all f l :
  clean f -> Forall wf_effect l ->
  crash_state lower_atomic f l (length (lower_all lower_atomic l)) = apply_effects f l.
Proof.
  intros Hc Hw. unfold crash_state. rewrite firstn_all.
  revert f Hc. induction Hw as [|e l He Hl IH]; intros f Hc; [reflexivity|].
  unfold lower_all. cbn [flat_map]. rewrite run_all_app, atomic_complete by assumption.
  unfold apply_effects. cbn [fold_left]. apply IH. now apply clean_apply.
Qed.
Print Assumptions completed_operation_applies_all.

(* the pinned (in place) protocol does lose records: rewriting a version file that holds the block of
   another flavor and dying right after open(file, "w") leaves it empty *)
Theorem inplace_refuted_pinned :
  exists f l k q c,
    clean f /\ Forall wf_effect l /\ alookup q f = Some (File c) /\ c <> [] /\
    alookup q (crash_state lower_inplace f l k) = Some (File []).
Proof.
  pose (q := lit "ups_db/a/1.version"). pose (c := [lit "FLAVOR = Linux64"]).
  exists [(q, File c)], [EWrite q (c ++ [lit "FLAVOR = Darwin"])], 1, q, c.
  split; [apply clean_cons; [reflexivity|apply clean_nil]|].
  split; [repeat constructor|]. split; [reflexivity|]. split; [discriminate|]. reflexivity.
Qed.
Print Assumptions inplace_refuted_pinned.

(* non-vacuity: a two-effect operation (rewrite a chain file, remove a version file), crashed inside the
   first write, shows the old chain file *)
Example c08_hypotheses_inhabited :
  let f := [(lit "ups_db/a/current.chain", File [lit "VERSION = 1"]); (lit "ups_db/a/1.version", File [lit "x"])] in
  let l := [EWrite (lit "ups_db/a/current.chain") [lit "VERSION = 2"]; ERemove (lit "ups_db/a/1.version")] in
  alookup (lit "ups_db/a/current.chain") (crash_state lower_atomic f l 2) = Some (File [lit "VERSION = 1"]) /\
  alookup (lit "ups_db/a/current.chain") (crash_state lower_atomic f l 4) = Some (File [lit "VERSION = 2"]) /\
  alookup (lit "ups_db/a/1.version") (crash_state lower_atomic f l 4) = Some (File [lit "x"]) /\
  alookup (lit "ups_db/a/1.version") (crash_state lower_atomic f l 5) = None.
Proof. vm_compute. repeat split. Qed.

(* ================================================================================================
   Second layer: the database commands of C06 (Model/Db.v) on this store (Model/CrashDb.v).

   [represents f d]: the store f holds exactly the records of database d, printed, at the paths
   <stack>/ups_db/<product>/<version>.version and <stack>/ups_db/<product>/<tag>.chain, no temporary
   file, and every name in d can be a path component.  [op_ok o]: the product, version and tag named on
   the command line contain no slash and the product does not end in .tmp.  [effects d o = Ok es]: the
   file effects the command performs (C06).  [crash_fs f es k]: the store after k system calls of the
   write-temporary-then-rename lowering of es.  [read_db]: a fresh reader (lists the store, parses every
   version and chain file of the stacks on the path, raises on a record that does not parse).
   [crash_point f d o es k d'] bundles: represents f d, op_ok o, effects d o = Ok es, and the reader
   returned d' on the crashed store.  Record contents are abstract (field values, one per line).
   ================================================================================================ *)
From Eupsv Require Import Model.Db Model.CrashDb Proofs.DbLib Proofs.Db Proofs.DbInv Proofs.DbCor
  Proofs.CrashDbLib Proofs.CrashDb Proofs.CrashDbAct Proofs.CrashDbMain Proofs.CrashDbWitness.

(* the database read back from the crashed store is the database after a whole number of file effects *)
Theorem crash_db_is_effect_prefix f d o es k :
  represents f d -> op_ok o = true -> effects d o = Ok es ->
  exists j d', j <= length es /\
    read_db (map fst d) (crash_fs f es k) = Ok d' /\ db_eq d' (apply (firstn j es) d).
Proof. exact (crash_point_reads f d o es k). Qed.
Print Assumptions crash_db_is_effect_prefix.

(* a file-effect prefix reads as an action prefix: what the reader sees after the crash is, for the whole
   view at once, the view after a whole number of refined actions (Database.undeclare spelled out as
   unassign each tag, then remove the version block) *)
Theorem crash_view_is_action_prefix f d o es k d' : crash_point f d o es k d' ->
  exists acts i, decide false (view d) o = Ok acts /\ i <= length (refine d acts) /\
    aeq (view d') (aapply_all (firstn i (refine d acts)) (view d)).
Proof.
  intro C. destruct (crash_point_view _ _ _ _ _ _ C) as [acts [j [Hd [_ Hv]]]].
  destruct (effect_prefix_is_action_prefix d acts j) as [i [Hi K]].
  exists acts, i. split; [exact Hd|]. split; [exact Hi|]. eapply aeq_trans; eassumption.
Qed.
Print Assumptions crash_view_is_action_prefix.

(* every declaration and every tag assignment reads as its value after i or after i+1 of the command's
   record-level actions, the same i for all of them (i = 0: its value before the command) *)
Theorem crash_view_old_or_step f d o es k d' : crash_point f d o es k d' ->
  exists acts i, decide false (view d) o = Ok acts /\ i <= length acts /\
    same_or (view d') (aapply_all (firstn i acts) (view d)) (aapply_all (firstn (S i) acts) (view d)).
Proof.
  intro C. destruct (crash_between f d o es k d' C) as [acts [i [Hd [_ H]]]]. exists acts, i. split; [exact Hd|exact H].
Qed.
Print Assumptions crash_view_old_or_step.

(* special case - a command that comes down to at most one action (assignTag, unassignTag, undeclare or remove of a
   version however many tags point at it, a declaration that assigns no tag): old or new *)
Theorem crash_view_old_or_new_single_action f d o es k d' acts : crash_point f d o es k d' ->
  decide false (view d) o = Ok acts -> length acts <= 1 ->
  same_or (view d') (view d) (view (apply es d)).
Proof. intros C _ _. exact (crash_old_or_new f d o es k d' C). Qed.
Print Assumptions crash_view_old_or_new_single_action.

(* special case: every command except declare (undeclare --tag with undeclareVersionAndTag is two actions) *)
Theorem crash_view_old_or_new_not_declare f d o es k d' : crash_point f d o es k d' -> is_declare o = false ->
  same_or (view d') (view d) (view (apply es d)).
Proof. intros C _. exact (crash_old_or_new f d o es k d' C). Qed.
Print Assumptions crash_view_old_or_new_not_declare.

(* declarations: old or new for every command, declare included *)
Theorem crash_decl_old_or_new f d o es k d' : crash_point f d o es k d' ->
  forall s n v fl, a_decl (view d') s n v fl = a_decl (view d) s n v fl \/
                   a_decl (view d') s n v fl = a_decl (view (apply es d)) s n v fl.
Proof. intros C. exact (proj1 (crash_old_or_new f d o es k d' C)). Qed.
Print Assumptions crash_decl_old_or_new.

(* the literal statement, for all commands, declare with a tag move included: every declaration and every tag
   assignment (per stack, product, tag or version, flavor) reads as its value before the command or as its value
   after the completed command.  Eups.declare moves a tag by assigning it first (Database.assignTag replaces the
   flavor's entry of the chain file in one rewrite) and unassigning it in the other stacks of the path afterwards,
   so no key is written twice with different values.  No hypothesis beyond crash_point. *)
Theorem crash_view_old_or_new f d o es k d' : crash_point f d o es k d' ->
  same_or (view d') (view d) (view (apply es d)).
Proof. exact (crash_old_or_new f d o es k d'). Qed.
Print Assumptions crash_view_old_or_new.

(* its tag half spelled out: the tag of a product in a stack for a flavor names the old version or the new one
   (None = not assigned), never anything else - in particular never "unassigned" when it is assigned before and after *)
Theorem crash_tag_old_or_new f d o es k d' : crash_point f d o es k d' ->
  forall s n t fl, a_tag (view d') s n t fl = a_tag (view d) s n t fl \/
                   a_tag (view d') s n t fl = a_tag (view (apply es d)) s n t fl.
Proof. intros C. exact (proj2 (crash_old_or_new f d o es k d' C)). Qed.
Print Assumptions crash_tag_old_or_new.

(* the tag move as the tree had it before the repair (finding D20, Db.effects_pinned: unassign every old occurrence,
   then assign) violates this: declare a 2 -t current, when current points at a 1, killed after the first system
   call (the removal of current.chain): the tag reads as unassigned, neither a 1 nor a 2.  The store protocol is the
   repaired write-temporary-then-rename one, so the order of the two record-level effects alone is to blame *)
Theorem crash_view_old_or_new_refuted_pinned :
  exists f d o es k d', represents f d /\ op_ok o = true /\ effects_pinned d o = Ok es /\
    read_db (map fst d) (crash_fs f es k) = Ok d' /\
    exists s n t fl, a_tag (view d') s n t fl <> a_tag (view d) s n t fl /\
                     a_tag (view d') s n t fl <> a_tag (view (apply es d)) s n t fl.
Proof.
  pose (es := [RemoveC (lit "stack") (lit "a", lit "current");
               WriteC (lit "stack") (lit "a", lit "current") [(w_L, lit "2")]]).
  exists w_f, w_d, w_move, es, 1, (read_raw (map fst w_d) (crash_fs w_f es 1)).
  split; [apply w_represents|]. split; [reflexivity|]. split; [vm_compute; reflexivity|].
  split; [apply read_db_raw; vm_compute; reflexivity|].
  exists (lit "stack"), (lit "a"), (lit "current"), w_L. vm_compute. split; discriminate.
Qed.
Print Assumptions crash_view_old_or_new_refuted_pinned.

(* the same command on the same state with the repaired order: one file effect (the rewrite of current.chain, four
   system calls); before the rename the tag names a 1, from the rename on a 2 *)
Example c08_tag_move_inhabited :
  let es := op_effects w_d w_move in
  let seen k := a_tag (view (read_raw (map fst w_d) (crash_fs w_f es k))) (lit "stack") (lit "a") (lit "current") w_L in
  length es = 1 /\ length (lower_all lower_atomic (images es)) = 5 /\
  crash_point w_f w_d w_move es 4 (read_raw (map fst w_d) (crash_fs w_f es 4)) /\
  map seen [0; 1; 2; 3; 4; 5] =
    [Some (lit "1"); Some (lit "1"); Some (lit "1"); Some (lit "1"); Some (lit "1"); Some (lit "2")].
Proof.
  intros es seen. split; [vm_compute; reflexivity|]. split; [vm_compute; reflexivity|]. split.
  - apply crash_point_raw; [apply w_represents|reflexivity|vm_compute; reflexivity].
  - vm_compute. reflexivity.
Qed.

(* no tag points at an undeclared version at any crash point of any command *)
Theorem no_dangling_at_every_crash_point f d o es k d' : crash_point f d o es k d' ->
  no_dangling (view d) -> no_dangling (view d').
Proof.
  intros C Hn. destruct (crash_point_view _ _ _ _ _ _ C) as [acts [j [Hd [_ Hv]]]].
  apply (no_dangling_aeq _ _ (aeq_sym _ _ Hv)). apply no_dangling_effect_prefix; [exact Hn|].
  apply (decide_acts_ok _ _ _ _ Hd).
Qed.
Print Assumptions no_dangling_at_every_crash_point.

(* declarations and tags of other products, or of the same product for another flavor, are unchanged *)
Theorem crash_frame f d o es k d' : crash_point f d o es k d' ->
  forall s n x fl, (n, fl) <> op_nf o ->
  a_decl (view d') s n x fl = a_decl (view d) s n x fl /\ a_tag (view d') s n x fl = a_tag (view d) s n x fl.
Proof.
  intros C s n x fl N. destruct (crash_prefix_values _ _ _ _ _ _ C) as [acts [Hd [_ [Kd Kt]]]].
  pose proof (decide_scope _ _ _ _ Hd) as Sc.
  destruct (Kd s n x fl) as [j ->]. destruct (Kt s n x fl) as [j' ->].
  split; apply (aapply_all_frame_nf (firstn _ acts) (op_nf o) (Forall_firstn _ _ _ Sc)); exact N.
Qed.
Print Assumptions crash_frame.

(* every command but declare (whose tag move walks the whole path) works in one stack *)
Theorem crash_frame_other_stacks f d o es k d' : crash_point f d o es k d' -> is_declare o = false ->
  exists s0, forall s n x fl, s <> s0 ->
  a_decl (view d') s n x fl = a_decl (view d) s n x fl /\ a_tag (view d') s n x fl = a_tag (view d) s n x fl.
Proof.
  intros C Hnd. destruct (crash_prefix_values _ _ _ _ _ _ C) as [acts [Hd [_ [Kd Kt]]]].
  destruct (decide_one_stack _ _ _ _ Hnd Hd) as [s0 Sc]. exists s0. intros s n x fl N.
  destruct (Kd s n x fl) as [j ->]. destruct (Kt s n x fl) as [j' ->].
  split; apply (aapply_all_frame_stack (firstn _ acts) s0 (Forall_firstn _ _ _ Sc)); exact N.
Qed.
Print Assumptions crash_frame_other_stacks.

(* the reader never raises on a crash state of the repaired protocol: no partial record is visible *)
Theorem reader_total f d o es k :
  represents f d -> op_ok o = true -> effects d o = Ok es ->
  exists d', read_db (map fst d) (crash_fs f es k) = Ok d'.
Proof.
  intros R Hok He. destruct (crash_point_reads f d o es k R Hok He) as [j [d' [_ [H _]]]]. exists d'. exact H.
Qed.
Print Assumptions reader_total.

(* under the pinned in-place protocol it does raise: a second flavor joins the version file of a 1, the
   process dies after the first line of the rewritten file *)
Theorem reader_refuted_pinned :
  exists f d o es k, represents f d /\ op_ok o = true /\ effects d o = Ok es /\
    read_db (map fst d) (crash_fs_inplace f es k) = Err Crash.
Proof.
  pose (es := op_effects w_d w_join). exists w_f, w_d, w_join, es, 2.
  split; [apply w_represents|]. split; [reflexivity|]. split; vm_compute; reflexivity.
Qed.
Print Assumptions reader_refuted_pinned.

(* and one system call earlier (right after the truncating open) the reader succeeds but the declaration of the
   other flavor, present before and after the command, is gone *)
Theorem inplace_loses_declaration_pinned :
  exists f d o es k d', represents f d /\ op_ok o = true /\ effects d o = Ok es /\
    read_db (map fst d) (crash_fs_inplace f es k) = Ok d' /\
    exists s n v fl, a_decl (view d) s n v fl <> None /\ a_decl (view (apply es d)) s n v fl <> None /\
                     a_decl (view d') s n v fl = None.
Proof.
  pose (es := op_effects w_d w_join).
  exists w_f, w_d, w_join, es, 1, (read_raw (map fst w_d) (crash_fs_inplace w_f es 1)).
  split; [apply w_represents|]. split; [reflexivity|]. split; [vm_compute; reflexivity|].
  split; [apply read_db_raw; vm_compute; reflexivity|].
  exists (lit "stack"), (lit "a"), (lit "1"), w_L. vm_compute. repeat split; discriminate.
Qed.
Print Assumptions inplace_loses_declaration_pinned.

(* non-vacuity: every database reached from the empty one by commands with path-safe names is represented
   by the store that the images of their file effects build *)
Theorem reachable_is_represented path ops :
  forallb seg_ok path = true -> forallb op_ok ops = true ->
  represents (store_of path ops) (run false (empty_db path) ops).
Proof. exact (Proofs.CrashDbWitness.reachable_is_represented path ops). Qed.
Print Assumptions reachable_is_represented.

(* the hypotheses hold of a non-trivial state: after declare a 1 -t current; declare a 2, the command
   undeclare a 1 (three file effects: remove current.chain, remove 1.version, rmdir) killed after the first
   one: the tag is gone, the declaration still there, nothing dangles *)
Example c08_crash_point_inhabited :
  let es := op_effects w_d w_undeclare in
  let d' := read_raw (map fst w_d) (crash_fs w_f es 1) in
  crash_point w_f w_d w_undeclare es 1 d' /\ no_dangling (view w_d) /\ length es = 3 /\
  a_tag (view w_d) (lit "stack") (lit "a") (lit "current") w_L = Some (lit "1") /\
  a_tag (view d') (lit "stack") (lit "a") (lit "current") w_L = None /\
  a_decl (view d') (lit "stack") (lit "a") (lit "1") w_L <> None /\
  a_decl (view (apply es w_d)) (lit "stack") (lit "a") (lit "1") w_L = None.
Proof.
  intros es d'. split.
  - apply crash_point_raw; [apply w_represents|reflexivity|vm_compute; reflexivity].
  - split; [apply w_no_dangling|]. vm_compute. repeat split. discriminate.
Qed.

(* ================================================================================================
   Targets.  "Every declaration and tag that was not the target of the interrupted command is reported
   exactly as before": whatever the completed command leaves as it was is as it was at every crash point
   (all commands); and for an undeclare the completed command changes exactly the declaration it names and
   the tags that point at that version for that flavor - the entries other flavors have in the same chain
   files stay, whichever versions they point at (chain files re-pointed per flavor).
   ================================================================================================ *)
From Eupsv Require Import Proofs.CrashDbTarget.

Theorem crash_untouched_by_command_is_untouched f d o es k d' : crash_point f d o es k d' ->
  (forall s n v fl, a_decl (view (apply es d)) s n v fl = a_decl (view d) s n v fl ->
                    a_decl (view d') s n v fl = a_decl (view d) s n v fl) /\
  (forall s n t fl, a_tag (view (apply es d)) s n t fl = a_tag (view d) s n t fl ->
                    a_tag (view d') s n t fl = a_tag (view d) s n t fl).
Proof. intro C. split; [exact (crash_unchanged_decl f d o es k d' C)|exact (crash_unchanged_tag f d o es k d' C)]. Qed.
Print Assumptions crash_untouched_by_command_is_untouched.

(* undeclare n v for flavor fl, found in stack s0: every other declaration - other versions of n, other flavors of
   n v, other products - and every tag assignment that is not (s0, n, fl) pointing at v reads exactly as before at
   every crash point (k = all system calls: after the completed command) *)
Theorem crash_undeclare_frame f d o n vo es k d' s0 v0 :
  crash_point f d (Undeclare o n vo) es k d' -> undeclare_target (view d) o n vo = Ok (s0, v0) ->
  (forall s n' x fl, (s, n', x, fl) <> (s0, n, v0, o_flavor o) ->
     a_decl (view d') s n' x fl = a_decl (view d) s n' x fl) /\
  (forall s n' t fl, (s, n', fl) <> (s0, n, o_flavor o) \/ a_tag (view d) s n' t fl <> Some v0 ->
     a_tag (view d') s n' t fl = a_tag (view d) s n' t fl).
Proof.
  intros C Ht. pose proof (undeclare_completed d o n vo es s0 v0 (cp_eff _ _ _ _ _ _ C) Ht) as [_ [A1 A2]].
  split.
  - intros s n' x fl N. apply (crash_unchanged_decl _ _ _ _ _ _ C). rewrite A1.
    destruct (o_noaction o); [reflexivity|]. rewrite a_decl_aapply.
    destruct (dkey_eqb (s, n', x, fl) (s0, n, v0, o_flavor o)) eqn:E; [|rewrite andb_false_r; reflexivity].
    apply dkey_eqb_eq in E. contradiction.
  - intros s n' t fl N. apply (crash_unchanged_tag _ _ _ _ _ _ C). rewrite A2.
    destruct (o_noaction o); [reflexivity|]. rewrite a_tag_aapply.
    destruct (tag_points (view d) s0 n (o_flavor o) v0 (s, n', t, fl)) eqn:E; [|rewrite andb_false_r; reflexivity].
    apply tag_points_true_inv in E. destruct E as [-> [-> [-> E]]]. destruct N as [N|N]; contradiction.
Qed.
Print Assumptions crash_undeclare_frame.

(* non-vacuity on the shape the quantifier names: a 1 (Linux64) and a 2 (Darwin) both carry current and stable, so
   each chain file holds two flavors pointing at different versions; undeclare a 1 (Linux64) is four file effects
   (rewrite current.chain, rewrite stable.chain, remove 1.version, a refused rmdir), twelve system calls; at each of
   the thirteen crash points the Darwin tags and declaration read as before, and at the end the target is gone *)
Example c08_split_chains_inhabited :
  let es := op_effects x_d x_undeclare in
  let seen k := view (read_raw (map fst x_d) (crash_fs x_f es k)) in
  undeclare_target (view x_d) (w_o w_L) (lit "a") (Some (lit "1")) = Ok (lit "stack", lit "1") /\
  length es = 4 /\ length (lower_all lower_atomic (images es)) = 12 /\
  crash_point x_f x_d x_undeclare es 5 (read_raw (map fst x_d) (crash_fs x_f es 5)) /\
  forallb (fun k => opt_str_eqb (a_tag (seen k) (lit "stack") (lit "a") (lit "current") w_D) (lit "2") &&
                    opt_str_eqb (a_tag (seen k) (lit "stack") (lit "a") (lit "stable") w_D) (lit "2") &&
                    is_some (a_decl (seen k) (lit "stack") (lit "a") (lit "2") w_D))
          (seq 0 13) = true /\
  a_tag (seen 5) (lit "stack") (lit "a") (lit "current") w_L = None /\
  a_tag (seen 5) (lit "stack") (lit "a") (lit "stable") w_L = Some (lit "1") /\
  a_decl (seen 12) (lit "stack") (lit "a") (lit "1") w_L = None.
Proof.
  intros es seen.
  assert (Ht : undeclare_target (view x_d) (w_o w_L) (lit "a") (Some (lit "1")) = Ok (lit "stack", lit "1"))
    by (vm_compute; reflexivity).
  assert (C : forall k, crash_point x_f x_d x_undeclare es k (read_raw (map fst x_d) (crash_fs x_f es k))).
  { intro k. apply crash_point_raw; [apply x_represents|reflexivity|vm_compute; reflexivity]. }
  split; [exact Ht|]. split; [vm_compute; reflexivity|]. split; [vm_compute; reflexivity|].
  split; [apply C|]. split.
  - (* crash_undeclare_frame at each k: the Darwin entries read as they do in x_d *)
    apply forallb_forall. intros k _. pose proof (C k) as Cd. unfold seen.
    set (d' := read_raw _ _) in *. clearbody d'.
    destruct (crash_undeclare_frame _ _ _ _ _ _ _ _ _ _ Cd Ht) as [Hd Hg].
    rewrite 2 Hg, Hd; [vm_compute; reflexivity|intro E; discriminate E|left; intro E; discriminate E..].
  - vm_compute. repeat split.
Qed.

(* ================================================================================================
   The atomic-write helper (utils.AtomicFile, used by ProductStack.persist for the cache every mutating
   command rewrites last) and file-system boundaries (Model/CrashXdev.v).  With the temporary file on the
   target's file system the installation is one rename: the helper is the protocol of the generic layer, the
   cache reads old or new at every crash point and nothing else changes.  With the temporary elsewhere
   (TMPDIR on another mount) an installer that falls back to copying truncates the target first.
   ================================================================================================ *)
From Eupsv Require Import Model.CrashXdev Proofs.CrashCache.

Theorem atomic_helper_same_fs_old_or_new f p c k : clean f -> is_tmp p = false ->
  alookup p (crash_state (lower_atomic_at SameFs) f [EWrite p c] k) = alookup p f \/
  alookup p (crash_state (lower_atomic_at SameFs) f [EWrite p c] k) = Some (File c).
Proof. exact (same_fs_old_or_new f p c k). Qed.
Print Assumptions atomic_helper_same_fs_old_or_new.

Theorem atomic_helper_same_fs_frame f p c k q : clean f -> is_tmp p = false -> is_tmp q = false -> q <> p ->
  alookup q (crash_state (lower_atomic_at SameFs) f [EWrite p c] k) = alookup q f.
Proof.
  intros Hc Hp Hq N. rewrite crash_state_same_fs.
  destruct (crash_one_effect f (EWrite p c) k Hc Hp) as [H|H]; rewrite (H q Hq); [reflexivity|now apply alookup_aset_other].
Qed.
Print Assumptions atomic_helper_same_fs_frame.

(* so a loader of the cache never meets an empty file it did not meet before the command *)
Theorem atomic_helper_same_fs_loader f p c k : clean f -> is_tmp p = false -> c <> [] ->
  load_cache (alookup p f) <> Err Crash ->
  load_cache (alookup p (crash_state (lower_atomic_at SameFs) f [EWrite p c] k)) <> Err Crash.
Proof.
  intros Hc Hp Hn Ho. exact (load_old_or_new _ _ c Hn Ho (same_fs_old_or_new f p c k Hc Hp)).
Qed.
Print Assumptions atomic_helper_same_fs_loader.

(* what a trace shows on the target name (compared with the traces of the real helper by the harness) *)
Theorem atomic_helper_target_sees_one_rename p c : is_tmp p = false -> target_kinds SameFs (EWrite p c) = [KRename].
Proof.
  intro Hp. unfold target_kinds. cbn [lower_atomic_at install]. pose proof (is_tmp_tmp_of p) as Ht.
  cbn [map sys_target filter fst]. rewrite Ht. cbn [negb]. rewrite map_app, filter_app, filter_tmp_appends by exact Ht.
  cbn [map sys_target filter fst app]. rewrite Ht, Hp. reflexivity.
Qed.
Print Assumptions atomic_helper_target_sees_one_rename.

(* across a file-system boundary, installing by copy: once the temporary file is complete and the target has been
   opened, the target is empty whatever it held, and the loader raises - neither old nor new *)
Theorem install_by_copy_is_not_atomic f p c :
  alookup p (crash_state (lower_atomic_at OtherFs) f [EWrite p c] (length c + 3)) = Some (File []) /\
  load_cache (alookup p (crash_state (lower_atomic_at OtherFs) f [EWrite p c] (length c + 3))) = Err Crash /\
  (is_tmp p = false -> target_kinds OtherFs (EWrite p c) = KOpen :: map (fun _ => KWrite) c ++ [KClose]).
Proof.
  split; [apply other_fs_truncates|]. split; [rewrite other_fs_truncates; reflexivity|]. apply target_kinds_other_fs.
Qed.
Print Assumptions install_by_copy_is_not_atomic.

Example c08_cache_helper_inhabited :
  let p := lit "ups_db/Linux64.pickleDB1_3_0" in
  let f := [(p, File [lit "old"])] in
  map (fun k => alookup p (crash_state (lower_atomic_at SameFs) f [EWrite p [lit "new"]] k)) [0; 1; 2; 3; 4] =
    [Some (File [lit "old"]); Some (File [lit "old"]); Some (File [lit "old"]); Some (File [lit "old"]);
     Some (File [lit "new"])] /\
  map (fun k => alookup p (crash_state (lower_atomic_at OtherFs) f [EWrite p [lit "new"]] k)) [3; 4; 5; 6; 7] =
    [Some (File [lit "old"]); Some (File []); Some (File [lit "new"]); Some (File [lit "new"]); Some (File [lit "new"])].
Proof. vm_compute. split; reflexivity. Qed.

(* ================================================================================================
   The product cache when the command is ended by an exception, and when it is killed during the
   rebuild of the cache it performs at start-up (Model/CrashCache.v).
   1. SIGINT reaches python as KeyboardInterrupt: the command unwinds through the with statement of
      utils.AtomicFile.  As the helper is written (the statements after its yield are skipped when the
      body raised) no name but the temporary one changes, whichever call the exception replaces; a helper
      whose exit installs unconditionally leaves an empty cache file that the loader cannot read.
   2. The rebuild persists only complete files (autosave off): every cache file that passes for newer
      than the database holds exactly the rows of its flavor at every crash point, so a later reader
      lists what the database holds whether it believes the cache or not.  With autosave on the partial
      files are believed.
   ================================================================================================ *)
From Eupsv Require Import Model.CrashCache Proofs.CrashCache.

Theorem interrupted_helper_installs_nothing f p c k q : is_tmp q = false -> k < length c + 3 ->
  alookup q (interrupted SkipOnRaise f p c k) = alookup q f.
Proof. exact (interrupted_skip_untouched f p c k q). Qed.
Print Assumptions interrupted_helper_installs_nothing.

Theorem interrupted_helper_old_or_new f p c k : clean f -> is_tmp p = false ->
  alookup p (interrupted SkipOnRaise f p c k) = alookup p f \/
  alookup p (interrupted SkipOnRaise f p c k) = Some (File c).
Proof. exact (interrupted_skip_old_or_new f p c k). Qed.
Print Assumptions interrupted_helper_old_or_new.

Theorem interrupted_helper_frame f p c k q : clean f -> is_tmp q = false -> q <> p ->
  alookup q (interrupted SkipOnRaise f p c k) = alookup q f.
Proof.
  intros Hc Hq N. destruct (Nat.lt_ge_cases k (length c + 3)) as [H|H].
  - now apply interrupted_skip_untouched.
  - rewrite interrupted_complete by assumption. cbn [apply_effect]. now apply alookup_aset_other.
Qed.
Print Assumptions interrupted_helper_frame.

(* so the loader of the cache never meets an empty file it did not meet before the command *)
Theorem interrupted_helper_loader f p c k : clean f -> is_tmp p = false -> c <> [] ->
  load_cache (alookup p f) <> Err Crash ->
  load_cache (alookup p (interrupted SkipOnRaise f p c k)) <> Err Crash.
Proof.
  intros Hc Hp Hn Ho. exact (load_old_or_new _ _ c Hn Ho (interrupted_skip_old_or_new f p c k Hc Hp)).
Qed.
Print Assumptions interrupted_helper_loader.

(* a helper that installs the temporary file in its exit whatever happened: interrupted at its first write
   it replaces a readable cache by an empty one *)
Theorem commit_on_raise_refuted :
  let p := lit "user/_caches_/generic.pickleDB1_3_0" in
  let f := [(p, File [lit "old"])] in
  clean f /\ is_tmp p = false /\ load_cache (alookup p f) = Ok [lit "old"] /\
  alookup p (interrupted CommitOnRaise f p [lit "new1"; lit "new2"] 1) = Some (File []) /\
  load_cache (alookup p (interrupted CommitOnRaise f p [lit "new1"; lit "new2"] 1)) = Err Crash /\
  alookup p (interrupted CommitOnRaise f p [lit "new1"; lit "new2"] 2) = Some (File [lit "new1"]).
Proof.
  intros p f. split.
  - apply clean_cons; [reflexivity|apply clean_nil].
  - vm_compute. repeat split; reflexivity.
Qed.
Print Assumptions commit_on_raise_refuted.

Theorem rebuild_keeps_fresh_caches_complete fls db cs k : sound db cs ->
  sound db (crash_caches false fls db cs k).
Proof. exact (sound_crash_caches fls db cs k). Qed.
Print Assumptions rebuild_keeps_fresh_caches_complete.

Theorem reader_after_killed_rebuild_lists_the_database fls db cs k fl : sound db cs ->
  reader_answer fls db (crash_caches false fls db cs k) fl = rows_of fl db.
Proof. intro H. apply sound_reader. now apply sound_crash_caches. Qed.
Print Assumptions reader_after_killed_rebuild_lists_the_database.

(* autosave on during the rebuild: killed after the first version of the last-listed product was persisted, the
   files of both flavors are new, name every product, and lack its second version *)
Theorem rebuild_with_autosave_refuted :
  let L := lit "Linux64" in let G := lit "generic" in
  let db := [(L, lit "a", lit "1"); (L, lit "a", lit "2"); (G, lit "b", lit "1"); (G, lit "b", lit "2")] in
  sound db [] /\
  reader_answer [L; G] db (crash_caches true [L; G] db [] 3) G = [(lit "b", lit "1")] /\
  rows_of G db = [(lit "b", lit "1"); (lit "b", lit "2")] /\
  reader_answer [L; G] db (crash_caches true [L; G] db [] 3) L = rows_of L db /\
  reader_answer [L; G] db (crash_caches true [L; G] db [] 2) G = rows_of G db.
Proof. intros L G db. split; [apply sound_nil|]. vm_compute. repeat split; reflexivity. Qed.
Print Assumptions rebuild_with_autosave_refuted.

Example c08_cache_rebuild_inhabited :
  let L := lit "Linux64" in let G := lit "generic" in
  let db := [(L, lit "a", lit "1"); (G, lit "b", lit "1"); (G, lit "b", lit "2")] in
  let cs := [(L, (true, [(lit "a", lit "1")])); (G, (false, [(lit "b", lit "1")]))] in
  sound db cs /\
  map (fun k => reader_answer [L; G] db (crash_caches false [L; G] db cs k) G) [0; 1; 2] =
    [rows_of G db; rows_of G db; rows_of G db] /\
  map (fun k => cache_rows (crash_caches false [L; G] db cs k) G) [0; 1; 2] = [None; None; Some (rows_of G db)].
Proof.
  intros L G db cs. split.
  - apply sound_cons; [intros _; vm_compute; reflexivity|]. apply sound_cons; [discriminate|apply sound_nil].
  - vm_compute. split; reflexivity.
Qed.

(* the final save of the rebuild writes the file of every flavor the database holds a declaration of - loaded by
   the command or not - in the order the walk met them, then the loaded flavors it holds nothing of (the real trace
   is compared with this list on every run); a reader of other flavors than the killed command's is served too *)
Example c08_rebuild_writes_every_flavor_of_the_database :
  let L := lit "Linux64" in let D := lit "Darwin" in let G := lit "generic" in
  let db := [(D, lit "b", lit "2"); (L, lit "a", lit "1"); (D, lit "b", lit "1")] in
  map fst (persists false [L; G] db) = [D; L; G] /\
  map (fun k => reader_answer [D; G] db (crash_caches false [L; G] db [] k) D) [0; 1; 2; 3] =
    [rows_of D db; rows_of D db; rows_of D db; rows_of D db] /\
  cache_rows (crash_caches false [L; G] db [] 1) D = Some [(lit "b", lit "2"); (lit "b", lit "1")].
Proof. vm_compute. repeat split; reflexivity. Qed.
