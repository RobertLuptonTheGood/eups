(* C02 - unsetup is the inverse of setup; a failing request changes nothing.
   Model/Setup.v with an abstract resolver.  See Props/C01.v for Inv / WF2 and Props/C04.v for touches. *)
From Eupsv Require Import Base.Base Base.BaseLemmas Model.PathAlg Proofs.PathAlg Model.Setup Proofs.SetupFrame Proofs.SetupInv.
From Coq Require Import Lia.
From Eupsv Require Import Proofs.SetupTopLevel.
From Eupsv Require Proofs.SetupInverse.

(* a request whose top-level call does not succeed yields no new state at all: the command emits only
   `false` (C05 failed_changes_nothing: sourcing it leaves the environment exactly as it was) *)
Theorem failed_setup_changes_nothing w cfg fuel st ds name fwd just :
  (forall st' ds', setup w cfg fuel st ds name fwd 0 just <> RDone true st' ds') ->
  request w cfg fuel st ds name fwd just = Ok None \/
  exists e, request w cfg fuel st ds name fwd just = Err e.
Proof.
  intro H. unfold request. destruct (setup w cfg fuel st ds name fwd 0 just) as [[|] st' ds'|st' ds'| |] eqn:E.
  - exfalso. now apply (H st' ds').
  - now left.
  - now left.
  - right. now exists OutOfFuel.
  - right. now exists Crash.
Qed.
Print Assumptions failed_setup_changes_nothing.

(* nested form: when a dependency fails (not found, or an exception below it) and the table goes on
   (optional dependency, or unsetup mode), the rest of the table is executed from the state - environment AND
   aliases - as it was before the dependency was attempted (popStack of the saved environment; the aliases are
   restored since the fix proposed_fixes/C02-failed-dependency-restores-aliases, see
   alias_residue_refuted_pinned at the end of this file for the behaviour before it) *)
Theorem dependency_failure_restores cfg rec fwd depth just o m j acts st ds st' ds' :
  cut_off cfg just (S depth) = false -> fwd && negb o = false ->
  (rec st ds m fwd (S depth) j = RDone false st' ds' \/ rec st ds m fwd (S depth) j = RRaise st' ds') ->
  run_actions cfg rec fwd depth just (ASetup o m j :: acts) st ds =
  run_actions cfg rec fwd depth just acts st ds'.
Proof.
  intros Hc Ho [E|E]; cbn [run_actions]; rewrite Hc, E, Ho; reflexivity.
Qed.
Print Assumptions dependency_failure_restores.

(* a required dependency that fails in setup mode makes the whole enclosing call fail *)
Theorem required_failure_propagates cfg rec depth just m j acts st ds st' ds' :
  cut_off cfg just (S depth) = false ->
  (rec st ds m true (S depth) j = RDone false st' ds' \/ rec st ds m true (S depth) j = RRaise st' ds') ->
  run_actions cfg rec true depth just (ASetup false m j :: acts) st ds = RRaise st ds'.
Proof.
  intros Hc [E|E]; cbn [run_actions]; rewrite Hc, E; reflexivity.
Qed.
Print Assumptions required_failure_propagates.

(* an unsetup that succeeds leaves no record and no table contribution of any version of the product *)
Theorem unsetup_removes_the_product w cfg dl rank fuel st ds name depth just st' ds' :
  WF2 w dl rank -> nodollar_paths w (s_env st) -> depth_ok cfg depth -> Inv w (s_env st) ->
  setup w cfg fuel st ds name false depth just = RDone true st' ds' ->
  find_setup_product w (s_env st') name = None /\
  forall q, In q w -> p_name q = name -> absent q (s_env st').
Proof.
  intros H Hnd Hd HI Hrun.
  pose proof (setup_inv w cfg dl rank H fuel st ds name false depth just Hnd Hd (fun n _ => HI n)) as I0.
  rewrite Hrun in I0. destruct I0 as [L [U _]].
  assert (Hs : find_setup_product w (s_env st) name <> None).
  { destruct fuel; [discriminate|]. cbn [setup] in Hrun. unfold setup_step in Hrun.
    destruct (find_setup_product w (s_env st) name); [discriminate|discriminate]. }
  pose proof (U eq_refl Hs) as E. split; [now apply find_none_when_unset|].
  intros q Hq Hn. apply (all_absent_of_clause w name (s_env st')); [apply L; lia|assumption|split; assumption].
Qed.
Print Assumptions unsetup_removes_the_product.

(* The property: from an environment in which nothing of the closure of X is set up, setup X followed by unsetup X
   restores every variable and alias (path-like variables as duplicate-free lists of non-empty elements, unset =
   empty).  Here, for every resolver: IF after the unsetup no product reachable from X is recorded any more
   (hypothesis Hafter), then every path variable holds the same duplicate-free element list as before, every
   variable that no reachable product owns is unchanged, and no envSet value of a reachable product remains.
   That Hafter holds when no product is requested in two versions (the unsetup visits every product the setup
   recorded), and what becomes of the reachable products' own variables, is unsetup_inverts_setup below, on the
   composed model. *)
Theorem unsetup_inverts_setup_partial w cfg dl rank fuel st ds1 ds2 name just ok1 st1 r1 ok2 st2 r2 :
  WF2 w dl rank -> nodollar_paths w (s_env st) -> Inv w (s_env st) ->
  (forall n, touches w (levels cfg 0 just) name n -> find_setup_product w (s_env st) n = None) ->
  setup w cfg fuel st ds1 name true 0 just = RDone ok1 st1 r1 ->
  setup w cfg fuel st1 ds2 name false 0 just = RDone ok2 st2 r2 ->
  (forall n, touches w (levels cfg 0 just) name n -> find_setup_product w (s_env st2) n = None) ->
  (* path variables: same elements, same order, once each *)
  (forall var (own : str -> bool), path_var w var ->
     (forall v, own v = true <-> exists n, touches w (levels cfg 0 just) name n /\ own_elem w n var v) ->
     uniq (elems (dl var) (oldv var (s_env st2))) = uniq (elems (dl var) (oldv var (s_env st)))) /\
  (* everything no reachable product owns *)
  (forall k, ~ path_var w k -> (forall n, touches w (levels cfg 0 just) name n -> ~ own_var w n k) ->
     alookup k (s_env st2) = alookup k (s_env st)) /\
  (* no contribution of a reachable product is left *)
  (forall n q, touches w (levels cfg 0 just) name n -> In q w -> p_name q = n -> absent q (s_env st2)).
Proof.
  intros H Hnd HI Hbefore Hrun1 Hrun2 Hafter.
  pose proof (depth_ok_top cfg) as Hd. pose proof (setup_frame w cfg dl (wf_base w dl rank H) fuel) as Fr.
  destruct (setup_preserves_Inv w cfg dl rank H fuel st ds1 name true 0 just ok1 st1 r1 Hnd Hd HI Hrun1) as [I1 D1].
  destruct (setup_preserves_Inv w cfg dl rank H fuel st1 ds2 name false 0 just ok2 st2 r2 D1 Hd I1 Hrun2) as [I2 D2].
  destruct (top_level_frame w cfg dl (touches w) _ _ _ _ _ _ _ _ _ Fr Hnd Hrun1) as [F1 _].
  destruct (top_level_frame w cfg dl (touches w) _ _ _ _ _ _ _ _ _ Fr D1 Hrun2) as [F2 _].
  pose proof (env_frame_trans w dl _ _ _ _ F1 F2) as F.
  pose proof (fun n q Hn => clause_unrecorded w n (s_env st) (HI n) (Hbefore n Hn) q) as A0.
  pose proof (fun n q Hn => clause_unrecorded w n (s_env st2) (I2 n) (Hafter n Hn) q) as A2.
  split; [|split; [exact (ef_vars _ _ _ _ _ F)|intros n q Hn Hq Hqn; exact (A2 n q Hn (conj Hq Hqn))]].
  intros var own Hv _.
  exact (SetupInverse.restored_paths w dl rank H _ _ _ F (fun n q Hn Hq => conj (A0 n q Hn Hq) (A2 n q Hn Hq)) var Hv).
Qed.
Print Assumptions unsetup_inverts_setup_partial.

(* ---- the premises of unsetup_inverts_setup_partial are jointly satisfiable ----
   The world of Proofs/SetupExample.v (see c01_hypotheses_inhabited in Props/C01.v): from the empty environment,
   setup app (base resolved to 1.0 below liba and to 2.0 below libb) followed by unsetup app returns the explicit
   state ex_after, in which no product is recorded; every premise of the theorem holds, and (by the invariant
   theorem applied to both runs) no contribution of any declared product is left in ex_after. *)
From Eupsv Require Import Model.SetupWf Proofs.SetupWf Proofs.SetupExample.
From Eupsv Require Import Proofs.SetupExampleRuns.

Example c02_hypotheses_inhabited :
  WF2 ex_world (dl_of ex_world) (rank_of ex_order) /\
  nodollar_paths ex_world (s_env ex_st0) /\ Inv ex_world (s_env ex_st0) /\
  (forall n, touches ex_world (levels ex_cfg 0 false) (lit "app") n -> find_setup_product ex_world (s_env ex_st0) n = None) /\
  setup ex_world ex_cfg 20 ex_st0 ex_ds (lit "app") true 0 false = RDone true ex_final [] /\
  setup ex_world ex_cfg 20 ex_final [] (lit "app") false 0 false = RDone true ex_after [] /\
  (forall n, touches ex_world (levels ex_cfg 0 false) (lit "app") n -> find_setup_product ex_world (s_env ex_after) n = None) /\
  (forall q, In q ex_world -> absent q (s_env ex_after)).
Proof.
  pose proof ex_world_wf2 as H. pose proof ex_app_run as R1.
  split; [exact H|]. split; [apply nodollar_nil|]. split; [apply Inv_nil|]. split; [intros n _; reflexivity|].
  split; [exact R1|]. apply conj_then; [vm_compute; reflexivity|intro R2]. split; [intros n _; reflexivity|].
  (* by the theorem: the state after the unsetup is consistent and records nothing, so nothing is left *)
  destruct (setup_preserves_Inv ex_world ex_cfg (dl_of ex_world) (rank_of ex_order) H 20 ex_st0 ex_ds (lit "app")
              true 0 false true ex_final [] (nodollar_nil ex_world) I (Inv_nil ex_world) R1) as [I1 D1].
  destruct (setup_preserves_Inv ex_world ex_cfg (dl_of ex_world) (rank_of ex_order) H 20 ex_final [] (lit "app")
              false 0 false true ex_after [] D1 I I1 R2) as [I2 _].
  intros q Hq. pose proof (I2 (p_name q)) as C. unfold clause in C.
  replace (find_setup_product ex_world (s_env ex_after) (p_name q)) with (@None product) in C by reflexivity.
  apply C. split; [assumption|reflexivity].
Qed.
Print Assumptions c02_hypotheses_inhabited.

(* The inverse clause in full, on the composed model (Model/SetupFull.v: Model/Setup.v + the resolver of C03, so
   that the versions - of the setup AND of what the unsetup then finds recorded - are determined).

     Starting from an environment in which none of a product's dependency closure is set up, setting the
     product up and then unsetting it up restores every environment variable and alias to its prior state
     (path-like variables compared as duplicate-free lists of non-empty elements, an unset variable equal to an
     empty one).

   Hypotheses: those of closure_exact (Props/C01.v): WF2, conflict_free D (no product requested in two versions),
   no --max-depth / --just / -j line / keep in the VRO, a well-formed database view and a total order on the
   version names; the start state is consistent (Inv) and
     fresh_for fw top st   no variable that a product reachable from top owns (SETUP_N, N_DIR, N_DIR_EXTRA, the
                           variables its tables set with envSet) is set, and no alias its tables define exists.
   This is how "none of the closure is set up" has to be read for the statement to be true of the code: an envSet
   variable that had a value before the setup is unset by the unsetup (finding D11, envset_preexisting_refuted
   below), and the same holds for an alias.
   Conclusion, for  setup top  that succeeds (state st1) followed by  unsetup top  (any VRO, any dictionary):
     (a) no product reachable from top is recorded any more (the unsetup traversal reaches every product the setup
         recorded: closure_exact says what is recorded in st1 and that each recorded product other than top is
         named by a line of the table of a recorded one, Proofs/SetupUnwind.v does the traversal);
     (b) every path variable holds the same duplicate-free list of elements as before (oldv reads an unset
         variable as the empty one; elems drops empty elements);
     (c) every other variable has the binding it had - the variables the reachable products own are all unset again
         (Proofs/SetupOwn.v: such a variable only ever holds what a table or the bookkeeping of a recorded product
         put there);
     (d) every alias has the binding it had (this needs the fix of D36: popStack env restores the aliases too). *)
From Eupsv Require Import Model.Resolve Model.ResolveSpec Model.SetupFull Proofs.SetupFull Proofs.SetupFullClosure
     Proofs.SetupInverse Proofs.SetupFullExample Model.SetupPinned Generated.Config.
From Eupsv Require Proofs.Resolve.

Theorem unsetup_inverts_setup vcmp vmatch fw cfg rc flavors dl rank vro top li D
        fuel fuel2 st st1 al1 tr1 al vro2 li2 ok2 st2 al2 tr2 :
  WF2 (fw_products fw) dl rank -> c_max_depth cfg = None ->
  wf_db (db_of cfg fw) = true -> (forall n, total_order_on vcmp (names_of (db_of cfg fw) n)) ->
  mem_entry EKeep vro = false ->
  conflict_free vcmp vmatch fw cfg rc flavors vro top li D ->
  nodollar_paths (fw_products fw) (s_env st) -> Inv (fw_products fw) (s_env st) -> fresh_for fw top st ->
  setup_full vcmp vmatch fw cfg rc flavors fuel st [] vro top li true 0 false = FDone true st1 al1 tr1 ->
  setup_full vcmp vmatch fw cfg rc flavors fuel2 st1 al vro2 top li2 false 0 false = FDone ok2 st2 al2 tr2 ->
  (forall n, reachN fw top n -> find_setup_product (fw_products fw) (s_env st2) n = None) /\
  (forall var, path_var (fw_products fw) var ->
     uniq (elems (dl var) (oldv var (s_env st2))) = uniq (elems (dl var) (oldv var (s_env st)))) /\
  (forall k, ~ path_var (fw_products fw) k -> alookup k (s_env st2) = alookup k (s_env st)) /\
  (forall k, alookup k (s_aliases st2) = alookup k (s_aliases st)).
Proof.
  intros H Hd Hw Ht Hk CF Hnd HI HF E1 E2.
  exact (inverse_lemma vcmp vmatch fw cfg rc flavors dl rank vro top D H Hd Hw Ht Hk fuel fuel2 st li st1 al1 tr1 al vro2 li2
           ok2 st2 al2 tr2 CF Hnd HI HF E1 E2).
Qed.
Print Assumptions unsetup_inverts_setup.

(* for two whole commands, each in a fresh Eups: setup top [version], then unsetup top *)
Corollary unsetup_inverts_setup_request vcmp vmatch fw cfg rc flavors dl rank vro top version D fuel fuel2 st st1 tr1 st2 tr2 :
  WF2 (fw_products fw) dl rank -> c_max_depth cfg = None ->
  wf_db (db_of cfg fw) = true -> (forall n, total_order_on vcmp (names_of (db_of cfg fw) n)) ->
  select_vro rc (request_opts cfg version) = Ok vro -> mem_entry EKeep vro = false ->
  conflict_free vcmp vmatch fw cfg rc flavors vro top {| li_version := version; li_expr := None |} D ->
  nodollar_paths (fw_products fw) (s_env st) -> Inv (fw_products fw) (s_env st) -> fresh_for fw top st ->
  request_full vcmp vmatch fw cfg rc flavors fuel st top version true false = Ok (Some st1, tr1) ->
  request_full vcmp vmatch fw cfg rc flavors fuel2 st1 top None false false = Ok (Some st2, tr2) ->
  (forall n, reachN fw top n -> find_setup_product (fw_products fw) (s_env st2) n = None) /\
  (forall var, path_var (fw_products fw) var ->
     uniq (elems (dl var) (oldv var (s_env st2))) = uniq (elems (dl var) (oldv var (s_env st)))) /\
  (forall k, ~ path_var (fw_products fw) k -> alookup k (s_env st2) = alookup k (s_env st)) /\
  (forall k, alookup k (s_aliases st2) = alookup k (s_aliases st)).
Proof.
  intros H Hd Hw Ht V Hk CF Hnd HI HF E1 E2.
  destruct (request_full_done _ _ _ _ _ _ _ _ _ _ _ _ _ _ E1) as [vro' [a1 [V' X1]]]. rewrite V in V'. injection V' as <-.
  destruct (request_full_done _ _ _ _ _ _ _ _ _ _ _ _ _ _ E2) as [vro2 [a2 [_ X2]]].
  exact (unsetup_inverts_setup vcmp vmatch fw cfg rc flavors dl rank vro top _ D fuel fuel2 st st1 a1 tr1 [] vro2 _ true st2 a2 tr2
           H Hd Hw Ht Hk CF Hnd HI HF X1 X2).
Qed.
Print Assumptions unsetup_inverts_setup_request.

(* ---- inhabited: ex_fw (Proofs/SetupFullExample.v), setup libb then unsetup libb from the empty state; the
   assignment is libb 1.0, base 2.0 (closure_exact_inhabited of Props/C01.v); every hypothesis holds, both
   commands succeed, and the final state has no binding left but the two path variables, empty ---- *)
Example unsetup_inverts_setup_inhabited :
  WF2 (fw_products ex_fw) (dl_of ex_world) (rank_of ex_order) /\ c_max_depth ex_cfg = None /\
  wf_db (db_of ex_cfg ex_fw) = true /\ (forall n, total_order_on vcmp_simple (names_of (db_of ex_cfg ex_fw) n)) /\
  select_vro default_config (request_opts ex_cfg None) = Ok ex_vro /\ mem_entry EKeep ex_vro = false /\
  conflict_free vcmp_simple vmatch_simple ex_fw ex_cfg default_config ex_flavors ex_vro (lit "libb") no_info ex_D /\
  nodollar_paths ex_world (s_env ex_st0) /\ Inv ex_world (s_env ex_st0) /\ fresh_for ex_fw (lit "libb") ex_st0 /\
  exists st1 tr1 tr2,
    request_full_simple ex_fw ex_cfg default_config ex_flavors 20 ex_st0 (lit "libb") None true false = Ok (Some st1, tr1) /\
    find_setup_product ex_world (s_env st1) (lit "base") = find_pv ex_world (lit "base") (lit "2.0") /\
    request_full_simple ex_fw ex_cfg default_config ex_flavors 20 st1 (lit "libb") None false false = Ok (Some ex_after, tr2).
Proof.
  split; [exact ex_world_wf2|]. split; [reflexivity|]. split; [exact ex_db_wf|]. split; [exact ex_versions_ordered|].
  split; [exact (ex_vro_plain None)|]. split; [reflexivity|]. split; [exact ex_conflict_free|].
  split; [apply nodollar_nil|]. split; [apply Inv_nil|]. split; [split; intros; reflexivity|].
  exists ex_libb_resolved. eexists. eexists. repeat apply conj; vm_compute; reflexivity.
Qed.
Print Assumptions unsetup_inverts_setup_inhabited.

(* ---- finding D11 (open): outside fresh_for the statement is false ----
   BASE_HOME holds a value before the setup; base 1.0 sets it with envSet; the unsetup unsets it (execute_envSet
   in unsetup mode): after setup base + unsetup base the variable is gone, not restored.  Everything else is as
   the theorem says (the path variables are back to the empty list, nothing is recorded). *)
Definition d11_st0 : state := {| s_env := [(lit "BASE_HOME", lit "preexisting")]; s_aliases := [] |}.

Definition d11_st1 : state := Eval vm_compute in request_state
  (request_full_simple ex_fw ex_cfg default_config ex_flavors 20 d11_st0 (lit "base") (Some (lit "1.0")) true false).
Definition d11_st2 : state := Eval vm_compute in request_state
  (request_full_simple ex_fw ex_cfg default_config ex_flavors 20 d11_st1 (lit "base") None false false).

Example envset_preexisting_refuted :
  exists st1 tr1 st2 tr2,
    request_full_simple ex_fw ex_cfg default_config ex_flavors 20 d11_st0 (lit "base") (Some (lit "1.0")) true false
      = Ok (Some st1, tr1) /\
    request_full_simple ex_fw ex_cfg default_config ex_flavors 20 st1 (lit "base") None false false = Ok (Some st2, tr2) /\
    alookup (lit "BASE_HOME") (s_env d11_st0) = Some (lit "preexisting") /\
    alookup (lit "BASE_HOME") (s_env st1) = Some (lit "/s/base/1.0") /\
    alookup (lit "BASE_HOME") (s_env st2) = None /\
    ~ fresh_for ex_fw (lit "base") d11_st0.
Proof.
  exists d11_st1. eexists. exists d11_st2. eexists.
  split; [vm_compute; reflexivity|]. split; [vm_compute; reflexivity|]. split; [reflexivity|].
  split; [vm_compute; reflexivity|]. split; [vm_compute; reflexivity|].
  intros [FV _].
  assert (O : own_var (fw_products ex_fw) (lit "base") (lit "BASE_HOME")).
  { right. right. right. exists (ex_base "1.0"), (lit "/s/base/1.0"). split; [split; [now left|reflexivity]|].
    cbn. tauto. }
  pose proof (FV (lit "base") (lit "BASE_HOME") (t_self _ None (lit "base")) O) as E. discriminate E.
Qed.
Print Assumptions envset_preexisting_refuted.

(* ---- finding D36 (fixed): what clause (d) and dependency_failure_restores were before the fix ----
   ax_world (Proofs/SetupFullExample.v): t has setupOptional(x); the table of x defines the alias run_x and then
   requires a product that does not exist.  setup t succeeds, x is not set up.  Model/SetupPinned.v (popStack env
   restores the environment only) leaves run_x defined in the state the command ends with - and no unsetup of t
   removes it; Model/Setup.v (the repaired code) ends without it. *)
Example alias_residue_refuted_pinned :
  WF2 ax_world (dl_of ax_world) (rank_of ax_order) /\
  (exists st' , setup_pinned ax_world ex_cfg 10 ex_st0 ax_ds (lit "t") true 0 false = RDone true st' [] /\
                find_setup_product ax_world (s_env st') (lit "x") = None /\
                alookup (lit "run_x") (s_aliases st') = Some (lit "echo x") /\
                exists st'', setup_pinned ax_world ex_cfg 10 st' [] (lit "t") false 0 false = RDone true st'' [] /\
                             alookup (lit "run_x") (s_aliases st'') = Some (lit "echo x")) /\
  (exists st', setup ax_world ex_cfg 10 ex_st0 ax_ds (lit "t") true 0 false = RDone true st' [] /\
               find_setup_product ax_world (s_env st') (lit "x") = None /\
               alookup (lit "run_x") (s_aliases st') = None).
Proof.
  split; [apply wf2_check_sound; vm_compute; reflexivity|]. split.
  - eexists. split; [vm_compute; reflexivity|]. split; [vm_compute; reflexivity|]. split; [vm_compute; reflexivity|].
    eexists. split; [vm_compute; reflexivity|]. vm_compute. reflexivity.
  - eexists. split; [vm_compute; reflexivity|]. split; vm_compute; reflexivity.
Qed.
Print Assumptions alias_residue_refuted_pinned.

(* unsetup_inverts_setup for the composed model with the comparator and the matcher of C10 (Model/ResolveReal.v).
   The total-order hypothesis is discharged from the theorems of Props/C10.v for worlds whose version names are
   conventional and, per product, spell pairwise different keys (fw_real_ok; see Props/C01.v closure_exact_real). *)
From Eupsv Require Import Model.ResolveReal Proofs.ResolveReal Proofs.SetupFullRealExample.

Theorem unsetup_inverts_setup_real fw cfg rc flavors dl rank vro top li D
        fuel fuel2 st st1 al1 tr1 al vro2 li2 ok2 st2 al2 tr2 :
  WF2 (fw_products fw) dl rank -> c_max_depth cfg = None ->
  wf_db (db_of cfg fw) = true -> fw_real_ok cfg fw = true ->
  mem_entry EKeep vro = false ->
  conflict_free vcmp_real vmatch_real fw cfg rc flavors vro top li D ->
  nodollar_paths (fw_products fw) (s_env st) -> Inv (fw_products fw) (s_env st) -> fresh_for fw top st ->
  setup_full_real fw cfg rc flavors fuel st [] vro top li true 0 false = FDone true st1 al1 tr1 ->
  setup_full_real fw cfg rc flavors fuel2 st1 al vro2 top li2 false 0 false = FDone ok2 st2 al2 tr2 ->
  (forall n, reachN fw top n -> find_setup_product (fw_products fw) (s_env st2) n = None) /\
  (forall var, path_var (fw_products fw) var ->
     uniq (elems (dl var) (oldv var (s_env st2))) = uniq (elems (dl var) (oldv var (s_env st)))) /\
  (forall k, ~ path_var (fw_products fw) k -> alookup k (s_env st2) = alookup k (s_env st)) /\
  (forall k, alookup k (s_aliases st2) = alookup k (s_aliases st)).
Proof.
  intros H Hd Hw Hok. apply (unsetup_inverts_setup vcmp_real vmatch_real fw cfg rc flavors dl rank); auto.
  now apply fw_real_ok_total.
Qed.
Print Assumptions unsetup_inverts_setup_real.

Corollary unsetup_inverts_setup_request_real fw cfg rc flavors dl rank vro top version D fuel fuel2 st st1 tr1 st2 tr2 :
  WF2 (fw_products fw) dl rank -> c_max_depth cfg = None ->
  wf_db (db_of cfg fw) = true -> fw_real_ok cfg fw = true ->
  select_vro rc (request_opts cfg version) = Ok vro -> mem_entry EKeep vro = false ->
  conflict_free vcmp_real vmatch_real fw cfg rc flavors vro top {| li_version := version; li_expr := None |} D ->
  nodollar_paths (fw_products fw) (s_env st) -> Inv (fw_products fw) (s_env st) -> fresh_for fw top st ->
  request_full_real fw cfg rc flavors fuel st top version true false = Ok (Some st1, tr1) ->
  request_full_real fw cfg rc flavors fuel2 st1 top None false false = Ok (Some st2, tr2) ->
  (forall n, reachN fw top n -> find_setup_product (fw_products fw) (s_env st2) n = None) /\
  (forall var, path_var (fw_products fw) var ->
     uniq (elems (dl var) (oldv var (s_env st2))) = uniq (elems (dl var) (oldv var (s_env st)))) /\
  (forall k, ~ path_var (fw_products fw) k -> alookup k (s_env st2) = alookup k (s_env st)) /\
  (forall k, alookup k (s_aliases st2) = alookup k (s_aliases st)).
Proof.
  intros H Hd Hw Hok. apply (unsetup_inverts_setup_request vcmp_real vmatch_real fw cfg rc flavors dl rank); auto.
  now apply fw_real_ok_total.
Qed.
Print Assumptions unsetup_inverts_setup_request_real.

(* ---- inhabited: rvx_fw (Proofs/SetupFullRealExample.v), setup libb (base resolves to 1.10-rc1 through the
   expression < 1.10) then unsetup libb from the empty state: the two path variables are left empty ---- *)
Example unsetup_inverts_setup_real_inhabited :
  WF2 (fw_products rvx_fw) (dl_of rvx_world) (rank_of rvx_order) /\ fw_real_ok ex_cfg rvx_fw = true /\
  wf_db (db_of ex_cfg rvx_fw) = true /\
  nodollar_paths rvx_world (s_env ex_st0) /\ Inv rvx_world (s_env ex_st0) /\
  exists tr1 tr2,
    request_full_real rvx_fw ex_cfg default_config ex_flavors 20 ex_st0 (lit "libb") None true false
      = Ok (Some rvx_libb_state, tr1) /\
    request_full_real rvx_fw ex_cfg default_config ex_flavors 20 rvx_libb_state (lit "libb") None false false
      = Ok (Some ex_after, tr2).
Proof.
  split; [exact rvx_world_wf2|]. split; [exact rvx_real_ok|]. split; [exact rvx_db_wf|].
  split; [apply nodollar_nil|]. split; [apply Inv_nil|].
  eexists. eexists. split; vm_compute; reflexivity.
Qed.
Print Assumptions unsetup_inverts_setup_real_inhabited.

(* ---- and for every world with conventional version names whose (single) stack lists them sorted as strings, names
   that spell one key included: the designation rule read in the order vcmp_sorted (Props/C01.v
   closure_exact_real_sorted, Props/C03.v walk_is_designation_one_sorted_stack) ---- *)
From Eupsv Require Import Proofs.ResolveRealSorted.

Theorem unsetup_inverts_setup_real_sorted fw cfg rc flavors dl rank vro top li D
        fuel fuel2 st st1 al1 tr1 al vro2 li2 ok2 st2 al2 tr2 :
  WF2 (fw_products fw) dl rank -> c_max_depth cfg = None ->
  wf_db (db_of cfg fw) = true -> fw_conv fw = true -> db_sorted (db_of cfg fw) = true ->
  mem_entry EKeep vro = false ->
  conflict_free vcmp_sorted vmatch_real fw cfg rc flavors vro top li D ->
  nodollar_paths (fw_products fw) (s_env st) -> Inv (fw_products fw) (s_env st) -> fresh_for fw top st ->
  setup_full_real fw cfg rc flavors fuel st [] vro top li true 0 false = FDone true st1 al1 tr1 ->
  setup_full_real fw cfg rc flavors fuel2 st1 al vro2 top li2 false 0 false = FDone ok2 st2 al2 tr2 ->
  (forall n, reachN fw top n -> find_setup_product (fw_products fw) (s_env st2) n = None) /\
  (forall var, path_var (fw_products fw) var ->
     uniq (elems (dl var) (oldv var (s_env st2))) = uniq (elems (dl var) (oldv var (s_env st)))) /\
  (forall k, ~ path_var (fw_products fw) k -> alookup k (s_env st2) = alookup k (s_env st)) /\
  (forall k, alookup k (s_aliases st2) = alookup k (s_aliases st)).
Proof.
  intros H Hd Hw C S Hk CF Hnd HI HF E1 E2.
  rewrite (setup_full_real_is_sorted cfg fw rc flavors) in E1, E2 by assumption.
  apply (unsetup_inverts_setup vcmp_sorted vmatch_real fw cfg rc flavors dl rank vro top li D
           fuel fuel2 st st1 al1 tr1 al vro2 li2 ok2 st2 al2 tr2); auto.
  now apply fw_conv_total_sorted.
Qed.
Print Assumptions unsetup_inverts_setup_real_sorted.

(* The COMMAND LIST (observe_at: command list returned by eups.app.setup).  Model/SetupCmds.v: the two eups
   processes compute the states st1 (setup X) and st2 (unsetup X, started from the environment of st1);
   app.setup turns each into commands against the environment its process started with (the emitter of
   Model/Shell.v: an emptied variable is exported empty, a variable that is gone is unset), and ONE shell that
   started with the environment before sources both texts.
   The shell then holds, variable for variable, the environment the unsetup process computed - so every clause
   of unsetup_inverts_setup_partial holds of the SHELL: the path variables are back to the same duplicate-free
   lists, every variable no reachable product owns has the value (or the absence) it had.
   cmds_in_claim: the hypotheses of C05 at both calls, and neither call removes EUPS_DIR / EUPS_PATH /
   EUPS_PKGROOT / EUPS_SHELL (which app.setup refuses to unset). *)
From Eupsv Require Import Model.SetupCmds Proofs.SetupCmds.

Theorem unsetup_commands_restore_the_shell w cfg dl rank fuel st ds1 ds2 name just ok1 st1 r1 ok2 st2 r2 :
  WF2 w dl rank -> nodollar_paths w (s_env st) -> Inv w (s_env st) ->
  (forall n, touches w (levels cfg 0 just) name n -> find_setup_product w (s_env st) n = None) ->
  setup w cfg fuel st ds1 name true 0 just = RDone ok1 st1 r1 ->
  setup w cfg fuel st1 ds2 name false 0 just = RDone ok2 st2 r2 ->
  (forall n, touches w (levels cfg 0 just) name n -> find_setup_product w (s_env st2) n = None) ->
  cmds_in_claim (s_env st) st1 st2 = true ->
  exists sh, shell_after (s_env st) st1 st2 = Ok sh /\
    (forall k, alookup k sh = alookup k (s_env st2)) /\
    (forall var (own : str -> bool), path_var w var ->
       (forall v, own v = true <-> exists n, touches w (levels cfg 0 just) name n /\ own_elem w n var v) ->
       uniq (elems (dl var) (oldv var sh)) = uniq (elems (dl var) (oldv var (s_env st)))) /\
    (forall k, ~ path_var w k -> (forall n, touches w (levels cfg 0 just) name n -> ~ own_var w n k) ->
       alookup k sh = alookup k (s_env st)).
Proof.
  intros H Hnd HI Hb R1 R2 Ha Hc.
  destruct (shell_follows_commands (s_env st) st1 st2 Hc) as [sh [Hs He]].
  destruct (unsetup_inverts_setup_partial w cfg dl rank fuel st ds1 ds2 name just ok1 st1 r1 ok2 st2 r2
              H Hnd HI Hb R1 R2 Ha) as [P [V _]].
  exists sh. split; [exact Hs|]. split; [exact He|]. split.
  - intros var own Hv Ho. rewrite (oldv_equiv var sh (s_env st2) He). now apply (P var own).
  - intros k Hk Hn. rewrite He. now apply V.
Qed.
Print Assumptions unsetup_commands_restore_the_shell.

(* the hypotheses are inhabited, and the clause a command list that forgets the emptied variables would break
   is visible: the world of Proofs/SetupExample.v, the user's environment holding PATH only.  After setup app and
   unsetup app the unsetup process has TEXINPUTS (which did not exist before) with the EMPTY value; the text of
   the unsetup exports it empty, and the shell ends with exactly the bindings of the unsetup process. *)
Definition cx_st0 : state := {| s_env := [(lit "PATH", lit "/usr/bin")]; s_aliases := [] |}.

Definition cx_st1 : state := Eval vm_compute in done_state (setup ex_world ex_cfg 10 cx_st0 ex_ds (lit "app") true 0 false).
Definition cx_st2 : state := Eval vm_compute in done_state (setup ex_world ex_cfg 10 cx_st1 [] (lit "app") false 0 false).

Example unsetup_commands_restore_the_shell_inhabited :
  exists st1 st2 sh,
    setup ex_world ex_cfg 10 cx_st0 ex_ds (lit "app") true 0 false = RDone true st1 [] /\
    setup ex_world ex_cfg 10 st1 [] (lit "app") false 0 false = RDone true st2 [] /\
    cmds_in_claim (s_env cx_st0) st1 st2 = true /\
    shell_after (s_env cx_st0) st1 st2 = Ok sh /\
    alookup (lit "TEXINPUTS") (s_env st1) = Some (lit "/s/base/2.0/tex;/s/libb/1.0/tex") /\
    alookup (lit "TEXINPUTS") (s_env st2) = Some [] /\
    alookup (lit "TEXINPUTS") sh = Some [] /\
    alookup (lit "PATH") sh = Some (lit "/usr/bin") /\
    alookup (lit "SETUP_APP") sh = None.
Proof.
  assert (Hc : cmds_in_claim (s_env cx_st0) cx_st1 cx_st2 = true) by (vm_compute; reflexivity).
  (* the shell is not run: by shell_follows_commands it ends with the bindings of the unsetup process *)
  destruct (shell_follows_commands (s_env cx_st0) cx_st1 cx_st2 Hc) as [sh [S E]].
  exists cx_st1, cx_st2, sh. rewrite !E.
  split; [vm_compute; reflexivity|]. split; [vm_compute; reflexivity|]. split; [exact Hc|]. split; [exact S|].
  repeat apply conj; vm_compute; reflexivity.
Qed.
Print Assumptions unsetup_commands_restore_the_shell_inhabited.

(* Table values that refer to OTHER variables (Proofs/SetupRefsExample.v). *)
From Eupsv Require Import Proofs.SetupRefsExample.

(* ---- finding D60 (open): outside nodollar_paths the statement is false ----
   tool 1.0: setupRequired(kit), envSet(TOOL_PLUGINS, KIT_DIR/plugins), envPrepend(PATH, KIT_DIR/tools).  The
   unsetup runs the table in table order: kit is unset up first, KIT_DIR is gone when the envPrepend line is
   reversed, its value can no longer be expanded and the literal text is removed - which removes nothing:
   /s/kit/1.0/tools stays in PATH.  (The envSet line is taken back: its reverse does not look at the value.)
   The theorems above carry WF2, whose base WF (Proofs/SetupFrame.v: wf_path, wf_set) says that every path and
   envSet value of the world is free of references: it excludes such a table (last clause). *)
Definition rx_untool : state := Eval vm_compute in done_state (setup rx_world rx_cfg 10 rx_tool1 [] (lit "tool") false 0 false).

Example dep_variable_after_dependency_refuted :
  exists st1 st2,
    setup rx_world rx_cfg 10 rx_st0 rx_ds1 (lit "tool") true 0 false = RDone true st1 [] /\
    setup rx_world rx_cfg 10 st1 [] (lit "tool") false 0 false = RDone true st2 [] /\
    alookup (lit "PATH") (s_env rx_st0) = Some (lit "/usr/bin") /\
    alookup (lit "PATH") (s_env st1) = Some (lit "/s/kit/1.0/tools:/s/kit/1.0/bin:/usr/bin") /\
    alookup (lit "TOOL_PLUGINS") (s_env st1) = Some (lit "/s/kit/1.0/plugins") /\
    alookup (lit "PATH") (s_env st2) = Some (lit "/s/kit/1.0/tools:/usr/bin") /\
    alookup (lit "TOOL_PLUGINS") (s_env st2) = None /\
    find_setup_product rx_world (s_env st2) (lit "kit") = None /\
    forall dl, ~ WF rx_world dl.
Proof.
  exists rx_tool1, rx_untool. split; [exact rx_tool1_run|]. split; [vm_compute; reflexivity|].
  split; [reflexivity|]. split; [vm_compute; reflexivity|]. split; [vm_compute; reflexivity|].
  split; [vm_compute; reflexivity|]. split; [vm_compute; reflexivity|]. split; [vm_compute; reflexivity|].
  intros dl N.
  assert (Hin : In (nth 2 rx_world (rx_kit "1.0")) rx_world) by (vm_compute; tauto).
  destruct (wf_path N _ false (lit "PATH") (lit "${KIT_DIR}/tools") rx_colon Hin) as [_ [E _]].
  - vm_compute. tauto.
  - vm_compute in E. discriminate E.
Qed.
Print Assumptions dep_variable_after_dependency_refuted.

(* a reference to a variable of the user's environment that holds a LIST in the delimiter of the command:
   envAppend(PLUGIN_PATH, SITE_DIRS, semicolon) with SITE_DIRS = /site/a;/site/b.  setup expands the value and adds
   the two elements; unsetup expands the value again (SITE_DIRS is still defined) and removes the two elements *)
Example list_valued_reference_round_trip :
  exists st1 st2,
    setup rx_world rx_cfg 10 rx_st0 [Some (lit "1.0")] (lit "site") true 0 false = RDone true st1 [] /\
    setup rx_world rx_cfg 10 st1 [] (lit "site") false 0 false = RDone true st2 [] /\
    alookup (lit "PLUGIN_PATH") (s_env st1) = Some (lit "/pre;/site/a;/site/b") /\
    s_env st2 = s_env rx_st0.
Proof.
  eexists. eexists. split; [vm_compute; reflexivity|]. split; [vm_compute; reflexivity|]. split; vm_compute; reflexivity.
Qed.
Print Assumptions list_valued_reference_round_trip.

(* the general statements behind the example.  The value v of an envPrepend / envAppend line is a reference to a
   variable the product does not define (so it expands to the same text x at setup and at unsetup), and x is a LIST
   in the delimiter of the command (clean_list: no reference left in it, no empty part).  Then
   - setup leaves every element of the list in the variable (and every element that was there),
   - unsetup leaves NO element of the list in the variable and keeps every other element:
   the whole expansion is split, in both modes - not the value before it is expanded. *)
From Eupsv Require Import Proofs.SetupRefs.

Theorem setup_adds_every_element_of_a_list_valued_reference ap (var v x : str) d e :
  wf_delim d = true -> mem_ascii d v = false -> expand_var e v = Ok (Some x) -> clean_list d x ->
  no_dollar (oldv var e) = true ->
  exists e', env_prepend ap true var v d e = Ok (Some e') /\
    (forall y, In y (elems d (oldv var e')) <-> In y (elems d (oldv var e)) \/ In y (elems d x)) /\
    (forall k, k <> var -> alookup k e' = alookup k e).
Proof.
  intros Hd Hv Hx Hc Ho. destruct (env_prepend_list ap true var v x d e Hd Hv Hx Hc Ho) as [e' [H1 [H2 [_ H4]]]].
  exists e'. split; [exact H1|]. split; [|exact H4]. intros y. rewrite H2. apply many_list_forward_In.
Qed.
Print Assumptions setup_adds_every_element_of_a_list_valued_reference.

Theorem unsetup_removes_every_element_of_a_list_valued_reference ap (var v x : str) d e :
  wf_delim d = true -> mem_ascii d v = false -> expand_var e v = Ok (Some x) -> clean_list d x ->
  no_dollar (oldv var e) = true ->
  exists e', env_prepend ap false var v d e = Ok (Some e') /\
    (forall y, In y (elems d (oldv var e')) <-> In y (elems d (oldv var e)) /\ ~ In y (elems d x)) /\
    (forall k, k <> var -> alookup k e' = alookup k e).
Proof.
  intros Hd Hv Hx Hc Ho. destruct (env_prepend_list ap false var v x d e Hd Hv Hx Hc Ho) as [e' [H1 [H2 [_ H4]]]].
  exists e'. split; [exact H1|]. split; [|exact H4]. intros y. rewrite H2. apply many_list_reverse_In.
Qed.
Print Assumptions unsetup_removes_every_element_of_a_list_valued_reference.

(* setup then unsetup of such a line, the referenced variable being another one than the path variable (so that the
   line itself does not change it): the elements that were there before and are not in the list are exactly the
   elements afterwards *)
Theorem list_valued_reference_is_taken_back ap (var v x : str) d e e1 :
  wf_delim d = true -> mem_ascii d v = false -> expand_var e v = Ok (Some x) -> clean_list d x ->
  no_dollar (oldv var e) = true ->
  env_prepend ap true var v d e = Ok (Some e1) -> expand_var e1 v = Ok (Some x) ->
  exists e2, env_prepend ap false var v d e1 = Ok (Some e2) /\
    (forall y, In y (elems d (oldv var e2)) <-> In y (elems d (oldv var e)) /\ ~ In y (elems d x)) /\
    (forall k, k <> var -> alookup k e2 = alookup k e).
Proof.
  intros Hd Hv Hx Hc Ho H1 Hx1.
  destruct (env_prepend_list ap true var v x d e Hd Hv Hx Hc Ho) as [e1' [G1 [G2 [G3 G4]]]].
  rewrite H1 in G1. injection G1 as <-.
  destruct (env_prepend_list ap false var v x d e1 Hd Hv Hx1 Hc G3) as [e2 [K1 [K2 [_ K4]]]].
  exists e2. split; [exact K1|]. split.
  - intros y. rewrite K2, many_list_reverse_In, G2, many_list_forward_In. tauto.
  - intros k Hk. rewrite (K4 k Hk). now apply G4.
Qed.
Print Assumptions list_valued_reference_is_taken_back.

(* SEVERAL STACKS ON EUPS_PATH  (Model/SetupMS.v; see the section of the same title in Props/C01.v) *)
From Eupsv Require Import Model.SetupMS Proofs.SetupMSFrame Proofs.SetupMSInv Proofs.SetupMSStack
     Model.SetupMSWf Proofs.SetupMSWf.

Theorem ms_failed_setup_changes_nothing w cfg fuel st ds name fwd just :
  (forall st' ds', msetup w cfg fuel st ds name fwd 0 just <> MDone true st' ds') ->
  mrequest w cfg fuel st ds name fwd just = Ok None \/
  exists e, mrequest w cfg fuel st ds name fwd just = Err e.
Proof.
  intro H. unfold mrequest. destruct (msetup w cfg fuel st ds name fwd 0 just) as [[|] st' ds'|st' ds'| |] eqn:E.
  - exfalso. now apply (H st' ds').
  - now left.
  - now left.
  - right. now exists OutOfFuel.
  - right. now exists Crash.
Qed.
Print Assumptions ms_failed_setup_changes_nothing.

Theorem ms_dependency_failure_restores cfg rec fwd depth just o m j acts st ds st' ds' :
  cut_off cfg just (S depth) = false -> fwd && negb o = false ->
  (rec st ds m fwd (S depth) j = MDone false st' ds' \/ rec st ds m fwd (S depth) j = MRaise st' ds') ->
  mrun_actions cfg rec fwd depth just (ASetup o m j :: acts) st ds =
  mrun_actions cfg rec fwd depth just acts st ds'.
Proof.
  intros Hc Ho [E|E]; cbn [mrun_actions]; rewrite Hc, E, Ho; reflexivity.
Qed.
Print Assumptions ms_dependency_failure_restores.

Theorem ms_required_failure_propagates cfg rec depth just m j acts st ds st' ds' :
  cut_off cfg just (S depth) = false ->
  (rec st ds m true (S depth) j = MDone false st' ds' \/ rec st ds m true (S depth) j = MRaise st' ds') ->
  mrun_actions cfg rec true depth just (ASetup false m j :: acts) st ds = MRaise st ds'.
Proof.
  intros Hc [E|E]; cbn [mrun_actions]; rewrite Hc, E; reflexivity.
Qed.
Print Assumptions ms_required_failure_propagates.

(* an unsetup that succeeds leaves no record and no table contribution of ANY declaration of the product, in
   whatever stack *)
Theorem ms_unsetup_removes_the_product w cfg dl rank fuel st ds name depth just st' ds' :
  SetupMSInv.WF2 w dl rank -> SetupMSFrame.nodollar_paths w (s_env st) -> SetupMSFrame.depth_ok cfg depth ->
  SetupMSInv.Inv w cfg (s_env st) ->
  msetup w cfg fuel st ds name false depth just = MDone true st' ds' ->
  mfind_setup_product w (c_flavor cfg) (s_env st') name = None /\
  forall q, In q w -> mp_name q = name -> SetupMSInv.absent q (s_env st').
Proof.
  intros H Hnd Hd HI Hrun.
  pose proof (SetupMSInv.setup_inv w cfg dl rank H fuel st ds name false depth just Hnd Hd (fun n _ => HI n)) as I0.
  rewrite Hrun in I0. destruct I0 as [L [U _]].
  assert (Hs : mfind_setup_product w (c_flavor cfg) (s_env st) name <> None).
  { destruct fuel; [discriminate|]. cbn [msetup] in Hrun. unfold msetup_step in Hrun.
    destruct (mfind_setup_product w (c_flavor cfg) (s_env st) name); [discriminate|discriminate]. }
  pose proof (U eq_refl Hs) as E. split; [now apply SetupMSInv.find_none_when_unset|].
  intros q Hq Hn. apply (SetupMSInv.all_absent_of_clause w cfg name (s_env st')); [apply L; lia|assumption|split; assumption].
Qed.
Print Assumptions ms_unsetup_removes_the_product.

(* unsetup of a product declared at the same version in two stacks with different tables undoes the table of the
   stack RECORDED, not of the first stack on the path: whatever else the world declares (a declaration q of the same
   name and version in another stack, earlier in the world), when SETUP_NAME holds the value written for the
   declaration p, unsetup executes the actions of p in reverse - and, the invariant holding before, afterwards
   nothing of p and nothing of q is left *)
Theorem unsetup_looks_in_recorded_stack w cfg dl rank fuel st ds depth just p :
  SetupMSInv.WF2 w dl rank -> In p w ->
  alookup (setup_var (mp_name p)) (s_env st) = Some (ms_setup_string p) ->
  mfind_setup_product w (c_flavor cfg) (s_env st) (mp_name p) = Some p /\
  msetup w cfg (S fuel) st ds (mp_name p) false depth just =
  mrun_actions cfg (msetup w cfg fuel) false depth just (mp_actions p) (unset_product_vars st (mp_name p)) ds /\
  (forall q, In q w -> mp_name q = mp_name p -> mp_version q = mp_version p -> mp_root q <> mp_root p ->
     mfind_setup_product w (c_flavor cfg) (s_env st) (mp_name p) <> Some q) /\
  (SetupMSFrame.nodollar_paths w (s_env st) -> SetupMSFrame.depth_ok cfg depth -> SetupMSInv.Inv w cfg (s_env st) ->
   forall st' ds', msetup w cfg (S fuel) st ds (mp_name p) false depth just = MDone true st' ds' ->
   forall q, In q w -> mp_name q = mp_name p -> SetupMSInv.absent q (s_env st')).
Proof.
  intros H Hin E.
  pose proof (recorded_product_found w dl rank (c_flavor cfg) (s_env st) p H Hin E) as Hf.
  split; [exact Hf|]. split; [cbn [msetup]; now apply (unsetup_step_recorded w cfg dl rank)|]. split.
  - intros q Hq Hn Hv Hr Hfq. rewrite Hf in Hfq. injection Hfq as ->. now apply Hr.
  - intros Hnd Hd HI st' ds' Hrun q Hq Hn.
    exact (proj2 (ms_unsetup_removes_the_product w cfg dl rank (S fuel) st ds (mp_name p) depth just st' ds' H Hnd Hd HI Hrun) q Hq Hn).
Qed.
Print Assumptions unsetup_looks_in_recorded_stack.

Theorem ms_unsetup_inverts_setup_partial w cfg dl rank fuel st ds1 ds2 name just ok1 st1 r1 ok2 st2 r2 :
  SetupMSInv.WF2 w dl rank -> SetupMSFrame.nodollar_paths w (s_env st) -> SetupMSInv.Inv w cfg (s_env st) ->
  (forall n, SetupMSFrame.touches w (SetupMSFrame.levels cfg 0 just) name n -> mfind_setup_product w (c_flavor cfg) (s_env st) n = None) ->
  msetup w cfg fuel st ds1 name true 0 just = MDone ok1 st1 r1 ->
  msetup w cfg fuel st1 ds2 name false 0 just = MDone ok2 st2 r2 ->
  (forall n, SetupMSFrame.touches w (SetupMSFrame.levels cfg 0 just) name n -> mfind_setup_product w (c_flavor cfg) (s_env st2) n = None) ->
  (forall var (own : str -> bool), SetupMSFrame.path_var w var ->
     (forall v, own v = true <-> exists n, SetupMSFrame.touches w (SetupMSFrame.levels cfg 0 just) name n /\ SetupMSFrame.own_elem w n var v) ->
     uniq (elems (dl var) (oldv var (s_env st2))) = uniq (elems (dl var) (oldv var (s_env st)))) /\
  (forall k, ~ SetupMSFrame.path_var w k -> (forall n, SetupMSFrame.touches w (SetupMSFrame.levels cfg 0 just) name n -> ~ SetupMSFrame.own_var w n k) ->
     alookup k (s_env st2) = alookup k (s_env st)) /\
  (forall n q, SetupMSFrame.touches w (SetupMSFrame.levels cfg 0 just) name n -> In q w -> mp_name q = n -> SetupMSInv.absent q (s_env st2)).
Proof.
  intros H Hnd HI Hbefore Hrun1 Hrun2 Hafter.
  pose proof (ms_depth_ok_top cfg) as Hd. pose proof (SetupMSInv.wf_base w dl rank H) as Hb.
  destruct (SetupMSInv.setup_preserves_Inv w cfg dl rank H fuel st ds1 name true 0 just ok1 st1 r1 Hnd Hd HI Hrun1) as [I1 D1].
  destruct (SetupMSInv.setup_preserves_Inv w cfg dl rank H fuel st1 ds2 name false 0 just ok2 st2 r2 D1 Hd I1 Hrun2) as [I2 D2].
  destruct (ms_top_level_frame w cfg dl fuel _ _ _ _ _ _ _ _ Hb Hnd Hrun1) as [F1 _].
  destruct (ms_top_level_frame w cfg dl fuel _ _ _ _ _ _ _ _ Hb D1 Hrun2) as [F2 _].
  destruct (SetupMSFrame.env_frame_trans w dl _ _ _ _ F1 F2) as [V P].
  set (T := SetupMSFrame.touches w (SetupMSFrame.levels cfg 0 just) name) in *.
  assert (Habs : forall e, SetupMSInv.Inv w cfg e -> (forall n, T n -> mfind_setup_product w (c_flavor cfg) e n = None) ->
                 forall n q, T n -> SetupMSFrame.has_name w n q -> SetupMSInv.absent q e).
  { intros e HIe Hnone n q Hn Hq. specialize (HIe n). unfold SetupMSInv.clause in HIe. rewrite (Hnone n Hn) in HIe.
    now apply HIe. }
  split; [|split; [exact V|intros n q Hn Hq Hqn; now apply (Habs _ I2 Hafter n q)]].
  intros var own Hv Hown.
  assert (Hfil : forall e, SetupMSInv.Inv w cfg e -> (forall n, T n -> mfind_setup_product w (c_flavor cfg) e n = None) ->
                 filter (fun x => negb (own x)) (elems (dl var) (oldv var e)) = elems (dl var) (oldv var e)).
  { intros e HIe Hnone. apply forallb_filter_id. apply forallb_forall. intros x Hx.
    destruct (own x) eqn:Ex; [|reflexivity]. exfalso.
    apply Hown in Ex. destruct Ex as [n [Hn [q [ap [d [Hq Ha]]]]]].
    apply (proj1 (Habs e HIe Hnone n q Hn Hq) ap var x d Ha).
    destruct (SetupMSFrame.wf_path (SetupMSInv.wf_base w dl rank H) q ap var x d (proj1 Hq) Ha) as [_ [_ ->]]. exact Hx. }
  rewrite <- (Hfil (s_env st2) I2 Hafter), <- (Hfil (s_env st) HI Hbefore).
  apply P; [assumption|]. intros n v Hn Ho. apply negb_false_iff. apply Hown. exists n. split; assumption.
Qed.
Print Assumptions ms_unsetup_inverts_setup_partial.

(* ---- inhabited: ms_world (Proofs/SetupMSStack.v), lib 1.0 declared in both stacks, the first stack's declaration
   first in the world.  From ms_stB (lib 1.0 set up from the SECOND stack) unsetup lib removes the second stack's
   path element, variable and record and ends in ms_stNone; had it looked in the first stack on the path it would
   have tried to remove /sA/Linux64/lib/1.0/bin and left /s B/generic/lib/1.0/bin2 in PATH. *)
Example ms_c02_inhabited :
  SetupMSInv.WF2 ms_world (mdl_of ms_world) (mrank_of ms_order) /\
  In ms_libA ms_world /\ In ms_libB ms_world /\ mp_version ms_libA = mp_version ms_libB /\ mp_root ms_libA <> mp_root ms_libB /\
  alookup (setup_var (lit "lib")) (s_env ms_stB) = Some (ms_setup_string ms_libB) /\
  msetup ms_world ms_cfg 3 ms_st0 [Some (key_of ms_libB)] (lit "lib") true 0 false = MDone true ms_stB [] /\
  msetup ms_world ms_cfg 3 ms_stB [] (lit "lib") false 0 false = MDone true ms_stNone [].
Proof.
  split; [exact ms_world_wf2|].
  split; [cbn; tauto|]. split; [cbn; tauto|]. split; [reflexivity|]. split; [discriminate|].
  split; [vm_compute; reflexivity|]. split; [exact ms_libB_run|]. vm_compute. reflexivity.
Qed.
Print Assumptions ms_c02_inhabited.

(* ---- the hypothesis root_ok of WF2 (wf_words) is needed, in the model as in the code ----
   a stack whose root has the characters minus plus in front of a blank: Eups.setup writes the blank as the marker
   minus plus minus, findSetupVersion reads the marker one character too early and gets another path; the product
   is set up, and unsetup does not find it (in the code: OSError for the decoded path, observed on the real run of
   proposed_fixes/C02-stack-root-marker-ambiguity.witness.json) - so setup followed by unsetup does not restore
   the environment.  No change of utils.decodePath alone can repair this: the roots a-+ b and a +-b are written
   the same. *)
Definition rm_lib : mproduct :=
  {| mp_name := lit "lib"; mp_version := lit "1.0"; mp_root := lit "/a-+ b"; mp_flavor := lit "Linux64";
     mp_dir := lit "/a-+ b/Linux64/lib/1.0";
     mp_actions := [ASet (lit "LIB_HOME") (lit "/a-+ b/Linux64/lib/1.0/home")] |}.

Example unsetup_root_marker_refuted :
  encode_path (lit "/a-+ b") = encode_path (lit "/a +-b") /\
  exists st1,
    msetup [rm_lib] ms_cfg 3 ms_st0 [Some (key_of rm_lib)] (lit "lib") true 0 false = MDone true st1 [] /\
    alookup (lit "SETUP_LIB") (s_env st1) = Some (lit "lib 1.0 -f Linux64 -Z /a-+-+-b") /\
    msetup [rm_lib] ms_cfg 3 st1 [] (lit "lib") false 0 false = MDone false st1 [].
Proof. split; [vm_compute; reflexivity|]. eexists. split; [vm_compute; reflexivity|]. split; vm_compute; reflexivity. Qed.
Print Assumptions unsetup_root_marker_refuted.

