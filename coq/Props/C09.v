(* C09 - Exclusive database locks exclude every other holder under all interleavings.
   Property theorems only; the proofs are in Proofs/Lock*.v.

   Model/Lock.v: [step cfg s p c] is one file-system call of process p of the lock protocol of /repo
   with proposed_fixes/C09-lock-revalidate.diff and C09-release-on-failure.diff; [step_pinned] is the
   pinned tree, [run_norelease] the protocol with the first of the two repairs only.  [reachable cfg s]
   says that s is reached from empty stacks by some sequence of such steps of any processes in any order
   with any directory-listing order; [cfg] gives every pid its lock kind, its inherited EUPS_LOCK_PID, its
   retry budget and the path of stacks it locks (in that order; wf cfg: no stack twice in one path).
   holds s p: takeLocks has returned for p and giveLocks has not been called yet.  related cfg p q: one
   of them is the EUPS_LOCK_PID ancestor of the other. *)
From Eupsv Require Import Base.Base Model.Lock Proofs.LockLib Proofs.LockNext Proofs.LockNext2 Proofs.Lock
  Proofs.LockLive Generated.Locks Model.LockName Proofs.LockName Model.LockCmd Proofs.LockCmd.

(* at no instant do two unrelated processes both hold a lock on the same stack if either lock is
   exclusive: for every schedule, every number of processes and of stacks, every retry budget *)
Theorem mutex cfg s p q k :
  wf cfg -> reachable cfg s -> holds s p -> holds s q -> p <> q -> ~ related cfg p q ->
  In k (path_of cfg p) -> In k (path_of cfg q) ->
  kind_of cfg p = Sh /\ kind_of cfg q = Sh.
Proof. exact (mutex_proof true cfg s p q k). Qed.
Print Assumptions mutex.

(* the boolean form of the same statement, which the driver evaluates on every state of every trace *)
Corollary mutex_okb_reachable cfg s ps : wf cfg -> reachable cfg s -> mutex_okb cfg s ps = true.
Proof.
  intros WF R. unfold mutex_okb. apply forallb_forall. intros p _. apply forallb_forall. intros q _.
  destruct (Nat.eqb p q) eqn:E; [reflexivity|]. apply Nat.eqb_neq in E.
  destruct (relatedb cfg p q) eqn:Rl; [reflexivity|].
  destruct (holdsb s p) eqn:Hp; [|reflexivity]. destruct (holdsb s q) eqn:Hq; [|reflexivity].
  destruct (share_stack cfg p q) eqn:Sh; [|reflexivity].
  assert (NR : ~ related cfg p q) by (intro H; apply relatedb_true in H; congruence).
  destruct (share_stack_true cfg p q Sh) as (k & Kp & Kq).
  destruct (mutex cfg s p q k WF R Hp Hq E NR Kp Kq) as [A B]. unfold isEx. now rewrite A, B.
Qed.
Print Assumptions mutex_okb_reachable.

(* ---- the file-name layer (Model/LockName.v): the lock directory holds NAMES kind-user.pid, and takeLocks
   decides on what listLockers reads back out of them *)

(* the name of a lock file reads back as its kind, its owner's login name and its pid: for every kind, every
   pid of any width and every login name the pattern can match at all (not empty, no newline; dots, dashes,
   at-signs, digits, slashes are all fine) *)
Theorem lock_name_roundtrip k u p :
  user_ok u = true -> parse_lock_name (lock_name k u p) = Some (k, u, digits p).
Proof. exact (parse_lock_name_roundtrip k u p). Qed.
Print Assumptions lock_name_roundtrip.

(* pids are compared as the strings written in the names: two pids are told apart whatever their widths *)
Theorem pid_strings_distinct p q : digits p = digits q -> p = q.
Proof. exact (digits_inj p q). Qed.
Print Assumptions pid_strings_distinct.

(* mutual exclusion of the protocol run on names: every process has a login name of its own choosing; for
   every schedule, every number of processes and stacks, every retry budget.  [nstep] is [step] with every
   query on the directory replaced by listLockers over the names; it starts from empty stacks *)
Theorem mutex_named cfg usr ns p q k :
  wf cfg -> users_ok usr -> nreachable true true cfg usr no_junk ns ->
  nholds ns p -> nholds ns q -> p <> q -> ~ related cfg p q ->
  In k (path_of cfg p) -> In k (path_of cfg q) ->
  kind_of cfg p = Sh /\ kind_of cfg q = Sh.
Proof. exact (mutex_named_proof cfg usr ns p q k). Qed.
Print Assumptions mutex_named.

(* the step the proof of mutex_named rests on: a state over names that shows a state over owners steps to
   one that shows its successor (so every theorem about [reachable] carries over to names) *)
Theorem names_refine_owners cfg usr fx fr ns s p c :
  users_ok usr -> shows cfg usr ns s -> shows cfg usr (nstep fx fr cfg usr ns p c) (step_gen fx fr cfg s p c).
Proof. intro U. exact (shows_step cfg usr U fx fr ns s p c). Qed.
Print Assumptions names_refine_owners.

(* an exclusive lock file is seen by every reader whoever owns it: with the lock file of an exclusive process
   q in the directory, the scan for exclusive files of a shared requester p (not q's child) is not empty and
   its second look reports a conflict *)
Theorem exclusive_lock_seen cfg usr p q fs :
  users_ok usr -> In q fs -> kind_of cfg q = Ex -> kind_of cfg p = Sh -> q <> p -> root_of cfg p <> Some q ->
  list_lockers PExcl [] (map (myname cfg usr) fs) <> [] /\ n_conflict cfg p (map (myname cfg usr) fs) = true.
Proof. exact (exclusive_seen cfg usr p q fs). Qed.
Print Assumptions exclusive_lock_seen.

(* entries of the lock directory that are not lock files (they do not parse, or the pattern does not match
   them: editor back-ups, .nfs files) change no listing *)
Theorem foreign_entries_invisible pt ig a j b :
  parse_lock_name j = None \/ glob_match pt j = false ->
  list_lockers pt ig (a ++ j :: b) = list_lockers pt ig (a ++ b).
Proof. exact (foreign_invisible pt ig a j b). Qed.
Print Assumptions foreign_entries_invisible.

Example names_parse :
  parse_lock_name (lit "exclusive-john.doe.4711") = Some (Ex, lit "john.doe", lit "4711") /\
  parse_lock_name (lit "shared-www-data.7") = Some (Sh, lit "www-data", lit "7") /\
  parse_lock_name (lit "exclusive-first.last@realm.12.345") = Some (Ex, lit "first.last@realm.12", lit "345") /\
  parse_lock_name (lit "shared-bob.007") = Some (Sh, lit "bob", lit "007") /\
  parse_lock_name (lit "exclusive-root.12~") = None /\ parse_lock_name (lit "exclusive.bak") = None /\
  parse_lock_name (lit "shared-.12") = None /\ parse_lock_name (lit "locked-root.12") = None /\
  lock_name Ex (lit "john.doe") 4711 = lit "exclusive-john.doe.4711".
Proof. vm_compute. repeat split; reflexivity. Qed.

(* a writer john.doe (pid 12) holds; a reader www-data (pid 123) is refused at its scan; with foreign entries
   in the directory from the start a reader still acquires, and gives the lock back leaving them alone *)
Definition named_procs : nprocs :=
  [(12, (Ex, None, 1, [0]), lit "john.doe"); (123, (Sh, None, 1, [0]), lit "www-data")].
Example named_writer_excludes_reader :
  let cfg := cfg_of (procs_of named_procs) in
  let s := last (ntrace true true cfg (usr_of named_procs) (ninit no_junk) (map (fun p => (p, 0)) [12; 12; 12; 12; 123; 123; 123; 123])) (ninit no_junk) in
  nholdsb s 12 = true /\ lpc (nlocal s 123) = LFailed /\ nfiles s 0 = [lit "exclusive-john.doe.12"].
Proof. vm_compute. repeat split; reflexivity. Qed.
Example named_reader_among_foreign :
  let cfg := cfg_of (procs_of named_procs) in
  let junk := junk_of [[lit "exclusive.bak"; lit ".nfs0001"]] in
  let t := ntrace true true cfg (usr_of named_procs) (ninit junk) (map (fun p => (p, 0)) [123; 123; 123; 123; 123; 123; 123; 123; 123; 123]) in
  existsb (fun s => nholdsb s 123) t = true /\
  lpc (nlocal (last t (ninit junk)) 123) = LDone /\ nfiles (last t (ninit junk)) 0 = junk 0.
Proof. vm_compute. repeat split; reflexivity. Qed.

(* The pinned protocol does not have the property.  Three check-then-act windows, each with its schedule;
   process 1 is the shared requester, 3 the exclusive one, 2 a reader that comes and goes; one stack. *)
Definition k_procs : procs :=
  [(1, (Sh, None, 2, [0])); (2, (Sh, None, 2, [0])); (3, (Ex, None, 2, [0]))].
Definition z (l : list pid) : list (pid * choice) := map (fun p => (p, 0)) l.
(* K1: 3 has made the directory but not its file when 1 scans for exclusive locks *)
Definition k1_schedule := z [3; 1; 1; 1; 1; 3; 3].
(* K2: 1 has scanned; 2 releases and removes the directory; 3 makes it anew; 1 creates its file in it *)
Definition k2_schedule := z [2; 2; 2; 1; 1; 1; 2; 2; 2; 2; 2; 2; 3; 3; 1; 3].
(* K3: 1 finds the directory, which 2 removes before 1 tests its existence: 1 proceeds without a lock *)
Definition k3_schedule := z [2; 2; 2; 1; 2; 2; 2; 2; 2; 2; 1; 3; 3; 3].

Definition both_hold (s : state) : bool := holdsb s 1 && holdsb s 3.

Example k1_pinned : both_hold (run_pinned (cfg_of k_procs) init k1_schedule) = true.
Proof. vm_compute. reflexivity. Qed.

Theorem mutex_refuted_pinned :
  exists cfg sched p q k,
    let s := run_pinned cfg init sched in
    wf cfg /\ reachable_gen false false cfg s /\ holds s p /\ holds s q /\ p <> q /\ ~ related cfg p q /\
    In k (path_of cfg p) /\ In k (path_of cfg q) /\ kind_of cfg q = Ex.
Proof.
  exists (cfg_of k_procs), k1_schedule, 1, 3, 0. cbv zeta.
  split; [apply wf_cfg_of; reflexivity|].
  split; [apply reachable_run; constructor|].
  destruct (proj1 (andb_true_iff _ _) k1_pinned) as [H1 H3].
  split; [exact H1|]. split; [exact H3|].
  split; [discriminate|]. split; [intros [H|H]; discriminate H|].
  split; [now left|]. split; [now left | reflexivity].
Qed.
Print Assumptions mutex_refuted_pinned.

Example k2_pinned : both_hold (run_pinned (cfg_of k_procs) init k2_schedule) = true.
Proof. vm_compute. reflexivity. Qed.
Example k3_pinned : both_hold (run_pinned (cfg_of k_procs) init k3_schedule) = true.
Proof. vm_compute. reflexivity. Qed.
(* the same window between two exclusive children 2 and 3 of the shared holder 1: siblings are unrelated *)
Definition sib_procs : procs :=
  [(1, (Sh, None, 2, [0])); (2, (Ex, Some 1, 2, [0])); (3, (Ex, Some 1, 2, [0]))].
Example siblings_pinned :
  let s := run_pinned (cfg_of sib_procs) init (z [1; 1; 1; 2; 2; 3; 3; 2; 3; 2; 3]) in
  holdsb s 2 && holdsb s 3 && negb (relatedb (cfg_of sib_procs) 2 3) = true.
Proof. vm_compute. reflexivity. Qed.
Example siblings_repaired :
  forallb (fun s => mutex_okb (cfg_of sib_procs) s [1; 2; 3])
          (trace_gen true true (cfg_of sib_procs) init (z [1; 1; 1; 1; 2; 2; 3; 3; 2; 3; 2; 3; 2; 3])) = true.
Proof. vm_compute. reflexivity. Qed.
(* the same three schedules under the repaired protocol: nobody holds together with 3 at any point *)
Example k123_repaired :
  forallb (fun sched => forallb (fun s => mutex_okb (cfg_of k_procs) s [1; 2; 3])
                                (trace_gen true true (cfg_of k_procs) init sched))
          [k1_schedule; k2_schedule; k3_schedule] = true.
Proof. vm_compute. reflexivity. Qed.

(* a process that has not started: about to make its first call, nothing locked *)
Definition fresh (s : state) (p : pid) : Prop := pc s p = LMkdir /\ nlk s p = 0.

(* a process that runs alone on a free stack gets its lock, shared or exclusive (so mutex is not
   vacuous: holders exist) *)
Theorem free_stack_acquires cfg s p c k :
  wf cfg -> reachable cfg s -> path_of cfg p = [k] -> dir s k = false -> fresh s p ->
  holds (run cfg s (repeat (p, c) 4)) p.
Proof.
  intros WF R P D [L N0]. destruct (reachable_gen_inv true true cfg s WF R) as (H0 & _).
  assert (F : files s k = []).
  { destruct (files s k) as [|x r] eqn:E; [reflexivity|]. specialize (H0 k x). rewrite E in H0.
    rewrite D in H0. discriminate H0. now left. }
  destruct (solo_free_acquires cfg s p c k P D F L N0) as (H & _). now apply held_holds.
Qed.
Print Assumptions free_stack_acquires.

(* any number of readers may share: for every n a state in which n shared requesters of one stack all
   hold is reachable *)
Theorem readers_share cfg k n :
  (forall i, i < n -> kind_of cfg i = Sh /\ path_of cfg i = [k]) ->
  exists s, reachable cfg s /\ forall i, i < n -> holds s i.
Proof.
  intro K. destruct (readers_share_proof cfg k n K) as (s & R & H & _). now exists s.
Qed.
Print Assumptions readers_share.

(* a child of the lock holder re-enters its parent's lock: q inherited EUPS_LOCK_PID = p, p holds and is
   the only locker of the stack; then q, whatever kind it asks for and whatever kind p holds, acquires on
   its first attempt and both hold *)
Theorem reentry cfg s p q k :
  wf cfg -> reachable cfg s -> path_of cfg q = [k] -> root_of cfg q = Some p -> q <> p ->
  holds s p -> files s k = [p] -> fresh s q ->
  exists n, let s' := run cfg s (repeat (q, 0) n) in holds s' q /\ holds s' p.
Proof.
  intros WF R P Rt Hne Hp F [Lq N0].
  destruct (reachable_gen_inv true true cfg s WF R) as (H0 & _).
  destruct (reachable_fx_inv true cfg s WF R) as (HN & _).
  assert (D : dir s k = true) by (apply (H0 k p); rewrite F; now left).
  assert (Lp : pc s p = LHeld).
  { unfold holds, holdsb in Hp. pose proof (HN p). destruct (pc s p); try discriminate; congruence. }
  destruct (reentry_proof cfg s p q k P Rt Hne D F Lp Lq N0) as (n & A & B & _).
  exists n. cbv zeta. split; now apply held_holds.
Qed.
Print Assumptions reentry.

(* released locks leave no residue: whenever no process is inside takeLocks or giveLocks (every process
   has not started, is done, has failed or has crashed) no lock directory exists, on any stack *)
Theorem no_residue cfg s k : wf cfg -> reachable cfg s -> quiescent s -> dir s k = false /\ files s k = [].
Proof. exact (no_residue_proof cfg s k). Qed.
Print Assumptions no_residue.

(* a command that failed to take its locks holds nothing: no lock file of its on any stack, also not on the
   stacks of its path that it had locked before the one that refused it *)
Theorem no_residue_after_failure cfg s p k :
  wf cfg -> reachable cfg s -> pc s p = LFailed -> ~ In p (files s k).
Proof. intros WF R L. apply (ended_owns_nothing cfg s p k WF R). now rewrite L. Qed.
Print Assumptions no_residue_after_failure.

(* Without the release on failure the clause is false.  Process 1 (exclusive) locks the stacks 0 and 1 in
   that order, process 2 (a reader) only stack 1.  2 takes stack 1; 1 locks stack 0, is refused on stack 1
   and gives up; 2 finishes.  Nobody is running and the lock of 1 on stack 0 is still there. *)
Definition two_procs : procs := [(1, (Ex, None, 1, [0; 1])); (2, (Sh, None, 1, [1]))].
Definition two_schedule := z [2; 2; 2; 2; 1; 1; 1; 1; 1; 1; 1; 2; 2; 2; 2; 2; 2].

Theorem no_residue_refuted_norelease :
  exists cfg sched,
    let s := run_norelease cfg init sched in
    wf cfg /\ reachable_gen true false cfg s /\ pc s 1 = LFailed /\ pc s 2 = LDone /\
    dir s 0 = true /\ files s 0 = [1].
Proof.
  exists (cfg_of two_procs), two_schedule. cbv zeta.
  split; [apply wf_cfg_of; reflexivity|].
  split; [apply reachable_run; constructor|].
  vm_compute. repeat split; reflexivity.
Qed.
Print Assumptions no_residue_refuted_norelease.

(* the same schedule, continued by the five calls with which 1 now gives stack 0 back, under the protocol
   with both repairs: everything is clean *)
Example two_stacks_repaired :
  let s := run (cfg_of two_procs) init (z [2; 2; 2; 2; 1; 1; 1; 1; 1; 1; 1; 1; 1; 1; 1; 1; 2; 2; 2; 2; 2; 2]) in
  pc s 1 = LFailed /\ pc s 2 = LDone /\ dir s 0 = false /\ dir s 1 = false /\ files s 0 = [] /\ files s 1 = [].
Proof. vm_compute. repeat split; reflexivity. Qed.

(* a reachable, non-trivial state satisfying the hypotheses of mutex: two readers hold, a writer has just
   created its file and is about to withdraw it *)
Example hypotheses_inhabited :
  let cfg := cfg_of k_procs in
  let s := run cfg init (z [3; 3; 1; 1; 1; 1; 1; 2; 2; 2; 2; 2; 3; 3]) in
  wf cfg /\ holdsb s 1 = true /\ holdsb s 2 = true /\ pc s 3 = LGive GBackoff GIsdir /\ files s 0 = [3; 2; 1].
Proof. split; [apply wf_cfg_of; reflexivity|]. vm_compute. repeat split; reflexivity. Qed.

(* ---- which commands take which lock (table regenerated from cmd.py and setupcmd.py on every run) *)

(* every command that updates the database takes the exclusive lock *)
Theorem updaters_exclusive : forall c, In c mutating_commands -> takes registered Ex c = true.
Proof. apply forallb_forall. vm_compute. reflexivity. Qed.
Print Assumptions updaters_exclusive.

(* every command that only reads it takes the shared lock *)
Theorem readers_shared : forall c, In c reader_commands -> takes registered Sh c = true.
Proof. apply forallb_forall. vm_compute. reflexivity. Qed.
Print Assumptions readers_shared.

(* ---- WHICH stacks a command locks (Model/LockCmd.v).  mutex is a statement per stack: a command excludes the
   others exactly on the stacks it has locked.  So the clause holds of COMMANDS only if each takes its locks on
   the stacks it works on. *)

(* for every command line - EUPS_PATH of any number of stacks, -Z and -z any number of times before and after
   the command word - the stacks the Eups object of the command works on are the stacks execute locks *)
Theorem commands_lock_used_stacks c k : In k (used_stacks c) <-> In k (locked_stacks c).
Proof. exact (used_iff_locked c k). Qed.
Print Assumptions commands_lock_used_stacks.

(* hence: two unrelated commands that run at the same time and WORK ON a common stack are both readers *)
Theorem commands_exclude_on_used_stacks cfg s (line : pid -> cmdline) p q k :
  wf cfg -> reachable cfg s -> (forall r, path_of cfg r = locked_stacks (line r)) ->
  holds s p -> holds s q -> p <> q -> ~ related cfg p q ->
  In k (used_stacks (line p)) -> In k (used_stacks (line q)) ->
  kind_of cfg p = Sh /\ kind_of cfg q = Sh.
Proof.
  intros WF R L Hp Hq NE NR Kp Kq. apply (mutex cfg s p q k WF R Hp Hq NE NR).
  - rewrite L. apply used_iff_locked. exact Kp.
  - rewrite L. apply used_iff_locked. exact Kq.
Qed.
Print Assumptions commands_exclude_on_used_stacks.

(* Locking what the dispatcher alone makes of the line (the options before the command word) is not enough:
   eups declare -Z stack1 with EUPS_PATH = stack0 works on stack 1 and would lock stack 0; a reader of stack 1
   then holds its lock together with the updater. *)
Definition z_after : cmdline := {| env_path := [0]; before := []; after := [OptZ [1]] |}.
Definition reader_of_1 : cmdline := {| env_path := [1]; before := []; after := [] |}.
Definition dispatcher_procs : procs :=
  [(1, (Ex, None, 1, dispatcher_stacks z_after)); (2, (Sh, None, 1, locked_stacks reader_of_1))].

Theorem dispatcher_view_refuted :
  exists sched p q k,
    let cfg := cfg_of dispatcher_procs in
    let s := run cfg init sched in
    wf cfg /\ reachable cfg s /\ holds s p /\ holds s q /\ p <> q /\ ~ related cfg p q /\
    In k (used_stacks z_after) /\ In k (used_stacks reader_of_1) /\ kind_of cfg p = Ex /\
    ~ In k (dispatcher_stacks z_after).
Proof.
  exists (z [1; 1; 1; 1; 2; 2; 2; 2]), 1, 2, 1. cbv zeta.
  split; [apply wf_cfg_of; reflexivity|].
  split; [apply reachable_run; constructor|].
  set (s := run _ _ _).
  assert (B : holdsb s 1 && holdsb s 2 = true) by (vm_compute; reflexivity).
  apply andb_true_iff in B. destruct B as [B1 B2].
  split; [exact B1|]. split; [exact B2|].
  split; [discriminate|]. split; [intros [H|H]; discriminate H|].
  split; [now left|]. split; [now left|]. split; [reflexivity|].
  intros [H|H]; [discriminate|exact H].
Qed.
Print Assumptions dispatcher_view_refuted.

Example line_examples :
  locked_stacks z_after = [1] /\ used_stacks z_after = [1] /\ dispatcher_stacks z_after = [0] /\
  locked_stacks {| env_path := [1; 0; 1; 2]; before := [Optz (fun k => Nat.leb k 1)]; after := [] |} = [1; 0] /\
  locked_stacks {| env_path := [0]; before := [OptZ [1]]; after := [OptZ [2; 1; 2]] |} = [2; 1].
Proof. vm_compute. repeat split; reflexivity. Qed.
