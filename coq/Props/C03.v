(* C03 - The version chosen is the one the Version Resolution Order designates.
   The property theorems, in this order: the walk of Model/Resolve.v for an arbitrary comparator and matcher; the
   default VRO in closed form (needs Proofs/ResolveVro.v); the comparator of C10 in their place (Model/ResolveReal.v,
   imported where that part begins, likewise below); one stack with sorted listings; user tags, --vro, LOCAL:, tag
   files (Model/ResolveExt.v); histories and sessions of live instances (Model/ResolveSeq.v).  Examples close each part.

   Notation.  A database view [db] is the list of stacks in EUPS_PATH order, each with its version
   records (name, version, flavor) and chain entries (name, flavor, tag, version).  [vro] is a list of
   entries (keep, commandLine, version, version!, versionExpr, path, type:s, warn:n, tag t).
   [find_from_vro vcmp vmatch c db prev f depth vro rq] is Eups.findProductFromVRO for flavor f, with
   prev = alreadySetupProducts.get(name); [resolve_request] adds the acceptance loop and the flavor
   loop of Eups.setup; [select_vro] is Eups.selectVRO.  [designates_in] / [designates] are the
   designation rule of Model/ResolveSpec.v.  vcmp / vmatch stand for hooks.version_cmp and
   Eups.version_match (modelled by C10) and are arbitrary here. *)
From Eupsv Require Import Base.Base Base.BaseLemmas Model.Resolve Model.ResolveSpec Generated.Config
     Proofs.ResolveLib Proofs.Resolve.

(* For a product that has not been chosen before in the running command, the product returned by the
   walk is the one the designation rule names.  Hypotheses: the database is well formed (no version
   name is itself a relational expression; no chain file is called keep) and the comparator is a total
   order on the version names declared for this product. *)
Theorem walk_is_designation vcmp vmatch c db f depth vro rq :
  wf_db db = true -> total_order_on vcmp (names_of db (rq_name rq)) ->
  option_map fst (find_from_vro vcmp vmatch c db None f depth vro rq) =
  designates_in vcmp vmatch c db (rq_name rq) (classify rq) f vro.
Proof. intros WF HT. now apply walk_designates. Qed.
Print Assumptions walk_is_designation.

(* the same for the whole resolution of Eups.setup: top-level acceptance loop and flavor fallback; in
   particular the resolution never raises for a product not chosen before *)
Theorem resolve_is_designation vcmp vmatch c db keep flavors depth vro rq :
  wf_db db = true -> total_order_on vcmp (names_of db (rq_name rq)) ->
  exists r, resolve_request vcmp vmatch c db keep None flavors depth vro rq = Ok r /\
            option_map fst r = designates vcmp vmatch c db flavors depth vro rq.
Proof. apply resolve_designates. Qed.
Print Assumptions resolve_is_designation.

(* When the request names a version or an expression, the entries after the last version-like entry
   of the VRO are never consulted: the walk over the whole VRO is the walk over the VRO cut there. *)
Theorem named_version_never_falls_through vcmp vmatch c db f depth pre e post rq :
  truthy (rq_version rq) <> None -> is_version_like e = true -> existsb is_version_like post = false ->
  find_from_vro vcmp vmatch c db None f depth (pre ++ e :: post) rq =
  find_from_vro vcmp vmatch c db None f depth (pre ++ [e]) rq.
Proof. apply walk_cut. Qed.
Print Assumptions named_version_never_falls_through.

(* the shape of the default VRO (see default_vro_closed_form): inert entries, version, versionExpr, tags.
   An explicit version that no stack declares for any flavor tried makes the request fail, whatever
   tags follow and whatever they are assigned to. *)
Theorem undeclared_version_fails vcmp vmatch c db keep flavors depth pre post rq v :
  wf_db db = true -> forallb is_inert pre = true ->
  truthy (rq_version rq) = Some v -> is_expr v = false -> truthy (rq_expr rq) = None ->
  (forall f s, In f flavors -> In s db -> declared s (rq_name rq) v f = false) ->
  existsb is_version_like post = false ->
  resolve_request vcmp vmatch c db keep None flavors depth (pre ++ EVersion :: EVersionExpr :: post) rq = Ok None.
Proof.
  intros WF IN TV NE TX ND NV. unfold resolve_request.
  induction flavors as [|f fs IH]; cbn [flavor_loop]; [reflexivity|].
  rewrite accept_none.
  - apply IH. intros f0 s Hf. apply ND. now right.
  - apply undeclared_fails_walk with v; auto. intros s Hs. apply ND; [now left|assumption].
Qed.
Print Assumptions undeclared_version_fails.

(* a tag placed before the version entries (only inert entries before it) that designates a product
   decides the walk, whatever version or expression the request (a table line) names *)
Theorem pretag_overrides vcmp vmatch c db f depth pre t rest rq p :
  wf_db db = true -> forallb is_inert pre = true ->
  recognized c t = true -> str_eqb t (lit "latest") = false -> str_eqb t (lit "setup") = false ->
  tag_designates db (rq_name rq) t f = Some p ->
  find_from_vro vcmp vmatch c db None f depth (pre ++ ETag t :: rest) rq = Some (p, (ETag t, None)).
Proof.
  intros WF IN R L S T. rewrite find_from_vro_none_prev, inert_loop by assumption.
  now rewrite (tag_hit vcmp vmatch c db rq f depth t rest p R L S T).
Qed.
Print Assumptions pretag_overrides.

(* and for a dependency (depth > 0) that is what gets set up *)
Theorem pretag_overrides_dependency vcmp vmatch c db keep f fs d pre t rest rq p :
  wf_db db = true -> forallb is_inert pre = true ->
  recognized c t = true -> str_eqb t (lit "latest") = false -> str_eqb t (lit "setup") = false ->
  tag_designates db (rq_name rq) t f = Some p ->
  resolve_request vcmp vmatch c db keep None (f :: fs) (S d) (pre ++ ETag t :: rest) rq =
  Ok (Some (p, Some (ETag t, None))).
Proof.
  intros WF IN R L S T. unfold resolve_request. cbn [flavor_loop].
  rewrite (accept_deep vcmp vmatch c db keep None f d _ rq _ p (ETag t, None)); [reflexivity|].
  now apply pretag_overrides.
Qed.
Print Assumptions pretag_overrides_dependency.

(* a tag placed after the version entries is reached exactly when the request names nothing: then
   (only inert and version entries before it) it decides; when the request names a version or an
   expression it is never consulted (named_version_never_falls_through) *)
Theorem posttag_only_without_version vcmp vmatch c db f depth pre t rest rq :
  wf_db db = true -> forallb skipped_when_bare pre = true ->
  (truthy (rq_version rq) = None ->
   forall p, recognized c t = true -> str_eqb t (lit "latest") = false -> str_eqb t (lit "setup") = false ->
   tag_designates db (rq_name rq) t f = Some p ->
   find_from_vro vcmp vmatch c db None f depth (pre ++ ETag t :: rest) rq = Some (p, (ETag t, None))) /\
  (truthy (rq_version rq) <> None ->
   forall pre' e, pre = pre' ++ [e] -> is_version_like e = true ->
   existsb is_version_like (ETag t :: rest) = false ->
   find_from_vro vcmp vmatch c db None f depth (pre ++ ETag t :: rest) rq =
   find_from_vro vcmp vmatch c db None f depth pre rq).
Proof.
  intros WF SK. split.
  - intros TV p R L S T. rewrite find_from_vro_none_prev, bare_loop by assumption.
    now rewrite (tag_hit vcmp vmatch c db rq f depth t rest p R L S T).
  - intros TV pre' e -> He NV. rewrite <- app_assoc. cbn [app]. now apply walk_cut.
Qed.
Print Assumptions posttag_only_without_version.

(* a tag: the first stack whose chain has the flavor and whose version record exists *)
Theorem first_stack_wins vcmp db1 s db2 n t v f :
  str_eqb t (lit "latest") = false -> str_eqb t (lit "setup") = false ->
  (forall s' v', In s' db1 -> chain_version s' n f t = Some v' -> declared s' n v' f = false) ->
  chain_version s n f t = Some v -> declared s n v f = true ->
  find_tagged vcmp (db1 ++ s :: db2) n t f = Some (found_in s n v f).
Proof.
  intros L S H1 H2 H3. unfold find_tagged. rewrite L, S, find_chain_tagged_spec.
  unfold tag_designates. rewrite first_some_app. rewrite first_some_none.
  - simpl. now rewrite H2, H3.
  - intros a Ha. destruct (chain_version a n f t) as [v'|] eqn:E; [|reflexivity].
    now rewrite (H1 a v' Ha E).
Qed.
Print Assumptions first_stack_wins.

(* an explicit version: the first stack declaring it *)
Theorem first_stack_wins_version db1 s db2 n v f :
  (forall s', In s' db1 -> declared s' n v f = false) -> declared s n v f = true ->
  find_version (db1 ++ s :: db2) n v f = Some (found_in s n v f).
Proof.
  intros H1 H2. rewrite find_version_spec. unfold version_designates. rewrite first_some_app.
  rewrite first_some_none; [simpl; now rewrite H2|]. intros a Ha. now rewrite (H1 a Ha).
Qed.
Print Assumptions first_stack_wins_version.

(* explicit hypothesis: vcmp is a total order on the version names declared for the product.  The
   product chosen for an expression is declared, satisfies the expression, no satisfying declaration is
   higher, and of the declarations carrying that version name it is the first in path order. *)
Theorem expr_highest vcmp vmatch db n x f p :
  total_order_on vcmp (names_of db n) ->
  select_latest vcmp (find_by_expr vmatch db n x f) = Some p ->
  In p (candidates db n f) /\ vmatch (fd_version p) x = true /\
  (forall q, In q (candidates db n f) -> vmatch (fd_version q) x = true ->
             vcmp (fd_version q) (fd_version p) <> Gt) /\
  find (fun q => str_eqb (fd_version q) (fd_version p))
       (filter (fun q => vmatch (fd_version q) x) (candidates db n f)) = Some p.
Proof.
  intros HT H. rewrite expr_spec in H by assumption. unfold expr_designates in H.
  apply (highest_best vcmp (names_of db n) HT) in H.
  - destruct H as [I [M F]]. apply filter_In in I. destruct I as [I1 I2].
    split; [assumption|]. split; [assumption|]. split; [|exact F].
    intros q Hq Mq. apply M. apply filter_In. auto.
  - intros q Hq. apply filter_In in Hq. destruct Hq as [Hq _]. now apply candidates_names in Hq.
Qed.
Print Assumptions expr_highest.

(* the tag latest: the highest declaration over all stacks, the earlier stack winning a tie *)
Theorem latest_highest vcmp db n f p :
  total_order_on vcmp (names_of db n) ->
  find_latest vcmp db n f = Some p ->
  In p (candidates db n f) /\
  (forall q, In q (candidates db n f) -> vcmp (fd_version q) (fd_version p) <> Gt) /\
  find (fun q => str_eqb (fd_version q) (fd_version p)) (candidates db n f) = Some p.
Proof.
  intros HT H. rewrite find_latest_spec in H by assumption.
  apply (highest_best vcmp (names_of db n) HT) in H; [exact H|].
  intros q Hq. now apply candidates_names in Hq.
Qed.
Print Assumptions latest_highest.

(* if the walk for the native flavor designates a product, that product - of the native flavor - is
   chosen whatever the fallback flavors hold; the fallbacks matter only when it designates nothing *)
Theorem native_flavor_preferred vcmp vmatch c db keep f fs depth vro rq :
  wf_db db = true -> total_order_on vcmp (names_of db (rq_name rq)) ->
  (forall p, designates_top vcmp vmatch c db (rq_name rq) (classify rq) f depth vro = Some p ->
     fd_flavor p = f /\
     exists r, resolve_request vcmp vmatch c db keep None (f :: fs) depth vro rq = Ok (Some (p, r))) /\
  (designates_top vcmp vmatch c db (rq_name rq) (classify rq) f depth vro = None ->
     designates vcmp vmatch c db (f :: fs) depth vro rq = designates vcmp vmatch c db fs depth vro rq).
Proof.
  intros WF HT. split.
  - intros p H. split; [eapply designates_top_flavor; eauto|].
    destruct (resolve_designates vcmp vmatch c db keep (f :: fs) depth vro rq WF HT) as [r [E1 E2]].
    unfold designates in E2. cbn [first_some] in E2. rewrite H in E2.
    destruct r as [[p' r']|]; [|discriminate]. simpl in E2. injection E2 as ->. eauto.
  - intro H. unfold designates. cbn [first_some]. now rewrite H.
Qed.
Print Assumptions native_flavor_preferred.

(* whatever the VRO, the tags and the earlier choices: a top-level request (depth 0) that names an
   explicit version either sets up exactly that version or fails (used by C01) *)
Theorem explicit_toplevel_version_honoured vcmp vmatch c db keep prev flavors vro rq v p r :
  truthy (rq_version rq) = Some v -> is_expr v = false ->
  resolve_request vcmp vmatch c db keep prev flavors 0 vro rq = Ok (Some (p, r)) -> fd_version p = v.
Proof. apply resolve_version. Qed.
Print Assumptions explicit_toplevel_version_honoured.

(* the product was chosen before in this command through the entry otag: if the new walk stops at an
   entry e0 that comes later in the VRO than otag, the earlier choice stands; otherwise the new one
   replaces it *)
Theorem earlier_rank_wins vcmp vmatch c db op otag ox f depth vro rq p r e0 :
  vro_loop vcmp vmatch c db (Some (op, Some (otag, ox))) rq f depth vro = Some (p, r, e0) ->
  find_from_vro vcmp vmatch c db (Some (op, Some (otag, ox))) f depth vro rq =
  match index_of otag vro, index_of e0 vro with
  | Some i, Some j => if i <? j then Some (op, (otag, ox)) else Some (p, r)
  | _, _ => Some (p, r)
  end.
Proof.
  intro H. unfold find_from_vro. rewrite H, mem_entry_index_of.
  destruct (index_of otag vro) as [i|]; [|reflexivity]. destruct (index_of e0 vro); reflexivity.
Qed.
Print Assumptions earlier_rank_wins.

From Eupsv Require Import Proofs.ResolveVro.

(* every ordered choice of at most three tags out of three *)
Definition picks (l : list str) : list (list str) :=
  [[]] ++ map (fun x => [x]) l ++
  flat_map (fun x => map (fun y => [x; y]) (remove_str x l)) l ++
  flat_map (fun x => flat_map (fun y => map (fun z => [x; y; z]) (remove_str y (remove_str x l)))
                              (remove_str x l)) l.

Definition tags3 : list str := [lit "stable"; lit "beta"; lit "latest"].
Definition bools : list bool := [false; true].
Definition all_opts3 : list opts :=
  flat_map (fun k => flat_map (fun x => flat_map (fun ix => flat_map (fun vn =>
  flat_map (fun ts => map (fun ps => mkOpts k x ix ts ps false vn) (picks tags3)) (picks tags3))
  bools) bools) bools) bools.

(* the shipped configuration with beta registered as a global tag *)
Definition cfg3 : config := site_config [lit "beta"] [lit "root"].

(* keep?, type:exact (unless --inexact), commandLine, the -t tags in order, version, versionExpr, then
   the -T tags and current, without those already given with -t *)
Definition expected_vro (o : opts) : list entry :=
  (if o_keep o then [EKeep] else []) ++
  (if o_inexact o then [] else [EType (lit "exact")]) ++
  [ECommandLine] ++ map ETag (o_tags o) ++ [EVersion; EVersionExpr] ++
  map ETag (filter (fun t => negb (mem_str t (o_tags o))) (uniq (o_posttags o ++ [lit "current"]))).

(* The closed form holds of every configuration that ships hooks.py's VRO table and keeps the reserved words
   apart from the global and user tags, and of every option set whose -t and -T words are plain registered
   tags, the -t words without repetition: whatever key selectVRO looks up, the table answers with its default
   line; each later stage passes over the fixed words and the blocks of tag names (Proofs/ResolveVro.v). *)
Lemma select_vro_default c o :
  cfg_vro c = hooks_vro ->
  forallb (fixed_word c) [EKeep; EType (lit "exact"); ECommandLine; EVersion; EVersionExpr] = true ->
  (forall t, In t (lit "current" :: o_tags o ++ o_posttags o) -> plain_tag c t = true) -> NoDup (o_tags o) ->
  select_vro c o = Ok (expected_vro o).
Proof.
  destruct o as [k x ix ts ps pd vn]. cbn [o_tags o_posttags]. intros HV HF HP ND.
  assert (HT : forall t, In t ts -> plain_tag c t = true) by (intros; apply HP; right; apply in_or_app; auto).
  assert (HS : forall t, In t ps -> plain_tag c t = true) by (intros; apply HP; right; apply in_or_app; auto).
  set (R := filter (fun t => negb (mem_str t ts)) (uniq (ps ++ [lit "current"]))).
  assert (HR : forall t, In t R -> plain_tag c t = true /\ mem_str t ts = false).
  { intros t Ht. apply filter_In in Ht. destruct Ht as [I N]. apply negb_true_iff in N. split; [|exact N].
    apply uniq_In, in_app_or in I. destruct I as [I|[<-|[]]]; [auto|apply HP; now left]. }
  unfold select_vro. cbn [o_keep o_exact o_inexact o_tags o_posttags o_productdir o_vnamed].
  rewrite HV. cbv zeta. rewrite default_key. cbv iota.
  change (match place_words (map parse_entry ts) (map parse_entry ps)
                            (if k then EKeep :: default_words else default_words) with
          | Ok v3 => Ok (finish_vro c ts x ix v3)
          | Err e => Err e
          end = Ok (expected_vro (mkOpts k x ix ts ps pd vn))).
  rewrite (plain_tags_parse c ts HT), (plain_tags_parse c ps HS), default_placed. f_equal.
  rewrite (finish_vro_clean c ts x ix _ (default_shape k ts R)).
  - unfold expected_vro, default_shape, remove_type_exact. cbn [o_keep o_inexact o_tags o_posttags]. fold R.
    destruct k, ix; cbn [app filter entry_eqb negb]; rewrite ?str_eqb_refl; cbn [negb]; try reflexivity.
    all: rewrite filter_app; cbn [filter entry_eqb negb]; now rewrite !filter_tags by reflexivity.
  - now apply default_deduped.
  - apply default_exact; auto. apply NoDup_filter, uniq_NoDup.
  - now apply default_recognized.
  - unfold default_shape, remove_type_exact.
    destruct k; cbn [app filter entry_eqb negb]; [discriminate|]. rewrite str_eqb_refl. discriminate.
Qed.

Lemma picks_spec l ts : In ts (picks l) -> NoDup ts /\ forall t, In t ts -> In t l.
Proof.
  assert (S : forall x y, In y (remove_str x l) -> In y l /\ y <> x) by (intros x y; apply remove_str_In).
  unfold picks. rewrite !in_app_iff, in_map_iff, !in_flat_map.
  intros [[<-|[]]|[[x [<- Hx]]|[[x [Hx H]]|[x [Hx H]]]]].
  - split; [constructor|intros t []].
  - split; [repeat constructor; intros []|intros t [<-|[]]; exact Hx].
  - apply in_map_iff in H. destruct H as [y [<- Hy]]. apply S in Hy. destruct Hy as [Hy N].
    split; [repeat constructor; simpl; intuition congruence|intros t [<-|[<-|[]]]; assumption].
  - apply in_flat_map in H. destruct H as [y [Hy H]].
    apply in_map_iff in H. destruct H as [z [<- Hz]]. apply remove_str_In in Hz. destruct Hz as [Hz Nzy].
    apply S in Hy, Hz. destruct Hy as [Hy Nyx], Hz as [Hz Nzx].
    split; [repeat constructor; simpl; intuition congruence|intros t [<-|[<-|[<-|[]]]]; assumption].
Qed.

(* 2048 option sets: keep, exact, inexact, version named or not, 16 x 16 ordered tag choices over stable,
   beta, latest *)
Theorem default_vro_closed_form o :
  In o all_opts3 -> select_vro cfg3 o = Ok (expected_vro o).
Proof.
  unfold all_opts3. intro Ho. do 4 (apply in_flat_map in Ho; destruct Ho as [? [_ Ho]]).
  apply in_flat_map in Ho. destruct Ho as [ts [Hts Ho]]. apply in_map_iff in Ho. destruct Ho as [ps [<- Hps]].
  destruct (picks_spec _ _ Hts) as [ND It], (picks_spec _ _ Hps) as [_ Ip].
  assert (T3 : forall t, In t tags3 -> plain_tag cfg3 t = true) by (intros t [<-|[<-|[<-|[]]]]; reflexivity).
  apply select_vro_default; cbn [o_tags o_posttags]; [reflexivity|reflexivity| |exact ND].
  intros t [<-|Ht]; [reflexivity|]. apply in_app_or in Ht. destruct Ht; auto.
Qed.
Print Assumptions default_vro_closed_form.

Definition ex_s1 : stackv :=
  mkStack (lit "s1")
    [(lit "foo", lit "1.0", lit "Linux64"); (lit "foo", lit "2.0", lit "Linux64");
     (lit "foo", lit "1.1", lit "generic")]
    [(lit "foo", lit "Linux64", lit "current", lit "2.0");
     (lit "foo", lit "Linux64", lit "beta", lit "3.0");          (* dangling: 3.0 has no record *)
     (lit "foo", lit "generic", lit "current", lit "1.1")].
Definition ex_s2 : stackv :=
  mkStack (lit "s2")
    [(lit "foo", lit "1.0", lit "Linux64"); (lit "foo", lit "10.0", lit "Linux64");
     (lit "foo", lit "1.1", lit "Linux64")]
    [(lit "foo", lit "Linux64", lit "current", lit "1.0");
     (lit "foo", lit "Linux64", lit "beta", lit "1.1");
     (lit "foo", lit "Linux64", lit "t", lit "1.0")].
Definition ex_db : dbv := [ex_s1; ex_s2].
Definition ex_cfg : config := site_config [lit "beta"; lit "t"] [lit "root"].
Definition ex_rq (v x : option str) : request := mkRequest (lit "foo") v x.
Definition ex_vro (ts ps : list str) : list entry :=
  match select_vro ex_cfg (mkOpts false false false ts ps false false) with Ok v => v | Err _ => [] end.
Definition ex_flavors : list str := [lit "Linux64"; lit "generic"].

Example ex_hypotheses :
  wf_db ex_db = true /\ total_order_on vcmp_simple (names_of ex_db (lit "foo")).
Proof. split; [reflexivity|]. apply vcmp_simple_total_orderb. vm_compute. reflexivity. Qed.

(* bare request: current of the first stack *)
Example ex_bare :
  find_from_vro vcmp_simple vmatch_simple ex_cfg ex_db None (lit "Linux64") 1 (ex_vro [] []) (ex_rq None None)
  = Some (mkFound (lit "s1") (lit "foo") (lit "2.0") (lit "Linux64"), (ETag (lit "current"), None)).
Proof. vm_compute. reflexivity. Qed.

(* -t beta: the chain of s1 is dangling, so the tag is found in s2; it overrides the table version 1.0 *)
Example ex_pretag :
  find_from_vro vcmp_simple vmatch_simple ex_cfg ex_db None (lit "Linux64") 1 (ex_vro [lit "beta"] [])
                (ex_rq (Some (lit "1.0")) None)
  = Some (mkFound (lit "s2") (lit "foo") (lit "1.1") (lit "Linux64"), (ETag (lit "beta"), None)).
Proof. vm_compute. reflexivity. Qed.

(* the same request at the top level: the tagged 1.1 is refused, the walk resumes and finds 1.0 in s1 *)
Example ex_toplevel :
  resolve_request vcmp_simple vmatch_simple ex_cfg ex_db false None ex_flavors 0 (ex_vro [lit "beta"] [])
                  (ex_rq (Some (lit "1.0")) None)
  = Ok (Some (mkFound (lit "s1") (lit "foo") (lit "1.0") (lit "Linux64"), Some (ECommandLine, Some (lit "1.0")))).
Proof. vm_compute. reflexivity. Qed.

(* an expression: the highest satisfying version over both stacks *)
Example ex_expr :
  find_from_vro vcmp_simple vmatch_simple ex_cfg ex_db None (lit "Linux64") 1 (ex_vro [] [])
                (ex_rq (Some (lit ">= 1.1")) None)
  = Some (mkFound (lit "s2") (lit "foo") (lit "10.0") (lit "Linux64"), (EVersionExpr, Some (lit ">= 1.1"))).
Proof. vm_compute. reflexivity. Qed.

(* a version that is not declared fails although current would match; -T t does not help either *)
Example ex_no_fall_through :
  resolve_request vcmp_simple vmatch_simple ex_cfg ex_db false None ex_flavors 1 (ex_vro [] [lit "t"])
                  (ex_rq (Some (lit "5.0")) None) = Ok None.
Proof. vm_compute. reflexivity. Qed.

(* -T t applies when nothing is named *)
Example ex_posttag :
  find_from_vro vcmp_simple vmatch_simple ex_cfg ex_db None (lit "Linux64") 1 (ex_vro [] [lit "t"]) (ex_rq None None)
  = Some (mkFound (lit "s2") (lit "foo") (lit "1.0") (lit "Linux64"), (ETag (lit "t"), None)).
Proof. vm_compute. reflexivity. Qed.

(* version 1.1 exists for Linux64 only in s2 and for generic in s1: the native flavor is preferred *)
Example ex_native :
  resolve_request vcmp_simple vmatch_simple ex_cfg ex_db false None ex_flavors 1 (ex_vro [] [])
                  (ex_rq (Some (lit "1.1")) None)
  = Ok (Some (mkFound (lit "s2") (lit "foo") (lit "1.1") (lit "Linux64"), Some (EVersion, Some (lit "1.1")))).
Proof. vm_compute. reflexivity. Qed.

(* an earlier choice through commandLine gives way to a hit through t, which ranks higher in this VRO;
   an earlier choice through beta stands against a hit through current (flavor generic has no beta), which
   ranks lower *)
Example ex_rank :
  find_from_vro vcmp_simple vmatch_simple ex_cfg ex_db
    (Some (mkFound (lit "s1") (lit "foo") (lit "2.0") (lit "Linux64"), Some (ECommandLine, Some (lit "2.0"))))
    (lit "Linux64") 1 [EType (lit "exact"); ETag (lit "t"); ECommandLine; EVersion] (ex_rq None None)
  = Some (mkFound (lit "s2") (lit "foo") (lit "1.0") (lit "Linux64"), (ETag (lit "t"), None)) /\
  find_from_vro vcmp_simple vmatch_simple ex_cfg ex_db
    (Some (mkFound (lit "s1") (lit "foo") (lit "2.0") (lit "Linux64"), Some (ETag (lit "beta"), None)))
    (lit "generic") 1 (ex_vro [lit "beta"] []) (ex_rq None None)
  = Some (mkFound (lit "s1") (lit "foo") (lit "2.0") (lit "Linux64"), (ETag (lit "beta"), None)).
Proof. vm_compute. split; reflexivity. Qed.

(* pinned tree: the entry t (and p, a, h, pa, at, th, pat, ath) was skipped like path, because the code
   tested membership in a parenthesised string; -t t had no effect and current decided.  The repaired
   walk (proposed_fixes/C03-path-substring.diff) honours the tag. *)
Example path_substring_refuted_pinned :
  let vro := ex_vro [lit "t"] [] in
  find_from_vro vcmp_simple vmatch_simple ex_cfg ex_db None (lit "Linux64") 1 (map pinned_path_quirk vro)
                (ex_rq None None)
  = Some (mkFound (lit "s1") (lit "foo") (lit "2.0") (lit "Linux64"), (ETag (lit "current"), None)) /\
  find_from_vro vcmp_simple vmatch_simple ex_cfg ex_db None (lit "Linux64") 1 vro (ex_rq None None)
  = Some (mkFound (lit "s2") (lit "foo") (lit "1.0") (lit "Linux64"), (ETag (lit "t"), None)) /\
  tag_designates ex_db (lit "foo") (lit "t") (lit "Linux64")
  = Some (mkFound (lit "s2") (lit "foo") (lit "1.0") (lit "Linux64")).
Proof. vm_compute. repeat split. Qed.

(* From here on vcmp / vmatch are instantiated: vcmp_real is hooks.version_cmp in sorting mode and
   vmatch_real is Eups.version_match, both as modelled and proved about in C10 (Model/VersionCompare.v,
   Props/C10.v).  resolve_real / walk_real (Model/ResolveReal.v) are resolve_request / find_from_vro with
   them, guarded by real_domain (no comparison the request can cause raises).
   conv_names l: every name of l is conventional (C10: conv).  real_names_ok l: moreover no two names of l
   spell the same key (1.0 / 1_0 / 1.00 / 01.0 are one key).  *)
From Eupsv Require Import Model.VersionCompare Model.VersionKey Model.ResolveReal Proofs.ResolveReal.

(* on conventional names the real comparator is reflexive, flips with its arguments, its not-greater is
   transitive, and it answers Eq exactly for names with the same key: a total PREorder *)
Theorem real_comparator_total_preorder l :
  conv_names l = true ->
  total_preorder_on vcmp_real l /\
  forall x y, In x l -> In y l ->
    vcmp_real x y = key_compare (key x) (key y) /\ (vcmp_real x y = Eq <-> key x = key y).
Proof.
  intro C. split; [now apply real_preorder|]. intros x y Hx Hy. rewrite conv_names_forall in C.
  split; [apply vcmp_real_key|apply vcmp_real_eq_key]; auto.
Qed.
Print Assumptions real_comparator_total_preorder.

(* it is the total order that walk_is_designation and its corollaries ask for exactly when no two of the
   names spell the same key *)
Theorem real_comparator_total_order l :
  conv_names l = true -> (total_order_on vcmp_real l <-> real_names_ok l = true).
Proof. intro C. split; [now apply real_total_order_inv|apply real_total_order]. Qed.
Print Assumptions real_comparator_total_order.

(* the matcher: one relational term is the relation on keys (and no match across letter prefixes); a list of
   alternatives is the disjunction *)
Theorem real_matcher_relop v op w :
  conv v = true -> conv w = true ->
  vmatch_real v (relop_text op ++ " "%char :: w) =
  str_eqb (prefix_of w) (prefix_of v) && rel op (key_compare (key v) (key w)).
Proof. apply vmatch_real_relop. Qed.
Print Assumptions real_matcher_relop.

Theorem real_matcher_alternatives v a l :
  conv v = true -> Forall (Proofs.VersionCompareMatch.alt_conv v) (a :: l) ->
  vmatch_real v (print_expr (a :: l)) = existsb (alt_holds v) (a :: l).
Proof. apply vmatch_real_alternatives. Qed.
Print Assumptions real_matcher_alternatives.

Theorem walk_is_designation_real c db f depth vro rq :
  wf_db db = true -> real_names_ok (names_of db (rq_name rq)) = true ->
  option_map fst (find_from_vro vcmp_real vmatch_real c db None f depth vro rq) =
  designates_in vcmp_real vmatch_real c db (rq_name rq) (classify rq) f vro.
Proof. intros WF OK. apply walk_is_designation; [exact WF|now apply real_total_order]. Qed.
Print Assumptions walk_is_designation_real.

(* the whole resolution, with the guard: inside the domain it never raises and returns the designated product *)
Theorem resolve_is_designation_real c db keep flavors depth vro rq :
  wf_db db = true -> real_names_ok (names_of db (rq_name rq)) = true -> real_domain db rq = true ->
  exists r, resolve_real c db keep None flavors depth vro rq = Ok r /\
            option_map fst r = designates_real c db flavors depth vro rq.
Proof.
  intros WF OK DOM. rewrite (resolve_real_in_domain _ _ _ _ _ _ _ _ DOM).
  apply resolve_is_designation; [exact WF|now apply real_total_order].
Qed.
Print Assumptions resolve_is_designation_real.

Theorem native_flavor_preferred_real c db keep f fs depth vro rq :
  wf_db db = true -> real_names_ok (names_of db (rq_name rq)) = true ->
  (forall p, designates_top vcmp_real vmatch_real c db (rq_name rq) (classify rq) f depth vro = Some p ->
     fd_flavor p = f /\
     exists r, resolve_request vcmp_real vmatch_real c db keep None (f :: fs) depth vro rq = Ok (Some (p, r))) /\
  (designates_top vcmp_real vmatch_real c db (rq_name rq) (classify rq) f depth vro = None ->
     designates_real c db (f :: fs) depth vro rq = designates_real c db fs depth vro rq).
Proof. intros WF OK. apply native_flavor_preferred; [exact WF|now apply real_total_order]. Qed.
Print Assumptions native_flavor_preferred_real.

(* the expression entry, read in the key order of C10: the product chosen for  op w  is declared, its version
   has the letter prefix of w and stands in relation op to w, and no declared version that does so is higher.
   Needs conventional names only - names that spell the same key are allowed (which of them: see below). *)
Theorem expr_highest_real db n op w f p :
  conv_names (names_of db n) = true -> conv w = true ->
  select_latest vcmp_real (find_by_expr vmatch_real db n (relop_text op ++ " "%char :: w) f) = Some p ->
  In p (candidates db n f) /\
  prefix_of (fd_version p) = prefix_of w /\ rel op (key_compare (key (fd_version p)) (key w)) = true /\
  (forall q, In q (candidates db n f) -> prefix_of (fd_version q) = prefix_of w ->
             rel op (key_compare (key (fd_version q)) (key w)) = true ->
             key_compare (key (fd_version q)) (key (fd_version p)) <> Gt).
Proof.
  intros C Cw H. pose proof C as C'. rewrite conv_names_forall in C'.
  destruct (expr_highest_pre vcmp_real vmatch_real db n _ f p (real_preorder _ C) H) as [Ip [Mp [Mx _]]].
  assert (Cp : conv (fd_version p) = true) by (apply C'; now apply candidates_names with f).
  rewrite (vmatch_real_relop _ op w Cp Cw) in Mp. apply andb_true_iff in Mp. destruct Mp as [Pp Rp].
  apply str_eqb_eq in Pp. split; [exact Ip|]. split; [now symmetry|]. split; [exact Rp|].
  intros q Hq Pq Rq.
  assert (Cq : conv (fd_version q) = true) by (apply C'; now apply candidates_names with f).
  rewrite <- (vcmp_real_key _ _ Cq Cp). apply Mx; [exact Hq|].
  rewrite (vmatch_real_relop _ op w Cq Cw), Rq, Pq, str_eqb_refl. reflexivity.
Qed.
Print Assumptions expr_highest_real.

(* the tag latest: a declaration whose key no declaration exceeds, the first one carrying that name *)
Theorem latest_highest_real db n f p :
  conv_names (names_of db n) = true ->
  find_latest vcmp_real db n f = Some p ->
  In p (candidates db n f) /\
  (forall q, In q (candidates db n f) -> key_compare (key (fd_version q)) (key (fd_version p)) <> Gt) /\
  find (fun q => str_eqb (fd_version q) (fd_version p)) (candidates db n f) = Some p.
Proof.
  intros C H. pose proof C as C'. rewrite conv_names_forall in C'.
  destruct (latest_highest_pre vcmp_real db n f p (real_preorder _ C) H) as [Ip [Mx F]].
  split; [exact Ip|]. split; [|exact F]. intros q Hq.
  rewrite <- vcmp_real_key; [now apply Mx| |]; apply C'; now apply candidates_names with f.
Qed.
Print Assumptions latest_highest_real.

(* What the look-ups do when distinct names compare equal, for ANY comparator that is a total preorder on the
   declared names (so for the real one on conventional names).  Antisymmetry is not used.
     latest      the first stack of the path holding a greatest name answers, with the LAST greatest name of
                 its listing (latest_tie);
     expression  the matching names along the path, each at its first appearance; the LAST greatest of that
                 list, at its first declaration (expr_tie) - a later stack wins a tie between spellings.
   Observed on the real code in both look-up modes (harness/c03.py, family versions). *)
Theorem latest_tie_rule vcmp db n f :
  total_preorder_on vcmp (names_of db n) -> find_latest vcmp db n f = latest_tie vcmp db n f.
Proof. apply latest_tie_spec. Qed.
Print Assumptions latest_tie_rule.

Theorem expr_tie_rule vcmp vmatch db n x f :
  total_preorder_on vcmp (names_of db n) ->
  select_latest vcmp (find_by_expr vmatch db n x f) = expr_tie vcmp vmatch db n x f.
Proof. apply expr_tie_spec. Qed.
Print Assumptions expr_tie_rule.

Theorem tie_rules_real db n x f :
  conv_names (names_of db n) = true ->
  find_latest vcmp_real db n f = latest_tie vcmp_real db n f /\
  select_latest vcmp_real (find_by_expr vmatch_real db n x f) = expr_tie vcmp_real vmatch_real db n x f.
Proof. intro C. split; [apply latest_tie_spec|apply expr_tie_spec]; now apply real_preorder. Qed.
Print Assumptions tie_rules_real.

(* the statements of expr_highest and latest_highest above survive without antisymmetry *)
Theorem expr_highest_preorder vcmp vmatch db n x f p :
  total_preorder_on vcmp (names_of db n) ->
  select_latest vcmp (find_by_expr vmatch db n x f) = Some p ->
  In p (candidates db n f) /\ vmatch (fd_version p) x = true /\
  (forall q, In q (candidates db n f) -> vmatch (fd_version q) x = true ->
             vcmp (fd_version q) (fd_version p) <> Gt) /\
  find (fun q => str_eqb (fd_version q) (fd_version p))
       (filter (fun q => vmatch (fd_version q) x) (candidates db n f)) = Some p.
Proof. apply expr_highest_pre. Qed.
Print Assumptions expr_highest_preorder.

Theorem latest_highest_preorder vcmp db n f p :
  total_preorder_on vcmp (names_of db n) ->
  find_latest vcmp db n f = Some p ->
  In p (candidates db n f) /\
  (forall q, In q (candidates db n f) -> vcmp (fd_version q) (fd_version p) <> Gt) /\
  find (fun q => str_eqb (fd_version q) (fd_version p)) (candidates db n f) = Some p.
Proof. apply latest_highest_pre. Qed.
Print Assumptions latest_highest_preorder.

(* two stacks; foo in versions 1.0 1.0.1 1.0+1 1.0-rc1 1.9 (s1) and 1.10 1.10-rc1 1.9 v2.0 (s2) *)
Definition rv_s1 : stackv :=
  mkStack (lit "s1")
    [(lit "foo", lit "1.0", lit "Linux64"); (lit "foo", lit "1.0+1", lit "Linux64");
     (lit "foo", lit "1.0-rc1", lit "Linux64"); (lit "foo", lit "1.0.1", lit "Linux64");
     (lit "foo", lit "1.9", lit "Linux64")]
    [(lit "foo", lit "Linux64", lit "current", lit "1.0+1")].
Definition rv_s2 : stackv :=
  mkStack (lit "s2")
    [(lit "foo", lit "1.10", lit "Linux64"); (lit "foo", lit "1.10-rc1", lit "Linux64");
     (lit "foo", lit "1.9", lit "Linux64"); (lit "foo", lit "v2.0", lit "Linux64")]
    [].
Definition rv_db : dbv := [rv_s1; rv_s2].
Definition rv_walk (x : string) : option (found * reason) :=
  find_from_vro vcmp_real vmatch_real ex_cfg rv_db None (lit "Linux64") 1 (ex_vro [] []) (ex_rq (Some (lit x)) None).
Definition rv_found (s v : string) (x : string) : option (found * reason) :=
  Some (mkFound (lit s) (lit "foo") (lit v) (lit "Linux64"), (EVersionExpr, Some (lit x))).
Arguments rv_walk x%string.
Arguments rv_found (s v x)%string.

Example rv_hypotheses :
  wf_db rv_db = true /\ real_names_ok (names_of rv_db (lit "foo")) = true /\
  real_domain rv_db (ex_rq (Some (lit ">= 1.0.1 || == 1.0-rc1")) None) = true /\
  total_order_on vcmp_real (names_of rv_db (lit "foo")).
Proof.
  assert (OK : real_names_ok (names_of rv_db (lit "foo")) = true) by (vm_compute; reflexivity).
  split; [reflexivity|]. split; [exact OK|]. split; [vm_compute; reflexivity|]. now apply real_total_order.
Qed.

(* 1.10 is above 1.9 (components are numbers), 1.0.1 above 1.0+1 above 1.0 above 1.0-rc1; v2.0 has another
   letter prefix and never satisfies an expression over plain numbers; the dotted-numeric comparator of
   Model/Resolve.v reads 1.0+1 as 1.01 and answers 1.0 to the third request (last line) *)
Example rv_expressions :
  rv_walk ">= 1.0.1" = rv_found "s2" "1.10" ">= 1.0.1" /\
  rv_walk "< 1.10" = rv_found "s2" "1.10-rc1" "< 1.10" /\
  rv_walk "< 1.0.1" = rv_found "s1" "1.0+1" "< 1.0.1" /\
  rv_walk "<= 1.0" = rv_found "s1" "1.0" "<= 1.0" /\
  rv_walk "< 1.0" = rv_found "s1" "1.0-rc1" "< 1.0" /\
  rv_walk "== 1.9" = rv_found "s1" "1.9" "== 1.9" /\
  rv_walk "> 1.10" = None /\
  rv_walk ">= v1.0" = rv_found "s2" "v2.0" ">= v1.0" /\
  rv_walk "< 1.0-rc1 || == 1.0+1" = rv_found "s1" "1.0+1" "< 1.0-rc1 || == 1.0+1" /\
  option_map fst (find_from_vro vcmp_simple vmatch_simple ex_cfg rv_db None (lit "Linux64") 1 (ex_vro [] [])
                                (ex_rq (Some (lit "< 1.0.1")) None))
  = Some (mkFound (lit "s1") (lit "foo") (lit "1.0") (lit "Linux64")).
Proof. vm_compute. repeat split. Qed.

(* the tag latest over both stacks (in sorting mode the letter prefix v puts v2.0 above every plain number:
   components that are not both numbers compare as strings), and the designation rule on the same requests;
   a declared explicit version is taken by the entry version before versionExpr looks at the bracketed
   expression; an expression that ends in an operator is outside the domain *)
Example rv_latest_and_spec :
  find_latest vcmp_real rv_db (lit "foo") (lit "Linux64")
  = Some (mkFound (lit "s2") (lit "foo") (lit "v2.0") (lit "Linux64")) /\
  designates_in vcmp_real vmatch_real ex_cfg rv_db (lit "foo") (classify (ex_rq (Some (lit "< 1.10")) None))
                (lit "Linux64") (ex_vro [] [])
  = Some (mkFound (lit "s2") (lit "foo") (lit "1.10-rc1") (lit "Linux64")) /\
  resolve_real ex_cfg rv_db false None ex_flavors 1 (ex_vro [] []) (ex_rq (Some (lit "1.0")) (Some (lit ">= 1.0+1")))
  = Ok (Some (mkFound (lit "s1") (lit "foo") (lit "1.0") (lit "Linux64"), Some (EVersion, Some (lit "1.0")))) /\
  resolve_real ex_cfg rv_db false None ex_flavors 1 (ex_vro [] []) (ex_rq (Some (lit "3.0")) (Some (lit ">= 1.0+1")))
  = Ok (Some (mkFound (lit "s2") (lit "foo") (lit "1.10") (lit "Linux64"), Some (EVersionExpr, Some (lit ">= 1.0+1")))) /\
  resolve_real ex_cfg rv_db false None ex_flavors 1 (ex_vro [] []) (ex_rq (Some (lit ">=")) None) = Err Undefined.
Proof. vm_compute. repeat split. Qed.

(* spellings of one key.  s1 lists 1.0 before 1_0, s2 declares 1.00.  The tag latest: the earlier stack wins,
   inside it the later listed 1_0.  An expression: the later stack's 1.00 wins - even for == 1.0, which s1
   declares under that very name.  The designation rule of ResolveSpec (of equally high ones the earliest) names
   1.0 in both cases: walk_is_designation is false of the real comparator without real_names_ok. *)
Definition tie_db : dbv :=
  [mkStack (lit "s1") [(lit "foo", lit "0.9", lit "Linux64"); (lit "foo", lit "1.0", lit "Linux64");
                       (lit "foo", lit "1_0", lit "Linux64")] [];
   mkStack (lit "s2") [(lit "foo", lit "0.5", lit "Linux64"); (lit "foo", lit "1.00", lit "Linux64")] []].

Example walk_is_designation_refuted_ties :
  let rq := ex_rq (Some (lit "== 1.0")) None in
  wf_db tie_db = true /\ conv_names (names_of tie_db (lit "foo")) = true /\
  real_names_ok (names_of tie_db (lit "foo")) = false /\
  option_map fst (find_from_vro vcmp_real vmatch_real ex_cfg tie_db None (lit "Linux64") 1 (ex_vro [] []) rq)
  = Some (mkFound (lit "s2") (lit "foo") (lit "1.00") (lit "Linux64")) /\
  designates_in vcmp_real vmatch_real ex_cfg tie_db (lit "foo") (classify rq) (lit "Linux64") (ex_vro [] [])
  = Some (mkFound (lit "s1") (lit "foo") (lit "1.0") (lit "Linux64")) /\
  find_latest vcmp_real tie_db (lit "foo") (lit "Linux64")
  = Some (mkFound (lit "s1") (lit "foo") (lit "1_0") (lit "Linux64")) /\
  highest vcmp_real (candidates tie_db (lit "foo") (lit "Linux64"))
  = Some (mkFound (lit "s1") (lit "foo") (lit "1.0") (lit "Linux64")) /\
  latest_tie vcmp_real tie_db (lit "foo") (lit "Linux64")
  = Some (mkFound (lit "s1") (lit "foo") (lit "1_0") (lit "Linux64")) /\
  expr_tie vcmp_real vmatch_real tie_db (lit "foo") (lit "== 1.0") (lit "Linux64")
  = Some (mkFound (lit "s2") (lit "foo") (lit "1.00") (lit "Linux64")).
Proof. vm_compute. repeat split. Qed.

(* outside the conventional names the sorting comparison is not transitive (C10: nonconventional_cycle) and the
   model's reading of python's sort - last of the greatest - has no meaning: 2 < 10 < 1a < 2 *)
Example real_comparator_cycle_outside_conv :
  conv_names [lit "2"; lit "10"; lit "1a"] = false /\ forallb accepts [lit "2"; lit "10"; lit "1a"] = true /\
  vcmp_real (lit "2") (lit "10") = Lt /\ vcmp_real (lit "10") (lit "1a") = Lt /\ vcmp_real (lit "1a") (lit "2") = Lt.
Proof. vm_compute. repeat split. Qed.

(* Database.findProducts lists the version files of a product sorted as strings (db_sorted says that of the view).
   vcmp_sorted is the order of C10 refined, among names with one key, by the order of the strings; it is a total order
   on conventional names, whatever they spell.  Over ONE stack with sorted listings the look-ups with the real comparator
   are the look-ups with vcmp_sorted, so the walk is the designation rule read in that order: of 1.0 and 1_0 the
   latter is the higher.  (This is the database view of the composed setup model; Props/C01.v and C02.v use it.) *)
From Eupsv Require Import Proofs.ResolveRealSorted.

Theorem sorted_order_is_total l : conv_names l = true -> total_order_on vcmp_sorted l.
Proof. apply sorted_total_order. Qed.
Print Assumptions sorted_order_is_total.

Theorem walk_is_designation_one_sorted_stack c s f depth vro rq :
  wf_db [s] = true -> db_sorted [s] = true -> (forall n, conv_names (names_of [s] n) = true) ->
  option_map fst (find_from_vro vcmp_real vmatch_real c [s] None f depth vro rq) =
  designates_in vcmp_sorted vmatch_real c [s] (rq_name rq) (classify rq) f vro.
Proof.
  intros WF S C.
  rewrite (find_from_vro_congr vcmp_real vcmp_sorted vmatch_real vmatch_real [s]).
  - apply walk_is_designation; [exact WF|]. apply sorted_total_order, C.
  - intros n f0. apply find_latest_one_stack; [exact S|apply C].
  - intros n x f0. apply expr_one_stack; [exact S|apply C].
Qed.
Print Assumptions walk_is_designation_one_sorted_stack.

Theorem resolve_is_designation_one_sorted_stack c s keep flavors depth vro rq :
  wf_db [s] = true -> db_sorted [s] = true -> (forall n, conv_names (names_of [s] n) = true) ->
  exists r, resolve_request vcmp_real vmatch_real c [s] keep None flavors depth vro rq = Ok r /\
            option_map fst r = designates vcmp_sorted vmatch_real c [s] flavors depth vro rq.
Proof.
  intros WF S C.
  rewrite (resolve_request_congr vcmp_real vcmp_sorted vmatch_real vmatch_real [s]).
  - apply resolve_is_designation; [exact WF|]. apply sorted_total_order, C.
  - intros n f0. apply find_latest_one_stack; [exact S|apply C].
  - intros n x f0. apply expr_one_stack; [exact S|apply C].
Qed.
Print Assumptions resolve_is_designation_one_sorted_stack.

(* inhabited, and why ONE stack: over the two stacks of tie_db the listings are sorted too, the tag latest still agrees
   with the refined order (1_0 of s1), but the expression == 1.0 is answered with 1.00 of s2 where the refined order
   names 1_0 *)
Example sorted_stack_example :
  let s := mkStack (lit "s1") [(lit "foo", lit "0.9", lit "Linux64"); (lit "foo", lit "1.0", lit "Linux64");
                               (lit "foo", lit "1_0", lit "Linux64")] [] in
  wf_db [s] = true /\ db_sorted [s] = true /\ conv_names (names_of [s] (lit "foo")) = true /\
  real_names_ok (names_of [s] (lit "foo")) = false /\
  option_map fst (find_from_vro vcmp_real vmatch_real ex_cfg [s] None (lit "Linux64") 1 (ex_vro [] [])
                                (ex_rq (Some (lit "== 1.0")) None))
  = Some (mkFound (lit "s1") (lit "foo") (lit "1_0") (lit "Linux64")) /\
  designates_in vcmp_sorted vmatch_real ex_cfg [s] (lit "foo") (classify (ex_rq (Some (lit "== 1.0")) None))
                (lit "Linux64") (ex_vro [] [])
  = Some (mkFound (lit "s1") (lit "foo") (lit "1_0") (lit "Linux64")) /\
  db_sorted tie_db = true /\
  highest vcmp_sorted (filter (fun p => vmatch_real (fd_version p) (lit "== 1.0")) (candidates tie_db (lit "foo") (lit "Linux64")))
  = Some (mkFound (lit "s1") (lit "foo") (lit "1_0") (lit "Linux64")) /\
  select_latest vcmp_real (find_by_expr vmatch_real tie_db (lit "foo") (lit "== 1.0") (lit "Linux64"))
  = Some (mkFound (lit "s2") (lit "foo") (lit "1.00") (lit "Linux64")).
Proof. vm_compute. repeat split. Qed.

(* Model/ResolveExt.v.  A stack [sx] is a stack of Model/Resolve.v (sx_base) together with the chain entries of the
   user's tag directory for it (sx_user: EUPS_USERDATA/_caches_/stack/product/tag.chain).  A [world] is the stacks, the
   directories that exist and the files that VRO words may name, with their lines.  [find_from_vro_x] /
   [resolve_request_x] are findProductFromVRO / the loops of Eups.setup in such a world - they can raise (a tag file that
   names a version no stack declares, a malformed line); [select_vro_x] is Eups.selectVRO with the words of --vro and
   with file words; [designates_in_x] is the designation rule with the three new clauses.  [flatten c d] are the same
   stacks as Model/Resolve.v sees them when the reachable entries of the user's directories are appended to the chains. *)
From Eupsv Require Import Model.ResolveExt Proofs.ResolveExt.

(* where the assignments of a user tag live: in the user's directory for the stack, unless the stack itself holds a
   chain file of that name for the product; a tag that is not a user tag never reads the user's directory *)
Theorem user_tag_lives_in_user_directory c sx n f t :
  (is_user_tag c t = true -> has_chain_file (st_chain (sx_base sx)) n t = false ->
   chain_version_x c sx n f t = chain_lookup (sx_user sx) n f t) /\
  (is_user_tag c t = false -> chain_version_x c sx n f t = chain_version (sx_base sx) n f t).
Proof.
  unfold chain_version_x. split.
  - intros U H. now rewrite H, U.
  - intro U. rewrite U. destruct (has_chain_file (st_chain (sx_base sx)) n t) eqn:H; [reflexivity|].
    unfold chain_version. now rewrite (chain_lookup_no_file _ _ _ _ H).
Qed.
Print Assumptions user_tag_lives_in_user_directory.

(* a tag entry, user tag or not: the first stack on the path in which the tag names a version whose record exists *)
Theorem user_tag_designation vcmp c d n t f :
  str_eqb t (lit "latest") = false -> str_eqb t (lit "setup") = false ->
  find_tagged_x vcmp c d n t f = tag_designates_x c d n t f.
Proof. intros L S. unfold find_tagged_x. rewrite L, S. apply find_chain_tagged_x_spec. Qed.
Print Assumptions user_tag_designation.

Theorem user_tag_first_stack_wins c d1 sx d2 n t v f :
  (forall s' v', In s' d1 -> chain_version_x c s' n f t = Some v' -> declared (sx_base s') n v' f = false) ->
  chain_version_x c sx n f t = Some v -> declared (sx_base sx) n v f = true ->
  find_chain_tagged_x c (d1 ++ sx :: d2) n t f = Some (found_in (sx_base sx) n v f).
Proof.
  intros H1 H2 H3. induction d1 as [|s r IH]; simpl.
  - now rewrite H2, H3.
  - destruct (chain_version_x c s n f t) as [v'|] eqn:E.
    + rewrite (H1 s v' (or_introl eq_refl) E). apply IH. intros s' v0 Hin. apply H1. now right.
    + apply IH. intros s' v0 Hin. apply H1. now right.
Qed.
Print Assumptions user_tag_first_stack_wins.

(* user tags are chain entries: in a world of stacks only (no tag file, no directory) the extended walk and the extended
   resolution are those of Model/Resolve.v over the flattened stacks - for every earlier choice, depth and VRO; and the
   tag rule of Model/ResolveSpec.v over the flattened stacks is the rule with the user's directories *)
Theorem user_tags_are_chain_entries vcmp vmatch c d keep prev f flavors depth vro rq :
  find_from_vro_x vcmp vmatch c (plain_world d) prev f depth vro rq =
    Ok (find_from_vro vcmp vmatch c (flatten c d) prev f depth vro rq) /\
  resolve_request_x vcmp vmatch c (plain_world d) keep prev flavors depth vro rq =
    resolve_request vcmp vmatch c (flatten c d) keep prev flavors depth vro rq /\
  (forall n t, tag_designates (flatten c d) n t f = tag_designates_x c d n t f) /\
  (wf_dbx d = true -> wf_db (flatten c d) = true) /\
  names_of (flatten c d) (rq_name rq) = names_of (base_db d) (rq_name rq).
Proof.
  split; [apply find_from_vro_plain|]. split; [apply resolve_plain|]. split; [intros; apply tag_designates_flat|].
  split; [apply wf_flatten|apply names_of_flat].
Qed.
Print Assumptions user_tags_are_chain_entries.

(* so every theorem above holds with user tags; the two most used, restated: the resolution of Eups.setup returns what
   the designation rule names, and a user tag given with -t decides whatever version a table names *)
Theorem resolve_is_designation_user_tags vcmp vmatch c d keep flavors depth vro rq :
  wf_dbx d = true -> total_order_on vcmp (names_of (base_db d) (rq_name rq)) ->
  exists r, resolve_request_x vcmp vmatch c (plain_world d) keep None flavors depth vro rq = Ok r /\
            option_map fst r = designates vcmp vmatch c (flatten c d) flavors depth vro rq.
Proof.
  intros WF HT. rewrite resolve_plain. apply resolve_is_designation; [now apply wf_flatten|now rewrite names_of_flat].
Qed.
Print Assumptions resolve_is_designation_user_tags.

Theorem user_pretag_overrides vcmp vmatch c d f depth pre t rest rq p :
  wf_dbx d = true -> forallb is_inert pre = true ->
  recognized c t = true -> str_eqb t (lit "latest") = false -> str_eqb t (lit "setup") = false ->
  tag_designates_x c d (rq_name rq) t f = Some p ->
  find_from_vro_x vcmp vmatch c (plain_world d) None f depth (pre ++ ETag t :: rest) rq = Ok (Some (p, (ETag t, None))).
Proof.
  intros WF HI R L S T. rewrite find_from_vro_plain. f_equal.
  apply pretag_overrides; auto; [now apply wf_flatten|now rewrite tag_designates_flat].
Qed.
Print Assumptions user_pretag_overrides.

(* every world: user tags, tag files, LOCAL: versions.  Hypotheses: well-formed stacks (as before, and no chain file
   named keep in the user's directories), the comparator a total order on the declared names of the product, no file is
   called keep, and a relational request does not begin with LOCAL:.  Errors are part of the statement: the walk raises
   exactly when the rule says the VRO cannot be read (a tag file that lists the product with a version no stack declares,
   or a malformed line in front of the product's line). *)
Theorem walk_x_is_designation vcmp vmatch c w f depth vro rq :
  wf_dbx (w_db w) = true -> total_order_on vcmp (names_of (base_db (w_db w)) (rq_name rq)) ->
  is_file (w_files w) (lit "keep") = false ->
  (forall v, Resolve.truthy (rq_version rq) = Some v -> Resolve.is_expr v = true -> is_local v = false) ->
  res_map (option_map fst) (find_from_vro_x vcmp vmatch c w None f depth vro rq) =
  designates_in_x vcmp vmatch c w (rq_name rq) (classify rq) f vro.
Proof. intros WF HT NK NL. now apply walk_x_designates. Qed.
Print Assumptions walk_x_is_designation.

(* a tag file in front of the version entries (only commandLine, path, warn entries before it) that lists the product
   with a declared version decides, whatever version or expression the request names: -t file overrides table versions *)
Theorem tagfile_overrides_versions vcmp vmatch c w rq f depth pre t lines v rest p :
  forallb is_inert_x pre = true ->
  alookup t (w_files w) = Some lines -> tf_lookup lines (rq_name rq) = Ok (Some v) -> Resolve.is_expr v = false ->
  version_designates (base_db (w_db w)) (rq_name rq) v f = Some p ->
  find_from_vro_x vcmp vmatch c w None f depth (pre ++ ETag t :: rest) rq = Ok (Some (p, (ETag t, None))).
Proof.
  intros HI HF HL HE HV. unfold find_from_vro_x. rewrite inert_loop_x by exact HI.
  cbn [vro_loop_x vro_step_x]. unfold word_step. rewrite HF. unfold file_step. rewrite HL, HE, find_version_spec, HV.
  reflexivity.
Qed.
Print Assumptions tagfile_overrides_versions.

(* a tag file that lists the product with a version that no stack declares (for the flavor tried) never falls through
   to the entries after it: the walk raises.  A file that does not list the product is passed over. *)
Theorem tagfile_never_falls_through vcmp vmatch c w rq f depth pre t lines rest :
  forallb is_inert_x pre = true -> alookup t (w_files w) = Some lines ->
  (forall v, tf_lookup lines (rq_name rq) = Ok (Some v) -> Resolve.is_expr v = false -> is_local v = false ->
     version_designates (base_db (w_db w)) (rq_name rq) v f = None ->
     find_from_vro_x vcmp vmatch c w None f depth (pre ++ ETag t :: rest) rq = Err Crash) /\
  (tf_lookup lines (rq_name rq) = Ok None ->
     vro_loop_x vcmp vmatch c w None rq f depth (ETag t :: rest) = vro_loop_x vcmp vmatch c w None rq f depth rest).
Proof.
  intros HI HF. split.
  - intros v HL HE HLo HV. unfold find_from_vro_x. rewrite inert_loop_x by exact HI.
    cbn [vro_loop_x vro_step_x]. unfold word_step. rewrite HF. unfold file_step.
    now rewrite HL, HE, find_version_spec, HV, HLo.
  - intro HL. cbn [vro_loop_x vro_step_x]. unfold word_step. rewrite HF. unfold file_step. now rewrite HL.
Qed.
Print Assumptions tagfile_never_falls_through.

(* a dependency that names LOCAL:dir, declared in no stack: answered from the directory when it exists, with the reason
   path from version; when it does not exist the request fails like any other named version (nothing after the last
   version-like entry is consulted) *)
Theorem local_version_designated vcmp vmatch c w rq f d pre v post :
  forallb is_inert_x pre = true ->
  Resolve.truthy (rq_version rq) = Some v -> Resolve.is_expr v = false -> is_local v = true ->
  version_designates (base_db (w_db w)) (rq_name rq) v f = None ->
  (mem_str (local_dir v) (w_dirs w) = true ->
   find_from_vro_x vcmp vmatch c w None f (S d) (pre ++ EVersion :: post) rq =
   Ok (Some (local_found (rq_name rq) v, (ETag (lit "path from version"), Some v)))) /\
  (mem_str (local_dir v) (w_dirs w) = false -> existsb is_version_like post = false ->
   find_from_vro_x vcmp vmatch c w None f (S d) (pre ++ EVersion :: post) rq = Ok None).
Proof.
  intros HI TV HE HL HV. unfold find_from_vro_x. rewrite inert_loop_x by exact HI.
  cbn [vro_loop_x vro_step_x]. unfold version_step_x. rewrite TV, HE. cbn [andb entry_eqb].
  unfold explicit_step_x. rewrite find_version_spec, HV, HL. cbn [andb]. split.
  - intro HD. now rewrite HD.
  - intros HD HP. now rewrite HD, HP.
Qed.
Print Assumptions local_version_designated.

(* --vro and -t exclude each other; -T needs a version-like entry in the words of --vro to be placed after (the code
   raises UnboundLocalError otherwise) *)
Theorem explicit_vro_refuses_tags c files o w0 ws t ts :
  o_tags o = t :: ts -> select_vro_x c files o (Some (w0 :: ws)) = Err Crash.
Proof. intro H. unfold select_vro_x. now rewrite H. Qed.
Print Assumptions explicit_vro_refuses_tags.

Theorem explicit_vro_posttags_need_version_entry c files o w0 ws :
  o_tags o = [] -> o_posttags o <> [] ->
  existsb is_version_like (map parse_entry (w0 :: ws)) = false ->
  select_vro_x c files o (Some (w0 :: ws)) = Err Crash.
Proof.
  intros HT HP HV. unfold select_vro_x. rewrite HT.
  destruct (o_posttags o) as [|p ps]; [contradiction|]. cbn [map].
  rewrite where_after_none; [reflexivity|].
  destruct (o_keep o); [|exact HV]. cbn [existsb is_version_like orb]. exact HV.
Qed.
Print Assumptions explicit_vro_posttags_need_version_entry.

(* makeVroExact as repaired (proposed_fixes/C03-exact-keeps-tagfile.diff): the entries that stay are the VRO without
   the movable ones, in their order, and nothing that was named with -t - registered tag or tag file, written plain or as
   file:name - is among the moved ones *)
Definition stays (c : config) (cmd : list str) (v : entry) : bool :=
  (mem_str (entry_base v) cmd || mem_str (entry_str v) cmd) ||
  negb (negb (recognized c (entry_base v)) || global_or_user c (entry_base v)).

Theorem exact_keeps_commandline_words c cmd l kept moved b :
  exact_split_x c cmd l [] [] false = (kept, moved, b) ->
  kept = filter (stays c cmd) l /\
  (forall v, In v moved -> mem_str (entry_str v) cmd = false /\ mem_str (entry_base v) cmd = false).
Proof.
  intro E. destruct (exact_split_x_keeps c cmd l [] [] false kept moved b E) as [K1 K2]; [intros ? []|].
  split; [exact K2|exact K1].
Qed.
Print Assumptions exact_keeps_commandline_words.

Definition xs1 : stackx :=
  mkStackx (mkStack (lit "s1") [(lit "foo", lit "1.0", lit "Linux64"); (lit "foo", lit "2.0", lit "Linux64")]
                    [(lit "foo", lit "Linux64", lit "current", lit "2.0")])
           [(lit "foo", lit "Linux64", lit "ut2", lit "1.0"); (lit "foo", lit "Linux64", lit "mine", lit "3.0")].
Definition xs2 : stackx :=
  mkStackx (mkStack (lit "s2") [(lit "foo", lit "1.0", lit "Linux64"); (lit "foo", lit "1.1", lit "Linux64")]
                    [(lit "foo", lit "Linux64", lit "current", lit "1.0")])
           [(lit "foo", lit "Linux64", lit "mine", lit "1.1"); (lit "foo", lit "Linux64", lit "ut2", lit "1.1")].
Definition x_cfg : config := site_config [lit "beta"] [lit "root"; lit "mine"; lit "ut2"].
Definition x_files : list (str * list str) :=
  [(lit "/t/tf1", [lit "# release"; lit "| bar 1.0"; lit "  foo   1.1  and more"]);
   (lit "/t/tf2", [lit "foo 7.7"]); (lit "/t/tf3", [lit "bar 1.0"; lit "lonely"; lit "foo 1.0"])].
Definition x_world : world := mkWorld [xs1; xs2] [lit "/t/ld1"] x_files.
Definition x_opts (exact : bool) (ts ps : list str) : opts := mkOpts false exact false ts ps false false.
Definition x_vro (exact : bool) (ts ps : list str) (u : option (list str)) : list entry :=
  match select_vro_x x_cfg x_files (x_opts exact ts ps) u with Ok v => v | Err _ => [] end.
Definition x_walk (vro : list entry) (v : option str) :=
  find_from_vro_x vcmp_simple vmatch_simple x_cfg x_world None (lit "Linux64") 1 vro (ex_rq v None).
Definition x_found (s v : string) (e : entry) : res (option (found * reason)) :=
  Ok (Some (mkFound (lit s) (lit "foo") (lit v) (lit "Linux64"), (e, None))).
Arguments x_found (s v)%string e.

Example x_hypotheses :
  wf_dbx (w_db x_world) = true /\ total_order_on vcmp_simple (names_of (base_db (w_db x_world)) (lit "foo")) /\
  is_file (w_files x_world) (lit "keep") = false.
Proof. split; [reflexivity|]. split; [|reflexivity]. apply vcmp_simple_total_orderb. vm_compute. reflexivity. Qed.

(* -t mine: the chain of the user's directory for s1 is dangling (3.0), so s2 answers; it overrides the table version
   1.0; -t ut2: s1 answers; -T mine applies only without a version; an undeclared version fails although mine matches *)
Example x_user_tags :
  x_walk (x_vro false [lit "mine"] [] None) None = x_found "s2" "1.1" (ETag (lit "mine")) /\
  x_walk (x_vro false [lit "mine"] [] None) (Some (lit "1.0")) = x_found "s2" "1.1" (ETag (lit "mine")) /\
  x_walk (x_vro false [lit "ut2"] [] None) None = x_found "s1" "1.0" (ETag (lit "ut2")) /\
  x_walk (x_vro false [] [lit "mine"] None) None = x_found "s2" "1.1" (ETag (lit "mine")) /\
  x_walk (x_vro false [] [lit "mine"] None) (Some (lit "5.0")) = Ok None /\
  x_vro false [lit "mine"] [] None =
    [EType (lit "exact"); ECommandLine; ETag (lit "mine"); EVersion; EVersionExpr; ETag (lit "current")].
Proof. vm_compute. repeat split. Qed.

(* an explicit VRO: read as written (keep, duplicates, warnings and unknown words aside); -t refused; -T after the last
   version-like entry, or an error when there is none *)
Example x_explicit_vro :
  x_vro false [] [] (Some [lit "mine"; lit "version"; lit "versionExpr"; lit "current"]) =
    [ETag (lit "mine"); EVersion; EVersionExpr; ETag (lit "current")] /\
  x_vro false [] [lit "beta"] (Some [lit "version!"; lit "mine"; lit "current"; lit "warn"; lit "version"; lit "warn:3"]) =
    [EVersionBang; ETag (lit "mine"); ETag (lit "current"); EWarn 1; EVersion; ETag (lit "beta"); EWarn 3] /\
  select_vro_x x_cfg x_files (x_opts false [lit "beta"] []) (Some [lit "mine"; lit "current"]) = Err Crash /\
  select_vro_x x_cfg x_files (x_opts false [] [lit "beta"]) (Some [lit "mine"; lit "current"]) = Err Crash /\
  x_vro false [] [] (Some [lit "bogus"; lit "current"; lit "type:exact"; lit "warn:2"]) = [ETag (lit "current")] /\
  x_walk (x_vro false [] [] (Some [lit "version!"; lit "mine"; lit "current"])) (Some (lit "5.0")) = Ok None.
Proof. vm_compute. repeat split. Qed.

(* tag files: -t file and -t file:name put the file name in front of the version entries; the file decides against a
   table version; a file that lists an undeclared version raises, also as a -T word; a malformed line in front of the
   product's line raises; selectVRO itself raises on such a file (its closing walk for the empty name reads it) *)
Example x_tag_files :
  x_vro false [lit "file:/t/tf1"] [] None =
    [EType (lit "exact"); ECommandLine; ETag (lit "/t/tf1"); EVersion; EVersionExpr; ETag (lit "current")] /\
  x_walk (x_vro false [lit "/t/tf1"] [] None) (Some (lit "1.0")) = x_found "s2" "1.1" (ETag (lit "/t/tf1")) /\
  x_walk (x_vro false [lit "/t/tf2"] [] None) None = Err Crash /\
  x_walk (x_vro false [] [lit "/t/tf2"] None) None = Err Crash /\
  x_walk (x_vro false [] [lit "/t/tf2"] None) (Some (lit "1.0")) =
    Ok (Some (mkFound (lit "s1") (lit "foo") (lit "1.0") (lit "Linux64"), (EVersion, Some (lit "1.0")))) /\
  x_walk (x_vro false [lit "/t/tf3"] [] None) None = Err Crash /\
  select_vro_w vcmp_simple vmatch_simple x_cfg x_world (x_opts false [lit "/t/tf3"] []) None (lit "Linux64") = Err Crash /\
  tf_lookup [lit "# release"; lit "| bar 1.0"; lit "  foo   1.1  and more"] (lit "foo") = Ok (Some (lit "1.1")).
Proof. vm_compute. repeat split. Qed.

Example x_local :
  x_walk (x_vro false [] [] None) (Some (lit "LOCAL:/t/ld1")) =
    Ok (Some (local_found (lit "foo") (lit "LOCAL:/t/ld1"), (ETag (lit "path from version"), Some (lit "LOCAL:/t/ld1")))) /\
  x_walk (x_vro false [] [] None) (Some (lit "LOCAL:/t/nodir")) = Ok None /\
  designates_in_x vcmp_simple vmatch_simple x_cfg x_world (lit "foo") (classify (ex_rq (Some (lit "LOCAL:/t/ld1")) None))
                  (lit "Linux64") (x_vro false [] [] None) = Ok (Some (local_found (lit "foo") (lit "LOCAL:/t/ld1"))).
Proof. vm_compute. repeat split. Qed.

(* the defect repaired by proposed_fixes/C03-exact-keeps-tagfile.diff, as it was: with --exact the pinned makeVroExact
   (make_exact of Model/Resolve.v) moved a tag file given with -t behind the version entries, so the version 1.0 of a
   table won over the file; a registered tag given with -t stayed in front.  The repaired one keeps both. *)
Example exact_tagfile_refuted_pinned :
  let v4 := [EType (lit "exact"); ECommandLine; ETag (lit "/t/tf1"); EVersion; EVersionExpr; ETag (lit "current")] in
  make_exact x_cfg [lit "/t/tf1"] v4 =
    [EType (lit "exact"); ECommandLine; EVersion; EVersionExpr; EWarn 1; ETag (lit "/t/tf1"); ETag (lit "current")] /\
  x_walk (make_exact x_cfg [lit "/t/tf1"] v4) (Some (lit "1.0")) =
    Ok (Some (mkFound (lit "s1") (lit "foo") (lit "1.0") (lit "Linux64"), (EVersion, Some (lit "1.0")))) /\
  make_exact_x x_cfg [lit "/t/tf1"] v4 =
    [EType (lit "exact"); ECommandLine; ETag (lit "/t/tf1"); EVersion; EVersionExpr; ETag (lit "current")] /\
  x_vro true [lit "/t/tf1"] [] None =
    [EType (lit "exact"); ECommandLine; ETag (lit "/t/tf1"); EVersion; EVersionExpr; ETag (lit "current")] /\
  x_walk (x_vro true [lit "/t/tf1"] [] None) (Some (lit "1.0")) = x_found "s2" "1.1" (ETag (lit "/t/tf1")) /\
  make_exact x_cfg [lit "mine"] [EType (lit "exact"); ECommandLine; ETag (lit "mine"); EVersion; ETag (lit "current")] =
    [EType (lit "exact"); ECommandLine; ETag (lit "mine"); EVersion; ETag (lit "current")].
Proof. vm_compute. repeat split. Qed.

(* The database changes between two resolutions put to ONE Eups instance, and it changes through that instance:
   Eups.assignTag / unassignTag / declare / undeclare (Model/ResolveSeq.v gives their effect on the database view, for
   the flavor of the instance).  The property speaks of the database as it is when the question is asked: whatever an
   instance remembers from earlier calls (the product cache, memos) must be invisible.  In the model this is a triviality
   - the resolver has no other argument than the view - and that is the point: the correspondence check puts histories
   resolve / change / resolve to one real instance (cache on and off) and compares every answer with the model run on
   the view current at that step, so any memo of the code that survives a change shows as a difference. *)

From Eupsv Require Import Model.ResolveSeq Proofs.ResolveSeq.

(* resolution depends on nothing but the current database view and the request: two histories (from any two initial
   databases) that lead to the same view get the same answer to every question - findProductFromVRO, findTaggedProduct,
   findProduct of a version, the resolution of setup *)
Theorem resolution_is_a_function_of_the_view vcmp vmatch c flavors vro db1 ms1 db2 ms2 q :
  view_after flavors db1 ms1 = view_after flavors db2 ms2 ->
  answer_on vcmp vmatch c flavors vro (view_after flavors db1 ms1) q =
  answer_on vcmp vmatch c flavors vro (view_after flavors db2 ms2) q.
Proof. intros E. now rewrite E. Qed.
Print Assumptions resolution_is_a_function_of_the_view.

(* the answer an instance gives after a history of questions and changes is the resolver's answer on the view the
   changes lead to; the questions asked before leave no trace *)
Theorem history_answer_is_on_the_current_view vcmp vmatch c flavors vro db h q :
  run_history vcmp vmatch c flavors vro db (h ++ [Ask q]) =
  run_history vcmp vmatch c flavors vro db h ++
  [answer_on vcmp vmatch c flavors vro (view_after flavors db (changes_of h)) q].
Proof. apply history_last_answer. Qed.
Print Assumptions history_answer_is_on_the_current_view.

(* the changes keep the hypothesis of the designation theorems: no declared version name is an expression, no chain file
   is called keep (declare refuses neither by itself: wf_mut asks it of the arguments) *)
Theorem changes_keep_wellformed flavors db ms :
  forallb wf_mut ms = true -> wf_db db = true -> wf_db (view_after flavors db ms) = true.
Proof. apply wf_view_after. Qed.
Print Assumptions changes_keep_wellformed.

(* so after any history the product returned by the walk is the one the designation rule names FOR THE DATABASE AS IT IS
   NOW *)
Theorem history_walk_is_designation vcmp vmatch c flavors vro db h f depth rq :
  let now := view_after flavors db (changes_of h) in
  wf_db db = true -> forallb wf_mut (changes_of h) = true ->
  total_order_on vcmp (names_of now (rq_name rq)) ->
  exists r, last (run_history vcmp vmatch c flavors vro db (h ++ [Ask (QWalk f depth rq)])) (AFound None) = AWalk r /\
            option_map fst r = designates_in vcmp vmatch c now (rq_name rq) (classify rq) f vro.
Proof.
  intros now W M T. rewrite history_last_answer, last_last. cbn [answer_on]. eexists. split; [reflexivity|].
  apply walk_designates; [|exact T]. now apply wf_view_after.
Qed.
Print Assumptions history_walk_is_designation.

(* assignTag(tag, product, version) without naming a stack writes the tag in the first stack declaring the version; when
   no earlier stack carries the tag, that stack is from now on the first that has it, whatever the later stacks carry -
   in particular when the tag was present only in a later stack before *)
Theorem assign_makes_first_stack_win vcmp flavors db1 s db2 t n v :
  let f := hd_flavor flavors in
  str_eqb t (lit "latest") = false -> str_eqb t (lit "setup") = false ->
  (forall s', In s' db1 -> declared s' n v f = false) -> declared s n v f = true ->
  (forall s', In s' db1 -> carries s' n f t = false) ->
  find_tagged vcmp (apply_mut flavors (db1 ++ s :: db2) (MAssign t n v None)) n t f = Some (found_in s n v f).
Proof.
  intros f L S H1 Hs HC. unfold find_tagged. rewrite L, S. unfold apply_mut. fold f.
  rewrite (update_first_split _ _ db1 s db2).
  - cbn [or_unchanged]. rewrite find_chain_tagged_skip by exact HC.
    cbn [find_chain_tagged]. now rewrite set_chain_version, set_chain_declared, Hs.
  - intros s' I. cbn [in_stack andb]. now apply H1.
  - cbn [in_stack andb]. exact Hs.
Qed.
Print Assumptions assign_makes_first_stack_win.

(* unassignTag(tag, product): the first stack that carries the tag loses it, and the tag entry then yields what the
   stacks after it designate *)
Theorem unassign_uncovers_later_stacks vcmp flavors db1 s db2 t n :
  let f := hd_flavor flavors in
  str_eqb t (lit "latest") = false -> str_eqb t (lit "setup") = false ->
  (forall s', In s' db1 -> carries s' n f t = false) -> carries s n f t = true ->
  find_tagged vcmp (apply_mut flavors (db1 ++ s :: db2) (MUnassign t n None None)) n t f = find_tagged vcmp db2 n t f.
Proof.
  intros f L S HC Hs. unfold find_tagged. rewrite L, S. unfold apply_mut. fold f.
  rewrite (update_first_split _ _ db1 s db2) by assumption. cbn [or_unchanged].
  rewrite find_chain_tagged_skip by exact HC. cbn [find_chain_tagged]. now rewrite drop_chain_version.
Qed.
Print Assumptions unassign_uncovers_later_stacks.

(* undeclare(product, version): the first stack declaring the version loses it; a version entry then yields the next
   declaration on the path *)
Theorem undeclare_uncovers_later_stacks flavors db1 s db2 n v :
  let f := hd_flavor flavors in
  (forall s', In s' db1 -> declared s' n v f = false) -> declared s n v f = true ->
  find_version (apply_mut flavors (db1 ++ s :: db2) (MUndeclare n v None)) n v f = find_version db2 n v f.
Proof.
  intros f H1 Hs.
  unfold apply_mut. fold f.
  rewrite (update_first_split _ _ db1 s db2).
  - cbn [or_unchanged]. rewrite find_version_skip by exact H1.
    cbn [find_version]. now rewrite undeclare_in_declared.
  - intros s' I. cbn [in_stack andb]. now apply H1.
  - cbn [in_stack andb]. exact Hs.
Qed.
Print Assumptions undeclare_uncovers_later_stacks.

(* declare(product, version, stack, tag=t): the tag leaves every other stack in which it named an existing version, so
   the version just declared is the one the tag designates *)
Theorem declare_with_tag_moves_the_tag vcmp flavors db i n v t :
  let f := hd_flavor flavors in
  str_eqb t (lit "latest") = false -> str_eqb t (lit "setup") = false ->
  (exists s, In s db /\ st_id s = i) ->
  (forall s1 s2, In s1 db -> In s2 db -> st_id s1 = i -> st_id s2 = i -> s1 = s2) ->
  exists s, In s db /\ st_id s = i /\
  find_tagged vcmp (apply_mut flavors db (MDeclare n v i (Some t))) n t f = Some (found_in s n v f).
Proof.
  intros f L S [s [Is Ei]] U. unfold find_tagged. rewrite L, S.
  exists s. split; [exact Is|]. split; [exact Ei|].
  unfold apply_mut. fold f.
  assert (X : existsb (fun s0 => str_eqb (st_id s0) i) db = true).
  { apply existsb_exists. exists s. split; [exact Is|]. apply str_eqb_eq. exact Ei. }
  rewrite X. clear X.
  induction db as [|a r IH]; [destruct Is|].
  cbn [map find_chain_tagged].
  destruct (str_eqb (st_id a) i) eqn:A.
  - apply str_eqb_eq in A.
    assert (a = s) by (apply U; [now left|exact Is|exact A|exact Ei]). subst a.
    rewrite set_chain_version, set_chain_declared, add_decl_declared.
    unfold found_in. now rewrite set_chain_id, add_decl_id.
  - destruct Is as [->|Is]; [apply str_eqb_neq in A; now elim A|].
    assert (N : find_chain_tagged
                  (map (fun s0 => if str_eqb (st_id s0) i then set_chain (add_decl s0 n v f) n f t v
                                  else if carries s0 n f t then drop_chain s0 n f t else s0) r) n t f =
                Some (found_in s n v f)).
    { apply IH; [exact Is|]. intros s1 s2 I1 I2. apply U; now right. }
    destruct (carries a n f t) eqn:C.
    + rewrite drop_chain_version. exact N.
    + unfold carries in C. destruct (chain_version a n f t) as [v'|]; [rewrite C|]; exact N.
Qed.
Print Assumptions declare_with_tag_moves_the_tag.

(* the circumstance as a history: beta is assigned in the second stack only; the instance is asked (-t beta), tags foo
   2.0 beta without naming a stack, and is asked again: first s2's 1.1, then s1's 2.0; after unassigning it s2's again;
   after undeclaring s2's 1.1 beta is gone with it and the walk reaches current *)
Definition h_s1 : stackv :=
  mkStack (lit "s1") [(lit "foo", lit "1.0", lit "Linux64"); (lit "foo", lit "2.0", lit "Linux64")]
          [(lit "foo", lit "Linux64", lit "current", lit "1.0")].
Definition h_s2 : stackv :=
  mkStack (lit "s2") [(lit "foo", lit "1.1", lit "Linux64")] [(lit "foo", lit "Linux64", lit "beta", lit "1.1")].
Definition h_ask : event := Ask (QWalk (lit "Linux64") 1 (ex_rq None None)).
Definition h_found (s v t : string) : answer :=
  AWalk (Some (mkFound (lit s) (lit "foo") (lit v) (lit "Linux64"), (ETag (lit t), None))).
Arguments h_found (s v t)%string.

Example history_example :
  run_history vcmp_simple vmatch_simple ex_cfg ex_flavors (ex_vro [lit "beta"] []) [h_s1; h_s2]
    [h_ask; Change (MAssign (lit "beta") (lit "foo") (lit "2.0") None); h_ask;
     Change (MUnassign (lit "beta") (lit "foo") None None); h_ask;
     Change (MUndeclare (lit "foo") (lit "1.1") None); h_ask;
     Change (MDeclare (lit "foo") (lit "3.0") (lit "s2") (Some (lit "current"))); h_ask] =
  [h_found "s2" "1.1" "beta"; h_found "s1" "2.0" "beta"; h_found "s2" "1.1" "beta"; h_found "s1" "1.0" "current";
   h_found "s2" "3.0" "current"] /\
  wf_db [h_s1; h_s2] = true.
Proof. vm_compute. split; reflexivity. Qed.

(* One process holds several Eups objects of DIFFERENT flavors (a look at what is declared for another platform next to
   the native one).  The flavors an instance may look at - its own, then the configured fallbacks - belong to that
   instance (Model/ResolveSeq.v, Section Sessions): in the code they come from utils.Flavor.getFallbackFlavors, whose
   table is shared by every instance of the process.  For the model the statements are immediate; the correspondence
   check (harness/c03multi.py) builds the instances in every order, asks each before and after the others exist, through
   the cache and through the files, and compares every answer with the model run on the view and the asked instance's own
   flavor list. *)

(* the answers an instance gives in a session are those it gives when it is the only instance of the process: which
   other instances exist, of which flavors, when they were built and what they were asked does not matter *)
Theorem instances_do_not_interfere vcmp vmatch c insts db h k i :
  nth_error insts k = Some i ->
  answers_to k (run_session vcmp vmatch c insts db h) =
  run_history vcmp vmatch c (i_flavors i) (i_vro i) db (map Ask (asks_of k h)).
Proof.
  intros Hk. induction h as [|[j|j q] r IH]; cbn [run_session asks_of]; [reflexivity|exact IH|].
  destruct (Nat.eqb j k) eqn:E.
  - apply Nat.eqb_eq in E. subst j. rewrite Hk. unfold answers_to in *. cbn [filter fst].
    rewrite Nat.eqb_refl. cbn [map snd run_history]. now rewrite IH.
  - destruct (nth_error insts j) as [i'|]; [|exact IH].
    unfold answers_to in *. cbn [filter fst]. rewrite E. exact IH.
Qed.
Print Assumptions instances_do_not_interfere.

(* the answer after any session is a function of the view, the question and the asked instance's own flavors and VRO *)
Theorem session_answer_is_own vcmp vmatch c insts db h k i q :
  nth_error insts k = Some i ->
  run_session vcmp vmatch c insts db (h ++ [SAsk k q]) =
  run_session vcmp vmatch c insts db h ++ [(k, answer_on vcmp vmatch c (i_flavors i) (i_vro i) db q)].
Proof. intros H. rewrite run_session_app. cbn [run_session]. now rewrite H. Qed.
Print Assumptions session_answer_is_own.

(* a declaration for a foreign flavor is never chosen: the product a resolution returns is declared for one of the
   flavors of the list it was given - the native flavor or one of its fallbacks *)
Theorem foreign_flavor_never_chosen vcmp vmatch c db keep flavors depth vro rq p r :
  wf_db db = true -> total_order_on vcmp (names_of db (rq_name rq)) ->
  resolve_request vcmp vmatch c db keep None flavors depth vro rq = Ok (Some (p, r)) ->
  In (fd_flavor p) flavors.
Proof.
  intros WF HT H. destruct (resolve_designates vcmp vmatch c db keep flavors depth vro rq WF HT) as [x [E D]].
  rewrite H in E. injection E as <-. cbn [option_map fst] in D. symmetry in D. unfold designates in D.
  apply first_some_in in D as [f [I G]]. apply designates_top_flavor in G as [G _]. now rewrite G.
Qed.
Print Assumptions foreign_flavor_never_chosen.

(* in a session: whatever instances of other flavors are alive, a setup through instance k chooses a product of k's own
   flavor list *)
Corollary session_setup_stays_in_own_flavors vcmp vmatch c insts db h k i keep depth rq p r :
  nth_error insts k = Some i ->
  wf_db db = true -> total_order_on vcmp (names_of db (rq_name rq)) ->
  last (run_session vcmp vmatch c insts db (h ++ [SAsk k (QSetup keep depth rq)])) (k, AFound None) =
    (k, ASetup (Ok (Some (p, r)))) ->
  In (fd_flavor p) (i_flavors i).
Proof.
  intros H WF HT. rewrite (session_answer_is_own vcmp vmatch c insts db h k i _ H), last_last. cbn [answer_on].
  intro E. injection E as E. eapply foreign_flavor_never_chosen; eauto.
Qed.
Print Assumptions session_setup_stays_in_own_flavors.

(* the circumstance: foo 2.0 is declared for DarwinX86 in s1, foo 1.0 for generic in s2, both current.  An instance for
   Linux64 and one for DarwinX86 live side by side: the first is given s2's generic 1.0 - before and after the second is
   built and asked - the second s1's 2.0 *)
Definition ss_got (s v f : string) : answer :=
  ASetup (Ok (Some (mkFound (lit s) (lit "foo") (lit v) (lit f), Some (ETag (lit "current"), None)))).
Arguments ss_got (s v f)%string.

Example session_example :
  let s1 := mkStack (lit "s1") [(lit "foo", lit "2.0", lit "DarwinX86")] [(lit "foo", lit "DarwinX86", lit "current", lit "2.0")] in
  let s2 := mkStack (lit "s2") [(lit "foo", lit "1.0", lit "generic")] [(lit "foo", lit "generic", lit "current", lit "1.0")] in
  let a := mkInst [lit "Linux64"; lit "generic"] (ex_vro [] []) in
  let b := mkInst [lit "DarwinX86"; lit "generic"] (ex_vro [] []) in
  let ask := QSetup false 1 (ex_rq None None) in
  run_session vcmp_simple vmatch_simple ex_cfg [a; b] [s1; s2]
    [SBuild 0; SAsk 0 ask; SBuild 1; SAsk 1 ask; SAsk 0 ask] =
  [(0, ss_got "s2" "1.0" "generic"); (1, ss_got "s1" "2.0" "DarwinX86"); (0, ss_got "s2" "1.0" "generic")].
Proof. vm_compute. reflexivity. Qed.
