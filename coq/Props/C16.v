(* C16 - Database records round-trip and stacks are relocatable.
   Property theorems and closed examples; the proofs appeal to the Proofs files of the stack
   (Records*, Paths*, Links, Declare; RecordsDirs and PathsSibling from the last section on).

   Vocabulary (Model/Records.v, Model/Paths.v unless stated):
     vf_lines r / vf_read n v lines     what VersionFile.write prints / what VersionFile._read makes of it
     cf_lines c / cf_read n t lines     the same for ChainFile
     add_flavor, declare_rec, db_declare, make_product, db_find
                                        VersionFile.addFlavor, Database.declare (on records / on the text
                                        of the version file), VersionFile.makeProduct, Database.findProduct
     ex : str -> bool                   the file-existence oracle (os.path.exists / isfile / isdir), asked by
                                        the name a path is spelt with
     pe : penv                          (Model/Paths.v) the table of symbolic links (name of the link, the
                                        name it resolves to; realpath follows it) and the current directory
     link_view lk root rroot            (Proofs/Links.v) the stack named root is the directory rroot: root and
                                        every name below it resolve to the same place below rroot
     out_real pe rroot dk tk            (Proofs/Declare.v) directories and table files outside the stack
                                        resolve to places outside rroot
     norm, norm_info, cnorm             (Proofs/Records.v) a record as it is read back: printed fields in
                                        file order, an absent PROD_DIR as None, an absent TABLE_FILE as the
                                        word none, an absent UPS_DIR as none when there is a table file
     wf_vfile, wf_cfile, wf_value       (Proofs/Records.v, RecordsLib.v) the alphabet of the claim: values not
                                        empty, no hash, no line break, neither blank nor double quote at
                                        either end; flavors without colon and pairwise different
     dirk = DIn d | DOut o | DNone      (Proofs/Paths.v) product directory inside the stack (root/d),
                                        at the absolute path o outside it, or none
     tabk = TUps tn | TAbsIn t | TAbsOut T | TInterned e tn | TNone
                                        (Proofs/Declare.v) table file dir/ups/tn, root/t, the absolute path T
                                        outside, UPS_DB/e/ups/tn held in the database, or none
     dir_given, table_given             what Eups.declare hands to Database.declare for a stack at root
     dir_at root dk, table_at root dk tk   where directory and table file are for a stack at root
     tab_ok, decl_ok, find_ok           side conditions, spelt out in Proofs/Declare.v: the placement is what
                                        its kind says and nothing more specific; when declaring, the stack
                                        root and an inside table file exist (nothing is assumed about the
                                        current directory or the relative names that exist in it);
                                        when looking up, the table file exists where it belongs and is not
                                        shadowed by a file of the same relative name *)
From Eupsv Require Import Base.Base Base.BaseLemmas Model.Paths Model.Records Model.RecordsExt
  Proofs.RecordsLib Proofs.PathsLib Proofs.Records Proofs.Paths Proofs.Links Proofs.Declare
  Proofs.RecordsFlavors.

(* Writing a version record and reading it back yields the same product name, version, flavors
   (in order) and, per flavor, the printed fields; absent directory / table file come back as
   None / none (norm). *)
Theorem vf_roundtrip r :
  wf_vfile r = true -> vf_info r <> [] ->
  exists lines, vf_lines r = Ok lines /\
    vf_read (vf_name r) (vf_version r) lines = Ok (norm r) /\
    vf_read None None lines = Ok (norm r).
Proof.
  intros H N. destruct (vf_read_lines r H N) as [l [E R]]. exists l. auto.
Qed.
Print Assumptions vf_roundtrip.

(* in particular flavors, directories, ups directories and table files of a record whose
   fields are all present come back unchanged *)
Theorem vf_roundtrip_fields r f i k s :
  wf_vfile r = true -> alookup f (vf_info r) = Some i ->
  In k [k_productDir; k_ups_dir; k_table_file] -> alookup k i = Some (Some s) -> s <> [] ->
  akeys (vf_info (norm r)) = akeys (vf_info r) /\
  exists i', alookup f (vf_info (norm r)) = Some i' /\ alookup k i' = Some (Some s).
Proof.
  intros H Ef Hk Ek Ns. split.
  - unfold norm, akeys. cbn [vf_info]. rewrite map_map. reflexivity.
  - exists (norm_info i). split.
    + unfold norm. cbn [vf_info]. now rewrite alookup_map_snd, Ef.
    + assert (P : printed_val i k = Some (Some s)).
      { unfold printed_val. rewrite Ek. destruct s; [congruence|reflexivity]. }
      rewrite alookup_norm_info.
      destruct Hk as [<-|[<-|[<-|[]]]].
      * change (str_eqb k_productDir k_productDir) with true. cbv iota. now rewrite P.
      * change (str_eqb k_ups_dir k_productDir) with false.
        change (str_eqb k_ups_dir k_table_file) with false.
        change (str_eqb k_ups_dir k_ups_dir) with true. cbv iota. now rewrite P.
      * change (str_eqb k_table_file k_productDir) with false.
        change (str_eqb k_table_file k_table_file) with true. cbv iota. now rewrite P.
Qed.
Print Assumptions vf_roundtrip_fields.

Theorem cf_roundtrip c :
  wf_cfile c = true -> cf_info c <> [] ->
  exists lines, cf_lines c = Ok lines /\
    cf_read (cf_name c) (cf_tag c) lines = Ok (cnorm c) /\
    cf_read None None lines = Ok (cnorm c).
Proof.
  intros H N. destruct (cf_read_lines c H N) as [l [E R]]. exists l. auto.
Qed.
Print Assumptions cf_roundtrip.

(* the tagged version of every flavor survives the round trip *)
Theorem cf_versions_kept c f :
  wf_cfile c = true -> cf_get_version f (cnorm c) = cf_get_version f c.
Proof.
  intro H. unfold wf_cfile in H. rewrite !andb_true_iff in H. destruct H as [[_ Hi] _].
  unfold cf_get_version, cnorm. cbn [cf_info]. rewrite alookup_map_snd.
  destruct (alookup f (cf_info c)) as [i|] eqn:E; [|reflexivity]. cbn [option_map].
  assert (W : wf_cinfo i = true).
  { exact (proj1 (forallb_forall _ _) Hi _ (alookup_In_snd _ _ _ E)). }
  unfold wf_cinfo in W. apply andb_true_iff in W. destruct W as [W _].
  unfold cnorm_info, cversion. cbn [alookup]. change (str_eqb k_version k_version) with true.
  cbv iota. destruct (alookup k_version i); [reflexivity|discriminate].
Qed.
Print Assumptions cf_versions_kept.

(* A record is written and read, a flavor g is added or redeclared (addFlavor), the record is
   written with trimDir and read again: every other flavor f whose block has a PROD_DIR entry
   reads back exactly as before (as a map).  The hypotheses say that the rewritten record is
   inside the alphabet and that block f holds no existing absolute path that write would trim
   (true of every block that was itself written with trimDir, whose paths are relative; which
   relative names exist in the current directory does not matter). *)
Theorem rewrite_one_flavor_keeps_others r who now g d t u f i pe ex td m' :
  wf_vfile r = true -> vf_info r <> [] ->
  f <> g -> alookup f (vf_info r) = Some i -> amem k_productDir i = true ->
  (forall k s, alookup k (norm_info i) = Some (Some s) -> isabs s = true -> ex s = false) ->
  let x := add_flavor who now g d t u (norm r) in
  trim_all true pe ex td (vf_info x) = Ok m' ->
  let x' := {| vf_name := vf_name x; vf_version := vf_version x; vf_info := m' |} in
  wf_vfile x' = true ->
  exists l1 l2 r2 i2,
    vf_lines r = Ok l1 /\ vf_read (vf_name r) (vf_version r) l1 = Ok (norm r) /\
    vf_write pe ex td x = Ok l2 /\ vf_read (vf_name r) (vf_version r) l2 = Ok r2 /\
    alookup f (vf_info r2) = Some i2 /\
    forall k, alookup k i2 = alookup k (norm_info i).
Proof.
  intros Hwf Hne Nfg Ef Hdir Hex x Htrim x' Hwf'.
  destruct (vf_read_lines r Hwf Hne) as [l1 [E1 R1]].
  assert (Ex : alookup f (vf_info x) = Some (norm_info i)).
  { unfold x. rewrite add_flavor_other by assumption. unfold norm. cbn [vf_info].
    now rewrite alookup_map_snd, Ef. }
  assert (Em : alookup f m' = Some (norm_info i)).
  { eapply trim_all_lookup; [exact Htrim|exact Ex|]. now apply trim_info_noex. }
  assert (Ne' : vf_info x' <> []).
  { cbn [x' vf_info]. intro Z. rewrite Z in Em. discriminate. }
  destruct (vf_read_lines x' Hwf' Ne') as [l2 [E2 R2]].
  destruct (add_flavor_names who now g d t u (norm r)) as [Nn Nv].
  exists l1, l2, (norm x'), (norm_info (norm_info i)). repeat split.
  - exact E1.
  - apply R1; now right.
  - unfold vf_write, vf_write_gen. fold x. rewrite Htrim. cbn [bind]. exact E2.
  - apply R2; right; cbn [x' vf_name vf_version]; unfold x; [rewrite Nn|rewrite Nv]; reflexivity.
  - unfold norm. cbn [x' vf_info]. now rewrite alookup_map_snd, Em.
  - intro k. now apply norm_info_twice.
Qed.
Print Assumptions rewrite_one_flavor_keeps_others.

(* Without a PROD_DIR entry the block is not literally unchanged: the directory is read as
   None the first time and, printed as the word none, as none the second time -- neither is a
   real file name; every other key is unchanged. *)
Theorem rewrite_absent_dir_becomes_none i :
  amem k_productDir i = false ->
  alookup k_productDir (norm_info i) = Some None /\
  alookup k_productDir (norm_info (norm_info i)) = Some (Some s_none) /\
  is_real None = false /\ is_real (Some s_none) = false /\
  forall k, k <> k_productDir -> alookup k (norm_info (norm_info i)) = alookup k (norm_info i).
Proof.
  intro H. destruct (norm_info_twice_dir_absent i H) as [H1 H2].
  repeat split; auto. intros k N. now apply norm_info_twice_other.
Qed.
Print Assumptions rewrite_absent_dir_becomes_none.

(* The chain-file analogue.  A chain record is written and read, the tag is set for flavor g
   (ChainFile.setVersion, what assignTag and a tagged declare do) or removed for it
   (removeVersion, what unassignTag and undeclare do), the record is written and read again:
   every other flavor keeps its tagged version. *)
Theorem chain_rewrite_keeps_others c f g (change : cfile -> cfile) :
  wf_cfile c = true -> cf_info c <> [] -> f <> g ->
  (exists who now v, change = cf_set_version who now v g) \/ change = cf_remove_version g ->
  let x := change (cnorm c) in
  wf_cfile x = true -> cf_info x <> [] ->
  exists l1 l2 c2,
    cf_lines c = Ok l1 /\ cf_read (cf_name c) (cf_tag c) l1 = Ok (cnorm c) /\
    cf_lines x = Ok l2 /\ cf_read (cf_name c) (cf_tag c) l2 = Ok c2 /\
    cf_get_version f c2 = cf_get_version f c.
Proof.
  intros Hwf Hne Nfg Hch x Hwx Hnx.
  destruct (cf_read_lines c Hwf Hne) as [l1 [E1 R1]].
  destruct (cf_read_lines x Hwx Hnx) as [l2 [E2 R2]].
  assert (Names : cf_name x = cf_name c /\ cf_tag x = cf_tag c).
  { unfold x. destruct Hch as [[who [now [v ->]]] | ->]; split; reflexivity. }
  destruct Names as [Nn Nt].
  exists l1, l2, (cnorm x). repeat split; try assumption.
  - apply R1; now right.
  - apply R2; right; congruence.
  - rewrite cf_versions_kept by assumption. rewrite <- (cf_versions_kept c f Hwf).
    unfold x, cf_get_version.
    destruct Hch as [[who [now [v ->]]] | ->]; cbn [cf_info cf_set_version cf_remove_version].
    + now rewrite alookup_aset_other.
    + now rewrite alookup_aremove_other.
Qed.
Print Assumptions chain_rewrite_keeps_others.

(* The general statement.  A stack is named root on EUPS_PATH; that name may reach the stack
   directory rroot through symbolic links (the stack directory itself, or a directory above
   it, is a link: link_view).  A product with directory placement dk and table placement tk,
   its paths spelt with the name root, is declared as a new flavor f of a record r.  Then, for
   every stack root root' - the link, the resolved directory, or wherever the stack is moved or
   copied to afterwards - and every state ex' of the file system there in which the table file
   is where it belongs, looking the flavor up resolves the directory to dir_at root' dk and the
   table file to table_at root' dk tk: inside locations follow the root, outside ones and none
   do not mention it.  The current directory of the declaring process (pe_cwd pe) and the
   relative names that exist in it (ex on relative names) are not constrained. *)
Theorem relocate_linked pe ex who now n v f root rroot dk tk r :
  wf_abs root = true -> wf_abs rroot = true -> link_view (pe_links pe) root rroot ->
  wf_dirk dk = true -> wf_place root dk = true -> tab_ok root dk tk = true -> out_real pe rroot dk tk ->
  decl_ok ex root dk tk -> ex who = false -> ex now = false ->
  vf_name r = Some n -> vf_version r = Some v ->
  alookup f (vf_info r) = None -> blocks_inert pe ex rroot (vf_info r) ->
  exists r',
    declare_rec true pe ex who now
      (prod_of n v f (Some (dir_given root dk)) (Some (fst (table_given root dk tk)))
               (Some (db_of root)) (snd (table_given root dk tk))) r = Ok r' /\
    akeys (vf_info r') = akeys (vf_info r) ++ [f] /\
    forall root' ex', wf_abs root' = true -> find_ok ex' root' dk tk ->
      exists q, make_product ex' r' f (Some root') (Some (db_of root')) = Some q /\
                p_dir q = Some (dir_at root' dk) /\ p_table q = Some (table_at root' dk tk) /\
                p_db q = Some (db_of root').
Proof.
  intros HR HRR LV Hd Hp Ht Ho Hdecl Hw Hn En Ev Hf Hin.
  eexists. split; [now apply (declare_stores pe ex who now n v f root rroot)|]. split.
  - cbn [vf_info]. rewrite akeys_app. reflexivity.
  - intros root' ex' HR' Hfind. eexists. split.
    + eapply (find_resolves ex' n v f root' dk tk); try eassumption.
      * eapply tab_ok_wf; eassumption.
      * cbn [vf_info]. apply alookup_last. now apply alookup_None_notin.
      * apply block_of_holds.
    + repeat split.
Qed.
Print Assumptions relocate_linked.

(* Without symbolic links: the name of the stack is the stack, and the outside conditions are
   those of the placement. *)
Theorem relocate pe ex who now n v f root dk tk r :
  pe_links pe = [] ->
  wf_abs root = true -> wf_dirk dk = true -> wf_place root dk = true -> tab_ok root dk tk = true ->
  decl_ok ex root dk tk -> ex who = false -> ex now = false ->
  vf_name r = Some n -> vf_version r = Some v ->
  alookup f (vf_info r) = None -> blocks_inert pe ex root (vf_info r) ->
  exists r',
    declare_rec true pe ex who now
      (prod_of n v f (Some (dir_given root dk)) (Some (fst (table_given root dk tk)))
               (Some (db_of root)) (snd (table_given root dk tk))) r = Ok r' /\
    akeys (vf_info r') = akeys (vf_info r) ++ [f] /\
    forall root' ex', wf_abs root' = true -> find_ok ex' root' dk tk ->
      exists q, make_product ex' r' f (Some root') (Some (db_of root')) = Some q /\
                p_dir q = Some (dir_at root' dk) /\ p_table q = Some (table_at root' dk tk) /\
                p_db q = Some (db_of root').
Proof.
  intros E HR Hd Hp Ht. apply relocate_linked; auto.
  - rewrite E. apply link_view_nil.
  - now apply out_real_nolinks.
Qed.
Print Assumptions relocate.

(* The same through the text of a freshly created version file: Database.declare writes it
   (the stack possibly reached through links), the stack is moved, Database.findProduct reads
   it. *)
Theorem relocate_through_text pe ex who now n v f root rroot dk tk :
  wf_abs root = true -> wf_abs rroot = true -> link_view (pe_links pe) root rroot ->
  wf_dirk dk = true -> wf_place root dk = true -> tab_ok root dk tk = true -> out_real pe rroot dk tk ->
  decl_ok ex root dk tk -> ex who = false -> ex now = false ->
  wf_value n = true -> wf_value v = true -> wf_flavor f = true ->
  wf_value who = true -> wf_value now = true -> wf_value (dir_stored dk) = true ->
  wf_value (fst (table_stored tk)) = true -> wf_value (snd (table_stored tk)) = true ->
  exists lines,
    db_declare pe ex who now
      (prod_of n v f (Some (dir_given root dk)) (Some (fst (table_given root dk tk)))
               (Some (db_of root)) (snd (table_given root dk tk))) None = Ok lines /\
    forall root' ex', wf_abs root' = true -> find_ok ex' root' dk tk ->
      exists q, db_find ex' (Some n) (Some v) f (Some root') (Some (db_of root')) lines = Ok (Some q) /\
                p_dir q = Some (dir_at root' dk) /\ p_table q = Some (table_at root' dk tk).
Proof.
  intros HR HRR LV Hd Hp Ht Ho Hdecl Hw Hn Wn Wv Wf Wwho Wnow Wd Wt Wu.
  set (r0 := {| vf_name := Some n; vf_version := Some v; vf_info := [] |}).
  pose proof (declare_stores pe ex who now n v f root rroot dk tk r0 HR HRR LV Hd Hp Ht Ho Hdecl Hw Hn eq_refl) as D.
  assert (Hin : blocks_inert pe ex rroot (vf_info r0)) by (intros g j []).
  specialize (D Hin). cbn [r0 vf_name vf_version vf_info app] in D.
  set (B := block_of who now (dir_stored dk) (fst (table_stored tk)) (snd (table_stored tk))) in *.
  set (r' := {| vf_name := Some n; vf_version := Some v; vf_info := [(f, B)] |}) in *.
  assert (Wr : wf_vfile r' = true).
  { unfold wf_vfile, r'. cbn [vf_name vf_version vf_info wf_val akeys map fst snd forallb nodupb mem_str].
    rewrite Wn, Wv, Wf. unfold B. now rewrite block_of_wf. }
  assert (Nr : vf_info r' <> []) by discriminate.
  destruct (vf_read_lines r' Wr Nr) as [lines [EL RL]].
  exists lines. split.
  - destruct (wf_value_nonempty _ Wn) as [? [? En]]. destruct (wf_value_nonempty _ Wv) as [? [? Ev]].
    destruct (wf_value_nonempty _ (wf_flavor_value f Wf)) as [? [? Ef]].
    rewrite (db_declare_fresh pe ex who now _ r'); [exact EL| | | |exact D];
      cbn [prod_of p_name p_version p_flavor]; [rewrite En|rewrite Ev|rewrite Ef]; reflexivity.
  - intros root' ex' HR' Hfind. unfold db_find.
    rewrite (RL (Some n) (Some v)) by (right; reflexivity). cbn [bind].
    destruct (dir_stored_props dk Hd) as [D1 _].
    destruct (table_stored_nonempty dk tk (tab_ok_wf root dk tk Ht)) as [T1 T2].
    eexists. split.
    + f_equal. eapply (find_resolves ex' n v f root' dk tk); try eassumption; try reflexivity.
      * eapply tab_ok_wf; eassumption.
      * unfold norm, r'. cbn [vf_info map fst snd alookup]. now rewrite str_eqb_refl.
      * apply block_holds_norm; try assumption. apply block_of_holds.
    + split; reflexivity.
Qed.
Print Assumptions relocate_through_text.

(* What write(trimDir) prints does not depend on the directory the process is in, nor on which
   relative names exist there: two runs that agree on the links and on the existence of
   absolute names print the same record. *)
Theorem write_independent_of_cwd pe pe' ex ex' td r :
  isabs td = true -> pe_links pe = pe_links pe' -> (forall s, isabs s = true -> ex s = ex' s) ->
  vf_write pe ex (Some td) r = vf_write pe' ex' (Some td) r.
Proof.
  intros HA HL HE. unfold vf_write, vf_write_gen. now rewrite (trim_all_cwd pe pe' ex ex').
Qed.
Print Assumptions write_independent_of_cwd.

(* The three clauses of the property read off [relocate]. *)

(* inside the stack: directory, own table file, a table file elsewhere in the stack and a table
   file held in the database all resolve to the same place relative to the new root *)
Corollary relocate_inside root' d tn t e :
  dir_at root' (DIn d) = root' ++ c_slash :: d /\
  table_at root' (DIn d) (TUps tn) = (root' ++ c_slash :: d) ++ c_slash :: s_ups ++ c_slash :: tn /\
  (forall dk, table_at root' dk (TAbsIn t) = root' ++ c_slash :: t) /\
  (forall dk, table_at root' dk (TInterned e tn)
              = db_of root' ++ c_slash :: e ++ c_slash :: s_ups ++ c_slash :: tn).
Proof. repeat split. Qed.
Print Assumptions relocate_inside.

(* outside the stack: absolute locations are kept whatever the new root is *)
Corollary relocate_outside root' root'' o tn T :
  dir_at root' (DOut o) = o /\ dir_at root' (DOut o) = dir_at root'' (DOut o) /\
  table_at root' (DOut o) (TUps tn) = o ++ c_slash :: s_ups ++ c_slash :: tn /\
  (forall dk, table_at root' dk (TAbsOut T) = T).
Proof. repeat split. Qed.
Print Assumptions relocate_outside.

Corollary none_stays_none root' :
  dir_at root' DNone = s_none /\ (forall dk, table_at root' dk TNone = s_none) /\
  is_real (Some s_none) = false.
Proof. repeat split. Qed.
Print Assumptions none_stays_none.

Definition ex_info : info :=
  [(k_productDir, Some (lit "Linux64/my prod/1.0")); (k_table_file, Some (lit "prod.table"));
   (k_ups_dir, Some (lit "ups")); (k_declarer, Some (lit "alice")); (k_declared, Some (lit "2026/09/29 10:17:51 UTC"))].
Definition ex_vfile : vfile :=
  {| vf_name := Some (lit "prod"); vf_version := Some (lit "1.0");
     vf_info := [(lit "Linux64", ex_info);
                 (lit "Darwin", [(k_productDir, Some (lit "/opt/else where/prod")); (k_ups_dir, None)])] |}.

Example wf_vfile_inhabited : wf_vfile ex_vfile = true /\ vf_info ex_vfile <> [].
Proof. split; [vm_compute; reflexivity|discriminate]. Qed.

Example roundtrip_computed :
  exists lines, vf_lines ex_vfile = Ok lines /\ vf_read None None lines = Ok (norm ex_vfile) /\
                alookup (lit "Darwin") (vf_info (norm ex_vfile))
                = Some [(k_productDir, Some (lit "/opt/else where/prod")); (k_table_file, Some s_none)].
Proof. eexists. split; [vm_compute; reflexivity|]. split; vm_compute; reflexivity. Qed.

Definition ex_cfile : cfile :=
  {| cf_name := Some (lit "prod"); cf_tag := Some (lit "current");
     cf_info := [(lit "Linux64", [(k_version, lit "1.0"); (k_declarer, lit "alice")]);
                 (lit "Darwin", [(k_declarer, lit "bob"); (k_version, lit "2.1 rc")])] |}.
Example wf_cfile_inhabited : wf_cfile ex_cfile = true /\ cf_info ex_cfile <> [].
Proof. split; [vm_compute; reflexivity|discriminate]. Qed.

(* a stack with a space in its name; the product inside with its own table, a second flavor
   outside with a table elsewhere in the stack.  The declaring process sits in the product
   directory, where the relative names ups, prod.table and Linux64/prod/1.0 exist too. *)
Definition ex_root : str := lit "/data/my stack".
Definition ex_files : list str :=
  [ex_root; lit "/data/my stack/Linux64/prod/1.0"; lit "/data/my stack/Linux64/prod/1.0/ups";
   lit "/data/my stack/Linux64/prod/1.0/ups/prod.table"; lit "/data/my stack/site/prod.table";
   lit "ups"; lit "prod.table"; lit "Linux64/prod/1.0"; lit "alice-elsewhere"].
Definition ex_ex (s : str) : bool := mem_str s ex_files.
Definition ex_pe : penv := {| pe_links := []; pe_cwd := lit "/data/my stack/Linux64/prod/1.0" |}.

Example relocate_hypotheses_inhabited :
  wf_abs ex_root = true /\
  wf_dirk (DIn (lit "Linux64/prod/1.0")) = true /\ wf_place ex_root (DOut (lit "/opt/else where/prod")) = true /\
  tab_ok ex_root (DIn (lit "Linux64/prod/1.0")) (TUps (lit "prod.table")) = true /\
  tab_ok ex_root (DOut (lit "/opt/else where/prod")) (TAbsIn (lit "site/prod.table")) = true /\
  tab_ok ex_root DNone (TInterned (lit "Linux64/prod/1.0") (lit "prod.table")) = true /\
  tab_ok ex_root (DIn (lit "Linux64/prod/1.0")) (TAbsOut (lit "/opt/else where/t/prod.table")) = true /\
  decl_ok ex_ex ex_root (DIn (lit "Linux64/prod/1.0")) (TUps (lit "prod.table")) /\
  decl_ok ex_ex ex_root (DOut (lit "/opt/else where/prod")) (TAbsIn (lit "site/prod.table")) /\
  ex_ex (lit "alice") = false /\ ex_ex (lit "ups") = true /\ pe_links ex_pe = [].
Proof. repeat apply conj; vm_compute; reflexivity. Qed.

(* The product of the example and the version file Database.declare prints for it; ex_text_open is
   the file up to End:, after which a second flavor is added. *)
Definition ex_prod : product :=
  prod_of (lit "prod") (lit "1.0") (lit "Linux64")
          (Some (lit "/data/my stack/Linux64/prod/1.0"))
          (Some (lit "/data/my stack/Linux64/prod/1.0/ups/prod.table"))
          (Some (db_of ex_root)) (Some s_ups).
Definition ex_text_open : list str :=
  [lit "FILE = version"; lit "PRODUCT = prod"; lit "VERSION = 1.0";
   lit "#***************************************"; lit ""; lit "Group:"; lit "   FLAVOR = Linux64";
   lit "   QUALIFIERS = """""; lit "   DECLARER = alice"; lit "   DECLARED = today";
   lit "   PROD_DIR = Linux64/prod/1.0"; lit "   UPS_DIR = ups"; lit "   TABLE_FILE = prod.table"].
Definition ex_text : list str := ex_text_open ++ [lit "End:"].

Lemma ex_declared : db_declare ex_pe ex_ex (lit "alice") (lit "today") ex_prod None = Ok ex_text.
Proof. vm_compute. reflexivity. Qed.

Lemma ex_text_fields :
  In (lit "   PROD_DIR = Linux64/prod/1.0") ex_text /\ In (lit "   UPS_DIR = ups") ex_text /\
  In (lit "   TABLE_FILE = prod.table") ex_text.
Proof. split; [|split]; apply mem_str_In; reflexivity. Qed.

(* Reading a text is where evaluation is dear (the character classes of the readers go through
   nat_of_ascii), so each text of the examples is read once and the look-ups start from the record. *)
Definition ex_rec : vfile :=
  {| vf_name := Some (lit "prod"); vf_version := Some (lit "1.0");
     vf_info := [(lit "Linux64",
                  [(k_declarer, Some (lit "alice")); (k_declared, Some (lit "today"));
                   (k_productDir, Some (lit "Linux64/prod/1.0")); (k_ups_dir, Some s_ups);
                   (k_table_file, Some (lit "prod.table"))])] |}.

Lemma ex_text_read : vf_read (Some (lit "prod")) (Some (lit "1.0")) ex_text = Ok ex_rec.
Proof. vm_compute. reflexivity. Qed.

(* the whole pipeline on that example, computed: declare at the old root from inside the
   product directory, look up at a new one *)
Example relocate_computed :
  let p := prod_of (lit "prod") (lit "1.0") (lit "Linux64")
             (Some (lit "/data/my stack/Linux64/prod/1.0"))
             (Some (lit "/data/my stack/Linux64/prod/1.0/ups/prod.table"))
             (Some (db_of ex_root)) (Some s_ups) in
  exists lines,
    db_declare ex_pe ex_ex (lit "alice") (lit "today") p None = Ok lines /\
    In (lit "   PROD_DIR = Linux64/prod/1.0") lines /\ In (lit "   UPS_DIR = ups") lines /\
    In (lit "   TABLE_FILE = prod.table") lines /\
    exists q,
      db_find (fun s => str_eqb s (lit "/new/place/Linux64/prod/1.0/ups/prod.table"))
              (Some (lit "prod")) (Some (lit "1.0")) (lit "Linux64")
              (Some (lit "/new/place")) (Some (lit "/new/place/ups_db")) lines = Ok (Some q) /\
      p_dir q = Some (lit "/new/place/Linux64/prod/1.0") /\
      p_table q = Some (lit "/new/place/Linux64/prod/1.0/ups/prod.table").
Proof.
  exists ex_text. split; [exact ex_declared|].
  destruct ex_text_fields as [D [U T]]. repeat (split; [assumption|]).
  eexists. split; [eapply db_find_read; [exact ex_text_read|vm_compute; reflexivity]|]. split; reflexivity.
Qed.

(* ---- the same stack reached through symbolic links *)

(* /data/lnk is a link to the stack directory; /data/lp is a link to the directory above a
   second stack *)
Definition ex_lk : links := [(lit "/data/lnk", lit "/data/my stack"); (lit "/data/lp", lit "/srv/par ent")].
Definition ex_pe_lnk : penv := {| pe_links := ex_lk; pe_cwd := lit "/data/lnk/Linux64/prod/1.0" |}.
(* what exists, by resolved name; a path is looked up by the name it resolves to *)
Definition ex_real : list str :=
  [ex_root; lit "/data/my stack/Linux64/prod/1.0"; lit "/data/my stack/Linux64/prod/1.0/ups";
   lit "/data/my stack/Linux64/prod/1.0/ups/prod.table"; lit "/data/my stack/site/prod.table";
   lit "/srv/par ent/stack"; lit "/srv/par ent/stack/site/prod.table"].
Definition ex_ex_lnk : str -> bool := ex_via ex_lk (fun s => mem_str s ex_real).

Lemma ex_link_view_stack : link_view [(lit "/data/lnk", lit "/data/my stack")] (lit "/data/lnk") ex_root.
Proof.
  pose proof (link_view_single (lit "/data/lnk") (lit "/data/my stack") [] eq_refl eq_refl) as H.
  now rewrite !app_nil_r in H.
Qed.

Lemma ex_link_view_parent :
  link_view [(lit "/data/lp", lit "/srv/par ent")] (lit "/data/lp/stack") (lit "/srv/par ent/stack").
Proof. exact (link_view_single (lit "/data/lp") (lit "/srv/par ent") (lit "/stack") eq_refl eq_refl). Qed.

Example relocate_linked_hypotheses_inhabited :
  let pe1 := {| pe_links := [(lit "/data/lnk", lit "/data/my stack")]; pe_cwd := lit "/data/lnk/Linux64/prod/1.0" |} in
  let pe2 := {| pe_links := [(lit "/data/lp", lit "/srv/par ent")]; pe_cwd := lit "/" |} in
  let ex1 := ex_via (pe_links pe1) (fun s => mem_str s ex_real) in
  let ex2 := ex_via (pe_links pe2) (fun s => mem_str s ex_real) in
  (* the stack directory is a link *)
  link_view (pe_links pe1) (lit "/data/lnk") ex_root /\ lit "/data/lnk" <> ex_root /\
  wf_abs (lit "/data/lnk") = true /\ wf_abs ex_root = true /\
  tab_ok (lit "/data/lnk") (DIn (lit "Linux64/prod/1.0")) (TUps (lit "prod.table")) = true /\
  out_real pe1 ex_root (DIn (lit "Linux64/prod/1.0")) (TUps (lit "prod.table")) /\
  decl_ok ex1 (lit "/data/lnk") (DIn (lit "Linux64/prod/1.0")) (TUps (lit "prod.table")) /\
  (* a directory above the stack is a link; product outside, table elsewhere in the stack *)
  link_view (pe_links pe2) (lit "/data/lp/stack") (lit "/srv/par ent/stack") /\
  wf_place (lit "/data/lp/stack") (DOut (lit "/opt/else where/prod")) = true /\
  tab_ok (lit "/data/lp/stack") (DOut (lit "/opt/else where/prod")) (TAbsIn (lit "site/prod.table")) = true /\
  out_real pe2 (lit "/srv/par ent/stack") (DOut (lit "/opt/else where/prod")) (TAbsIn (lit "site/prod.table")) /\
  out_real pe2 (lit "/srv/par ent/stack") DNone (TAbsOut (lit "/opt/else where/t/prod.table")) /\
  decl_ok ex2 (lit "/data/lp/stack") (DOut (lit "/opt/else where/prod")) (TAbsIn (lit "site/prod.table")).
Proof.
  intros pe1 pe2 ex1 ex2. split; [exact ex_link_view_stack|]. split; [discriminate|].
  do 5 (split; [vm_compute; auto|]).
  split; [exact ex_link_view_parent|].
  repeat apply conj; vm_compute; auto.
Qed.

(* computed: the product is declared while EUPS_PATH names the stack by the link (and the
   process sits in the product directory, reached by the link); the record is relative to
   the stack; it is then looked up through the link, through the resolved name, and after
   the stack has been moved *)
Lemma ex_declared_linked :
  db_declare ex_pe_lnk ex_ex_lnk (lit "alice") (lit "today")
    (prod_of (lit "prod") (lit "1.0") (lit "Linux64")
             (Some (lit "/data/lnk/Linux64/prod/1.0"))
             (Some (lit "/data/lnk/Linux64/prod/1.0/ups/prod.table"))
             (Some (db_of (lit "/data/lnk"))) (Some s_ups)) None = Ok ex_text.
Proof. vm_compute. reflexivity. Qed.

Example relocate_linked_computed :
  let p := prod_of (lit "prod") (lit "1.0") (lit "Linux64")
             (Some (lit "/data/lnk/Linux64/prod/1.0"))
             (Some (lit "/data/lnk/Linux64/prod/1.0/ups/prod.table"))
             (Some (db_of (lit "/data/lnk"))) (Some s_ups) in
  exists lines,
    db_declare ex_pe_lnk ex_ex_lnk (lit "alice") (lit "today") p None = Ok lines /\
    In (lit "   PROD_DIR = Linux64/prod/1.0") lines /\ In (lit "   UPS_DIR = ups") lines /\
    In (lit "   TABLE_FILE = prod.table") lines /\
    forall root', In root' [lit "/data/lnk"; ex_root; lit "/new/place"] ->
      exists q,
        db_find (fun s => str_eqb s (root' ++ lit "/Linux64/prod/1.0/ups/prod.table"))
                (Some (lit "prod")) (Some (lit "1.0")) (lit "Linux64")
                (Some root') (Some (db_of root')) lines = Ok (Some q) /\
        p_dir q = Some (root' ++ lit "/Linux64/prod/1.0") /\
        p_table q = Some (root' ++ lit "/Linux64/prod/1.0/ups/prod.table").
Proof.
  exists ex_text. split; [exact ex_declared_linked|].
  destruct ex_text_fields as [D [U T]]. repeat (split; [assumption|]).
  intros root' [<-|[<-|[<-|[]]]];
    (eexists; split; [eapply db_find_read; [exact ex_text_read|vm_compute; reflexivity]|]; split; reflexivity).
Qed.

(* a second flavor added through the link to a version file that was written through the
   resolved name: the first flavor's block is printed as it was *)
Definition ex_text2 : list str :=
  ex_text_open ++
  [lit ""; lit "Group:"; lit "   FLAVOR = Darwin"; lit "   QUALIFIERS = """""; lit "   DECLARER = bob";
   lit "   DECLARED = later"; lit "   PROD_DIR = /opt/else where/prod"; lit "   UPS_DIR = ups";
   lit "   TABLE_FILE = site/prod.table"; lit "End:"].

Example second_flavor_through_link_computed :
  let p1 := prod_of (lit "prod") (lit "1.0") (lit "Linux64")
             (Some (lit "/data/my stack/Linux64/prod/1.0"))
             (Some (lit "/data/my stack/Linux64/prod/1.0/ups/prod.table"))
             (Some (db_of ex_root)) (Some s_ups) in
  let p2 := prod_of (lit "prod") (lit "1.0") (lit "Darwin") (Some (lit "/opt/else where/prod"))
             (Some (lit "/data/lnk/site/prod.table")) (Some (db_of (lit "/data/lnk"))) (Some s_ups) in
  exists l1 l2,
    db_declare ex_pe ex_ex (lit "alice") (lit "today") p1 None = Ok l1 /\
    db_declare ex_pe_lnk ex_ex_lnk (lit "bob") (lit "later") p2 (Some l1) = Ok l2 /\
    (forall x, In x l1 -> x <> lit "End:" -> In x l2) /\
    In (lit "   PROD_DIR = /opt/else where/prod") l2 /\ In (lit "   TABLE_FILE = site/prod.table") l2.
Proof.
  intros p1 p2. exists ex_text, ex_text2. split; [exact ex_declared|]. split.
  { unfold db_declare, db_declare_gen.
    change (vf_read (Some (p_name p2)) (Some (p_version p2)) ex_text)
      with (vf_read (Some (lit "prod")) (Some (lit "1.0")) ex_text).
    rewrite ex_text_read. vm_compute. reflexivity. }
  split; [|split; apply mem_str_In; reflexivity].
  (* both texts begin with ex_text_open, and End: is all that follows it in the first *)
  intros x Hx N. apply in_or_app. apply in_app_or in Hx. destruct Hx as [Hx|[<-|[]]]; [now left|now elim N].
Qed.

(* The pinned code, before the three fix: commits. *)

(* D22: canonicalizePaths tested startswith(db) without a separator: a product directory
   whose path begins like the database directory had its own table file recorded as UPS_DB/ *)
Example canon_db_prefix_refuted_pinned :
  let p := prod_of (lit "a") (lit "1") (lit "L") (Some (lit "/s/ups_dbx/a/1"))
             (Some (lit "/s/ups_dbx/a/1/ups/a.table")) (Some (lit "/s/ups_db")) (Some s_ups) in
  p_table (canon_gen false p) = Some (lit "$UPS_DB/") /\
  p_table (canon_gen true p) = Some (lit "/s/ups_dbx/a/1/ups/a.table").
Proof. split; vm_compute; reflexivity. Qed.

(* D23: a block read from a file without PROD_DIR holds productDir = None, on which the pinned
   write raised TypeError; the repaired write prints the word none *)
Example write_none_value_refuted_pinned :
  let r := {| vf_name := Some (lit "p"); vf_version := Some (lit "1");
              vf_info := [(lit "A", [(k_ups_dir, Some s_none); (k_productDir, None); (k_table_file, Some s_none)])] |} in
  vf_write_gen false env0 (fun _ => false) None r = Err Crash /\
  exists lines, vf_write_gen true env0 (fun _ => false) None r = Ok lines /\ In (lit "   PROD_DIR = none") lines.
Proof.
  split; [vm_compute; reflexivity|]. eexists. split; [vm_compute; reflexivity|].
  apply mem_str_In; vm_compute; reflexivity.
Qed.

(* The pinned write looked relative values up in the current directory.  Declared from inside
   the product directory (which has a ups subdirectory) the relative UPS_DIR value ups was
   found to exist below the stack and was rewritten relative to the stack; the product then
   read back with a table file that does not exist.  From any other directory, and with the
   repaired write from every directory, the record is UPS_DIR = ups. *)
Example write_relative_values_refuted_pinned :
  let r := {| vf_name := Some (lit "p"); vf_version := Some (lit "1.0");
              vf_info := [(lit "Linux64", [(k_productDir, Some (lit "Linux64/p/1.0"));
                                           (k_table_file, Some (lit "/s/Linux64/p/1.0/ups/p.table"));
                                           (k_ups_dir, Some s_ups)])] |} in
  let files := [lit "/s"; lit "/s/Linux64/p/1.0"; lit "/s/Linux64/p/1.0/ups"; lit "/s/Linux64/p/1.0/ups/p.table"] in
  let ex := fun s => mem_str s files in
  let inside := {| pe_links := []; pe_cwd := lit "/s/Linux64/p/1.0" |} in
  let elsewhere := {| pe_links := []; pe_cwd := lit "/home/alice" |} in
  (exists lines, vf_write_gen false inside ex (Some (lit "/s")) r = Ok lines /\
     In (lit "   UPS_DIR = Linux64/p/1.0/ups") lines /\
     exists q, db_find ex None None (lit "Linux64") (Some (lit "/s")) (Some (lit "/s/ups_db")) lines = Ok (Some q) /\
               p_table q = Some (lit "/s/Linux64/p/1.0/Linux64/p/1.0/ups/p.table") /\
               ex (lit "/s/Linux64/p/1.0/Linux64/p/1.0/ups/p.table") = false) /\
  (exists lines, vf_write_gen false elsewhere ex (Some (lit "/s")) r = Ok lines /\ In (lit "   UPS_DIR = ups") lines) /\
  (exists lines, vf_write_gen true inside ex (Some (lit "/s")) r = Ok lines /\
     vf_write_gen true elsewhere ex (Some (lit "/s")) r = Ok lines /\
     In (lit "   UPS_DIR = ups") lines /\
     exists q, db_find ex None None (lit "Linux64") (Some (lit "/s")) (Some (lit "/s/ups_db")) lines = Ok (Some q) /\
               p_table q = Some (lit "/s/Linux64/p/1.0/ups/p.table")).
Proof.
  intros r files ex inside elsewhere. split; [|split].
  - eexists. split; [vm_compute; reflexivity|]. split; [apply mem_str_In; vm_compute; reflexivity|].
    eexists. split; [vm_compute; reflexivity|]. split; vm_compute; reflexivity.
  - eexists. split; [vm_compute; reflexivity|]. apply mem_str_In; vm_compute; reflexivity.
  - eexists. split; [vm_compute; reflexivity|]. split; [vm_compute; reflexivity|].
    split; [apply mem_str_In; vm_compute; reflexivity|].
    eexists. split; [vm_compute; reflexivity|]. vm_compute; reflexivity.
Qed.

(* What a write that resolves the values but not trimDir would do (seeded change C16-5): the
   resolved table file is cut at the length of the link name. *)
Example realpath_of_both_sides_matters :
  realpath ex_lk (lit "/data/lnk/Linux64/prod/1.0/ups/prod.table")
    = lit "/data/my stack/Linux64/prod/1.0/ups/prod.table" /\
  realpath ex_lk (lit "/data/lnk") = ex_root /\
  after (length (lit "/data/lnk")) (lit "/data/my stack/Linux64/prod/1.0/ups/prod.table")
    = lit "tack/Linux64/prod/1.0/ups/prod.table" /\
  after (length ex_root) (lit "/data/my stack/Linux64/prod/1.0/ups/prod.table")
    = lit "Linux64/prod/1.0/ups/prod.table".
Proof. repeat apply conj; vm_compute; reflexivity. Qed.

(* Vocabulary (Model/RecordsExt.v):
     cf_set_versions who now v fls c    ChainFile.setVersion(v, fls) for a LIST of flavors: the loop
     cf_remove_versions fls c           ChainFile.removeVersion(fls)
     assign_flavors req declared        the list Database.assignTag hands to setVersion: the requested
                                        flavors (None and the empty list: all declared ones) that are
                                        declared in the version file, each once
     requested req declared             (Proofs/RecordsFlavors.v) the list assignTag starts from
     db_assign_tag                      Database.assignTag on the texts of the version file and of the
                                        chain file: the new text of the chain file
     db_find1, db_find_seq              one Database.findProduct on a database of record texts; a
                                        process asking one query after the other *)

(* ChainFile.setVersion over a list of flavors, whatever the chain record held before (some of the
   flavors may already carry the tag, for this version or another one): every flavor of the list
   has the version afterwards, every other flavor what it had. *)
Theorem set_version_list_keeps_others who now v fls c f :
  ~ In f fls -> cf_get_version f (cf_set_versions who now v fls c) = cf_get_version f c.
Proof.
  revert c. induction fls as [|g r IH]; intros c N; [reflexivity|].
  cbn [cf_set_versions]. rewrite IH by (intro H; apply N; now right).
  apply cf_get_set_other. intros ->. apply N. now left.
Qed.
Print Assumptions set_version_list_keeps_others.

Theorem set_version_list_sets_every_flavor who now v fls c f :
  In f fls -> cf_get_version f (cf_set_versions who now v fls c) = Some v.
Proof.
  revert c. induction fls as [|g r IH]; intros c H; [destruct H|].
  cbn [cf_set_versions].
  destruct (mem_str f r) eqn:M.
  - apply IH. now apply mem_str_In.
  - apply mem_str_not_In in M. rewrite set_version_list_keeps_others by assumption.
    destruct H as [->|H]; [apply cf_get_set_same|contradiction].
Qed.
Print Assumptions set_version_list_sets_every_flavor.

(* the same through the file: setVersion over the list, write, read (with or without the names
   given to the reader) *)
Theorem set_version_list_reads_back who now v fls c :
  fls <> [] ->
  let x := cf_set_versions who now v fls c in
  wf_cfile x = true ->
  exists lines c2,
    cf_lines x = Ok lines /\
    cf_read (cf_name c) (cf_tag c) lines = Ok c2 /\ cf_read None None lines = Ok c2 /\
    (forall f, In f fls -> cf_get_version f c2 = Some v) /\
    (forall f, ~ In f fls -> cf_get_version f c2 = cf_get_version f c).
Proof.
  intros Hne x Hwf.
  assert (Nx : cf_info x <> []).
  { destruct fls as [|g r]; [congruence|].
    pose proof (set_version_list_sets_every_flavor who now v (g :: r) c g (or_introl eq_refl)) as G.
    fold x in G. unfold cf_get_version in G. intro Z. rewrite Z in G. discriminate. }
  destruct (cf_read_lines x Hwf Nx) as [lines [E R]].
  destruct (cf_set_versions_names who now v fls c) as [Nn Nt]. fold x in Nn, Nt.
  exists lines, (cnorm x). split; [exact E|]. split; [|split; [|split]].
  - apply R; right; congruence.
  - apply R; now left.
  - intros f Hf. rewrite cf_versions_kept by assumption. now apply set_version_list_sets_every_flavor.
  - intros f Hf. rewrite cf_versions_kept by assumption. now apply set_version_list_keeps_others.
Qed.
Print Assumptions set_version_list_reads_back.

Theorem remove_version_list who now fls c f :
  (In f fls -> cf_get_version f (cf_remove_versions fls c) = None) /\
  (~ In f fls -> cf_get_version f (cf_remove_versions fls c) = cf_get_version f c) /\
  (* setVersion(version, None) does not return *)
  (forall v, cf_set_versions_opt who now v None c = Err Crash).
Proof.
  split; [apply cf_remove_versions_in|]. split; [apply cf_remove_versions_other|reflexivity].
Qed.
Print Assumptions remove_version_list.

(* the flavors Database.assignTag tags: exactly the requested ones that are declared, each once
   (so a flavor named twice, or one that is not declared, changes nothing for the others) *)
Theorem assign_tag_flavors req declared :
  (forall f, In f (assign_flavors req declared) <-> In f (requested req declared) /\ In f declared) /\
  NoDup (assign_flavors req declared) /\
  requested None declared = declared /\ requested (Some []) declared = declared /\
  (forall f r, requested (Some (f :: r)) declared = f :: r).
Proof.
  split; [intro f; apply assign_flavors_spec|]. split; [apply assign_flavors_nodup|]. repeat split.
Qed.
Print Assumptions assign_tag_flavors.

(* Database.assignTag(tag, name, v, req) then reading the chain file: every requested flavor that
   is declared for the version reads back v, every other flavor what the chain file said before
   (c: the chain record as read before the call; empty when there was no chain file). *)
Theorem assign_tag_reads_back who now name tag v req vls r cls c :
  vf_read None None vls = Ok r ->
  let declared := akeys (vf_info r) in
  (cls = None /\ c = {| cf_name := Some name; cf_tag := Some tag; cf_info := [] |}) \/
  (exists ls, cls = Some ls /\ cf_read (Some name) (Some tag) ls = Ok c) ->
  assign_flavors req declared <> [] ->
  wf_cfile (cf_set_versions who now v (assign_flavors req declared) c) = true ->
  exists lines c2,
    db_assign_tag who now name tag v req (Some vls) cls = Ok lines /\
    cf_read None None lines = Ok c2 /\
    (forall f, In f (requested req declared) -> In f declared -> cf_get_version f c2 = Some v) /\
    (forall f, ~ (In f (requested req declared) /\ In f declared) ->
               cf_get_version f c2 = cf_get_version f c).
Proof.
  intros Er declared Hc Hne Hwf.
  destruct (set_version_list_reads_back who now v (assign_flavors req declared) c Hne Hwf)
    as [lines [c2 [E [_ [R [HI HO]]]]]].
  exists lines, c2. split; [|split; [exact R|split]].
  - unfold db_assign_tag. rewrite Er. cbn [bind]. fold declared.
    destruct (assign_flavors req declared) as [|f0 fr] eqn:EF0; [congruence|].
    assert (H0 : In f0 declared).
    { apply (assign_flavors_spec req declared f0). rewrite EF0. now left. }
    rewrite <- EF0 in *. clear EF0.
    destruct declared as [|d0 dr] eqn:ED; [destruct H0|].
    rewrite <- ED in *.
    destruct (assign_flavors req declared) as [|f1 fr1] eqn:EF; [congruence|].
    destruct Hc as [[-> ->]|[ls [-> Ec]]]; [|rewrite Ec]; cbn [bind]; exact E.
  - intros f H1 H2. apply HI. apply assign_flavors_spec. now split.
  - intros f N. apply HO. intro H. apply N. now apply assign_flavors_spec.
Qed.
Print Assumptions assign_tag_reads_back.

(* What a look-up answers does not depend on which look-ups went before it: in two processes that
   ask their queries in any two orders (repetitions allowed), the same query gets the same answer,
   which is the answer it gets when asked alone. *)
Theorem lookups_do_not_interfere ex root d qs qs' k k' q :
  nth_error qs k = Some q -> nth_error qs' k' = Some q ->
  nth_error (db_find_seq ex root d qs) k = Some (db_find1 ex root d q) /\
  nth_error (db_find_seq ex root d qs') k' = Some (db_find1 ex root d q) /\
  db_find_seq ex root d [q] = [db_find1 ex root d q].
Proof.
  intros H H'. rewrite !db_find_seq_nth, H, H'. repeat split.
Qed.
Print Assumptions lookups_do_not_interfere.

(* one record, three flavors whose blocks have the same text and use the FLAVOR macro (directory
   below the stack, table file held in the database): each flavor resolves with its own name, in
   either order of asking, at the place where the stack is and at the place it is moved to *)
Definition ex_macro_block : list str :=
  [ lit "   QUALIFIERS = "; lit "   PROD_DIR = $FLAVOR/bar/2.0";
    lit "   UPS_DIR = $UPS_DB/$FLAVOR/bar/2.0/ups"; lit "   TABLE_FILE = bar.table" ].
Definition ex_macro_text : list str :=
  [ lit "FILE = version"; lit "PRODUCT = bar"; lit "VERSION = 2.0" ]
  ++ [lit "Group:"; lit "   FLAVOR = Linux"] ++ ex_macro_block
  ++ [lit "Group:"; lit "   FLAVOR = Linux64"] ++ ex_macro_block
  ++ [lit "Group:"; lit "   FLAVOR = Darwin"] ++ ex_macro_block ++ [lit "End:"].

Definition ex_macro_info : info :=
  [(k_productDir, Some (lit "$FLAVOR/bar/2.0")); (k_ups_dir, Some (lit "$UPS_DB/$FLAVOR/bar/2.0/ups"));
   (k_table_file, Some (lit "bar.table"))].
Definition ex_macro_rec : vfile :=
  {| vf_name := Some (lit "bar"); vf_version := Some (lit "2.0");
     vf_info := [(lit "Linux", ex_macro_info); (lit "Linux64", ex_macro_info); (lit "Darwin", ex_macro_info)] |}.

Lemma ex_macro_read : vf_read None None ex_macro_text = Ok ex_macro_rec.
Proof. vm_compute. reflexivity. Qed.

Lemma ex_macro_find ex root f :
  db_find1 ex root [(lit "bar", lit "2.0", ex_macro_text)] (lit "bar", lit "2.0", f)
  = Ok (make_product ex ex_macro_rec f (Some root) (Some (path_join root s_ups_db))).
Proof. apply (db_find1_read _ _ _ _ _ _ ex_macro_text); [reflexivity|exact ex_macro_read]. Qed.

Example flavor_macro_resolved_per_flavor :
  let d := [(lit "bar", lit "2.0", ex_macro_text)] in
  let q f := (lit "bar", lit "2.0", f) in
  let dirs root qs := map (fun a => match a with
                                    | Ok (Some p) => (p_dir p, p_table p)
                                    | _ => (None, None)
                                    end) (db_find_seq (fun _ => false) root d qs) in
  dirs (lit "/s") [q (lit "Linux"); q (lit "Linux64"); q (lit "Linux")]
  = [ (Some (lit "/s/Linux/bar/2.0"), Some (lit "/s/ups_db/Linux/bar/2.0/ups/bar.table"));
      (Some (lit "/s/Linux64/bar/2.0"), Some (lit "/s/ups_db/Linux64/bar/2.0/ups/bar.table"));
      (Some (lit "/s/Linux/bar/2.0"), Some (lit "/s/ups_db/Linux/bar/2.0/ups/bar.table")) ] /\
  dirs (lit "/moved to") [q (lit "Darwin"); q (lit "Linux")]
  = [ (Some (lit "/moved to/Darwin/bar/2.0"), Some (lit "/moved to/ups_db/Darwin/bar/2.0/ups/bar.table"));
      (Some (lit "/moved to/Linux/bar/2.0"), Some (lit "/moved to/ups_db/Linux/bar/2.0/ups/bar.table")) ].
Proof.
  cbv zeta. unfold db_find_seq. cbn [map].
  split; rewrite 2 ex_macro_find; vm_compute; reflexivity.
Qed.

(* a chain record in which one flavor already carries the tag for the version: setVersion over
   the list of all three still sets the two others *)
Example set_version_list_computed :
  let c := cf_set_version (lit "alice") (lit "t0") (lit "1.0") (lit "Linux")
             {| cf_name := Some (lit "foo"); cf_tag := Some (lit "stable"); cf_info := [] |} in
  let x := cf_set_versions (lit "bob") (lit "t1") (lit "1.0") [lit "Linux"; lit "Linux64"; lit "Darwin"] c in
  wf_cfile x = true /\
  map (fun f => cf_get_version f x) [lit "Linux"; lit "Linux64"; lit "Darwin"; lit "generic"]
  = [Some (lit "1.0"); Some (lit "1.0"); Some (lit "1.0"); None] /\
  assign_flavors (Some [lit "Darwin"; lit "Linux"; lit "sparc"; lit "Darwin"]) [lit "Linux"; lit "Linux64"; lit "Darwin"]
  = [lit "Linux"; lit "Darwin"].
Proof. repeat apply conj; vm_compute; reflexivity. Qed.

From Eupsv Require Import Model.RecordsDirs Proofs.RecordsDirs Proofs.PathsSibling.

(* Database.assignTag when the chain file is kept in ANY directory d (the product's own database, the
   user's tag directory for a user tag, the database of another stack named by writeableDB): the
   chain file of d afterwards reads back the version for every requested declared flavor and, for
   every other flavor, what the chain file of d said before the call (c: that record as read before
   the call; empty when d held no chain file) - so flavors tagged one after the other all keep
   their entries; the chain files of all other directories are untouched. *)
Theorem assign_tag_elsewhere_keeps_other_flavors who now name tag v req vls r own ut ud wr d cs c :
  vf_read None None vls = Ok r ->
  let declared := akeys (vf_info r) in
  tag_target own ut ud wr = Ok d ->
  (alookup d cs = None /\ c = {| cf_name := Some name; cf_tag := Some tag; cf_info := [] |}) \/
  (exists ls, alookup d cs = Some ls /\ cf_read (Some name) (Some tag) ls = Ok c) ->
  assign_flavors req declared <> [] ->
  wf_cfile (cf_set_versions who now v (assign_flavors req declared) c) = true ->
  exists cs' lines c2,
    db_assign_tag_in who now name tag v req (Some vls) own ut ud wr cs = Ok cs' /\
    alookup d cs' = Some lines /\
    (forall d', d' <> d -> alookup d' cs' = alookup d' cs) /\
    cf_read None None lines = Ok c2 /\
    (forall f, In f (requested req declared) -> In f declared -> cf_get_version f c2 = Some v) /\
    (forall f, ~ (In f (requested req declared) /\ In f declared) ->
               cf_get_version f c2 = cf_get_version f c).
Proof.
  intros Er declared Ht Hc Hne Hwf.
  destruct (assign_tag_reads_back who now name tag v req vls r (alookup d cs) c Er Hc Hne Hwf)
    as [lines [c2 [E [R [HI HO]]]]].
  exists (aset d lines cs), lines, c2.
  split; [|split; [|split; [|split; [exact R|split; [exact HI|exact HO]]]]].
  - now apply db_assign_tag_in_eq.
  - apply alookup_aset_same.
  - intros d' N. now apply alookup_aset_other.
Qed.
Print Assumptions assign_tag_elsewhere_keeps_other_flavors.

(* where the assignment is kept *)
Theorem tag_target_is_one_of_three own ut ud wr d :
  tag_target own ut ud wr = Ok d ->
  (wr = Some d /\ d <> []) \/
  ((wr = None \/ wr = Some []) /\ ut = true /\ ud = Some d /\ d <> []) \/
  ((wr = None \/ wr = Some []) /\ ut = false /\ d = own).
Proof.
  unfold tag_target. intro H.
  destruct wr as [[|c r]|].
  - destruct ut.
    + destruct ud as [[|c r]|]; try discriminate. inversion H; subst.
      right; left. repeat split; auto. discriminate.
    + inversion H; subst. right; right. auto.
  - inversion H; subst. left. split; [reflexivity|discriminate].
  - destruct ut.
    + destruct ud as [[|c r]|]; try discriminate. inversion H; subst.
      right; left. repeat split; auto. discriminate.
    + inversion H; subst. right; right. auto.
Qed.
Print Assumptions tag_target_is_one_of_three.

(* A directory beside the stack whose path begins with the stack's path as a string (stack2,
   stack-extras next to stack) is outside the stack: utils.isSubpath compares whole components
   (root itself, or root followed by a slash). *)
Theorem sibling_with_common_prefix_is_outside root c s :
  root <> [] -> ends_slash root = false -> ascii_eqb c_slash c = false ->
  subpath_abs (root ++ c :: s) root = false /\
  (forall s', subpath_abs (root ++ c_slash :: s') root = true).
Proof.
  intros Hn He Hc. split; [now apply subpath_abs_sibling|]. intro s'. now apply subpath_abs_below.
Qed.
Print Assumptions sibling_with_common_prefix_is_outside.

(* hence VersionFile.write(trimDir) records a value that resolves there unchanged (absolute),
   whatever links lead to the stack or to the value, also when the block is written again because
   another flavor is added to the file (write runs the same loop over every block) *)
Theorem sibling_value_written_unchanged fixed pe ex tc tr k (info : amap val) value c s :
  alookup k info = Some (Some value) ->
  let t := realpath (pe_links pe) (abs_from (pe_cwd pe) (tc :: tr)) in
  t <> [] -> ends_slash t = false -> ascii_eqb c_slash c = false ->
  realpath (pe_links pe) (abs_from (pe_cwd pe) value) = t ++ c :: s ->
  trim_key fixed pe ex (Some (tc :: tr)) k info = Ok info.
Proof.
  intros Hk t Hn He Hc Hr. unfold trim_key. rewrite Hk.
  destruct (fixed && negb (isabs value)); [reflexivity|].
  destruct (negb (ex (abs_from (pe_cwd pe) value))); [reflexivity|].
  fold t. rewrite Hr, (subpath_abs_sibling t c s Hn He Hc). reflexivity.
Qed.
Print Assumptions sibling_value_written_unchanged.

Definition ex_vls : list str :=
  [lit "FILE = version"; lit "PRODUCT = prod"; lit "VERSION = 1.0"; lit "Group:";
   lit "   FLAVOR = Linux64"; lit "   PROD_DIR = Linux64/prod/1.0"; lit "   UPS_DIR = ups";
   lit "   TABLE_FILE = prod.table"; lit "End:"; lit "Group:"; lit "   FLAVOR = Darwin";
   lit "   PROD_DIR = Darwin/prod/1.0"; lit "   UPS_DIR = ups"; lit "   TABLE_FILE = prod.table";
   lit "End:"].

Definition ex_vrec : vfile :=
  {| vf_name := Some (lit "prod"); vf_version := Some (lit "1.0");
     vf_info :=
       [(lit "Linux64", [(k_productDir, Some (lit "Linux64/prod/1.0")); (k_ups_dir, Some s_ups);
                         (k_table_file, Some (lit "prod.table"))]);
        (lit "Darwin", [(k_productDir, Some (lit "Darwin/prod/1.0")); (k_ups_dir, Some s_ups);
                        (k_table_file, Some (lit "prod.table"))])] |}.

Lemma ex_vls_read : vf_read None None ex_vls = Ok ex_vrec.
Proof. vm_compute. reflexivity. Qed.

Definition tagged_in (d : str) (cs : res chaindirs) : list (option str) :=
  match cs with
  | Ok m => match alookup d m with
            | Some ls => match cf_read None None ls with
                         | Ok c => map (fun f => cf_get_version f c) [lit "Linux64"; lit "Darwin"]
                         | Err _ => []
                         end
            | None => []
            end
  | Err _ => []
  end.

(* a user tag assigned to Linux64, then to Darwin, kept in the user's tag directory: both flavors read
   back the version; a variant of assignTag that read the chain file of the product's own database and
   wrote the result into the user's directory would lose the first flavor's entry *)
Example assign_elsewhere_computed :
  let asg f cs := db_assign_tag_in (lit "W") (lit "T") (lit "prod") (lit "mine") (lit "1.0") (Some [f])
                    (Some ex_vls) (lit "/s/ups_db/prod") true (Some (lit "/u/tags/prod")) None cs in
  let bad f cs := db_assign_tag_at (lit "W") (lit "T") (lit "prod") (lit "mine") (lit "1.0") (Some [f])
                    (Some ex_vls) (lit "/s/ups_db/prod") (lit "/u/tags/prod") cs in
  tagged_in (lit "/u/tags/prod") (bind (asg (lit "Linux64") []) (asg (lit "Darwin")))
    = [Some (lit "1.0"); Some (lit "1.0")] /\
  tagged_in (lit "/s/ups_db/prod") (bind (asg (lit "Linux64") []) (asg (lit "Darwin"))) = [] /\
  tagged_in (lit "/u/tags/prod") (bind (bad (lit "Linux64") []) (bad (lit "Darwin")))
    = [None; Some (lit "1.0")].
Proof.
  cbv zeta. unfold db_assign_tag_in, db_assign_tag_at, db_assign_tag. rewrite !ex_vls_read.
  repeat apply conj; vm_compute; reflexivity.
Qed.

Example sibling_computed :
  subpath_abs (lit "/x/stack2/Linux64/p/1.0") (lit "/x/stack") = false /\
  subpath_abs (lit "/x/stack-extras/p/1.0") (lit "/x/stack") = false /\
  subpath_abs (lit "/x/stack/Linux64/p/1.0") (lit "/x/stack") = true.
Proof. repeat apply conj; vm_compute; reflexivity. Qed.
