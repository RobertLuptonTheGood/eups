(* C06 - The database reflects exactly the history of declare / undeclare / tag operations.
   Property theorems; the proofs rest on Proofs/Db*.v.

   Reading guide.  [db] is the files of the stacks on EUPS_PATH, [step d o] runs one command
   (Ok d' or Err class), [run p d ops] a history (a command that raises changes nothing).
   [view d] is what a fresh reader sees: [a_decl (view d) s n v f = db_decl d s n v f] is the
   (directory, table) of product n version v flavor f in stack s, [a_tag] / [db_tag] the version
   a tag names.  [astep] / [arun] are the abstract specification: the same decisions, each
   record-level action a one-line update of the two finite maps.  [aeq] = same path and the
   same answer to every lookup.  The flag p selects the tag move of Eups.declare:
   false = the repaired code (assign first, then unassign in the other stacks, looked up per stack),
   true = the pinned tree (unassign every occurrence merged across stacks, then assign: D14, D20).
   [step] = [step_gen false]. *)
From Eupsv Require Import Base.Base Base.BaseLemmas Model.Db Proofs.DbLib Proofs.Db Proofs.DbSim Proofs.DbInv Proofs.DbCor.
From Eupsv Require Import Model.DbExt Proofs.DbExt.

(* one command: the files afterwards show exactly what the abstract transition yields, and
   the command raises exactly when the specification does (both variants of the tag move) *)
Theorem refinement_step p d o :
  (forall d', step_gen p d o = Ok d' -> exists a', astep_gen p (view d) o = Ok a' /\ aeq (view d') a') /\
  (forall e, step_gen p d o = Err e <-> astep_gen p (view d) o = Err e).
Proof. split; [apply step_refines|intro e; apply step_err_iff]. Qed.
Print Assumptions refinement_step.

Theorem refinement_history p d ops : aeq (view (run p d ops)) (arun p (view d) ops).
Proof.
  unfold run, arun. revert d. induction ops as [|o ops IH]; intro d; cbn [fold_left]; [apply aeq_refl|].
  eapply aeq_trans; [apply IH|]. apply (arun_aeq p ops). apply step_total_refines.
Qed.
Print Assumptions refinement_history.

(* the abstract transitions only depend on what lookups answer *)
Theorem spec_respects_lookups p a b ops : aeq a b -> aeq (arun p a ops) (arun p b ops).
Proof. apply arun_aeq. Qed.
Print Assumptions spec_respects_lookups.

(* a declaration with explicit directory and table, new or forced, is found by a fresh reader
   with exactly that directory and table *)
Theorem declared_is_found d o n v dir tb t tg d' :
  declare_target (view d) o = Some tg -> has_stack d tg = true ->
  o_noaction o = false ->
  (o_force o = true \/ db_decl d tg n v (o_flavor o) = None) ->
  step d (Declare o n v (Some dir) (Some tb) t) = Ok d' ->
  a_decl (view d') tg n v (o_flavor o) = Some (dir, tb) /\
  find_exact (view d') (map fst d') n v (o_flavor o) <> None.
Proof.
  intros Ht Hs Hn Hc H.
  assert (Hf : a_decl (view d') tg n v (o_flavor o) = Some (dir, tb)).
  { rewrite a_decl_view. apply (declare_given_recorded false d o n v dir (Some tb) t tg d' Ht Hs Hn); auto. left. discriminate. }
  split; [exact Hf|].
  destruct (find_exact (view d') (map fst d') n v (o_flavor o)) eqn:E; [discriminate|].
  rewrite (find_exact_none _ _ _ _ _ tg E) in Hf; [discriminate|]. apply (step_keeps_stack _ _ _ _ _ H Hs).
Qed.
Print Assumptions declared_is_found.

(* the same with the default table file productDir/ups/product.table *)
Theorem declared_is_found_default_table d o n v dir tg d' :
  declare_target (view d) o = Some tg -> has_stack d tg = true ->
  o_noaction o = false ->
  (o_force o = true \/ db_decl d tg n v (o_flavor o) = None) ->
  step d (Declare o n v (Some dir) None None) = Ok d' ->
  a_decl (view d') tg n v (o_flavor o) = Some (dir, default_table dir n).
Proof.
  intros Ht Hs Hn Hc H. rewrite a_decl_view.
  apply (declare_given_recorded false d o n v dir None None tg d' Ht Hs Hn); auto.
Qed.
Print Assumptions declared_is_found_default_table.

(* DESIGN section 7 item 6: the rule of the code is -- no version of the product can be found
   (by the invoking flavor or its fallback, in any stack) -- not -- ever declared *)
Theorem first_version_current d o n v dir tb tg d' :
  no_dangling (view d) ->
  declare_target (view d) o = Some tg -> has_stack d tg = true ->
  o_noaction o = false ->
  findable (view d) n (fallbacks (o_flavor o)) = false ->
  step d (Declare o n v (Some dir) (Some tb) None) = Ok d' ->
  db_tag d' tg n current (o_flavor o) = Some v /\
  find_tagged (view d') (map fst d') n current (o_flavor o) = Some (tg, v).
Proof.
  intros Hnd Ht Hs Hn Hf H. unfold step in H.
  destruct (declare_given_step _ _ _ _ _ _ (Some tb) _ _ _ Ht Hs Hn (or_intror eq_refl) H) as [acts [Hfin Ed]].
  pose proof (finish_tags _ _ _ _ _ _ Hnd Hfin Hs) as Hd. rewrite <- Ed in Hd.
  unfold plan_tag in Hd. rewrite Hf in Hd. cbn [dp_tag dp_target] in Hd.
  assert (Ha : forall s, db_tag d' s n current (o_flavor o) = if str_eqb s tg then Some v else None).
  { intro s. rewrite Hd, !str_eqb_refl. reflexivity. }
  split; [rewrite Ha, str_eqb_refl; reflexivity|].
  apply (find_tagged_only _ _ _ _ _ _ (step_no_dangling _ _ _ _ Hnd H) (step_keeps_stack _ _ _ _ _ H Hs) Ha).
Qed.
Print Assumptions first_version_current.

(* when some version can be found and no tag is asked for, no tag changes *)
Theorem later_version_assigns_no_tag d o n v dir tb tg d' :
  no_dangling (view d) ->
  declare_target (view d) o = Some tg -> has_stack d tg = true ->
  o_noaction o = false ->
  findable (view d) n (fallbacks (o_flavor o)) = true ->
  step d (Declare o n v (Some dir) (Some tb) None) = Ok d' ->
  forall s n' t f, db_tag d' s n' t f = db_tag d s n' t f.
Proof.
  intros Hnd Ht Hs Hn Hf H. unfold step in H.
  destruct (declare_given_step _ _ _ _ _ _ (Some tb) _ _ _ Ht Hs Hn (or_intror eq_refl) H) as [acts [Hfin Ed]].
  pose proof (finish_tags _ _ _ _ _ _ Hnd Hfin Hs) as Hd. rewrite <- Ed in Hd.
  unfold plan_tag in Hd. rewrite Hf in Hd. exact Hd.
Qed.
Print Assumptions later_version_assigns_no_tag.

(* assignTag: within the stack where the version is found the tag now names that version (the
   map is functional by construction: one version per stack, product, tag and flavor), every
   other assignment and every declaration is as before *)
Theorem assign_tag_functional d o t n v d' :
  step d (AssignTag o t n v) = Ok d' ->
  exists s', db_decl d s' n v (o_flavor o) <> None /\
    db_tag d' s' n t (o_flavor o) = Some v /\
    (forall s n' t' f', (s, n', t', f') <> (s', n, t, o_flavor o) -> db_tag d' s n' t' f' = db_tag d s n' t' f') /\
    (forall s n' v' f', db_decl d' s n' v' f' = db_decl d s n' v' f').
Proof.
  intro H. destruct (assign_step _ _ _ _ _ _ _ H) as [s' [r [Hf [Hd Ht]]]]. exists s'.
  apply find_exact_some in Hf. destruct Hf as [_ Hf]. rewrite a_decl_view in Hf.
  split; [congruence|]. split; [rewrite Ht, dkey_eqb_refl; reflexivity|]. split; [|exact Hd].
  intros s n' t' f' N. rewrite Ht. rewrite (geqb_neq dkey_eqb dkey_eqb_eq _ _ N). reflexivity.
Qed.
Print Assumptions assign_tag_functional.

(* declare with a tag moves it: afterwards the tag names the declared version in the target
   stack and is assigned in no other stack, so resolving it on the path yields the version it
   was last assigned to; no other tag, product or flavor is touched.  (The tag is assigned in
   the target stack first and then removed from every other stack that has it, looked up per
   stack; the pinned tree fails this, see tag_functional_and_moves_refuted_pinned.) *)
Theorem tag_functional_and_moves d o n v dir table x d' :
  no_dangling (view d) ->
  o_noaction o = false ->
  step d (Declare o n v dir table (Some x)) = Ok d' ->
  exists tg, has_stack d tg = true /\
    (forall s, db_tag d' s n x (o_flavor o) = if str_eqb s tg then Some v else None) /\
    find_tagged (view d') (map fst d') n x (o_flavor o) = Some (tg, v) /\
    (forall s n' t' f', (n', t', f') <> (n, x, o_flavor o) -> db_tag d' s n' t' f' = db_tag d s n' t' f').
Proof.
  intros Hnd Hn H. unfold step in H.
  destruct (declare_step _ _ _ _ _ _ _ _ _ Hn H) as [pl [acts [Hp [Hfin [Hs' Ed]]]]].
  pose proof (finish_tags _ _ _ _ _ _ Hnd Hfin Hs') as Hd. rewrite <- Ed in Hd.
  rewrite (declare_plan_tag _ _ _ _ _ _ _ _ Hp) in Hd.
  destruct (declare_plan_target _ _ _ _ _ _ _ _ Hp) as [Hm _].
  pose proof (proj1 (view_target_has_stack d _) Hm) as Hs.
  exists (dp_target pl). split; [exact Hs|].
  assert (Ha : forall s, db_tag d' s n x (o_flavor o) = if str_eqb s (dp_target pl) then Some v else None).
  { intro s. rewrite Hd, !str_eqb_refl. reflexivity. }
  split; [exact Ha|]. split.
  - apply (find_tagged_only _ _ _ _ _ _ (step_no_dangling _ _ _ _ Hnd H) (step_keeps_stack _ _ _ _ _ H Hs) Ha).
  - intros s n' t' f' N. rewrite Hd.
    destruct (str_eqb_spec n' n) as [->|]; cbn [andb]; [|reflexivity].
    destruct (str_eqb_spec t' x) as [->|]; cbn [andb]; [|reflexivity].
    destruct (str_eqb_spec f' (o_flavor o)) as [->|]; cbn [andb]; [|reflexivity].
    congruence.
Qed.
Print Assumptions tag_functional_and_moves.

Definition s1 := lit "s1".
Definition s2 := lit "s2".
Definition linux := lit "Linux64".
Definition o_in (s : str) : opts := mkOpts linux (Some s) false false.
Definition o_any : opts := mkOpts linux None false false.
Definition d14_history : list op :=
  [ Declare (o_in s2) (lit "a") (lit "2") (Some (lit "/p/a2")) None (Some current);
    Declare (o_in s1) (lit "a") (lit "2") (Some (lit "/p/a2")) None (Some current) ].

(* D14 on the pinned tree: the same version declared in two stacks, both tagged; the second
   declare leaves the tag assigned in the other stack, and after undeclare --tag the tag
   still resolves *)
Theorem tag_functional_and_moves_refuted_pinned :
  let d := run true (empty_db [s1; s2]) d14_history in
  db_tag d s2 (lit "a") current linux = Some (lit "2") /\
  db_tag d s1 (lit "a") current linux = Some (lit "2") /\
  let d' := run true d [UndeclareTag o_any (lit "a") None current false] in
  find_tagged (view d') [s1; s2] (lit "a") current linux = Some (s2, lit "2").
Proof. vm_compute. auto. Qed.
Print Assumptions tag_functional_and_moves_refuted_pinned.

(* the same history with the repaired tag move *)
Example tag_moves_d14_repaired :
  let d := run false (empty_db [s1; s2]) d14_history in
  db_tag d s2 (lit "a") current linux = None /\
  db_tag d s1 (lit "a") current linux = Some (lit "2") /\
  let d' := run false d [UndeclareTag o_any (lit "a") None current false] in
  find_tagged (view d') [s1; s2] (lit "a") current linux = None.
Proof. vm_compute. auto. Qed.

(* undeclare removes exactly the declaration it settles on, and exactly the tags of that
   stack, product and flavor that name the version; everything else is as before *)
Theorem undeclare_removes_version_and_its_tags p d o n vo d' :
  o_noaction o = false ->
  step_gen p d (Undeclare o n vo) = Ok d' ->
  exists s' v,
    undeclare_target (view d) o n vo = Ok (s', v) /\
    db_decl d s' n v (o_flavor o) <> None /\
    db_decl d' s' n v (o_flavor o) = None /\
    (forall t, db_tag d' s' n t (o_flavor o) <> Some v) /\
    (forall s n' v' f', (s, n', v', f') <> (s', n, v, o_flavor o) -> db_decl d' s n' v' f' = db_decl d s n' v' f') /\
    (forall s n' t f', ~ (s = s' /\ n' = n /\ f' = o_flavor o /\ db_tag d s n' t f' = Some v) ->
                       db_tag d' s n' t f' = db_tag d s n' t f').
Proof.
  intros Hn H. destruct (undeclare_step _ _ _ _ _ _ Hn H) as [s' [v [r [Ht [Hr [Hd Hg]]]]]].
  exists s', v. split; [exact Ht|]. split; [congruence|].
  split; [rewrite Hd, dkey_eqb_refl; reflexivity|]. split; [|split].
  - intro t. rewrite Hg, !str_eqb_refl. cbn [andb].
    destruct (opt_str_eqb (db_tag d s' n t (o_flavor o)) v) eqn:E; [discriminate|].
    intro E2. rewrite (proj2 (opt_str_eqb_true _ _) E2) in E. discriminate.
  - intros s n' v' f' N. rewrite Hd, (geqb_neq dkey_eqb dkey_eqb_eq _ _ N). reflexivity.
  - intros s n' t f' N. rewrite Hg.
    destruct (str_eqb s s' && str_eqb n' n && str_eqb f' (o_flavor o) && opt_str_eqb (db_tag d s n' t f') v) eqn:E;
      [|reflexivity].
    exfalso. apply N.
    destruct (andb4_true _ _ _ _ E) as [E1 [E2 [E3 E4]]]. apply str_eqb_eq in E1, E2, E3.
    apply opt_str_eqb_true in E4. auto.
Qed.
Print Assumptions undeclare_removes_version_and_its_tags.

(* eups remove is undeclare of that version searched on the whole path (the database part) *)
Theorem remove_is_undeclare_on_path p d o n v :
  step_gen p d (Remove o n v) = step_gen p d (Undeclare (mkOpts (o_flavor o) None (o_force o) (o_noaction o)) n (Some v)).
Proof. unfold step_gen, effects_gen. cbn [decide]. rewrite remove_is_undeclare. reflexivity. Qed.
Print Assumptions remove_is_undeclare_on_path.

(* over every history from the empty database (either variant of the tag move): no tag names
   a version that is not declared for that stack, product and flavor *)
Theorem no_dangling_tag p path ops :
  let d := run p (empty_db path) ops in
  forall s n t f v, db_tag d s n t f = Some v -> db_decl d s n v f <> None.
Proof.
  cbv zeta. apply no_dangling_db. apply run_no_dangling. apply no_dangling_empty.
Qed.
Print Assumptions no_dangling_tag.

(* it is inductive: kept by every command from any database that has it *)
Theorem no_dangling_tag_inductive p d o : no_dangling (view d) -> no_dangling (view (step_total p d o)).
Proof. apply step_total_no_dangling. Qed.
Print Assumptions no_dangling_tag_inductive.

(* no command touches a declaration or a tag of another product or of another flavor *)
Theorem frame p d o d' :
  step_gen p d o = Ok d' ->
  forall s n k f, (n, f) <> (op_name o, o_flavor (op_opts o)) ->
  db_decl d' s n k f = db_decl d s n k f /\ db_tag d' s n k f = db_tag d s n k f.
Proof.
  intro H. destruct (step_gen_ok _ _ _ _ H) as [acts [Hd ->]]. apply acts_frame_nf. apply (decide_scope _ _ _ _ Hd).
Qed.
Print Assumptions frame.

(* every command but declare works in a single stack *)
Theorem frame_stacks p d o d' :
  is_declare o = false -> step_gen p d o = Ok d' ->
  exists s0, forall s n k f, s <> s0 ->
  db_decl d' s n k f = db_decl d s n k f /\ db_tag d' s n k f = db_tag d s n k f.
Proof.
  intros Hn H. destruct (step_gen_ok _ _ _ _ H) as [acts [Hd ->]].
  destruct (decide_one_stack _ _ _ _ Hn Hd) as [s0 Hs]. exists s0. intros s n k f N.
  rewrite compile_all_decl, compile_all_tag, <- a_decl_view, <- a_tag_view.
  apply (aapply_all_frame_stack acts s0 Hs). exact N.
Qed.
Print Assumptions frame_stacks.

(* declare changes at most the one declaration it names (other versions and other stacks
   keep theirs), and only assignments of the one tag it assigns *)
Theorem frame_declare d o n v dir table t d' :
  no_dangling (view d) -> o_noaction o = false ->
  step d (Declare o n v dir table t) = Ok d' ->
  exists pl, declare_plan (view d) o n v dir table t = Ok pl /\
    (forall s n' v' f', (s, n', v', f') <> (dp_target pl, n, v, o_flavor o) -> db_decl d' s n' v' f' = db_decl d s n' v' f') /\
    (forall s n' t' f', dp_tag pl <> Some t' -> db_tag d' s n' t' f' = db_tag d s n' t' f').
Proof.
  intros Hnd Hn H. unfold step in H.
  destruct (declare_step _ _ _ _ _ _ _ _ _ Hn H) as [pl [acts [Hp [Hf [Hs ->]]]]].
  pose proof (finish_tags _ _ _ _ _ _ Hnd Hf Hs) as Hg.
  exists pl. split; [exact Hp|]. split.
  - intros s n' v' f' N. rewrite (finish_decls _ _ _ _ _ _ _ Hf Hs), (geqb_neq dkey_eqb dkey_eqb_eq _ _ N), andb_false_r. reflexivity.
  - intros s n' t' f' N. rewrite Hg. destruct (dp_tag pl) as [x|]; [|reflexivity].
    destruct (str_eqb_spec t' x) as [->|]; [congruence|]. rewrite andb_false_r. reflexivity.
Qed.
Print Assumptions frame_declare.

(* a command that raises has changed nothing (in the model every exception of the modelled
   commands is raised before the first write; the correspondence check compares the files) *)
Theorem refused_changes_nothing p d o e : effects_gen p d o = Err e -> step_total p d o = d.
Proof. apply step_total_err. Qed.
Print Assumptions refused_changes_nothing.

(* declare can only raise while it is still settling its arguments (declare_plan reads, it does
   not write): once the first record is written the command runs to completion *)
Theorem declare_raises_before_writing p d o n v dir table t e :
  effects_gen p d (Declare o n v dir table t) = Err e ->
  declare_plan (view d) o n v dir table t = Err e.
Proof.
  unfold effects_gen. destruct (decide p (view d) (Declare o n v dir table t)) eqn:E; [discriminate|].
  intro H. inversion H. subst. apply (declare_error_is_planning_error _ _ _ _ _ _ _ _ _ E).
Qed.
Print Assumptions declare_raises_before_writing.

(* a conflicting redeclaration (other directory or table) without force and without a tag is refused *)
Theorem conflicting_redeclaration_refused p d o n v dir tb tg r' :
  declare_target (view d) o = Some tg ->
  db_decl d tg n v (o_flavor o) = Some r' -> r' <> (dir, tb) ->
  o_force o = false ->
  effects_gen p d (Declare o n v (Some dir) (Some tb) None) = Err Refused /\
  step_total p d (Declare o n v (Some dir) (Some tb) None) = d.
Proof.
  intros Ht Hd N Hf.
  pose proof (proj2 (view_target_has_stack d tg) (db_decl_has_stack _ _ _ _ _ _ Hd)) as Hm.
  assert (E : effects_gen p d (Declare o n v (Some dir) (Some tb) None) = Err Refused).
  { unfold effects_gen. cbn [decide]. unfold declare_acts.
    rewrite (plan_given _ _ _ _ _ _ _ _ Ht Hm) by (left; discriminate). unfold redeclare, plan_tag.
    rewrite <- a_decl_view in Hd. rewrite Hd, Hf, (decl_findable _ _ _ _ _ _ Hm Hd).
    destruct (vrec_eqb (dir, tb) r') eqn:Ev; [|reflexivity].
    apply vrec_eqb_eq in Ev. congruence. }
  split; [exact E|]. apply (step_total_err _ _ _ _ E).
Qed.
Print Assumptions conflicting_redeclaration_refused.

(* with a tag, a conflicting redeclaration without force only assigns the tag: the declaration stays *)
Theorem conflicting_redeclaration_with_tag_keeps_declaration p d o n v dir tb x tg r' d' :
  declare_target (view d) o = Some tg ->
  db_decl d tg n v (o_flavor o) = Some r' -> r' <> (dir, tb) ->
  o_force o = false -> o_noaction o = false ->
  step_gen p d (Declare o n v (Some dir) (Some tb) (Some x)) = Ok d' ->
  forall s n' v' f', db_decl d' s n' v' f' = db_decl d s n' v' f'.
Proof.
  intros Ht Hd N Hf Hn H.
  pose proof (db_decl_has_stack _ _ _ _ _ _ Hd) as Hs.
  assert (Hg : Some tb <> None \/ Some x = None) by (left; discriminate).
  destruct (declare_given_step _ _ _ _ _ _ _ _ _ _ Ht Hs Hn Hg H) as [acts [Hq ->]].
  intros. rewrite (finish_decls _ _ _ _ _ _ _ Hq Hs). cbn [dp_write]. rewrite Hd, Hf. reflexivity.
Qed.
Print Assumptions conflicting_redeclaration_with_tag_keeps_declaration.

(* dry run: with noaction every command except Eups.assignTag (which never looks at the flag)
   performs no effect at all *)
Theorem noaction_changes_nothing p d o d' :
  o_noaction (op_opts o) = true -> is_assign o = false ->
  step_gen p d o = Ok d' -> effects_gen p d o = Ok [] /\ d' = d.
Proof. apply noaction_step. Qed.
Print Assumptions noaction_changes_nothing.

Definition darwin := lit "Darwin".
Definition ex_history : list op :=
  [ Declare o_any (lit "a") (lit "1") (Some (lit "/p/a1")) None None;
    Declare (mkOpts darwin None false false) (lit "a") (lit "1") (Some (lit "/p/a1d")) None None;
    Declare (o_in s2) (lit "a") (lit "2") (Some (lit "/p/a2")) None (Some (lit "stable"));
    AssignTag o_any (lit "stable") (lit "a") (lit "1");
    Undeclare (mkOpts darwin None false false) (lit "a") None ].

(* a reachable, non-trivial database: two stacks, two flavors sharing a version file, tags *)
Example ex_state :
  let d := run false (empty_db [s1; s2]) ex_history in
  adecls (view d) = [ ((s1, lit "a", lit "1", linux), (lit "/p/a1", lit "/p/a1/ups/a.table"));
                      ((s2, lit "a", lit "2", linux), (lit "/p/a2", lit "/p/a2/ups/a.table")) ] /\
  atags (view d) = [ ((s1, lit "a", current, linux), lit "1");
                     ((s1, lit "a", lit "stable", linux), lit "1");
                     ((s2, lit "a", lit "stable", linux), lit "2") ] /\
  listing d = [ (s1, ([lit "a"], [(lit "a", lit "1")], [(lit "a", current); (lit "a", lit "stable")]));
                (s2, ([lit "a"], [(lit "a", lit "2")], [(lit "a", lit "stable")])) ].
Proof. vm_compute. auto. Qed.

(* the effects of one undeclare, in the order the code performs them: tags first, then the
   version block, then the directory; and of a first declaration: Database.declare writes the
   chain file of the tag the product carries, Eups.assignTag writes it again (same content) *)
Example ex_effects :
  let d := run false (empty_db [s1]) [Declare o_any (lit "a") (lit "1") (Some (lit "/p/a1")) None (Some (lit "stable"))] in
  effects d (Undeclare o_any (lit "a") (Some (lit "1"))) =
  Ok [ RemoveC s1 (lit "a", lit "stable"); RemoveV s1 (lit "a", lit "1"); Rmdir s1 (lit "a") ] /\
  effects (empty_db [s1]) (Declare o_any (lit "a") (lit "1") (Some (lit "/p/a1")) None None) =
  Ok [ Mkdir s1 (lit "a");
       WriteV s1 (lit "a", lit "1") [(linux, (lit "/p/a1", lit "/p/a1/ups/a.table"))];
       WriteC s1 (lit "a", current) [(linux, lit "1")];
       WriteC s1 (lit "a", current) [(linux, lit "1")] ].
Proof. vm_compute. auto. Qed.

(* a tag move across two stacks, in the order the code performs it: current names a 1 in s1 and in s2;
   declare a 2 -t current in s1 rewrites the chain file of s1 once (the tag is at no time unassigned there)
   and then removes the tag from s2.  The pinned tree removed first, then wrote, and left s2 alone (D20, D14) *)
Definition ex_move_history : list op :=
  [ Declare (o_in s1) (lit "a") (lit "1") (Some (lit "/p/a1")) None (Some current);
    Declare (o_in s2) (lit "a") (lit "1") (Some (lit "/p/a1")) None None;
    AssignTag (o_in s2) current (lit "a") (lit "1");
    Declare (o_in s1) (lit "a") (lit "2") (Some (lit "/p/a2")) None None ].

Example ex_tag_move_effects :
  let d := run false (empty_db [s1; s2]) ex_move_history in
  let move := Declare (o_in s1) (lit "a") (lit "2") None None (Some current) in
  db_tag d s1 (lit "a") current linux = Some (lit "1") /\ db_tag d s2 (lit "a") current linux = Some (lit "1") /\
  effects d move = Ok [ WriteC s1 (lit "a", current) [(linux, lit "2")]; RemoveC s2 (lit "a", current) ] /\
  effects_pinned d move = Ok [ RemoveC s1 (lit "a", current); WriteC s1 (lit "a", current) [(linux, lit "2")] ].
Proof. vm_compute. auto. Qed.

Example ex_conflict_hypotheses :
  let d := run false (empty_db [s1; s2]) ex_history in
  declare_target (view d) o_any = Some s1 /\
  db_decl d s1 (lit "a") (lit "1") linux = Some (lit "/p/a1", lit "/p/a1/ups/a.table") /\
  no_dangling (view d).
Proof.
  split; [vm_compute; reflexivity|]. split; [vm_compute; reflexivity|].
  apply run_no_dangling. apply no_dangling_empty.
Qed.

(* ================================================================ the extended declaration
   Model/DbExt.v: table files with text (compared by content), tablefile none, tables handed over
   as a stream and external files (copied below ups_db/<flavor>/<product>/<version>), the choice of
   the target stack (-Z, home stack of the product directory, read-only stacks).  [xdb] = records
   and copies, [xstep e x o] one command under the environment e (read-only stacks, texts of the
   files outside the databases), [xrun] a history.  Every other command is that of Db.v. *)

(* one command of the extended model: the records afterwards show what the abstract transition
   yields, the copies are the same map, and it raises exactly when the specification does *)
Theorem ext_refinement_step e x o :
  (forall x', xstep e x o = Ok x' ->
     exists y', xastep e (xview x) o = Ok y' /\ aeq (view (xd x')) (xa y') /\ xfiles x' = xafiles y') /\
  (forall k, xstep e x o = Err k <-> xastep e (xview x) o = Err k).
Proof.
  unfold xstep, xastep, xview. cbn [xa xafiles].
  destruct (xdecide e (view (xd x)) (xfiles x) o) as [[acts cs]|k].
  - split; [|split; discriminate]. intros x' [= <-]. eexists. split; [reflexivity|].
    split; [apply compile_all_refines|reflexivity].
  - split; [discriminate|split; congruence].
Qed.
Print Assumptions ext_refinement_step.

(* the invariant over every extended history from the empty database *)
Theorem ext_no_dangling_tag e path os :
  let d := xd (xrun e (xempty path) os) in
  forall s n t f v, db_tag d s n t f = Some v -> db_decl d s n v f <> None.
Proof. cbv zeta. apply no_dangling_db. apply xrun_no_dangling. apply no_dangling_empty. Qed.
Print Assumptions ext_no_dangling_tag.

Theorem ext_frame e x o x' :
  xstep e x o = Ok x' ->
  forall s n k f, (n, f) <> xop_nf o ->
  db_decl (xd x') s n k f = db_decl (xd x) s n k f /\ db_tag (xd x') s n k f = db_tag (xd x) s n k f.
Proof.
  intro H. destruct (xstep_ok _ _ _ _ H) as [acts [cs [Hd ->]]]. apply acts_frame_nf.
  apply (xdecide_acts _ _ _ _ _ _ Hd).
Qed.
Print Assumptions ext_frame.

(* a declaration writes copies below its own directory ups_db/<flavor>/<product>/<version> of the
   target stack only; the copies kept with every other declaration are as before *)
Theorem ext_frame_files e x o n v dir tb t ext x' :
  xstep e x (XDeclare o n v dir tb t ext) = Ok x' ->
  o_noaction o = true /\ xfiles x' = xfiles x \/
  exists p, xdeclare_plan e (view (xd x)) (xfiles x) o n v dir tb t ext = Ok p /\
    forall q, starts_with (extra_dir (dp_target (xp_plan p)) (o_flavor o) n v ++ slash) q = false ->
              alookup q (xfiles x') = alookup q (xfiles x).
Proof.
  intro H. destruct (o_noaction o) eqn:En.
  - left. destruct (xstep_ok _ _ _ _ H) as [acts [cs [Hd ->]]]. cbn [xdecide] in Hd.
    destruct (xdeclare_plan e (view (xd x)) (xfiles x) o n v dir tb t ext); [|discriminate].
    rewrite En in Hd. inversion Hd. auto.
  - right. destruct (xdeclare_step _ _ _ _ _ _ _ _ _ _ En H) as [p [acts [Hp [_ [_ ->]]]]].
    exists p. split; [exact Hp|].
    destruct (xdeclare_plan_ok _ _ _ _ _ _ _ _ _ _ _ Hp) as [d rd tg tn fu tc ec _ _ _ _ _].
    cbn [xp_plan xp_copies dp_target xfiles]. intros q Hq. apply write_files_other. intros c Hin.
    apply in_map_iff in Hin. destruct Hin as [c0 [<- _]]. cbn [fst]. intro E. subst q.
    rewrite app_assoc, starts_with_refl in Hq. discriminate.
Qed.
Print Assumptions ext_frame_files.

(* the code as it is: undeclare, remove and the tag commands leave every copy where it is *)
Theorem ext_other_commands_keep_files e x y x' : xstep e x (XOld y) = Ok x' -> xfiles x' = xfiles x.
Proof.
  intro H. destruct (xstep_ok _ _ _ _ H) as [acts [cs [Hd ->]]]. cbn [xdecide] in Hd.
  destruct (ro_refuses e y); [discriminate|]. destruct (decide false (view (xd x)) y); [|discriminate].
  inversion Hd. reflexivity.
Qed.
Print Assumptions ext_other_commands_keep_files.

(* what the table argument is recorded as *)
Definition table_named (xf' : amap str) (tg f n v d : str) (tb : tspec) (tname : str) : Prop :=
  match tb with
  | TNone => tname = none_s
  | TDefault => tname = default_table d n
  | TPath p => is_subpath p (extra_dir tg f n v) = false -> tname = p
  | TStream text => tname = interned_table tg f n v /\ alookup tname xf' = Some (intern_text text)
  end.

(* declared is found, for the extended declaration: a new or a FORCED declaration with an explicit
   directory is found in the target stack with that directory and with the table file it was given --
   the path, none, the default table, or the copy of the stream, whose text is there -- whatever was
   declared before, in particular when only the table path changed and the text did not *)
Theorem ext_declared_is_found e x o n v d tb t ext x' :
  o_noaction o = false ->
  (tspec_given tb = true \/ t = None) ->
  xstep e x (XDeclare o n v (Some d) tb t ext) = Ok x' ->
  exists rd tg tname,
    xtarget e (map fst (xd x)) o d = Ok (rd, tg) /\
    ((o_force o = true \/ db_decl (xd x) rd n v (o_flavor o) = None) ->
     db_decl (xd x') tg n v (o_flavor o) = Some (d, tname) /\
     table_named (xfiles x') tg (o_flavor o) n v d tb tname).
Proof.
  intros Hn Hg H. destruct (xdeclare_step _ _ _ _ _ _ _ _ _ _ Hn H) as [p [acts [Hp [Hf [Hs ->]]]]].
  cbn [xd xfiles]. pose proof (finish_decls _ _ _ _ _ _ _ Hf Hs) as Hd.
  destruct (xdeclare_plan_ok _ _ _ _ _ _ _ _ _ _ _ Hp) as [d' rd tg tname full tc ec Hdir Ht Hrt _ _].
  injection Hdir as <-. rewrite (xplan_table_given _ _ _ _ _ _ _ _ Hg) in Hrt. rewrite apath_view in Ht.
  cbn [xp_plan xp_copies dp_write dp_target dp_dir dp_table] in *.
  exists rd, tg, tname. split; [exact Ht|]. intro Hc. rewrite <- a_decl_view in Hc. split.
  - rewrite Hd, dkey_eqb_refl.
    destruct Hc as [Hc|Hc]; rewrite Hc; [destruct (a_decl _ rd n v _)|]; reflexivity.
  - pose proof (resolve_table_named _ _ _ _ _ _ _ _ _ _ _ Hrt) as Hnm. unfold table_named.
    clear - Hnm. (* the case split on tb would carry every hypothesis that mentions it *)
    destruct tb as [|p0| |text]; try exact Hnm. destruct Hnm as [-> ->]. split; [reflexivity|].
    rewrite map_app. apply write_files_last.
Qed.
Print Assumptions ext_declared_is_found.

(* without force the record of a version that is declared never changes: the request is either no
   difference (the same directory, the same table text under whatever path, the same copies), or only
   the tag is declared, or it is refused *)
Theorem ext_unforced_redeclaration_keeps_record e x o n v d tb t ext x' rd tg :
  o_noaction o = false -> o_force o = false ->
  xtarget e (map fst (xd x)) o d = Ok (rd, tg) ->
  db_decl (xd x) rd n v (o_flavor o) <> None ->
  xstep e x (XDeclare o n v (Some d) tb t ext) = Ok x' ->
  forall s n' v' f', db_decl (xd x') s n' v' f' = db_decl (xd x) s n' v' f'.
Proof.
  intros Hn Hf Hx Hr H s n' v' f'.
  destruct (xdeclare_step _ _ _ _ _ _ _ _ _ _ Hn H) as [p [acts [Hp [Hfin [Hs ->]]]]].
  cbn [xd]. rewrite (finish_decls _ _ _ _ _ _ _ Hfin Hs).
  destruct (xdeclare_plan_ok _ _ _ _ _ _ _ _ _ _ _ Hp) as [d' rd' tg' tname full tc ec Hdir Ht _ _ _].
  injection Hdir as <-. rewrite apath_view, Hx in Ht. injection Ht as <- <-.
  cbn [xp_plan dp_write]. rewrite <- a_decl_view in Hr.
  destruct (a_decl (view (xd x)) rd n v (o_flavor o)); [rewrite Hf; reflexivity|congruence].
Qed.
Print Assumptions ext_unforced_redeclaration_keeps_record.

Theorem ext_declare_goes_to_home_stack e path o d h :
  o_stack o = None -> home_stack path d = Some h -> mem_str h (e_ro e) = false ->
  xtarget e path o d = Ok (h, h).
Proof. intros H1 H2 H3. unfold xtarget. rewrite H1, H2, H3. reflexivity. Qed.
Print Assumptions ext_declare_goes_to_home_stack.

Theorem ext_declare_goes_to_first_writable e path o d w :
  o_stack o = None -> home_stack path d = None -> first_writable (e_ro e) path = Some w ->
  xtarget e path o d = Ok (w, w) /\ In w path /\ mem_str w (e_ro e) = false.
Proof.
  intros H1 H2 H3. split; [unfold xtarget; rewrite H1, H2, H3; reflexivity|]. apply (first_writable_In _ _ _ H3).
Qed.
Print Assumptions ext_declare_goes_to_first_writable.

(* whatever the request, the record is written to a stack of the path that is not read-only *)
Theorem ext_declare_target_is_writable e x o n v dir tb t ext p :
  xdeclare_plan e (view (xd x)) (xfiles x) o n v dir tb t ext = Ok p ->
  has_stack (xd x) (dp_target (xp_plan p)) = true /\ mem_str (dp_target (xp_plan p)) (e_ro e) = false.
Proof.
  intro Hp. destruct (xdeclare_plan_target _ _ _ _ _ _ _ _ _ _ _ Hp) as [H1 H2].
  split; [apply view_target_has_stack; exact H1|exact H2].
Qed.
Print Assumptions ext_declare_target_is_writable.

(* -Z naming a read-only stack: refused, nothing changes *)
Theorem ext_declare_into_readonly_refused e x o n v d tb t ext s :
  o_stack o = Some s -> mem_str s (e_ro e) = true ->
  xstep e x (XDeclare o n v (Some d) tb t ext) = Err Refused /\
  xstep_total e x (XDeclare o n v (Some d) tb t ext) = x.
Proof.
  intros H1 H2.
  assert (E : xstep e x (XDeclare o n v (Some d) tb t ext) = Err Refused).
  { unfold xstep. cbn [xdecide]. unfold xdeclare_plan. cbv zeta. unfold xtarget. rewrite H1, H2. reflexivity. }
  split; [exact E|apply (xstep_total_err _ _ _ _ E)].
Qed.
Print Assumptions ext_declare_into_readonly_refused.

(* a command that raises has changed nothing, records and copies *)
Theorem ext_refused_changes_nothing e x o k : xstep e x o = Err k -> xstep_total e x o = x.
Proof. apply xstep_total_err. Qed.
Print Assumptions ext_refused_changes_nothing.

(* the hypotheses are inhabited: a stream declared into the second stack by home-stack inference with
   the first stack read-only, redeclared by force with tablefile none, the copy stays *)
Definition ex_env : env :=
  mkEnv [s1] [(lit "/prod/a1/ups/a.table", lit "# a"); (lit "/s2/prod/a1/ups/a.table", lit "# a")].
Definition ex_xhistory : list xop :=
  [ XDeclare o_any (lit "a") (lit "1") (Some (lit "/s2/prod/a1")) (TStream (lit "# l1" ++ ["010"%char] ++ lit "# l2")) None [];
    XDeclare (mkOpts linux None true false) (lit "a") (lit "1") (Some (lit "/s2/prod/a1")) TNone None [];
    XDeclare (mkOpts linux None false false) (lit "a") (lit "1") (Some (lit "/s2/prod/a1")) TDefault None [] ].

(* the table kept with the generic declaration, named again when only a tag is declared under a flavor
   that falls back on generic: the new declaration names that very file (before the repair it named
   ups_db/Linux64/a/1/ups/a.table, which does not exist) *)
Example ex_interned_table_of_fallback_flavor :
  let og := mkOpts generic (Some s1) false false in
  let x := xrun (mkEnv [] []) (xempty [s1; s2])
             [ XDeclare og (lit "a") (lit "1") (Some (lit "/prod/a1")) (TStream (lit "# g")) None [];
               XDeclare (o_in s1) (lit "a") (lit "1") None TDefault (Some (lit "beta")) [] ] in
  db_decl (xd x) s1 (lit "a") (lit "1") linux = Some (lit "/prod/a1", lit "/s1/ups_db/generic/a/1/ups/a.table") /\
  alookup (lit "/s1/ups_db/generic/a/1/ups/a.table") (xfiles x) = Some (lit "# g ").
Proof. vm_compute. auto. Qed.

Example ex_xstate :
  let x := xrun ex_env (xempty [s1; s2]) (firstn 2 ex_xhistory) in
  adecls (view (xd x)) = [ ((s2, lit "a", lit "1", linux), (lit "/s2/prod/a1", lit "none")) ] /\
  xfiles x = [ (lit "/s2/ups_db/Linux64/a/1/ups/a.table", lit "# l1" ++ ["010"%char; " "%char] ++ lit "# l2 ") ] /\
  xstep ex_env x (nth 2 ex_xhistory (XOld (Remove o_any [] []))) = Err Refused /\
  xstep ex_env x (XDeclare (o_in s1) (lit "a") (lit "2") (Some (lit "/prod/a1")) TDefault None []) = Err Refused.
Proof. vm_compute. auto. Qed.

(* ================================================================ tags that are not recognised
   [kstep known e x o]: the command o under the list [known] of registered global tags.  A command
   whose tag is not in the list raises (TagNotRecognized) before anything is written. *)

(* a command naming an unrecognised tag -- declare -t, assignTag, unassignTag, undeclare --tag, with
   or without force, noaction, a table stream, external files -- raises and changes nothing: no new
   version file, no new flavor block, no copy below ups_db *)
Theorem unknown_tag_refused_changes_nothing known e x o :
  unknown_tag known o = true ->
  (exists k, kstep known e x o = Err k) /\ kstep_total known e x o = x.
Proof.
  intro H. destruct (kstep_unknown known e x o H) as [H1 H2]. split; [eexists; exact H1|exact H2].
Qed.
Print Assumptions unknown_tag_refused_changes_nothing.

(* declare -t with an unrecognised tag is refused whatever else was asked for *)
Theorem unknown_tag_declare_refused known e x o n v dir tb t ext :
  mem_str t known = false ->
  kstep known e x (XDeclare o n v dir tb (Some t) ext) = Err Refused /\
  kstep_total known e x (XDeclare o n v dir tb (Some t) ext) = x.
Proof.
  intro H. assert (U : unknown_tag known (XDeclare o n v dir tb (Some t) ext) = true).
  { unfold unknown_tag. cbn [xop_tag]. rewrite H. reflexivity. }
  destruct (kstep_unknown known e x _ U) as [H1 H2]. split; [exact H1|exact H2].
Qed.
Print Assumptions unknown_tag_declare_refused.

(* the commands whose tag is recognised, and those that name no tag, are the commands of [xstep] *)
Theorem known_tag_commands_unaffected known e x o :
  unknown_tag known o = false -> kstep known e x o = xstep e x o.
Proof. intro H. apply (proj1 (kstep_known known e x o H)). Qed.
Print Assumptions known_tag_commands_unaffected.

(* ANY command that raises has changed nothing, records and copies *)
Theorem any_refused_command_changes_nothing known e x o k :
  kstep known e x o = Err k -> kstep_total known e x o = x.
Proof. unfold kstep_total. intros ->. reflexivity. Qed.
Print Assumptions any_refused_command_changes_nothing.

(* a history is worth the history in which the commands with an unrecognised tag were never typed:
   in particular the first version declared afterwards of a product still becomes current *)
Theorem history_ignores_unknown_tags known e x os :
  krun known e x os = xrun e x (recognised known os).
Proof.
  revert x. induction os as [|o os IH]; intro x; [reflexivity|].
  cbn [krun fold_left recognised filter]. fold (krun known e (kstep_total known e x o) os).
  fold (recognised known os). destruct (unknown_tag known o) eqn:E; cbn [negb].
  - rewrite (proj2 (kstep_unknown known e x o E)). apply IH.
  - cbn [xrun fold_left]. fold (xrun e (xstep_total e x o) (recognised known os)).
    rewrite (proj2 (kstep_known known e x o E)). apply IH.
Qed.
Print Assumptions history_ignores_unknown_tags.

Theorem unknown_tags_no_dangling_tag known e path os :
  let d := xd (krun known e (xempty path) os) in
  forall s n t f v, db_tag d s n t f = Some v -> db_decl d s n v f <> None.
Proof. cbv zeta. rewrite history_ignores_unknown_tags. apply ext_no_dangling_tag. Qed.
Print Assumptions unknown_tags_no_dangling_tag.

(* ================================================================ directories beside a stack
   A directory whose path merely begins with the characters of the path of a stack (/x/stack2,
   /x/stack-extras for the stack /x/stack) is not inside that stack: it is no home stack, and the
   declaration records it as it was given ([ext_declared_is_found] holds for every directory). *)
Theorem sibling_directory_is_outside_stack s c r :
  ascii_eqb "/"%char c = false -> is_subpath (stack_dir s ++ c :: r) (stack_dir s) = false.
Proof. apply is_subpath_sibling. Qed.
Print Assumptions sibling_directory_is_outside_stack.

Theorem sibling_directory_goes_to_first_writable e s path o c r w :
  ascii_eqb "/"%char c = false -> o_stack o = None ->
  home_stack path (stack_dir s ++ c :: r) = None ->
  first_writable (e_ro e) (s :: path) = Some w ->
  xtarget e (s :: path) o (stack_dir s ++ c :: r) = Ok (w, w).
Proof.
  intros Hc Ho Hh Hw. unfold xtarget. rewrite Ho. cbn [home_stack].
  rewrite (is_subpath_sibling (stack_dir s) c r Hc), Hh, Hw. reflexivity.
Qed.
Print Assumptions sibling_directory_goes_to_first_writable.

(* stacks whose names are prefixes of each other: a product inside /s12 declared into /s1 by -Z, one
   in /s1-extras declared without -Z (no home stack: first stack), then the other flavor of the first
   one declared in the shared version file, and a command with an unrecognised tag in between *)
Example ex_prefix_stacks :
  let s12 := lit "s12" in
  let e := mkEnv [] [(lit "/s12/prod/a1/ups/a.table", lit "# a"); (lit "/s1-extras/b2/ups/b.table", lit "# b");
                     (lit "/s1/prod/a1/ups/a.table", lit "# a1")] in
  let x := krun [lit "current"; lit "stable"] e (xempty [s1; s12])
             [ XDeclare (o_in s1) (lit "a") (lit "1") (Some (lit "/s12/prod/a1")) TDefault None [];
               XDeclare o_any (lit "b") (lit "2") (Some (lit "/s1-extras/b2")) TDefault None [];
               XDeclare (o_in s1) (lit "a") (lit "2") (Some (lit "/s12/prod/a1")) TDefault (Some (lit "stabel")) [];
               XDeclare (mkOpts generic (Some s1) false false) (lit "a") (lit "1") (Some (lit "/s1/prod/a1")) TDefault None [];
               XOld (AssignTag o_any (lit "nightly") (lit "a") (lit "1")) ] in
  adecls (view (xd x)) =
    [ ((s1, lit "a", lit "1", linux), (lit "/s12/prod/a1", lit "/s12/prod/a1/ups/a.table"));
      ((s1, lit "a", lit "1", generic), (lit "/s1/prod/a1", lit "/s1/prod/a1/ups/a.table"));
      ((s1, lit "b", lit "2", linux), (lit "/s1-extras/b2", lit "/s1-extras/b2/ups/b.table")) ] /\
  atags (view (xd x)) = [ ((s1, lit "a", lit "current", linux), lit "1"); ((s1, lit "a", lit "current", generic), lit "1");
                          ((s1, lit "b", lit "current", linux), lit "2") ] /\
  home_stack [s1; s12] (lit "/s12/prod/a1") = Some s12 /\ home_stack [s1; s12] (lit "/s1-extras/b2") = None.
Proof. vm_compute. auto. Qed.
