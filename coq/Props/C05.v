(* C05 - Emitted shell commands reproduce the computed environment when sourced.
   The property theorems, each a short appeal to Proofs/Shell.v or Proofs/ShellSession.v, and
   examples, in which closed terms are evaluated.

   Reading guide (definitions in Model/Shell.v):
     emit Sh is_eups fwd old new al oldal   the command list eups.app.setup builds after a
                                            successful Eups.setup: old = Eups.oldEnviron,
                                            new = os.environ, is_eups = the product is eups,
                                            fwd = setup (false: unsetup)
     render cmds                            the text setupcmd.py prints
     sh_source text e                       the specification of the shell fragment: lex the
                                            text, run export / unset / false from e
     new_after is_eups fwd new              os.environ at the end of eups.app.setup (unsetup
                                            of eups drops EUPS_PATH, EUPS_PKGROOT, EUPS_SHELL)
     protect is_eups old new'               new' plus the variables of old that vanished but
                                            that the code refuses to unset (EUPS_DIR, EUPS_PATH,
                                            EUPS_PKGROOT, EUPS_SHELL unless the product is eups)
     claim_env old new                      every changed or new value is made of path-like
                                            characters, blank, tab, newline and < > | & ; ( )
     sourced is_eups fwd old new env'       env' is the result of sourcing the emitted text
     in_claim                               the five hypotheses of emit_sound, bundled
     forget forced caller                   Eups.oldEnviron under --force
   (definitions in Model/ShellSession.v):
     front_end nv quiet cmds                (standard output, listing added to standard error) of
                                            setupcmd.EupsSetup.execute run with nv flags -v
     cli_stdout nv quiet cmds               its first component: what the shell wrapper sources
     api_session cur calls                  eups.setup / eups.unsetup called one after the other by
                                            one process without an Eups of the caller's: for each call
                                            the environment at the call and the text of its commands
     steps_sound cur steps calls            (Proofs/ShellSession.v) every step starts from the
                                            environment the previous call left, and its text sourced
                                            from there gives what the call computed
     sh_chain texts e                       one shell sourcing the texts in turn *)
From Eupsv Require Import Base.Base Base.BaseLemmas Model.Shell Model.ShellSession Proofs.ShellLib Proofs.Shell
  Proofs.ShellSession.

(* the core lemma: the emitter's quoting of a value is read back by the shell as exactly
   that value, one word *)
Theorem quote_lex v :
  claim_value v = true -> v <> [] -> sh_lex (quote_val v) = Ok [[v]].
Proof.
  intros Hc Hne. unfold sh_lex. rewrite <- (app_nil_r (quote_val v)).
  rewrite (lex_quote_val _ _ _ _ _ Hc). destruct v; [congruence|reflexivity].
Qed.
Print Assumptions quote_lex.

(* the headline: sourcing the emitted text from the old environment gives exactly the
   computed environment (as a finite map) *)
Theorem emit_sound is_eups fwd old new :
  valid_names old = true -> valid_names new = true -> nodup_keys (akeys new) = true ->
  claim_env old new = true -> gone_ok is_eups fwd old new = true ->
  exists cmds env',
    emit Sh is_eups fwd old new [] [] = Ok cmds /\
    sh_source (render cmds) old = Ok env' /\
    env_equiv env' (protect is_eups old (new_after is_eups fwd new)).
Proof.
  intros Ho Hn Hnd Hc Hg. apply emit_sound_from; [|exact (baseline_equiv _ _ _ (fun k => eq_refl))].
  unfold in_claim. rewrite Ho, Hn, Hnd, Hc, Hg. reflexivity.
Qed.
Print Assumptions emit_sound.

(* the same under --force: the baseline of the delta is the caller's environment minus the
   names the table actions made eups forget (forget forced caller), the shell starts from the
   caller's environment; sound provided every forgotten name is present in the computed
   environment (forced_ok: what the repaired envSet guarantees); forced = [] is emit_sound *)
Theorem emit_sound_forced is_eups fwd caller forced new :
  in_claim is_eups fwd (forget forced caller) new = true ->
  forced_ok forced (new_after is_eups fwd new) = true ->
  exists cmds env',
    emit Sh is_eups fwd (forget forced caller) new [] [] = Ok cmds /\
    sh_source (render cmds) caller = Ok env' /\
    env_equiv env' (protect is_eups caller (new_after is_eups fwd new)).
Proof. intros Hc Hf. exact (emit_sound_from caller _ _ _ _ Hc (baseline_forget _ _ _ Hf)). Qed.
Print Assumptions emit_sound_forced.

(* every changed or new variable is exported with its exact value *)
Corollary changed_or_new_exported is_eups fwd old new env' k v :
  in_claim is_eups fwd old new = true -> sourced is_eups fwd old new env' ->
  alookup k (new_after is_eups fwd new) = Some v -> alookup k env' = Some v.
Proof.
  intros Hc Hs Hk. rewrite (sourced_lookup _ _ _ _ _ Hc Hs k), alookup_protect, Hk. reflexivity.
Qed.
Print Assumptions changed_or_new_exported.

(* an emptied variable is exported empty, not unset *)
Corollary emptied_exported_empty is_eups fwd old new env' k :
  in_claim is_eups fwd old new = true -> sourced is_eups fwd old new env' ->
  alookup k (new_after is_eups fwd new) = Some [] -> alookup k env' = Some [].
Proof. exact (changed_or_new_exported is_eups fwd old new env' k []). Qed.
Print Assumptions emptied_exported_empty.

(* every removed variable is unset (the four protected names excepted, unless the product is eups) *)
Corollary removed_unset is_eups fwd old new env' k :
  in_claim is_eups fwd old new = true -> sourced is_eups fwd old new env' ->
  alookup k (new_after is_eups fwd new) = None -> negb is_eups && is_protected k = false ->
  alookup k env' = None.
Proof.
  intros Hc Hs Hk Hp. rewrite (sourced_lookup _ _ _ _ _ Hc Hs k), alookup_protect, Hk, Hp. reflexivity.
Qed.
Print Assumptions removed_unset.

(* what the code does for the protected names: they keep their old value in the shell *)
Corollary protected_kept is_eups fwd old new env' k :
  in_claim is_eups fwd old new = true -> sourced is_eups fwd old new env' ->
  alookup k (new_after is_eups fwd new) = None -> negb is_eups && is_protected k = true ->
  alookup k env' = alookup k old.
Proof.
  intros Hc Hs Hk Hp. rewrite (sourced_lookup _ _ _ _ _ Hc Hs k), alookup_protect, Hk, Hp. reflexivity.
Qed.
Print Assumptions protected_kept.

(* nothing else changes: a variable that eups left alone (same binding, or absent on both
   sides) is the same in the shell afterwards *)
Corollary untouched_untouched is_eups fwd old new env' k :
  in_claim is_eups fwd old new = true -> sourced is_eups fwd old new env' ->
  alookup k (new_after is_eups fwd new) = alookup k old -> alookup k env' = alookup k old.
Proof.
  intros Hc Hs Hk. rewrite (sourced_lookup _ _ _ _ _ Hc Hs k). rewrite alookup_protect. rewrite Hk.
  destruct (alookup k old); [reflexivity|]. destruct (negb is_eups && is_protected k); reflexivity.
Qed.
Print Assumptions untouched_untouched.

(* a failed setup prints the single command false; sourcing it changes nothing *)
Theorem failed_changes_nothing e : sh_source (render emit_failed) e = Ok e.
Proof. exact (Proofs.Shell.failed_changes_nothing e). Qed.
Print Assumptions failed_changes_nothing.

(* alias commands come after the environment commands and do not alter them (function
   definitions are outside the shell fragment: compared with the code textually only) *)
Theorem aliases_follow_environment is_eups fwd old new al oldal :
  exists envcmds a,
    emit Sh is_eups fwd old new [] [] = Ok envcmds /\
    emit Sh is_eups fwd old new al oldal = Ok (envcmds ++ a).
Proof.
  unfold emit. cbn [alias_sets filter map bind alias_unsets akeys]. eexists. eexists. split.
  - rewrite app_nil_r. reflexivity.
  - reflexivity.
Qed.
Print Assumptions aliases_follow_environment.

(* ---- the command-line front end, at every verbosity ---- *)

(* what EupsSetup.execute writes to standard output is the rendered command list whatever the
   number of -v flags and whether or not -q is given *)
Theorem cli_stdout_any_verbosity nv quiet cmds : cli_stdout nv quiet cmds = render cmds.
Proof. reflexivity. Qed.
Print Assumptions cli_stdout_any_verbosity.

(* the listing of the commands goes to standard error, and only above verbosity 3 *)
Theorem cli_listing_on_stderr nv quiet cmds :
  snd (front_end nv quiet cmds) = if 3 <? effective_verbose nv quiet then Some (listing cmds) else None.
Proof. reflexivity. Qed.
Print Assumptions cli_listing_on_stderr.

(* emit_sound for the standard output of the command, for all nv and quiet *)
Theorem cli_sound nv quiet is_eups fwd old new :
  valid_names old = true -> valid_names new = true -> nodup_keys (akeys new) = true ->
  claim_env old new = true -> gone_ok is_eups fwd old new = true ->
  exists cmds env',
    emit Sh is_eups fwd old new [] [] = Ok cmds /\
    sh_source (cli_stdout nv quiet cmds) old = Ok env' /\
    env_equiv env' (protect is_eups old (new_after is_eups fwd new)).
Proof. exact (emit_sound is_eups fwd old new). Qed.
Print Assumptions cli_sound.

(* ---- several calls of the python interface in one process ---- *)

(* every call's text, sourced by a shell that starts from the environment the process has at that
   call (which is the environment the previous call left), yields what that call computed; a
   failed call changes nothing *)
Theorem api_session_sound cur calls :
  session_in_claim cur calls = true ->
  exists steps, api_session cur calls = Ok steps /\ steps_sound cur steps calls.
Proof. exact (api_session_sound_lemma calls cur). Qed.
Print Assumptions api_session_sound.

(* one shell that sources the texts of all the calls in turn ends with the environment the process
   ends with, provided no call fails or removes a variable that the code refuses to unset *)
Theorem api_session_chained cur calls :
  session_in_claim cur calls = true -> session_keeps cur calls = true ->
  exists steps env',
    api_session cur calls = Ok steps /\
    sh_chain (map snd steps) cur = Ok env' /\
    env_equiv env' (session_final cur calls).
Proof. intros H K. exact (api_session_chained_lemma calls cur cur H K (fun k => eq_refl)). Qed.
Print Assumptions api_session_chained.

Definition ex_s_start : env := [(lit "HOME", lit "/root"); (lit "EUPS_PATH", lit "/s")].
Definition ex_s_set : env :=
  [(lit "HOME", lit "/root"); (lit "EUPS_PATH", lit "/s"); (lit "W_DIR", lit "/s/w (beta) 1");
   (lit "SETUP_W", lit "w 1.0 -f Linux -Z /s"); (lit "W_PATH", lit "/s/w (beta) 1/lib")].
Definition ex_s_unset : env := [(lit "HOME", lit "/root"); (lit "EUPS_PATH", lit "/s"); (lit "W_PATH", [])].
Definition ex_s_calls : list apicall := [Call false true ex_s_set [] []; Call false false ex_s_unset [] []].

(* a session through the python interface: setup, unsetup, and the texts of the two calls *)
Example ex_session :
  session_in_claim ex_s_start ex_s_calls = true /\ session_keeps ex_s_start ex_s_calls = true /\
  api_session ex_s_start ex_s_calls =
    Ok [(ex_s_start,
         lit "export W_DIR='/s/w (beta) 1';" ++ [c_nl] ++ lit "export SETUP_W='w 1.0 -f Linux -Z /s';" ++ [c_nl] ++
         lit "export W_PATH='/s/w (beta) 1/lib'" ++ [c_nl]);
        (ex_s_set,
         lit "export W_PATH=;" ++ [c_nl] ++ lit "unset W_DIR;" ++ [c_nl] ++ lit "unset SETUP_W" ++ [c_nl])] /\
  sh_chain [lit "export W_DIR='/s/w (beta) 1';" ++ [c_nl] ++ lit "export SETUP_W='w 1.0 -f Linux -Z /s';" ++ [c_nl] ++
            lit "export W_PATH='/s/w (beta) 1/lib'" ++ [c_nl];
            lit "export W_PATH=;" ++ [c_nl] ++ lit "unset W_DIR;" ++ [c_nl] ++ lit "unset SETUP_W" ++ [c_nl]] ex_s_start =
    Ok ex_s_unset.
Proof.
  apply and_keep; [vm_compute; reflexivity|intros Hc]. split; [vm_compute; reflexivity|].
  apply and_keep; [vm_compute; reflexivity|intros Ea].
  (* the texts are those of the session, so the shell ends where session_shell says *)
  apply (api_session_chain _ _ ex_s_start _ _ Hc Ea). vm_compute. reflexivity.
Qed.

(* the refreshed baseline is what this rests on: with one snapshot of the environment kept for the
   whole session (stale_session, not the code) setup followed by unsetup emits no unset for the
   variables the first call defined, and the shell keeps them *)
Theorem stale_baseline_refuted :
  session_in_claim ex_s_start ex_s_calls = true /\
  exists t1 t2 env',
    stale_session ex_s_start ex_s_start ex_s_calls = Ok [(ex_s_start, t1); (ex_s_set, t2)] /\
    sh_source t2 ex_s_set = Ok env' /\
    alookup (lit "W_DIR") env' = Some (lit "/s/w (beta) 1") /\
    alookup (lit "W_DIR") (call_shell_env ex_s_set (Call false false ex_s_unset [] [])) = None.
Proof.
  split; [exact (proj1 ex_session)|].
  edestruct (emit_sh_sourced ex_s_set false false ex_s_start ex_s_unset) as [cmds [He Hs]];
    [vm_compute; reflexivity..|].
  eexists. exists (render cmds). eexists. split; [|split; [exact Hs|split; vm_compute; reflexivity]].
  unfold ex_s_calls. cbn [stale_session call_cmds call_after]. rewrite emit_sh_noalias, He. reflexivity.
Qed.
Print Assumptions stale_baseline_refuted.

(* ---- the hypotheses are needed ---- *)

(* outside the claim alphabet the statement is false of the faithful model: a value holding
   a single quote and a blank is wrapped in quotes as it is, and the text is then a syntax
   error (unterminated quote) for the shell (the property excludes such values: eups passes
   them to the shell) *)
Theorem emit_sound_outside_alphabet_refuted :
  exists old new, valid_names old = true /\ valid_names new = true /\ nodup_keys (akeys new) = true /\
    gone_ok false true old new = true /\ claim_env old new = false /\
    exists cmds, emit Sh false true old new [] [] = Ok cmds /\ sh_source (render cmds) old = Err BadTable.
Proof.
  pose (old := [(lit "HOME", lit "/root")] : env).
  pose (new := [(lit "HOME", lit "/root"); (lit "FOO_DIR", lit "/opt/it's here")] : env).
  exists old, new. repeat (split; [vm_compute; reflexivity|]).
  exists (map text_of (env_scmds false true old new)). split; [apply emit_sh_noalias|vm_compute; reflexivity].
Qed.
Print Assumptions emit_sound_outside_alphabet_refuted.

(* gone_ok is needed: on unsetup of eups a variable among EUPS_PATH, EUPS_PKGROOT, EUPS_SHELL
   that is in the new environment but was not in the old one is exported and never taken back,
   although eups deleted it from what it computed *)
Theorem emit_sound_gone_refuted :
  exists old new env', valid_names old = true /\ valid_names new = true /\ nodup_keys (akeys new) = true /\
    claim_env old new = true /\ gone_ok true false old new = false /\
    sourced true false old new env' /\
    alookup (lit "EUPS_PKGROOT") env' = Some [] /\
    alookup (lit "EUPS_PKGROOT") (protect true old (new_after true false new)) = None.
Proof.
  pose (old := [(lit "HOME", lit "/root")] : env).
  pose (new := [(lit "HOME", lit "/root"); (lit "EUPS_PKGROOT", [])] : env).
  exists old, new, new.
  apply and_keep; [vm_compute; reflexivity|intros Ho]. apply and_keep; [vm_compute; reflexivity|intros Hn].
  split; [vm_compute; reflexivity|]. apply and_keep; [vm_compute; reflexivity|intros Hc].
  split; [vm_compute; reflexivity|]. split; [|split; vm_compute; reflexivity].
  apply (emit_sh_sourced old _ _ _ _ _ Ho Hn Hc). vm_compute. reflexivity.
Qed.
Print Assumptions emit_sound_gone_refuted.

(* the pinned tree (before the fix to execute_envSet): unsetup --force of a product whose
   table has envSet(A_EXTRA, ...) deletes A_EXTRA both from oldEnviron and from os.environ;
   no unset is emitted and the variable survives in the shell.  forced_ok is what fails. *)
Theorem force_unsetup_refuted_pinned :
  exists caller forced new env',
    in_claim false false (forget forced caller) new = true /\
    forced_ok forced (new_after false false new) = false /\
    (exists cmds, emit Sh false false (forget forced caller) new [] [] = Ok cmds /\
                  sh_source (render cmds) caller = Ok env') /\
    alookup (lit "A_EXTRA") env' = Some (lit "x y") /\
    alookup (lit "A_EXTRA") (protect false caller (new_after false false new)) = None.
Proof.
  pose (caller := [(lit "HOME", lit "/root"); (lit "A_EXTRA", lit "x y"); (lit "SETUP_A", lit "a 1.0")] : env).
  pose (new := [(lit "HOME", lit "/root")] : env).
  exists caller, [lit "A_EXTRA"], new, [(lit "HOME", lit "/root"); (lit "A_EXTRA", lit "x y")].
  apply and_keep; [vm_compute; reflexivity|intros Hin].
  split; [vm_compute; reflexivity|]. split; [|split; vm_compute; reflexivity].
  apply (in_claim_sourced caller _ _ _ _ _ Hin). vm_compute. reflexivity.
Qed.
Print Assumptions force_unsetup_refuted_pinned.

(* ---- the hypotheses are inhabited by a non-trivial state ---- *)

Definition ex_old : env :=
  [(lit "PATH", lit "/usr/bin:/bin"); (lit "HOME", lit "/ro$ot's"); (lit "EUPS_DIR", lit "/e");
   (lit "SETUP_BAR", lit "bar 1.0"); (lit "BAR_DIR", lit "/s/bar"); (lit "EMPTYME", lit "x")].
Definition ex_new : env :=
  [(lit "FOO_DIR", lit "/opt/my stack/foo (v1);x"); (lit "PATH", lit "/opt/my stack/foo (v1);x/bin:/usr/bin:/bin");
   (lit "HOME", lit "/ro$ot's"); (lit "EMPTYME", []); (lit "SETUP_FOO", (lit "foo 1.0 -f Linux64 -Z ") ++ [c_tab; c_nl] ++ lit "<&|>")].

Example ex_in_claim : in_claim false true ex_old ex_new = true.
Proof. vm_compute. reflexivity. Qed.

Example ex_text :
  exists cmds, emit Sh false true ex_old ex_new [] [] = Ok cmds /\
  render cmds =
    lit "export FOO_DIR='/opt/my stack/foo (v1);x';" ++ [c_nl] ++
    lit "export PATH='/opt/my stack/foo (v1);x/bin:/usr/bin:/bin';" ++ [c_nl] ++
    lit "export EMPTYME=;" ++ [c_nl] ++
    lit "export SETUP_FOO='foo 1.0 -f Linux64 -Z " ++ [c_tab; c_nl] ++ lit "<&|>';" ++ [c_nl] ++
    lit "unset SETUP_BAR;" ++ [c_nl] ++
    lit "unset BAR_DIR" ++ [c_nl].
Proof.
  exists (map text_of (env_scmds false true ex_old ex_new)).
  split; [apply emit_sh_noalias|vm_compute; reflexivity].
Qed.

Example ex_sourced :
  sourced false true ex_old ex_new
    [(lit "PATH", lit "/opt/my stack/foo (v1);x/bin:/usr/bin:/bin"); (lit "HOME", lit "/ro$ot's"); (lit "EUPS_DIR", lit "/e");
     (lit "EMPTYME", []); (lit "FOO_DIR", lit "/opt/my stack/foo (v1);x");
     (lit "SETUP_FOO", (lit "foo 1.0 -f Linux64 -Z ") ++ [c_tab; c_nl] ++ lit "<&|>")].
Proof.
  apply (in_claim_sourced ex_old _ _ _ _ _ ex_in_claim). vm_compute. reflexivity.
Qed.

(* unsetup of eups inside gone_ok: the three variables are exported if they changed, then unset *)
Example ex_unsetup_eups :
  in_claim true false [(lit "EUPS_PATH", lit "/s"); (lit "EUPS_DIR", lit "/e"); (lit "A", lit "1")]
                      [(lit "EUPS_PATH", lit "/s:/t"); (lit "A", lit "1")] = true /\
  sourced true false [(lit "EUPS_PATH", lit "/s"); (lit "EUPS_DIR", lit "/e"); (lit "A", lit "1")]
                     [(lit "EUPS_PATH", lit "/s:/t"); (lit "A", lit "1")] [(lit "A", lit "1")].
Proof.
  apply and_keep; [vm_compute; reflexivity|intros Hin].
  apply (in_claim_sourced _ _ _ _ _ _ Hin). vm_compute. reflexivity.
Qed.

(* the zsh quirk of the alias loop, as the code has it: the last environment command is
   repeated instead of a function definition, and with no environment command the python
   code raises UnboundLocalError *)
Example ex_zsh_alias_quirk :
  emit Zsh false true [] [(lit "A", lit "1")] [(lit "ll", lit "ls -l")] [] = Ok [lit "export A=1"; lit "export A=1"] /\
  emit Zsh false true [] [] [(lit "ll", lit "ls -l")] [] = Err Crash.
Proof. split; reflexivity. Qed.

(* the front end at verbosity 4: the same standard output, and the listing on standard error *)
Example ex_front_end :
  front_end 4 false [lit "export A=1"; lit "unset B"] =
    (lit "export A=1;" ++ [c_nl] ++ lit "unset B" ++ [c_nl],
     Some (lit "Issuing commands:" ++ [c_nl; c_tab] ++ lit "export A=1" ++ [c_nl; c_tab] ++ lit "unset B" ++ [c_nl])) /\
  front_end 4 true [lit "export A=1"; lit "unset B"] = (lit "export A=1;" ++ [c_nl] ++ lit "unset B" ++ [c_nl], None) /\
  front_end 3 false [lit "export A=1"; lit "unset B"] = (lit "export A=1;" ++ [c_nl] ++ lit "unset B" ++ [c_nl], None).
Proof. repeat split; reflexivity. Qed.
