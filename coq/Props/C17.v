(* C17 - An expanded table file reproduces the build-time versions exactly.
   Property theorems, with the example worlds they are tried on.  Model: Model/Expand.v (table.expandTableFile and the set-up closure it asks
   for, on classified lines) composed with Model/Setup.v (Eups.setup) for the exact-mode replay; and
   Model/ExpandText.v (level A: the TEXT of the table file to the classified lines, the expanded lines to the
   text that is written) - the clauses restated on text follow the clauses on classified lines; then the lists of the
   dependency walk, re-expansion, and the two switches of the entrances.
   Lines naming the product eups (LEups / OEups) are passed, unchanged, to the end of the output and are seen by
   both readings; they are not setup lines of the model ([setups_of], [pins_of] do not count them).

   Notation.  [expand_gen jfix sfix cfix w e top plist force rd ls]: the expansion of the table lines ls of
   product top in world w and environment e, productList plist, raw dependency lists rd; jfix / sfix / cfix
   select the repaired (true) or the pinned (false) treatment of -j lines / of the dependencies of an optional
   product that is not set up / of a line whose closure cannot be collected while the error is passed over.
   [expand] is the repaired code, [expand_pinned] the pinned tree.  The first
   theorems hold for every variant, every graph (rd is arbitrary: conflicts, diamonds, cycles) and
   every environment.
   [recorded e n v]: SETUP_<N> in e names version v.  [exact_view out] / [inexact_view out]: the lines a
   reader of the expanded table sees with / without type == exact.  [pins_of out]: the lines
   setupRequired/Optional(n -j v) of the exact block, as (n, v, optional). *)
From Eupsv Require Import Base.Base Base.BaseLemmas Model.PathAlg Model.Setup Model.Expand.
From Eupsv Require Import Proofs.PathAlg Proofs.Expand Proofs.ExpandSetup.
From Eupsv Require Model.Cond Model.Args Model.Blocks.

(* every version pinned in the exact block was set up when the table was written, or was given
   explicitly in the productList - whatever the graph, conflicts included *)
Theorem pins_only_setup_versions jf sf cf w e top plist force rd ls out o n v :
  expand_gen jf sf cf w e top plist force rd ls = Ok out ->
  In (OPin o n v) out ->
  recorded e n v \/ alookup n plist = Some v.
Proof. apply pins_sound. Qed.
Print Assumptions pins_only_setup_versions.

(* The same over the environment a build leaves behind.  [setup w cfg fuel st0 ds req true 0 just] is
   Eups.setup of Model/Setup.v for an arbitrary request, world and stream of version decisions.  Its run
   may have started optional dependencies - found, recorded in their SETUP_ variables - whose tables
   could not be executed to the end (a variable that is not defined, a required product that does not
   exist) and rolled them back (failed_optional_is_rolled_back below).  No hypothesis excludes that:
   whatever happened on the way, an expansion that reads the final environment pins only versions
   recorded in it (or given in the productList), and pins no product that has no SETUP_ variable in it.
   What the instance remembers having started does not count (remembered_is_not_set_up_refuted below). *)
Theorem pins_only_what_setup_left_set_up jf sf cf w cfg fuel st0 ds req just ok st' ds' top plist force rd ls out o n v :
  setup w cfg fuel st0 ds req true 0 just = RDone ok st' ds' ->
  expand_gen jf sf cf w (s_env st') top plist force rd ls = Ok out ->
  In (OPin o n v) out ->
  (recorded (s_env st') n v \/ alookup n plist = Some v) /\
  (alookup (setup_var n) (s_env st') = None -> alookup n plist = Some v).
Proof.
  intros _ E I. pose proof (pins_sound _ _ _ _ _ _ _ _ _ _ _ _ _ _ E I) as S. split; [exact S|]. intro N.
  destruct S as [R|P]; [|exact P]. unfold recorded, setup_version in R. rewrite N in R. discriminate R.
Qed.
Print Assumptions pins_only_what_setup_left_set_up.

(* the roll-back itself, in the loop over the actions of a table (Eups.setup 2065-2072, pushStack /
   popStack env around a dependency): when the setup of an optional dependency fails - with whatever
   state st1, in which the dependency and everything below it may be recorded - the loop goes on from
   the state st it had before the dependency was started; a required one makes the table fail from st *)
Theorem failed_optional_is_rolled_back cfg rec depth just optional nm jst acts st ds st1 ds1 :
  cut_off cfg just (S depth) = false ->
  rec st ds nm true (S depth) jst = RDone false st1 ds1 \/ rec st ds nm true (S depth) jst = RRaise st1 ds1 ->
  run_actions cfg rec true depth just (ASetup optional nm jst :: acts) st ds
  = if optional then run_actions cfg rec true depth just acts st ds1 else RRaise st ds1.
Proof.
  intros C R. cbn [run_actions]. rewrite C. destruct optional, R as [-> | ->]; reflexivity.
Qed.
Print Assumptions failed_optional_is_rolled_back.

(* the exact reading holds no setup line other than the pins: every setup line it runs is -j with an
   explicit version *)
Theorem exact_block_is_pins_only jf sf cf w e top plist force rd ls out :
  expand_gen jf sf cf w e top plist force rd ls = Ok out ->
  setups_of (exact_view out) = [] /\ pins_of (exact_view out) = pins_of out.
Proof.
  intro E. split; [eapply exact_no_setup_line; eauto|eapply exact_view_pins; eauto].
Qed.
Print Assumptions exact_block_is_pins_only.

(* the non-exact reading carries every setup line of the input, in order, each either unchanged or with
   the same command, product and flags, its original expression (bracketed or relative) and, unless the
   productList overrides it, its original explicit version; the version written is the productList's, the
   original one, or the one that is set up *)
Theorem keeps_inexact_constraints jf sf cf w e top plist force rd ls out :
  expand_gen jf sf cf w e top plist force rd ls = Ok out ->
  Forall2 (carries w e plist) (setups_in ls) (setups_of (inexact_view out)).
Proof.
  intro E. unfold inexact_view. rewrite (inexact_setup_lines E).
  apply Forall2_map_r. apply rewrite_carries.
Qed.
Print Assumptions keeps_inexact_constraints.

(* lines other than setup commands pass unchanged and in order: the commands in both readings, the
   comment lines in the non-exact reading (a comment inside a run of setup lines stays with them) *)
Theorem passes_other_lines jf sf cf w e top plist force rd ls out :
  expand_gen jf sf cf w e top plist force rd ls = Ok out ->
  others_of (exact_view out) = others_in ls /\
  others_of (inexact_view out) = others_in ls /\
  comments_of (inexact_view out) = comments_in ls.
Proof.
  intro E. repeat split.
  - eapply others_pass; eauto.
  - eapply others_pass; eauto.
  - eapply comments_pass; eauto.
Qed.
Print Assumptions passes_other_lines.

(* Replay.  A later database w' still declares every pinned version (newer versions and tags are
   arbitrary: the resolver does not appear, the decisions are the explicit versions of the exact block);
   the top product's table in w' is the exact reading of the expanded table, followed by optional
   dependencies that do not resolve (the implicit product); the other lines mean commands that cannot
   fail and set no SETUP_ variable; the pinned products' own commands likewise (their setup lines are not
   followed: -j).  Starting where none of these products is set up, Eups.setup succeeds, consumes exactly
   the forced decisions, records the top product and every pin at its explicit version - each of which was
   recorded when the table was written or given in the productList - and touches no other SETUP_
   variable. *)
Theorem exact_replay_records_pins jf sf cf w e top plist force rd ls out w' cfg interp ptop topv absent fuel st0 :
  expand_gen jf sf cf w e top plist force rd ls = Ok out ->
  c_max_depth cfg = None ->
  find_pv w' top topv = Some ptop ->
  p_actions ptop = exact_actions interp (exact_view out) ++ map absent_action absent ->
  (forall t, Forall simple_action (interp t)) ->
  (forall n v o, In (n, v, o) (pins_of out) ->
     exists p, find_pv w' n v = Some p /\ Forall quiet_action (p_actions p)) ->
  sane top -> (forall x, In x (pins_of out) -> sane (pin_name x)) ->
  NoDup (upper_str top :: map (fun x => upper_str (pin_name x)) (pins_of out)) ->
  alookup (setup_var top) (s_env st0) = None ->
  (forall x, In x (pins_of out) -> alookup (setup_var (pin_name x)) (s_env st0) = None) ->
  2 <= fuel ->
  exists st',
    setup w' cfg fuel st0 (forced_decisions topv (pins_of out) absent) top true 0 false = RDone true st' [] /\
    alookup (setup_var top) (s_env st') = Some (setup_string cfg top topv) /\
    (forall n v o, In (n, v, o) (pins_of out) ->
       alookup (setup_var n) (s_env st') = Some (setup_string cfg n v) /\
       (recorded e n v \/ alookup n plist = Some v)) /\
    (forall m, upper_str m <> upper_str top ->
       (forall x, In x (pins_of out) -> upper_str (pin_name x) <> upper_str m) ->
       alookup (setup_var m) (s_env st') = alookup (setup_var m) (s_env st0)).
Proof. apply replay_records. Qed.
Print Assumptions exact_replay_records_pins.

(* This theorem asks nothing of the build; exact_reproduces below derives its second premise from C01's closure
   theorem for a conflict-free build by the composed model.
   FULL STATEMENT (DESIGN C17):
     conflict_free w r -> w included in w' (recorded versions still declared, tags and newer versions
     arbitrary) -> recorded (request exact w' (expand ...)) = recorded env
   where env is the environment the build request r produced.
   PROVED HERE: the same conclusion with the build summarised by two hypotheses on the expansion-time
   environment e instead of being derived from a model of the build:
     (second premise)  every product recorded in e, other than top, is pinned by the exact block at the recorded
                version (SETUP_ variables are named after the upper-cased product, hence the comparison of
                upper-cased names; that the block
                is complete for the products the table's lines and their dependency lists name and that are
                set up is [exact_block_complete] below; that a conflict-free build sets up nothing outside
                those lists is C01's closure theorem, Props/C01.v closure_exact, used in exact_reproduces);
     the productList is empty.
   Conclusion: after the replay from a shell where nothing is set up, (a) every version recorded at build
   time is recorded again, and (b) whatever is recorded, apart from top, was recorded at build time at that
   very version. *)
Theorem exact_reproduces_partial jf sf cf w e top force rd ls out w' cfg interp ptop topv absent fuel st0 :
  expand_gen jf sf cf w e top [] force rd ls = Ok out ->
  (forall n v, recorded e n v -> upper_str n <> upper_str top ->
     exists x, In x (pins_of out) /\ upper_str (pin_name x) = upper_str n /\ snd (fst x) = v) ->
  c_max_depth cfg = None ->
  find_pv w' top topv = Some ptop ->
  p_actions ptop = exact_actions interp (exact_view out) ++ map absent_action absent ->
  (forall t, Forall simple_action (interp t)) ->
  (forall n v o, In (n, v, o) (pins_of out) ->
     exists p, find_pv w' n v = Some p /\ Forall quiet_action (p_actions p)) ->
  sane top -> (forall x, In x (pins_of out) -> sane (pin_name x)) ->
  NoDup (upper_str top :: map (fun x => upper_str (pin_name x)) (pins_of out)) ->
  (forall m, alookup (setup_var m) (s_env st0) = None) ->
  2 <= fuel ->
  exists st',
    setup w' cfg fuel st0 (forced_decisions topv (pins_of out) absent) top true 0 false = RDone true st' [] /\
    alookup (setup_var top) (s_env st') = Some (setup_string cfg top topv) /\
    (forall n v, recorded e n v -> upper_str n <> upper_str top ->
       exists n', upper_str n' = upper_str n /\
                  alookup (setup_var n) (s_env st') = Some (setup_string cfg n' v)) /\
    (forall m, alookup (setup_var m) (s_env st') <> None -> upper_str m <> upper_str top ->
       exists n v, setup_var n = setup_var m /\ recorded e n v /\
                   alookup (setup_var m) (s_env st') = Some (setup_string cfg n v)).
Proof. apply reproduces. Qed.
Print Assumptions exact_reproduces_partial.

(* the exact block is complete for what the table names, whenever the table could be expanded at all: every
   set-up product named by a line of the table, and every set-up product in the dependency list of a line that
   does not carry -j, is pinned at its set-up version.  No hypothesis on the dependency lists: where a list
   demands a product that is not set up (a product below the line's was set up without its dependencies, -j),
   either the expansion fails (required line, no --force) or the line's product stays in the block with all
   that is set up below it (the repair cfix; the pinned tree dropped it: closure_error_drops_refuted_pinned) *)
Theorem exact_block_complete w e top force rd ls out s n v :
  expand w e top [] force rd ls = Ok out ->
  In (LSetup s) ls -> sl_name s <> top -> recorded e (sl_name s) v -> v <> [] ->
  (n = sl_name s \/
   (mem_str (lit "-j") (sl_flags s) = false /\ find_pv w (sl_name s) v <> None /\
    exists d p, In d (lookup_raw rd (sl_name s) v) /\ d_name d = n /\ find_setup_product w e n = Some p)) ->
  exists o v', In (OPin o n v') out /\ recorded e n v'.
Proof. apply block_complete_open. Qed.
Print Assumptions exact_block_complete.

Definition sl (opt : bool) (n : string) (flags : list str) (v : option str) (lg : option str) (orig : string) : sline :=
  {| sl_optional := opt; sl_name := lit n; sl_flags := flags; sl_version := v; sl_rest := [];
     sl_logical := lg; sl_orig := lit orig |}.
Arguments sl opt n%string flags v lg orig%string.

Definition xcfg : config := {| c_flavor := lit "Linux64"; c_root := lit "/s"; c_max_depth := None; c_keep := false; c_flavors := [] |}.
Definition xprod (n v : string) (acts : list action) : product :=
  {| p_name := lit n; p_version := lit v; p_dir := lit "/s/" ++ lit n ++ lit "/" ++ lit v; p_actions := acts |}.
Arguments xprod n%string v%string acts.

(* a diamond with a version conflict: top -> b -> a 1.0, top -> c -> a 2.0; a 2.0 won *)
Definition xworld : world :=
  [ xprod "a" "1.0" [ASet (lit "A_HOME") (lit "one")];
    xprod "a" "2.0" [ASet (lit "A_HOME") (lit "two"); AAlias (lit "run_a") (lit "echo a")];
    xprod "b" "1.0" [ASetup false (lit "a") false];
    xprod "c" "1.0" [ASetup false (lit "a") false; ASetup true (lit "zz") false];
    xprod "d" "1.0" [ASetup false (lit "a") false];
    xprod "top" "1.0" [] ].
Definition xenv : amap str :=
  [ (lit "SETUP_TOP", lit "top 1.0 -f Linux64 -Z /s"); (lit "SETUP_B", lit "b 1.0 -f Linux64 -Z /s");
    (lit "SETUP_C", lit "c 1.0 -f Linux64 -Z /s"); (lit "SETUP_A", lit "a 2.0 -f Linux64 -Z /s");
    (lit "PATH", lit "/bin") ].
Definition xraw : rawdeps :=
  [ (lit "b", lit "1.0", [ {| d_name := lit "a"; d_optional := false; d_depth := 1 |} ]);
    (lit "c", lit "1.0", [ {| d_name := lit "a"; d_optional := false; d_depth := 1 |};
                           {| d_name := lit "zz"; d_optional := true; d_depth := 1 |};
                           {| d_name := lit "yy"; d_optional := false; d_depth := 2 |} ]) ].
Definition xlines : list tline :=
  [ LComment (lit "# deps");
    LSetup (sl false "b" [] None None "setupRequired(b)");
    LOther (lit "envSet(FOO, bar)");
    LSetup (sl false "c" [] (Some (lit "1.0")) (Some (lit ">= 0.5")) "setupRequired(c 1.0 [>= 0.5])");
    LSetup (sl true "d" [] (Some (lit ">=")) None "setupOptional(d >= 1.0)");
    LBlank ].

Example expansion_example :
  option_map (map (fun o => String.string_of_list_ascii (render o)))
             (match expand xworld xenv (lit "top") [] false xraw xlines with Ok out => Some out | Err _ => None end)
  = Some [ "# deps"; "if (type != exact) {"; "setupRequired(b 1.0 [>= 1.0])"; "}"; "envSet(FOO, bar)";
           "if (type == exact) {"; "setupRequired(b               -j 1.0)"; "setupRequired(a               -j 2.0)";
           "setupRequired(c               -j 1.0)";
           "} else {"; "setupRequired(c 1.0 [>= 0.5])"; "setupOptional(d >= 1.0)"; "}" ]%string.
Proof. vm_compute. reflexivity. Qed.

(* the replay of that table in a database that has since gained a 3.0 and d 2.0: the hypotheses of
   exact_replay_records_pins and exact_reproduces_partial hold (and no dependency list demands a product that is
   not set up: closed), and the run gives what they say *)
Definition xout : list oline :=
  match expand xworld xenv (lit "top") [] false xraw xlines with Ok out => out | Err _ => [] end.
Definition xinterp (t : str) : list action := [ASet (lit "FOO") (lit "bar")].
Definition xworld' : world :=
  [ xprod "a" "3.0" []; xprod "d" "2.0" [];
    xprod "top" "1.0" (exact_actions xinterp (exact_view xout) ++ map absent_action [lit "implicitProducts"]) ] ++
  filter (fun p => negb (str_eqb (p_name p) (lit "top"))) xworld.
Definition xst0 : state := {| s_env := [(lit "PATH", lit "/bin")]; s_aliases := [] |}.

Definition ok_out (r : res (list oline)) : option (list oline) := match r with Ok out => Some out | Err _ => None end.
Definition shown (l : list nvo) : list (string * string * bool) :=
  map (fun x => (String.string_of_list_ascii (fst (fst x)), String.string_of_list_ascii (snd (fst x)), snd x)) l.

Example c17_hypotheses_inhabited :
  expand xworld xenv (lit "top") [] false xraw xlines = Ok xout /\
  (forall n v, recorded xenv n v -> upper_str n <> upper_str (lit "top") ->
     exists x, In x (pins_of xout) /\ upper_str (pin_name x) = upper_str n /\ snd (fst x) = v) /\
  (exists ptop, find_pv xworld' (lit "top") (lit "1.0") = Some ptop /\
     p_actions ptop = exact_actions xinterp (exact_view xout) ++ map absent_action [lit "implicitProducts"]) /\
  (forall t, Forall simple_action (xinterp t)) /\
  (forall n v o, In (n, v, o) (pins_of xout) ->
     exists p, find_pv xworld' n v = Some p /\ Forall quiet_action (p_actions p)) /\
  sane (lit "top") /\ (forall x, In x (pins_of xout) -> sane (pin_name x)) /\
  NoDup (upper_str (lit "top") :: map (fun x => upper_str (pin_name x)) (pins_of xout)) /\
  (forall m, alookup (setup_var m) (s_env xst0) = None) /\
  closed xworld xenv xraw.
Proof.
  assert (P : pins_of xout = [(lit "b", lit "1.0", false); (lit "a", lit "2.0", false); (lit "c", lit "1.0", false)])
    by (vm_compute; reflexivity).
  rewrite P. split; [vm_compute; reflexivity|]. split.
  { (* the five variables of xenv, one by one *)
    intros n v R Hn. unfold xenv in R.
    assert (S : forall m, setup_var n = setup_var (lit m) -> upper_str (lit m) = upper_str n)
      by (intros m K; symmetry; now apply setup_var_inj).
    apply recorded_cons in R. destruct R as [[K V]|R]; [elim Hn; symmetry; now apply (S "top"%string)|].
    apply recorded_cons in R. destruct R as [[K V]|R].
    { vm_compute in V. injection V as <-. exists (lit "b", lit "1.0", false).
      split; [left; reflexivity|]. split; [now apply (S "b"%string)|reflexivity]. }
    apply recorded_cons in R. destruct R as [[K V]|R].
    { vm_compute in V. injection V as <-. exists (lit "c", lit "1.0", false).
      split; [right; right; left; reflexivity|]. split; [now apply (S "c"%string)|reflexivity]. }
    apply recorded_cons in R. destruct R as [[K V]|R].
    { vm_compute in V. injection V as <-. exists (lit "a", lit "2.0", false).
      split; [right; left; reflexivity|]. split; [now apply (S "a"%string)|reflexivity]. }
    apply recorded_cons in R. destruct R as [[K V]|R]; [now elim (setup_var_not (lit "PATH") n)|discriminate R]. }
  split. { eexists. split; reflexivity. }
  split. { intro t. constructor; [|constructor]. apply aset_literal_ok; reflexivity. }
  split.
  { intros n v o I. simpl in I.
    destruct I as [I|[I|[I|[]]]]; injection I as <- <- <-; eexists; (split; [reflexivity|]).
    - constructor; [exact Logic.I|constructor].
    - constructor; [apply aset_literal_ok; reflexivity|]. constructor; [apply aalias_ok|constructor].
    - constructor; [exact Logic.I|]. constructor; [exact Logic.I|constructor]. }
  split; [reflexivity|]. split.
  { intros x I. simpl in I. destruct I as [<-|[<-|[<-|[]]]]; reflexivity. }
  split; [apply NoDup_uniq; vm_compute; reflexivity|].
  split.
  { intro m. simpl. destruct (str_eqb_spec (setup_var m) (lit "PATH")) as [K|]; [|reflexivity].
    now elim (setup_var_not (lit "PATH") m). }
  intros n v. unfold xraw. cbn [lookup_raw].
  destruct (str_eqb (lit "b") n && str_eqb (lit "1.0") v); [vm_compute; eexists; reflexivity|].
  destruct (str_eqb (lit "c") n && str_eqb (lit "1.0") v); [vm_compute; eexists; reflexivity|].
  eexists; reflexivity.
Qed.

(* and the run itself: a stays at the build-time 2.0 although 3.0 exists; d, declared since, is not set up *)
Example replay_example :
  match setup xworld' xcfg 2 xst0 (forced_decisions (lit "1.0") (pins_of xout) [lit "implicitProducts"])
              (lit "top") true 0 false with
  | RDone true st' [] =>
      map (fun n => option_map String.string_of_list_ascii (setup_version (s_env st') (lit n)))
          ["top"; "a"; "b"; "c"; "d"]%string
  | _ => []
  end = [Some "1.0"; Some "2.0"; Some "1.0"; Some "1.0"; None]%string.
Proof. vm_compute. reflexivity. Qed.

(* the pinned tree (D17 and its sibling) *)

(* b came in through a line carrying -j, so its dependency a is not set up *)
Definition jworld : world :=
  [ xprod "a" "1.0" []; xprod "b" "1.0" [ASetup false (lit "a") false]; xprod "c" "1.0" []; xprod "top" "1.0" [] ].
Definition jenv : amap str :=
  [ (lit "SETUP_TOP", lit "top 1.0 -f Linux64 -Z /s"); (lit "SETUP_B", lit "b 1.0 -f Linux64 -Z /s");
    (lit "SETUP_C", lit "c 1.0 -f Linux64 -Z /s") ].
Definition jraw : rawdeps := [ (lit "b", lit "1.0", [ {| d_name := lit "a"; d_optional := false; d_depth := 1 |} ]) ].
Definition jlines (opt : bool) : list tline :=
  [ LSetup (sl false "c" [] None None "setupRequired(c)");
    LSetup (sl opt "b" [lit "-j"] None None (if opt then "setupOptional(b -j)" else "setupRequired(b -j)")) ].

(* pinned: an optional -j product is silently left out of the exact block although it is set up *)
Example just_line_dropped_refuted_pinned :
  option_map (fun o => shown (pins_of o)) (ok_out (expand_pinned jworld jenv (lit "top") [] false jraw (jlines true)))
    = Some [("c", "1.0", false)]%string /\
  option_map (fun o => shown (pins_of o)) (ok_out (expand jworld jenv (lit "top") [] false jraw (jlines true)))
    = Some [("c", "1.0", false); ("b", "1.0", true)]%string.
Proof. split; vm_compute; reflexivity. Qed.

(* pinned: a required -j product makes the expansion abort *)
Example just_line_aborts_refuted_pinned :
  expand_pinned jworld jenv (lit "top") [] false jraw (jlines false) = Err NotFound /\
  option_map (fun o => shown (pins_of o)) (ok_out (expand jworld jenv (lit "top") [] false jraw (jlines false)))
    = Some [("c", "1.0", false); ("b", "1.0", false)]%string.
Proof. split; vm_compute; reflexivity. Qed.

(* b's optional dependency o could not be set up because o requires z, which does not exist; pinned (with
   only the -j repair): z is demanded all the same, and b, optional in the table, is left out *)
Definition oraw : rawdeps :=
  [ (lit "b", lit "1.0", [ {| d_name := lit "o"; d_optional := true; d_depth := 1 |};
                           {| d_name := lit "z"; d_optional := false; d_depth := 2 |} ]) ].
Definition olines : list tline :=
  [ LSetup (sl false "c" [] None None "setupRequired(c)"); LSetup (sl true "b" [] None None "setupOptional(b)") ].
Example optional_subtree_refuted_pinned :
  option_map (fun o => shown (pins_of o)) (ok_out (expand_gen true false false jworld jenv (lit "top") [] false oraw olines))
    = Some [("c", "1.0", false)]%string /\
  option_map (fun o => shown (pins_of o)) (ok_out (expand jworld jenv (lit "top") [] false oraw olines))
    = Some [("c", "1.0", false); ("b", "1.0", true)]%string.
Proof. split; vm_compute; reflexivity. Qed.

(* p1 requires zz, which does not exist; p2 asks for p1 optionally - that setup fails part-way and is rolled
   back - and the top table then sets p1 up without its dependencies (-j).  The closure below p2 meets p1, which
   is set up, and then zz, which is not.  Pinned (with the two earlier repairs): p2, named by an optional line
   and set up, is silently left out of the exact block; repaired: it stays *)
Definition cworld : world :=
  [ xprod "p1" "2.0" [ASetup false (lit "zz") false]; xprod "p2" "1.0" [ASetup true (lit "p1") false];
    xprod "p3" "2.0" [ASetup true (lit "p2") false; ASetup true (lit "p1") true] ].
Definition cenv : amap str :=
  [ (lit "SETUP_P3", lit "p3 2.0 -f Linux64 -Z /s"); (lit "SETUP_P2", lit "p2 1.0 -f Linux64 -Z /s");
    (lit "SETUP_P1", lit "p1 2.0 -f Linux64 -Z /s") ].
Definition craw : rawdeps :=
  [ (lit "p2", lit "1.0", [ {| d_name := lit "p1"; d_optional := true; d_depth := 1 |};
                            {| d_name := lit "zz"; d_optional := false; d_depth := 2 |} ]) ].
Definition clines : list tline :=
  [ LSetup (sl true "p2" [] None None "setupOptional(p2)");
    LSetup (sl true "p1" [lit "-j"] None None "setupOptional(p1 -j)") ].
Example closure_error_drops_refuted_pinned :
  option_map (fun o => shown (pins_of o)) (ok_out (expand_gen true true false cworld cenv (lit "p3") [] false craw clines))
    = Some [("p1", "2.0", true)]%string /\
  option_map (fun o => shown (pins_of o)) (ok_out (expand cworld cenv (lit "p3") [] false craw clines))
    = Some [("p2", "1.0", true); ("p1", "2.0", true)]%string /\
  (* the build environment is what Model/Setup.v gives for setup p3: p3, p2, p1 (fails: zz, rolled back), p1 -j *)
  match setup cworld xcfg 4 xst0 [Some (lit "2.0"); Some (lit "1.0"); Some (lit "2.0"); None; Some (lit "2.0")]
              (lit "p3") true 0 false with
  | RDone true st' [] => map (fun n => option_map String.string_of_list_ascii (setup_version (s_env st') (lit n)))
                             ["p3"; "p2"; "p1"; "zz"]%string
  | _ => []
  end = [Some "2.0"; Some "1.0"; Some "2.0"; None]%string.
Proof. vm_compute. repeat apply conj; reflexivity. Qed.

(* Products declared under the fall-back flavor.  p3, p2, p1 are declared under generic (config c_flavors), the
   running flavor is Linux64; p4 -> p3 -> p2 -> p1.  Eups.setup finds them (it tries the fall-back flavors) and
   records them with -f generic.  The dependency lists are inputs of this model: the pinned app.getDependencies /
   Table.dependencies looked under the running flavor only and reported nothing below p3 - with that list only
   p3 is pinned and the exact replay sets up neither p2 nor p1; with the list the repaired code reports
   (proposed_fixes/C17-fallback-flavor-closure) all three are, and the replay records them again, -f generic *)
Definition gcfg : config :=
  {| c_flavor := lit "Linux64"; c_root := lit "/s"; c_max_depth := None; c_keep := false;
     c_flavors := [ (lit "p1", lit "1.0", lit "generic"); (lit "p2", lit "1.0", lit "generic");
                    (lit "p3", lit "2.0", lit "generic") ] |}.
Definition gworld : world :=
  [ xprod "p1" "1.0" []; xprod "p2" "1.0" [ASetup false (lit "p1") false];
    xprod "p3" "2.0" [ASetup false (lit "p2") false];
    xprod "p4" "1.0" [ASetup false (lit "p3") false; ASet (lit "FOO_1") (lit "bar")] ].
Definition genv : amap str :=
  match setup gworld gcfg 5 xst0 [Some (lit "1.0"); Some (lit "2.0"); Some (lit "1.0"); Some (lit "1.0")]
              (lit "p4") true 0 false with
  | RDone true st' [] => s_env st'
  | _ => []
  end.
Definition graw : rawdeps :=
  [ (lit "p3", lit "2.0", [ {| d_name := lit "p2"; d_optional := false; d_depth := 1 |};
                            {| d_name := lit "p1"; d_optional := false; d_depth := 2 |} ]) ].
Definition glines : list tline :=
  [ LSetup (sl false "p3" [] None None "setupRequired(p3)"); LOther (lit "envSet(FOO_1, bar)") ].
Definition gout : list oline :=
  match expand gworld genv (lit "p4") [] false graw glines with Ok out => out | Err _ => [] end.
Definition gworld' : world :=
  [ xprod "p1" "4.0" [];
    xprod "p4" "1.0" (exact_actions xinterp (exact_view gout) ++ map absent_action [lit "implicitProducts"]) ] ++
  filter (fun p => negb (str_eqb (p_name p) (lit "p4"))) gworld.
Example fallback_flavor_lists_refuted_pinned :
  option_map String.string_of_list_ascii (alookup (lit "SETUP_P3") genv) = Some "p3 2.0 -f generic -Z /s"%string /\
  option_map (fun o => shown (pins_of o)) (ok_out (expand gworld genv (lit "p4") [] false [] glines))
    = Some [("p3", "2.0", false)]%string /\
  shown (pins_of gout) = [("p3", "2.0", false); ("p2", "1.0", false); ("p1", "1.0", false)]%string /\
  match setup gworld' gcfg 2 xst0 (forced_decisions (lit "1.0") (pins_of gout) [lit "implicitProducts"])
              (lit "p4") true 0 false with
  | RDone true st' [] => map (fun n => option_map String.string_of_list_ascii (alookup (setup_var (lit n)) (s_env st')))
                             ["p4"; "p3"; "p2"; "p1"]%string
  | _ => []
  end = [Some "p4 1.0 -f Linux64 -Z /s"; Some "p3 2.0 -f generic -Z /s"; Some "p2 1.0 -f generic -Z /s";
         Some "p1 1.0 -f generic -Z /s"]%string.
Proof. vm_compute. repeat apply conj; reflexivity. Qed.

(* a diamond with a conflict (a 1.0 and a 2.0 both wanted): only the version that is set up is pinned *)
Example conflict_pins_the_set_up_version :
  option_map (fun o => shown (pins_of o)) (ok_out (expand xworld xenv (lit "top") [] false xraw xlines))
    = Some [("b", "1.0", false); ("a", "2.0", false); ("c", "1.0", false)]%string.
Proof. vm_compute. reflexivity. Qed.

(* an optional dependency that fails part-way *)

(* top -> a, b;  a -> c, setupOptional(x);  b -> c;  x -> c, y, and then a line that needs a variable nobody
   defines.  Setting top up starts x two levels down: SETUP_X is recorded, c is there already, y is set up,
   the envSet fails, and a - x being optional - goes on from the environment it had before x. *)
Definition fx_actions (broken : bool) : list action :=
  [ASetup false (lit "c") false; ASetup false (lit "y") false] ++
  (if broken then [ASet (lit "X_CONF") (lit "${X_SITE_DIR}/x.conf")] else []).
Definition fworld_gen (broken : bool) : world :=
  [ xprod "c" "1.0" [ASet (lit "C_HOME") (lit "/s/c/1.0")];
    xprod "c" "2.0" [];
    xprod "y" "1.0" [];
    xprod "x" "1.0" (fx_actions broken);
    xprod "a" "1.0" [ASetup false (lit "c") false; ASetup true (lit "x") false];
    xprod "b" "1.0" [ASetup false (lit "c") false];
    xprod "top" "1.0" [ASetup false (lit "a") false; ASetup false (lit "b") false] ].
Definition fworld : world := fworld_gen true.
(* the decisions of the resolver, one per forward call: top, a, c, x, c (already set up), y, b, c *)
Definition fdecisions : list decision := map (fun _ => Some (lit "1.0")) (seq 0 8).
Definition fenv_of (w : world) : amap str :=
  match setup w xcfg 6 xst0 fdecisions (lit "top") true 0 false with
  | RDone true st' [] => s_env st'
  | _ => []
  end.
Definition fenv : amap str := fenv_of fworld.
(* what Table.dependencies lists below a 1.0 and b 1.0 *)
Definition fraw : rawdeps :=
  [ (lit "a", lit "1.0", [ {| d_name := lit "c"; d_optional := false; d_depth := 1 |};
                           {| d_name := lit "x"; d_optional := true; d_depth := 1 |};
                           {| d_name := lit "y"; d_optional := false; d_depth := 2 |} ]);
    (lit "b", lit "1.0", [ {| d_name := lit "c"; d_optional := false; d_depth := 1 |} ]) ].
Definition flines : list tline :=
  [ LSetup (sl false "a" [] None None "setupRequired(a)");
    LSetup (sl false "b" [] None (Some (lit ">= 1.0")) "setupRequired(b [>= 1.0])");
    LOther (lit "envPrepend(TOP_PATH, ${PRODUCT_DIR}/bin)") ].
Definition versions_in (e : amap str) : list (option string) :=
  map (fun n => option_map String.string_of_list_ascii (setup_version e (lit n))) ["top"; "a"; "b"; "c"; "x"; "y"]%string.

(* the build succeeds, consumes every decision, and neither x nor y is set up afterwards ... *)
Example failed_optional_build :
  (exists st', setup fworld xcfg 6 xst0 fdecisions (lit "top") true 0 false = RDone true st' [] /\ s_env st' = fenv) /\
  versions_in fenv = [Some "1.0"; Some "1.0"; Some "1.0"; Some "1.0"; None; None]%string.
Proof. split; [eexists; split|]; vm_compute; reflexivity. Qed.

(* ... although x was started: called on its own from the environment a had reached, the setup of x raises
   from a state that records both x and y (the state failed_optional_is_rolled_back calls st1) *)
Example failed_optional_was_started :
  match setup fworld xcfg 3
              {| s_env := [(lit "SETUP_C", lit "c 1.0 -f Linux64 -Z /s"); (lit "SETUP_A", lit "a 1.0 -f Linux64 -Z /s")];
                 s_aliases := [] |}
              [Some (lit "1.0"); Some (lit "1.0"); Some (lit "1.0")] (lit "x") true 2 false with
  | RRaise st1 [] => map (fun n => option_map String.string_of_list_ascii (setup_version (s_env st1) (lit n))) ["x"; "y"]%string
  | _ => []
  end = [Some "1.0"; Some "1.0"]%string.
Proof. vm_compute. reflexivity. Qed.

(* the hypotheses of pins_only_what_setup_left_set_up hold of this run, and the expansion pins a, c and b only *)
Definition fout : list oline :=
  match expand fworld fenv (lit "top") [] false fraw flines with Ok out => out | Err _ => [] end.
Example failed_optional_is_not_pinned :
  (exists st', setup fworld xcfg 6 xst0 fdecisions (lit "top") true 0 false = RDone true st' [] /\
               expand fworld (s_env st') (lit "top") [] false fraw flines = Ok fout) /\
  shown (pins_of fout) = [("a", "1.0", false); ("c", "1.0", false); ("b", "1.0", false)]%string /\
  map (fun o => String.string_of_list_ascii (render o)) fout
  = [ "if (type == exact) {"; "setupRequired(a               -j 1.0)"; "setupRequired(c               -j 1.0)";
      "setupRequired(b               -j 1.0)"; "} else {";
      "setupRequired(a 1.0 [>= 1.0])"; "setupRequired(b 1.0 [>= 1.0])"; "}";
      "envPrepend(TOP_PATH, ${PRODUCT_DIR}/bin)" ]%string.
Proof.
  split.
  - destruct failed_optional_build as [[st' [R E]] _]. exists st'. split; [exact R|]. rewrite E. vm_compute. reflexivity.
  - vm_compute. split; reflexivity.
Qed.

(* What the instance remembers is not what is set up.  [fenv_of (fworld_gen false)] records every product whose
   setup the run above started (the world without the line that fails: x and y stay).  A closure collection that
   looked there - Eups.alreadySetupProducts - instead of in the environment would pin x 1.0 and y 1.0, neither of
   which is recorded in the environment the build left: the conclusion of pins_only_what_setup_left_set_up is
   false of it. *)
Example remembered_is_not_set_up_refuted :
  let remembered := fenv_of (fworld_gen false) in
  option_map (fun o => shown (pins_of o)) (ok_out (expand fworld remembered (lit "top") [] false fraw flines))
    = Some [("a", "1.0", false); ("c", "1.0", false); ("x", "1.0", true); ("y", "1.0", false); ("b", "1.0", false)]%string /\
  ~ recorded fenv (lit "x") (lit "1.0") /\ ~ recorded fenv (lit "y") (lit "1.0") /\
  alookup (setup_var (lit "x")) fenv = None /\ alookup (setup_var (lit "y")) fenv = None.
Proof.
  intro remembered. unfold recorded. vm_compute. repeat apply conj; try discriminate; reflexivity.
Qed.

(* the reader of C11 on the expanded text *)

(* exact_view / inexact_view stand for what Table._read makes of the generated if-blocks.  Running C11's model
   of the real reader (Model/Blocks.v table_actions; its second flag selects the reader with the repair of C11's
   D6, proposed_fixes/C11-empty-branch) on the rendered text agrees when the exact block is not empty ... *)
Definition nl : ascii := ascii_of_nat 10.
Definition table_text (out : list oline) : str := join nl (map render out) ++ [nl].
Definition cmds (r : res (list Args.action)) : list (string * list string) :=
  match r with
  | Ok l => map (fun a => (String.string_of_list_ascii (Args.a_cmd a), map String.string_of_list_ascii (Args.a_args a))) l
  | Err _ => []
  end.
Definition exact_env : Cond.cenv := Cond.mkCenv (lit "Linux64") [lit "exact"].
Definition inexact_env : Cond.cenv := Cond.mkCenv (lit "Linux64") [].

Example reader_agrees_when_pins_exist :
  cmds (Blocks.table_actions true true (lit "top") (table_text xout) exact_env)
    = [ ("envSet", ["FOO"; "bar"]); ("setupRequired", ["b"; "-j"; "1.0"]); ("setupRequired", ["a"; "-j"; "2.0"]);
        ("setupRequired", ["c"; "-j"; "1.0"]) ]%string /\
  cmds (Blocks.table_actions true true (lit "top") (table_text xout) inexact_env)
    = [ ("setupRequired", ["b"; "1.0"; "[>="; "1.0]"]); ("envSet", ["FOO"; "bar"]);
        ("setupRequired", ["c"; "1.0"; "[>="; "0.5]"]); ("setupRequired", ["d"; ">="; "1.0"]) ]%string.
Proof.
  (* the text is read once for both modes: one evaluation of the whole statement, the reading a local definition *)
  unfold Blocks.table_actions. set (r := Blocks.read_text true true (lit "top") (table_text xout)).
  vm_compute. split; reflexivity.
Qed.

(* ... and also when nothing is pinned, the exact block being empty: exact mode sees the lines outside the
   blocks only, non-exact mode sees the original setup line as well. *)
Definition eout : list oline :=
  match expand [] [] (lit "top") [] false []
               [LOther (lit "envSet(A, c)"); LSetup (sl true "b" [] None None "setupOptional(b)")] with
  | Ok out => out
  | Err _ => []
  end.
Example reader_agrees_when_nothing_is_pinned :
  pins_of eout = [] /\
  map render (exact_view eout) = [lit "envSet(A, c)"] /\
  cmds (Blocks.table_actions true true (lit "top") (table_text eout) exact_env) = [ ("envSet", ["A"; "c"]) ]%string /\
  cmds (Blocks.table_actions true true (lit "top") (table_text eout) inexact_env)
    = [ ("envSet", ["A"; "c"]); ("setupRequired", ["b"]) ]%string.
Proof.
  unfold Blocks.table_actions. set (r := Blocks.read_text true true (lit "top") (table_text eout)).
  vm_compute. repeat apply conj; reflexivity.
Qed.

(* The reader before that repair did not: C11's finding D6 (a branch without a command) made it run the else
   branch exactly in exact mode.  This was the one input class on which the hypothesis
   [p_actions ptop = exact_actions interp (exact_view out) ++ ...] of the replay theorems was not what the real
   reader delivered (known finding D6-C17, empty exact block). *)
Example empty_exact_block_refuted_pinned :
  pins_of eout = [] /\
  cmds (Blocks.table_actions true false (lit "top") (table_text eout) exact_env)
    = [ ("envSet", ["A"; "c"]); ("setupRequired", ["b"]) ]%string /\
  cmds (Blocks.table_actions true false (lit "top") (table_text eout) inexact_env) = [ ("envSet", ["A"; "c"]) ]%string.
Proof.
  unfold Blocks.table_actions. set (r := Blocks.read_text true false (lit "top") (table_text eout)).
  vm_compute. repeat apply conj; reflexivity.
Qed.

(* The exact-reproduction clause in full.
   The build is a run of the composed model of C01 (Model/SetupFull.v: Eups.setup with C03's resolver in place
   of the decision stream); C01's closure theorem (Proofs/SetupFullClosure.v closure_lemma = Props/C01.v
   closure_exact) says what a conflict-free build leaves set up; the expansion pins all of it
   (exact_block_complete); the replay records it again.  The second premise of exact_reproduces_partial (what is
   recorded is pinned) is derived (Proofs/ExpandFull.v build_is_pinned). *)
From Eupsv Require Import Model.Resolve Model.ResolveSpec Model.SetupFull.
From Eupsv Require Import Proofs.SetupFrame Proofs.SetupInv Proofs.SetupFullClosure Proofs.ExpandFull.

(* HYPOTHESES THAT REMAIN
   the build (those of C01's closure_exact_request, and a shell in which nothing is set up):
     WF2 of the world; no --max-depth; the database view well formed and the comparator a total order on the
     declared version names; the VRO is the one selectVRO makes for the request and has no keep;
     [conflict_free ... D]: one assignment D of versions explains the request and every dependency line of every
     reachable table (no line with -j) - no product is requested in two versions;
     no path variable of the starting environment holds a dollar; no SETUP_ variable is set;
     request_full succeeds with final state stb.
   the expansion:
     [expand] (the repaired code) succeeds on the final environment of the build, empty productList;
     [lists_cover fw D top rd ls] (Proofs/ExpandFull.v): the lists rd that Table.dependencies returned for the
     products named by the table's lines name every member of C01's closure reach_ok fw D top (the dependency walk
     is not part of Model/Expand.v: rd is an input, the correspondence check feeds the lists the real walk returns).
   the later database w' (arbitrary otherwise: newer versions, moved tags - no tag appears, the decisions are the
   explicit versions of the exact block, which is what C03's explicit_version theorems give for the resolver):
     the table of top topv in w' is the exact reading of the expanded table (plus optional lines that do not
     resolve); topv is the version D assigns to top; the other lines mean commands that cannot fail and set no
     SETUP_ variable; every pinned version is still declared, its own commands likewise (its setup lines are not
     followed: -j); product names do not collide in upper case and no NAME_DIR is itself a SETUP_ variable; the
     replay starts where no SETUP_ variable is set; fuel 2.
   CONCLUSION
     (0) the build recorded top at topv, and (1) so does the replay;
     (2) every product the world knows that the build left set up is recorded by the replay at its build-time
         version - although w' may prefer other versions;
     (3) whatever the replay records, apart from top, the build had recorded at that very version. *)
Theorem exact_reproduces vcmp vmatch fw cfg rc flavors dl rank vro top version D fuel st0 stb tr
                         force rd ls out w' cfg' interp ptop topv absent fuel' st1 :
  WF2 (fw_products fw) dl rank -> c_max_depth cfg = None ->
  wf_db (db_of cfg fw) = true -> (forall n, total_order_on vcmp (names_of (db_of cfg fw) n)) ->
  select_vro rc (request_opts cfg version) = Ok vro -> mem_entry EKeep vro = false ->
  conflict_free vcmp vmatch fw cfg rc flavors vro top {| li_version := version; li_expr := None |} D ->
  nodollar_paths (fw_products fw) (s_env st0) ->
  (forall m, alookup (setup_var m) (s_env st0) = None) ->
  request_full vcmp vmatch fw cfg rc flavors fuel st0 top version true false = Ok (Some stb, tr) ->
  expand (fw_products fw) (s_env stb) top [] force rd ls = Ok out ->
  lists_cover fw D top rd ls ->
  D top = Some topv ->
  c_max_depth cfg' = None ->
  find_pv w' top topv = Some ptop ->
  p_actions ptop = exact_actions interp (exact_view out) ++ map absent_action absent ->
  (forall t, Forall simple_action (interp t)) ->
  (forall n v o, In (n, v, o) (pins_of out) ->
     exists p, find_pv w' n v = Some p /\ Forall quiet_action (p_actions p)) ->
  sane top -> (forall x, In x (pins_of out) -> sane (pin_name x)) ->
  NoDup (upper_str top :: map (fun x => upper_str (pin_name x)) (pins_of out)) ->
  (forall m, alookup (setup_var m) (s_env st1) = None) ->
  2 <= fuel' ->
  (exists q, find_pv (fw_products fw) top topv = Some q /\
             find_setup_product (fw_products fw) (s_env stb) top = Some q) /\
  exists st',
    setup w' cfg' fuel' st1 (forced_decisions topv (pins_of out) absent) top true 0 false = RDone true st' [] /\
    alookup (setup_var top) (s_env st') = Some (setup_string cfg' top topv) /\
    (forall k q, known (fw_products fw) k -> k <> top ->
       find_setup_product (fw_products fw) (s_env stb) k = Some q ->
       alookup (setup_var k) (s_env st') = Some (setup_string cfg' k (p_version q))) /\
    (forall m, alookup (setup_var m) (s_env st') <> None -> upper_str m <> upper_str top ->
       exists n v, setup_var n = setup_var m /\ recorded (s_env stb) n v /\
                   alookup (setup_var m) (s_env st') = Some (setup_string cfg' n v)).
Proof.
  intros. split.
  - eapply (build_top vcmp vmatch fw cfg rc flavors dl rank vro top version D); eassumption.
  - eapply (reproduces_full vcmp vmatch fw cfg rc flavors dl rank vro top version D); eassumption.
Qed.
Print Assumptions exact_reproduces.

(* The hypotheses are inhabited.
   Three products: app 1.0 requires lib and asks for extra optionally; extra 1.0 requires lib; every table ends with
   the implicit optional line; current: lib 1.0, extra 1.0, app 1.0.
   BUILD   setup app  from the empty environment, by the composed model (resolver included): app, lib, extra at 1.0.
   EXPAND  the table of app, with the lists Table.dependencies gives for lib 1.0 and extra 1.0.
   LATER   lib 2.0 has been declared and current moved to it; app's table is the expanded one.
   REPLAY  through Model/Setup.v with the forced decisions: lib 1.0 again. *)
From Eupsv Require Import Model.SetupWf Proofs.SetupWf Proofs.SetupExample Proofs.SetupFullExample Generated.Config.
From Eupsv Require Proofs.Resolve.

Definition rworld : world :=
  [ xprod "lib" "1.0" [ASet (lit "LIB_HOME") (lit "/s/lib/1.0"); ASetup true (lit "implicitProducts") false];
    xprod "extra" "1.0" [ASetup false (lit "lib") false; ASet (lit "EXTRA_HOME") (lit "/s/extra/1.0");
                         ASetup true (lit "implicitProducts") false];
    xprod "app" "1.0" [ASetup false (lit "lib") false; ASetup true (lit "extra") false;
                       ASet (lit "APP_HOME") (lit "/s/app/1.0"); ASetup true (lit "implicitProducts") false] ].
Definition rfw : fworld :=
  {| fw_products := rworld; fw_lines := [];
     fw_tags := [ (lit "lib", lit "current", lit "1.0"); (lit "extra", lit "current", lit "1.0");
                  (lit "app", lit "current", lit "1.0") ] |}.
Definition rorder : list str := [lit "implicitProducts"; lit "lib"; lit "extra"; lit "app"].
Definition rD (n : str) : option str :=
  if str_eqb n (lit "app") then Some (lit "1.0")
  else if str_eqb n (lit "lib") then Some (lit "1.0")
  else if str_eqb n (lit "extra") then Some (lit "1.0") else None.
Definition rbuild := request_full_simple rfw ex_cfg default_config ex_flavors 20 ex_st0 (lit "app") None true false.
Definition rstb : state := match rbuild with Ok (Some st, _) => st | _ => ex_st0 end.
Definition rtr : list decision := match rbuild with Ok (_, tr) => tr | _ => [] end.
Definition rraw : rawdeps :=
  [ (lit "lib", lit "1.0", [ {| d_name := lit "implicitProducts"; d_optional := true; d_depth := 1 |} ]);
    (lit "extra", lit "1.0", [ {| d_name := lit "lib"; d_optional := false; d_depth := 1 |};
                               {| d_name := lit "implicitProducts"; d_optional := true; d_depth := 2 |};
                               {| d_name := lit "implicitProducts"; d_optional := true; d_depth := 1 |} ]) ].
Definition rline_lib : sline := sl false "lib" [] None None "setupRequired(lib)".
Definition rline_extra : sline := sl true "extra" [] None None "setupOptional(extra)".
Definition rlines : list tline :=
  [ LSetup rline_lib; LSetup rline_extra; LOther (lit "envSet(APP_HOME, ${PRODUCT_DIR})") ].
Definition rout : list oline :=
  match expand rworld (s_env rstb) (lit "app") [] false rraw rlines with Ok out => out | Err _ => [] end.
Definition rinterp (t : str) : list action := [ASet (lit "APP_HOME") (lit "/s/app/1.0")].
Definition rtable : list action :=
  exact_actions rinterp (exact_view rout) ++ map absent_action [lit "implicitProducts"].
(* the later database: lib 2.0 declared; the table of app 1.0 replaced by the expanded one *)
Definition rworld' : world :=
  [ xprod "lib" "2.0" [ASet (lit "LIB_HOME") (lit "/s/lib/2.0"); ASetup true (lit "implicitProducts") false];
    xprod "app" "1.0" rtable ] ++ filter (fun p => negb (str_eqb (p_name p) (lit "app"))) rworld.
(* ... as a database of the composed model: current has moved to lib 2.0; the lines of the exact block carry
   their explicit versions *)
Definition rfw' : fworld :=
  {| fw_products := rworld';
     fw_lines := [ (lit "app", lit "1.0", [li_v "1.0"; li_v "1.0"; no_info; no_info]) ];
     fw_tags := [ (lit "lib", lit "current", lit "2.0"); (lit "extra", lit "current", lit "1.0");
                  (lit "app", lit "current", lit "1.0") ] |}.
(* ... and with the table as it was before the expansion, for comparison *)
Definition rfw'' : fworld :=
  {| fw_products := xprod "lib" "2.0" [ASet (lit "LIB_HOME") (lit "/s/lib/2.0"); ASetup true (lit "implicitProducts") false]
                    :: rworld;
     fw_lines := []; fw_tags := fw_tags rfw' |}.

Example exact_reproduces_inhabited :
  (* the build *)
  WF2 (fw_products rfw) (dl_of rworld) (rank_of rorder) /\ c_max_depth ex_cfg = None /\
  wf_db (db_of ex_cfg rfw) = true /\ (forall n, total_order_on vcmp_simple (names_of (db_of ex_cfg rfw) n)) /\
  select_vro default_config (request_opts ex_cfg None) = Ok ex_vro /\ mem_entry EKeep ex_vro = false /\
  conflict_free vcmp_simple vmatch_simple rfw ex_cfg default_config ex_flavors ex_vro (lit "app")
                {| li_version := None; li_expr := None |} rD /\
  nodollar_paths (fw_products rfw) (s_env ex_st0) /\ (forall m, alookup (setup_var m) (s_env ex_st0) = None) /\
  request_full vcmp_simple vmatch_simple rfw ex_cfg default_config ex_flavors 20 ex_st0 (lit "app") None true false
    = Ok (Some rstb, rtr) /\
  (* the expansion *)
  expand (fw_products rfw) (s_env rstb) (lit "app") [] false rraw rlines = Ok rout /\
  lists_cover rfw rD (lit "app") rraw rlines /\
  rD (lit "app") = Some (lit "1.0") /\
  (* the later database and the replay *)
  (exists ptop, find_pv rworld' (lit "app") (lit "1.0") = Some ptop /\
     p_actions ptop = exact_actions rinterp (exact_view rout) ++ map absent_action [lit "implicitProducts"]) /\
  (forall t, Forall simple_action (rinterp t)) /\
  (forall n v o, In (n, v, o) (pins_of rout) ->
     exists p, find_pv rworld' n v = Some p /\ Forall quiet_action (p_actions p)) /\
  sane (lit "app") /\ (forall x, In x (pins_of rout) -> sane (pin_name x)) /\
  NoDup (upper_str (lit "app") :: map (fun x => upper_str (pin_name x)) (pins_of rout)).
Proof.
  assert (P : pins_of rout = [(lit "lib", lit "1.0", false); (lit "extra", lit "1.0", true)]) by (vm_compute; reflexivity).
  assert (Slib : sets_up rfw rD (lit "lib")).
  { eapply (su_intro rfw rD (lit "lib") (lit "1.0")); [reflexivity|vm_compute; reflexivity|].
    intros x j Hin. cbn in Hin. intuition discriminate. }
  assert (Sextra : sets_up rfw rD (lit "extra")).
  { eapply (su_intro rfw rD (lit "extra") (lit "1.0")); [reflexivity|vm_compute; reflexivity|].
    intros x j Hin. cbn in Hin. destruct Hin as [E|[E|[E|[]]]]; try discriminate E. injection E as <- _. exact Slib. }
  assert (Rlib : reach_ok rfw rD (lit "app") (lit "lib")).
  { eapply (ro_dep rfw rD (lit "app") (lit "1.0") _ false (lit "lib") false (lit "lib"));
      [reflexivity|vm_compute; reflexivity|now left|exact Slib|constructor]. }
  assert (Rextra : reach_ok rfw rD (lit "app") (lit "extra")).
  { eapply (ro_dep rfw rD (lit "app") (lit "1.0") _ true (lit "extra") false (lit "extra"));
      [reflexivity|vm_compute; reflexivity|right; left; reflexivity|exact Sextra|constructor]. }
  split; [apply wf2_check_sound; vm_compute; reflexivity|]. split; [reflexivity|]. split; [vm_compute; reflexivity|].
  split; [apply total_order_all, Proofs.Resolve.vcmp_simple_total_orderb; vm_compute; reflexivity|].
  split; [reflexivity|]. split; [reflexivity|]. split.
  { split; [vm_compute; reflexivity|]. intros n v p _ Dn F. unfold rD in Dn.
    (* the three products rD assigns: the table of each, line by line *)
    destruct (str_eqb_spec n (lit "app")) as [->|_];
      [|destruct (str_eqb_spec n (lit "lib")) as [->|_]; [|destruct (str_eqb_spec n (lit "extra")) as [->|_]; [|discriminate]]];
      injection Dn as <-; vm_compute in F; injection F as <-; cbn [lines_ok p_actions];
      vm_compute; repeat apply conj; trivial. }
  split; [apply nodollar_nil|]. split; [intro m; reflexivity|]. split; [vm_compute; reflexivity|].
  split; [vm_compute; reflexivity|]. split.
  { intros k RO Nk. destruct (reach_ok_assigned rfw rD (lit "app") k RO) as [->|[v [p [Dk _]]]]; [contradiction|].
    unfold rD in Dk. destruct (str_eqb_spec k (lit "app")) as [->|N1]; [contradiction|].
    destruct (str_eqb_spec k (lit "lib")) as [->|N2].
    { exists rline_lib, (lit "1.0"). split; [left; reflexivity|]. split; [discriminate|]. split; [exact Rlib|].
      split; [reflexivity|left; reflexivity]. }
    destruct (str_eqb_spec k (lit "extra")) as [->|N3]; [|discriminate].
    exists rline_extra, (lit "1.0"). split; [right; left; reflexivity|]. split; [discriminate|]. split; [exact Rextra|].
    split; [reflexivity|left; reflexivity]. }
  split; [reflexivity|]. rewrite P.
  (* the table of app in the later database is rtable by definition: nothing is run to see it *)
  split; [exists (xprod "app" "1.0" rtable); split; reflexivity|].
  split. { intro t. constructor; [|constructor]. apply aset_literal_ok; reflexivity. }
  split.
  { intros n v o I. simpl in I.
    destruct I as [I|[I|[]]]; injection I as <- <- <-; eexists; (split; [reflexivity|]).
    - constructor; [apply aset_literal_ok; reflexivity|]. constructor; [exact Logic.I|constructor].
    - constructor; [exact Logic.I|]. constructor; [apply aset_literal_ok; reflexivity|].
      constructor; [exact Logic.I|constructor]. }
  split; [reflexivity|]. split.
  { intros x I. simpl in I. destruct I as [<-|[<-|[]]]; reflexivity. }
  apply NoDup_uniq. vm_compute. reflexivity.
Qed.

(* the runs themselves *)
Example exact_reproduces_example :
  (* the build set up app, lib, extra at 1.0 *)
  map (fun n => option_map String.string_of_list_ascii (setup_version (s_env rstb) (lit n))) ["app"; "lib"; "extra"]%string
    = [Some "1.0"; Some "1.0"; Some "1.0"]%string /\
  shown (pins_of rout) = [("lib", "1.0", false); ("extra", "1.0", true)]%string /\
  (* the replay through Model/Setup.v, decisions forced by the exact block: lib 1.0 although 2.0 is current *)
  (exists st',
     setup rworld' ex_cfg 2 ex_st0 (forced_decisions (lit "1.0") (pins_of rout) [lit "implicitProducts"])
           (lit "app") true 0 false = RDone true st' [] /\
     map (fun n => option_map String.string_of_list_ascii (setup_version (s_env st') (lit n))) ["app"; "lib"; "extra"]%string
       = [Some "1.0"; Some "1.0"; Some "1.0"]%string /\
     (* the composed model on the later database, explicit versions on the lines of the exact block: the resolver
        takes exactly the forced decisions and ends in the same state *)
     request_full_simple rfw' ex_cfg default_config ex_flavors 20 ex_st0 (lit "app") (Some (lit "1.0")) true false
       = Ok (Some st', forced_decisions (lit "1.0") (pins_of rout) [lit "implicitProducts"])) /\
  (* the table as it was, in the later database: lib 2.0 *)
  (exists st'' tr'',
     request_full_simple rfw'' ex_cfg default_config ex_flavors 20 ex_st0 (lit "app") None true false = Ok (Some st'', tr'') /\
     option_map String.string_of_list_ascii (setup_version (s_env st'') (lit "lib")) = Some "2.0"%string).
Proof.
  split; [vm_compute; reflexivity|]. split; [vm_compute; reflexivity|]. split.
  - eexists. split; [vm_compute; reflexivity|]. split; vm_compute; reflexivity.
  - eexists. eexists. split; vm_compute; reflexivity.
Qed.

(* the theorem applied to the instance *)
Example exact_reproduces_applies :
  exists st',
    setup rworld' ex_cfg 2 ex_st0 (forced_decisions (lit "1.0") (pins_of rout) [lit "implicitProducts"])
          (lit "app") true 0 false = RDone true st' [] /\
    (forall k q, known rworld k -> k <> lit "app" -> find_setup_product rworld (s_env rstb) k = Some q ->
       alookup (setup_var k) (s_env st') = Some (setup_string ex_cfg k (p_version q))) /\
    (forall m, alookup (setup_var m) (s_env st') <> None -> upper_str m <> upper_str (lit "app") ->
       exists n v, setup_var n = setup_var m /\ recorded (s_env rstb) n v /\
                   alookup (setup_var m) (s_env st') = Some (setup_string ex_cfg n v)).
Proof.
  destruct exact_reproduces_inhabited
    as [H1 [H2 [H3 [H4 [H5 [H6 [H7 [H8 [H9 [H10 [H11 [H12 [H13 [[ptop [H15 H16]] [H17 [H18 [H19 [H20 H21]]]]]]]]]]]]]]]]]].
  destruct (exact_reproduces vcmp_simple vmatch_simple rfw ex_cfg default_config ex_flavors (dl_of rworld) (rank_of rorder)
              ex_vro (lit "app") None rD 20 ex_st0 rstb rtr false rraw rlines rout rworld' ex_cfg rinterp ptop (lit "1.0")
              [lit "implicitProducts"] 2 ex_st0)
    as [_ [st' [R [_ [A B]]]]]; auto.
  exists st'. auto.
Qed.

(* LEVEL A - the clauses on TEXT.
   Model/ExpandText.v: [classify_text tfix text] reads the text of a table file into the classified lines of
   Model/Expand.v (the scanner of expandTableFile and the argument loop of its subSetup) or answers [Outside why]
   for a construct it does not follow (the list is at the head of that file) or [Raises e] where the code raises;
   [expand_text_gen tfix jfix sfix cfix w e top plist force rd text] is the text expandTableFile writes, white space
   included (indentation, the pins padded to 15 columns).  tfix selects the repaired (true) or pinned (false) recognition
   of setup lines (proposed_fixes/C17-setup-line-spelling); [expand_text] is the repaired code.
   Reading a written text back: [stripped_lines t] its lines without outer white space; [exact_block_of_text t] the
   lines between  if (type == exact) {  and  } else { ; [exact_text_view t] / [inexact_text_view t] the lines a
   reader sees with / without type == exact; [other_lines ls] the lines of ls that are neither blank nor comments nor
   mention a setup command, each without trailing comment and outer blanks; [setup_texts ls] the lines that do
   mention one; [pin_text o n v] the line  setupRequired(n -j v)  as written. *)
From Eupsv Require Import Model.Rx Model.ExpandText Proofs.ExpandTextLib Proofs.ExpandText Proofs.ExpandTextPin.

(* the text goes through the classified lines: what is written is, line by line and indentation aside, the rendering
   of what expand_gen returns for them - every theorem above about [out] is a theorem about the written text - and
   the exact block of the written text holds exactly the pins of [out], in order *)
Theorem expansion_of_text_factors tf jf sf cf w e top plist force rd text otxt :
  expand_text_gen tf jf sf cf w e top plist force rd text = Inside otxt ->
  exists ls out,
    classify_text tf text = Inside ls /\
    expand_gen jf sf cf w e top plist force rd ls = Ok out /\
    stripped_lines otxt = map render out /\
    exact_block_of_text otxt = map pin_line (pins_of out).
Proof.
  intro H. apply text_factors in H. destruct H as [ls [out [C [Ok1 [E S]]]]].
  exists ls, out. split; [assumption|]. split; [assumption|]. split; [assumption|].
  unfold exact_block_of_text. rewrite S. eapply tpins_all; eauto.
Qed.
Print Assumptions expansion_of_text_factors.

(* CLAUSE "never pins a version that was not set up", on text: every line of the exact block of the written text is
   a line  setupRequired/Optional(n -j v)  whose version was recorded in the environment at expansion time or given
   in the productList - any graph, any table text inside the grammar, repaired and pinned code alike *)
Theorem pins_only_setup_versions_text tf jf sf cf w e top plist force rd text otxt p :
  expand_text_gen tf jf sf cf w e top plist force rd text = Inside otxt ->
  In p (exact_block_of_text otxt) ->
  exists o n v, p = pin_text o n v /\ (recorded e n v \/ alookup n plist = Some v).
Proof.
  intros H I. apply expansion_of_text_factors in H. destruct H as [ls [out [_ [E [_ P]]]]]. rewrite P in I.
  apply in_map_iff in I. destruct I as [[[n v] o] [<- I]]. exists o, n, v. split; [reflexivity|].
  apply pins_of_iff in I. eapply pins_sound; eauto.
Qed.
Print Assumptions pins_only_setup_versions_text.

(* ... and such a line reads back as what it pins: classifying the written pin line gives the product n, the flag
   -j and the version v (n, v: non-empty words of ASCII characters other than white space, parentheses, brackets,
   hash, comma, double quote, not starting with a dash; n is not eups).  This is what lets the replay half
   (exact_replay_records_pins, exact_reproduces: each pin is a setup action with -j for n, decided at v) speak about
   the text that was written. *)
Theorem pin_line_reads_back tf o n v :
  tokenish n -> tokenish v -> n <> lit "eups" ->
  has_sub (lit "--external") (pin_text o n v) = false ->
  classify_line tf (pin_text o n v)
  = Inside (LSetup {| sl_optional := o; sl_name := n; sl_flags := [lit "-j"]; sl_version := Some v; sl_rest := [];
                      sl_logical := None; sl_orig := pin_text o n v |}).
Proof. apply classify_pin. Qed.
Print Assumptions pin_line_reads_back.

(* CLAUSE "passes lines other than setup commands through unchanged", on text: in both readings of the written text
   the lines that are neither blank, nor comments, nor setup commands are those of the input text, in order,
   character for character once the indentation, trailing blanks and a trailing comment are removed (the code
   strips every line and deletes trailing comments of command lines; nothing else is normalised) *)
Theorem passes_other_lines_text jf sf cf w e top plist force rd text otxt :
  expand_text_gen true jf sf cf w e top plist force rd text = Inside otxt ->
  other_lines (exact_text_view otxt) = other_lines (lines_of text) /\
  other_lines (inexact_text_view otxt) = other_lines (lines_of text).
Proof.
  intro H. apply expansion_of_text_factors in H. destruct H as [ls [out [C [E [S _]]]]].
  pose proof (classify_lines_ok _ _ _ C) as Ok1.
  unfold exact_text_view, inexact_text_view. rewrite S, !(tview_render Ok1 E), !other_lines_render by (eapply view_okv; eauto).
  rewrite !(others_pass E), (classify_others _ _ C). now split.
Qed.
Print Assumptions passes_other_lines_text.

(* CLAUSE "keeps the original constraints for inexact mode", on text: the setup lines of the non-exact reading of the
   written text are, in order, the renderings of rewritten lines each of which carries the constraint of the
   corresponding setup line of the input text (keeps_inexact_constraints), followed by the lines naming eups,
   unchanged *)
Theorem keeps_inexact_constraints_text jf sf cf w e top plist force rd text otxt :
  expand_text_gen true jf sf cf w e top plist force rd text = Inside otxt ->
  exists ls rs,
    classify_text true text = Inside ls /\
    setup_texts (inexact_text_view otxt) = map render_rline rs ++ eups_in ls /\
    Forall2 (carries w e plist) (setups_in ls) rs.
Proof.
  intro H. apply expansion_of_text_factors in H. destruct H as [ls [out [C [E [S _]]]]].
  pose proof (classify_lines_ok _ _ _ C) as Ok1.
  exists ls, (map (rewrite w e plist) (setups_in ls)). split; [exact C|]. split; [|apply Forall2_map_r, rewrite_carries].
  unfold inexact_text_view. rewrite S, (tview_render Ok1 E), setup_texts_render by (eapply view_okv; eauto).
  rewrite (inexact_setupish E), map_app, !map_map. f_equal. cbn [render]. apply map_id.
Qed.
Print Assumptions keeps_inexact_constraints_text.

(* what the classification lets through: comment lines start with a hash, other lines are neither blank nor generated
   if-lines nor mention a setup command, setup lines start with the command *)
Theorem classified_lines_are_well_formed tf text ls :
  classify_text tf text = Inside ls -> Forall (ok_tline tf) ls.
Proof. apply classify_lines_ok. Qed.
Print Assumptions classified_lines_are_well_formed.

(* CLAUSE "exact mode reproduces the build", from the TEXT of the table: exact_reproduces with the expansion given
   by the text the repaired code writes.  The text determines classified lines ls and output lines out (its stripped
   lines are the renderings of out, its exact block the pins of out); with the dependency lists covering the
   closure (lists_cover, about ls) and the later table of top being the exact reading of out, the replay records
   precisely the build-time versions. *)
Theorem exact_reproduces_text vcmp vmatch fw cfg rc flavors dl rank vro top version D fuel st0 stb tr force rd text otxt :
  WF2 (fw_products fw) dl rank -> c_max_depth cfg = None ->
  wf_db (db_of cfg fw) = true -> (forall n, total_order_on vcmp (names_of (db_of cfg fw) n)) ->
  select_vro rc (request_opts cfg version) = Ok vro -> mem_entry EKeep vro = false ->
  conflict_free vcmp vmatch fw cfg rc flavors vro top {| li_version := version; li_expr := None |} D ->
  nodollar_paths (fw_products fw) (s_env st0) ->
  (forall m, alookup (setup_var m) (s_env st0) = None) ->
  request_full vcmp vmatch fw cfg rc flavors fuel st0 top version true false = Ok (Some stb, tr) ->
  expand_text (fw_products fw) (s_env stb) top [] force rd text = Inside otxt ->
  exists ls out,
    classify_text true text = Inside ls /\
    stripped_lines otxt = map render out /\
    exact_block_of_text otxt = map pin_line (pins_of out) /\
    forall w' cfg' interp ptop topv absent fuel' st1,
      lists_cover fw D top rd ls ->
      D top = Some topv ->
      c_max_depth cfg' = None ->
      find_pv w' top topv = Some ptop ->
      p_actions ptop = exact_actions interp (exact_view out) ++ map absent_action absent ->
      (forall t, Forall simple_action (interp t)) ->
      (forall n v o, In (n, v, o) (pins_of out) ->
         exists p, find_pv w' n v = Some p /\ Forall quiet_action (p_actions p)) ->
      sane top -> (forall x, In x (pins_of out) -> sane (pin_name x)) ->
      NoDup (upper_str top :: map (fun x => upper_str (pin_name x)) (pins_of out)) ->
      (forall m, alookup (setup_var m) (s_env st1) = None) ->
      2 <= fuel' ->
      exists st',
        setup w' cfg' fuel' st1 (forced_decisions topv (pins_of out) absent) top true 0 false = RDone true st' [] /\
        alookup (setup_var top) (s_env st') = Some (setup_string cfg' top topv) /\
        (forall k q, known (fw_products fw) k -> k <> top ->
           find_setup_product (fw_products fw) (s_env stb) k = Some q ->
           alookup (setup_var k) (s_env st') = Some (setup_string cfg' k (p_version q))) /\
        (forall m, alookup (setup_var m) (s_env st') <> None -> upper_str m <> upper_str top ->
           exists n v, setup_var n = setup_var m /\ recorded (s_env stb) n v /\
                       alookup (setup_var m) (s_env st') = Some (setup_string cfg' n v)).
Proof.
  intros H1 H2 H3 H4 H5 H6 H7 H8 H9 H10 HT.
  apply expansion_of_text_factors in HT. destruct HT as [ls [out [C [E [S P]]]]].
  exists ls, out. split; [assumption|]. split; [assumption|]. split; [assumption|].
  intros. eapply (reproduces_full vcmp vmatch fw cfg rc flavors dl rank vro top version D); eassumption.
Qed.
Print Assumptions exact_reproduces_text.

(* examples on text (the world, environment and dependency lists of expansion_example) *)
Definition nlc : str := [ascii_of_nat 10].
Definition xtext : str :=
  lit "# deps" ++ nlc ++ lit "SetupRequired (b)   # why" ++ nlc ++ lit "envSet(FOO, bar)" ++ nlc ++
  lit "if (flavor == Linux64) {" ++ nlc ++ lit "   setupRequired(c, 1.0 [>= 0.5])" ++ nlc ++ nlc ++ lit "}" ++ nlc ++
  lit "setupOptional(d >= 1.0)" ++ nlc ++ lit "setupRequired(eups [>= 1.0])" ++ nlc.
Definition shown_text (v : verdict str) : option string :=
  match v with Inside t => Some (String.string_of_list_ascii t) | _ => None end.
Lemma shown_text_lit t s : shown_text (Inside t) = Some s -> t = lit s.
Proof. intro H. injection H as <-. symmetry. apply String.list_ascii_of_string_of_list_ascii. Qed.

(* the text as written, white space included: the command name in another case with a blank before the parenthesis
   and a trailing comment, a comma between the arguments, a brace block (only the first line of a block of other
   lines moves the indentation level: it stays 0 here and drops below 0 at the closing brace), a blank line at the
   end of a setup block, a bare relational expression, a line naming eups (moved to the end) *)
Example text_expansion_example :
  shown_text (expand_text xworld xenv (lit "top") [] false xraw xtext)
  = Some "# deps
if (type != exact) {
   setupRequired(b 1.0 [>= 1.0])
}
envSet(FOO, bar)
if (flavor == Linux64) {
if (type != exact) {
   setupRequired(c 1.0 [>= 0.5])
}
}
if (type == exact) {
setupRequired(b               -j 1.0)
setupRequired(a               -j 2.0)
setupRequired(c               -j 1.0)
} else {
setupOptional(d >= 1.0)
}
setupRequired(eups [>= 1.0])
"%string.
Proof. vm_compute. reflexivity. Qed.

(* the pinned tree recognised setup commands by a narrower pattern than the table reader (Table._read: the name in
   any case, blanks before the parenthesis, commas between the arguments).  A line spelt SetupRequired(b) was set up
   by the build but passed over by the expansion: no exact block, b not pinned - and setup --exact from the written
   table takes whatever version of b the database prefers by then (corpus/C17/setup-line-spelling.json).  Repaired
   (proposed_fixes/C17-setup-line-spelling): the line is rewritten and b and its dependency a are pinned. *)
Definition ctext : str := lit "SetupRequired(b)" ++ nlc ++ lit "envSet(FOO, bar)" ++ nlc.
Example setup_line_spelling_refuted_pinned :
  shown_text (expand_text_pinned xworld xenv (lit "top") [] false xraw ctext)
  = Some "SetupRequired(b)
envSet(FOO, bar)
"%string /\
  shown_text (expand_text xworld xenv (lit "top") [] false xraw ctext)
  = Some "if (type == exact) {
   setupRequired(b               -j 1.0)
   setupRequired(a               -j 2.0)
} else {
   setupRequired(b 1.0 [>= 1.0])
}
envSet(FOO, bar)
"%string.
Proof. split; vm_compute; reflexivity. Qed.

(* verdicts, not guesses: text behind a command, a pre-existing exact block, a flag that lacks its argument *)
Example outside_verdicts :
  classify_text true (lit "setupRequired(b);" ++ nlc) = Outside XTextAround /\
  classify_text true (lit "unsetupRequired(b)" ++ nlc) = Outside XTextAround /\
  classify_text true (lit "if (type == exact) {" ++ nlc) = Outside XExactBlock /\
  classify_text true (lit "setupRequired(b --external)" ++ nlc) = Outside XExternal /\
  classify_text true (lit "setupRequired(-j b)" ++ nlc) = Outside XNameNotFirst /\
  classify_text true (lit "setupRequired(b -f)" ++ nlc) = Raises BadTable.
Proof. vm_compute. repeat apply conj; reflexivity. Qed.

(* the hypotheses of pin_line_reads_back hold of the pins written above *)
Example pin_line_reads_back_inhabited :
  tokenish (lit "b") /\ tokenish (lit "1.0") /\ lit "b" <> lit "eups" /\
  has_sub (lit "--external") (pin_text false (lit "b") (lit "1.0")) = false /\
  String.string_of_list_ascii (pin_text false (lit "b") (lit "1.0")) = "setupRequired(b               -j 1.0)"%string.
Proof. repeat split; try reflexivity; discriminate. Qed.

(* [lists_cover], the hypothesis of exact_reproduces about the dependency lists, for the lists the dependency walk
   of C13 returns (Model/DepWalk.v: Table.dependencies with C03's resolver inside, getDependentProducts without
   topological sort - the model the C13 check compares with the real listings).
   [walk_lists vcmp vmatch fw cfg rc flavors vro fuel names]: for every (product, version) of names, the listing of
   the walk from that product on the tables of the composed world fw (one dependency line per setup action, with
   the version / expression of its line information), under the VRO vro, as (name, optional, depth). *)
From Eupsv Require Import Proofs.ExpandWalk.

(* HYPOTHESES  about the build, those exact_reproduces has already: the database view well formed, the comparator a
   total order on the declared names, no keep in the VRO, and the second half of conflict_free (every dependency
   line of every reachable table designates what D assigns, none with -j); fuel above the number of tables.
   What ties the table TEXT of top to the composed world stays a hypothesis: the setup lines of the classified
   table ls name the dependency actions of top's table in fw (the two readers of the text - Table._read for the
   build, the scanner of expandTableFile - see the same commands), none with -j, none naming top; the lists were
   asked for each such product at the version D assigns (the harness asks for every product that is set up).
   The walk runs under the VRO of the build. *)
Theorem lists_cover_of_dependency_walk vcmp vmatch fw cfg rc flavors vro top D fuel names ls topv ptop :
  wf_db (db_of cfg fw) = true -> (forall n, total_order_on vcmp (names_of (db_of cfg fw) n)) ->
  mem_entry EKeep vro = false ->
  (forall n v p, reachN fw top n -> D n = Some v -> find_pv (fw_products fw) n v = Some p ->
     lines_ok vcmp vmatch fw cfg rc flavors vro D (p_actions p) (SetupFull.lines_of fw p)) ->
  length (dtables_of fw) < fuel ->
  D top = Some topv -> find_pv (fw_products fw) top topv = Some ptop ->
  (forall o x j, In (ASetup o x j) (p_actions ptop) ->
     x <> top /\ exists s, In (LSetup s) ls /\ sl_name s = x /\ mem_str (lit "-j") (sl_flags s) = false) ->
  (forall s va, In (LSetup s) ls -> D (sl_name s) = Some va -> In (sl_name s, va) names) ->
  lists_cover fw D top (walk_lists vcmp vmatch fw cfg rc flavors vro fuel names) ls.
Proof. intros H1 H2 H3 H4 H5 H6 H7 H8 H9. exact (lists_cover_walk vcmp vmatch fw cfg rc flavors vro top D H1 H2 H3 H4 fuel names ls topv ptop H5 H6 H7 H8 H9). Qed.
Print Assumptions lists_cover_of_dependency_walk.

(* on the instance of exact_reproduces_inhabited the walk returns the very lists that were written down there (as the
   real getDependencies reports them), the unresolved implicit product included *)
Example walk_lists_example :
  walk_lists vcmp_simple vmatch_simple rfw ex_cfg default_config ex_flavors ex_vro 20
             [(lit "lib", lit "1.0"); (lit "extra", lit "1.0")] = rraw.
Proof. vm_compute. reflexivity. Qed.

(* exact_reproduces with the dependency lists computed by the walk: no hypothesis about the lists is left *)
Theorem exact_reproduces_with_walk vcmp vmatch fw cfg rc flavors dl rank vro top version D fuel st0 stb tr
                                   force fuelw names ls out w' cfg' interp ptop0 ptop topv absent fuel' st1 :
  WF2 (fw_products fw) dl rank -> c_max_depth cfg = None ->
  wf_db (db_of cfg fw) = true -> (forall n, total_order_on vcmp (names_of (db_of cfg fw) n)) ->
  select_vro rc (request_opts cfg version) = Ok vro -> mem_entry EKeep vro = false ->
  conflict_free vcmp vmatch fw cfg rc flavors vro top {| li_version := version; li_expr := None |} D ->
  nodollar_paths (fw_products fw) (s_env st0) ->
  (forall m, alookup (setup_var m) (s_env st0) = None) ->
  request_full vcmp vmatch fw cfg rc flavors fuel st0 top version true false = Ok (Some stb, tr) ->
  expand (fw_products fw) (s_env stb) top [] force (walk_lists vcmp vmatch fw cfg rc flavors vro fuelw names) ls = Ok out ->
  length (dtables_of fw) < fuelw ->
  find_pv (fw_products fw) top topv = Some ptop0 ->
  (forall o x j, In (ASetup o x j) (p_actions ptop0) ->
     x <> top /\ exists s, In (LSetup s) ls /\ sl_name s = x /\ mem_str (lit "-j") (sl_flags s) = false) ->
  (forall s va, In (LSetup s) ls -> D (sl_name s) = Some va -> In (sl_name s, va) names) ->
  D top = Some topv ->
  c_max_depth cfg' = None ->
  find_pv w' top topv = Some ptop ->
  p_actions ptop = exact_actions interp (exact_view out) ++ map absent_action absent ->
  (forall t, Forall simple_action (interp t)) ->
  (forall n v o, In (n, v, o) (pins_of out) ->
     exists p, find_pv w' n v = Some p /\ Forall quiet_action (p_actions p)) ->
  sane top -> (forall x, In x (pins_of out) -> sane (pin_name x)) ->
  NoDup (upper_str top :: map (fun x => upper_str (pin_name x)) (pins_of out)) ->
  (forall m, alookup (setup_var m) (s_env st1) = None) ->
  2 <= fuel' ->
  exists st',
    setup w' cfg' fuel' st1 (forced_decisions topv (pins_of out) absent) top true 0 false = RDone true st' [] /\
    alookup (setup_var top) (s_env st') = Some (setup_string cfg' top topv) /\
    (forall k q, known (fw_products fw) k -> k <> top ->
       find_setup_product (fw_products fw) (s_env stb) k = Some q ->
       alookup (setup_var k) (s_env st') = Some (setup_string cfg' k (p_version q))) /\
    (forall m, alookup (setup_var m) (s_env st') <> None -> upper_str m <> upper_str top ->
       exists n v, setup_var n = setup_var m /\ recorded (s_env stb) n v /\
                   alookup (setup_var m) (s_env st') = Some (setup_string cfg' n v)).
Proof.
  intros W Md Wf To Sv Nk Cf. intros.
  assert (Lc : lists_cover fw D top (walk_lists vcmp vmatch fw cfg rc flavors vro fuelw names) ls).
  { eapply lists_cover_walk; eauto. exact (proj2 Cf). }
  eapply (reproduces_full vcmp vmatch fw cfg rc flavors dl rank vro top version D); eassumption.
Qed.
Print Assumptions exact_reproduces_with_walk.

(* RE-EXPANSION: the table that is expanded has been expanded before (the installed table of a product that is built
   and packaged again; eups expandtable -i run twice).  Model/ExpandRe.v: the repaired code
   (proposed_fixes/C17-reexpansion-anywhere) drops the lines the earlier expansion added while it reads the table -
   [unexpand_text] - and processes the rest as the table of a product that was never expanded:
        reexpand_text = expand_text after unexpand_text          (a definition; the driver runs reexpand_text)
   [own_lines ls] the lines of ls that are the table's own: not  if (type == exact) {  with the old pins up to
   } else { , not  if (type != exact) { , not the brace that closes the setups they guard.
   The pinned tree recognised an old exact block only at the head of a block of other lines, left its closing brace
   behind, and otherwise wrapped the OLD pins in a block on type != exact - which the table reader, not nesting
   conditions, executes in non-exact mode (corpus/C17/reexpansion-*.json). *)
From Eupsv Require Import Model.ExpandRe Proofs.ExpandRe.

(* the expansion depends on the text through its lines only *)
Lemma expand_text_lines_only tf jf sf cf w e top plist force rd t1 t2 :
  lines_of t1 = lines_of t2 ->
  expand_text_gen tf jf sf cf w e top plist force rd t1 = expand_text_gen tf jf sf cf w e top plist force rd t2.
Proof. intro H. unfold expand_text_gen, expand_text_lines_gen, classify_text. rewrite H. reflexivity. Qed.

(* a table without blocks on the expansion type - every table that was never expanded - is expanded as before: the
   extension is conservative *)
Theorem first_expansion_unchanged tf jf sf cf w e top plist force rd text :
  forallb (fun l => negb (opens_type_block l)) (lines_of text) = true ->
  reexpand_text_gen tf jf sf cf w e top plist force rd text = expand_text_gen tf jf sf cf w e top plist force rd text.
Proof.
  intro H. unfold reexpand_text_gen. apply expand_text_lines_only.
  rewrite lines_of_unexpand_text. now apply unexpand_plain.
Qed.
Print Assumptions first_expansion_unchanged.

(* WHAT IS DROPPED of a block the earlier expansion wrote, wherever it stands (pre: lines without such blocks):
   the if line, the old pins, the else line and the closing brace - nothing else; the guarded setups (with their
   comments and blank lines) stay, and so does everything behind the block *)
Theorem own_lines_of_an_exact_block pre ifl pins elsel body closel post :
  forallb (fun l => negb (opens_type_block l)) pre = true ->
  is_line p_if_exact ifl -> Forall pin_like pins -> is_line p_else elsel ->
  Forall guarded_like body -> is_line p_close closel ->
  own_lines (pre ++ ifl :: pins ++ elsel :: body ++ closel :: post) = pre ++ body ++ own_lines post.
Proof.
  intros Hpre Hif Hpins Helse Hbody Hclose. unfold own_lines.
  rewrite unexpand_plain_app by assumption. f_equal.
  rewrite unexpand_unfold, (step_if_exact _ Hif). cbn [fst snd].
  rewrite unexpand_pins by assumption.
  rewrite unexpand_unfold, (step_else _ Helse). cbn [fst snd].
  rewrite unexpand_guarded by assumption. f_equal.
  rewrite unexpand_unfold, (step_close _ Hclose). reflexivity.
Qed.
Print Assumptions own_lines_of_an_exact_block.

Theorem own_lines_of_a_guarded_block pre ifl body closel post :
  forallb (fun l => negb (opens_type_block l)) pre = true ->
  is_line p_if_not_exact ifl -> seq_full p_if_exact (before_hash ifl) = false ->
  Forall guarded_like body -> is_line p_close closel ->
  own_lines (pre ++ ifl :: body ++ closel :: post) = pre ++ body ++ own_lines post.
Proof.
  intros Hpre Hif Hn Hbody Hclose. unfold own_lines.
  rewrite unexpand_plain_app by assumption. f_equal.
  rewrite unexpand_unfold, (step_if_not_exact _ Hif Hn). cbn [fst snd].
  rewrite unexpand_guarded by assumption. f_equal.
  rewrite unexpand_unfold, (step_close _ Hclose). reflexivity.
Qed.
Print Assumptions own_lines_of_a_guarded_block.

(* only lines of the table survive, in the order of the table (no line is invented) *)
Theorem own_lines_are_lines_of_the_table ls l : In l (own_lines ls) -> In l ls.
Proof. apply unexpand_in. Qed.
Print Assumptions own_lines_are_lines_of_the_table.

(* CLAUSE "passes lines other than setup commands through unchanged", for a table that was expanded before: in both
   readings of the written text the lines that are neither blank, nor comments, nor setup commands are those of the
   table's own lines, in order, character for character (indentation, trailing blanks and a trailing comment aside) *)
Theorem reexpansion_passes_other_lines jf sf cf w e top plist force rd text otxt :
  reexpand_text_gen true jf sf cf w e top plist force rd text = Inside otxt ->
  other_lines (exact_text_view otxt) = other_lines (own_lines (lines_of text)) /\
  other_lines (inexact_text_view otxt) = other_lines (own_lines (lines_of text)).
Proof.
  unfold reexpand_text_gen, own_lines. intro H.
  apply passes_other_lines_text in H. destruct H as [A B].
  rewrite lines_of_unexpand_text in A, B. split; assumption.
Qed.
Print Assumptions reexpansion_passes_other_lines.

(* CLAUSE "never pins a version that was not set up", for a table that was expanded before: whatever the old exact
   block pinned, every line of the exact block of the written text pins a version the environment records at
   expansion time (or the productList gives) *)
Theorem reexpansion_pins_only_setup_versions tf jf sf cf w e top plist force rd text otxt p :
  reexpand_text_gen tf jf sf cf w e top plist force rd text = Inside otxt ->
  In p (exact_block_of_text otxt) ->
  exists o n v, p = pin_text o n v /\ (recorded e n v \/ alookup n plist = Some v).
Proof. unfold reexpand_text_gen. apply pins_only_setup_versions_text. Qed.
Print Assumptions reexpansion_pins_only_setup_versions.

(* CLAUSE "keeps the original constraints for inexact mode", for a table that was expanded before: the setup lines of
   the non-exact reading are the rewritten setup lines of the table's own lines - the old pins are not among them *)
Theorem reexpansion_keeps_inexact_constraints jf sf cf w e top plist force rd text otxt :
  reexpand_text_gen true jf sf cf w e top plist force rd text = Inside otxt ->
  exists ls rs,
    classify_lines true (own_lines (lines_of text)) = Inside ls /\
    setup_texts (inexact_text_view otxt) = map render_rline rs ++ eups_in ls /\
    Forall2 (carries w e plist) (setups_in ls) rs.
Proof.
  unfold reexpand_text_gen, own_lines. intro H.
  apply keeps_inexact_constraints_text in H. destruct H as [ls [rs [C [S F]]]].
  exists ls, rs. unfold classify_text in C. rewrite lines_of_unexpand_text in C. auto.
Qed.
Print Assumptions reexpansion_keeps_inexact_constraints.

(* Every reader of the set-up state (findSetupVersion, getSetupVersion, findSetupProduct, getDependentProducts with
   setup=True, subSetup) goes through find_setup_product: the product it reports has the version the SETUP_ variable
   records - the world of the model has no tags, so this holds whatever tags exist and wherever they sit, in
   particular when the recorded version is NAMED like a tag that is assigned to another version (a build called
   stable; corpus/C17/version-named-like-a-tag.json).  With pins_only_setup_versions: that version is what is pinned. *)
Theorem setup_readers_report_the_recorded_version w e n p :
  find_setup_product w e n = Some p -> p_name p = n /\ recorded e n (p_version p).
Proof. apply find_setup_product_recorded. Qed.
Print Assumptions setup_readers_report_the_recorded_version.

(* examples (world, environment and dependency lists of expansion_example) *)
Definition rtext : str :=
  lit "# top table" ++ nlc ++ lit "setupRequired(b)" ++ nlc ++ lit "setupOptional(zz)" ++ nlc ++
  lit "envSet(FOO, bar)" ++ nlc ++ lit "if (flavor == Linux64) {" ++ nlc ++ lit "   envSet(X, mine)" ++ nlc ++
  lit "} else {" ++ nlc ++ lit "   envSet(X, other)" ++ nlc ++ lit "}" ++ nlc.
Definition verdict_text (v : verdict str) : str := match v with Inside t => t | _ => [] end.
Definition rtext1 : str := verdict_text (expand_text xworld xenv (lit "top") [] false xraw rtext).

(* re-expansion is idempotent, on an instance (the general statement needs the rendering of a rewritten
   line to classify back to that line; pin_line_reads_back is that statement for the pins): a comment in front of the
   exact block, other commands and a flavor conditional behind the setup lines; expanding the expanded table gives
   the same text again - same pins, same lines *)
Example reexpansion_is_idempotent_example :
  shown_text (Inside rtext1)
  = Some "# top table
if (type == exact) {
   setupRequired(b               -j 1.0)
   setupRequired(a               -j 2.0)
} else {
   setupRequired(b 1.0 [>= 1.0])
   setupOptional(zz)
}
envSet(FOO, bar)
if (flavor == Linux64) {
envSet(X, mine)
} else {
envSet(X, other)
}
"%string /\
  reexpand_text xworld xenv (lit "top") [] false xraw rtext1 = Inside rtext1 /\
  exact_block_of_text rtext1 = exact_block_of_text (verdict_text (reexpand_text xworld xenv (lit "top") [] false xraw rtext1)).
Proof.
  apply conj_then; [vm_compute; reflexivity|]. intro W. apply shown_text_lit in W.
  apply conj_then; [rewrite W; vm_compute; reflexivity|].
  (* with the text a variable, so that checking the step does not run the expansion again *)
  generalize rtext1. intros t R. rewrite R. reflexivity.
Qed.

(* an installed table whose exact block pins versions of an earlier build (b 0.9, c 3.0 - neither is set up now),
   with a block on type != exact in front and in other spellings: the old pins are gone, what is set up is pinned *)
Definition stale_text : str :=
  lit "if(type!=exact){" ++ nlc ++ lit "   setupRequired(c)" ++ nlc ++ lit "}" ++ nlc ++ lit "envSet(FOO, bar)" ++ nlc ++
  lit "if (type == exact) {   # written by expandtable" ++ nlc ++ lit "   setupRequired(b               -j 0.9)" ++ nlc ++
  lit "   setupRequired(c               -j 3.0)" ++ nlc ++ lit "}else{" ++ nlc ++ lit "   setupRequired(b [>= 0.5])" ++ nlc ++
  lit "}" ++ nlc ++ lit "envSet(BAR, foo)" ++ nlc.
Example reexpansion_drops_stale_pins :
  shown_text (reexpand_text xworld xenv (lit "top") [] false xraw stale_text)
  = Some "if (type != exact) {
   setupRequired(c 1.0 [>= 1.0])
}
envSet(FOO, bar)
if (type == exact) {
   setupRequired(c               -j 1.0)
   setupRequired(a               -j 2.0)
   setupRequired(b               -j 1.0)
} else {
   setupRequired(b 1.0 [>= 0.5])
}
envSet(BAR, foo)
"%string /\
  map String.string_of_list_ascii (own_lines (lines_of stale_text))
  = ["   setupRequired(c)"; "envSet(FOO, bar)"; "   setupRequired(b [>= 0.5])"; "envSet(BAR, foo)"]%string.
Proof. split; vm_compute; reflexivity. Qed.

(* the text model of the pinned tree keeps its verdict for such a table *)
Example reexpansion_outside_pinned :
  expand_text_pinned xworld xenv (lit "top") [] false xraw rtext1 = Outside XExactBlock.
Proof. rewrite (shown_text_lit _ _ (proj1 reexpansion_is_idempotent_example)). vm_compute. reflexivity. Qed.

(* The switches of the entrances: app.expandTableFile(expandVersions=, addExactBlock=) and eups expandtable -N / --noExact
   (Model/ExpandOpt.v).  [expand_text_opt ev ab] is the text written with expandVersions = ev and addExactBlock = ab;
   [expand_layout_opt ev ab] the lines behind it with their indentation levels, on classified lines.
   [is_added o]: o is one of the lines an expansion adds (the four scaffold lines, a pin).  [strip_logical false r]: the
   written setup line r without its bracketed expression; [sz ev] the same on a written line with its level. *)
From Eupsv Require Import Model.ExpandOpt Proofs.ExpandOpt.

(* at their defaults the switches change nothing: every theorem above about expand_text / reexpand_text speaks about
   the entrances called without them *)
Theorem switches_at_their_defaults tf jf sf cf w e top plist force rd text :
  expand_text_opt true true tf jf sf cf w e top plist force rd text = expand_text_gen tf jf sf cf w e top plist force rd text /\
  reexpand_text_opt true true tf jf sf cf w e top plist force rd text = reexpand_text_gen tf jf sf cf w e top plist force rd text.
Proof. split; [|unfold reexpand_text_opt, reexpand_text_gen]; apply expand_text_opt_defaults. Qed.
Print Assumptions switches_at_their_defaults.

(* addExactBlock off (--noExact): no line of the written table is one an expansion adds - no if (type == exact), no
   pin, no else, no if (type != exact), no closing brace of its own - whatever expandVersions says *)
Theorem without_the_exact_block_nothing_is_added ev jf sf cf w e top plist force rd ls lay :
  expand_layout_opt ev false jf sf cf w e top plist force rd ls = Ok lay ->
  Forall (fun x => is_added (snd x) = false) lay.
Proof.
  unfold expand_layout_opt. destruct (collected ev jf sf cf w e top plist force rd ls); [|discriminate].
  intros [= <-]. apply Forall_app. split; [apply emit_z_opt_false_not_added|apply final_not_added].
Qed.
Print Assumptions without_the_exact_block_nothing_is_added.

(* ... and what is written is the table itself: every setup line, in order, in the form subSetup gives it - with
   expandVersions on that is [rewrite], the form of the non-exact branch of the full expansion, which carries the
   original constraint (keeps_inexact_constraints above) - and every other line, in order, unchanged *)
Theorem without_the_exact_block_every_line_keeps_its_form ev jf sf cf w e top plist force rd ls lay :
  expand_layout_opt ev false jf sf cf w e top plist force rd ls = Ok lay ->
  setups_of (map snd lay) = map (fun s => strip_logical ev (rewrite w e plist s)) (setups_in ls) /\
  others_of (map snd lay) = others_in ls.
Proof.
  unfold expand_layout_opt. destruct (collected ev jf sf cf w e top plist force rd ls); [|discriminate].
  intros [= <-]. rewrite map_app, map_snd_at_level. split.
  - rewrite setups_of_app, setups_final, app_nil_r, (proj_plain _ _ setups_proj eq_refl (fun _ => eq_refl)), blocks_concat.
    cbn [rev app]. now rewrite rewritten_sb, map_out_sb, setups_of_so, setups_rewrite, map_map.
  - rewrite others_of_app, others_final, app_nil_r, (proj_plain _ _ others_proj eq_refl (fun _ => eq_refl)), blocks_concat.
    cbn [rev app]. now rewrite rewritten_sb, map_out_sb, others_of_so, others_rewrite.
Qed.
Print Assumptions without_the_exact_block_every_line_keeps_its_form.

Corollary without_the_exact_block_expressions_are_kept jf sf cf w e top plist force rd ls lay :
  expand_layout_opt true false jf sf cf w e top plist force rd ls = Ok lay ->
  setups_of (map snd lay) = map (rewrite w e plist) (setups_in ls).
Proof.
  intro H. apply without_the_exact_block_every_line_keeps_its_form in H. destruct H as [S _].
  rewrite S. apply map_ext. intro s. apply strip_logical_true.
Qed.
Print Assumptions without_the_exact_block_expressions_are_kept.

(* expandVersions (-N) touches nothing but the expression on the rewritten setup lines: whatever the two switches, the
   expansion raises exactly where it raises with expandVersions on, and otherwise writes the same lines at the same
   levels, the expression taken off every rewritten setup line *)
Theorem expandVersions_only_takes_the_expressions_off ev ab jf sf cf w e top plist force rd ls :
  expand_layout_opt ev ab jf sf cf w e top plist force rd ls =
  match expand_layout_opt true ab jf sf cf w e top plist force rd ls with
  | Ok lay => Ok (map (sz ev) lay)
  | Err x => Err x
  end.
Proof. apply layout_strip. Qed.
Print Assumptions expandVersions_only_takes_the_expressions_off.

(* hence with expandVersions off and the exact block on: the exact block is the exact block of the full expansion
   [expand_gen] - complete and sound by the theorems above -, the other lines are the same, the setup lines are those of
   the full expansion without their expressions, and none carries an expression *)
Theorem without_expressions_the_exact_block_is_complete jf sf cf w e top plist force rd ls lay :
  expand_layout_opt false true jf sf cf w e top plist force rd ls = Ok lay ->
  exists out, expand_gen jf sf cf w e top plist force rd ls = Ok out /\
    pins_of (map snd lay) = pins_of out /\
    others_of (map snd lay) = others_of out /\
    setups_of (map snd lay) = map (strip_logical false) (setups_of out) /\
    Forall (fun r => carries_expression r = false) (setups_of (map snd lay)).
Proof.
  rewrite layout_strip, expand_layout_opt_defaults.
  destruct (expand_layout jf sf cf w e top plist force rd ls) as [lay0|x] eqn:L; [|discriminate].
  intro H. inversion H; subst. exists (map snd lay0). split; [now apply layout_lines|].
  rewrite map_snd_sz, pins_of_so, others_of_so, setups_of_so. repeat split.
  apply Forall_forall. intros r I. apply in_map_iff in I. destruct I as [r0 [E _]]. subst r. apply stripped_carries_none.
Qed.
Print Assumptions without_expressions_the_exact_block_is_complete.

(* and it raises exactly where the full expansion raises *)
Theorem switches_raise_where_the_full_expansion_raises ev ab jf sf cf w e top plist force rd ls x :
  expand_layout_opt ev ab jf sf cf w e top plist force rd ls = Err x <-> expand_gen jf sf cf w e top plist force rd ls = Err x.
Proof.
  unfold expand_layout_opt, expand_gen. rewrite collected_any. unfold acc0.
  destruct (collect jf sf cf w e top plist force rd _ _); split; intro H; try discriminate; inversion H; reflexivity.
Qed.
Print Assumptions switches_raise_where_the_full_expansion_raises.

(* the hypotheses are inhabited: the table with the stale pins of an earlier build, expanded with each switch off *)
Example stale_table_without_expressions :
  shown_text (reexpand_text_opt false true true true true true xworld xenv (lit "top") [] false xraw stale_text)
  = Some "if (type != exact) {
   setupRequired(c 1.0)
}
envSet(FOO, bar)
if (type == exact) {
   setupRequired(c               -j 1.0)
   setupRequired(a               -j 2.0)
   setupRequired(b               -j 1.0)
} else {
   setupRequired(b 1.0)
}
envSet(BAR, foo)
"%string.
Proof. vm_compute. reflexivity. Qed.
Example stale_table_without_exact_block :
  shown_text (reexpand_text_opt true false true true true true xworld xenv (lit "top") [] false xraw stale_text)
  = Some "setupRequired(c 1.0 [>= 1.0])
envSet(FOO, bar)
setupRequired(b 1.0 [>= 0.5])
envSet(BAR, foo)
"%string.
Proof. vm_compute. reflexivity. Qed.
