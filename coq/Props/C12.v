(* C12 - Path-variable commands obey list algebra.
   The property theorems, proved from Proofs/PathAlg.v and Proofs/PathAlgScript.v. *)
From Eupsv Require Import Base.Base Base.BaseLemmas Model.PathAlg Proofs.PathAlg.
From Eupsv Require Import Model.PathAlgScript Proofs.PathAlgScript.

(* Notation: [oldv var e] is the text of variable var in environment e (empty when unset),
   [elems d x] the non-empty elements of x split at delimiter d, [uniq] first-occurrence
   de-duplication, [remove_str v l] = l without the copies of v. *)

(* envPrepend puts its value first; every other element is kept once, in order; no other
   variable changes *)
Theorem prepend_first d var v e :
  wf_delim d = true -> wf_elem d v = true -> no_dollar (oldv var e) = true ->
  exists e', env_prepend false true var v d e = Ok (Some e') /\
    elems d (oldv var e') = v :: remove_str v (uniq (elems d (oldv var e))) /\
    (forall k, k <> var -> alookup k e' = alookup k e).
Proof. exact (env_prepend_step false true var v d e). Qed.
Print Assumptions prepend_first.

(* envAppend puts its value last, whether or not it was an element already; every other element is kept once,
   in order; no other variable changes (the code after the fix of D8) *)
Theorem append_last d var v e :
  wf_delim d = true -> wf_elem d v = true -> no_dollar (oldv var e) = true ->
  exists e', env_prepend true true var v d e = Ok (Some e') /\
    elems d (oldv var e') = remove_str v (uniq (elems d (oldv var e))) ++ [v] /\
    (forall k, k <> var -> alookup k e' = alookup k e).
Proof. exact (env_prepend_step true true var v d e). Qed.
Print Assumptions append_last.

(* ... in particular a value that is not yet an element comes after all the old ones *)
Theorem append_last_fresh d var v e :
  wf_delim d = true -> wf_elem d v = true -> no_dollar (oldv var e) = true ->
  ~ In v (elems d (oldv var e)) ->
  exists e', env_prepend true true var v d e = Ok (Some e') /\
    elems d (oldv var e') = uniq (elems d (oldv var e)) ++ [v] /\
    (forall k, k <> var -> alookup k e' = alookup k e).
Proof.
  intros Hd Hv Ho Hn. rewrite <- (remove_str_notin v (uniq (elems d (oldv var e)))) by now rewrite uniq_In.
  now apply append_last.
Qed.
Print Assumptions append_last_fresh.

(* ... and a value that is already an element is moved to the end (the case of the former finding D8) *)
Theorem append_present_moves_last d var v e :
  wf_delim d = true -> wf_elem d v = true -> no_dollar (oldv var e) = true ->
  In v (elems d (oldv var e)) ->
  exists e', env_prepend true true var v d e = Ok (Some e') /\
    last_opt (elems d (oldv var e')) = Some v.
Proof.
  intros Hd Hv Ho _. destruct (append_last d var v e Hd Hv Ho) as [e' [H1 [H2 _]]].
  exists e'. rewrite H2. auto using last_opt_snoc.
Qed.
Print Assumptions append_present_moves_last.

(* the pinned code left a present element where it was: a:b:c with b appended stayed a:b:c *)
Theorem append_present_refuted_pinned :
  exists d v old,
    In v (elems d old) /\ last_opt (result_list_pinned true true d v old) <> Some v.
Proof.
  exists ":"%char, (lit "b"), (lit "a:b:c"). split; [vm_compute; auto|vm_compute; discriminate].
Qed.
Print Assumptions append_present_refuted_pinned.

(* each element once, in setup and in unsetup mode, for prepend and append *)
Theorem once_each ap fwd d var v e :
  wf_delim d = true -> wf_elem d v = true -> no_dollar (oldv var e) = true ->
  exists e', env_prepend ap fwd var v d e = Ok (Some e') /\ NoDup (elems d (oldv var e')).
Proof.
  intros Hd Hv Ho. destruct (env_prepend_elems ap fwd var v d e Hd Hv Ho) as [e' [H1 [H2 _]]].
  exists e'. rewrite H2. split; [exact H1|apply uniq_NoDup].
Qed.
Print Assumptions once_each.

(* every other element is kept, in its relative order *)
Theorem others_kept_in_order ap fwd d var v e :
  wf_delim d = true -> wf_elem d v = true -> no_dollar (oldv var e) = true ->
  exists e', env_prepend ap fwd var v d e = Ok (Some e') /\
    remove_str v (elems d (oldv var e')) = remove_str v (uniq (elems d (oldv var e))).
Proof.
  intros Hd Hv Ho. destruct (env_prepend_elems ap fwd var v d e Hd Hv Ho) as [e' [H1 [H2 _]]].
  exists e'. rewrite H2. auto using result_others.
Qed.
Print Assumptions others_kept_in_order.

(* a requested leading / trailing empty element (MANPATH style) is honoured and changes
   nothing else *)
Theorem manpath_flags ap var v d e (lead trail : bool) :
  wf_delim d = true -> wf_elem d v = true -> no_dollar (oldv var e) = true ->
  let value := (if lead then [d] else []) ++ v ++ (if trail then [d] else []) in
  exists e' e0, env_prepend ap true var value d e = Ok (Some e') /\
    env_prepend ap true var v d e = Ok (Some e0) /\
    elems d (oldv var e') = elems d (oldv var e0) /\
    (lead = true -> starts_with [d] (oldv var e') = true) /\
    (trail = true -> ends_with [d] (oldv var e') = true) /\
    (forall k, k <> var -> alookup k e' = alookup k e).
Proof.
  intros Hd Hv Ho value.
  destruct (env_prepend_flagged ap true var v d e lead trail Hd Hv Ho) as [e' [H1 [H2 [H3 [H4 [_ H5]]]]]].
  destruct (env_prepend_elems ap true var v d e Hd Hv Ho) as [e0 [G1 [G2 _]]].
  exists e', e0. rewrite H2, G2. repeat split; assumption.
Qed.
Print Assumptions manpath_flags.

(* unsetup mode removes exactly the element *)
Theorem reverse_removes_exactly ap d var v e :
  wf_delim d = true -> wf_elem d v = true -> no_dollar (oldv var e) = true ->
  exists e', env_prepend ap false var v d e = Ok (Some e') /\
    elems d (oldv var e') = remove_str v (uniq (elems d (oldv var e))) /\
    (forall k, k <> var -> alookup k e' = alookup k e).
Proof. exact (env_prepend_step ap false var v d e). Qed.
Print Assumptions reverse_removes_exactly.

(* setup then unsetup of the same element leaves the old elements without it, once each, in order ... *)
Lemma unsetup_after_setup_removes ap d var v e :
  wf_delim d = true -> wf_elem d v = true -> no_dollar (oldv var e) = true ->
  exists e1 e2, env_prepend ap true var v d e = Ok (Some e1) /\
    env_prepend ap false var v d e1 = Ok (Some e2) /\
    elems d (oldv var e2) = remove_str v (uniq (elems d (oldv var e))) /\
    (forall k, k <> var -> alookup k e2 = alookup k e).
Proof.
  intros Hd Hv Ho.
  destruct (env_prepend_elems ap true var v d e Hd Hv Ho) as [e1 [H1 [H2 [H3 H4]]]].
  destruct (env_prepend_elems ap false var v d e1 Hd Hv H3) as [e2 [G1 [G2 [_ G4]]]].
  exists e1, e2. repeat split; auto.
  - now rewrite G2, result_reverse, H2, result_list_uniq, result_others.
  - intros k Hk. rewrite G4, H4; auto.
Qed.

(* ... so setup then unsetup of a fresh element restores the (duplicate-free) element list *)
Theorem unsetup_after_setup ap d var v e :
  wf_delim d = true -> wf_elem d v = true -> no_dollar (oldv var e) = true ->
  ~ In v (elems d (oldv var e)) ->
  exists e1 e2, env_prepend ap true var v d e = Ok (Some e1) /\
    env_prepend ap false var v d e1 = Ok (Some e2) /\
    elems d (oldv var e2) = uniq (elems d (oldv var e)) /\
    (forall k, k <> var -> alookup k e2 = alookup k e).
Proof.
  intros Hd Hv Ho Hn. rewrite <- (remove_str_notin v (uniq (elems d (oldv var e)))) by now rewrite uniq_In.
  now apply unsetup_after_setup_removes.
Qed.
Print Assumptions unsetup_after_setup.

(* envSet sets exactly the given value with its references expanded: the value is first
   expanded (each reference by its own variable or default, see expansion_step), then
   ${VAR} references to defined variables that the expansion produced are interpolated *)
Theorem envset_exact k v v' e :
  expand_var e v = Ok (Some v') -> v' <> [] ->
  exists e', env_set true k v e = Ok (Some e') /\
    alookup k e' = Some (interp e v') /\ (forall k', k' <> k -> alookup k' e' = alookup k' e).
Proof.
  intros Hf Hv. exists (aset k (interp e v') e). split; [now apply (env_set_expanded k v v')|]. split.
  - apply alookup_aset_same.
  - intros k' Hk. now apply alookup_aset_other.
Qed.
Print Assumptions envset_exact.

(* expansion, one reference at a time: text free of dollars is copied, a reference to a
   defined variable is replaced by that variable's own value, and the rest is expanded
   the same way (so n references are replaced by their n values) *)
Theorem expansion_step e a opt key val b :
  mem_ascii c_dollar a = false -> key_ok key -> alookup key e = Some val ->
  expand_var e (a ++ c_dollar :: (if opt : bool then [c_quest] else []) ++ c_lbrace :: key ++ c_rbrace :: b)
  = seq_text (a ++ val) (expand_var e b).
Proof. exact (expand_reference e a opt key val b). Qed.
Print Assumptions expansion_step.

Theorem expansion_of_plain_text e v : mem_ascii c_dollar v = false -> expand_var e v = Ok (Some v).
Proof. exact (expand_nodollar e v). Qed.
Print Assumptions expansion_of_plain_text.

Example envset_two_references :
  env_set true (lit "V") (lit "a${HOME}b${OTHER}c") [(lit "HOME", lit "/root"); (lit "OTHER", lit "/o")]
  = Ok (Some [(lit "HOME", lit "/root"); (lit "OTHER", lit "/o"); (lit "V", lit "a/rootb/oc")]).
Proof. vm_compute. reflexivity. Qed.

(* what interpolation means: a defined reference is replaced by the variable's value *)
Theorem interp_replaces_reference e a key val b :
  mem_ascii c_dollar a = false -> mem_ascii c_rbrace key = false -> alookup key e = Some val ->
  interp e (a ++ c_dollar :: c_lbrace :: key ++ c_rbrace :: b) = a ++ val ++ interp e b.
Proof. exact (interp_reference e a key val b). Qed.
Print Assumptions interp_replaces_reference.

Theorem interp_without_reference e x : mem_ascii c_dollar x = false -> interp e x = x.
Proof. exact (interp_nodollar e x). Qed.
Print Assumptions interp_without_reference.

(* envSet in unsetup mode unsets the variable and nothing else *)
Theorem envset_reverse_unsets k v e :
  exists e', env_set false k v e = Ok (Some e') /\
    alookup k e' = None /\ (forall k', k' <> k -> alookup k' e' = alookup k' e).
Proof.
  exists (aremove k e). split; [apply env_set_reverse|]. split.
  - apply alookup_aremove_same.
  - intros k' Hk. now apply alookup_aremove_other.
Qed.
Print Assumptions envset_reverse_unsets.

(* an action guarded by $?{VAR} with VAR undefined does nothing *)
Theorem guarded_undefined_noop ap var d k e a key b :
  let value := a ++ c_dollar :: c_quest :: c_lbrace :: key ++ c_rbrace :: b in
  mem_ascii c_dollar a = false -> mem_ascii d value = false ->
  key_ok key -> alookup key e = None ->
  env_prepend ap true var value d e = Ok None /\ env_set true k value e = Ok None /\
  exec_pact true (PPrepend ap var value d) e = Ok e /\ exec_pact true (PSet k value) e = Ok e.
Proof.
  intros value Ha Hd Hk Hl.
  assert (X : expand_var e value = Ok None) by (now apply expand_guarded_undefined).
  assert (P : env_prepend ap true var value d e = Ok None).
  { unfold env_prepend. rewrite (strip_lead_none d value Hd), (strip_trail_none d value Hd), X. reflexivity. }
  assert (S : env_set true k value e = Ok None) by (unfold env_set; now rewrite X).
  repeat split; auto.
  - unfold exec_pact. now rewrite P.
  - unfold exec_pact. now rewrite S.
Qed.
Print Assumptions guarded_undefined_noop.

(* all sequences of actions: any predicate preserved by each single action is preserved
   by executing the whole list (the lift from single actions to tables) *)
Theorem sequence_invariant (P : env -> Prop) fwd l :
  (forall a e e', In a l -> P e -> exec_pact fwd a e = Ok e' -> P e') ->
  forall e e', P e -> exec_pacts fwd l e = Ok e' -> P e'.
Proof. exact (exec_pacts_inv P fwd l). Qed.
Print Assumptions sequence_invariant.

(* instance: after any sequence of well-formed prepend/append actions (forward or in
   unsetup mode) on dollar-free variables, the variable each action touched holds every
   element once *)
Definition wf_pact (a : pact) : Prop :=
  match a with
  | PPrepend _ _ v d => wf_delim d = true /\ wf_elem d v = true
  | _ => False
  end.
Definition all_nodollar (e : env) : Prop := forall k, no_dollar (oldv k e) = true.

Lemma all_nodollar_change var e e' :
  all_nodollar e -> no_dollar (oldv var e') = true -> (forall k, k <> var -> alookup k e' = alookup k e) ->
  all_nodollar e'.
Proof.
  intros He Hv Hk k. destruct (str_eq_dec k var) as [->|N]; [assumption|].
  unfold oldv. rewrite Hk by assumption. apply He.
Qed.

Lemma wf_pact_keeps_dollar_free fwd a e e' :
  wf_pact a -> all_nodollar e -> exec_pact fwd a e = Ok e' -> all_nodollar e'.
Proof.
  intros Hwf He Hx. destruct a as [ap var v d| |]; try contradiction. destruct Hwf as [Hd Hv].
  destruct (env_prepend_elems ap fwd var v d e Hd Hv (He var)) as [e1 [H1 [_ [H3 H4]]]].
  unfold exec_pact in Hx. rewrite H1 in Hx. injection Hx as <-.
  exact (all_nodollar_change var e e1 He H3 H4).
Qed.

Theorem sequence_keeps_dollar_free fwd l :
  (forall a, In a l -> wf_pact a) ->
  forall e e', all_nodollar e -> exec_pacts fwd l e = Ok e' -> all_nodollar e'.
Proof.
  intros Hwf. apply sequence_invariant. intros a e e' Hin.
  apply wf_pact_keeps_dollar_free, Hwf, Hin.
Qed.
Print Assumptions sequence_keeps_dollar_free.

(* ---- all sequences of such actions: ONE action executed many times while the environment changes.
   A table that stays loaded keeps its actions; [run_script acts steps e] executes actions of the table
   [acts] by index (forwards or in unsetup mode) interleaved with changes of the environment, and lists
   the outcome of every step (Model/PathAlgScript.v). *)

(* an action whose value holds references acts, in either mode, exactly as the action whose value is the
   text the references expand to in the environment it is executed in *)
Theorem reference_read_at_execution ap fwd var v x d e :
  mem_ascii d v = false -> expand_var e v = Ok (Some x) -> wf_elem d x = true ->
  env_prepend ap fwd var v d e = env_prepend ap fwd var x d e.
Proof. exact (env_prepend_expanded ap fwd var v x d e). Qed.
Print Assumptions reference_read_at_execution.

(* setup adds the present expansion of the value: first for envPrepend, last for envAppend *)
Theorem setup_adds_current_expansion ap d var v x e :
  wf_delim d = true -> mem_ascii d v = false -> expand_var e v = Ok (Some x) -> wf_elem d x = true ->
  no_dollar (oldv var e) = true ->
  exists e', env_prepend ap true var v d e = Ok (Some e') /\
    elems d (oldv var e') = (if ap then remove_str x (uniq (elems d (oldv var e))) ++ [x]
                             else x :: remove_str x (uniq (elems d (oldv var e)))) /\
    (forall k, k <> var -> alookup k e' = alookup k e).
Proof.
  intros Hd Hdv Hx Hw. rewrite (reference_read_at_execution ap true var v x d e Hdv Hx Hw).
  exact (env_prepend_step ap true var x d e Hd Hw).
Qed.
Print Assumptions setup_adds_current_expansion.

(* unsetup removes exactly the element the action would add now: the present expansion of its value *)
Theorem unsetup_removes_current_expansion ap d var v x e :
  wf_delim d = true -> mem_ascii d v = false -> expand_var e v = Ok (Some x) -> wf_elem d x = true ->
  no_dollar (oldv var e) = true ->
  exists e', env_prepend ap false var v d e = Ok (Some e') /\
    elems d (oldv var e') = remove_str x (uniq (elems d (oldv var e))) /\
    (forall k, k <> var -> alookup k e' = alookup k e).
Proof.
  intros Hd Hdv Hx Hw. rewrite (reference_read_at_execution ap false var v x d e Hdv Hx Hw).
  exact (env_prepend_step ap false var x d e Hd Hw).
Qed.
Print Assumptions unsetup_removes_current_expansion.

(* a script splits at any point: what the steps after the point do depends on the steps before it only
   through the environment they left *)
Theorem script_splits acts pre post e :
  run_script acts (pre ++ post) e = run_script acts pre e ++ run_script acts post (script_env acts pre e).
Proof. exact (run_script_app acts pre post e). Qed.
Print Assumptions script_splits.

(* ... so a step has no memory: after any history its outcome is that of the single step on the current
   environment (the executions of an action before it, in whichever mode, leave nothing behind) *)
Theorem script_step_memoryless acts pre s post e :
  nth_error (run_script acts (pre ++ s :: post) e) (length pre)
  = Some (exec_sstep acts s (script_env acts pre e)).
Proof. exact (run_script_nth acts pre s post e). Qed.
Print Assumptions script_step_memoryless.

(* after ANY history (the same action executed forwards and backwards any number of times, other actions,
   changes of the variables) unsetup of action i removes exactly the present expansion of its value *)
Theorem unsetup_after_any_history acts pre i ap var v d x e0 :
  let e := script_env acts pre e0 in
  nth_error acts i = Some (PPrepend ap var v d) ->
  wf_delim d = true -> mem_ascii d v = false -> expand_var e v = Ok (Some x) -> wf_elem d x = true ->
  no_dollar (oldv var e) = true ->
  exists e', nth_error (run_script acts (pre ++ [SExec i false]) e0) (length pre) = Some (Ok e') /\
    elems d (oldv var e') = remove_str x (uniq (elems d (oldv var e))) /\
    (forall k, k <> var -> alookup k e' = alookup k e).
Proof.
  intros e Hi Hd Hdv Hx Hw Ho.
  destruct (unsetup_removes_current_expansion ap d var v x e Hd Hdv Hx Hw Ho) as [e' [H1 [H2 H3]]].
  exists e'. split; [|split; assumption].
  rewrite script_step_memoryless. fold e. now rewrite (exec_sstep_prepend acts i false ap var v d e e' Hi H1).
Qed.
Print Assumptions unsetup_after_any_history.

(* one action: set up with KEY = val1, KEY becomes val2, unsetup of the same action.  The element of val2
   is what is removed; the element that the earlier setup added is not *)
Theorem setup_change_unsetup ap opt d var key a b val1 val2 acts i e :
  let v := a ++ c_dollar :: (if opt : bool then [c_quest] else []) ++ c_lbrace :: key ++ c_rbrace :: b in
  let x1 := a ++ val1 ++ b in
  let x2 := a ++ val2 ++ b in
  nth_error acts i = Some (PPrepend ap var v d) ->
  wf_delim d = true -> mem_ascii d v = false ->
  mem_ascii c_dollar a = false -> mem_ascii c_dollar b = false -> key_ok key -> key <> var ->
  alookup key e = Some val1 ->
  wf_elem d x1 = true -> wf_elem d x2 = true -> no_dollar (oldv var e) = true ->
  exists e1 e2,
    run_script acts [SExec i true; SPut key val2; SExec i false] e = [Ok e1; Ok (aset key val2 e1); Ok e2] /\
    elems d (oldv var e2)
      = remove_str x2 (if ap then remove_str x1 (uniq (elems d (oldv var e))) ++ [x1]
                       else x1 :: remove_str x1 (uniq (elems d (oldv var e)))) /\
    (x1 <> x2 -> In x1 (elems d (oldv var e2))) /\
    (forall k, k <> var -> k <> key -> alookup k e2 = alookup k e).
Proof.
  intros v x1 x2 Hi Hd Hdv Ha Hb Hk Hkv Hl Hw1 Hw2 Ho.
  pose proof (expand_single_ref e a opt key val1 b Ha Hb Hk Hl) as X1.
  destruct (env_prepend_elems ap true var x1 d e Hd Hw1 Ho) as [e1 [P1 [E1 [N1 F1]]]].
  rewrite <- (reference_read_at_execution ap true var v x1 d e Hdv X1 Hw1) in P1.
  set (e1' := aset key val2 e1).
  assert (Ov : oldv var e1' = oldv var e1).
  { unfold oldv, e1'. now rewrite alookup_aset_other by congruence. }
  pose proof (expand_single_ref e1' a opt key val2 b Ha Hb Hk (alookup_aset_same key val2 e1)) as X2.
  rewrite <- Ov in N1.
  destruct (env_prepend_elems ap false var x2 d e1' Hd Hw2 N1) as [e2 [P2 [E2 [_ F2]]]].
  rewrite <- (reference_read_at_execution ap false var v x2 d e1' Hdv X2 Hw2) in P2.
  assert (E : elems d (oldv var e2) = remove_str x2 (path_step ap true (uniq (elems d (oldv var e))) x1)).
  { now rewrite E2, result_reverse, Ov, E1, result_list_uniq, result_list_step. }
  exists e1, e2. split; [|split; [exact E|split]].
  - pose proof (exec_sstep_prepend acts i true ap var v d e e1 Hi P1) as S1.
    pose proof (exec_sstep_prepend acts i false ap var v d e1' e2 Hi P2) as S3.
    assert (A1 : env_after acts (SExec i true) e = e1) by (unfold env_after; now rewrite S1).
    cbn [run_script]. rewrite A1, S1.
    change (env_after acts (SPut key val2) e1) with e1'.
    change (exec_sstep acts (SPut key val2) e1) with (Ok e1' : res env).
    now rewrite S3.
  - intro N. rewrite E. now apply path_step_keeps.
  - intros k K1 K2. rewrite F2 by assumption. unfold e1'. rewrite alookup_aset_other by assumption.
    now apply F1.
Qed.
Print Assumptions setup_change_unsetup.

(* the lift from single steps to scripts: a predicate kept by every step is kept by the script *)
Theorem script_invariant (P : env -> Prop) acts steps :
  (forall s e, In s steps -> P e -> P (env_after acts s e)) ->
  forall e, P e -> P (script_env acts steps e).
Proof. exact (script_env_inv P acts steps). Qed.
Print Assumptions script_invariant.

(* instance: well-formed actions of one table executed in any order and mode, any number of times, with
   dollar-free changes of the environment in between, keep every variable dollar-free (the standing
   hypothesis of the list laws, so the laws apply at every step of the script) *)
Definition wf_sstep (s : sstep) : Prop :=
  match s with
  | SPut _ v => no_dollar v = true
  | _ => True
  end.

Theorem script_keeps_dollar_free acts steps :
  (forall a, In a acts -> wf_pact a) -> (forall s, In s steps -> wf_sstep s) ->
  forall e, all_nodollar e -> all_nodollar (script_env acts steps e).
Proof.
  intros Ha Hs. apply script_invariant. intros s e Hin He. specialize (Hs s Hin).
  unfold env_after. destruct s as [i fwd|k v|k]; cbn [exec_sstep].
  - destruct (nth_error acts i) as [a|] eqn:Ei; [|exact He].
    destruct (exec_pact fwd a e) as [e'|] eqn:Ex; [|exact He].
    exact (wf_pact_keeps_dollar_free fwd a e e' (Ha a (nth_error_In _ _ Ei)) He Ex).
  - apply (all_nodollar_change k e _ He).
    + now rewrite oldv_aset_same.
    + intros k' N. now apply alookup_aset_other.
  - apply (all_nodollar_change k e _ He).
    + unfold oldv. now rewrite alookup_aremove_same.
    + intros k' N. now apply alookup_aremove_other.
Qed.
Print Assumptions script_keeps_dollar_free.

(* the scenario in small: PATH gets the tool of version 1.0, the version becomes 2.0 and the list is rolled
   back to hold the 2.0 element, unsetup of the SAME action removes the 2.0 element; then forwards again *)
Example script_one_action_four_times :
  run_script [PPrepend false (lit "PATH") (lit "/opt/${V}/bin") ":"%char]
    [SExec 0 true; SExec 0 false; SPut (lit "V") (lit "2.0"); SPut (lit "PATH") (lit "/opt/1.0/bin:/opt/2.0/bin:/usr/bin");
     SExec 0 false; SExec 0 true]
    [(lit "V", lit "1.0"); (lit "PATH", lit "/usr/bin")]
  = [Ok [(lit "V", lit "1.0"); (lit "PATH", lit "/opt/1.0/bin:/usr/bin")];
     Ok [(lit "V", lit "1.0"); (lit "PATH", lit "/usr/bin")];
     Ok [(lit "V", lit "2.0"); (lit "PATH", lit "/usr/bin")];
     Ok [(lit "V", lit "2.0"); (lit "PATH", lit "/opt/1.0/bin:/opt/2.0/bin:/usr/bin")];
     Ok [(lit "V", lit "2.0"); (lit "PATH", lit "/opt/1.0/bin:/usr/bin")];
     Ok [(lit "V", lit "2.0"); (lit "PATH", lit "/opt/2.0/bin:/opt/1.0/bin:/usr/bin")]].
Proof. vm_compute. reflexivity. Qed.

(* non-vacuity: the hypotheses are satisfiable on a non-trivial state *)
Example c12_hypotheses_inhabited :
  wf_delim ":"%char = true /\ wf_elem ":"%char (lit "/opt/p 1/bin") = true /\
  no_dollar (oldv (lit "PATH") [(lit "PATH", lit ":/a/bin::/b/lib:/a/bin:")]) = true /\
  env_prepend false true (lit "PATH") (lit "/b/lib") ":"%char [(lit "PATH", lit ":/a/bin::/b/lib:/a/bin:")]
    = Ok (Some [(lit "PATH", lit "/b/lib:/a/bin")]).
Proof. vm_compute. repeat split. Qed.
