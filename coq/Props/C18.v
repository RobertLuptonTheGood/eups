(* C18 - Distribution manifests and tag lists round-trip and keep install order.
   Property theorems only; every proof is a short appeal to Proofs/Manifest*.v.

   Model/Manifest.v follows python/eups/distrib/server.py with the two one-token repairs
   (Manifest.write: -if flavor-, Dependency.__init__: -distId = None-); the first argument
   true of m_write / m_read / remap selects the repaired code, false the pinned tree.
   Mapping (add, _apply, apply, merge, inverse) and the manifest.remap reader follow the code with
   the repairs of proposed_fixes/C18-*.diff; the definitions ending in _pinned follow the tree
   before them and are used only in the refuted_pinned examples.

   Notation.  A file is a str; m_write ... m is the text Manifest.write produces for manifest m
   (noopt = the noOptional argument, fa = the flavor argument, efl = eupsenv.flavor, who/time/ver
   = the strings of the comment block); m_read ... text is Manifest.read on that text.
   wf_manifest: every field is a word (non-empty, no python white space), optional fields may
   be absent or empty, product names do not start with a hash sign.
   norm_manifest: what the property calls -the same- entry: an absent table file or directory
   is spelt none, an absent flavor is the writer's, the flavor argument overrides, and
   None / search / absent / empty all mean -no distribution id-; optional entries are left out
   exactly when noOptional is set; the optional flag itself and the recursion flag are not
   part of the six-column file. *)
From Coq Require Import Lia.
From Eupsv Require Import Base.Base Base.BaseLemmas Model.Manifest Model.ManifestSpec Model.ManifestOps
  Proofs.ManifestLib Proofs.ManifestText Proofs.ManifestTag Proofs.ManifestMap Proofs.ManifestInv
  Proofs.ManifestMerge Proofs.ManifestRemapFile Proofs.ManifestOps Proofs.ManifestWidth.

(* write then read: same entries, same order, same version / flavor / table file / directory /
   distribution id (up to the normalisation above); the manifest's own product and version too.
   Level A + B: the statement is about the text of the file. *)
Theorem manifest_roundtrip noopt fa efl who time ver m :
  wf_manifest m = true -> wf_oword fa = true -> wf_word efl = true ->
  no_nl who = true -> no_nl time = true -> no_nl ver = true ->
  m_read true true false empty_manifest (m_write true noopt fa efl who time ver m)
  = Ok (norm_manifest noopt fa efl m).
Proof. apply m_read_write. Qed.
Print Assumptions manifest_roundtrip.

(* install order: the products come back in the order in which they were listed *)
Corollary manifest_keeps_order noopt fa efl who time ver m :
  wf_manifest m = true -> wf_oword fa = true -> wf_word efl = true ->
  no_nl who = true -> no_nl time = true -> no_nl ver = true ->
  exists m', m_read true true false empty_manifest (m_write true noopt fa efl who time ver m) = Ok m' /\
             map d_product (mf_deps m') = map d_product (written noopt (mf_deps m)) /\
             map d_version (mf_deps m') = map d_version (written noopt (mf_deps m)).
Proof.
  intros. eexists. split; [now apply manifest_roundtrip|].
  cbn [norm_manifest mf_deps]. rewrite !map_map. split; reflexivity.
Qed.
Print Assumptions manifest_keeps_order.

(* with no flavor argument a mixed-flavor list keeps every flavor *)
Corollary manifest_keeps_flavors noopt efl who time ver m :
  wf_manifest m = true -> wf_word efl = true ->
  no_nl who = true -> no_nl time = true -> no_nl ver = true ->
  exists m', m_read true true false empty_manifest (m_write true noopt None efl who time ver m) = Ok m' /\
             map d_flavor (mf_deps m') =
             map (fun d => if truthy (d_flavor d) then d_flavor d else Some efl) (written noopt (mf_deps m)).
Proof.
  intros. eexists. split; [now apply manifest_roundtrip|].
  cbn [norm_manifest mf_deps]. rewrite map_map. reflexivity.
Qed.
Print Assumptions manifest_keeps_flavors.

Definition ex_dep1 : dep :=
  mkDep (lit "cfitsio") (lit "3.0") (Some (lit "Darwin")) (Some (lit "cfitsio.table")) (Some (lit "Darwin/cfitsio/3.0"))
        (Some (lit "cfitsio-3.0.tar.gz")) false false [].
Definition ex_dep2 : dep := mkDep (lit "python") (lit "2.6.2") None None None None false false [].
Definition ex_dep3 : dep :=
  mkDep (lit "tcltk") (lit "8.5") (Some (lit "Linux64")) (Some []) None (Some (lit "search")) true false [].
Definition ex_manifest : manifest := mkManifest (Some (lit "afw")) None [ex_dep1; ex_dep2; ex_dep3].

Example manifest_hyps_inhabited :
  wf_manifest ex_manifest = true /\ wf_oword None = true /\ wf_word (lit "Linux64") = true /\
  no_nl (lit "verif") = true /\
  m_read true true false empty_manifest
    (m_write true true None (lit "Linux64") (lit "verif") (lit "T") (lit "V") ex_manifest)
  = Ok (mkManifest (Some (lit "afw")) (Some (lit "generic"))
          [ mkDep (lit "cfitsio") (lit "3.0") (Some (lit "Darwin")) (Some (lit "cfitsio.table"))
                  (Some (lit "Darwin/cfitsio/3.0")) (Some (lit "cfitsio-3.0.tar.gz")) false false [];
            mkDep (lit "python") (lit "2.6.2") (Some (lit "Linux64")) (Some (lit "none")) (Some (lit "none"))
                  None false false [] ]).
Proof.
  assert (Hwf : wf_manifest ex_manifest = true) by (vm_compute; reflexivity).
  split; [exact Hwf|]. do 3 (split; [vm_compute; reflexivity|]).
  etransitivity; [apply manifest_roundtrip; [exact Hwf | vm_compute; reflexivity ..] | vm_compute; reflexivity].
Qed.

(* what the pinned tree reads back of what it wrote: D3 and D4 show on the same run *)
Lemma ex_manifest_pinned :
  exists m', m_read false true false empty_manifest
      (m_write false true None (lit "Linux64") (lit "verif") (lit "T") (lit "V") ex_manifest) = Ok m' /\
    map d_flavor (mf_deps m') = [Some (lit "Linux64"); Some (lit "Linux64")] /\
    map d_distid (mf_deps m') = [Some (lit "cfitsio-3.0.tar.gz"); Some (lit "None")].
Proof. eexists. split; [vm_compute; reflexivity|]. split; vm_compute; reflexivity. Qed.

(* the pinned tree (D3): every flavor is overwritten by the writer's flavor *)
Example manifest_roundtrip_refuted_pinned_flavor :
  exists m', m_read false true false empty_manifest
      (m_write false true None (lit "Linux64") (lit "verif") (lit "T") (lit "V") ex_manifest) = Ok m' /\
    map d_flavor (mf_deps m') = [Some (lit "Linux64"); Some (lit "Linux64")].
Proof. destruct ex_manifest_pinned as [m' [H1 [H2 _]]]. exists m'. split; [exact H1|exact H2]. Qed.

(* the pinned tree (D4): an absent distribution id comes back as the text None *)
Example manifest_roundtrip_refuted_pinned_distid :
  exists m', m_read false true false empty_manifest
      (m_write false true None (lit "Linux64") (lit "verif") (lit "T") (lit "V") ex_manifest) = Ok m' /\
    map d_distid (mf_deps m') = [Some (lit "cfitsio-3.0.tar.gz"); Some (lit "None")].
Proof. destruct ex_manifest_pinned as [m' [H1 [_ H3]]]. exists m'. split; [exact H1|exact H3]. Qed.

(* Interpretation (DESIGN section 7 item 7): a tagged-release list is a map product ->
   (flavor, version, extras); eups writes it in sorted product order and a reader of flavor fl
   takes the entries of its own flavor and of the wild-card flavor generic.
   wf_entries: fields are words, product names do not start with a hash sign, the list holds
   each product once (which addProduct guarantees). *)

(* write then read for a reader of flavor fl: exactly the visible entries, in the sorted order
   of the file, filed under the reader's flavor *)
Theorem taglist_roundtrip t fl :
  nonl (tl_tag t) -> wf_entries (tl_entries t) ->
  tl_read (tl_new (tl_tag t) (Some fl)) (tl_write None t)
  = Ok (mkTl (tl_tag t) fl (map (as_flavor fl) (filter (visible fl) (sorted_entries (tl_entries t))))).
Proof. apply tl_read_write. Qed.
Print Assumptions taglist_roundtrip.

(* a list all of whose entries have the list's flavor comes back as the same map *)
Theorem taglist_roundtrip_map t :
  nonl (tl_tag t) -> wf_entries (tl_entries t) -> homogeneous (tl_flavor t) (tl_entries t) ->
  exists t', tl_read (tl_new (tl_tag t) (Some (tl_flavor t))) (tl_write None t) = Ok t' /\
             tl_tag t' = tl_tag t /\ tl_flavor t' = tl_flavor t /\
             forall p, alookup p (tl_entries t') = alookup p (tl_entries t).
Proof.
  intros Ht Hwf Hh. eexists. split; [now apply tl_read_write_homogeneous|].
  cbn [tl_tag tl_flavor tl_entries]. repeat split. intros p. apply alookup_sorted_entries. apply Hwf.
Qed.
Print Assumptions taglist_roundtrip_map.

(* write after read after write gives the first file again *)
Theorem taglist_write_read_idempotent t :
  nonl (tl_tag t) -> wf_entries (tl_entries t) -> homogeneous (tl_flavor t) (tl_entries t) ->
  exists t', tl_read (tl_new (tl_tag t) (Some (tl_flavor t))) (tl_write None t) = Ok t' /\
             tl_write None t' = tl_write None t.
Proof.
  intros Ht Hwf Hh. eexists. split; [now apply tl_read_write_homogeneous|].
  apply tl_write_sorted_entries. apply Hwf.
Qed.
Print Assumptions taglist_write_read_idempotent.

Definition ex_tl : tlist :=
  tl_add (tl_add (tl_add (tl_new (lit "current") (Some (lit "Linux64")))
    (lit "zeta") (lit "1.0") None []) (lit "alpha") (lit "2.0") None [lit "x"; lit "y"])
    (lit "beta") (lit "3") None [].

Example taglist_hyps_inhabited :
  forallb wf_tlinfo (tl_entries ex_tl) = true /\
  akeys (tl_entries ex_tl) = [lit "zeta"; lit "alpha"; lit "beta"] /\
  akeys (sorted_entries (tl_entries ex_tl)) = [lit "alpha"; lit "beta"; lit "zeta"] /\
  forallb (fun e => match e with (_, (f, _, _)) => str_eqb f (lit "Linux64") end) (tl_entries ex_tl) = true.
Proof. vm_compute. repeat split. Qed.

(* The writers pad their columns: "%-20s %-10s %s" (tag list), "%-15s %-12s %-10s %-25s %-30s %s"
   (manifest); Model/Manifest.v prints the same way (ljust N field ++ blank).  The round-trip theorems
   above have no hypothesis on the length of any field - a field may be narrower than its column, fill
   it exactly or overflow it.  The statements below make the reason explicit: a column is the field,
   the padding (none when the field is as wide as the column or wider) and then the blank of the format,
   so that the words of a written line are its fields whatever their lengths. *)

(* a column is the field followed by at least one blank, for every column width and every field *)
Theorem column_separated n s x :
  ljust n s ++ c_sp :: x = s ++ repeat c_sp (S (n - length s)) ++ x /\
  (n <= length s -> ljust n s ++ c_sp :: x = s ++ c_sp :: x).
Proof. split; [apply column_shape|apply column_wide]. Qed.
Print Assumptions column_separated.

(* the fields of a tag-list line come back as its words: every product name, flavor (the entry's or
   the override), version and extra column that is a word, of any length *)
Theorem taglist_line_fields_any_width fa p f v ex :
  word p -> word (tl_flav fa f) -> word v -> Forall word ex ->
  words (tl_line fa p (f, v, ex)) = p :: tl_flav fa f :: v :: ex.
Proof. apply words_tl_line_fields. Qed.
Print Assumptions taglist_line_fields_any_width.

(* the same for a manifest line: product, flavor (argument, entry's or writer's), version, table file
   and directory (none when absent) come back as the first five words *)
Theorem manifest_line_fields_any_width fa efl d :
  wf_dep d = true -> wf_oword fa = true -> wf_word efl = true ->
  exists F T D,
    norm_flavor fa efl (d_flavor d) = Some F /\ word F /\
    norm_ostr k_low_none (d_table d) = Some T /\ word T /\
    norm_ostr k_low_none (d_dir d) = Some D /\ word D /\
    words (dep_line true fa efl d) = d_product d :: F :: d_version d :: T :: D :: words (ostr (d_distid d)).
Proof. apply words_dep_line. Qed.
Print Assumptions manifest_line_fields_any_width.

(* the blank of the format is what separates: with padding alone a field as wide as its column runs
   into the next field and the line has a word less *)
Theorem padding_alone_does_not_separate n a b :
  word a -> word b -> n <= length a -> words (ljust n a ++ b) = [a ++ b].
Proof. apply words_glued. Qed.
Print Assumptions padding_alone_does_not_separate.

(* at the boundary: product names of 19, 20, 21 and 40 characters, flavors of 10, 11 and 15 *)
Example taglist_lines_at_the_boundary :
  tl_line None (lit "ctrl_platform_lsstv") (lit "Linux64", lit "1.0", [])
    = lit "ctrl_platform_lsstv  Linux64    1.0" /\
  tl_line None (lit "ctrl_platform_lsstvc") (lit "Linux64", lit "1.0", [])
    = lit "ctrl_platform_lsstvc Linux64    1.0" /\
  tl_line None (lit "ctrl_platform_lsstvcX") (lit "Linux64", lit "1.0", [])
    = lit "ctrl_platform_lsstvcX Linux64    1.0" /\
  tl_line None (lit "meas_extensions_photometryKron_shapeHSMx") (lit "Linux64", lit "1.0", [])
    = lit "meas_extensions_photometryKron_shapeHSMx Linux64    1.0" /\
  tl_line None (lit "afw") (lit "Linux64-gl", lit "1.0", [lit "x"])
    = lit "afw                  Linux64-gl 1.0  x" /\
  tl_line None (lit "afw") (lit "Linux64-gli", lit "1.0", [lit "x"])
    = lit "afw                  Linux64-gli 1.0  x" /\
  tl_line (Some (lit "DarwinX86-arm64")) (lit "afw") (lit "Linux64", lit "1.0", [lit "x"])
    = lit "afw                  DarwinX86-arm64 1.0  x".
Proof. repeat split. Qed.

Definition ex_tl_wide : tlist :=
  tl_add (tl_add (tl_add (tl_add (tl_add (tl_new (lit "current") (Some (lit "Linux64-gli")))
    (lit "zlib") (lit "1.2.5") None [lit "x"])
    (lit "meas_extensions_photometryKron_shapeHSMx") (lit "7.3.1.0+2") None [lit "eupspkg"; lit "meas-7.3.1.0.eupspkg"])
    (lit "ctrl_platform_lsstvcX") (lit "3.1") None [])
    (lit "ctrl_platform_lsstvc") (lit "3.1") (Some (lit "generic")) [])
    (lit "ctrl_platform_lsstv") (lit "3.1") (Some (lit "Linux64")) [].

(* a list with such names, under a flavor of 11 characters: what its own reader, and a reader of the
   15-character flavor it is published for, read back *)
Example taglist_roundtrip_at_the_boundary :
  forallb wf_tlinfo (tl_entries ex_tl_wide) = true /\
  match tl_read (tl_new (lit "current") (Some (lit "Linux64-gli"))) (tl_write None ex_tl_wide) with
  | Ok t => tl_products t
  | Err _ => []
  end
  = [ [lit "ctrl_platform_lsstvc"; lit "Linux64-gli"; lit "3.1"];
           [lit "ctrl_platform_lsstvcX"; lit "Linux64-gli"; lit "3.1"];
           [lit "meas_extensions_photometryKron_shapeHSMx"; lit "Linux64-gli"; lit "7.3.1.0+2"; lit "eupspkg";
            lit "meas-7.3.1.0.eupspkg"];
           [lit "zlib"; lit "Linux64-gli"; lit "1.2.5"; lit "x"] ] /\
  match tl_read (tl_new (lit "current") (Some (lit "DarwinX86-arm64")))
                (tl_write (Some (lit "DarwinX86-arm64")) ex_tl_wide) with
  | Ok t => map (hd []) (tl_products t)
  | Err _ => []
  end
  = [ lit "ctrl_platform_lsstv"; lit "ctrl_platform_lsstvc"; lit "ctrl_platform_lsstvcX";
           lit "meas_extensions_photometryKron_shapeHSMx"; lit "zlib" ].
Proof.
  (* both reads are instances of the round-trip theorems; what is evaluated is the hypotheses and
     the sorted, filtered entries *)
  assert (Hwf : forallb wf_tlinfo (tl_entries ex_tl_wide) = true) by (vm_compute; reflexivity).
  assert (He : wf_entries (tl_entries ex_tl_wide)).
  { split; [exact Hwf|]. unfold ex_tl_wide. repeat apply tl_add_nodup. constructor. }
  assert (Ht : nonl (tl_tag ex_tl_wide)) by (apply no_nl_nonl; reflexivity).
  split; [exact Hwf|].
  pose proof (tl_read_write ex_tl_wide (lit "Linux64-gli") Ht He) as R1.
  pose proof (tl_read_write_override ex_tl_wide (lit "DarwinX86-arm64") (lit "DarwinX86-arm64") Ht He eq_refl) as R2.
  change (tl_tag ex_tl_wide) with (lit "current") in R1, R2. rewrite R1, R2.
  split; vm_compute; reflexivity.
Qed.

Definition ex_dep_wide : dep :=
  mkDep (lit "meas_extensions_") (lit "7.3.1.0+svn") (Some (lit "Linux64-glibc")) (Some (lit "ups/meas_extensions_.table"))
        (Some (lit "Linux64/meas_extensions_/7.3.1x")) None false false [].

(* every column of a manifest line overflown by one character *)
Example manifest_line_at_the_boundary :
  dep_line true None (lit "Linux64") ex_dep_wide
    = lit "meas_extensions_ Linux64-glibc 7.3.1.0+svn ups/meas_extensions_.table Linux64/meas_extensions_/7.3.1x None" /\
  m_read true true false empty_manifest
    (m_write true true None (lit "Linux64") (lit "verif") (lit "T") (lit "V")
       (mkManifest (Some (lit "top")) (Some (lit "1.0")) [ex_dep2; ex_dep_wide; ex_dep1]))
  = Ok (norm_manifest true None (lit "Linux64")
       (mkManifest (Some (lit "top")) (Some (lit "1.0")) [ex_dep2; ex_dep_wide; ex_dep1])) /\
  wf_dep ex_dep_wide = true.
Proof.
  split; [vm_compute; reflexivity|]. split; [|vm_compute; reflexivity].
  apply manifest_roundtrip; vm_compute; reflexivity.
Qed.

(* Model/ManifestOps.v: the object and the files it has written are a state (ts_list, ts_files);
   addProduct, write(file, flavor=fa, noaction) and read(file) are steps on it.  The property
   speaks of -a list written by eups-: whatever was done to the object before, and whatever is
   written afterwards, the file holds the list as it stands.  write is a function of the list:
   it returns the list unchanged. *)

(* a write - with or without the flavor override, dry run or not - leaves the list it writes as it was *)
Theorem write_leaves_list_unchanged s f fa na s' :
  tl_step s (TWrite f fa na) = Ok s' -> ts_list s' = ts_list s.
Proof. cbn [tl_step]. intros H. inversion H. reflexivity. Qed.
Print Assumptions write_leaves_list_unchanged.

(* a dry run changes nothing at all: neither the list nor any file *)
Theorem write_noaction_changes_nothing s f fa : tl_step s (TWrite f fa true) = Ok s.
Proof. destruct s. reflexivity. Qed.
Print Assumptions write_noaction_changes_nothing.

(* any sequence of writes succeeds and leaves the list as it was *)
Theorem writes_leave_list_unchanged s ops :
  forallb tl_is_write ops = true ->
  exists s', tl_run s ops = Ok s' /\ ts_list s' = ts_list s.
Proof. apply tl_run_writes. Qed.
Print Assumptions writes_leave_list_unchanged.

(* write(file, flavor=g) read back: a reader of flavor fl sees the visible ones among the entries
   restamped with g - same products, sorted, same version and extra columns *)
Theorem taglist_roundtrip_override t g fl :
  nonl (tl_tag t) -> wf_entries (tl_entries t) -> wf_word g = true ->
  tl_read (tl_new (tl_tag t) (Some fl)) (tl_write (Some g) t)
  = Ok (mkTl (tl_tag t) fl
         (map (as_flavor fl) (filter (visible fl) (map (restamp g) (sorted_entries (tl_entries t)))))).
Proof. apply tl_read_write_override. Qed.
Print Assumptions taglist_roundtrip_override.

(* read back for the flavor it was written for: every product of the list, under that flavor *)
Theorem write_override_roundtrip t g :
  nonl (tl_tag t) -> wf_entries (tl_entries t) -> wf_word g = true ->
  tl_read (tl_new (tl_tag t) (Some g)) (tl_write (Some g) t)
  = Ok (mkTl (tl_tag t) g (map (restamp g) (sorted_entries (tl_entries t)))).
Proof.
  intros Ht Hwf Hg. rewrite tl_read_write_override by assumption. now rewrite visible_restamp_same.
Qed.
Print Assumptions write_override_roundtrip.

(* read back for any other flavor (the override not being the wild card): nothing *)
Theorem write_override_other_reader t g fl :
  nonl (tl_tag t) -> wf_entries (tl_entries t) -> wf_word g = true -> g <> fl -> g <> s_generic ->
  tl_read (tl_new (tl_tag t) (Some fl)) (tl_write (Some g) t) = Ok (mkTl (tl_tag t) fl []).
Proof.
  intros Ht Hwf Hg H1 H2. rewrite tl_read_write_override by assumption.
  now rewrite visible_restamp_other.
Qed.
Print Assumptions write_override_other_reader.

(* for all lists and all sequences of writes before: after any
   writes (overrides, dry runs, other files or the same one) a plain write puts into the file the
   list as it was before them, and a reader of flavor fl reads back exactly its visible entries *)
Theorem write_after_writes_roundtrip s ops f fl s' :
  forallb tl_is_write ops = true ->
  nonl (tl_tag (ts_list s)) -> wf_entries (tl_entries (ts_list s)) ->
  tl_run s (ops ++ [TWrite f None false]) = Ok s' ->
  ts_list s' = ts_list s /\
  exists text, alookup f (ts_files s') = Some text /\
    tl_read (tl_new (tl_tag (ts_list s)) (Some fl)) text
    = Ok (mkTl (tl_tag (ts_list s)) fl
           (map (as_flavor fl) (filter (visible fl) (sorted_entries (tl_entries (ts_list s)))))).
Proof.
  intros Hw Ht Hwf Hr. rewrite tl_run_app in Hr.
  destruct (tl_run_writes ops s Hw) as [s1 [H1 Hl]]. rewrite H1 in Hr.
  cbn [tl_run tl_step] in Hr. inversion Hr; subst s'; clear Hr. cbn [ts_list ts_files].
  split; [assumption|]. eexists. split; [apply alookup_aset_same|].
  rewrite Hl. now apply tl_read_write.
Qed.
Print Assumptions write_after_writes_roundtrip.

(* the same for Manifest objects: addDependency, write(file, noOptional, flavor, noaction),
   read(file, setproduct, shouldRecurse) into the same object, reverse *)
Theorem mwrite_leaves_manifest_unchanged efl who time ver s f noopt fa na s' :
  m_step efl who time ver s (MWrite f noopt fa na) = Ok s' -> ms_man s' = ms_man s.
Proof. cbn [m_step]. intros H. inversion H. reflexivity. Qed.
Print Assumptions mwrite_leaves_manifest_unchanged.

Theorem mwrite_noaction_changes_nothing efl who time ver s f noopt fa :
  m_step efl who time ver s (MWrite f noopt fa true) = Ok s.
Proof. destruct s. reflexivity. Qed.
Print Assumptions mwrite_noaction_changes_nothing.

(* after any writes a further write puts into the file the manifest as it was before them: read
   back it gives the same entries in the same order with the same fields (manifest_roundtrip) *)
Theorem mwrite_after_writes_roundtrip efl who time ver s ops f noopt fa s' :
  forallb m_is_write ops = true ->
  wf_manifest (ms_man s) = true -> wf_oword fa = true -> wf_word efl = true ->
  no_nl who = true -> no_nl time = true -> no_nl ver = true ->
  m_run efl who time ver s (ops ++ [MWrite f noopt fa false]) = Ok s' ->
  ms_man s' = ms_man s /\
  exists text, alookup f (ms_files s') = Some text /\
    m_read true true false empty_manifest text = Ok (norm_manifest noopt fa efl (ms_man s)).
Proof.
  intros Hw Hwf Hfa Hefl H1 H2 H3 Hr. rewrite m_run_app in Hr.
  destruct (m_run_writes efl who time ver ops s Hw) as [s1 [Hs1 Hm]]. rewrite Hs1 in Hr.
  cbn [m_run m_step] in Hr. inversion Hr; subst s'; clear Hr. cbn [ms_man ms_files].
  split; [assumption|]. eexists. split; [apply alookup_aset_same|].
  rewrite Hm. now apply manifest_roundtrip.
Qed.
Print Assumptions mwrite_after_writes_roundtrip.

Definition ex_tl_mixed : tlist :=
  tl_add (tl_add (tl_add (tl_new (lit "stable") (Some (lit "Linux64")))
    (lit "afw") (lit "3.2") None []) (lit "base") (lit "1.0") (Some (lit "generic")) [lit "x"])
    (lit "cfitsio") (lit "3006.2") (Some (lit "DarwinX86")) [].

(* a list of three flavors published for another platform (also as a dry run), then as it is: the
   second file gives a Linux64 reader afw and base, a DarwinX86 reader base and cfitsio; the first
   file gives a DarwinX86 reader all three; the dry run wrote no file *)
Definition ex_ops : list tl_op :=
  [TWrite (lit "d") (Some (lit "DarwinX86")) false; TWrite (lit "n") (Some (lit "DarwinX86")) true].

Definition ex_ops_seen : option (list str * list (list str)) :=
  match tl_run (mkTs ex_tl_mixed []) (ex_ops ++ [TWrite (lit "f") None false]) with
  | Ok s' =>
      Some (akeys (ts_files s'),
            map (fun fr => match alookup (fst fr) (ts_files s') with
                           | Some text => match tl_read (tl_new (lit "stable") (Some (snd fr))) text with
                                          | Ok t => akeys (tl_entries t)
                                          | Err _ => []
                                          end
                           | None => []
                           end)
                [(lit "f", lit "Linux64"); (lit "f", lit "DarwinX86"); (lit "d", lit "DarwinX86")])
  | Err _ => None
  end.

Example ops_hyps_inhabited :
  forallb tl_is_write ex_ops = true /\ forallb wf_tlinfo (tl_entries ex_tl_mixed) = true /\
  ex_ops_seen = Some ([lit "d"; lit "f"],
                      [[lit "afw"; lit "base"]; [lit "base"; lit "cfitsio"]; [lit "afw"; lit "base"; lit "cfitsio"]]).
Proof. vm_compute. repeat split. Qed.

(* A remap table is a list of rows, each one call of Mapping.add(inProduct, inVersion,
   outProduct, outVersion, flavor) (what a line of manifest.remap becomes); m_of_rows builds
   the Mapping.  says rows fl p v is what the table says about manifest entry (p, v) when the
   running flavor is fl, read off the rows alone: rows of flavor fl before generic rows, the
   row for version v before the row for any, later rows override earlier ones; the winning row
   either gives a replacement (product, version) or, having no out-version, deletes. *)

(* remapEntries does to every entry exactly what the table says: entries the table does not
   name are untouched (same record, same position), named ones are replaced by the fresh
   record of the new product and version, or dropped.  For all tables and all lists. *)
Theorem remap_exact rows fl ds :
  remap true (m_of_rows rows) fl ds = spec_remap rows fl ds.
Proof. apply remap_says. Qed.
Print Assumptions remap_exact.

Corollary remap_untouched rows fl d :
  says rows fl (d_product d) (d_version d) = None ->
  remap true (m_of_rows rows) fl [d] = [d].
Proof.
  intros Hs. rewrite remap_exact. cbn [spec_remap flat_map]. unfold spec_remap_dep. now rewrite Hs.
Qed.
Print Assumptions remap_untouched.

Corollary remap_replaced rows fl d q w :
  says rows fl (d_product d) (d_version d) = Some (Replace q w) ->
  (q, w) <> (d_product d, d_version d) ->
  remap true (m_of_rows rows) fl [d] = [replaced q w].
Proof.
  intros Hs Hne. rewrite remap_exact. cbn [spec_remap flat_map]. unfold spec_remap_dep. rewrite Hs.
  destruct (str_eqb_spec q (d_product d)) as [->|]; [|reflexivity].
  destruct (str_eqb_spec w (d_version d)) as [->|]; [congruence|reflexivity].
Qed.
Print Assumptions remap_replaced.

Corollary remap_deleted rows fl d :
  says rows fl (d_product d) (d_version d) = Some Delete ->
  remap true (m_of_rows rows) fl [d] = [].
Proof.
  intros Hs. rewrite remap_exact. cbn [spec_remap flat_map]. unfold spec_remap_dep. now rewrite Hs.
Qed.
Print Assumptions remap_deleted.

(* the same, for Mapping.apply alone *)
Theorem apply_exact_table rows fl p v :
  match says rows fl p v with
  | None => m_apply (m_of_rows rows) p v fl = (p, Some v)
  | Some (Replace q w) => m_apply (m_of_rows rows) p v fl = (q, Some w)
  | Some Delete => snd (m_apply (m_of_rows rows) p v fl) = None
  end.
Proof.
  rewrite apply_says, <- fm_says_rows.
  now destruct (fm_says (mp_map (m_of_rows rows)) fl p v) as [[q [w|]]|].
Qed.
Print Assumptions apply_exact_table.

Definition ex_rows : list row :=
  [ mkRow (lit "doxygen") (lit "1.5.9") None (Some (lit "1.6.3")) (lit "generic");
    mkRow (lit "python") (lit "any") None (Some (lit "2.6.2")) (lit "generic");
    mkRow (lit "tcltk") (lit "any") None None (lit "generic");
    mkRow (lit "tcltk") (lit "any") (Some (lit "dummytk")) (Some (lit "1.0")) (lit "DarwinX86") ].

Example remap_hyps_inhabited :
  remap true (m_of_rows ex_rows) (lit "Linux64") [ex_dep1; ex_dep2; ex_dep3] = [ex_dep1; ex_dep2] /\
  remap true (m_of_rows ex_rows) (lit "DarwinX86") [ex_dep3] = [replaced (lit "dummytk") (lit "1.0")].
Proof. vm_compute. repeat split. Qed.

Definition mk (p v : string) : dep := mkDep (lit p) (lit v) None None None None false false [].
Arguments mk (p v)%string.
Definition remap_pinned := remap_with (m_apply_pinned true).
Definition remap_pinned27 := remap_with (m_apply_pinned false).

(* the tree before the repair (D26): the row -a:1 None- deleted every version of a, not only 1;
   the repaired code keeps a 2 *)
Example remap_exact_refuted_pinned_delete_version :
  let rows := [mkRow (lit "a") (lit "1") None None (lit "generic")] in
  says rows (lit "generic") (lit "a") (lit "2") = None /\
  remap_pinned (m_of_rows_pinned rows) (lit "generic") [mk "a" "2"] = [] /\
  remap true (m_of_rows rows) (lit "generic") [mk "a" "2"; mk "a" "1"] = [mk "a" "2"].
Proof. vm_compute. repeat split. Qed.

(* the tree before the repair (D26): a deletion row next to a replacement row of the same product
   was lost *)
Example remap_exact_refuted_pinned_delete_lost :
  let rows := [mkRow (lit "a") (lit "1") None (Some (lit "2")) (lit "generic");
               mkRow (lit "a") (lit "any") None None (lit "generic")] in
  says rows (lit "generic") (lit "a") (lit "3") = Some Delete /\
  remap_pinned (m_of_rows_pinned rows) (lit "generic") [mk "a" "3"] = [mk "a" "3"] /\
  remap true (m_of_rows rows) (lit "generic") [mk "a" "3"; mk "a" "1"] = [replaced (lit "a") (lit "2")].
Proof. vm_compute. repeat split. Qed.

(* the tree before the repair (D27): the Linux64 row sends every a to version 2, the generic row
   to version 3; the entry a 2 on Linux64 became a 3 (with or without the repair of D26) *)
Example remap_exact_refuted_pinned_identity :
  let rows := [mkRow (lit "a") (lit "any") None (Some (lit "2")) (lit "Linux64");
               mkRow (lit "a") (lit "any") None (Some (lit "3")) (lit "generic")] in
  says rows (lit "Linux64") (lit "a") (lit "2") = Some (Replace (lit "a") (lit "2")) /\
  remap_pinned (m_of_rows_pinned rows) (lit "Linux64") [mk "a" "2"] = [replaced (lit "a") (lit "3")] /\
  remap_pinned27 (m_of_rows rows) (lit "Linux64") [mk "a" "2"] = [replaced (lit "a") (lit "3")] /\
  remap true (m_of_rows rows) (lit "Linux64") [mk "a" "2"] = [mk "a" "2"].
Proof. vm_compute. repeat split. Qed.

(* Mapping.merge(other, overwrite) is the row-wise union of the two tables: every lookup
   (flavor, product, version) in the merged table is the lookup in the table that takes
   precedence when it has such a row, else the lookup in the other one.  fm_nodup: the
   dictionaries have no duplicate keys, which holds of every table built by add and merge. *)
Theorem merge_lookup m o ow f p k :
  fm_nodup (mp_map o) ->
  fm_get (mp_map (m_merge m o ow)) f p k =
  if ow then match fm_get (mp_map o) f p k with Some x => Some x | None => fm_get (mp_map m) f p k end
  else match fm_get (mp_map m) f p k with Some x => Some x | None => fm_get (mp_map o) f p k end.
Proof.
  intros H. rewrite <- !mget_fm_get. cbn [m_merge mp_map]. rewrite mget_fm_merge by assumption.
  destruct ow; reflexivity.
Qed.
Print Assumptions merge_lookup.

(* laws, up to the equality of all lookups: the empty table is neutral, merge is idempotent and
   associative, and merging without overwrite is merging the other way round with overwrite *)
Theorem merge_laws a b c ow :
  fm_nodup a -> fm_nodup b -> fm_nodup c ->
  fm_merge a [] ow = a /\ fm_equiv (fm_merge [] a ow) a /\ fm_equiv (fm_merge a a ow) a /\
  fm_equiv (fm_merge (fm_merge a b ow) c ow) (fm_merge a (fm_merge b c ow) ow) /\
  fm_equiv (fm_merge a b false) (fm_merge b a true) /\
  fm_nodup (fm_merge a b ow).
Proof.
  intros Ha Hb Hc. split; [apply merge_empty_r|]. split; [now apply merge_empty_l|]. split; [now apply merge_idem|].
  split; [now apply merge_assoc|]. split; [now apply merge_flip|]. now apply fm_merge_nodup.
Qed.
Print Assumptions merge_laws.

(* the merged table of two remap tables is the table of the concatenated rows, the rows of the
   table that takes precedence last *)
Theorem merge_is_concatenation a b ow :
  fm_equiv (mp_map (m_merge (m_of_rows a) (m_of_rows b) ow))
           (mp_map (m_of_rows (if ow then a ++ b else b ++ a))).
Proof. apply merge_rows. Qed.
Print Assumptions merge_is_concatenation.

(* remapEntries with the rows of the manifest.remap files merged under the rows passed in (a per-user
   or rebuild table over a server table) does exactly what all the rows together say *)
Theorem remap_merged_exact extra files fl ds :
  remap true (m_merge (m_of_rows extra) (m_of_rows files) false) fl ds = spec_remap (files ++ extra) fl ds.
Proof. apply remap_merged_says. Qed.
Print Assumptions remap_merged_exact.

(* the tree before the repair: merge took the flavors for products and the products for versions, so
   the unit kept or replaced was the whole dictionary of a product; the file row for a 2 was lost
   when the table passed in had a row for a 1 *)
Example merge_refuted_pinned :
  let extra := [mkRow (lit "a") (lit "1") None (Some (lit "5")) (lit "generic")] in
  let files := [mkRow (lit "a") (lit "2") None (Some (lit "6")) (lit "generic")] in
  says (files ++ extra) (lit "generic") (lit "a") (lit "2") = Some (Replace (lit "a") (lit "6")) /\
  remap true (m_merge_pinned (m_of_rows extra) (m_of_rows files) false) (lit "generic") [mk "a" "2"] = [mk "a" "2"] /\
  remap true (m_merge (m_of_rows extra) (m_of_rows files) false) (lit "generic") [mk "a" "2"]
    = [replaced (lit "a") (lit "6")].
Proof. vm_compute. repeat split. Qed.

(* remap_rows mode text: the rows the lines of a manifest.remap file name when the mode asked for
   is mode (None on installation, create when a distribution is made): comments and blank lines
   dropped, a line with a bracketed prefix applies exactly when the prefix is the mode, a line
   without prefix exactly when no mode is asked for, verbose lines skipped, each remaining line
   -product[:version] [[outProduct:]outVersion] [flavor]- one row.  Err Crash: a field that begins
   with a colon (AttributeError in the code). *)

(* the reader adds exactly the rows of the file, in the order of the file *)
Theorem read_remap_adds_rows ow mode text m :
  read_remap ow mode text m =
  match remap_rows mode text with
  | Ok rows => Ok (fold_left (add_row_ow ow) rows m)
  | Err e => Err e
  end.
Proof. apply read_remap_rows. Qed.
Print Assumptions read_remap_adds_rows.

(* remapEntries(mapping, mode) with manifest.remap files: the entries are treated exactly as the
   rows of the files (in the order of hooks.customisationDirs) followed by the rows passed in say *)
Theorem remap_entries_exact extra texts mode fl ds frows :
  files_rows mode texts = Ok frows ->
  remap_entries true (m_of_rows extra) texts mode fl ds =
  Ok (m_merge (m_of_rows extra) (m_of_rows frows) false, spec_remap (frows ++ extra) fl ds).
Proof. apply remap_entries_says. Qed.
Print Assumptions remap_entries_exact.

(* Mapping.__str__ prints a table in the format of manifest.remap; reading the print back gives a
   table that answers every lookup as the printed one (python: equal dictionaries), hence remaps
   alike.  wf_table: fields are words free of hash signs, in-products free of colons and equals
   signs and not opening a bracket, in-versions not the capitalised Any, out-versions none of
   any / none / None / noreinstall, removal rows carry the in-product *)
Theorem remap_print_parse m :
  wf_table m = true -> fm_nodup (mp_map m) ->
  exists m', read_remap true None (m_print m) empty_mapping = Ok m' /\
             fm_equiv (mp_map m') (mp_map m) /\ mp_nore m' = [] /\
             forall fl ds, remap true m' fl ds = remap true m fl ds.
Proof.
  intros Hwf Hnd. destruct (print_parse_lemma m Hwf Hnd) as [m' [H1 [H2 H3]]].
  exists m'. repeat split; auto. intros fl ds. now apply remap_equiv.
Qed.
Print Assumptions remap_print_parse.

Corollary remap_print_parse_table rows :
  wf_table (m_of_rows rows) = true ->
  exists m', read_remap true None (m_print (m_of_rows rows)) empty_mapping = Ok m' /\
             forall fl ds, remap true m' fl ds = spec_remap rows fl ds.
Proof.
  intros Hwf. destruct (remap_print_parse _ Hwf (m_of_rows_nodup rows)) as [m' [H1 [_ [_ H4]]]].
  exists m'. split; [assumption|]. intros fl ds. now rewrite H4, remap_exact.
Qed.
Print Assumptions remap_print_parse_table.

(* the example of the documentation of remapEntries *)
Definition nl1 : str := [c_nl].
Definition ex_file : str :=
  lit "# a comment" ++ nl1 ++
  lit "doxygen:1.5.9                1.6.3" ++ nl1 ++
  lit "python:Any                   2.6.2   # any python" ++ nl1 ++
  nl1 ++
  lit "tcltk                        None" ++ nl1 ++
  lit "tcltk:*                      dummy:1.0               DarwinX86" ++ nl1 ++
  lit "[create]afwdata              None" ++ nl1 ++
  lit "verbose = 1" ++ nl1.

Example remap_file_inhabited :
  remap_rows None ex_file =
    Ok [ mkRow (lit "doxygen") (lit "1.5.9") (Some (lit "doxygen")) (Some (lit "1.6.3")) (lit "generic");
         mkRow (lit "python") (lit "any") (Some (lit "python")) (Some (lit "2.6.2")) (lit "generic");
         mkRow (lit "tcltk") (lit "any") (Some (lit "tcltk")) None (lit "generic");
         mkRow (lit "tcltk") (lit "*") (Some (lit "dummy")) (Some (lit "1.0")) (lit "DarwinX86") ] /\
  remap_rows (Some (lit "create")) ex_file =
    Ok [ mkRow (lit "afwdata") (lit "any") (Some (lit "afwdata")) None (lit "generic") ] /\
  wf_table (m_of_rows ex_rows) = true /\
  m_print (m_of_rows [mkRow (lit "tcltk") (lit "any") None None (lit "generic");
                      mkRow (lit "a") (lit "1") (Some (lit "b")) (Some (lit "2")) (lit "Linux64")])
    = lit "tcltk:any    None    generic" ++ nl1 ++ lit "a:1    b:2    Linux64" ++ nl1.
Proof. vm_compute. repeat split. Qed.

(* the pinned reader, which is given no mode, takes every line *)
Lemma ex_file_rows_pinned :
  file_rows false None (lines_of ex_file) =
    Ok [ mkRow (lit "doxygen") (lit "1.5.9") (Some (lit "doxygen")) (Some (lit "1.6.3")) (lit "generic");
         mkRow (lit "python") (lit "any") (Some (lit "python")) (Some (lit "2.6.2")) (lit "generic");
         mkRow (lit "tcltk") (lit "any") (Some (lit "tcltk")) None (lit "generic");
         mkRow (lit "tcltk") (lit "*") (Some (lit "dummy")) (Some (lit "1.0")) (lit "DarwinX86");
         mkRow (lit "afwdata") (lit "any") (Some (lit "afwdata")) None (lit "generic") ].
Proof. vm_compute. reflexivity. Qed.

(* the tree before the repair: remapEntries passed its mode in the place of overwrite, so the reader
   saw no mode; the create line was applied on installation too (afwdata dropped although no line
   for installation names it), and the lines for installation were applied when creating *)
Example remap_mode_refuted_pinned :
  (exists m, read_remap_pinned None ex_file empty_mapping = Ok m /\
             remap true m (lit "Linux64") [mk "afwdata" "1"] = []) /\
  (exists m, read_remap true None ex_file empty_mapping = Ok m /\
             remap true m (lit "Linux64") [mk "afwdata" "1"] = [mk "afwdata" "1"]) /\
  (exists m, read_remap_pinned (Some (lit "create")) ex_file empty_mapping = Ok m /\
             remap true m (lit "Linux64") [mk "doxygen" "1.5.9"] = [replaced (lit "doxygen") (lit "1.6.3")]) /\
  (exists m, read_remap true (Some (lit "create")) ex_file empty_mapping = Ok m /\
             remap true m (lit "Linux64") [mk "doxygen" "1.5.9"; mk "afwdata" "1"] = [mk "doxygen" "1.5.9"]).
Proof.
  destruct remap_file_inhabited as [R1 [R2 _]].
  split; [|split; [|split]]; eexists.
  - split; [rewrite read_remap_pinned_rows, ex_file_rows_pinned; reflexivity | vm_compute; reflexivity].
  - split; [rewrite read_remap_adds_rows, R1; reflexivity | vm_compute; reflexivity].
  - split; [rewrite read_remap_pinned_rows, ex_file_rows_pinned; reflexivity | vm_compute; reflexivity].
  - split; [rewrite read_remap_adds_rows, R2; reflexivity | vm_compute; reflexivity].
Qed.

(* an entry replaced by version dummy of a product without such a version is declared on the way
   (at most once); the list that comes back does not depend on it *)
Example remap_dummy_inhabited :
  let rows := [mkRow (lit "tcltk") (lit "any") (Some (lit "tk")) (Some (lit "dummy")) (lit "generic")] in
  remap_declares (m_of_rows rows) (lit "Linux64") [] [mk "tcltk" "8.5"; mk "a" "1"; mk "tcltk" "8.6"] = [lit "tk"] /\
  remap_declares (m_of_rows rows) (lit "Linux64") [lit "tk"] [mk "tcltk" "8.5"] = [].
Proof. vm_compute. repeat split. Qed.

(* m_rows m: the rows (flavor, inProduct, inVersion, outProduct, outVersion) Mapping.inverse
   visits; a row without out-version is a removal and is skipped.  invertible_row: a replacement
   row has explicit versions on both sides (no any) and nothing that add would take for the
   noreinstall keyword or for -absent-.  one_to_one m fl: seen from the running flavor fl (its own
   rows before the generic ones) no two named entries that are kept are sent to the same target.
   fm_nodup: the dictionaries have no duplicate keys, which holds of every Mapping built by add
   (inverse_undoes_table). *)

(* for a one-to-one mapping the inverse undoes apply on every entry the mapping names and keeps;
   rows that map an entry to itself and removal rows are allowed *)
Theorem inverse_undoes m inv fl p v q w :
  fm_nodup (mp_map m) ->
  forallb invertible_row (m_rows m) = true -> one_to_one m fl = true ->
  m_inverse m = Ok inv ->
  in_dom m fl p v = true -> m_apply m p v fl = (q, Some w) ->
  m_apply inv q w fl = (p, Some v).
Proof. apply inverse_undoes_lemma. Qed.
Print Assumptions inverse_undoes.

Corollary inverse_undoes_table rows inv fl p v q w :
  forallb invertible_row (m_rows (m_of_rows rows)) = true -> one_to_one (m_of_rows rows) fl = true ->
  m_inverse (m_of_rows rows) = Ok inv ->
  in_dom (m_of_rows rows) fl p v = true -> m_apply (m_of_rows rows) p v fl = (q, Some w) ->
  m_apply inv q w fl = (p, Some v).
Proof. apply inverse_undoes. apply m_of_rows_nodup. Qed.
Print Assumptions inverse_undoes_table.

(* two replacement rows of one flavor with the same target: inverse raises *)
Theorem inverse_rejects_non_injective m R1 r1 R2 r2 R3 :
  forallb invertible_row (m_rows m) = true ->
  m_rows m = R1 ++ r1 :: R2 ++ r2 :: R3 -> live_row r1 = true -> row_target r1 = row_target r2 ->
  m_inverse m = Err Refused.
Proof. apply inverse_rejects_lemma. Qed.
Print Assumptions inverse_rejects_non_injective.

(* and only then: with pairwise different targets of the replacement rows inverse succeeds *)
Theorem inverse_accepts_injective m :
  forallb invertible_row (m_rows m) = true -> NoDup (map row_target (filter live_row (m_rows m))) ->
  exists inv, m_inverse m = Ok inv.
Proof. intros Hwf Hnd. unfold m_inverse. apply fold_ok; auto. Qed.
Print Assumptions inverse_accepts_injective.

Definition ex_inv_rows : list row :=
  [ mkRow (lit "a") (lit "1") None (Some (lit "2")) (lit "generic");
    mkRow (lit "b") (lit "1") (Some (lit "c")) (Some (lit "7")) (lit "generic");
    mkRow (lit "a") (lit "1") (Some (lit "d")) (Some (lit "4")) (lit "Linux64");
    mkRow (lit "k") (lit "1") None (Some (lit "1")) (lit "Linux64");
    mkRow (lit "k") (lit "1") None (Some (lit "9")) (lit "generic");
    mkRow (lit "z") (lit "any") None None (lit "generic") ].

Example inverse_hyps_inhabited :
  forallb invertible_row (m_rows (m_of_rows ex_inv_rows)) = true /\
  one_to_one (m_of_rows ex_inv_rows) (lit "Linux64") = true /\
  in_dom (m_of_rows ex_inv_rows) (lit "Linux64") (lit "a") (lit "1") = true /\
  m_apply (m_of_rows ex_inv_rows) (lit "a") (lit "1") (lit "Linux64") = (lit "d", Some (lit "4")) /\
  m_apply (m_of_rows ex_inv_rows) (lit "k") (lit "1") (lit "Linux64") = (lit "k", Some (lit "1")) /\
  exists inv, m_inverse (m_of_rows ex_inv_rows) = Ok inv /\
              m_apply inv (lit "d") (lit "4") (lit "Linux64") = (lit "a", Some (lit "1")) /\
              m_apply inv (lit "c") (lit "7") (lit "Linux64") = (lit "b", Some (lit "1")) /\
              m_apply inv (lit "k") (lit "1") (lit "Linux64") = (lit "k", Some (lit "1")).
Proof. do 5 (split; [vm_compute; reflexivity|]). eexists. split; [vm_compute; reflexivity|]. repeat split. Qed.

Example inverse_rejects_inhabited :
  m_inverse (m_of_rows [ mkRow (lit "a") (lit "1") None (Some (lit "3")) (lit "generic");
                         mkRow (lit "a") (lit "2") None (Some (lit "3")) (lit "generic") ]) = Err Refused.
Proof. vm_compute. reflexivity. Qed.
