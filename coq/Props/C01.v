(* C01 - Setup yields a consistent environment with no residue of superseded versions.
   Model/Setup.v with an abstract resolver (every statement holds for every resolver).

   [clause name e], for every product name: if the environment records a declared version p of name
   (SETUP_<NAME>), then <NAME>_DIR is p's declared directory, every path element and envSet value that
   p's table contributes is present, and NO path element or envSet value contributed by any OTHER declared
   version of name is present; if it records nothing, no contribution of any version of name is present.
   [Inv e] is the clause for all names.  WF2 (Proofs/SetupInv.v): well-formed table values, one delimiter
   per path variable, contributions of different names and of different versions of one name are apart
   (tables speak about their own PRODUCT_DIR), the dependency graph over names is acyclic (rank), names and
   versions are single words. *)
From Eupsv Require Import Base.Base Base.BaseLemmas Model.PathAlg Proofs.PathAlg Model.Setup Proofs.SetupFrame Proofs.SetupInv.
From Coq Require Import Lia.
From Eupsv Require Import Proofs.SetupTopLevel.

(* every call of setup (top level or nested, setup or unsetup, whatever the decisions, keep/just/max-depth)
   that returns maps consistent environments to consistent environments: in particular after a traversal
   that switched products between versions (diamonds included) nothing of the replaced versions is left *)
Theorem setup_preserves_inv w cfg dl rank fuel st ds name fwd depth just ok st' ds' :
  WF2 w dl rank -> nodollar_paths w (s_env st) -> depth_ok cfg depth -> Inv w (s_env st) ->
  setup w cfg fuel st ds name fwd depth just = RDone ok st' ds' ->
  Inv w (s_env st') /\ nodollar_paths w (s_env st').
Proof. intro H. exact (setup_preserves_Inv w cfg dl rank H fuel st ds name fwd depth just ok st' ds'). Qed.
Print Assumptions setup_preserves_inv.

Theorem request_preserves_inv w cfg dl rank fuel st ds name fwd just st' :
  WF2 w dl rank -> nodollar_paths w (s_env st) -> Inv w (s_env st) ->
  request w cfg fuel st ds name fwd just = Ok (Some st') -> Inv w (s_env st').
Proof.
  intros H Hnd HI Hr. unfold request in Hr.
  destruct (setup w cfg fuel st ds name fwd 0 just) as [ok st1 ds1|st1 ds1| |] eqn:E; try discriminate.
  destruct ok; [|discriminate]. injection Hr as <-.
  exact (proj1 (setup_preserves_inv w cfg dl rank fuel st ds name fwd 0 just true st1 ds1 H Hnd (depth_ok_top cfg) HI E)).
Qed.
Print Assumptions request_preserves_inv.

(* what the invariant says about a product that is set up: directory variable, contributions present,
   no residue of any other version *)
Theorem recorded_product_is_consistent w name e p :
  Inv w e -> find_setup_product w e name = Some p ->
  alookup (dir_var name) e = Some (p_dir p) /\ present p e /\
  forall q, In q w -> p_name q = name -> q <> p -> absent q e.
Proof.
  intros HI Hf. pose proof (HI name) as C. unfold clause in C. rewrite Hf in C.
  destruct C as [D [P A]]. split; [assumption|split; [assumption|]].
  intros q Hq Hn Hne. apply A; [split; assumption|assumption].
Qed.
Print Assumptions recorded_product_is_consistent.

Theorem unrecorded_product_leaves_no_residue w name e q :
  Inv w e -> find_setup_product w e name = None -> In q w -> p_name q = name -> absent q e.
Proof.
  intros HI Hf Hq Hn. pose proof (HI name) as C. unfold clause in C. rewrite Hf in C. apply C. split; assumption.
Qed.
Print Assumptions unrecorded_product_leaves_no_residue.

(* the version decided for the requested product at the top level is the version set up (with
   explicit_toplevel_version_honoured of C03 - the resolver's decision for an explicitly named version is that
   version - this is "if a version was named explicitly, that is the version set up") *)
Theorem decided_version_is_set_up w cfg dl rank fuel st v ds name just st' ds' :
  WF2 w dl rank -> nodollar_paths w (s_env st) -> Inv w (s_env st) ->
  setup w cfg fuel st (Some v :: ds) name true 0 just = RDone true st' ds' ->
  exists p, find_pv w name v = Some p /\ p_version p = v /\ find_setup_product w (s_env st') name = Some p.
Proof.
  intros H Hnd HI Hrun.
  pose proof (setup_inv w cfg dl rank H fuel st (Some v :: ds) name true 0 just Hnd (depth_ok_top cfg) (fun n _ => HI n)) as I0.
  rewrite Hrun in I0. destruct I0 as [_ [_ T]].
  destruct (T eq_refl eq_refl eq_refl v ds eq_refl) as [p [Hf Hs]].
  exists p. split; [assumption|split; [|assumption]]. now destruct (find_pv_spec w name v p Hf).
Qed.
Print Assumptions decided_version_is_set_up.

(* Closure clause of the property ("when no product is requested in two versions, the set of products set up
   is exactly the dependency closure, each at the designated version").  Proved here is the half that does
   not depend on the resolver: the setup record of a product that no reachable product name owns is unchanged
   (frame theorem of C04), so nothing outside the closure is set up or unset.  The other half - every member
   of the closure IS set up at the version C03's designation gives - needs the resolver model composed with
   this one along the recursion: closure_exact below. *)
Theorem closure_exact_partial w cfg dl fuel st ds name fwd just ok st' ds' q :
  WF w dl -> nodollar_paths w (s_env st) ->
  setup w cfg fuel st ds name fwd 0 just = RDone ok st' ds' ->
  (forall n, touches w (levels cfg 0 just) name n -> ~ own_var w n (setup_var q)) ->
  alookup (setup_var q) (s_env st') = alookup (setup_var q) (s_env st).
Proof.
  intros Hwf Hnd Hrun Hno.
  destruct (top_level_frame w cfg dl (touches w) _ st ds name fwd just ok st' ds' (setup_frame w cfg dl Hwf fuel) Hnd Hrun) as [[V _] _].
  apply V; [|exact Hno].
  apply (reserved_not_path w dl Hwf). exists q. tauto.
Qed.
Print Assumptions closure_exact_partial.

(* ---- the hypotheses are satisfiable, jointly, on a run that exercises the interesting path ----
   The world of Proofs/SetupExample.v: four declared names (base in two versions), an undeclared optional
   dependency, path actions on PATH (colon) and TEXINPUTS (semicolon), envSet actions, aliases, and a diamond
   app -> liba -> base, app -> libb -> base whose decisions put base at 1.0 first and then at 2.0.  WF2 holds
   for it (decided by the checker of Model/SetupWf.v, sound by Proofs/SetupWf.v), the empty environment
   is consistent, the run returns the explicit state ex_final in which base 1.0 has been replaced by base 2.0,
   and setup_preserves_inv then says that ex_final is consistent. *)
From Eupsv Require Import Model.SetupWf Proofs.SetupWf Proofs.SetupExample.
From Eupsv Require Import Proofs.SetupExampleRuns.

Example c01_hypotheses_inhabited :
  WF2 ex_world (dl_of ex_world) (rank_of ex_order) /\
  Inv ex_world (s_env ex_st0) /\ nodollar_paths ex_world (s_env ex_st0) /\ depth_ok ex_cfg 0 /\
  setup ex_world ex_cfg 20 ex_st0 ex_ds (lit "app") true 0 false = RDone true ex_final [] /\
  find_setup_product ex_world (s_env ex_final) (lit "base") = find_pv ex_world (lit "base") (lit "2.0") /\
  Inv ex_world (s_env ex_final).
Proof.
  split; [exact ex_world_wf2|]. split; [apply Inv_nil|]. split; [apply nodollar_nil|]. split; [exact I|].
  split; [exact ex_app_run|]. split; [vm_compute; reflexivity|].
  exact (proj1 (setup_preserves_inv ex_world ex_cfg (dl_of ex_world) (rank_of ex_order) 20 ex_st0 ex_ds (lit "app")
                  true 0 false true ex_final [] ex_world_wf2 (nodollar_nil ex_world) I (Inv_nil ex_world) ex_app_run)).
Qed.
Print Assumptions c01_hypotheses_inhabited.

(* The composed model (Model/SetupFull.v): Model/Setup.v with the version resolver of C03
   (Model/Resolve.v) in place of the stream of decisions.  [setup_full] carries Eups.alreadySetupProducts
   and the VRO, and calls resolve_request for every forward call on the database view [db_of cfg fw]
   (one stack; the declared (name, version) pairs of the world; the chain files fw_tags); [fw_lines] holds
   what Action.processArgs makes of every dependency line.  The correspondence check runs this model
   WITHOUT the real resolver's decisions and compares environments, aliases and decisions. *)
From Eupsv Require Import Model.Resolve Model.ResolveSpec Model.SetupFull Proofs.SetupFull Proofs.SetupFullExample
     Generated.Config.

(* every run of the composed model IS a run of Model/Setup.v: on the decisions it took (trace_of), followed by
   anything.  Hence every theorem about Model/Setup.v for every resolver above and in Props/C02.v, C04.v holds
   of the composed model; the corollaries below state the ones of this file. *)
Theorem setup_full_is_setup vcmp vmatch fw cfg rc flavors fuel st al vro name li fwd depth just rest :
  setup (fw_products fw) cfg fuel st
        (trace_of (setup_full vcmp vmatch fw cfg rc flavors fuel st al vro name li fwd depth just) ++ rest)
        name fwd depth just =
  erase rest (setup_full vcmp vmatch fw cfg rc flavors fuel st al vro name li fwd depth just).
Proof. apply setup_full_agrees. Qed.
Print Assumptions setup_full_is_setup.

Corollary setup_full_preserves_inv vcmp vmatch fw cfg rc flavors dl rank fuel st al vro name li fwd depth just ok st' al' tr :
  WF2 (fw_products fw) dl rank -> nodollar_paths (fw_products fw) (s_env st) -> depth_ok cfg depth ->
  Inv (fw_products fw) (s_env st) ->
  setup_full vcmp vmatch fw cfg rc flavors fuel st al vro name li fwd depth just = FDone ok st' al' tr ->
  Inv (fw_products fw) (s_env st') /\ nodollar_paths (fw_products fw) (s_env st').
Proof. apply setup_full_inv_lemma. Qed.
Print Assumptions setup_full_preserves_inv.

(* the same for a whole command (selectVRO, then Eups.setup from a fresh Eups) *)
Corollary request_full_preserves_inv vcmp vmatch fw cfg rc flavors dl rank fuel st name version fwd just st' tr :
  WF2 (fw_products fw) dl rank -> nodollar_paths (fw_products fw) (s_env st) -> Inv (fw_products fw) (s_env st) ->
  request_full vcmp vmatch fw cfg rc flavors fuel st name version fwd just = Ok (Some st', tr) ->
  Inv (fw_products fw) (s_env st').
Proof.
  intros H Hnd HI E. destruct (request_full_done _ _ _ _ _ _ _ _ _ _ _ _ _ _ E) as [vro [al [_ R]]].
  exact (proj1 (setup_full_inv_lemma vcmp vmatch fw cfg rc flavors dl rank fuel st [] vro name _ fwd 0 just true st' al tr
                  H Hnd (depth_ok_top cfg) HI R)).
Qed.
Print Assumptions request_full_preserves_inv.

(* If a version was named explicitly, that is the version set up: a top-level request that names the
   version v (not a relational expression) and succeeds ends with v recorded for the product - whatever the VRO,
   the tags and the dictionary.  C03's explicit_toplevel_version_honoured composed with decided_version_is_set_up. *)
Theorem explicit_version_is_set_up vcmp vmatch fw cfg rc flavors dl rank fuel st al vro name v x just st' al' tr :
  WF2 (fw_products fw) dl rank -> nodollar_paths (fw_products fw) (s_env st) -> Inv (fw_products fw) (s_env st) ->
  v <> [] -> is_expr v = false ->
  setup_full vcmp vmatch fw cfg rc flavors fuel st al vro name {| li_version := Some v; li_expr := x |} true 0 just
    = FDone true st' al' tr ->
  exists p, find_pv (fw_products fw) name v = Some p /\ p_version p = v /\
            find_setup_product (fw_products fw) (s_env st') name = Some p.
Proof. apply explicit_version_lemma. Qed.
Print Assumptions explicit_version_is_set_up.

Corollary explicit_version_is_set_up_request vcmp vmatch fw cfg rc flavors dl rank fuel st name v just st' tr :
  WF2 (fw_products fw) dl rank -> nodollar_paths (fw_products fw) (s_env st) -> Inv (fw_products fw) (s_env st) ->
  v <> [] -> is_expr v = false ->
  request_full vcmp vmatch fw cfg rc flavors fuel st name (Some v) true just = Ok (Some st', tr) ->
  exists p, find_pv (fw_products fw) name v = Some p /\ p_version p = v /\
            find_setup_product (fw_products fw) (s_env st') name = Some p.
Proof.
  intros H Hnd HI Hne Hx E. destruct (request_full_done _ _ _ _ _ _ _ _ _ _ _ _ _ _ E) as [vro [al [_ R]]].
  exact (explicit_version_lemma vcmp vmatch fw cfg rc flavors dl rank fuel st [] vro name v None just st' al tr H Hnd HI Hne Hx R).
Qed.
Print Assumptions explicit_version_is_set_up_request.

(* ---- the composed model on the example world: the hypotheses are inhabited ----
   ex_fw (Proofs/SetupFullExample.v) is ex_world with the request information of its table lines and its chain
   files.  With the shipped configuration (Generated/Config.v), the dotted-numeric comparator and the flavors
   Linux64, generic:  setup app  from the empty environment computes by itself the decisions ex_ds (base 1.0 below
   liba, replaced by base 2.0 below libb, ghost not found) and ends in ex_final;  setup base 1.0  records base 1.0
   although base 2.0 is current. *)
Example c01_composed_inhabited :
  WF2 (fw_products ex_fw) (dl_of ex_world) (rank_of ex_order) /\
  request_full_simple ex_fw ex_cfg default_config ex_flavors 20 ex_st0 (lit "app") None true false
    = Ok (Some ex_final, ex_ds) /\
  (exists st' tr,
     request_full_simple ex_fw ex_cfg default_config ex_flavors 20 ex_st0 (lit "base") (Some (lit "1.0")) true false
       = Ok (Some st', tr) /\
     find_setup_product ex_world (s_env st') (lit "base") = find_pv ex_world (lit "base") (lit "1.0")).
Proof.
  split; [exact ex_world_wf2|]. split; [vm_compute; reflexivity|].
  eexists. eexists. split; [vm_compute; reflexivity|]. vm_compute. reflexivity.
Qed.
Print Assumptions c01_composed_inhabited.

(* ---- the closure clause, in full ----
   When no product is requested in two different versions along the traversal, nothing of the closure is set
   up beforehand, and the request succeeds, the set of products set up is exactly the dependency closure
   (required dependencies, plus optional ones that resolve), each at the version the VRO designates.

   [conflict_free ... top li D] (Proofs/SetupFullClosure.v): ONE assignment D of a version (or of nothing) to
   every product name explains every request of the traversal - the top-level request designates D top, and in
   the table of every reachable product at its assigned version every dependency line (none with -j) designates,
   for the product it names, what D assigns to it.  [designates] is C03's designation rule.
   [sets_up fw D n]: n is assigned a declared version in whose table every REQUIRED line names a product that sets
   up.  [reach_ok fw D top k]: k is reached from top through lines, required or optional, that name products
   which set up, always in the table of the assigned version - the dependency closure.
   [reachN fw top n]: n is reachable through the lines of any declared version (the frame of C04).

   Conclusion, for a request from a fresh Eups (dictionary empty) that succeeds:
     (1) every member of the closure is recorded, at its assigned (= designated) version;
     (2) every recorded product among the reachable names is a member of the closure (at its assigned version);
     (3) the record of every other product the world knows is what it was.
   Hypotheses besides WF2 and conflict-freedom: nothing reachable is recorded beforehand; no --max-depth, no
   --just, no keep in the VRO; the database view is well formed and the comparator is a total order on the
   declared version names (both as in C03's walk_is_designation).
   (closure_exact_partial above is conjunct (3) for an arbitrary resolver; what it lacked - every member of the
   closure IS set up at the designated version, and nothing else among the reachable names is - are (1) and (2).) *)
From Eupsv Require Import Proofs.SetupFullClosure.
From Eupsv Require Proofs.Resolve.

Theorem closure_exact vcmp vmatch fw cfg rc flavors dl rank vro top li D fuel st st' al' tr :
  WF2 (fw_products fw) dl rank -> c_max_depth cfg = None ->
  wf_db (db_of cfg fw) = true -> (forall n, total_order_on vcmp (names_of (db_of cfg fw) n)) ->
  mem_entry EKeep vro = false ->
  conflict_free vcmp vmatch fw cfg rc flavors vro top li D ->
  nodollar_paths (fw_products fw) (s_env st) ->
  (forall n, reachN fw top n -> find_setup_product (fw_products fw) (s_env st) n = None) ->
  setup_full vcmp vmatch fw cfg rc flavors fuel st [] vro top li true 0 false = FDone true st' al' tr ->
  (forall k, reach_ok fw D top k ->
     exists v q, D k = Some v /\ find_pv (fw_products fw) k v = Some q /\
                 find_setup_product (fw_products fw) (s_env st') k = Some q) /\
  (forall k q, reachN fw top k -> find_setup_product (fw_products fw) (s_env st') k = Some q ->
     reach_ok fw D top k /\ D k = Some (p_version q)) /\
  (forall k, known (fw_products fw) k -> ~ reachN fw top k ->
     find_setup_product (fw_products fw) (s_env st') k = find_setup_product (fw_products fw) (s_env st) k).
Proof.
  intros H Hd Hw Ht Hk [C0 CL] Hnd Hfresh E.
  destruct (closure_lemma vcmp vmatch fw cfg rc flavors dl rank vro top D (fun _ => False) H Hd Hw Ht Hk CL fuel st li st' al' tr
              Hnd Hfresh C0 (fun k v (Zk : False) => match Zk with end) E) as [A [B [C _]]].
  split; [exact A|split; [exact B|exact C]].
Qed.
Print Assumptions closure_exact.

(* the assigned version IS the designated one: for the requested product by conflict_free itself, for every
   other member of the closure through the line that reached it *)
Theorem closure_versions_are_designated vcmp vmatch fw cfg rc flavors vro top li D :
  conflict_free vcmp vmatch fw cfg rc flavors vro top li D ->
  option_map fd_version (designates vcmp vmatch rc (db_of cfg fw) flavors 0 vro
                                    (mkRequest top (li_version li) (li_expr li))) = D top /\
  forall n v p i o x j, reachN fw top n -> D n = Some v -> find_pv (fw_products fw) n v = Some p ->
    nth_error (p_actions p) i = Some (ASetup o x j) ->
    j = false /\
    option_map fd_version (designates vcmp vmatch rc (db_of cfg fw) flavors 1 vro
       (mkRequest x (li_version (nth i (lines_of fw p) no_info)) (li_expr (nth i (lines_of fw p) no_info)))) = D x.
Proof.
  intros [C0 CL]. split; [exact C0|]. intros n v p i o x j Rn Dn F.
  pose proof (CL n v p Rn Dn F) as L. revert L. generalize (lines_of fw p). generalize (p_actions p).
  induction i as [|i IH]; intros acts infos L Hn; destruct acts as [|a acts]; try discriminate.
  - cbn [nth_error] in Hn. injection Hn as ->. destruct L as [[-> L0] _]. split; [reflexivity|].
    destruct infos; exact L0.
  - cbn [nth_error] in Hn. destruct L as [_ L']. destruct (IH acts (tl infos) L' Hn) as [A B]. split; [assumption|].
    destruct infos as [|i0 infos]; [|exact B]. destruct i; exact B.
Qed.
Print Assumptions closure_versions_are_designated.

Corollary closure_exact_request vcmp vmatch fw cfg rc flavors dl rank vro top version D fuel st st' tr :
  WF2 (fw_products fw) dl rank -> c_max_depth cfg = None ->
  wf_db (db_of cfg fw) = true -> (forall n, total_order_on vcmp (names_of (db_of cfg fw) n)) ->
  select_vro rc (request_opts cfg version) = Ok vro -> mem_entry EKeep vro = false ->
  conflict_free vcmp vmatch fw cfg rc flavors vro top {| li_version := version; li_expr := None |} D ->
  nodollar_paths (fw_products fw) (s_env st) ->
  (forall n, reachN fw top n -> find_setup_product (fw_products fw) (s_env st) n = None) ->
  request_full vcmp vmatch fw cfg rc flavors fuel st top version true false = Ok (Some st', tr) ->
  (forall k, reach_ok fw D top k ->
     exists v q, D k = Some v /\ find_pv (fw_products fw) k v = Some q /\
                 find_setup_product (fw_products fw) (s_env st') k = Some q) /\
  (forall k q, reachN fw top k -> find_setup_product (fw_products fw) (s_env st') k = Some q ->
     reach_ok fw D top k /\ D k = Some (p_version q)).
Proof.
  intros H Hd Hw Ht V Hk CF Hnd Hfresh E. destruct (request_full_done _ _ _ _ _ _ _ _ _ _ _ _ _ _ E) as [vro' [al [V' X]]].
  rewrite V in V'. injection V' as <-.
  destruct (closure_exact vcmp vmatch fw cfg rc flavors dl rank vro top _ D fuel st st' al tr H Hd Hw Ht Hk CF Hnd Hfresh X)
    as [A [B _]].
  split; assumption.
Qed.
Print Assumptions closure_exact_request.

(* ---- inhabited: setup libb on ex_fw from the empty environment; the assignment is libb 1.0, base 2.0; the closure
   is {libb, base} and both are recorded at these versions ---- *)
Example closure_exact_inhabited :
  WF2 (fw_products ex_fw) (dl_of ex_world) (rank_of ex_order) /\ c_max_depth ex_cfg = None /\
  wf_db (db_of ex_cfg ex_fw) = true /\ (forall n, total_order_on vcmp_simple (names_of (db_of ex_cfg ex_fw) n)) /\
  mem_entry EKeep ex_vro = false /\
  conflict_free vcmp_simple vmatch_simple ex_fw ex_cfg default_config ex_flavors ex_vro (lit "libb") no_info ex_D /\
  reach_ok ex_fw ex_D (lit "libb") (lit "base") /\
  exists st' al' tr,
    setup_full_simple ex_fw ex_cfg default_config ex_flavors 20 ex_st0 [] ex_vro (lit "libb") no_info true 0 false
      = FDone true st' al' tr /\
    find_setup_product ex_world (s_env st') (lit "base") = find_pv ex_world (lit "base") (lit "2.0").
Proof.
  split; [exact ex_world_wf2|]. split; [reflexivity|]. split; [exact ex_db_wf|]. split; [exact ex_versions_ordered|].
  split; [reflexivity|]. split; [exact ex_conflict_free|]. split.
  - eapply (ro_dep ex_fw ex_D (lit "libb") (lit "1.0") _ false (lit "base") false (lit "base"));
      [reflexivity|vm_compute; reflexivity|now left| |constructor].
    apply (su_intro ex_fw ex_D (lit "base") (lit "2.0") (ex_base "2.0")); try reflexivity.
    intros x j Hin. cbn in Hin. intuition discriminate.
  - exists ex_libb_resolved. eexists. eexists. split; vm_compute; reflexivity.
Qed.
Print Assumptions closure_exact_inhabited.

(* ---- why the clause is conditional: with a version conflict a REQUIRED product can end up not set up ----
   cx_fw (Proofs/SetupFullExample.v): t requires c, a, d; a requires b 1.0, whose table requires c; d requires b 2.0.
   setup t  succeeds; b 1.0 is replaced by b 2.0, the unsetup of b 1.0 unsets its dependency c, and c - a required
   dependency of t itself - is not set up at the end.  (The real Eups.setup does the same; the world satisfies WF2.) *)
Definition cx_t_state : state := Eval vm_compute in request_state
  (request_full_simple cx_fw ex_cfg default_config ex_flavors 20 ex_st0 (lit "t") None true false).

Example closure_refuted_with_conflict :
  WF2 (fw_products cx_fw) (dl_of cx_world) (rank_of cx_order) /\
  exists st' tr,
    request_full_simple cx_fw ex_cfg default_config ex_flavors 20 ex_st0 (lit "t") None true false = Ok (Some st', tr) /\
    find_setup_product cx_world (s_env st') (lit "t") = find_pv cx_world (lit "t") (lit "1.0") /\
    find_setup_product cx_world (s_env st') (lit "b") = find_pv cx_world (lit "b") (lit "2.0") /\
    find_setup_product cx_world (s_env st') (lit "c") = None.
Proof.
  split; [apply wf2_check_sound; vm_compute; reflexivity|].
  exists cx_t_state. eexists. repeat apply conj; vm_compute; reflexivity.
Qed.
Print Assumptions closure_refuted_with_conflict.

(* The setup model run from table TEXTS (Model/SetupText.v): the table-file parser model of C11
   (table_actions: Table._read after _rewrite, then Table.actions) followed by what lies between the parser
   and Eups.setup - the implicit product line that Product.getTable appends, Table.expandEupsVariables on
   every argument (PRODUCTS, one spelling of PRODUCT_DIR / PRODUCT_DIR_EXTRA, the spelled-out NAME_DIR,
   PRODUCT_FLAVOR, PRODUCT_NAME, PRODUCT_VERSION, UPS_DIR), the command kinds of Action.execute and the option
   words of Action.processArgs.  [world_of_text cfg tc tw] is the world of Model/Setup.v that the stack with the
   table files tw denotes (Err when a table does not parse or uses a construct Model/Setup.v has not);
   request_text / setup_text run Model/Setup.v on it.  The correspondence check feeds the generated table texts
   to this model and compares environments and aliases with the real run (text-model-comparisons), so the
   theorems of this file, of Props/C02.v and of Props/C04.v speak about stacks given by their table files. *)
From Eupsv Require Import Model.Rx Model.Cond Model.Args Model.Blocks Model.TableSpec Model.SetupText
     Proofs.SetupText Proofs.SetupTextExample.

(* (a) For a table printed from a well-formed syntax tree of the documented grammar (Model/TableSpec.v: every
   layout, letter case, quoting style, comment), the actions setup executes are the meaning of the tree: for each
   command that applies (unconditional ones in place, the first true branch of each chain - by C11's blocks_sound)
   the action its KIND means (kind_action: no command names, no flags) on its arguments after
   expandEupsVariables, followed by the implicit product line. *)
Theorem text_table_denotes tc pi flavor is :
  wf_flavor flavor = true -> wf_items is = true ->
  table_setup_actions tc pi flavor (print_table is) = items_setup_actions tc pi flavor is.
Proof. apply table_setup_actions_print. Qed.
Print Assumptions text_table_denotes.

(* ... hence the world the setup theorems quantify over is the one the texts denote *)
Theorem text_world_denotes cfg tc aw :
  wf_ast_world cfg aw = true -> world_of_text cfg tc (print_world aw) = world_of_ast cfg tc aw.
Proof. apply world_of_text_print. Qed.
Print Assumptions text_world_denotes.

(* the translated world declares exactly the products of the text world, with their directories *)
Theorem text_world_declares cfg tc tw w :
  world_of_text cfg tc tw = Ok w ->
  map p_name w = map t_name tw /\ map p_version w = map t_version tw /\ map p_dir w = map t_dir tw.
Proof. apply world_of_text_names. Qed.
Print Assumptions text_world_declares.

(* the synonyms: pathPrepend / pathAppend / setenv / pathSet mean what envPrepend / envAppend / envSet mean,
   append and prepend, required and optional are told apart *)
Theorem text_command_kinds args v x n j :
  kind_action KPathPrepend args = kind_action KEnvPrepend args /\
  kind_action KPathAppend args = kind_action KEnvAppend args /\
  kind_action KSetenv args = kind_action KEnvSet args /\ kind_action KPathSet args = kind_action KEnvSet args /\
  kind_action KEnvPrepend [v; x] = Ok (APath false v x ":"%char) /\
  kind_action KEnvAppend [v; x] = Ok (APath true v x ":"%char) /\
  kind_action KEnvSet [v; x] = Ok (ASet v x) /\
  (dep_args [n] = Ok (mkDep [n] false false false false) ->
     kind_action KSetupRequired [n] = Ok (ASetup false n false) \/ is1 n "eups" = true) /\
  (dep_args [n; j] = Ok (mkDep [n] true false false false) ->
     kind_action KSetupOptional [n; j] = Ok (ASetup true n true) \/ is1 n "eups" = true).
Proof.
  repeat split; try reflexivity.
  all: intro E; cbn [kind_action]; unfold dep_action; rewrite E; cbn [bind d_dir d_words d_noaction d_external d_just orb];
    destruct (is1 n "eups"); [now right|now left].
Qed.
Print Assumptions text_command_kinds.

(* (b) the setup theorems on worlds given as texts.  C01: every command on a stack whose table files parse maps
   consistent environments to consistent environments *)
Theorem request_text_preserves_inv cfg tc tw w dl rank fuel st ds name fwd just st' :
  world_of_text cfg tc tw = Ok w ->
  WF2 w dl rank -> nodollar_paths w (s_env st) -> Inv w (s_env st) ->
  request_text cfg tc tw fuel st ds name fwd just = Ok (Some st') -> Inv w (s_env st').
Proof.
  intros Hw H Hnd HI E. rewrite (request_text_is_request cfg tc tw w fuel st ds name fwd just Hw) in E.
  exact (request_preserves_inv w cfg dl rank fuel st ds name fwd just st' H Hnd HI E).
Qed.
Print Assumptions request_text_preserves_inv.

(* C02: a request that does not succeed yields no new state *)
Theorem failed_setup_text_changes_nothing cfg tc tw w fuel st ds name fwd just :
  world_of_text cfg tc tw = Ok w ->
  (forall st' ds', setup_text cfg tc tw fuel st ds name fwd 0 just <> Ok (RDone true st' ds')) ->
  request_text cfg tc tw fuel st ds name fwd just = Ok None \/
  exists e, request_text cfg tc tw fuel st ds name fwd just = Err e.
Proof.
  intros Hw H. rewrite (request_text_is_request cfg tc tw w fuel st ds name fwd just Hw).
  unfold Setup.request. destruct (setup w cfg fuel st ds name fwd 0 just) as [[|] st' ds'|st' ds'| |] eqn:E.
  - exfalso. apply (H st' ds'). rewrite (setup_text_is_setup cfg tc tw w fuel st ds name fwd 0 just Hw). now rewrite E.
  - now left.
  - now left.
  - right. now exists OutOfFuel.
  - right. now exists Crash.
Qed.
Print Assumptions failed_setup_text_changes_nothing.

(* C04, the frame theorem: a call of setup on such a stack changes no variable that is neither a path variable nor
   owned by a product it reaches, nothing about the path elements of products it does not reach, no alias that no
   reached product defines *)
Theorem setup_text_changes_only_what_it_reaches cfg tc tw w dl fuel st ds name fwd depth just :
  world_of_text cfg tc tw = Ok w -> WF w dl -> nodollar_paths w (s_env st) -> depth_ok cfg depth ->
  exists r, setup_text cfg tc tw fuel st ds name fwd depth just = Ok r /\
            good w dl (touches w (levels cfg depth just) name) st r.
Proof.
  intros Hw H Hnd Hd. exists (setup w cfg fuel st ds name fwd depth just).
  split; [exact (setup_text_is_setup cfg tc tw w fuel st ds name fwd depth just Hw)|].
  exact (setup_frame w cfg dl H fuel st ds name fwd depth just Hnd Hd).
Qed.
Print Assumptions setup_text_changes_only_what_it_reaches.

Lemma request_text_done cfg tc tw w fuel st ds name fwd just st' ds' :
  world_of_text cfg tc tw = Ok w -> setup w cfg fuel st ds name fwd 0 just = RDone true st' ds' ->
  request_text cfg tc tw fuel st ds name fwd just = Ok (Some st').
Proof.
  intros W R. rewrite (request_text_is_request cfg tc tw w fuel st ds name fwd just W). unfold Setup.request. now rewrite R.
Qed.

(* ---- the hypotheses are inhabited ----
   ext_tw (Proofs/SetupTextExample.v): lib 1.0, lib 2.0 and app 1.0 given by the texts of their table files (a
   dependency line, a block conditional on the setup type, envPrepend / pathAppend, envSet with a quoted value, an
   alias, the product directory spelled PRODUCT_DIR and LIB_DIR).  The texts are what the syntax trees ex_aw print
   to; they denote ext_world; WF2 holds for it; from the environment ext_st0 that  setup lib 2.0  reaches from the
   empty one,  setup app  replaces lib 2.0 by lib 1.0 and ends in ext_final, which is consistent by
   request_text_preserves_inv; a request for an unknown product yields nothing. *)
Example c01_text_hypotheses_inhabited :
  wf_ast_world ext_cfg ext_aw = true /\ print_world ext_aw = ext_tw /\
  world_of_text ext_cfg ext_tc ext_tw = Ok ext_world /\ world_of_ast ext_cfg ext_tc ext_aw = Ok ext_world /\
  WF2 ext_world (dl_of ext_world) (rank_of ext_order) /\
  request_text ext_cfg ext_tc ext_tw 20 {| s_env := []; s_aliases := [] |} [Some (lit "2.0"); None] (lit "lib") true false
    = Ok (Some ext_st0) /\
  Inv ext_world (s_env ext_st0) /\ nodollar_paths ext_world (s_env ext_st0) /\
  request_text ext_cfg ext_tc ext_tw 20 ext_st0 ext_ds (lit "app") true false = Ok (Some ext_final) /\
  find_setup_product ext_world (s_env ext_final) (lit "lib") = find_pv ext_world (lit "lib") (lit "1.0") /\
  Inv ext_world (s_env ext_final) /\
  request_text ext_cfg ext_tc ext_tw 20 ext_st0 [None] (lit "ghost") true false = Ok None.
Proof.
  apply conj_then; [vm_compute; reflexivity|intro F]. apply conj_then; [vm_compute; reflexivity|intro P].
  assert (A : world_of_ast ext_cfg ext_tc ext_aw = Ok ext_world) by (vm_compute; reflexivity).
  (* the texts are not parsed: they are what the trees print to, and text_world_denotes says what they denote *)
  apply conj_then; [rewrite <- P, (text_world_denotes ext_cfg ext_tc ext_aw F); exact A|intro W]. split; [exact A|].
  apply conj_then; [apply wf2_check_sound; vm_compute; reflexivity|intro H].
  assert (R0 : setup ext_world ext_cfg 20 {| s_env := []; s_aliases := [] |} [Some (lit "2.0"); None] (lit "lib") true 0 false
               = RDone true ext_st0 []) by (vm_compute; reflexivity).
  split; [exact (request_text_done ext_cfg ext_tc ext_tw ext_world 20 _ _ (lit "lib") true false ext_st0 [] W R0)|].
  destruct (setup_preserves_inv ext_world ext_cfg (dl_of ext_world) (rank_of ext_order) 20 {| s_env := []; s_aliases := [] |}
              _ _ _ _ _ true ext_st0 [] H (nodollar_nil ext_world) I (Inv_nil ext_world) R0) as [I0 N0].
  split; [exact I0|]. split; [exact N0|].
  apply conj_then; [|intro R1].
  { apply (request_text_done ext_cfg ext_tc ext_tw ext_world 20 ext_st0 ext_ds (lit "app") true false ext_final [] W).
    vm_compute. reflexivity. }
  split; [vm_compute; reflexivity|].
  split; [exact (request_text_preserves_inv ext_cfg ext_tc ext_tw ext_world _ _ 20 ext_st0 ext_ds (lit "app") true false
                   ext_final W H N0 I0 R1)|].
  rewrite (request_text_is_request ext_cfg ext_tc ext_tw ext_world 20 ext_st0 [None] (lit "ghost") true false W).
  vm_compute. reflexivity.
Qed.
Print Assumptions c01_text_hypotheses_inhabited.

(* ---- the flavor a table is read for ----
   Eups.setup reads the table of a product found under the fall-back flavor for THAT flavor (setupFlavor =
   product.flavor).  Before the repair proposed_fixes/C01-unsetup-reads-table-for-recorded-flavor the unsetup half
   read it for the RUNNING flavor: for a table with a condition on the flavor the commands undone were not the
   commands executed.  exf_tw: tool 1.0, declared under generic, adds its bin directory to PATH when the flavor is
   generic.  setup tool  on Linux64 adds it (exf_st1); undoing with the tables as the code before the repair read them
   leaves the element in PATH with tool no longer recorded - the environment is not consistent, and not the one
   before the setup; with the repaired reading (the model) unsetup restores the environment. *)
Theorem unsetup_flavor_refuted_pinned :
  exists w wp residue,
    world_of_text exf_cfg ext_tc exf_tw = Ok w /\ world_of_text_pinned_unsetup exf_cfg ext_tc exf_tw = Ok wp /\
    request_text exf_cfg ext_tc exf_tw 20 exf_st0 [Some (lit "1.0"); None] (lit "tool") true false = Ok (Some exf_st1) /\
    Setup.request wp exf_cfg 20 exf_st1 [] (lit "tool") false false = Ok (Some residue) /\
    alookup (lit "PATH") (s_env residue) = Some (lit "/s/generic/tool/1.0/bin:/usr/bin") /\
    find_setup_product w (s_env residue) (lit "tool") = None /\
    request_text exf_cfg ext_tc exf_tw 20 exf_st1 [] (lit "tool") false false = Ok (Some exf_st0).
Proof.
  (* the requests are requests of Model/Setup.v on the world read.  Not [repeat split]: it closes an equation by
     eq_refl, through the unifier, before vm_compute is reached *)
  eassert (W : world_of_text exf_cfg ext_tc exf_tw = Ok _) by (vm_compute; reflexivity).
  eassert (P : world_of_text_pinned_unsetup exf_cfg ext_tc exf_tw = Ok _) by (vm_compute; reflexivity).
  eexists. eexists. eexists. split; [exact W|]. split; [exact P|].
  unfold request_text. rewrite W. cbn [bind].
  repeat apply conj; vm_compute; reflexivity.
Qed.
Print Assumptions unsetup_flavor_refuted_pinned.

(* The composed model with the comparator and the matcher of C10 (Model/ResolveReal.v: request_full_real =
   request_full vcmp_real vmatch_real).  The hypothesis of closure_exact that the comparator is a total order on the
   declared version names is discharged from the theorems of Props/C10.v for worlds whose version names are
   conventional and, per product, spell pairwise different keys (fw_real_ok, decidable; Props/C03.v
   real_comparator_total_order shows that this is exactly what the hypothesis means for the real comparator).
   With two spellings of one key (1.0 and 1_0) the resolver takes the later listed one (Props/C03.v tie_rules_real),
   which is not the one the designation rule names: outside fw_real_ok the model is tied to the code by the
   correspondence check only (real-comparator-comparisons). *)
From Eupsv Require Import Model.ResolveReal Proofs.ResolveReal Proofs.SetupFullRealExample.

Theorem closure_exact_real fw cfg rc flavors dl rank vro top li D fuel st st' al' tr :
  WF2 (fw_products fw) dl rank -> c_max_depth cfg = None ->
  wf_db (db_of cfg fw) = true -> fw_real_ok cfg fw = true ->
  mem_entry EKeep vro = false ->
  conflict_free vcmp_real vmatch_real fw cfg rc flavors vro top li D ->
  nodollar_paths (fw_products fw) (s_env st) ->
  (forall n, reachN fw top n -> find_setup_product (fw_products fw) (s_env st) n = None) ->
  setup_full_real fw cfg rc flavors fuel st [] vro top li true 0 false = FDone true st' al' tr ->
  (forall k, reach_ok fw D top k ->
     exists v q, D k = Some v /\ find_pv (fw_products fw) k v = Some q /\
                 find_setup_product (fw_products fw) (s_env st') k = Some q) /\
  (forall k q, reachN fw top k -> find_setup_product (fw_products fw) (s_env st') k = Some q ->
     reach_ok fw D top k /\ D k = Some (p_version q)) /\
  (forall k, known (fw_products fw) k -> ~ reachN fw top k ->
     find_setup_product (fw_products fw) (s_env st') k = find_setup_product (fw_products fw) (s_env st) k).
Proof.
  intros H Hd Hw Hok. apply (closure_exact vcmp_real vmatch_real fw cfg rc flavors dl rank); auto.
  now apply fw_real_ok_total.
Qed.
Print Assumptions closure_exact_real.

Corollary closure_exact_request_real fw cfg rc flavors dl rank vro top version D fuel st st' tr :
  WF2 (fw_products fw) dl rank -> c_max_depth cfg = None ->
  wf_db (db_of cfg fw) = true -> fw_real_ok cfg fw = true ->
  select_vro rc (request_opts cfg version) = Ok vro -> mem_entry EKeep vro = false ->
  conflict_free vcmp_real vmatch_real fw cfg rc flavors vro top {| li_version := version; li_expr := None |} D ->
  nodollar_paths (fw_products fw) (s_env st) ->
  (forall n, reachN fw top n -> find_setup_product (fw_products fw) (s_env st) n = None) ->
  request_full_real fw cfg rc flavors fuel st top version true false = Ok (Some st', tr) ->
  (forall k, reach_ok fw D top k ->
     exists v q, D k = Some v /\ find_pv (fw_products fw) k v = Some q /\
                 find_setup_product (fw_products fw) (s_env st') k = Some q) /\
  (forall k q, reachN fw top k -> find_setup_product (fw_products fw) (s_env st') k = Some q ->
     reach_ok fw D top k /\ D k = Some (p_version q)).
Proof.
  intros H Hd Hw Hok. apply (closure_exact_request vcmp_real vmatch_real fw cfg rc flavors dl rank); auto.
  now apply fw_real_ok_total.
Qed.
Print Assumptions closure_exact_request_real.

(* the invariant and the explicit-version clause hold for every resolver, so for this one *)
Corollary request_full_real_preserves_inv fw cfg rc flavors dl rank fuel st name version fwd just st' tr :
  WF2 (fw_products fw) dl rank -> nodollar_paths (fw_products fw) (s_env st) -> Inv (fw_products fw) (s_env st) ->
  request_full_real fw cfg rc flavors fuel st name version fwd just = Ok (Some st', tr) ->
  Inv (fw_products fw) (s_env st').
Proof. apply request_full_preserves_inv. Qed.
Print Assumptions request_full_real_preserves_inv.

(* ---- inhabited: rvx_fw (Proofs/SetupFullRealExample.v): base 1.9 1.10-rc1 1.10 1.10+1, libb 1.0.1 with
   setupRequired(base < 1.10).  setup libb: the assignment is libb 1.0.1, base 1.10-rc1; the closure is {libb, base};
   the dotted-numeric comparator would have set base 1.9 up ---- *)
Example closure_exact_real_inhabited :
  WF2 (fw_products rvx_fw) (dl_of rvx_world) (rank_of rvx_order) /\ c_max_depth ex_cfg = None /\
  wf_db (db_of ex_cfg rvx_fw) = true /\ fw_real_ok ex_cfg rvx_fw = true /\
  mem_entry EKeep ex_vro = false /\
  conflict_free vcmp_real vmatch_real rvx_fw ex_cfg default_config ex_flavors ex_vro (lit "libb") no_info rvx_D /\
  reach_ok rvx_fw rvx_D (lit "libb") (lit "base") /\
  (exists al' tr,
    setup_full_real rvx_fw ex_cfg default_config ex_flavors 20 ex_st0 [] ex_vro (lit "libb") no_info true 0 false
      = FDone true rvx_libb_state al' tr /\
    find_setup_product rvx_world (s_env rvx_libb_state) (lit "base") = find_pv rvx_world (lit "base") (lit "1.10-rc1")) /\
  (exists st' tr,
    request_full_simple rvx_fw ex_cfg default_config ex_flavors 20 ex_st0 (lit "libb") None true false = Ok (Some st', tr) /\
    find_setup_product rvx_world (s_env st') (lit "base") = find_pv rvx_world (lit "base") (lit "1.9")).
Proof.
  split; [exact rvx_world_wf2|]. split; [reflexivity|]. split; [exact rvx_db_wf|]. split; [exact rvx_real_ok|].
  split; [reflexivity|]. split.
  { apply (conflict_free_check_sound _ _ _ _ _ _ _ [(lit "libb", lit "1.0.1"); (lit "base", lit "1.10-rc1")]).
    vm_compute. reflexivity. }
  split.
  - apply (ro_dep rvx_fw rvx_D (lit "libb") (lit "1.0.1") rvx_libb false (lit "base") false (lit "base"));
      try reflexivity; [now left| |constructor].
    apply (su_intro rvx_fw rvx_D (lit "base") (lit "1.10-rc1") (ex_base "1.10-rc1")); try reflexivity.
    intros x j Hin. cbn in Hin. intuition discriminate.
  - split.
    + eexists. eexists. split; vm_compute; reflexivity.
    + eexists. eexists. split; [vm_compute; reflexivity|]. vm_compute. reflexivity.
Qed.
Print Assumptions closure_exact_real_inhabited.

(* ---- names that spell one key.  The database view of the composed model is ONE stack; when its listings are sorted as
   strings (db_sorted: what Database.findProducts returns, and the order in which the correspondence check hands the
   declarations to the model) the resolver with the real comparator is the resolver with vcmp_sorted - the order of C10
   refined by the order of the strings among spellings of one key, a total order on conventional names
   (Props/C03.v sorted_order_is_total, walk_is_designation_one_sorted_stack).  So the closure clause holds for EVERY world
   with conventional version names (fw_conv), 1.0 next to 1_0 included, the version the resolution order designates
   being read in that order. ---- *)
From Eupsv Require Import Proofs.ResolveRealSorted.

Theorem closure_exact_real_sorted fw cfg rc flavors dl rank vro top li D fuel st st' al' tr :
  WF2 (fw_products fw) dl rank -> c_max_depth cfg = None ->
  wf_db (db_of cfg fw) = true -> fw_conv fw = true -> db_sorted (db_of cfg fw) = true ->
  mem_entry EKeep vro = false ->
  conflict_free vcmp_sorted vmatch_real fw cfg rc flavors vro top li D ->
  nodollar_paths (fw_products fw) (s_env st) ->
  (forall n, reachN fw top n -> find_setup_product (fw_products fw) (s_env st) n = None) ->
  setup_full_real fw cfg rc flavors fuel st [] vro top li true 0 false = FDone true st' al' tr ->
  (forall k, reach_ok fw D top k ->
     exists v q, D k = Some v /\ find_pv (fw_products fw) k v = Some q /\
                 find_setup_product (fw_products fw) (s_env st') k = Some q) /\
  (forall k q, reachN fw top k -> find_setup_product (fw_products fw) (s_env st') k = Some q ->
     reach_ok fw D top k /\ D k = Some (p_version q)) /\
  (forall k, known (fw_products fw) k -> ~ reachN fw top k ->
     find_setup_product (fw_products fw) (s_env st') k = find_setup_product (fw_products fw) (s_env st) k).
Proof.
  intros H Hd Hw C S Hk CF Hnd Hfresh E. rewrite (setup_full_real_is_sorted cfg fw rc flavors) in E by assumption.
  apply (closure_exact vcmp_sorted vmatch_real fw cfg rc flavors dl rank vro top li D fuel st st' al' tr); auto.
  now apply fw_conv_total_sorted.
Qed.
Print Assumptions closure_exact_real_sorted.

Example closure_exact_real_sorted_inhabited :
  WF2 (fw_products rvt_fw) (dl_of rvt_world) (rank_of rvx_order) /\
  wf_db (db_of ex_cfg rvt_fw) = true /\ fw_conv rvt_fw = true /\ db_sorted (db_of ex_cfg rvt_fw) = true /\
  fw_real_ok ex_cfg rvt_fw = false /\
  conflict_free vcmp_sorted vmatch_real rvt_fw ex_cfg default_config ex_flavors ex_vro (lit "libb") no_info rvt_D /\
  exists st' al' tr,
    setup_full_real rvt_fw ex_cfg default_config ex_flavors 20 ex_st0 [] ex_vro (lit "libb") no_info true 0 false
      = FDone true st' al' tr /\
    find_setup_product rvt_world (s_env st') (lit "base") = find_pv rvt_world (lit "base") (lit "1_0").
Proof.
  split; [apply wf2_check_sound; vm_compute; reflexivity|]. split; [vm_compute; reflexivity|].
  split; [vm_compute; reflexivity|]. split; [vm_compute; reflexivity|]. split; [vm_compute; reflexivity|].
  split.
  - apply (conflict_free_check_sound _ _ _ _ _ _ _ [(lit "libb", lit "1.0.1"); (lit "base", lit "1_0")]).
    vm_compute. reflexivity.
  - eexists. eexists. eexists. split; [vm_compute; reflexivity|]. vm_compute. reflexivity.
Qed.
Print Assumptions closure_exact_real_sorted_inhabited.

(* Table values that refer to OTHER variables than the product's own directory (Proofs/SetupRefsExample.v):
   the directory variable of a dependency that an earlier line of the same table set up. *)
From Eupsv Require Import Proofs.SetupRefsExample.

(* an envSet line is taken back whatever its value is - the reverse of envSet does not look at the value, so it
   does not matter that a variable the value refers to (the directory variable of a dependency, which the unsetup
   has already removed when it comes to the line) is no longer defined *)
Theorem envset_is_taken_back_whatever_its_value k v st :
  exec_simple false (ASet k v) st = Ok (unset_env st k).
Proof. reflexivity. Qed.
Print Assumptions envset_is_taken_back_whatever_its_value.

(* tool 1.0: setupRequired(kit), envSet(TOOL_PLUGINS, KIT_DIR/plugins), envPrepend(PATH, KIT_DIR/tools).
   setup tool 1.0, then setup tool 2.0 (kit 1.0 is replaced by kit 2.0):
   - the envSet variable, which pointed into the directory of kit 1.0, is gone: no residue;
   - finding D61 (open): the element the envPrepend line added is still in PATH and refers to the directory of
     the replaced kit 1.0.  The old table is unset up in table order, kit 1.0 first: KIT_DIR is gone when the
     envPrepend line is reversed, the value cannot be expanded and the literal text is removed, which removes
     nothing.  WF (every path and envSet value of the world free of references), and with it WF2 of
     setup_preserves_inv, excludes such a table (see dep_variable_after_dependency_refuted in Props/C02.v). *)
Definition rx_tool2 : state := Eval vm_compute in done_state (setup rx_world rx_cfg 10 rx_tool1 rx_ds2 (lit "tool") true 0 false).

Example dep_variable_residue_refuted :
  exists st1 st2,
    setup rx_world rx_cfg 10 rx_st0 rx_ds1 (lit "tool") true 0 false = RDone true st1 [] /\
    setup rx_world rx_cfg 10 st1 rx_ds2 (lit "tool") true 0 false = RDone true st2 [] /\
    alookup (lit "TOOL_PLUGINS") (s_env st1) = Some (lit "/s/kit/1.0/plugins") /\
    alookup (lit "TOOL_PLUGINS") (s_env st2) = None /\
    alookup (lit "KIT_DIR") (s_env st2) = Some (lit "/s/kit/2.0") /\
    alookup (lit "PATH") (s_env st2) = Some (lit "/s/tool/2.0/bin:/s/kit/2.0/bin:/s/kit/1.0/tools:/usr/bin").
Proof.
  exists rx_tool1, rx_tool2. split; [exact rx_tool1_run|]. repeat apply conj; vm_compute; reflexivity.
Qed.
Print Assumptions dep_variable_residue_refuted.

(* SEVERAL STACKS ON EUPS_PATH  (Model/SetupMS.v, Model/SetupMSFull.v, Model/SetupMSText.v)

   Everything above speaks about one stack.  Below, every declaration carries the stack it lives in and the flavor
   it is declared under; the same name and version may be declared in two stacks with different directories and
   tables; SETUP_NAME records the stack the product was found in, findSetupProduct decodes it and looks THERE;
   a decision of the resolver is a version and a stack.  The per-name consistency clause of the invariant now
   says: the directory variable and the table contributions are those of the recorded version OF THE RECORDED
   STACK, and nothing of any other declaration of the name - another version, or the same version in another
   stack - is left.  Hypotheses WF2 of Proofs/SetupMSInv.v: those of the one-stack WF2, with (name, version, stack)
   as the key of a declaration, a one-word flavor, and a stack root that utils.decodePath gives back from
   utils.encodePath (root_ok; refuted for a root with the characters minus plus in front of a blank, see
   decode_encode_refuted below).  Frame, invariant and composed model: Proofs/SetupMSFrame.v, SetupMSInv.v,
   SetupMSFull.v; that the declaration found is the one of the recorded stack is recorded_product_found in
   Proofs/SetupMSInv.v; Proofs/SetupMSStack.v has the unsetup step on it and the example world. *)
From Eupsv Require Import Model.SetupMS Proofs.SetupMSFrame Proofs.SetupMSInv Proofs.SetupMSStack
     Model.SetupMSWf Proofs.SetupMSWf Model.SetupMSFull Proofs.SetupMSFull.

Theorem ms_setup_preserves_inv w cfg dl rank fuel st ds name fwd depth just ok st' ds' :
  SetupMSInv.WF2 w dl rank -> SetupMSFrame.nodollar_paths w (s_env st) -> SetupMSFrame.depth_ok cfg depth ->
  SetupMSInv.Inv w cfg (s_env st) ->
  msetup w cfg fuel st ds name fwd depth just = MDone ok st' ds' ->
  SetupMSInv.Inv w cfg (s_env st') /\ SetupMSFrame.nodollar_paths w (s_env st').
Proof. intro H. exact (SetupMSInv.setup_preserves_Inv w cfg dl rank H fuel st ds name fwd depth just ok st' ds'). Qed.
Print Assumptions ms_setup_preserves_inv.

Theorem ms_request_preserves_inv w cfg dl rank fuel st ds name fwd just st' :
  SetupMSInv.WF2 w dl rank -> SetupMSFrame.nodollar_paths w (s_env st) -> SetupMSInv.Inv w cfg (s_env st) ->
  mrequest w cfg fuel st ds name fwd just = Ok (Some st') -> SetupMSInv.Inv w cfg (s_env st').
Proof.
  intros H Hnd HI Hr. unfold mrequest in Hr.
  destruct (msetup w cfg fuel st ds name fwd 0 just) as [ok st1 ds1|st1 ds1| |] eqn:E; try discriminate.
  destruct ok; [|discriminate]. injection Hr as <-.
  exact (proj1 (ms_setup_preserves_inv w cfg dl rank fuel st ds name fwd 0 just true st1 ds1 H Hnd (ms_depth_ok_top cfg) HI E)).
Qed.
Print Assumptions ms_request_preserves_inv.

(* what the invariant says about a product whose SETUP_NAME holds the value Eups.setup writes for the declaration
   p: p is the declaration found (in the recorded stack, not in the first stack of the path that declares the
   version), NAME_DIR is ITS directory, ITS contributions are present and nothing of any other declaration of
   the name is - in particular nothing of the same version declared in another stack *)
Theorem recorded_stack_is_consistent w cfg dl rank e p :
  SetupMSInv.WF2 w dl rank -> SetupMSInv.Inv w cfg e -> In p w ->
  alookup (setup_var (mp_name p)) e = Some (ms_setup_string p) ->
  mfind_setup_product w (c_flavor cfg) e (mp_name p) = Some p /\
  alookup (dir_var (mp_name p)) e = Some (mp_dir p) /\ SetupMSInv.present p e /\
  forall q, In q w -> mp_name q = mp_name p -> q <> p -> SetupMSInv.absent q e.
Proof.
  intros H HI Hin E. pose proof (recorded_product_found w dl rank (c_flavor cfg) e p H Hin E) as Hf.
  split; [assumption|]. pose proof (HI (mp_name p)) as C. unfold SetupMSInv.clause in C. rewrite Hf in C.
  destruct C as [D [P A]]. split; [assumption|split; [assumption|]].
  intros q Hq Hn Hne. apply A; [split; assumption|assumption].
Qed.
Print Assumptions recorded_stack_is_consistent.

Theorem ms_unrecorded_product_leaves_no_residue w cfg name e q :
  SetupMSInv.Inv w cfg e -> mfind_setup_product w (c_flavor cfg) e name = None -> In q w -> mp_name q = name ->
  SetupMSInv.absent q e.
Proof.
  intros HI Hf Hq Hn. pose proof (HI name) as C. unfold SetupMSInv.clause in C. rewrite Hf in C. apply C. split; assumption.
Qed.
Print Assumptions ms_unrecorded_product_leaves_no_residue.

(* the decision taken for the requested product at the top level - a version AND a stack - is what is recorded *)
Theorem ms_decided_version_is_set_up w cfg dl rank fuel st k ds name just st' ds' :
  SetupMSInv.WF2 w dl rank -> SetupMSFrame.nodollar_paths w (s_env st) -> SetupMSInv.Inv w cfg (s_env st) ->
  msetup w cfg fuel st (Some k :: ds) name true 0 just = MDone true st' ds' ->
  exists p, find_pvr w name k = Some p /\ mp_version p = vr_version k /\ mp_root p = vr_root k /\
            mfind_setup_product w (c_flavor cfg) (s_env st') name = Some p /\
            alookup (setup_var name) (s_env st') = Some (ms_setup_string p).
Proof.
  intros H Hnd HI Hrun.
  pose proof (SetupMSInv.setup_inv w cfg dl rank H fuel st (Some k :: ds) name true 0 just Hnd (ms_depth_ok_top cfg)
                (fun n _ => HI n)) as I0.
  rewrite Hrun in I0. destruct I0 as [_ [_ T]].
  destruct (T eq_refl eq_refl k ds eq_refl) as [p [Hf [[Hs Hr]|[Hz _]]]]; [|now elim Hz].
  exists p. destruct (SetupMSFrame.find_pvr_spec w name k p Hf) as [_ [Hv Hroot]]. repeat split; assumption.
Qed.
Print Assumptions ms_decided_version_is_set_up.

(* below the top level: the product decided on is recorded with its stack, OR it was found already set up - the
   same version or the same directory, whatever the stack SETUP_NAME records - and nothing was changed (the test
   of Eups.setup compares versions and directories, not stacks) *)
Theorem ms_nested_decision_recorded_or_already_set_up w cfg dl rank fuel st k ds name depth just st' ds' :
  SetupMSInv.WF2 w dl rank -> SetupMSFrame.nodollar_paths w (s_env st) -> SetupMSFrame.depth_ok cfg depth ->
  SetupMSInv.Inv w cfg (s_env st) ->
  msetup w cfg fuel st (Some k :: ds) name true depth just = MDone true st' ds' ->
  exists p, find_pvr w name k = Some p /\
    ((mfind_setup_product w (c_flavor cfg) (s_env st') name = Some p /\
      alookup (setup_var name) (s_env st') = Some (ms_setup_string p)) \/
     (depth <> 0 /\ st' = st /\ msame_product p (mfind_setup_product w (c_flavor cfg) (s_env st) name) = true)).
Proof.
  intros H Hnd Hd HI Hrun.
  pose proof (SetupMSInv.setup_inv w cfg dl rank H fuel st (Some k :: ds) name true depth just Hnd Hd (fun n _ => HI n)) as I0.
  rewrite Hrun in I0. destruct I0 as [_ [_ T]]. exact (T eq_refl eq_refl k ds eq_refl).
Qed.
Print Assumptions ms_nested_decision_recorded_or_already_set_up.

Theorem ms_setup_full_is_setup vcmp vmatch fw cfg rc flavors fuel st al vro name li fwd depth just rest :
  msetup (mfw_products fw) cfg fuel st
         (mtrace_of (msetup_full vcmp vmatch fw cfg rc flavors fuel st al vro name li fwd depth just) ++ rest)
         name fwd depth just =
  merase rest (msetup_full vcmp vmatch fw cfg rc flavors fuel st al vro name li fwd depth just).
Proof. apply SetupMSFull.setup_full_agrees. Qed.
Print Assumptions ms_setup_full_is_setup.

Corollary ms_setup_full_preserves_inv vcmp vmatch fw cfg rc flavors dl rank fuel st al vro name li fwd depth just ok st' al' tr :
  SetupMSInv.WF2 (mfw_products fw) dl rank -> SetupMSFrame.nodollar_paths (mfw_products fw) (s_env st) ->
  SetupMSFrame.depth_ok cfg depth -> SetupMSInv.Inv (mfw_products fw) cfg (s_env st) ->
  msetup_full vcmp vmatch fw cfg rc flavors fuel st al vro name li fwd depth just = MFDone ok st' al' tr ->
  SetupMSInv.Inv (mfw_products fw) cfg (s_env st') /\ SetupMSFrame.nodollar_paths (mfw_products fw) (s_env st').
Proof. apply SetupMSFull.setup_full_inv_lemma. Qed.
Print Assumptions ms_setup_full_preserves_inv.

Corollary ms_request_full_preserves_inv vcmp vmatch fw cfg rc flavors dl rank fuel st name version fwd just st' tr :
  SetupMSInv.WF2 (mfw_products fw) dl rank -> SetupMSFrame.nodollar_paths (mfw_products fw) (s_env st) ->
  SetupMSInv.Inv (mfw_products fw) cfg (s_env st) ->
  mrequest_full vcmp vmatch fw cfg rc flavors fuel st name version fwd just = Ok (Some st', tr) ->
  SetupMSInv.Inv (mfw_products fw) cfg (s_env st').
Proof.
  intros H Hnd HI E. unfold mrequest_full in E. destruct (select_vro rc (request_opts cfg version)) as [vro|]; [|discriminate].
  destruct (msetup_full vcmp vmatch fw cfg rc flavors fuel st [] vro name _ fwd 0 just) as [[|] st1 al1 tr1|st1 al1 tr1|tr1|tr1] eqn:R;
    try discriminate.
  injection E as <- _.
  exact (proj1 (SetupMSFull.setup_full_inv_lemma vcmp vmatch fw cfg rc flavors dl rank fuel st [] vro name _ fwd 0 just true st1 al1 tr1
                  H Hnd (ms_depth_ok_top cfg) HI R)).
Qed.
Print Assumptions ms_request_full_preserves_inv.

(* The stack recorded in SETUP_NAME is the one the resolver's decision came from: a top-level forward call of the
   composed model that succeeds resolved its request - on the database view of the SELECTED stacks, in path order,
   by the resolver of C03 - to a product fd, and afterwards SETUP_NAME holds the value written for the declaration
   of version fd_version fd IN THE STACK fd_stack fd, which is the declaration findSetupProduct finds *)
Theorem setup_records_the_stack_found vcmp vmatch fw cfg rc flavors dl rank fuel st al vro name li just st' al' tr :
  SetupMSInv.WF2 (mfw_products fw) dl rank -> SetupMSFrame.nodollar_paths (mfw_products fw) (s_env st) ->
  SetupMSInv.Inv (mfw_products fw) cfg (s_env st) ->
  msetup_full vcmp vmatch fw cfg rc flavors fuel st al vro name li true 0 just = MFDone true st' al' tr ->
  exists fd why p,
    resolve_request vcmp vmatch rc (mdb_of fw) (c_keep cfg) (alookup name al) flavors 0 vro
                    (mkRequest name (li_version li) (li_expr li)) = Ok (Some (fd, why)) /\
    find_pvr (mfw_products fw) name (vref_of fd) = Some p /\
    mp_version p = fd_version fd /\ mp_root p = fd_stack fd /\
    mfind_setup_product (mfw_products fw) (c_flavor cfg) (s_env st') name = Some p /\
    alookup (setup_var name) (s_env st') = Some (ms_setup_string p).
Proof. apply SetupMSFull.top_level_records_decision. Qed.
Print Assumptions setup_records_the_stack_found.

Theorem ms_explicit_version_is_set_up vcmp vmatch fw cfg rc flavors dl rank fuel st al vro name v x just st' al' tr :
  SetupMSInv.WF2 (mfw_products fw) dl rank -> SetupMSFrame.nodollar_paths (mfw_products fw) (s_env st) ->
  SetupMSInv.Inv (mfw_products fw) cfg (s_env st) ->
  v <> [] -> is_expr v = false ->
  msetup_full vcmp vmatch fw cfg rc flavors fuel st al vro name {| li_version := Some v; li_expr := x |} true 0 just
    = MFDone true st' al' tr ->
  exists p, mp_version p = v /\ mfind_setup_product (mfw_products fw) (c_flavor cfg) (s_env st') name = Some p.
Proof. apply SetupMSFull.explicit_version_lemma. Qed.
Print Assumptions ms_explicit_version_is_set_up.

(* the hypothesis root_ok is needed: utils.decodePath does not give back every root from utils.encodePath *)
Example decode_encode_refuted : decode_path (encode_path (lit "/a-+ b")) = lit "/a +-b".
Proof. vm_compute. reflexivity. Qed.

(* ---- the hypotheses are inhabited on a world with the same name and version in two stacks ----
   ms_world (Proofs/SetupMSStack.v): lib 1.0 in the stack /sA (flavor Linux64) and in the stack /s B (flavor generic,
   a blank in the root), different directories and tables; lib 2.0 only in the second; app 1.0 in the first,
   requiring lib.  WF2 holds (checker of Model/SetupMSWf.v, sound by Proofs/SetupMSWf.v).  setup lib with the
   decision (1.0, second stack) records -f generic -Z /s-+-B and the second stack's table; setup app after that,
   with the decisions app (first stack) and lib 1.0 OF THE FIRST STACK, finds lib already set up and leaves the
   record on the second stack; a top-level setup of lib 1.0 of the first stack from there replaces the second
   stack's contributions by the first's. *)
Example ms_c01_hypotheses_inhabited :
  SetupMSInv.WF2 ms_world (mdl_of ms_world) (mrank_of ms_order) /\
  SetupMSInv.Inv ms_world ms_cfg (s_env ms_st0) /\
  msetup ms_world ms_cfg 3 ms_st0 [Some (key_of ms_libB)] (lit "lib") true 0 false = MDone true ms_stB [] /\
  msetup ms_world ms_cfg 3 ms_stB [Some (key_of ms_app); Some (key_of ms_libA)] (lit "app") true 0 false
    = MDone true ms_stApp [] /\
  mfind_setup_product ms_world (lit "Linux64") (s_env ms_stApp) (lit "lib") = Some ms_libB /\
  msetup ms_world ms_cfg 3 ms_stB [Some (key_of ms_libA)] (lit "lib") true 0 false = MDone true ms_stA [] /\
  SetupMSInv.Inv ms_world ms_cfg (s_env ms_stA).
Proof.
  pose proof ms_world_wf2 as H. pose proof ms_libB_run as R1. pose proof (SetupMSWf.Inv_nil ms_world ms_cfg) as I0.
  split; [exact H|]. split; [exact I0|]. split; [exact R1|]. split; [exact ms_app_run|]. split; [vm_compute; reflexivity|].
  apply conj_then; [vm_compute; reflexivity|intro R3].
  destruct (ms_setup_preserves_inv _ _ _ _ _ ms_st0 _ _ _ _ _ _ _ _ H (SetupMSWf.nodollar_nil ms_world) (ms_depth_ok_top ms_cfg) I0 R1) as [I1 N1].
  exact (proj1 (ms_setup_preserves_inv _ _ _ _ _ _ _ _ _ _ _ _ _ _ H N1 (ms_depth_ok_top ms_cfg) I1 R3)).
Qed.
Print Assumptions ms_c01_hypotheses_inhabited.

From Eupsv Require Import Model.SetupMSText.

(* the translated world declares exactly the products of the text world, each in ITS stack, under ITS flavor; and its
   table is the text read with the root of that stack for PRODUCTS / UPS_DB and that flavor for the conditions *)
Theorem ms_text_world_declares tc tw w :
  mworld_of_text tc tw = Ok w ->
  map mp_name w = map mt_name tw /\ map mp_version w = map mt_version tw /\ map mp_root w = map mt_root tw /\
  map mp_flavor w = map mt_flavor tw /\ map mp_dir w = map mt_dir tw /\
  Forall2 (fun p tp => table_setup_actions tc (mpinfo_for tp) (mt_flavor tp) (mt_text tp) = Ok (mp_actions p)) w tw.
Proof.
  unfold mworld_of_text. revert w. induction tw as [|tp tw IH]; intros w E.
  - injection E as <-. repeat split; constructor.
  - cbn [map_res] in E. destruct (mproduct_of_text tc tp) as [p|e] eqn:Ep; [|discriminate]. cbn [bind] in E.
    destruct (map_res (mproduct_of_text tc) tw) as [w'|e] eqn:Ew; [|discriminate]. cbn [bind] in E. injection E as <-.
    destruct (IH w' eq_refl) as [H1 [H2 [H3 [H4 [H5 H6]]]]].
    unfold mproduct_of_text in Ep. destruct (negb (pinfo_ok (mpinfo_for tp))); [discriminate|].
    destruct (table_setup_actions tc (mpinfo_for tp) (mt_flavor tp) (mt_text tp)) as [acts|e] eqn:Ea; [|discriminate].
    cbn [bind] in Ep. injection Ep as <-. cbn [map mp_name mp_version mp_root mp_flavor mp_dir mp_actions].
    rewrite H1, H2, H3, H4, H5. repeat split. constructor; [exact Ea|assumption].
Qed.
Print Assumptions ms_text_world_declares.

Theorem ms_request_text_preserves_inv cfg tc tw w dl rank fuel st ds name fwd just st' :
  mworld_of_text tc tw = Ok w ->
  SetupMSInv.WF2 w dl rank -> SetupMSFrame.nodollar_paths w (s_env st) -> SetupMSInv.Inv w cfg (s_env st) ->
  mrequest_text cfg tc tw fuel st ds name fwd just = Ok (Some st') -> SetupMSInv.Inv w cfg (s_env st').
Proof.
  intros Hw H Hnd HI E. unfold mrequest_text in E. rewrite Hw in E. cbn [bind] in E.
  exact (ms_request_preserves_inv w cfg dl rank fuel st ds name fwd just st' H Hnd HI E).
Qed.
Print Assumptions ms_request_text_preserves_inv.

(* ---- the one-stack world is the special case ----
   embed cfg w: every declaration of w in the stack c_root cfg under the flavor flavor_of cfg.  The value written in
   SETUP_NAME is the same in both models, a decision finds the same declaration, and findSetupProduct agrees on every
   value the one-stack Eups.setup writes; the two models run the example world of Proofs/SetupExample.v alike
   (and every one-stack scenario of the correspondence check: one-stack-request-through-the-multi-stack-model).
   The equality of ALL runs is not proved: Model/Setup.v does not read the stack that a SETUP_ value records. *)
From Eupsv Require Import Proofs.SetupMSEmbed.

Theorem one_stack_is_a_special_case cfg w e p name v :
  ms_setup_string (embed_product cfg p) = setup_string cfg (p_name p) (p_version p) /\
  find_pvr (embed cfg w) name (mkVref v (c_root cfg)) = option_map (embed_product cfg) (find_pv w name v) /\
  (SetupMSInv.word (p_name p) -> SetupMSInv.word (p_version p) -> p_version p <> lit "-f" ->
   SetupMSInv.word (flavor_of cfg (p_name p) (p_version p)) -> SetupMSInv.root_ok (c_root cfg) ->
   alookup (setup_var (p_name p)) e = Some (setup_string cfg (p_name p) (p_version p)) ->
   find_pv w (p_name p) (p_version p) = Some p ->
   mfind_setup_product (embed cfg w) (c_flavor cfg) e (p_name p) =
   option_map (embed_product cfg) (find_setup_product w e (p_name p))).
Proof.
  split; [reflexivity|]. split; [apply embed_find|]. apply embed_find_setup_product.
Qed.
Print Assumptions one_stack_is_a_special_case.

(* SEVERAL STACKS: look-ups by relational expression (Proofs/SetupMSExpr.v).
   The product chosen for  name expr  is the highest declaration, over ALL the stacks the command selected, that
   satisfies the expression: a stack does not shadow the stacks behind it (it does for explicit versions and tags:
   C03 first_stack_wins).  vcmp: a total order on the version names declared for the product. *)
From Eupsv Require Import Model.ResolveSpec Proofs.SetupMSExpr.

Theorem ms_expression_designates_newest_over_selected_stacks vcmp vmatch fw n x f p :
  total_order_on vcmp (names_of (mdb_of fw) n) ->
  select_latest vcmp (find_by_expr vmatch (mdb_of fw) n x f) = Some p ->
  vmatch (fd_version p) x = true /\
  forall q, In q (mfw_products fw) -> In (mp_root q) (mfw_path fw) -> mp_name q = n -> mp_flavor q = f ->
            vmatch (mp_version q) x = true -> vcmp (mp_version q) (fd_version p) <> Gt.
Proof. exact (ms_expression_newest_lemma vcmp vmatch fw n x f p). Qed.
Print Assumptions ms_expression_designates_newest_over_selected_stacks.

(* on a world: lib 1.0 in the first stack (tagged current there), lib 2.0 only in the second; app 1.0 says
   setupRequired(lib >= 1.0).  setup app on the whole path decides app 1.0 of /a and lib 2.0 of /b, and SETUP_LIB
   records the second stack; with the first stack alone selected (-Z /a) lib 1.0 is what the expression designates *)
Definition xx_colon : ascii := ":"%char.
Definition xx_prod (n v root : string) (acts : list Setup.action) : mproduct :=
  {| mp_name := lit n; mp_version := lit v; mp_root := lit root; mp_flavor := lit "Linux64";
     mp_dir := lit root ++ lit "/" ++ lit n ++ lit "/" ++ lit v;
     mp_actions := Setup.APath false (lit "PATH") (lit root ++ lit "/" ++ lit n ++ lit "/" ++ lit v ++ lit "/bin") xx_colon :: acts |}.
Arguments xx_prod (n v root)%string acts.
Definition xx_fw (path : list str) : mfworld :=
  {| mfw_products := [xx_prod "lib" "1.0" "/a" []; xx_prod "lib" "2.0" "/b" [];
                      xx_prod "app" "1.0" "/a" [Setup.ASetup false (lit "lib") false]];
     mfw_lines := [(lit "app", mkVref (lit "1.0") (lit "/a"),
                    [no_info; {| li_version := Some (lit ">= 1.0"); li_expr := None |}])];
     mfw_tags := [(lit "/a", (lit "lib", lit "Linux64", lit "current", lit "1.0"));
                  (lit "/a", (lit "app", lit "Linux64", lit "current", lit "1.0"))];
     mfw_path := path |}.
Definition xx_cfg : Setup.config :=
  {| c_flavor := lit "Linux64"; c_root := lit "/a"; c_max_depth := None; c_keep := false; c_flavors := [] |}.
Definition xx_st0 : state := {| s_env := [(lit "PATH", lit "/usr/bin")]; s_aliases := [] |}.

Example ms_expression_newest_in_later_stack :
  (exists st, mrequest_full_simple (xx_fw [lit "/a"; lit "/b"]) xx_cfg default_config [lit "Linux64"; lit "generic"] 10
                                   xx_st0 (lit "app") None true false
              = Ok (Some st, [Some (mkVref (lit "1.0") (lit "/a")); Some (mkVref (lit "2.0") (lit "/b"))]) /\
              alookup (lit "SETUP_LIB") (s_env st) = Some (lit "lib 2.0 -f Linux64 -Z /b")) /\
  (exists st, mrequest_full_simple (xx_fw [lit "/a"]) xx_cfg default_config [lit "Linux64"; lit "generic"] 10
                                   xx_st0 (lit "app") None true false
              = Ok (Some st, [Some (mkVref (lit "1.0") (lit "/a")); Some (mkVref (lit "1.0") (lit "/a"))])).
Proof.
  split.
  - eexists. split; [vm_compute; reflexivity|]. vm_compute. reflexivity.
  - eexists. vm_compute. reflexivity.
Qed.
Print Assumptions ms_expression_newest_in_later_stack.

(* ---- ONE Eups object serving several requests (Model/SetupSession.v).  The code after the repair of D63
   empties alreadySetupProducts at the start of every top-level forward request; then nothing the object did
   before can influence a request: *)
From Eupsv Require Import Model.SetupSession Proofs.SetupSession Proofs.SetupSessionExample.

(* the unsetup - at any depth, with any table - never reads alreadySetupProducts *)
Theorem unsetup_never_reads_the_table :
  forall vcmp vmatch fw cfg rc flavors fuel st al1 al2 vro name li depth just,
    same_but_table (setup_full vcmp vmatch fw cfg rc flavors fuel st al1 vro name li false depth just)
                   (setup_full vcmp vmatch fw cfg rc flavors fuel st al2 vro name li false depth just).
Proof. intros. apply setup_full_unsetup_blind. Qed.
Print Assumptions unsetup_never_reads_the_table.

(* a request (setup or unsetup) on a long-lived object, whatever table the earlier requests left, answers like
   the same request on a fresh object: success, environment, aliases and every version decided *)
Theorem request_on_a_long_lived_instance_is_a_fresh_request :
  forall vcmp vmatch fw cfg rc flavors fuel al st name version fwd just,
    fst (instance_request vcmp vmatch fw cfg rc flavors true fuel al st name version fwd just)
    = request_full vcmp vmatch fw cfg rc flavors fuel st name version fwd just.
Proof. intros. apply instance_request_like_fresh. Qed.
Print Assumptions request_on_a_long_lived_instance_is_a_fresh_request.

(* so a whole session on one object is the sequence of requests the command line tool would run, each in a fresh
   process from the environment the previous one left: every theorem above about request_full speaks about
   every request of a session *)
Theorem session_on_one_instance_is_memoryless :
  forall vcmp vmatch fw cfg rc flavors fuel rqs al st,
    session_run vcmp vmatch fw cfg rc flavors true fuel al st rqs = fresh_run vcmp vmatch fw cfg rc flavors fuel st rqs.
Proof. intros. apply session_like_fresh. Qed.
Print Assumptions session_on_one_instance_is_memoryless.

(* D63, the code before the repair (reset = false): setup b 1.0; unsetup b; setup b on one object sets b 1.0 up
   again although b 2.0 is current - the designation clause fails - and the repaired code sets up b 2.0 *)
Example stale_table_top_level_refuted_pinned :
  sx_decisions false = [Some [Some (lit "1.0")]; Some []; Some [Some (lit "1.0")]]
  /\ session_run vcmp_simple vmatch_simple sx_fw ex_cfg default_config ex_flavors false 20 [] sx_st0 sx_requests
     <> fresh_run vcmp_simple vmatch_simple sx_fw ex_cfg default_config ex_flavors 20 sx_st0 sx_requests.
Proof. split; [vm_compute; reflexivity | vm_compute; discriminate]. Qed.

Example stale_table_top_level_repaired :
  sx_decisions true = [Some [Some (lit "1.0")]; Some []; Some [Some (lit "2.0")]].
Proof. vm_compute. reflexivity. Qed.
