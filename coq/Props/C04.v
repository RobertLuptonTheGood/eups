(* C04 - Setup changes only what it was asked to (keep, just, max-depth, bystanders).
   Model/Setup.v; the version resolver is abstract (a stream of decisions), so every statement holds for
   every resolver.  [touches b name k]: product name k is reachable from name through at most b levels of
   setupRequired/setupOptional lines of ANY declared version (this covers the tables of versions that the
   request replaces); b = levels depth just is what --just / --max-depth leave at that depth. *)
From Eupsv Require Import Base.Base Base.BaseLemmas Model.PathAlg Proofs.PathAlg Model.Setup Proofs.SetupFrame.
From Eupsv Require Import Model.Resolve.
From Coq Require Import Lia.
From Eupsv Require Import Proofs.SetupTopLevel.

(* the frame theorem: a call of setup (forward or unsetup, at any depth, with any decisions) changes
   - no variable that is neither a path variable nor owned by a product name it touches,
   - in every path variable, nothing about the elements that no touched product contributes: the
     duplicate-free list of the elements selected by any mask that rejects the touched products'
     elements is the same before and after (presence and relative order of bystanders' elements),
   - no alias that no touched product defines (also when the call fails),
   and leaves the path variables free of dollar references. *)
Theorem setup_changes_only_what_it_reaches w cfg dl fuel :
  WF w dl -> fn_ok w cfg dl (setup w cfg fuel).
Proof. intro H. exact (setup_frame w cfg dl H fuel). Qed.
Print Assumptions setup_changes_only_what_it_reaches.

(* --just (and --max-depth 0): only the requested product itself is touched *)
Theorem just_touches_only_the_product w n k : touches w (Some 0) n k -> k = n.
Proof.
  intro H. inversion H as [|b n' m k' Hp He Ht]; subst; [reflexivity|]. simpl in Hp. lia.
Qed.
Print Assumptions just_touches_only_the_product.

(* --max-depth N: a touched product lies within N dependency edges of the requested one *)
Inductive within (w : world) : nat -> str -> str -> Prop :=
| within_self j n : within w j n n
| within_step j n m k : dep_edge w n m -> within w j m k -> within w (S j) n k.

Theorem max_depth_bounds_reach w N n k : touches w (Some N) n k -> within w N n k.
Proof.
  revert n k. induction N as [|N IH]; intros n k H.
  - apply just_touches_only_the_product in H. subst. constructor.
  - inversion H as [|b n' m k' Hp He Ht]; subst; [constructor|].
    apply (within_step w N n m k He). apply IH. exact Ht.
Qed.
Print Assumptions max_depth_bounds_reach.

Theorem top_level_budget cfg just :
  levels cfg 0 just = if just then Some 0 else
                      match c_max_depth cfg with None => None | Some m => Some m end.
Proof. unfold levels. destruct just; [reflexivity|]. destruct (c_max_depth cfg); [now rewrite Nat.sub_0_r|reflexivity]. Qed.
Print Assumptions top_level_budget.

(* bystanders: the setup record, directory variable and every other variable of a product that is not
   touched are exactly as before, whatever the request did *)
Theorem bystanders_untouched w cfg dl fuel st ds name fwd just ok st' ds' k :
  WF w dl -> nodollar_paths w (s_env st) ->
  setup w cfg fuel st ds name fwd 0 just = RDone ok st' ds' ->
  ~ path_var w k -> (forall n, touches w (levels cfg 0 just) name n -> ~ own_var w n k) ->
  alookup k (s_env st') = alookup k (s_env st).
Proof.
  intros Hwf Hnd Hrun Hk Hown.
  destruct (top_level_frame w cfg dl (touches w) _ st ds name fwd just ok st' ds' (setup_frame w cfg dl Hwf fuel) Hnd Hrun) as [[V _] _].
  now apply V.
Qed.
Print Assumptions bystanders_untouched.

Theorem bystanders_path_elements_untouched w cfg dl fuel st ds name fwd just ok st' ds' var keep :
  WF w dl -> nodollar_paths w (s_env st) ->
  setup w cfg fuel st ds name fwd 0 just = RDone ok st' ds' ->
  path_var w var ->
  (forall n v, touches w (levels cfg 0 just) name n -> own_elem w n var v -> keep v = false) ->
  uniq (filter keep (elems (dl var) (oldv var (s_env st')))) =
  uniq (filter keep (elems (dl var) (oldv var (s_env st)))).
Proof.
  intros Hwf Hnd Hrun Hv Hkeep.
  destruct (top_level_frame w cfg dl (touches w) _ st ds name fwd just ok st' ds' (setup_frame w cfg dl Hwf fuel) Hnd Hrun) as [[_ P] _].
  now apply P.
Qed.
Print Assumptions bystanders_path_elements_untouched.

(* --keep, the two halves that make a dependency retain its version:
   (1) resolver side (model of findProductFromVRO, C03): with keep at the head of the VRO, at depth > 0 a
       product that is already set up is the one chosen, whatever version the table asks for;
   (2) setup side: when the decision for a dependency is the version the environment records, the call
       returns without touching anything (its table is not even processed).
   The full statement - with keep, every product other than the requested one that is recorded before the request
   is recorded with the same version after it - needs the resolver composed with the setup model: keep_retains
   below. *)
Theorem keep_retains_partial_resolver vcmp vmatch c db op ox f d rest rq :
  find_from_vro vcmp vmatch c db (Some (op, ox)) f (S d) (EKeep :: rest) rq = Some (op, (EKeep, None)).
Proof.
  unfold find_from_vro. cbn [vro_loop vro_step Nat.ltb Nat.leb].
  destruct ox as [[otag ox]|]; [|reflexivity].
  assert (G : forall x, gt_index (Some 0) x = false) by (intros [j|]; reflexivity).
  assert (I : index_of EKeep (EKeep :: rest) = Some 0) by reflexivity.
  rewrite I, G. now rewrite andb_false_r.
Qed.
Print Assumptions keep_retains_partial_resolver.

Theorem keep_retains_partial_setup w cfg rec st ds name depth just sp :
  find_setup_product w (s_env st) name = Some sp -> nonempty (p_version sp) = true ->
  find_pv w name (p_version sp) = Some sp ->
  setup_step w cfg rec st (Some (p_version sp) :: ds) name true (S depth) just = RDone true st ds.
Proof.
  intros Hs Hne Hf. unfold setup_step. rewrite Hf, Hs. unfold same_product.
  rewrite Hne, str_eqb_refl. reflexivity.
Qed.
Print Assumptions keep_retains_partial_setup.

(* ---- the hypotheses are satisfiable on a non-trivial world ----
   The world of Proofs/SetupExample.v (see c01_hypotheses_inhabited in Props/C01.v): WF holds for it (decided by the
   checker of Model/SetupWf.v, sound by Proofs/SetupWf.v); libb is set up from the empty environment (base at
   1.0), then liba with --just: the run returns the explicit state ex_liba_just, only liba is touched, and
   bystanders_untouched applies to the setup record of base. *)
From Eupsv Require Import Model.SetupWf Proofs.SetupWf Proofs.SetupExample.
From Eupsv Require Import Proofs.SetupExampleRuns.

Example c04_hypotheses_inhabited :
  WF ex_world (dl_of ex_world) /\ nodollar_paths ex_world (s_env ex_st0) /\
  setup ex_world ex_cfg 20 ex_st0 [Some (lit "1.0"); Some (lit "1.0")] (lit "libb") true 0 false = RDone true ex_libb [] /\
  nodollar_paths ex_world (s_env ex_libb) /\
  setup ex_world ex_cfg 20 ex_libb [Some (lit "1.0")] (lit "liba") true 0 true = RDone true ex_liba_just [] /\
  ~ path_var ex_world (setup_var (lit "base")) /\
  (forall n, touches ex_world (levels ex_cfg 0 true) (lit "liba") n -> ~ own_var ex_world n (setup_var (lit "base"))) /\
  alookup (setup_var (lit "base")) (s_env ex_liba_just) = alookup (setup_var (lit "base")) (s_env ex_libb).
Proof.
  pose proof (SetupInv.wf_base _ _ _ ex_world_wf2) as H. split; [exact H|]. split; [apply nodollar_nil|].
  apply conj_then; [vm_compute; reflexivity|intro R1].
  apply conj_then; [|intro D1].
  { exact (proj2 (top_level_frame _ _ _ (touches ex_world) _ ex_st0 _ _ _ _ _ _ _
                    (setup_changes_only_what_it_reaches _ ex_cfg _ 20 H) (nodollar_nil ex_world) R1)). }
  apply conj_then; [vm_compute; reflexivity|intro R2].
  apply conj_then; [apply (reserved_not_path ex_world (dl_of ex_world) H); exists (lit "base"); now left|intro P].
  apply conj_then; [|intro O].
  - intros n Ht. apply (just_touches_only_the_product ex_world (lit "liba") n) in Ht. subst n.
    intros [E|[E|[E|[p [v [[Hin Hn] Ha]]]]]]; try (vm_compute in E; discriminate E).
    cbn [ex_world In] in Hin.
    destruct Hin as [<-|[<-|[<-|[<-|[<-|[]]]]]]; try (vm_compute in Hn; discriminate Hn);
      cbn in Ha; intuition discriminate.
  - exact (bystanders_untouched ex_world ex_cfg (dl_of ex_world) 20 ex_libb [Some (lit "1.0")] (lit "liba") true true
             true ex_liba_just [] (setup_var (lit "base")) H D1 R2 P O).
Qed.
Print Assumptions c04_hypotheses_inhabited.

(* The composed model (Model/SetupFull.v: Model/Setup.v + the resolver of C03, see Props/C01.v). *)
From Eupsv Require Import Proofs.SetupInv Model.SetupFull Proofs.SetupFull Proofs.SetupFullKeep Proofs.SetupFullExample
     Generated.Config.

(* the frame theorem holds of the composed model (it is Model/Setup.v on the decisions it takes) *)
Corollary setup_full_changes_only_what_it_reaches vcmp vmatch fw cfg rc flavors dl fuel st al vro name li fwd depth just :
  WF (fw_products fw) dl -> nodollar_paths (fw_products fw) (s_env st) -> depth_ok cfg depth ->
  good (fw_products fw) dl (touches (fw_products fw) (levels cfg depth just) name) st
       (erase [] (setup_full vcmp vmatch fw cfg rc flavors fuel st al vro name li fwd depth just)).
Proof. apply setup_full_frame_lemma. Qed.
Print Assumptions setup_full_changes_only_what_it_reaches.

(* --keep, the full statement (the code after the fix 6851e7d, with --keep the replaced requested product is
   unset without its dependencies): with Eups.keep set and keep at the head of the VRO - which is what the
   option --keep does, see keep_vro_shape below - every product OTHER THAN THE REQUESTED ONE that the environment
   records before the request is recorded, with the same version, after it.  For every world satisfying WF2,
   every database, every request form, --just / --max-depth included, and whether or not the requested product
   itself is switched to another version.  The resolver half is keep_retains_partial_resolver; the setup half
   (a product decided at its recorded version is not touched) is the content of keep_retains_partial_setup,
   redone on the composed model in Proofs/SetupFullKeep.v together with the induction over the traversal
   (the dictionary stays in sync with the environment, also across the restoration after a failed dependency). *)
Theorem keep_retains vcmp vmatch fw cfg rc flavors dl rank fuel st al0 rest name li just ok st' al' tr n q :
  WF2 (fw_products fw) dl rank -> c_keep cfg = true -> flavors <> [] ->
  nodollar_paths (fw_products fw) (s_env st) ->
  setup_full vcmp vmatch fw cfg rc flavors fuel st al0 (EKeep :: rest) name li true 0 just = FDone ok st' al' tr ->
  n <> name ->
  find_setup_product (fw_products fw) (s_env st) n = Some q ->
  find_setup_product (fw_products fw) (s_env st') n = Some q.
Proof.
  intros H Hk Hf Hnd E Hne R.
  apply (keep_retains_lemma vcmp vmatch fw cfg rc flavors dl rank H Hk Hf
           (fun op ox f d rest0 rq => keep_retains_partial_resolver vcmp vmatch rc (db_of cfg fw) op ox f d rest0 rq)
           fuel st al0 rest name li just ok st' al' tr Hnd E n q Hne R).
Qed.
Print Assumptions keep_retains.

Corollary keep_retains_request vcmp vmatch fw cfg rc flavors dl rank fuel st rest name version just st' tr n q :
  WF2 (fw_products fw) dl rank -> c_keep cfg = true -> flavors <> [] ->
  nodollar_paths (fw_products fw) (s_env st) ->
  select_vro rc (request_opts cfg version) = Ok (EKeep :: rest) ->
  request_full vcmp vmatch fw cfg rc flavors fuel st name version true just = Ok (Some st', tr) ->
  n <> name ->
  find_setup_product (fw_products fw) (s_env st) n = Some q ->
  find_setup_product (fw_products fw) (s_env st') n = Some q.
Proof.
  intros H Hk Hf Hnd V E Hne R. destruct (request_full_done _ _ _ _ _ _ _ _ _ _ _ _ _ _ E) as [vro [al [V' X]]].
  rewrite V in V'. injection V' as <-.
  exact (keep_retains vcmp vmatch fw cfg rc flavors dl rank fuel st [] rest name _ just true st' al tr n q H Hk Hf Hnd X Hne R).
Qed.
Print Assumptions keep_retains_request.

(* with the shipped configuration, --keep puts keep at the head of the VRO (version named or not) *)
Example keep_vro_shape version :
  exists rest, select_vro default_config (request_opts ex_cfg_keep version) = Ok (EKeep :: rest).
Proof. exists ex_vro. apply ex_vro_keep. Qed.

(* ---- inhabited ----  ex_fw (Proofs/SetupFullExample.v): from the state ex_libb (libb 1.0 and base 1.0 set up),
   setup --keep base 2.0  switches the requested product and leaves libb as it is;  setup --keep app  sets up app and
   liba and keeps libb and base;  setup --keep libb  processes libb's table again and keeps base at 1.0 although that
   table asks for base 2.0 (without --keep the same request replaces base 1.0 by base 2.0). *)
Definition kx_base2 : state := Eval vm_compute in request_state
  (request_full_simple ex_fw ex_cfg_keep default_config ex_flavors 20 ex_libb (lit "base") (Some (lit "2.0")) true false).
Definition kx_app : state := Eval vm_compute in request_state
  (request_full_simple ex_fw ex_cfg_keep default_config ex_flavors 20 ex_libb (lit "app") None true false).
Definition kx_libb : state := Eval vm_compute in request_state
  (request_full_simple ex_fw ex_cfg_keep default_config ex_flavors 20 ex_libb (lit "libb") None true false).
Definition kx_libb_plain : state := Eval vm_compute in request_state
  (request_full_simple ex_fw ex_cfg default_config ex_flavors 20 ex_libb (lit "libb") None true false).

Example c04_keep_inhabited :
  WF2 (fw_products ex_fw) (SetupWf.dl_of ex_world) (rank_of ex_order) /\ c_keep ex_cfg_keep = true /\ ex_flavors <> [] /\
  (exists st' tr,
     request_full_simple ex_fw ex_cfg_keep default_config ex_flavors 20 ex_libb (lit "base") (Some (lit "2.0")) true false
       = Ok (Some st', tr) /\
     find_setup_product ex_world (s_env st') (lit "base") = find_pv ex_world (lit "base") (lit "2.0") /\
     find_setup_product ex_world (s_env st') (lit "libb") = find_setup_product ex_world (s_env ex_libb) (lit "libb")) /\
  (exists st' tr,
     request_full_simple ex_fw ex_cfg_keep default_config ex_flavors 20 ex_libb (lit "app") None true false
       = Ok (Some st', tr) /\
     find_setup_product ex_world (s_env st') (lit "base") = find_pv ex_world (lit "base") (lit "1.0") /\
     find_setup_product ex_world (s_env st') (lit "liba") = find_pv ex_world (lit "liba") (lit "1.0")) /\
  (exists st' tr,
     request_full_simple ex_fw ex_cfg_keep default_config ex_flavors 20 ex_libb (lit "libb") None true false
       = Ok (Some st', tr) /\
     find_setup_product ex_world (s_env st') (lit "base") = find_pv ex_world (lit "base") (lit "1.0")) /\
  (exists st' tr,
     request_full_simple ex_fw ex_cfg default_config ex_flavors 20 ex_libb (lit "libb") None true false
       = Ok (Some st', tr) /\
     find_setup_product ex_world (s_env st') (lit "base") = find_pv ex_world (lit "base") (lit "2.0")).
Proof.
  split; [exact ex_world_wf2|]. split; [reflexivity|]. split; [discriminate|].
  split; [|split; [|split]].
  - exists kx_base2. eexists. repeat apply conj; vm_compute; reflexivity.
  - exists kx_app. eexists. repeat apply conj; vm_compute; reflexivity.
  - exists kx_libb. eexists. split; vm_compute; reflexivity.
  - exists kx_libb_plain. eexists. split; vm_compute; reflexivity.
Qed.
Print Assumptions c04_keep_inhabited.

(* keep_retains makes no assumption on the comparator: it holds verbatim for the composed model with the comparator
   and the matcher of C10 (Model/ResolveReal.v), for every spelling of every version name. *)
From Eupsv Require Import Model.ResolveReal Proofs.SetupFullRealExample.

Theorem keep_retains_real fw cfg rc flavors dl rank fuel st al0 rest name li just ok st' al' tr n q :
  WF2 (fw_products fw) dl rank -> c_keep cfg = true -> flavors <> [] ->
  nodollar_paths (fw_products fw) (s_env st) ->
  setup_full_real fw cfg rc flavors fuel st al0 (EKeep :: rest) name li true 0 just = FDone ok st' al' tr ->
  n <> name ->
  find_setup_product (fw_products fw) (s_env st) n = Some q ->
  find_setup_product (fw_products fw) (s_env st') n = Some q.
Proof. apply keep_retains. Qed.
Print Assumptions keep_retains_real.

Corollary keep_retains_request_real fw cfg rc flavors dl rank fuel st rest name version just st' tr n q :
  WF2 (fw_products fw) dl rank -> c_keep cfg = true -> flavors <> [] ->
  nodollar_paths (fw_products fw) (s_env st) ->
  select_vro rc (request_opts cfg version) = Ok (EKeep :: rest) ->
  request_full_real fw cfg rc flavors fuel st name version true just = Ok (Some st', tr) ->
  n <> name ->
  find_setup_product (fw_products fw) (s_env st) n = Some q ->
  find_setup_product (fw_products fw) (s_env st') n = Some q.
Proof. apply keep_retains_request. Qed.
Print Assumptions keep_retains_request_real.

(* ---- inhabited: rvx_fw (Proofs/SetupFullRealExample.v); from the state in which libb 1.0.1 and base 1.10-rc1 are set
   up,  setup --keep base 1.10+1  switches the requested product and leaves libb;  setup --keep libb  keeps base
   1.10-rc1 ---- *)
Definition kr_base : state := Eval vm_compute in request_state
  (request_full_real rvx_fw ex_cfg_keep default_config ex_flavors 20 rvx_libb_state (lit "base") (Some (lit "1.10+1")) true false).
Definition kr_libb : state := Eval vm_compute in request_state
  (request_full_real rvx_fw ex_cfg_keep default_config ex_flavors 20 rvx_libb_state (lit "libb") None true false).

Example c04_keep_real_inhabited :
  WF2 (fw_products rvx_fw) (SetupWf.dl_of rvx_world) (rank_of rvx_order) /\
  (exists st' tr,
     request_full_real rvx_fw ex_cfg_keep default_config ex_flavors 20 rvx_libb_state (lit "base") (Some (lit "1.10+1")) true false
       = Ok (Some st', tr) /\
     find_setup_product rvx_world (s_env st') (lit "base") = find_pv rvx_world (lit "base") (lit "1.10+1") /\
     find_setup_product rvx_world (s_env st') (lit "libb") = find_setup_product rvx_world (s_env rvx_libb_state) (lit "libb")) /\
  (exists st' tr,
     request_full_real rvx_fw ex_cfg_keep default_config ex_flavors 20 rvx_libb_state (lit "libb") None true false
       = Ok (Some st', tr) /\
     find_setup_product rvx_world (s_env st') (lit "base") = find_pv rvx_world (lit "base") (lit "1.10-rc1")).
Proof.
  split; [exact rvx_world_wf2|].
  split.
  - exists kr_base. eexists. repeat apply conj; vm_compute; reflexivity.
  - exists kr_libb. eexists. split; vm_compute; reflexivity.
Qed.
Print Assumptions c04_keep_real_inhabited.

(* -j ON A TABLE LINE  (Proofs/SetupFrameJ.v).  A line  setupRequired(foo -j)  reaches foo and nothing below foo:
   [touches_j b name k] follows a -j line with the budget 0.  The frame theorem holds with this finer relation -
   for a setup, and equally for an unsetup or the replacement of a version (the -j of the line limits the unsetup
   of the owner's dependencies too): the dependencies of foo that the owner does not list itself keep their records,
   directory variables, table variables and path elements, whatever the request does to the owner. *)
From Eupsv Require Import Proofs.SetupFrameJ.

Theorem setup_changes_only_what_it_reaches_j w cfg dl fuel :
  WF w dl -> fn_ok_j w cfg dl (setup w cfg fuel).
Proof. intro H. exact (setup_frame_j w cfg dl H fuel). Qed.
Print Assumptions setup_changes_only_what_it_reaches_j.

Theorem just_line_reaches_the_product_only w n k : touches_j w (Some 0) n k -> k = n.
Proof. exact (touches_j_zero w n k). Qed.
Print Assumptions just_line_reaches_the_product_only.

(* the finer reach is within the coarser one (so every statement about what is NOT touched got stronger) *)
Theorem reach_with_just_lines_is_within_reach w b n k : touches_j w b n k -> touches w b n k.
Proof. exact (touches_j_touches w b n k). Qed.
Print Assumptions reach_with_just_lines_is_within_reach.

Theorem bystanders_untouched_j w cfg dl fuel st ds name fwd just ok st' ds' k :
  WF w dl -> nodollar_paths w (s_env st) ->
  setup w cfg fuel st ds name fwd 0 just = RDone ok st' ds' ->
  ~ path_var w k -> (forall n, touches_j w (levels cfg 0 just) name n -> ~ own_var w n k) ->
  alookup k (s_env st') = alookup k (s_env st).
Proof.
  intros Hwf Hnd Hrun Hk Hown.
  destruct (top_level_frame w cfg dl (touches_j w) _ st ds name fwd just ok st' ds' (setup_frame_j w cfg dl Hwf fuel) Hnd Hrun) as [[V _] _].
  now apply V.
Qed.
Print Assumptions bystanders_untouched_j.

Theorem bystanders_path_elements_untouched_j w cfg dl fuel st ds name fwd just ok st' ds' var keep :
  WF w dl -> nodollar_paths w (s_env st) ->
  setup w cfg fuel st ds name fwd 0 just = RDone ok st' ds' ->
  path_var w var ->
  (forall n v, touches_j w (levels cfg 0 just) name n -> own_elem w n var v -> keep v = false) ->
  uniq (filter keep (elems (dl var) (oldv var (s_env st')))) =
  uniq (filter keep (elems (dl var) (oldv var (s_env st)))).
Proof.
  intros Hwf Hnd Hrun Hv Hkeep.
  destruct (top_level_frame w cfg dl (touches_j w) _ st ds name fwd just ok st' ds' (setup_frame_j w cfg dl Hwf fuel) Hnd Hrun) as [[_ P] _].
  now apply P.
Qed.
Print Assumptions bystanders_path_elements_untouched_j.

(* names in a prefix relation (afw / afwdata): what the unsetup of a product forgets are exactly the three variables
   AFW_DIR, SETUP_AFW, AFW_DIR_EXTRA - every other variable, SETUP_AFWDATA and AFW_DIRS included, is as it was *)
Theorem unsetup_forgets_exactly_three_variables st name k :
  k <> dir_var name -> k <> setup_var name -> k <> extra_var name ->
  alookup k (s_env (unset_product_vars st name)) = alookup k (s_env st).
Proof.
  intros H1 H2 H3. exact (unset_vars_lookup name st k H2 H1 H3).
Qed.
Print Assumptions unsetup_forgets_exactly_three_variables.

Example prefix_names_have_different_records :
  setup_var (lit "afwdata") <> setup_var (lit "afw") /\ setup_var (lit "afwdata") <> dir_var (lit "afw") /\
  setup_var (lit "afwdata") <> extra_var (lit "afw") /\ lit "AFW_DIRS" <> extra_var (lit "afw") /\
  lit "AFW_DIRS" <> dir_var (lit "afw").
Proof. repeat split; intro E; vm_compute in E; discriminate E. Qed.

(* inhabited, on the shape that matters: top 1.0 says setupRequired(foo -j); foo 1.0 requires dd; dd was set up on
   its own.  setup top sets foo up alone; unsetup top takes top and foo away and leaves dd exactly as it was - dd
   is not within the reach of top (touches_j), although it is within the coarser reach (touches).  Names in a
   prefix relation ride along: foodata is a bystander whose name begins with the name of foo; its record
   SETUP_FOODATA is not one of the three variables the unsetup of foo removes. *)
Definition jx_colon : ascii := ":"%char.
Definition jx_prod (n v : string) (acts : list action) : product :=
  {| p_name := lit n; p_version := lit v; p_dir := lit "/s/" ++ lit n ++ lit "/" ++ lit v;
     p_actions := APath false (lit "PATH") (lit "/s/" ++ lit n ++ lit "/" ++ lit v ++ lit "/bin") jx_colon :: acts |}.
Arguments jx_prod (n v)%string acts.
Definition jx_world : world :=
  [ jx_prod "dd" "1.0" []; jx_prod "foodata" "1.0" [];
    jx_prod "foo" "1.0" [ASetup false (lit "dd") false];
    jx_prod "top" "1.0" [ASetup false (lit "foo") true] ].
Definition jx_cfg : Setup.config :=
  {| c_flavor := lit "Linux64"; c_root := lit "/s"; c_max_depth := None; c_keep := false; c_flavors := [] |}.
Definition jx_st0 : state := {| s_env := [(lit "PATH", lit "/usr/bin")]; s_aliases := [] |}.

Definition jx_st1 : state :=
  Eval vm_compute in done_state (setup jx_world jx_cfg 10 jx_st0 [Some (lit "1.0")] (lit "dd") true 0 false).
Definition jx_st2 : state :=
  Eval vm_compute in done_state (setup jx_world jx_cfg 10 jx_st1 [Some (lit "1.0")] (lit "foodata") true 0 false).
Definition jx_st3 : state :=
  Eval vm_compute in done_state (setup jx_world jx_cfg 10 jx_st2 [Some (lit "1.0"); Some (lit "1.0")] (lit "top") true 0 false).
Definition jx_st4 : state := Eval vm_compute in done_state (setup jx_world jx_cfg 10 jx_st3 [] (lit "top") false 0 false).

Example just_line_inhabited :
  exists st1 st2 st3 st4,
    setup jx_world jx_cfg 10 jx_st0 [Some (lit "1.0")] (lit "dd") true 0 false = RDone true st1 [] /\
    setup jx_world jx_cfg 10 st1 [Some (lit "1.0")] (lit "foodata") true 0 false = RDone true st2 [] /\
    setup jx_world jx_cfg 10 st2 [Some (lit "1.0"); Some (lit "1.0")] (lit "top") true 0 false = RDone true st3 [] /\
    setup jx_world jx_cfg 10 st3 [] (lit "top") false 0 false = RDone true st4 [] /\
    alookup (lit "SETUP_FOO") (s_env st3) = Some (lit "foo 1.0 -f Linux64 -Z /s") /\
    s_env st4 = s_env st2 /\
    alookup (lit "SETUP_DD") (s_env st4) = Some (lit "dd 1.0 -f Linux64 -Z /s") /\
    alookup (lit "SETUP_FOODATA") (s_env st4) = Some (lit "foodata 1.0 -f Linux64 -Z /s") /\
    touches jx_world None (lit "top") (lit "dd") /\
    ~ touches_j jx_world None (lit "top") (lit "dd").
Proof.
  exists jx_st1, jx_st2, jx_st3, jx_st4. repeat apply conj. 1-8: vm_compute; reflexivity.
  - apply (t_dep jx_world None (lit "top") (lit "foo") (lit "dd") I).
    + exists (jx_prod "top" "1.0" [ASetup false (lit "foo") true]), false, true. split; [split; [cbn; tauto|reflexivity]|cbn; tauto].
    + apply (t_dep jx_world None (lit "foo") (lit "dd") (lit "dd") I); [|constructor].
      exists (jx_prod "foo" "1.0" [ASetup false (lit "dd") false]), false, false. split; [split; [cbn; tauto|reflexivity]|cbn; tauto].
  - intros T. inversion T as [|b n m j k Hp [p [o [[Hin Hn] Ha]]] Ht]; subst.
    cbn in Hin. destruct Hin as [<-|[<-|[<-|[<-|[]]]]]; try discriminate Hn.
    cbn in Ha. destruct Ha as [Ha|[Ha|[]]]; [discriminate Ha|]. injection Ha as _ <- <-.
    apply touches_j_zero in Ht. discriminate Ht.
Qed.
Print Assumptions just_line_inhabited.

(* SEVERAL STACKS ON EUPS_PATH  (Model/SetupMS.v; see the section of the same title in Props/C01.v)
   The frame is stated over product NAMES: a name owns what any of its declarations, in any stack, contributes. *)
From Eupsv Require Import Model.SetupMS Proofs.SetupMSFrame Proofs.SetupMSInv Proofs.SetupMSStack
     Model.SetupMSWf Proofs.SetupMSWf.

Theorem ms_setup_changes_only_what_it_reaches w cfg dl fuel :
  SetupMSFrame.WF w dl -> SetupMSFrame.fn_ok w cfg dl (msetup w cfg fuel).
Proof. intro H. exact (SetupMSFrame.setup_frame w cfg dl H fuel). Qed.
Print Assumptions ms_setup_changes_only_what_it_reaches.

Theorem ms_just_touches_only_the_product w n k : SetupMSFrame.touches w (Some 0) n k -> k = n.
Proof.
  intro H. inversion H as [|b n' m k' Hp He Ht]; subst; [reflexivity|]. simpl in Hp. lia.
Qed.
Print Assumptions ms_just_touches_only_the_product.

Inductive ms_within (w : mworld) : nat -> str -> str -> Prop :=
| ms_within_self j n : ms_within w j n n
| ms_within_step j n m k : SetupMSFrame.dep_edge w n m -> ms_within w j m k -> ms_within w (S j) n k.

Theorem ms_max_depth_bounds_reach w N n k : SetupMSFrame.touches w (Some N) n k -> ms_within w N n k.
Proof.
  revert n k. induction N as [|N IH]; intros n k H.
  - apply ms_just_touches_only_the_product in H. subst. constructor.
  - inversion H as [|b n' m k' Hp He Ht]; subst; [constructor|].
    apply (ms_within_step w N n m k He). apply IH. exact Ht.
Qed.
Print Assumptions ms_max_depth_bounds_reach.

(* bystanders: the record (version AND stack), the directory variable and every other variable of a product that is
   not touched are exactly as before *)
Theorem ms_bystanders_untouched w cfg dl fuel st ds name fwd just ok st' ds' k :
  SetupMSFrame.WF w dl -> SetupMSFrame.nodollar_paths w (s_env st) ->
  msetup w cfg fuel st ds name fwd 0 just = MDone ok st' ds' ->
  ~ SetupMSFrame.path_var w k ->
  (forall n, SetupMSFrame.touches w (SetupMSFrame.levels cfg 0 just) name n -> ~ SetupMSFrame.own_var w n k) ->
  alookup k (s_env st') = alookup k (s_env st).
Proof.
  intros Hwf Hnd Hrun Hk Hown.
  destruct (ms_top_level_frame w cfg dl fuel st ds name fwd just ok st' ds' Hwf Hnd Hrun) as [[V _] _]. now apply V.
Qed.
Print Assumptions ms_bystanders_untouched.

Theorem ms_bystanders_path_elements_untouched w cfg dl fuel st ds name fwd just ok st' ds' var keep :
  SetupMSFrame.WF w dl -> SetupMSFrame.nodollar_paths w (s_env st) ->
  msetup w cfg fuel st ds name fwd 0 just = MDone ok st' ds' ->
  SetupMSFrame.path_var w var ->
  (forall n v, SetupMSFrame.touches w (SetupMSFrame.levels cfg 0 just) name n -> SetupMSFrame.own_elem w n var v -> keep v = false) ->
  uniq (filter keep (elems (dl var) (oldv var (s_env st')))) =
  uniq (filter keep (elems (dl var) (oldv var (s_env st)))).
Proof.
  intros Hwf Hnd Hrun Hv Hkeep.
  destruct (ms_top_level_frame w cfg dl fuel st ds name fwd just ok st' ds' Hwf Hnd Hrun) as [[_ P] _]. now apply P.
Qed.
Print Assumptions ms_bystanders_path_elements_untouched.

(* --keep, the setup side, with stacks: when the decision for a dependency names the version the environment records -
   in the recorded stack OR IN ANOTHER ONE - the call returns without touching anything: the product keeps its
   version and the stack it was set up from *)
Theorem ms_keep_retains_partial_setup w cfg rec st ds name depth just sp p k :
  mfind_setup_product w (c_flavor cfg) (s_env st) name = Some sp -> nonempty (mp_version sp) = true ->
  find_pvr w name k = Some p -> mp_version p = mp_version sp ->
  msetup_step w cfg rec st (Some k :: ds) name true (S depth) just = MDone true st ds.
Proof.
  intros Hs Hne Hf Hv. unfold msetup_step. rewrite Hf, Hs. unfold msame_product.
  rewrite Hv, Hne, str_eqb_refl. reflexivity.
Qed.
Print Assumptions ms_keep_retains_partial_setup.

(* ---- inhabited: ms_world (Proofs/SetupMSStack.v).  lib 1.0 is set up from the second stack (ms_stB); setup app with
   the decisions app 1.0 (first stack) and lib 1.0 of the FIRST stack ends in ms_stApp: SETUP_LIB, LIB_DIR and LIB_STACK
   are what they were (the second stack's), and ms_keep_retains_partial_setup is the step that returns at once. *)
Example ms_c04_inhabited :
  SetupMSFrame.WF ms_world (mdl_of ms_world) /\
  msetup ms_world ms_cfg 3 ms_stB [Some (key_of ms_app); Some (key_of ms_libA)] (lit "app") true 0 false
    = MDone true ms_stApp [] /\
  alookup (setup_var (lit "lib")) (s_env ms_stApp) = alookup (setup_var (lit "lib")) (s_env ms_stB) /\
  alookup (lit "LIB_STACK") (s_env ms_stApp) = Some (lit "/s B/ups_db/x") /\
  msetup_step ms_world ms_cfg (msetup ms_world ms_cfg 2) ms_stB [Some (key_of ms_libA)] (lit "lib") true 1 false
    = MDone true ms_stB [].
Proof.
  split; [exact (SetupMSInv.wf_base _ _ _ ms_world_wf2)|].
  split; [exact ms_app_run|]. split; [vm_compute; reflexivity|]. split; [vm_compute; reflexivity|].
  apply (ms_keep_retains_partial_setup ms_world ms_cfg _ ms_stB [] (lit "lib") 0 false ms_libB ms_libA); vm_compute; reflexivity.
Qed.
Print Assumptions ms_c04_inhabited.
