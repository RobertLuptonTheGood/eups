(* C10 - Version names are ordered consistently.
   The lemmas behind the proofs are in Proofs/VersionCompare*.v and Proofs/VersionStacks.v.

   version_cmp is hooks.version_cmp(a, b) (sorting mode), version_cmp_strict the mode used by
   relational matching (mustReturnInt=False), both with the repair of D7; accepts is the
   domain of names (alphabet, splits without error, no plus sign left in the primary part);
   conv recognises conventional names  part [-part] [+part],  part = letters digits
   ((.|_) digits)*;  key maps such a name to (letters, numbers), optional pre-release key,
   optional post-release key;  key_compare is the lexicographic order on keys. *)
From Eupsv Require Import Base.Base Base.BaseLemmas Model.VersionCompare Model.VersionKey Model.VersionStacks
  Proofs.VersionCompareLib Proofs.VersionCompare Proofs.VersionCompareKey Proofs.VersionCompareMatch
  Proofs.VersionStacks.

Theorem cmp_refl v :
  accepts v = true -> version_cmp v v = Ok Eq /\ version_cmp_strict v v = Ok Eq.
Proof.
  intro A. apply accepts_good in A as [_ [p [s [t [E _]]]]].
  split; apply scmp_refl; eauto.
Qed.
Print Assumptions cmp_refl.

Theorem cmp_antisym a b c :
  accepts a = true -> accepts b = true ->
  version_cmp a b = Ok c -> version_cmp b a = Ok (CompOpp c).
Proof.
  intros A B H. apply accepts_good in A, B. unfold version_cmp in *. rewrite !std_compare_scmp in *.
  now rewrite (scmp_flip true false a b A B), H.
Qed.
Print Assumptions cmp_antisym.

(* strict mode: the same, and "cannot be sorted" is raised for both orders or for neither *)
Theorem cmp_antisym_strict a b :
  accepts a = true -> accepts b = true ->
  (forall c, version_cmp_strict a b = Ok c -> version_cmp_strict b a = Ok (CompOpp c)) /\
  (version_cmp_strict a b = Err Unsortable <-> version_cmp_strict b a = Err Unsortable).
Proof.
  intros A B. apply accepts_good in A, B. unfold version_cmp_strict. rewrite (std_compare_scmp true a b), (std_compare_scmp true b a).
  pose proof (scmp_flip true true a b A B) as F. pose proof (scmp_flip true true b a B A) as G.
  split; [intros c H; now rewrite F, H|]. split; intro H.
  - now rewrite F, H.
  - now rewrite G, H.
Qed.
Print Assumptions cmp_antisym_strict.

(* accepted names never crash the comparison; only the strict mode may refuse to sort *)
Theorem cmp_defined a b :
  accepts a = true -> accepts b = true ->
  (exists c, version_cmp a b = Ok c) /\
  ((exists c, version_cmp_strict a b = Ok c) \/ version_cmp_strict a b = Err Unsortable).
Proof.
  intros A B. apply accepts_good in A, B. unfold version_cmp, version_cmp_strict. rewrite (std_compare_scmp false), (std_compare_scmp true).
  split.
  - destruct (scmp_defined true false a b A B) as [H|[H _]]; [assumption|discriminate].
  - destruct (scmp_defined true true a b A B) as [H|[_ H]]; auto.
Qed.
Print Assumptions cmp_defined.

Theorem conv_is_accepted v : conv v = true -> accepts v = true.
Proof.
  intro C. destruct (conv_spec v C) as [[[p s] t] (W & P & _)]. apply accepts_good. split.
  - rewrite <- P. now apply cname_wf_name.
  - exists (print_part p), (print_opt s), (print_opt t). split.
    + rewrite <- P. now apply cname_split.
    + apply notpm_no_plus, part_notpm. now destruct W.
Qed.
Print Assumptions conv_is_accepted.

(* what conv recognises: exactly texts of the grammar, printed from a well-formed structure *)
Theorem conv_grammar v :
  conv v = true -> exists c, wf_cname c /\ print_cname c = v /\ key v = cname_key c.
Proof. exact (conv_spec v). Qed.
Print Assumptions conv_grammar.

(* ... and every text printed from a well-formed structure is recognised, with that key *)
Theorem conv_recognises_grammar c :
  wf_cname c -> conv (print_cname c) = true /\ key (print_cname c) = cname_key c.
Proof. intro W. unfold conv, key. now rewrite (parse_conv_complete c W). Qed.
Print Assumptions conv_recognises_grammar.

(* the refinement: on conventional names the comparison is the order of the keys *)
Theorem cmp_is_key_order a b :
  conv a = true -> conv b = true -> version_cmp a b = Ok (key_compare (key a) (key b)).
Proof. exact (cmp_key_order a b). Qed.
Print Assumptions cmp_is_key_order.

(* in strict mode the same holds when the two names share their letter prefix *)
Theorem cmp_is_key_order_strict a b :
  conv a = true -> conv b = true -> prefix_of a = prefix_of b ->
  version_cmp_strict a b = Ok (key_compare (key a) (key b)).
Proof. exact (cmp_strict_key_order a b). Qed.
Print Assumptions cmp_is_key_order_strict.

(* ... and refuses to sort when they do not (which relational matching turns into: no match) *)
Theorem strict_unsortable_across_prefixes a b :
  conv a = true -> conv b = true -> prefix_of a <> prefix_of b ->
  version_cmp_strict a b = Err Unsortable.
Proof. exact (cmp_strict_unsortable a b). Qed.
Print Assumptions strict_unsortable_across_prefixes.

(* the order on keys is a total order: reflexive, antisymmetric, transitive, and equal keys
   only for equal key values *)
Theorem key_order_is_total_order :
  (forall k, key_compare k k = Eq) /\
  (forall j k, key_compare j k = Eq -> j = k) /\
  (forall j k, key_compare k j = CompOpp (key_compare j k)) /\
  (forall i j k, key_compare i j = Lt -> key_compare j k = Lt -> key_compare i k = Lt).
Proof. destruct ord_ok_key as [R E A T]. auto. Qed.
Print Assumptions key_order_is_total_order.

Theorem conv_trans a b c :
  conv a = true -> conv b = true -> conv c = true ->
  (version_cmp a b = Ok Lt -> version_cmp b c = Ok Lt -> version_cmp a c = Ok Lt) /\
  (version_cmp a b <> Ok Gt -> version_cmp b c <> Ok Gt -> version_cmp a c <> Ok Gt) /\
  (version_cmp a b = Ok Eq -> version_cmp b c = Ok Eq -> version_cmp a c = Ok Eq).
Proof.
  intros A B C. rewrite (cmp_key_order a b), (cmp_key_order b c), (cmp_key_order a c) by assumption. repeat split.
  - intros H1 H2. inversion H1 as [K1]. inversion H2 as [K2].
    now rewrite (ok_trans _ ord_ok_key _ _ _ K1 K2).
  - intros H1 H2 H3. inversion H3 as [K3].
    apply (ok_le_trans _ ord_ok_key (key a) (key b) (key c)); congruence.
  - intros H1 H2. inversion H1 as [K1]. inversion H2 as [K2].
    apply (ok_eq _ ord_ok_key) in K1, K2. rewrite K1, K2. now rewrite (ok_refl _ ord_ok_key).
Qed.
Print Assumptions conv_trans.

Theorem conv_total a b :
  conv a = true -> conv b = true ->
  exists c, version_cmp a b = Ok c /\ version_cmp b a = Ok (CompOpp c).
Proof.
  intros A B. rewrite (cmp_key_order a b), (cmp_key_order b a) by assumption. eexists. split; [reflexivity|].
  now rewrite (ok_anti _ ord_ok_key (key a) (key b)).
Qed.
Print Assumptions conv_total.

(* components compare as numbers: the last component ... *)
Theorem numeric_components p s d e :
  wf_part p -> is_sep s = true -> all_digits d = true -> all_digits e = true ->
  version_cmp (print_part p ++ s :: d) (print_part p ++ s :: e)
  = Ok (N.compare (num_of_digits d) (num_of_digits e)).
Proof.
  intros W S D E. rewrite <- !print_part_snoc, version_cmp_parts, !part_key_snoc by now apply wf_part_snoc.
  unfold pkey_compare. cbn [fst snd]. rewrite (ok_refl _ ord_ok_str). cbn [then_cmp].
  now rewrite (lex_compare_snoc _ _ _ _ ord_ok_N).
Qed.
Print Assumptions numeric_components.

(* ... and the first one, after the common letters *)
Theorem numeric_first_component l d e :
  forallb is_alpha l = true -> ends_mp l = false -> all_digits d = true -> all_digits e = true ->
  version_cmp (l ++ d) (l ++ e) = Ok (N.compare (num_of_digits d) (num_of_digits e)).
Proof.
  intros L M D E.
  assert (P : forall x, all_digits x = true -> wf_part (l, x, []) /\ l ++ x = print_part (l, x, [])).
  { intros x X. cbn. rewrite app_nil_r. repeat split; auto. constructor. }
  destruct (P d D) as [Wd ->], (P e E) as [We ->]. rewrite version_cmp_parts by assumption.
  unfold pkey_compare. cbn [part_key map fst snd lex_compare]. rewrite (ok_refl _ ord_ok_str). cbn [then_cmp].
  now destruct (N.compare (num_of_digits d) (num_of_digits e)).
Qed.
Print Assumptions numeric_first_component.

Theorem longer_follows_prefix p s d :
  wf_part p -> is_sep s = true -> all_digits d = true ->
  version_cmp (print_part p) (print_part p ++ s :: d) = Ok Lt.
Proof.
  intros W S D. rewrite <- print_part_snoc, version_cmp_parts, part_key_snoc by auto using wf_part_snoc.
  unfold pkey_compare. cbn [fst snd]. rewrite (ok_refl _ ord_ok_str). cbn [then_cmp].
  now rewrite (lex_compare_longer _ _ _ ord_ok_N).
Qed.
Print Assumptions longer_follows_prefix.

(* p-q[+t] precedes p[+t] *)
Theorem prerelease_precedes p q t :
  wf_part p -> wf_part q -> wf_opt t ->
  version_cmp (print_cname (p, Some q, t)) (print_cname (p, None, t)) = Ok Lt.
Proof.
  intros Wp Wq Wt. rewrite version_cmp_printed by (cbn; auto).
  cbn [cname_key option_map key_compare sec_compare]. now rewrite (ok_refl _ ord_ok_pkey).
Qed.
Print Assumptions prerelease_precedes.

(* p[-s]+r follows p[-s] *)
Theorem postrelease_follows p s r :
  wf_part p -> wf_opt s -> wf_part r ->
  version_cmp (print_cname (p, s, Some r)) (print_cname (p, s, None)) = Ok Gt.
Proof.
  intros Wp Ws Wr. rewrite version_cmp_printed by (cbn; auto).
  cbn [cname_key option_map key_compare ter_compare].
  now rewrite (ok_refl _ ord_ok_pkey), (ok_refl _ ord_ok_sec).
Qed.
Print Assumptions postrelease_follows.

(* v matches  op w  exactly when the keys are in relation op *)
Theorem match_relop v op w :
  conv v = true -> conv w = true -> prefix_of w = prefix_of v ->
  version_match v (relop_text op ++ " "%char :: w) = Ok (rel op (key_compare (key v) (key w))).
Proof. intros Cv Cw P. exact (match_single v (Some op, w) Cv (conj Cw P)). Qed.
Print Assumptions match_relop.

Theorem match_other_prefix v op w :
  conv v = true -> conv w = true -> prefix_of w <> prefix_of v ->
  version_match v (relop_text op ++ " "%char :: w) = Ok false.
Proof. intros Cv Cw P. exact (match_unsortable v (Some op, w) Cv Cw P). Qed.
Print Assumptions match_other_prefix.

(* a bare version means == *)
Theorem match_bare v w :
  conv v = true -> conv w = true -> prefix_of w = prefix_of v ->
  version_match v w = Ok (rel REq (key_compare (key v) (key w))).
Proof. intros Cv Cw P. exact (match_single v (None, w) Cv (conj Cw P)). Qed.
Print Assumptions match_bare.

(* any expression  [op] w (|| [op] w)*  : accepted iff some alternative holds in the key order *)
Theorem match_alternatives v a l :
  conv v = true -> Forall (alt_conv v) (a :: l) ->
  version_match v (print_expr (a :: l)) = Ok (existsb (alt_holds v) (a :: l)).
Proof. exact (match_expr v a l). Qed.
Print Assumptions match_alternatives.

Theorem match_or v a1 l1 a2 l2 :
  conv v = true -> Forall (alt_conv v) (a1 :: l1) -> Forall (alt_conv v) (a2 :: l2) ->
  print_expr ((a1 :: l1) ++ a2 :: l2) = print_expr (a1 :: l1) ++ sep_or ++ print_expr (a2 :: l2) /\
  exists b1 b2,
    version_match v (print_expr (a1 :: l1)) = Ok b1 /\ version_match v (print_expr (a2 :: l2)) = Ok b2 /\
    version_match v (print_expr (a1 :: l1) ++ sep_or ++ print_expr (a2 :: l2)) = Ok (b1 || b2).
Proof.
  intros Cv H1 H2.
  assert (E : print_expr ((a1 :: l1) ++ a2 :: l2) = print_expr (a1 :: l1) ++ sep_or ++ print_expr (a2 :: l2)).
  { cbn [app]. rewrite !print_expr_cons. unfold tail_str. rewrite flat_map_app. cbn [flat_map].
    fold (tail_str l1). fold (tail_str l2). now rewrite <- !app_assoc. }
  split; [exact E|]. do 2 eexists. split; [now apply match_expr|]. split; [now apply match_expr|].
  rewrite <- E.
  assert (H : Forall (alt_conv v) ((a1 :: l1) ++ a2 :: l2)) by (apply Forall_app; auto).
  cbn [app] in *. rewrite (match_expr v a1 (l1 ++ a2 :: l2) Cv H).
  change (a1 :: l1 ++ a2 :: l2) with ((a1 :: l1) ++ a2 :: l2). now rewrite existsb_app.
Qed.
Print Assumptions match_or.

Theorem latest_is_max l :
  Forall (fun x => conv x = true) l -> l <> [] ->
  exists m, latest l = Ok (Some m) /\ In m l /\ forall x, In x l -> key_le (key x) (key m).
Proof. exact (latest_spec l). Qed.
Print Assumptions latest_is_max.

Theorem latest_none l : latest l = Ok None <-> l = [].
Proof.
  split; [|now intros ->]. destruct l as [|x r]; [reflexivity|]. cbn [latest].
  destruct (latest_from x r); discriminate.
Qed.
Print Assumptions latest_none.

(* Eups._findLatestProduct: latest_over_stacks minver stacks, stacks = for every stack of EUPS_PATH
   in order the versions it declares, minver the optional minimum version.  The answer (position of
   the stack, version) names a version declared in that stack which is a maximum, in the key order,
   of the union of all the stacks' versions - whichever stack holds it - and is not below the
   minimum; there is no answer exactly when (no minimum) no stack declares a version, (minimum)
   every declared version is below the minimum. *)
Theorem latest_over_stacks_is_max minver stacks :
  conv_min minver -> conv_stacks stacks ->
  exists r, latest_over_stacks minver stacks = Ok r /\
    match r with
    | Some (i, m) =>
        (exists vs, nth_error stacks i = Some vs /\ In m vs) /\
        (forall x, In x (concat stacks) -> key_le (key x) (key m)) /\
        (forall mv, minver = Some mv -> key_le (key mv) (key m))
    | None =>
        forall x, In x (concat stacks) ->
          match minver with Some mv => key_lt (key x) (key mv) | None => False end
    end.
Proof.
  intros Hm Hs. destruct (latest_over_stacks_spec minver stacks Hm Hs) as [r [E K]]. exists r. split; [exact E|].
  destruct r as [[i m]|]; [|exact K]. destruct K as (_ & L & M & Mn). auto.
Qed.
Print Assumptions latest_over_stacks_is_max.

Theorem latest_over_stacks_none stacks :
  conv_stacks stacks -> (latest_over_stacks None stacks = Ok None <-> concat stacks = []).
Proof.
  intro Hs. destruct (latest_over_stacks_spec None stacks I Hs) as [r [E K]]. rewrite E. split.
  - intros [= ->]. cbn [kept_ok] in K. destruct (concat stacks) as [|x l]; [reflexivity|].
    destruct (K x (or_introl eq_refl)).
  - intro H. destruct r as [[i m]|]; [|reflexivity]. apply kept_in in K. rewrite H in K. destruct K.
Qed.
Print Assumptions latest_over_stacks_none.

Theorem latest_over_stacks_none_with_minimum mv stacks :
  conv mv = true -> conv_stacks stacks ->
  (latest_over_stacks (Some mv) stacks = Ok None <-> forall x, In x (concat stacks) -> key_lt (key x) (key mv)).
Proof.
  intros Hm Hs. destruct (latest_over_stacks_spec (Some mv) stacks Hm Hs) as [r [E K]]. rewrite E. split.
  - intros [= ->]. exact K.
  - intro H. destruct r as [[i m]|]; [|reflexivity]. exfalso. specialize (H m (kept_in _ _ _ _ K)).
    destruct K as (_ & _ & _ & Mn). specialize (Mn mv eq_refl). unfold key_lt in H. unfold key_le in Mn.
    rewrite (ok_anti _ ord_ok_key (key m) (key mv)), H in Mn. now apply Mn.
Qed.
Print Assumptions latest_over_stacks_none_with_minimum.

(* one stack and no minimum: the search is the function latest of that stack (any names) *)
Theorem latest_over_one_stack l :
  latest_over_stacks None [l] =
  match latest l with Ok (Some m) => Ok (Some (0, m)) | Ok None => Ok None | Err e => Err e end.
Proof. unfold latest_over_stacks. cbn [latest_stacks_from]. now destruct (latest l) as [[m|]|e]. Qed.
Print Assumptions latest_over_one_stack.

(* eups list -t latest (Eups.findProducts): every stack is asked on its own; every entry is a maximum
   of the stack it names, and a maximum of every stack that declares the product is among the
   version names listed (equal entries of different stacks are listed once) *)
Theorem latest_listing_per_stack stacks :
  conv_stacks stacks ->
  exists lst, latest_listing stacks = Ok lst /\
    (forall i v, In (i, v) lst ->
       exists vs, nth_error stacks i = Some vs /\ In v vs /\ forall x, In x vs -> key_le (key x) (key v)) /\
    (forall i vs, nth_error stacks i = Some vs -> vs <> [] ->
       exists v, In v (map snd lst) /\ In v vs /\ forall x, In x vs -> key_le (key x) (key v)).
Proof.
  intro Hs. destruct (latest_per_stack_spec stacks Hs) as [r (E & L & S)].
  unfold latest_listing. rewrite E. eexists. split; [reflexivity|]. split.
  - intros i v H. apply listing_from_sound in H as [_ N]. rewrite Nat.sub_0_r in N.
    destruct (nth_error stacks i) as [vs|] eqn:Ns.
    2:{ apply nth_error_None in Ns. rewrite <- L in Ns. apply nth_error_None in Ns. congruence. }
    exists vs. split; [reflexivity|]. specialize (S i vs Ns). destruct vs as [|v0 vr].
    + rewrite N in S. discriminate.
    + destruct S as [m (Nm & Im & Mm)]. rewrite N in Nm. injection Nm as ->. now split.
  - intros i vs Ns Ne. specialize (S i vs Ns). destruct vs as [|v0 vr]; [congruence|].
    destruct S as [m (Nm & Im & Mm)]. exists m.
    destruct (listing_from_complete r 0 [] i m Nm) as [M|M]; [discriminate|]. now split.
Qed.
Print Assumptions latest_listing_per_stack.

(* the maximum may be in any stack; ties go to the first stack; the minimum passes stacks over *)
Example latest_over_stacks_inhabited :
  let A := [lit "1.0"; lit "10.0"; lit "2.0"] in
  let B := [lit "1.5"; lit "3.0"] in
  let C := [lit "2.5"; lit "9.0-rc1"; lit "10_0"] in
  conv_stacks [A; B; C; []] /\
  latest_over_stacks None [A; B] = Ok (Some (0, lit "10.0")) /\
  latest_over_stacks None [B; A] = Ok (Some (1, lit "10.0")) /\
  latest_over_stacks None [B; []; C; A] = Ok (Some (2, lit "10_0")) /\
  latest_over_stacks None [[]; []] = Ok None /\
  latest_over_stacks (Some (lit "3.0")) [B; []] = Ok (Some (0, lit "3.0")) /\
  latest_over_stacks (Some (lit "3.0.1")) [B; []] = Ok None /\
  latest_over_stacks (Some (lit "3.0.1")) [B; A] = Ok (Some (1, lit "10.0")) /\
  latest_over_stacks (Some (lit "11")) [B; A; C] = Ok None /\
  latest_over_stacks (Some []) [B; A] = Ok (Some (1, lit "10.0")) /\
  latest_per_stack [A; []; B] = Ok [Some (lit "10.0"); None; Some (lit "3.0")] /\
  latest_listing [A; []; B; [lit "10.0"; lit "3.0"]] = Ok [(0, lit "10.0"); (2, lit "3.0")].
Proof.
  cbv zeta. split; [|vm_compute; repeat split].
  unfold conv_stacks, conv_list. repeat (apply Forall_cons || apply Forall_nil); vm_compute; reflexivity.
Qed.

(* the tree as pinned (before the repair of D7) is not transitive on conventional names:
   v1.0 = v1_0-rc1 < v1_0 = v1.0 *)
Theorem conv_trans_refuted_pinned :
  exists a b c, conv a = true /\ conv b = true /\ conv c = true /\
    version_cmp_pinned a b = Ok Eq /\ version_cmp_pinned b c = Ok Lt /\ version_cmp_pinned a c = Ok Eq.
Proof.
  exists (lit "v1.0"), (lit "v1_0-rc1"), (lit "v1_0"). vm_compute. repeat split.
Qed.
Print Assumptions conv_trans_refuted_pinned.

Example pinned_tree_witness_repaired :
  version_cmp (lit "v1.0") (lit "v1_0-rc1") = Ok Gt /\ version_cmp (lit "v1_0-rc1") (lit "v1_0") = Ok Lt /\
  version_cmp (lit "v1.0") (lit "v1_0") = Ok Eq /\ version_cmp (lit "1.01+2") (lit "1.1+3") = Ok Lt.
Proof. vm_compute. repeat split. Qed.

(* outside the conventional names sorting mode is not transitive (2 < 10 < 1a < 2); such
   names are covered by reflexivity and antisymmetry only *)
Example nonconventional_cycle :
  version_cmp (lit "2") (lit "10") = Ok Lt /\ version_cmp (lit "10") (lit "1a") = Ok Lt /\
  version_cmp (lit "1a") (lit "2") = Ok Lt /\ conv (lit "1a") = false /\ accepts (lit "1a") = true.
Proof. vm_compute. repeat split. Qed.

(* non-vacuity *)
Example c10_hypotheses_inhabited :
  conv (lit "v1_0_3") = true /\ conv (lit "1.2-rc1+a1") = true /\ conv (lit "2") = true /\ conv (lit "10") = true /\
  accepts (lit "1.2-rc1+a") = true /\ accepts (lit "rel-0-8-2") = true /\ accepts (lit "1.2m3") = true /\
  accepts (lit "-1") = false /\ conv (lit "1.2m3") = false /\
  key (lit "v1_02.3-rc1+a1") = ((lit "v", [1; 2; 3]%N), Some (lit "rc", [1%N]), Some (lit "a", [1%N])) /\
  prefix_of (lit "v1_0_3") = lit "v" /\
  version_cmp (lit "2") (lit "10") = Ok Lt /\ version_cmp (lit "1.9") (lit "1.10") = Ok Lt /\
  version_cmp (lit "1.2-rc1") (lit "1.2") = Ok Lt /\ version_cmp (lit "1.2+1") (lit "1.2") = Ok Gt /\
  version_cmp (lit "1.2") (lit "1.2.1") = Ok Lt /\
  version_cmp_strict (lit "v1") (lit "w1") = Err Unsortable /\
  version_match (lit "v1.2") (lit ">= v1.1 || v3") = Ok true /\
  version_match (lit "v1.2") (lit "< v1.2 || == v1_3") = Ok false /\
  latest [lit "1.0"; lit "1.10"; lit "1.9"; lit "1_10-rc1"] = Ok (Some (lit "1.10")).
Proof. vm_compute. repeat split. Qed.
