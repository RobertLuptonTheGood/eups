(* C07 - answers served from the product cache equal the answers in the database files.

   Model: Model/Cache.v on top of Model/Db.v.  A world = database files + the chain files of every
   user's tag directory (user tags) + a modification time for every product directory, version file
   and chain file, of the stacks and of the tag directories + the cache files of every (cache
   directory, stack, flavor).  [reachable tick vr w]: w is produced from empty stacks by any number
   of processes run one after the other -- each one the fromCache load of every stack followed by
   any commands, user-tag commands included, dying or not before a database call or between a
   database call and the cache update that follows it -- by any users (cache directories) and
   flavors, with cache files deleted at any moment, inside or outside processes.

   The variant record of the model has six switches.  Two of them (v_rm: ProductFamily.removeVersion;
   v_init: order of the fall-back flavor set-up in Eups.__init__) are repairs that /repo has; the other
   four (v_uloc, v_ustale, v_noread, v_shared) are the user-tag repairs of proposed_fixes/C07-user-tag-
   location, -user-tag-staleness, -declare-reads-back-tags, -shared-cache-user-tags (with -load-user-tags-
   skip, which has no switch), which /repo does NOT have: Eups.assignTag writes the chain file of a user
   tag among the stack's own (open finding D42), and that cannot be repaired while tests/test_eups2.py::
   testUserTags pins it; the other four only show once it is repaired.
   [repaired] = all switches on the repaired side = /repo + proposed_fixes/C07-*.diff.
   [tree_as_it_is] = v_rm and v_init repaired, the four user-tag switches pinned = /repo.

   - The theorems about declarations and global tags are stated for [repaired] (whose histories include
     user-tag commands) AND for any setting of the four user-tag switches, [tree_as_it_is] among them, over
     the histories without user-tag commands ([reachable_nut]; *_whatever_the_user_tag_switches): those are
     the statements that hold of /repo as it is.
   - The theorems about user tags are stated for [repaired] only; of /repo as it is they are false:
     user_tags_refuted_pinned_location.

   [q_served w m q] is the answer of an Eups whose product stacks are m, in world w (noCache=False): the
   loaded stack answers for the flavors it holds, the database files for any other flavor
   (Eups._readDatabase, proposed_fixes/C07-unloaded-flavor-from-database); [q_cache m q] is the pinned
   answer, which takes a flavor that was not loaded for a flavor without products
   (coherent_refuted_pinned_unloaded_flavor); [q_db w q]
   the answer read from the version and chain files (noCache=True); queries: is a version
   declared, its directory and table, does it carry a tag, the version a tag designates, per stack
   and over the path.  [uq_served w m u q] ([uq_cache m q] pinned) / [uq_db w u q]: the same for the user tags of user u (does
   the version carry user tag t, the version t designates, per stack and over the path), read from
   the chain files of the tag directory of u.

   Hypotheses that stay in the statements:
   - clock_strict tick: every record effect and every cache-file write gets a stamp strictly
     later than the previous ones (refuted without it: coherent_refuted_coarse_clock);
   - (user tags only) the query is about a flavor the loading instance consults, or no chain file of a
     stack is named like the user tag: for a flavor that was not loaded findTaggedProduct reads
     Database.getChainFile, which looks among the stack's own chain files first;
   - a user's data directory is not a stack's ups_db (u <> upsdb), and (in reachable) an
     administrator's instance only loads; user-tag answers are stated for instances that are not
     administrators (an administrator's instance holds no user tag, by design of the repair). *)
From Eupsv Require Import Base.Base Model.Db Model.Cache Model.CacheLive.
From Eupsv Require Import Proofs.DbLib Proofs.Db Proofs.DbInv Proofs.DbCor.
From Eupsv Require Import Proofs.CacheLib Proofs.CacheWt Proofs.CacheEff Proofs.CacheU Proofs.CacheInv
  Proofs.CacheLoad Proofs.CacheProc Proofs.CacheNoU Proofs.CacheLive.

(* whatever the history, whoever made it, a new process of any user and flavor answers every
   query through its cache as the database files do *)
Theorem coherent : forall tick, clock_strict tick -> forall w, reachable tick repaired w ->
  forall u loc fl q, u <> upsdb -> loc = u \/ loc = upsdb ->
  q_served (fst (load tick repaired w loc u fl)) (snd (load tick repaired w loc u fl)) q = q_db w q.
Proof. intros tick CS w R u loc fl q Hu Hl. apply coherent_load_served; assumption. Qed.
Print Assumptions coherent.

(* [repaired] = /repo + proposed_fixes/C07-*.diff.  On /repo as it is this clause is refuted
   (user_tags_refuted_pinned_location: open finding D42, not repairable while tests/test_eups2.py::testUserTags
   pins the behaviour of Eups.assignTag / unassignTag).
   The same for user tags: whatever the history -- assignments, moves and removals of user tags by any
   user, undeclarations of tagged versions by the same or another user and their redeclaration, deaths
   between the write in the tag directory and the cache update, deleted cache files -- a new process of
   user u answers every query about the user tags of u through its cache as the chain files of the tag
   directory of u (and the version files) do *)
Theorem user_tags_coherent : forall tick, clock_strict tick -> forall w, reachable tick repaired w ->
  forall u fl q, u <> upsdb ->
  In (uq_flavor q) (fallbacks fl) \/ (forall s n, db_cfile (w_db w) s (n, uq_tag q) = None) ->
  uq_served (fst (load tick repaired w u u fl)) (snd (load tick repaired w u u fl)) u q = uq_db w u q.
Proof. intros tick CS w R u fl q Hu Hq. apply ucoherent_load_served; assumption. Qed.
Print Assumptions user_tags_coherent.

(* /repo as it is: removeVersion and the flavor set-up repaired, the four user-tag switches pinned *)
Definition tree_as_it_is : variant := mkVar false false true true true true.

Example tree_as_it_is_base : base_repaired tree_as_it_is.
Proof. split; reflexivity. Qed.

(* the property for declarations and global tags, whatever the four user-tag switches (hence for /repo as it
   is), over the histories that contain no user-tag command: every process then does what the repaired code
   does, the tag directories stay empty *)
Theorem coherent_whatever_the_user_tag_switches : forall tick, clock_strict tick ->
  forall vr, base_repaired vr -> forall w, reachable_nut tick vr w ->
  forall u loc fl q, u <> upsdb -> loc = u \/ loc = upsdb ->
  q_served (fst (load tick vr w loc u fl)) (snd (load tick vr w loc u fl)) q = q_db w q.
Proof.
  intros tick CS vr B w R u loc fl q Hu Hl. destruct (reachable_nut_repaired tick vr w B R) as [R' N].
  rewrite (proj1 (load_nouc tick vr w loc u fl B N)). apply coherent_load_served; assumption.
Qed.
Print Assumptions coherent_whatever_the_user_tag_switches.

(* the invariant behind both: in every reachable world every cache file, product by product,
   either agrees with the files -- the stack's records, and for the user tags the tag directory of
   the owner of the cache directory (nobody's for ups_db) --, or is older than a record of the
   product or than the owner's tag directory for the product, or lists a product that has no
   version file any more *)
Theorem cache_files_stale_or_right : forall tick, clock_strict tick -> forall w, reachable tick repaired w ->
  forall loc s f p, pk_get w loc s f = Some p -> forall n,
    (agree_n (pk_data p) (w_db w) s f n /\ uagree_n (pk_data p) (w_db w) (w_uc w) (owner loc) s f n)
    \/ (In n (db_names (w_db w) s) /\
        (newer_n (w_db w) (w_stamps w) s n (pk_stamp p) = true
         \/ (loc <> upsdb /\ pk_stamp p < stamp_of (w_stamps w) (RUDir loc s n))))
    \/ (~ In n (db_names (w_db w) s) /\ alookup n (pk_data p) <> None).
Proof.
  intros tick CS w R loc s f p H n. destruct (reachable_inv tick w CS R) as [I _].
  exact (inv_pk w I loc s f p H n).
Qed.
Print Assumptions cache_files_stale_or_right.

(* a cache that is missing, or older than the database, or (in a user's directory) older than his
   tag directory, is not believed ... *)
Theorem missing_or_older_is_not_believed : forall w loc s nf f, In f nf ->
  (pk_get w loc s f = None \/
   (exists p, pk_get w loc s f = Some p /\ newer_than w s (pk_stamp p) = true) \/
   (loc <> upsdb /\ exists p, pk_get w loc s f = Some p /\ unewer_than w loc s (pk_stamp p) = true)) ->
  believed w loc s nf = false.
Proof.
  intros w loc s nf f Hf [H|[[p [H1 H2]]|[N [p [H1 H2]]]]]; apply (not_up_to_date_not_believed_any false w loc s nf f ps_empty Hf).
  - apply absent_not_up_to_date. exact H.
  - eapply older_not_up_to_date; eassumption.
  - eapply uolder_not_up_to_date; eassumption.
Qed.
Print Assumptions missing_or_older_is_not_believed.

(* the first two cases do not depend on the switch of cacheIsUpToDate: missing, or older than the database,
   is not believed on /repo as it is either *)
Theorem missing_or_older_is_not_believed_whatever_the_switch : forall b w loc s nf f ps, In f nf ->
  (pk_get w loc s f = None \/ (exists p, pk_get w loc s f = Some p /\ newer_than w s (pk_stamp p) = true)) ->
  snd (try_cache b w loc s nf ps) = false.
Proof.
  intros b w loc s nf f ps Hf [H|[p [H1 H2]]]; apply (not_up_to_date_not_believed_any b w loc s nf f ps Hf).
  - apply absent_not_up_to_date. exact H.
  - eapply older_not_up_to_date; eassumption.
Qed.
Print Assumptions missing_or_older_is_not_believed_whatever_the_switch.

(* ... and a cache that is not believed (in the user's directory nor in ups_db) is rebuilt: the
   stack is loaded with what the files say (the user tags: what the tag directory of the loading
   user says), for every flavor, and every needed cache file is rewritten with a fresh stamp *)
Theorem stale_is_rebuilt : forall tick, clock_strict tick -> forall w, reachable tick repaired w ->
  forall s loc nf, believed w loc s nf = false -> believed w upsdb s nf = false ->
  let '(w', ps) := from_cache tick false w s loc (owner loc) nf in
  (forall f, In f (db_flavors (w_db w) s) ->
     alookup f (ps_lookup ps) = Some (rebuild_fdata (w_db w) (w_uc w) (owner loc) s f)) /\
  (forall f, In f nf -> exists p, pk_get w' loc s f = Some p /\ w_clock w < pk_stamp p) /\
  (forall f fd, alookup f (ps_lookup ps) = Some fd ->
     agree fd (w_db w) s f /\ uagree fd (w_db w) (w_uc w) (owner loc) s f) /\
  w_db w' = w_db w /\ w_uc w' = w_uc w.
Proof.
  intros tick CS w R s loc nf B1 B2. destruct (reachable_inv tick w CS R) as [I _]. unfold from_cache.
  assert (MT0 : mt_ok w s ps_empty) by (intros l f m p H; discriminate).
  destruct (try_cache false w loc s nf ps_empty) as [ps1 b1] eqn:T1.
  assert (Eb1 : b1 = false) by (unfold believed in B1; rewrite T1 in B1; exact B1). subst b1.
  destruct (try_cache_false _ _ _ _ _ _ MT0 eq_refl T1) as [MT1 Nil1].
  destruct (try_cache false w upsdb s nf ps1) as [ps2 b2] eqn:T2.
  assert (Eb2 : b2 = false).
  { pose proof (try_cache_bool_indep w upsdb s nf ps1 Nil1) as X. rewrite T2 in X. cbn [snd] in X. congruence. }
  subst b2. destruct (try_cache_false _ _ _ _ _ _ MT1 Nil1 T2) as [MT2 _].
  destruct (save tick w s loc _ _) as [[w3 ps3] b] eqn:Es.
  destruct (rebuild_save_ok tick w s loc nf ps2 w3 ps3 b CS I MT2 Es) as [_ [[A [U _]] [[D3 [_ [_ [U3 _]]]] [_ [L3 L4]]]]].
  split; [exact L3|]. split; [exact L4|]. split; [|auto]. intros f fd E. rewrite <- D3, <- U3. split; [exact (A f fd E)|].
  intro n. apply (ugood_uagree_n fd (w_db w3) (w_uc w3) (owner loc) s f n (A f fd E n)). apply (U f fd E).
Qed.
Print Assumptions stale_is_rebuilt.

(* a command killed between the database update and the cache update: the world it leaves is
   answered coherently by every later process *)
Theorem crash_between_db_and_cache_detected : forall tick, clock_strict tick ->
  forall w, reachable tick repaired w ->
  forall p i g, p_user p <> upsdb -> (p_admin p = true -> p_ops p = []) -> p_crash p = Some (i, g, true) ->
  forall u loc fl q, u <> upsdb -> loc = u \/ loc = upsdb ->
  q_served (fst (load tick repaired (run_proc tick repaired w p) loc u fl))
           (snd (load tick repaired (run_proc tick repaired w p) loc u fl)) q = q_db (run_proc tick repaired w p) q.
Proof.
  intros tick CS w R p i g Hp Ha _ u loc fl q Hu Hl. apply coherent_load_served; try assumption. apply R_proc; assumption.
Qed.
Print Assumptions crash_between_db_and_cache_detected.

(* the same whatever the four user-tag switches, for commands that are not user-tag commands *)
Theorem crash_detected_whatever_the_user_tag_switches : forall tick, clock_strict tick ->
  forall vr, base_repaired vr -> forall w, reachable_nut tick vr w ->
  forall p i g, p_user p <> upsdb -> (p_admin p = true -> p_ops p = []) -> forallb base_pop (p_ops p) = true ->
  p_crash p = Some (i, g, true) ->
  forall u loc fl q, u <> upsdb -> loc = u \/ loc = upsdb ->
  q_served (fst (load tick vr (run_proc tick vr w p) loc u fl)) (snd (load tick vr (run_proc tick vr w p) loc u fl)) q
    = q_db (run_proc tick vr w p) q.
Proof.
  intros tick CS vr B w R p i g Hp Ha Hb _ u loc fl q Hu Hl.
  apply coherent_whatever_the_user_tag_switches; try assumption. apply RN_proc; assumption.
Qed.
Print Assumptions crash_detected_whatever_the_user_tag_switches.

(* [repaired] = /repo + proposed_fixes/C07-*.diff; on /repo as it is the user-tag clauses are refuted
   (user_tags_refuted_pinned_location, D42) and this one in particular by user_tags_refuted_pinned_staleness.
   The same when the command killed is a user-tag command (the write in the tag directory is done, the
   cache update is not), for the user tags of any user *)
Theorem user_tag_crash_detected : forall tick, clock_strict tick ->
  forall w, reachable tick repaired w ->
  forall p i g, p_user p <> upsdb -> (p_admin p = true -> p_ops p = []) -> p_crash p = Some (i, g, true) ->
  forall u fl q, u <> upsdb ->
  In (uq_flavor q) (fallbacks fl) \/ (forall s n, db_cfile (w_db (run_proc tick repaired w p)) s (n, uq_tag q) = None) ->
  uq_served (fst (load tick repaired (run_proc tick repaired w p) u u fl))
            (snd (load tick repaired (run_proc tick repaired w p) u u fl)) u q = uq_db (run_proc tick repaired w p) u q.
Proof.
  intros tick CS w R p i g Hp Ha _ u fl q Hu Hq. apply ucoherent_load_served; try assumption. apply R_proc; assumption.
Qed.
Print Assumptions user_tag_crash_detected.

(* the mechanism: a database call that changes anything leaves the product directory newer than
   every cache file of the stack, whoever wrote it; none of them is up to date afterwards *)
Theorem db_update_outdates_cache_files : forall tick, clock_strict tick -> forall w, reachable tick repaired w ->
  forall b x l f p, compile (w_db w) x <> [] -> pk_get w l (act_stack x) f = Some p ->
  In (act_name x) (db_names (w_db (do_act tick w x)) (act_stack x)) ->
  up_to_date b (do_act tick w x) l (act_stack x) f = false.
Proof.
  intros tick CS w R b x l f p Ne Hp Hn. destruct (reachable_inv tick w CS R) as [I _].
  unfold up_to_date. rewrite (pk_get_pickles w) by apply do_act_pickles. rewrite Hp.
  apply andb_false_iff. right. apply negb_false_iff. unfold newer_than. apply existsb_exists. exists (act_name x). split; [exact Hn|].
  destruct (compile_touch (w_db w) x) as [Nil|T]; [contradiction|].
  assert (Fresh : pk_stamp p < stamp_of (w_stamps (do_act tick w x)) (RDir (act_stack x) (act_name x))).
  { unfold do_act. apply dir_stamp_touch; auto; [apply compile_scope|]. exact (inv_pc w I _ _ _ _ Hp). }
  unfold newer_n. apply Nat.ltb_lt in Fresh. rewrite Fresh. reflexivity.
Qed.
Print Assumptions db_update_outdates_cache_files.

(* [repaired] = /repo + proposed_fixes/C07-*.diff (cacheIsUpToDate with the switch on the repaired side, a
   write that goes into the tag directory); on /repo as it is Eups.assignTag does not write there at all
   (user_tags_refuted_pinned_location, D42).
   The mechanism for user tags: a write in the tag directory of user u leaves the product's directory
   there newer than every cache file of u for the stack; none of them is up to date afterwards *)
Theorem user_tag_update_outdates_own_cache_files : forall tick, clock_strict tick -> forall w, reachable tick repaired w ->
  forall u s n t f v f0 p, u <> upsdb -> pk_get w u s f0 = Some p -> In n (db_names (w_db w) s) ->
  up_to_date false (do_uset tick w u s n t f v) u s f0 = false.
Proof.
  intros tick CS w R u s n t f v f0 p Hu Hp Hn. destruct (reachable_inv tick w CS R) as [I _].
  eapply uset_outdates; eassumption.
Qed.
Print Assumptions user_tag_update_outdates_own_cache_files.

(* the write-through of one database call, on the repaired removeVersion: data that agree with
   the files before the call agree with the files after it *)
Theorem write_through_follows_database : forall uts ps d s x,
  lookup_agree ps d s -> no_dangling (view d) -> act_ok (view d) x -> act_root x = s ->
  has_stack d s = true -> alookup (act_flavor x) (ps_lookup ps) <> None ->
  exists ps' ch, wt_act false uts x ps = Ok (ps', ch) /\ lookup_agree ps' (apply (compile d x) d) s.
Proof.
  intros uts ps d s x A ND OK R H F. destruct (wt_act_agree uts ps d s x A ND OK R H F) as [ps' [ch [E [A' _]]]].
  exists ps', ch. auto.
Qed.
Print Assumptions write_through_follows_database.

(* [repaired] = /repo + proposed_fixes/C07-*.diff (read-back switch and location switch on the repaired side);
   on /repo as it is the tag directory is not where Eups.assignTag writes (user_tags_refuted_pinned_location,
   D42) and nothing is read back (user_tags_refuted_pinned_read_back).
   The write-through for user tags, of a database call (a declaration reads the user's chain files that
   name the version back; an undeclaration takes his tags off the version in the tag directory and in
   the data) and of the two user-tag calls: user tags that agree with the tag directory before the
   call agree with it after *)
Theorem write_through_follows_tag_directory : forall tick w u ps,
  (forall s x ps' ch, ps_ugood ps (w_uc w) (Some u) s -> lookup_agree ps (w_db w) s -> act_root x = s ->
     alookup (act_flavor x) (ps_lookup ps) <> None ->
     wt_act false (read_back false (do_act tick (do_uact tick w u x) x) u) x ps = Ok (ps', ch) ->
     ps_ugood ps' (w_uc (do_act tick (do_uact tick w u x) x)) (Some u) s) /\
  (forall x ps' ch, ps_ugood ps (w_uc w) (Some u) (uact_stack x) -> wt_uact x ps = Ok (ps', ch) ->
     ps_ugood ps' (w_uc (do_udb tick false w u x)) (Some u) (uact_stack x)).
Proof.
  intros tick w u ps. split.
  - intros s x ps' ch G A R F E. apply (wt_act_ugood tick w u _ ps s x ps' ch) with (6 := E); auto.
    intros s0 n v f. unfold read_back. rewrite do_act_uc. reflexivity.
  - intros x ps' ch G E. eapply wt_uact_ugood; eassumption.
Qed.
Print Assumptions write_through_follows_tag_directory.

(* Model/CacheLive.v: one process of a user holds several Eups instances at the same time; they share the
   database files and the cache files of the user and each keeps its own loaded copy.  Before an instance
   does anything with a stack it calls ensureInSync on it.  [ensure_in_sync_held] is the repaired
   ensureInSync (proposed_fixes/C07-ensure-in-sync-held-flavors: the flavors the stack holds are read again);
   the pinned one, [ensure_in_sync] of Model/Cache.v, reads every cache file of the directory and is refuted
   below (live_refuted_pinned_reload_all).

   [live_ok w loc s ps]: every flavor the stack holds agrees with the files or its cache file was rewritten
   since the stack loaded or wrote it, and when a held file was rewritten the cache files of the held
   flavors agree with the files (what the write-through of the other instance leaves:
   write_through_follows_database, then persist).  Under it the answers through the cache after
   ensureInSync are those of the database files, for every flavor, whatever the instance did in between
   (tables parsed on demand leave no trace in the model: table_read_changes_nothing).

   NOT proved (stated here in full): for every reachable w and every session xs of a user u <> upsdb,
     run_session tick repaired false u fl w xs = (w', ms) -> nth_error ms i = Some m ->
     forall s ps, alookup s m = Some ps -> live_ok w' u s ps
   -- that every step of a session re-establishes live_ok for every OTHER live instance.  Before the repair of
   ProductStack.fromCache (D58: an instance that loaded from the shared files of ups_db did not watch the file
   in its own directory) it was false: shared_cache_fallback_tracks_own_file, stale_writer_does_not_overwrite
   show the repaired behaviour on the two witnesses.  No counterexample is known now; it is still not proved.
   The correspondence runs compare the model of the sessions with the real code step by step instead. *)
Theorem live_instance_coherent : forall w loc m q,
  map fst m = map fst (w_db w) ->
  (forall s ps, alookup s m = Some ps -> live_ok w loc s ps) ->
  q_served w (sync_mem false w loc m) q = q_db w q.
Proof.
  intros w loc m q. intros K L. apply served_agree; [rewrite sync_mem_keys; exact K|].
  intros s ps'. rewrite alookup_sync_mem. destruct (alookup s m) as [ps|] eqn:Es; [|discriminate].
  intro H. inversion H. apply sync_held_agree. exact (L s ps Es).
Qed.
Print Assumptions live_instance_coherent.

(* what ensureInSync reads again replaces the data of the flavor wholesale: versions, directories, tables
   and tags are those of the cache file, nothing of the old copy is kept *)
Theorem live_reload_replaces_the_flavor_wholesale : forall w s loc ps f p,
  held_moved w s loc ps = true -> alookup f (ps_lookup ps) <> None -> pk_get w loc s f = Some p ->
  alookup f (ps_lookup (ensure_in_sync_held w s loc ps)) = Some (pk_data p).
Proof. intros. apply sync_held_wholesale; assumption. Qed.
Print Assumptions live_reload_replaces_the_flavor_wholesale.

(* and it never makes the stack hold a flavor it did not hold (whose cache file nobody checked) *)
Theorem live_reload_adds_no_flavor : forall w s loc ps f,
  alookup f (ps_lookup ps) = None -> alookup f (ps_lookup (ensure_in_sync_held w s loc ps)) = None.
Proof. intros. apply sync_held_no_new_flavor; assumption. Qed.
Print Assumptions live_reload_adds_no_flavor.

(* every instance built in any reachable world starts in that state, for every stack *)
Theorem new_instance_is_live_ok : forall tick, clock_strict tick -> forall w, reachable tick repaired w ->
  forall u fl s ps, u <> upsdb -> alookup s (snd (load tick repaired w u u fl)) = Some ps ->
  live_ok (fst (load tick repaired w u u fl)) u s ps.
Proof.
  intros tick CS w R u fl s ps Hu H. destruct (reachable_inv tick w CS R) as [I ND].
  destruct (load tick repaired w u u fl) as [w1 m] eqn:El. cbn [fst snd] in *.
  destruct (load_ok tick w u u fl w1 m CS I ND Hu (or_introl eq_refl) El) as [_ [_ [_ [_ L1]]]].
  destruct (L1 s ps H) as [X _]. eapply ps_ok_live_ok. exact X.
Qed.
Print Assumptions new_instance_is_live_ok.

(* parsing a table on demand (Product.getTable handing the table back to the stack, which marks the flavor
   as updated) is, for the files and for every instance, the same step as being asked: ensureInSync and
   nothing else *)
Theorem table_read_changes_nothing : forall tick vr pin u fl w ms i,
  fst (fst (run_lstep tick vr pin u fl w ms (LTable i))) = w /\
  run_lstep tick vr pin u fl w ms (LTable i) = run_lstep tick vr pin u fl w ms (LAsk i).
Proof. intros. cbn [run_lstep]. destruct (nth_error ms i); split; reflexivity. Qed.
Print Assumptions table_read_changes_nothing.

Definition g : str := lit "generic".
Definition L : str := lit "Linux64".
Definition D : str := lit "Darwin".
Definition s1 : str := lit "s1".
Definition s2 : str := lit "s2".
Definition u1 : str := lit "u1".
Definition u2 : str := lit "u2".
Definition a : str := lit "a".
Definition mine : str := lit "mine".
Definition exp : str := lit "exp".
Definition o (f : str) : opts := mkOpts f None false false.
Definition decl (f : str) (v : string) : pop := POp (Declare (o f) a (lit v) (Some (lit "/prod/a")) None None).
Definition undecl (f : str) (v : string) : pop := POp (Undeclare (o f) a (Some (lit v))).
Definition utag (f t : str) (v : string) : pop := PUAssign (o f) t a (lit v).
Definition uuntag (f t : str) : pop := PUUnassign (mkOpts f (Some (lit "s1")) false false) t a None.
Arguments decl f v%string.
Arguments undecl f v%string.
Arguments utag f t v%string.
Definition P (u f : str) (ops : list pop) : proc := mkProc u false f ops None.
Definition Adm (u f : str) : proc := mkProc u true f [] None.
Definition w0 : world := init_world [s1; s2].

Lemma nodup_path : NoDup [s1; s2].
Proof. constructor; [intros [H|[]]; discriminate|]. constructor; [intros []|constructor]. Qed.

Ltac reach :=
  repeat (lazymatch goal with
          | |- reachable _ _ (delete_cache _ _ _ _) => apply R_del
          | |- reachable _ _ (run_proc _ _ _ _) => apply R_proc; [discriminate | (intro; discriminate) || reflexivity |]
          end);
  apply R_init; exact nodup_path.

(* the hypotheses are inhabited: the real clock of the model, and a world with two stacks, two
   users, two flavors, a tag, a death between database and cache, and a deleted cache file *)
Example clock_strict_S : clock_strict S.
Proof. intro c. apply Nat.lt_succ_diag_r. Qed.

Definition w_example : world :=
  delete_cache
    (run_proc S repaired
      (run_proc S repaired
         (run_proc S repaired
            (run_proc S repaired w0 (P u1 L [decl L "1.0"; decl L "2.0"]))
            (mkProc u2 false g [decl g "3.0"; undecl g "3.0"] (Some (1, 0, true))))
         (P u2 L [undecl L "1.0"]))
      (P u2 L []))
    u1 s1 L.

Example w_example_reachable : reachable S repaired w_example.
Proof. unfold w_example. reach. Qed.

(* the cache files of user u2 are believed, those of user u1 are not (one was deleted); the database holds
   a 2.0 and lost a 1.0 (undeclared) and a 3.0 (undeclared by a command that died before its
   cache update) *)
Example w_example_nontrivial :
  believed w_example u2 s1 (fallbacks L) = true /\ believed w_example u1 s1 (fallbacks L) = false /\
  q_db w_example (QFind a (lit "2.0") L) = AStackRec (Some (s1, (lit "/prod/a", lit "/prod/a/ups/a.table"))) /\
  q_db w_example (QFind a (lit "3.0") g) = AStackRec None.
Proof. vm_compute. repeat split. Qed.

Example w_example_answers :
  q_cache (snd (load S repaired w_example u2 u2 L)) (QFind a (lit "2.0") L) =
    AStackRec (Some (s1, (lit "/prod/a", lit "/prod/a/ups/a.table"))) /\
  q_cache (snd (load S repaired w_example u2 u2 L)) (QFind a (lit "3.0") g) = AStackRec None /\
  q_cache (snd (load S repaired w_example u1 u1 L)) (QDeclared s1 a (lit "1.0") L) = ABool false.
Proof. set (m2 := snd (load S repaired w_example u2 u2 L)). vm_compute. repeat split. Qed.

(* a world with user tags: u1 declares 1.0 and 2.0 and tags 1.0 mine; u2 tags 2.0 mine (his own tag of
   that name); a command of u1 dies between writing exp -> 2.0 into his tag directory and the cache
   update; u2 undeclares 1.0 (the chain file mine of u1 stays, naming a version that is gone); an
   administrator rebuilds the caches of ups_db; a cache file of u2 is deleted *)
Definition w_uexample : world :=
  delete_cache
    (run_proc S repaired
      (run_proc S repaired
         (run_proc S repaired
            (run_proc S repaired
               (run_proc S repaired w0 (P u1 g [decl g "1.0"; decl g "2.0"; utag g mine "1.0"]))
               (P u2 g [utag g mine "2.0"]))
            (mkProc u1 false g [utag g exp "2.0"] (Some (0, 0, true))))
         (P u2 g [undecl g "1.0"]))
      (Adm u1 g))
    u2 s1 g.

Example w_uexample_reachable : reachable S repaired w_uexample.
Proof. unfold w_uexample. reach. Qed.

Example w_uexample_nontrivial :
  (* the tag directory of u1 still has the chain file mine -> 1.0; no reader sees it, 1.0 is gone *)
  uc_tag (w_uc w_uexample) u1 s1 a mine g = Some (lit "1.0") /\
  uq_db w_uexample u1 (UQTagged s1 a mine g) = AVer None /\
  (* the assignment of the command that died is in the files *)
  uq_db w_uexample u1 (UQTagged s1 a exp g) = AVer (Some (lit "2.0")) /\
  (* the same tag name of the other user is another tag *)
  uq_db w_uexample u2 (UQFindTagged a mine g) = AStackVer (Some (s1, lit "2.0")) /\
  (* the cache files of u1 are older than his tag directory, those of u2 are gone, those of ups_db are fresh *)
  believed w_uexample u1 s1 (fallbacks g) = false /\ believed w_uexample u2 s1 (fallbacks g) = false /\
  believed w_uexample upsdb s1 (fallbacks g) = true.
Proof. vm_compute. repeat split. Qed.

Example w_uexample_answers :
  uq_cache (snd (load S repaired w_uexample u1 u1 g)) (UQTagged s1 a exp g) = AVer (Some (lit "2.0")) /\
  uq_cache (snd (load S repaired w_uexample u1 u1 g)) (UQTagged s1 a mine g) = AVer None /\
  uq_cache (snd (load S repaired w_uexample u2 u2 g)) (UQFindTagged a mine g) = AStackVer (Some (s1, lit "2.0")) /\
  uq_cache (snd (load S repaired w_uexample u2 u2 g)) (UQHasTag s1 a (lit "2.0") exp g) = ABool false.
Proof.
  set (m1 := snd (load S repaired w_uexample u1 u1 g)). set (m2 := snd (load S repaired w_uexample u2 u2 g)).
  vm_compute. repeat split.
Qed.

(* D1, the pinned ProductFamily.removeVersion: it looks for the tags of the version among the
   values of self.versions, never finds one, and the tag outlives the version in the cache.
   declare a 1.0 (becomes current) . declare a 2.0 . undeclare a 1.0 . declare a 1.0, four
   processes under the generic flavor: the cache answers that current is 1.0, the files have no
   current.chain. *)
Definition pinned_remove : variant := mkVar true false false false false false.
Definition w_d1 (vr : variant) : world :=
  run_proc S vr (run_proc S vr (run_proc S vr (run_proc S vr w0
    (P u1 g [decl g "1.0"])) (P u1 g [decl g "2.0"])) (P u1 g [undecl g "1.0"])) (P u1 g [decl g "1.0"]).

Example coherent_refuted_pinned :
  reachable S pinned_remove (w_d1 pinned_remove) /\
  q_cache (snd (load S pinned_remove (w_d1 pinned_remove) u1 u1 g)) (QFindTagged a current g)
    = AStackVer (Some (s1, lit "1.0")) /\
  q_db (w_d1 pinned_remove) (QFindTagged a current g) = AStackVer None.
Proof.
  split; [unfold w_d1; reach|]. set (w := w_d1 pinned_remove). vm_compute. split; reflexivity.
Qed.

Example d1_repaired :
  q_cache (snd (load S repaired (w_d1 repaired) u1 u1 g)) (QFindTagged a current g) = AStackVer None.
Proof. vm_compute. reflexivity. Qed.

(* the pinned Eups.__init__ computes the needed flavors before the fall-back list is installed:
   the first Eups of a process (every command-line invocation) loads the invoking flavor only and
   answers that a product declared for the fall-back flavor generic is not there *)
Definition pinned_flavors : variant := mkVar false true false false false false.
Definition w_fl (vr : variant) : world :=
  run_proc S vr (run_proc S vr w0 (P u1 g [decl g "1.0"])) (P u1 L [decl L "2.0"]).

Example coherent_refuted_pinned_flavors :
  reachable S pinned_flavors (w_fl pinned_flavors) /\ In g (fallbacks L) /\
  q_cache (snd (load S pinned_flavors (w_fl pinned_flavors) u1 u1 L)) (QDeclared s1 a (lit "1.0") g) = ABool false /\
  q_db (w_fl pinned_flavors) (QDeclared s1 a (lit "1.0") g) = ABool true.
Proof.
  split; [unfold w_fl; reach|].
  split; [right; left; reflexivity|]. set (w := w_fl pinned_flavors). vm_compute. split; reflexivity.
Qed.

Example flavors_repaired :
  q_cache (snd (load S repaired (w_fl repaired) u1 u1 L)) (QDeclared s1 a (lit "1.0") g) = ABool true.
Proof. vm_compute. reflexivity. Qed.

(* the pinned Eups.assignTag writes the chain file of a user tag among the chain files of the stack, where
   Eups.unassignTag (which looks into the tag directory) never removes it: assign mine to 1.0, unassign
   it (in stack s1); the files say that mine designates 1.0 (a chain file mine.chain in ups_db), the cache says that
   nothing does, neither as a user tag nor as a global one *)
Definition pinned_uloc : variant := mkVar false false true false false false.
Definition w_uloc (vr : variant) : world :=
  run_proc S vr (run_proc S vr (run_proc S vr w0 (P u1 g [decl g "1.0"])) (P u1 g [utag g mine "1.0"]))
    (P u1 g [uuntag g mine]).

Example user_tags_refuted_pinned_location :
  reachable S pinned_uloc (w_uloc pinned_uloc) /\
  q_db (w_uloc pinned_uloc) (QTagged s1 a mine g) = AVer (Some (lit "1.0")) /\
  q_cache (snd (load S pinned_uloc (w_uloc pinned_uloc) u1 u1 g)) (QTagged s1 a mine g) = AVer None /\
  uq_cache (snd (load S pinned_uloc (w_uloc pinned_uloc) u1 u1 g)) (UQTagged s1 a mine g) = AVer None.
Proof. split; [unfold w_uloc; reach|]. set (w := w_uloc pinned_uloc). vm_compute. repeat split. Qed.

(* the same history on /repo as it is (all four user-tag switches pinned) *)
Example user_tags_refuted_on_the_tree_as_it_is :
  reachable S tree_as_it_is (w_uloc tree_as_it_is) /\
  q_db (w_uloc tree_as_it_is) (QTagged s1 a mine g) = AVer (Some (lit "1.0")) /\
  uq_files (w_uloc tree_as_it_is) u1 (UQTagged s1 a mine g) = AVer (Some (lit "1.0")) /\
  uq_cache (snd (load S tree_as_it_is (w_uloc tree_as_it_is) u1 u1 g)) (UQTagged s1 a mine g) = AVer None.
Proof. split; [unfold w_uloc; reach|]. set (w := w_uloc tree_as_it_is). vm_compute. repeat split. Qed.

(* a history without user-tag commands, on /repo as it is: the hypotheses of the *_whatever_the_user_tag_switches
   theorems are inhabited *)
Example w_example_on_the_tree_as_it_is :
  reachable_nut S tree_as_it_is
    (delete_cache
      (run_proc S tree_as_it_is
         (run_proc S tree_as_it_is
            (run_proc S tree_as_it_is w0 (P u1 L [decl L "1.0"; decl L "2.0"]))
            (mkProc u2 false g [decl g "3.0"; undecl g "3.0"] (Some (1, 0, true))))
         (Adm u1 L))
      u1 s1 L).
Proof.
  apply RN_del. repeat (apply RN_proc; [discriminate|(intro; discriminate) || reflexivity|reflexivity|]).
  apply RN_init. exact nodup_path.
Qed.

Example location_repaired :
  q_db (w_uloc repaired) (QTagged s1 a mine g) = AVer None /\
  uq_db (w_uloc repaired) u1 (UQTagged s1 a mine g) = AVer None /\
  uq_cache (snd (load S repaired (w_uloc repaired) u1 u1 g)) (UQTagged s1 a mine g) = AVer None.
Proof. set (w := w_uloc repaired). vm_compute. repeat split. Qed.

(* the pinned cacheIsUpToDate never finds the tag directory newer (it lists Database(cacheDir), which has
   no product because a tag directory has no version file): a command killed between the write in the
   tag directory and the cache update leaves a cache that is believed and lacks the tag *)
Definition pinned_ustale : variant := mkVar false false false true false false.
Definition w_ustale (vr : variant) : world :=
  run_proc S vr (run_proc S vr w0 (P u1 g [decl g "1.0"])) (mkProc u1 false g [utag g mine "1.0"] (Some (0, 0, true))).

Example user_tags_refuted_pinned_staleness :
  reachable S pinned_ustale (w_ustale pinned_ustale) /\
  uq_cache (snd (load S pinned_ustale (w_ustale pinned_ustale) u1 u1 g)) (UQTagged s1 a mine g) = AVer None /\
  uq_db (w_ustale pinned_ustale) u1 (UQTagged s1 a mine g) = AVer (Some (lit "1.0")).
Proof. split; [unfold w_ustale; reach|]. set (w := w_ustale pinned_ustale). vm_compute. repeat split. Qed.

Example staleness_repaired :
  believed (w_ustale repaired) u1 s1 (fallbacks g) = false /\
  uq_cache (snd (load S repaired (w_ustale repaired) u1 u1 g)) (UQTagged s1 a mine g) = AVer (Some (lit "1.0")).
Proof. set (w := w_ustale repaired). vm_compute. repeat split. Qed.

(* the pinned Eups.declare registers the new version in the cache with the tag of the command line only:
   u2 tags 1.0 mine, u1 undeclares 1.0 (the chain file of u2 stays), u2 declares 1.0 again; the files
   say that mine of u2 designates 1.0, his cache (fresh: he wrote it last) says that nothing does *)
Definition pinned_noread : variant := mkVar false false false false true false.
Definition w_noread (vr : variant) : world :=
  run_proc S vr (run_proc S vr (run_proc S vr (run_proc S vr w0 (P u1 g [decl g "1.0"; decl g "2.0"]))
    (P u2 g [utag g mine "1.0"])) (P u1 g [undecl g "1.0"])) (P u2 g [decl g "1.0"]).

Example user_tags_refuted_pinned_read_back :
  reachable S pinned_noread (w_noread pinned_noread) /\
  uq_cache (snd (load S pinned_noread (w_noread pinned_noread) u2 u2 g)) (UQTagged s1 a mine g) = AVer None /\
  uq_db (w_noread pinned_noread) u2 (UQTagged s1 a mine g) = AVer (Some (lit "1.0")).
Proof. split; [unfold w_noread; reach|]. set (w := w_noread pinned_noread). vm_compute. repeat split. Qed.

Example read_back_repaired :
  uq_cache (snd (load S repaired (w_noread repaired) u2 u2 g)) (UQTagged s1 a mine g) = AVer (Some (lit "1.0")).
Proof. vm_compute. reflexivity. Qed.

(* the pinned administrator's rebuild (eups admin buildCache -A) reads his own tag directory and writes his
   user tags into the cache files of ups_db, which every user without an up-to-date cache of his own loads:
   u1 tags 1.0 mine and rebuilds as administrator; u2, who never tagged anything, is told that 1.0 carries
   his user tag mine *)
Definition pinned_shared : variant := mkVar false false false false false true.
Definition w_shared (vr : variant) : world :=
  run_proc S vr (run_proc S vr (run_proc S vr w0 (P u1 g [decl g "1.0"])) (P u1 g [utag g mine "1.0"])) (Adm u1 g).

Example user_tags_refuted_pinned_shared_cache :
  reachable S pinned_shared (w_shared pinned_shared) /\
  uq_cache (snd (load S pinned_shared (w_shared pinned_shared) u2 u2 g)) (UQTagged s1 a mine g) = AVer (Some (lit "1.0")) /\
  uq_db (w_shared pinned_shared) u2 (UQTagged s1 a mine g) = AVer None.
Proof. split; [unfold w_shared; reach|]. set (w := w_shared pinned_shared). vm_compute. repeat split. Qed.

Example shared_cache_repaired :
  uq_cache (snd (load S repaired (w_shared repaired) u2 u2 g)) (UQTagged s1 a mine g) = AVer None.
Proof. vm_compute. reflexivity. Qed.

(* clock_strict is needed: with a clock that stands still, a cache file written in the same tick
   as a later database update (here by a command killed before its cache update) is believed *)
Definition stuck (c : nat) : nat := c.
Definition w_coarse : world :=
  run_proc stuck repaired (run_proc stuck repaired w0 (P u1 g [decl g "1.0"]))
    (mkProc u1 false g [decl g "2.0"] (Some (0, 0, true))).

Example coherent_refuted_coarse_clock :
  reachable stuck repaired w_coarse /\
  q_cache (snd (load stuck repaired w_coarse u1 u1 g)) (QDeclared s1 a (lit "2.0") g) = ABool false /\
  q_db w_coarse (QDeclared s1 a (lit "2.0") g) = ABool true.
Proof.
  split; [unfold w_coarse; reach|].
  vm_compute. split; reflexivity.
Qed.

(* the same history under the strict clock: the killed command's update is seen *)
Example crash_detected_example :
  let w := run_proc S repaired (run_proc S repaired w0 (P u1 g [decl g "1.0"]))
             (mkProc u1 false g [decl g "2.0"] (Some (0, 0, true))) in
  believed w u1 s1 (fallbacks g) = false /\
  q_cache (snd (load S repaired w u1 u1 g)) (QDeclared s1 a (lit "2.0") g) = ABool true.
Proof. vm_compute. split; reflexivity. Qed.

(* the pinned lookups take a flavor that was not loaded for a flavor without products: an instance of flavor
   Linux64 that loaded from its cache files holds nothing about Darwin and answers that a Darwin declaration is
   not there (D34); the repaired ones read the database files for that flavor *)
Definition w_foreign : world :=
  run_proc S repaired
    (run_proc S repaired (run_proc S repaired w0 (P u1 D [decl D "1.0"])) (P u1 L [decl L "2.0"]))
    (P u1 L []).

Example coherent_refuted_pinned_unloaded_flavor :
  reachable S repaired w_foreign /\ ~ In D (fallbacks L) /\
  q_cache (snd (load S repaired w_foreign u1 u1 L)) (QDeclared s1 a (lit "1.0") D) = ABool false /\
  q_db w_foreign (QDeclared s1 a (lit "1.0") D) = ABool true.
Proof.
  split; [unfold w_foreign; reach|].
  split; [intros [H|[H|[]]]; discriminate|]. vm_compute. split; reflexivity.
Qed.

Example unloaded_flavor_repaired :
  q_served (fst (load S repaired w_foreign u1 u1 L)) (snd (load S repaired w_foreign u1 u1 L)) (QDeclared s1 a (lit "1.0") D)
    = ABool true.
Proof. set (l := load S repaired w_foreign u1 u1 L). vm_compute. reflexivity. Qed.

Definition declt (f : str) (v : string) (t : string) : pop :=
  POp (Declare (o f) a (lit v) (Some (lit "/prod/a")) None (Some (lit t))).
Definition retag (f : str) (t : string) (v : string) : pop := POp (AssignTag (o f) (lit t) a (lit v)).
Arguments declt f v%string t%string.
Arguments retag f t%string v%string.

(* two instances of u1; instance 0 parses a table; instance 1 moves the tag current from 1.0 to 2.0 (chain
   files only); instance 0 is asked, then moves stable (its copy goes into the cache file), instance 1 is asked *)
Definition w_live : world := run_proc S repaired w0 (P u1 g [declt g "1.0" "current"; decl g "2.0"]).
Definition live_steps : list lstep :=
  [LNew; LNew; LTable 0; LOp 1 (retag g "current" "2.0"); LAsk 0; LOp 0 (retag g "stable" "1.0"); LAsk 1].

Example live_session_example :
  let '(w', ms) := run_session S repaired false u1 g w_live live_steps in
  length ms = 2 /\
  live_answer w' ms 0 (QTagged s1 a (lit "current") g) = AVer (Some (lit "2.0")) /\
  live_answer w' ms 1 (QTagged s1 a (lit "stable") g) = AVer (Some (lit "1.0")) /\
  q_db w' (QTagged s1 a (lit "current") g) = AVer (Some (lit "2.0")) /\
  q_db w' (QTagged s1 a (lit "stable") g) = AVer (Some (lit "1.0")) /\
  q_served w' (snd (load S repaired w' u1 u1 g)) (QTagged s1 a (lit "current") g) = AVer (Some (lit "2.0")).
Proof. vm_compute. repeat split. Qed.

(* the pinned ensureInSync reads every cache file of the directory: u1 declared a 2.0 for Darwin, u2 undeclared
   it (the Darwin cache file of u1 is out of date); a live instance of u1, flavor generic, that reloads because
   another instance declared something, from then on holds Darwin and answers that a 2.0 is declared *)
Definition w_dar : world :=
  run_proc S repaired (run_proc S repaired w0 (P u1 D [decl D "2.0"])) (P u2 D [undecl D "2.0"]).
Definition dar_steps : list lstep := [LNew; LNew; LOp 1 (decl g "3.0"); LAsk 0].

Example live_refuted_pinned_reload_all :
  let '(w', ms) := run_session S repaired true u1 g w_dar dar_steps in
  live_answer w' ms 0 (QDeclared s1 a (lit "2.0") D) = ABool true /\
  q_db w' (QDeclared s1 a (lit "2.0") D) = ABool false.
Proof. vm_compute. split; reflexivity. Qed.

Example reload_held_flavors_repaired :
  let '(w', ms) := run_session S repaired false u1 g w_dar dar_steps in
  live_answer w' ms 0 (QDeclared s1 a (lit "2.0") D) = ABool false /\
  live_answer w' ms 0 (QDeclared s1 a (lit "3.0") g) = ABool true /\
  q_db w' (QDeclared s1 a (lit "3.0") g) = ABool true.
Proof. vm_compute. repeat split. Qed.

(* an instance that loads a stack from the shared cache files of ups_db (an administrator keeps them; the
   user has none of his own, or out-of-date ones) persists it into its own directory (repaired:
   proposed_fixes/C07-fromcache-persists-after-fallback, D58): it then has a file of its own whose time it
   recorded, ensureInSync sees the write-through of another live instance, and save refuses to write over
   it.  Before the repair the instance had no time for that file and took it for in sync: it never saw the
   declaration below, and - the second session - a stale instance saved its copy over the other one's update
   (corpus/C07/live-shared-cache-untracked-own-file.json, live-shared-cache-stale-writer.json) *)
Definition w_adm : world := run_proc S repaired w0 (Adm u2 g).
Definition adm_steps : list lstep := [LNew; LNew; LOp 0 (decl g "1.0"); LAsk 1].

Example shared_cache_fallback_tracks_own_file :
  let '(w', ms) := run_session S repaired false u2 g w_adm adm_steps in
  live_answer w' ms 1 (QDeclared s1 a (lit "1.0") g) = ABool true /\
  live_answer w' ms 0 (QDeclared s1 a (lit "1.0") g) = ABool true /\
  q_db w' (QDeclared s1 a (lit "1.0") g) = ABool true /\
  q_served w' (snd (load S repaired w' u2 u2 g)) (QDeclared s1 a (lit "1.0") g) = ABool true.
Proof. vm_compute. repeat split. Qed.

(* u1 declares a 2.0, his cache file for s1 is deleted, an administrator's load leaves shared files; three
   instances of u1 load s1 from them; instance 2 undeclares a 2.0; instance 1 declares a 1.0; instance 2 is
   asked, and a new process: a 2.0 is gone for everybody, and from the cache file *)
Definition w_stale : world :=
  run_proc S repaired (delete_cache (run_proc S repaired w0 (P u1 g [decl g "2.0"])) u1 s1 g) (Adm u1 g).
Definition stale_steps : list lstep := [LNew; LNew; LNew; LOp 2 (undecl g "2.0"); LOp 1 (decl g "1.0"); LAsk 2].

Example stale_writer_does_not_overwrite :
  let '(w', ms) := run_session S repaired false u1 g w_stale stale_steps in
  live_answer w' ms 2 (QDeclared s1 a (lit "2.0") g) = ABool false /\
  live_answer w' ms 2 (QDeclared s1 a (lit "1.0") g) = ABool true /\
  q_db w' (QDeclared s1 a (lit "2.0") g) = ABool false /\
  q_served w' (snd (load S repaired w' u1 u1 g)) (QDeclared s1 a (lit "2.0") g) = ABool false /\
  q_served w' (snd (load S repaired w' u1 u1 g)) (QDeclared s1 a (lit "1.0") g) = ABool true.
Proof. vm_compute. repeat split. Qed.

Example live_worlds_reachable : reachable S repaired w_live /\ reachable S repaired w_dar /\ reachable S repaired w_adm /\ reachable S repaired w_stale.
Proof. unfold w_live, w_dar, w_adm, w_stale. repeat split; reach. Qed.
