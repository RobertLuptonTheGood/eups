(* C11 - Table files mean what they say: block selection, conditions and arguments.
   The property theorems; the lemmas they rest on are in Proofs/CondEval.v (evaluator),
   CondTok.v (tokeniser), ArgsRT.v (argument splitter), Lines.v (readlines, _rewrite, line patterns),
   BlocksB.v (block state machine and branch selection), LegacyFull.v (Flavor= groups and
   whole legacy files, Model/LegacySpec.v), TableWf.v (the well-formedness predicates part
   by part).

   Models (Model/Cond.v, Args.v, Legacy.v, Blocks.v) follow python/eups/VersionParser.py and
   python/eups/table.py; the first flag [true] selects the code with the three small repairs
   (fix: commits f4206d2, 9ec7318, 6f99cf4), [false] the pinned code; the second flag of
   read_text / table_actions [true] selects the block reader with the repair of D6
   (proposed_fixes/C11-empty-branch: a branch is closed by the brace line that follows it,
   whether or not it holds a command), [false] the reader before that repair.
   Specification (Model/TableSpec.v): items = commands and if / else if / else chains, every
   node carrying its layout (indentation, blank and comment lines, trailing comments, letter
   case of command names and of FLAVOR / TYPE, quoting of values and literals, separators,
   optional semicolon); a double quote that is part of a value is printed backslash, quote
   (esc_dq; the manual: do not forget to escape the quotes), wherever it stands: inside a
   quoted value, at one or both ends of a bare word, next to a separator;
   print_table prints the text, denote_items is the meaning:
   unconditional commands in place, for each chain the body of the first branch whose
   condition is true by the truth tables, else the else body.
   All layout is universally quantified (it lives in the items); wf_items / wf_cond / wf_env
   are the alphabet restrictions listed in the evidence. *)
From Coq Require Import Lia.
From Eupsv Require Import Base.Base Base.BaseLemmas Model.Rx Model.Cond Model.Args Model.Legacy
  Model.Blocks Model.TableSpec Model.LegacySpec Proofs.RxLib Proofs.CondEval Proofs.CondTok Proofs.ArgsRT
  Proofs.TableWf Proofs.BlocksB Proofs.Lines Proofs.LegacyFull.

(* evaluating the text of a condition gives its truth-table value; && and || associate to
   the left with equal precedence, as the grammar in the VersionParser docstring says (the
   tree shape of [cond] records exactly that: print_cond parenthesises a right operand
   that is itself a binary node) *)
Theorem cond_sound e c :
  wf_env e = true -> wf_cond c = true ->
  eval_value true e (print_cond c) = Ok (VBool (denote e c)) /\
  eval_cond true e (print_cond c) = Ok (denote e c).
Proof.
  intros He Hc. unfold eval_cond, eval_value. rewrite (tokenize_print_cond c Hc).
  rewrite (eval_tokens_sound e He c Hc). split; reflexivity.
Qed.
Print Assumptions cond_sound.

(* the hypotheses are inhabited: (FLAVOR == Darwin && flavor != "Linux64") || TYPE == build *)
Definition ex_atom (sp : string) (v : cvar) (o : cmpop) (x : string) (q : quote) : cond :=
  Atom (mkAlay (lit sp) 1 1 q) v o (lit x).
Arguments ex_atom sp%string v o x%string q.
Definition ex_cond : cond :=
  Bin 1 1 BOr
    (Paren 0 0 (Bin 1 0 BAnd (ex_atom "FLAVOR" CFlavor OEq "Darwin" QNone)
                            (ex_atom "flavor" CFlavor ONe "Linux64" QDouble)))
    (ex_atom "TYPE" CType OEq "build" QSingle).
Definition ex_env : cenv := mkCenv (lit "Linux64") [lit "build"].

Example cond_sound_inhabited :
  wf_env ex_env = true /\ wf_cond ex_cond = true /\
  eval_cond true ex_env (print_cond ex_cond) = Ok true /\ denote ex_env ex_cond = true.
Proof.
  assert (We : wf_env ex_env = true) by reflexivity.
  assert (Wc : wf_cond ex_cond = true) by (vm_compute; reflexivity).
  split; [exact We|]. split; [exact Wc|]. rewrite (proj2 (cond_sound ex_env ex_cond We Wc)).
  vm_compute. split; reflexivity.
Qed.

(* the pinned evaluator (D5): A && B || C with A false and C true is answered False, and
   (A && B) || C raises; the repaired one answers True to both *)
Definition d5_flat : cond :=
  Bin 1 1 BOr (Bin 1 1 BAnd (ex_atom "FLAVOR" CFlavor OEq "Darwin" QNone)
                            (ex_atom "FLAVOR" CFlavor OEq "Linux64" QNone))
              (ex_atom "FLAVOR" CFlavor OEq "Linux64" QNone).
Definition d5_paren : cond :=
  Bin 1 1 BOr (Paren 0 0 (Bin 1 1 BAnd (ex_atom "FLAVOR" CFlavor OEq "Darwin" QNone)
                                       (ex_atom "FLAVOR" CFlavor OEq "Linux64" QNone)))
              (ex_atom "FLAVOR" CFlavor OEq "Linux64" QNone).

Theorem cond_refuted_pinned :
  wf_env ex_env = true /\ wf_cond d5_flat = true /\ wf_cond d5_paren = true /\
  denote ex_env d5_flat = true /\ denote ex_env d5_paren = true /\
  eval_cond false ex_env (print_cond d5_flat) = Ok false /\
  eval_cond false ex_env (print_cond d5_paren) = Err Refused /\
  eval_cond true ex_env (print_cond d5_flat) = Ok true /\
  eval_cond true ex_env (print_cond d5_paren) = Ok true.
Proof.
  assert (W1 : wf_cond d5_flat = true) by (vm_compute; reflexivity).
  assert (W2 : wf_cond d5_paren = true) by (vm_compute; reflexivity).
  rewrite (proj2 (cond_sound ex_env d5_flat eq_refl W1)), (proj2 (cond_sound ex_env d5_paren eq_refl W2)).
  split; [reflexivity|]. split; [exact W1|]. split; [exact W2|]. vm_compute. repeat split.
Qed.
Print Assumptions cond_refuted_pinned.

(* the arguments written are the arguments received: quoted values keep their blanks and
   commas, whatever the separators and the quoting of the other values; the double quotes
   of a value, written backslash-quote, are received as double quotes.
   Alphabet (wf_args): a value is not empty and has no hash, backslash, line end or control
   character 1-3 - the double quote is allowed; a bare value has no blank and no comma; a
   quoted value has no blank other than the space; the first value is bare; a separator is
   blanks with at most one comma.  Outside, hence not claimed: a backslash that is not the
   escape of a quote (a value ending in one, quoted, swallows the closing delimiter), the
   empty quoted value, a quoted first value, an unescaped quote inside a word. *)
Theorem args_roundtrip g args :
  wf_args g args = true -> split_args true (print_args g args) = args.
Proof. apply split_print_args. Qed.
Print Assumptions args_roundtrip.

(* the escaping is the identity on values without double quote: such a value is printed
   as it stands *)
Theorem args_escape_conservative a :
  forallb (fun c => negb (ascii_eqb c c_dq)) a = true -> esc_dq a = a /\ forall q, pr_arg q a = pr_arg0 q a.
Proof. intros H. split; [apply esc_dq_id, H|intros q; apply pr_arg_plain, H]. Qed.
Print Assumptions args_escape_conservative.

(* a bare word between two double quotes - the sh idiom of the manual, quote dollar-at quote -
   is written with both quotes escaped and received with both: the delimiting quotes of an
   argument are removed BEFORE the escaped ones are put back *)
Theorem args_quoted_word_keeps_quotes name sep w :
  wf_value name = true -> bare_ok name = true -> wf_sep sep = true ->
  wf_value w = true -> bare_ok w = true ->
  let g := mkArglay 0 [(sep, false)] 0 in
  let a := c_dq :: w ++ [c_dq] in
  print_args g [name; a] = esc_dq name ++ sep ++ [c_bsl; c_dq] ++ esc_dq w ++ [c_bsl; c_dq] /\
  split_args true (print_args g [name; a]) = [name; a].
Proof. apply split_quoted_word. Qed.
Print Assumptions args_quoted_word_keeps_quotes.

(* the same from the side of the TEXT: args_class (Model/TableSpec.v) decides whether a text
   between the parentheses is inside the argument grammar; when it says Some args the text is
   the print of those arguments under some layout and the splitter gives them back.  None is
   the answer OUTSIDE: the harness counts those texts (argtext/outside) and only compares
   model and implementation on them. *)
Theorem args_text_sound t args :
  args_class t = Some args ->
  split_args true t = args /\ exists g, wf_args g args = true /\ print_args g args = t.
Proof. apply args_class_sound. Qed.
Print Assumptions args_text_sound.

Example args_text_inhabited :
  args_class (lit "runit, run \""$@\""") = Some [lit "runit"; lit "run"; lit """$@"""] /\
  args_class (lit "foo, source `${PRODUCT_DIR}/bin/eups_setup setup \""$@\""`;")
  = Some [lit "foo"; lit "source"; lit "`${PRODUCT_DIR}/bin/eups_setup"; lit "setup"; lit """$@""`;"] /\
  args_class (lit " A , ""x \""y\"", z""  \""") = Some [lit "A"; lit "x ""y"", z"; lit """"] /\
  (* outside: a backslash that escapes nothing, one before the closing quote, an unescaped
     quote inside a word, text glued to a closing quote, a quoted first value, an empty
     quoted value, two commas, a trailing comma, a tab *)
  map args_class [lit "a\b"; lit "a, ""b\"""; lit "a""b c""d"; lit "a, ""b""c"; lit """a b"""; lit "a, """"";
                  lit "a,,b"; lit "a, b,"; [chr 97; chr 9; chr 98]]
  = [None; None; None; None; None; None; None; None; None].
Proof. vm_compute. repeat split. Qed.

(* inhabited: escaped quotes at both ends of a bare word, inside a quoted value next to a
   blank and a comma, at the end of a bare word before a comma, a quoted lone quote *)
Definition ex_qarglay : arglay :=
  mkArglay 1 [(lit ", ", false); (lit " ", true); (lit ",", false); (lit " , ", true)] 0.
Definition ex_qargs : list str :=
  [lit "CFLAGS"; lit """-Wall"""; lit "say ""hi"", twice"; lit "-DNAME=""x"""; lit """"].

Example args_roundtrip_inhabited_escaped_quotes :
  wf_args ex_qarglay ex_qargs = true /\
  print_args ex_qarglay ex_qargs = lit " CFLAGS, \""-Wall\"" ""say \""hi\"", twice"",-DNAME=\""x\"" , ""\""""" /\
  split_args true (print_args ex_qarglay ex_qargs) = ex_qargs.
Proof. vm_compute. repeat split. Qed.

Example args_quoted_word_inhabited :
  print_args (mkArglay 0 [(lit ", ", false)] 0) [lit "GREETING"; lit """hello"""] = lit "GREETING, \""hello\""" /\
  split_args true (lit "GREETING, \""hello\""") = [lit "GREETING"; lit """hello"""] /\
  split_args true (lit "runit, run \""$@\""") = [lit "runit"; lit "run"; lit """$@"""].
Proof. vm_compute. repeat split. Qed.

(* why the order of the passes matters: a splitter that puts the escaped quotes back before
   it removes the delimiting quotes (the same passes, those two exchanged) takes the quotes
   of such a word for delimiters *)
Definition unprotect_early (s : str) : str :=
  strip_dq (map_char c_03 c_comma (map_char c_02 c_dq (map_char c_01 c_sp s))).
Definition split_args_early (s : str) : list str :=
  map unprotect_early (split_set is_argsep (protect true s)).

Example args_refuted_when_reinstated_early :
  split_args_early (lit "GREETING, \""hello\""") = [lit "GREETING"; lit "hello"] /\
  split_args_early (lit "FOO_OPTS, ""-I/x -I/y, "" b") = [lit "FOO_OPTS"; lit "-I/x -I/y, "; lit "b"].
Proof. vm_compute. repeat split. Qed.

Definition ex_arglay : arglay :=
  mkArglay 1 [(lit ", ", true); (lit " ", true); (lit " ,  ", false)] 0.
Definition ex_args : list str := [lit "FOO_OPTS"; lit "-I/x -I/y, "; lit " a,b"; lit "${PRODUCT_DIR}/bin:(x)"].

Example args_roundtrip_inhabited :
  wf_args ex_arglay ex_args = true /\
  print_args ex_arglay ex_args = lit " FOO_OPTS, ""-I/x -I/y, "" "" a,b"" ,  ${PRODUCT_DIR}/bin:(x)" /\
  split_args true (print_args ex_arglay ex_args) = ex_args.
Proof. vm_compute. repeat split. Qed.

(* the pinned splitter loses exactly such a value (a quoted value ending in a comma, a
   blank separator, another quoted value) *)
Theorem args_refuted_pinned :
  wf_args ex_arglay ex_args = true /\ split_args false (print_args ex_arglay ex_args) <> ex_args.
Proof. split; [reflexivity|]. vm_compute. discriminate. Qed.
Print Assumptions args_refuted_pinned.

(* each command line becomes the action the documentation describes: canonical command,
   the arguments as written, the flags *)
Theorem command_meaning top c :
  wf_cmd c = true ->
  mk_action true top (cl_spell (c_lay c)) (print_args (cl_args (c_lay c)) (c_args c))
  = CAdd (denote_cmd top c).
Proof.
  intros H. apply cmd_action; [exact H|]. apply split_print_args.
  now destruct (wf_cmd_parts c H) as (_ & Ha & _).
Qed.
Print Assumptions command_meaning.

(* append and prepend are told apart, under every spelling and letter case *)
Theorem append_prepend_distinct top c a :
  wf_cmd c = true ->
  mk_action true top (cl_spell (c_lay c)) (print_args (cl_args (c_lay c)) (c_args c)) = CAdd a ->
  (In (c_kind c) [KEnvAppend; KPathAppend] ->
     a_cmd a = lit "envPrepend" /\ a_extra a = [(lit "append", true)] /\ a_args a = c_args c) /\
  (In (c_kind c) [KEnvPrepend; KPathPrepend] ->
     a_cmd a = lit "envPrepend" /\ a_extra a = [(lit "append", false)] /\ a_args a = c_args c).
Proof.
  intros H E. rewrite (command_meaning top c H) in E. injection E as <-.
  unfold denote_cmd. destruct c as [k args lay]. cbn [c_kind c_args In].
  split; intros [<-|[<-|[]]]; cbn; auto.
Qed.
Print Assumptions append_prepend_distinct.

(* required and optional are told apart *)
Theorem required_optional_distinct top c a :
  wf_cmd c = true ->
  mk_action true top (cl_spell (c_lay c)) (print_args (cl_args (c_lay c)) (c_args c)) = CAdd a ->
  (c_kind c = KSetupRequired -> a_cmd a = lit "setupRequired" /\ a_extra a = [(lit "optional", false)] /\ a_args a = c_args c) /\
  (c_kind c = KSetupOptional -> a_cmd a = lit "setupRequired" /\ a_extra a = [(lit "optional", true)] /\ a_args a = c_args c) /\
  (c_kind c = KUnsetupRequired -> a_cmd a = lit "unsetupRequired" /\ a_extra a = [(lit "optional", false)] /\ a_args a = c_args c) /\
  (c_kind c = KUnsetupOptional -> a_cmd a = lit "unsetupRequired" /\ a_extra a = [(lit "optional", true)] /\ a_args a = c_args c).
Proof.
  intros H E. rewrite (command_meaning top c H) in E. injection E as <-.
  unfold denote_cmd. destruct c as [k args lay]. cbn [c_kind c_args].
  repeat split; subst k; reflexivity.
Qed.
Print Assumptions required_optional_distinct.

Lemma table_actions_items eb top e is :
  wf_env e = true -> wf_items is = true -> (eb = false -> no_empty_branch is = true) ->
  table_actions true eb top (print_table is) e = Ok (denote_items e top is).
Proof.
  intros He Hw Hn. unfold table_actions. rewrite (read_text_print eb top is Hw).
  assert (Ha : forall c, wf_cmd c = true -> split_args true (print_args (cl_args (c_lay c)) (c_args c)) = c_args c).
  { intros c Hc. apply split_print_args, (wf_cmd_parts c Hc). }
  assert (R : read_blocks_sel true eb top (items_kinds is) = Ok (compile top [] is)).
  { destruct eb; [now apply read_blocks_r_items|apply read_blocks_items; auto]. }
  rewrite R. cbn [bind]. rewrite (select_compile top e (fun c Hc => proj2 (cond_sound e c He Hc)) is [] Hw). reflexivity.
Qed.

(* reading the text of an items list and asking for the actions of a flavor / type gives
   the denotation of the items, whether or not every branch holds a command (the reader
   with the repair of D6; the reader before it needs no_empty_branch, see
   blocks_refuted_empty_branch_pinned and repair_conservative_items below). *)
Theorem blocks_sound top e is :
  wf_env e = true -> wf_items is = true ->
  table_actions true true top (print_table is) e = Ok (denote_items e top is).
Proof. intros He Hw. now apply (table_actions_items true). Qed.
Print Assumptions blocks_sound.

(* exactly one branch of a chain applies: the first whose condition is true, else the else
   branch (nothing when there is none) *)
Theorem exactly_one_branch top e b0 elifs els cl :
  let ch := IChain b0 elifs els cl in
  wf_env e = true -> wf_items [ch] = true ->
  exists acts, table_actions true true top (print_table [ch]) e = Ok acts /\
    ((exists pre b post, b0 :: elifs = pre ++ b :: post /\
        forallb (fun b' => negb (denote e (b_cond b'))) pre = true /\ denote e (b_cond b) = true /\
        acts = denote_body top (b_body b))
     \/ (forallb (fun b' => negb (denote e (b_cond b'))) (b0 :: elifs) = true /\
         acts = match els with Some (b, _) => denote_body top b | None => [] end)).
Proof.
  intros ch He Hw. eexists. split; [apply (blocks_sound top e [ch] He Hw)|].
  unfold denote_items. cbn [flat_map ch denote_item]. rewrite app_nil_r.
  generalize (b0 :: elifs). intros bs. induction bs as [|b bs IH].
  - right. split; reflexivity.
  - cbn [pick_branch]. destruct (denote e (b_cond b)) eqn:E.
    + left. exists [], b, bs. split; [reflexivity|]. split; [reflexivity|]. split; [exact E|reflexivity].
    + destruct IH as [(pre & b' & post & E1 & E2 & E3 & E4)|[E1 E2]].
      * left. exists (b :: pre), b', post. split; [now rewrite E1|].
        split; [cbn [forallb]; now rewrite E, E2|]. split; [exact E3|exact E4].
      * right. split; [cbn [forallb]; now rewrite E, E1|exact E2].
Qed.
Print Assumptions exactly_one_branch.

(* commands keep their order: the actions of a file are those of its first part followed by
   those of the rest *)
Theorem order_preserved top e is1 is2 :
  wf_env e = true -> wf_items (is1 ++ is2) = true ->
  exists a1 a2,
    table_actions true true top (print_table is1) e = Ok a1 /\
    table_actions true true top (print_table is2) e = Ok a2 /\
    table_actions true true top (print_table (is1 ++ is2)) e = Ok (a1 ++ a2).
Proof.
  intros He Hw. unfold wf_items in *. rewrite forallb_app in Hw.
  apply andb_true_iff in Hw. destruct Hw as [W1 W2].
  exists (denote_items e top is1), (denote_items e top is2). repeat split.
  - now apply blocks_sound.
  - now apply blocks_sound.
  - rewrite blocks_sound; auto.
    + unfold denote_items. now rewrite flat_map_app.
    + unfold wf_items. now rewrite forallb_app, W1, W2.
Qed.
Print Assumptions order_preserved.

(* a non-trivial state inhabits the hypotheses *)
Definition ex_cmdlay (spell : string) (g : arglay) : cmdlay :=
  mkCmdlay [lit "  # a comment"; []] (lit "    ") (lit spell) [] g (lit " ") true (lit "   # trailing").
Arguments ex_cmdlay spell%string g.
Definition ex_cmd (k : ckind) (spell : string) (args : list str) (g : arglay) : cmd :=
  mkCmd k args (ex_cmdlay spell g).
Arguments ex_cmd k spell%string args g.
Definition ex_blay : bracelay := mkBracelay [[]] [] (lit " ") (lit " ") (lit " ") (lit " ") (lit "  # why").
Definition ex_items : list item :=
  [ ICmd (ex_cmd KSetupOptional "SetupOptional" [lit "bar"; lit "1.0"] (mkArglay 0 [(lit " ", false)] 0));
    IChain (mkBranch ex_cond [ex_cmd KPathAppend "PATHAPPEND" [lit "PATH"; lit "/opt/p q/bin"; lit ":"]
                                (mkArglay 1 [(lit ", ", true); (lit ",", false)] 1)] ex_blay)
           [mkBranch (ex_atom "Type" CType ONe "exact" QNone)
              [ex_cmd KEnvSet "envSet" [lit "FOO_OPTS"; lit "-I/x -I/y, -O2"] (mkArglay 0 [(lit " ", true)] 0)] ex_blay]
           (Some ([ex_cmd KProdDir "prodDir" [] (mkArglay 0 [] 0)], ex_blay)) ex_blay ].

Example blocks_sound_inhabited :
  wf_items ex_items = true /\ no_empty_branch ex_items = true /\
  table_actions true true (lit "foo") (print_table ex_items) ex_env
  = Ok [ mkAction (lit "setupRequired") [lit "bar"; lit "1.0"] [(lit "optional", true)];
         mkAction (lit "envPrepend") [lit "PATH"; lit "/opt/p q/bin"; lit ":"] [(lit "append", true)] ].
Proof.
  assert (W : wf_items ex_items = true) by (vm_compute; reflexivity).
  split; [exact W|]. rewrite (blocks_sound (lit "foo") ex_env _ eq_refl W). vm_compute. split; reflexivity.
Qed.

(* the example of the manual (addAlias: do not forget to escape the quotes), character for
   character, read as a table *)
Definition ex_manual_cmd : cmd :=
  mkCmd KAddAlias
    [lit "foo"; lit "source"; lit "`${PRODUCT_DIR}/bin/eups_setup"; lit "setup"; lit """$@""`;"]
    (mkCmdlay [] (lit "     ") (lit "addAlias") []
       (mkArglay 0 [(lit ", ", false); (lit " ", false); (lit " ", false); (lit " ", false)] 0) [] true []).

Example blocks_sound_inhabited_escaped_quotes :
  wf_items [ICmd ex_manual_cmd] = true /\
  print_table [ICmd ex_manual_cmd]
  = lit "     addAlias(foo, source `${PRODUCT_DIR}/bin/eups_setup setup \""$@\""`;);" ++ [c_nl] /\
  table_actions true true (lit "foo") (print_table [ICmd ex_manual_cmd]) ex_env
  = Ok [ mkAction (lit "addAlias")
           [lit "foo"; lit "source"; lit "`${PRODUCT_DIR}/bin/eups_setup"; lit "setup"; lit """$@""`;"] [] ].
Proof.
  assert (W : wf_items [ICmd ex_manual_cmd] = true) by (vm_compute; reflexivity).
  split; [exact W|]. rewrite (blocks_sound (lit "foo") ex_env _ eq_refl W). vm_compute. split; reflexivity.
Qed.

(* ... and one with empty branches: if (type == exact) {} else if (FLAVOR == Linux64) {X}
   else {} followed by if (FLAVOR == Linux64) {Y}, what expandTableFile writes when nothing
   was set up below the product being the first two lines of it *)
Definition ex_set (v x : string) : cmd :=
  ex_cmd KEnvSet "envSet" [lit v; lit x] (mkArglay 0 [(lit ", ", false)] 0).
Arguments ex_set v%string x%string.
Definition ex_empty_items : list item :=
  [ IChain (mkBranch (ex_atom "type" CType OEq "exact" QNone) [] ex_blay)
           [mkBranch (ex_atom "FLAVOR" CFlavor OEq "Linux64" QNone) [ex_set "A" "x"] ex_blay]
           (Some ([], ex_blay)) ex_blay;
    IChain (mkBranch (ex_atom "FLAVOR" CFlavor OEq "Linux64" QNone) [ex_set "B" "y"] ex_blay) [] None ex_blay ].

Example blocks_sound_inhabited_empty_branches :
  wf_items ex_empty_items = true /\ no_empty_branch ex_empty_items = false /\
  table_actions true true (lit "foo") (print_table ex_empty_items) ex_env
  = Ok [ mkAction (lit "envSet") [lit "A"; lit "x"] []; mkAction (lit "envSet") [lit "B"; lit "y"] [] ] /\
  table_actions true true (lit "foo") (print_table ex_empty_items) (mkCenv (lit "Linux64") [lit "exact"])
  = Ok [ mkAction (lit "envSet") [lit "B"; lit "y"] [] ].
Proof.
  assert (W : wf_items ex_empty_items = true) by (vm_compute; reflexivity).
  split; [exact W|]. rewrite !(fun e He => blocks_sound (lit "foo") e _ He W) by reflexivity.
  vm_compute. repeat split.
Qed.

(* D6, the reader before the repair: a branch without any command.  if (A) {} else {X} runs
   X exactly when A holds; the text denotes nothing for such a flavor, and that is what the
   repaired reader answers. *)
Definition d6_items : list item :=
  [ IChain (mkBranch (ex_atom "FLAVOR" CFlavor OEq "Linux64" QNone) [] ex_blay) []
           (Some ([ex_cmd KEnvSet "envSet" [lit "A"; lit "c"] (mkArglay 0 [(lit ", ", false)] 0)], ex_blay))
           ex_blay ].

Theorem blocks_refuted_empty_branch_pinned :
  wf_env ex_env = true /\ wf_items d6_items = true /\ no_empty_branch d6_items = false /\
  denote_items ex_env (lit "foo") d6_items = [] /\
  table_actions true false (lit "foo") (print_table d6_items) ex_env
  = Ok [mkAction (lit "envSet") [lit "A"; lit "c"] []] /\
  table_actions true true (lit "foo") (print_table d6_items) ex_env = Ok [].
Proof.
  assert (W : wf_items d6_items = true) by (vm_compute; reflexivity).
  rewrite (blocks_sound (lit "foo") ex_env d6_items eq_refl W).
  split; [reflexivity|]. split; [exact W|]. vm_compute. repeat split.
Qed.
Print Assumptions blocks_refuted_empty_branch_pinned.

(* the repair changes nothing else.  On any text (malformed ones, stray braces and legacy
   lines included): if, as the repaired reader runs over the classified lines, no brace line
   finds it inside a branch with an empty block, it builds exactly the blocks the reader
   before the repair builds ... *)
Theorem repair_conservative fx top text ls :
  rewrite (split_lines text) = Ok ls ->
  no_empty_open fx top (map (classify fx) ls) q_init = true ->
  read_text fx true top text = read_text fx false top text /\
  forall e, table_actions fx true top text e = table_actions fx false top text e.
Proof.
  intros Hr Hn.
  assert (E : read_text fx true top text = read_text fx false top text).
  { unfold read_text. rewrite Hr. cbn [bind]. unfold read_blocks_sel. now apply repair_conservative_lines. }
  split; [exact E|]. intros e. unfold table_actions. now rewrite E.
Qed.
Print Assumptions repair_conservative.

(* ... in particular on the text of items every branch of which holds a command, where the
   reader before the repair was already right *)
Theorem repair_conservative_items top e is :
  wf_env e = true -> wf_items is = true -> no_empty_branch is = true ->
  table_actions true false top (print_table is) e = Ok (denote_items e top is) /\
  table_actions true false top (print_table is) e = table_actions true true top (print_table is) e.
Proof.
  intros He Hw Hn.
  assert (A : table_actions true false top (print_table is) e = Ok (denote_items e top is))
    by now apply table_actions_items.
  split; [exact A|]. now rewrite A, blocks_sound.
Qed.
Print Assumptions repair_conservative_items.

(* the pinned brace pattern drops an else line that is followed by blanks or a comment *)
Definition else_trailing_items : list item :=
  [ IChain (mkBranch (ex_atom "FLAVOR" CFlavor OEq "Linux64" QNone)
              [ex_cmd KEnvSet "envSet" [lit "A"; lit "b"] (mkArglay 0 [(lit ", ", false)] 0)] ex_blay) []
           (Some ([ex_cmd KEnvSet "envSet" [lit "A"; lit "c"] (mkArglay 0 [(lit ", ", false)] 0)], ex_blay))
           ex_blay ].

Theorem blocks_refuted_pinned_else_trailing :
  wf_items else_trailing_items = true /\ no_empty_branch else_trailing_items = true /\
  table_actions false false (lit "foo") (print_table else_trailing_items) ex_env
  = Ok [mkAction (lit "envSet") [lit "A"; lit "b"] []; mkAction (lit "envSet") [lit "A"; lit "c"] []] /\
  table_actions true true (lit "foo") (print_table else_trailing_items) ex_env
  = Ok [mkAction (lit "envSet") [lit "A"; lit "b"] []].
Proof.
  assert (W : wf_items else_trailing_items = true) by (vm_compute; reflexivity).
  rewrite (blocks_sound (lit "foo") ex_env else_trailing_items eq_refl W).
  split; [exact W|]. vm_compute. repeat split.
Qed.
Print Assumptions blocks_refuted_pinned_else_trailing.

(* a group of Flavor= lines followed by commands (closed by the next Flavor= line or the end
   of the file), and the older Group: / Flavor= / Common: / End: form, mean the same as the
   if block over the disjunction of the flavors: the body applies exactly when the flavor
   is one of those listed *)
Theorem legacy_equiv top e fs body :
  wf_env e = true -> wf_flavors fs = true -> forallb wf_cmd body = true -> is_nil body = false ->
  let chain := [IChain (mkBranch (flavor_disj fs) body plain_blay) [] None plain_blay] in
  read_text true true top (print_new_group fs body) = read_text true true top (print_table chain) /\
  read_text true true top (print_old_group fs body) = read_text true true top (print_table chain) /\
  table_actions true true top (print_new_group fs body) e
  = Ok (if mem_str (ce_flavor e) fs then denote_body top body else []) /\
  table_actions true true top (print_old_group fs body) e
  = Ok (if mem_str (ce_flavor e) fs then denote_body top body else []).
Proof.
  intros He Hf Hb Hne chain. destruct (legacy_groups_read true top fs body Hf Hb) as (W & RN & RO).
  destruct (wf_flavors_parts fs Hf) as (Hn & _).
  assert (A : table_actions true true top (print_table chain) e
              = Ok (if mem_str (ce_flavor e) fs then denote_body top body else [])).
  { rewrite (blocks_sound top e chain He W). unfold denote_items. cbn [chain flat_map denote_item pick_branch b_cond b_body].
    now rewrite app_nil_r, (denote_disj e fs Hn). }
  unfold table_actions in *. rewrite (RN Hne), RO. auto.
Qed.
Print Assumptions legacy_equiv.

Example legacy_equiv_inhabited :
  let fs := [lit "Linux64"; lit "DarwinX86"] in
  let body := [ex_cmd KSetenv "setenv" [lit "A"; lit "b c"] (mkArglay 0 [(lit ", ", true)] 0)] in
  wf_flavors fs = true /\ forallb wf_cmd body = true /\
  table_actions true true (lit "foo") (print_new_group fs body) ex_env = Ok [mkAction (lit "envSet") [lit "A"; lit "b c"] []] /\
  table_actions true true (lit "foo") (print_old_group fs body) ex_env = Ok [mkAction (lit "envSet") [lit "A"; lit "b c"] []] /\
  table_actions true true (lit "foo") (print_new_group fs body) (mkCenv (lit "SunOS") []) = Ok [].
Proof.
  intros fs body.
  assert (Wf : wf_flavors fs = true) by (vm_compute; reflexivity).
  assert (Wb : forallb wf_cmd body = true) by (vm_compute; reflexivity).
  split; [exact Wf|]. split; [exact Wb|].
  destruct (legacy_equiv (lit "foo") ex_env fs body eq_refl Wf Wb eq_refl) as (_ & _ & -> & ->).
  destruct (legacy_equiv (lit "foo") (mkCenv (lit "SunOS") []) fs body eq_refl Wf Wb eq_refl) as (_ & _ & -> & _).
  vm_compute. repeat split.
Qed.

(* Model/LegacySpec.v: a legacy file is ignorable lines, then commands, if chains and old
   Group: / Flavor= / Common: / End: blocks, then new-style Flavor= groups, with ignorable
   lines (blank, comment, Action = setup, Qualifiers = dq dq, File = Table, and Product = P
   once the head of the file has a File = line) in EVERY slot: before any line, between
   the Flavor= lines of one group, between the last Flavor= line and the body, inside the
   bodies, before Common: and End:, at the end; key words in any letter case, any blanks
   around the equal sign, trailing comments.  Such a file is read exactly as the if blocks
   it corresponds to (legacy_items: each group becomes the chain over the disjunction of
   its flavors), and it means denote_legacy: commands and chains as in any table, the body
   of a group exactly when the flavor is one of those its Flavor= lines list. *)
Theorem legacy_file_equiv top e t :
  wf_env e = true -> wf_ltable t = true ->
  wf_items (legacy_items t) = true /\
  read_text true true top (print_legacy t) = read_text true true top (print_table (legacy_items t)) /\
  table_actions true true top (print_legacy t) e = table_actions true true top (print_table (legacy_items t)) e /\
  table_actions true true top (print_legacy t) e = Ok (denote_legacy e top t).
Proof.
  intros He Hw. pose proof (legacy_items_wf t Hw) as Wi. pose proof (legacy_file_read true top t Hw) as R.
  assert (A : table_actions true true top (print_legacy t) e = table_actions true true top (print_table (legacy_items t)) e).
  { unfold table_actions. now rewrite R. }
  repeat split; auto. rewrite A, (blocks_sound top e _ He Wi). now rewrite (denote_legacy_items e top t Hw).
Qed.
Print Assumptions legacy_file_equiv.

(* the ignorable lines are ignorable: two legacy files that differ only in them (same
   items, same groups) are read alike *)
Theorem legacy_ignorable_lines top t1 t2 :
  wf_ltable t1 = true -> wf_ltable t2 = true -> legacy_items t1 = legacy_items t2 ->
  read_text true true top (print_legacy t1) = read_text true true top (print_legacy t2).
Proof. intros H1 H2 E. now rewrite (legacy_file_read true top t1 H1), (legacy_file_read true top t2 H2), E. Qed.
Print Assumptions legacy_ignorable_lines.

(* a group applies exactly when the flavor is listed, whatever stands between its Flavor= lines *)
Theorem legacy_group_membership top e t g :
  wf_env e = true -> wf_ltable t = true -> lt_top t = [] -> lt_groups t = [g] ->
  table_actions true true top (print_legacy t) e
  = Ok (if mem_str (ce_flavor e) (map fl_name (ng_flavors g)) then denote_body top (map bc_cmd (ng_body g)) else []).
Proof.
  intros He Hw Ht Hg. destruct (legacy_file_equiv top e t He Hw) as (_ & _ & _ & ->).
  unfold denote_legacy. rewrite Ht, Hg. cbn [flat_map app]. now rewrite app_nil_r.
Qed.
Print Assumptions legacy_group_membership.

Definition ex_ign (k : ikind) (key val : string) : ign := GKey k (lit "  ") (lit key) (lit " ") (lit " ") (lit val) [].
Definition ex_flav (pre : list ign) (name : string) : flav := mkFlav pre [] (lit "Flavor") (lit " ") (lit " ") (lit name) [].
Arguments ex_ign k (key val)%string.
Arguments ex_flav pre name%string.
(* File = Table / Product = foo / a command / an old group with Qualifiers between its
   Flavor lines / a new-style group whose two Flavor lines are separated by Qualifiers and
   whose body starts with Action = setup / a second group / a trailing comment *)
Definition ex_legset (v : string) : cmd := ex_cmd KSetenv "setenv" [lit "A"; lit v] (mkArglay 0 [(lit ", ", true)] 0).
Arguments ex_legset v%string.
Definition ex_legacy : ltable :=
  let q := ex_ign IKQual "Qualifiers" "" in
  let a := ex_ign IKAction "ACTION" "setup" in
  mkLt [GJunk (lit "# old format"); ex_ign IKFile "File" "Table"]
       [TItem [ex_ign IKProduct "Product" "foo"] (ICmd (ex_legset "top"));
        TOld [a] (mkKw [] (lit "Group:") []) [ex_flav [] "SunOS"; ex_flav [q] "Darwin"] [q]
             (mkKw (lit " ") (lit "COMMON:") (lit " # c")) [mkBcmd [a; GJunk []] (ex_legset "old")] [q] (mkKw [] (lit "End:") [])]
       [mkNg [ex_flav [] "Linux"; ex_flav [q] "Linux64"] [mkBcmd [q; a] (ex_legset "b c"); mkBcmd [ex_ign IKFile "file" "TABLE"] (ex_legset "d")];
        mkNg [ex_flav [q; a] "DarwinX86"] [mkBcmd [] (ex_legset "x")]]
       [GJunk (lit "  # end")].

Example legacy_file_inhabited :
  wf_ltable ex_legacy = true /\
  table_actions true true (lit "foo") (print_legacy ex_legacy) (mkCenv (lit "Linux") [])
  = Ok [mkAction (lit "envSet") [lit "A"; lit "top"] []; mkAction (lit "envSet") [lit "A"; lit "b c"] [];
        mkAction (lit "envSet") [lit "A"; lit "d"] []] /\
  table_actions true true (lit "foo") (print_legacy ex_legacy) (mkCenv (lit "Linux64") [])
  = table_actions true true (lit "foo") (print_legacy ex_legacy) (mkCenv (lit "Linux") []) /\
  table_actions true true (lit "foo") (print_legacy ex_legacy) (mkCenv (lit "Darwin") [])
  = Ok [mkAction (lit "envSet") [lit "A"; lit "top"] []; mkAction (lit "envSet") [lit "A"; lit "old"] []] /\
  table_actions true true (lit "foo") (print_legacy ex_legacy) (mkCenv (lit "Plan9") [])
  = Ok [mkAction (lit "envSet") [lit "A"; lit "top"] []].
Proof.
  assert (W : wf_ltable ex_legacy = true) by (vm_compute; reflexivity).
  assert (A : forall e, wf_env e = true ->
            table_actions true true (lit "foo") (print_legacy ex_legacy) e = Ok (denote_legacy e (lit "foo") ex_legacy)).
  { intros e He. now apply legacy_file_equiv. }
  split; [exact W|]. rewrite !A by reflexivity. vm_compute. repeat split.
Qed.
