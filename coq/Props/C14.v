(* C14 - remove deletes exactly what was asked and never something still needed.
   The property theorems, with the example worlds that witness their hypotheses and the defects of the pinned tree;
   the proofs appeal to Proofs/Remove*.v.

   Vocabulary.  [remove_fixed fuel w c st n v recursive check] is Eups.remove(n, v, recursive, checkRecursive)
   of the code with the fixes C14-remove-skip-undeclared, C14-remove-follow-once and
   C14-remove-keeps-shared-directory (the three flags of [remove] in Model/Remove.v; the pinned tree is
   [remove_pinned]); it returns the outcome AND the state, because an exception leaves behind
   whatever was done before it.  A state [st] is the reader's view of the database [rdb st] (Model/Db.v:
   [a_decl a s n v f] = (directory, table) of product n version v flavor f in stack s, [a_tag a s n t f] = the
   version tag t names) and the set of paths [rfs st] under the stack root.  [w] is the resolved dependency
   graph of Model/Graph.v (C13): what every table line denotes in the database as it is before the command.
   [c] holds the flavor, the name of the default product and force.

   [asked w n v recursive q]: q is the product named on the command line or, with recursive, a declared
   product that its table files reach in one or more lines ([reach_plus], the relation of C13's walk_complete:
   exactly what getDependentProducts lists - see asked_is_the_listing).
   [doomed w c a n v recursive s n' v' f']: (s, n', v', f') is the declaration that is removed for the asked
   product n' v': flavor of the instance, first stack on the path that declares it ([home]).

   Standing hypotheses: [wf_world w] (C13: a line is resolved to a declared version, an unresolved line names
   no declared version), [default_undeclared w c] (the default product implicitProducts is not declared, as in
   every stack the checks build), the target is declared.  [coherent w c a]: what the world calls declared is
   found in the database.  [wf_dirs a]: installation directories of different declarations are pairwise
   non-nested; [dirs_present]: the directories of the asked products exist. *)
From Eupsv Require Import Base.Base Base.BaseLemmas Model.Graph Model.Db Model.Remove Model.RemoveExt
     Proofs.GraphLib Proofs.GraphWalk Proofs.GraphListing Proofs.GraphOrder
     Proofs.DbLib Proofs.Db Proofs.DbInv
     Proofs.RemoveLib Proofs.RemoveDestroy Proofs.RemoveCollect Proofs.RemoveMain
     Proofs.RemoveExt.
Open Scope string_scope.

(* ------------------------------------------------------------------ exactly what was asked *)

(* When the command ends normally: the declarations that are gone are exactly the doomed ones (the target
   and, with recursive, its whole dependency closure - on every graph: cycles, shared sub-trees, several
   versions of one product, unresolved dependencies); a tag survives exactly when the version it names
   survives; with pairwise non-nested installation directories the paths that are gone are exactly those inside the
   (real) directories of the asked products (without that hypothesis a directory in which a declaration that
   stays is installed is left alone: frame_directories_multi). *)
Theorem removes_exactly fuel w c st n v recursive check st' :
  wf_world w -> default_undeclared w c -> declared w n v = true ->
  remove_fixed fuel w c st n v recursive check = (Ok tt, st') ->
  (forall s n' v' f', doomed w c (rdb st) n v recursive s n' v' f' -> a_decl (rdb st') s n' v' f' = None) /\
  (forall s n' v' f', ~ doomed w c (rdb st) n v recursive s n' v' f' ->
     a_decl (rdb st') s n' v' f' = a_decl (rdb st) s n' v' f') /\
  (forall s n' t f' v', a_tag (rdb st) s n' t f' = Some v' -> doomed w c (rdb st) n v recursive s n' v' f' ->
     a_tag (rdb st') s n' t f' = None) /\
  (forall s n' t f', (forall v', a_tag (rdb st) s n' t f' = Some v' -> ~ doomed w c (rdb st) n v recursive s n' v' f') ->
     a_tag (rdb st') s n' t f' = a_tag (rdb st) s n' t f') /\
  (wf_dirs (rdb st) ->
   forall x, In x (rfs st') <->
     In x (rfs st) /\
     ~ exists q dir, asked w n v recursive q /\ product_dir c (rdb st) q = Some dir /\ placeholder dir = false /\
                     under dir x = true).
Proof.
  intros Hwf Hdef D H. unfold remove_fixed in H. rewrite remove_is_remove_x in H.
  destruct (remove_x_exact_plain false true fuel w w c st (mkCall n v recursive check false) [] Hwf Hdef D st' eq_refl H) as [A [B [C [E F]]]].
  exact (conj A (conj B (conj C (conj E (fun Hd => F (or_intror Hd)))))).
Qed.
Print Assumptions removes_exactly.

(* the asked set is the target plus what C13's listing (getDependentProducts) holds, restricted to declared
   products: the dependency closure as listed *)
Theorem asked_is_the_listing fuel w n v l q :
  length w < fuel -> dependent_products fuel w (n, Some v, true) false = Ok l ->
  (asked w n v true q <-> q = (n, Some v, true) \/ (In q (map enode l) /\ dnode w q)).
Proof.
  intros Hf Hl. destruct (listing_plain w (n, Some v, true) fuel Hf) as [l' [E HL]].
  rewrite Hl in E. inversion E. subst l'. unfold asked. split.
  - intros [->|[_ [R Dq]]]; [left; reflexivity|].
    destruct (node_eq_dec q (n, Some v, true)) as [->|N]; [left; reflexivity|]. right. split; [apply HL; auto|exact Dq].
  - intros [->|[I Dq]]; [left; reflexivity|]. right. apply HL in I as [_ R]. auto.
Qed.
Print Assumptions asked_is_the_listing.

(* ------------------------------------------------------------------ never something still needed *)

(* With the in-use check and without force: if a product that would be deleted (d) is reached through the
   table files from a declared product that would remain (u), the command is refused and the state is the
   one it started from.  ([uses_index] is Eups.uses(None) of C13; its success is C13's domain.) *)
Theorem refuses_when_needed fuel w c st n v recursive idx d u :
  wf_world w -> default_undeclared w c -> declared w n v = true -> length w + 2 <= fuel ->
  uses_index fuel w = Ok idx -> rc_force c = false ->
  asked w n v recursive d ->
  In u (map fst w) -> ~ asked w n v recursive (pnode u) -> reach_plus w (pnode u) d ->
  remove_fixed fuel w c st n v recursive true = (Err Refused, st).
Proof.
  intros Hwf Hdef D Hf Hu Hforce Ad Iu Nu R. unfold remove_fixed. rewrite remove_two_phases.
  apply (two_phases_refuses fuel w w c _ st n v recursive _ idx d u); auto.
  - exact (Nat.lt_le_trans _ _ _ (Nat.lt_add_pos_r 2 (length w) Nat.lt_0_2) Hf).
  - intro E. apply Nu. rewrite <- E. exact Ad.
  - intro E. injection E as <-. apply Nu. left. reflexivity.
Qed.
Print Assumptions refuses_when_needed.

(* a refusal, whenever it happens, has changed nothing *)
Theorem refusal_changes_nothing fuel w c st n v recursive check st' :
  wf_world w -> default_undeclared w c -> declared w n v = true ->
  remove_fixed fuel w c st n v recursive check = (Err Refused, st') -> st' = st.
Proof.
  intros Hwf Hdef D. unfold remove_fixed. rewrite remove_is_remove_x.
  exact (remove_x_refusal_keeps_state false true fuel w w c st (mkCall n v recursive check false) [] Hwf Hdef D st').
Qed.
Print Assumptions refusal_changes_nothing.

(* the command refuses only when the in-use check is on and force is off.  (The converse of
   refuses_when_needed is NOT a theorem and not demanded by the property: the code excludes only the product
   named on the command line from the users, so it also refuses when the only other users are themselves being
   removed - over_cautious_refusal_observed below.) *)
Theorem refusal_only_with_check fuel w c st n v recursive check st' :
  wf_world w -> default_undeclared w c -> declared w n v = true -> length w + 2 <= fuel ->
  (check = true -> exists idx, uses_index fuel w = Ok idx) ->
  remove_fixed fuel w c st n v recursive check = (Err Refused, st') -> check = true /\ rc_force c = false.
Proof. exact (RemoveMain.refusal_only_with_check true fuel w c st n v recursive check st'). Qed.
Print Assumptions refusal_only_with_check.

(* every error is raised before the first write: no exception leaves a partly removed stack behind (the
   pinned tree fails this: partial_removal_refuted_pinned) *)
Theorem error_changes_nothing fuel w c st n v recursive check e st' :
  wf_world w -> default_undeclared w c -> declared w n v = true ->
  coherent w c (rdb st) -> wf_dirs (rdb st) -> dirs_present w c st n v recursive ->
  remove_fixed fuel w c st n v recursive check = (Err e, st') -> st' = st.
Proof. exact (error_keeps_state true fuel w c st n v recursive check e st'). Qed.
Print Assumptions error_changes_nothing.

(* without the in-use check, or with force, the command ends normally on every graph: the fuel |w| + 2 is
   enough whatever cycles the tables form, and removes_exactly then says what has gone *)
Theorem remove_completes fuel w c st n v recursive check :
  wf_world w -> default_undeclared w c -> declared w n v = true -> length w + 2 <= fuel ->
  (check = true -> exists idx, uses_index fuel w = Ok idx) ->
  check = false \/ rc_force c = true ->
  coherent w c (rdb st) -> wf_dirs (rdb st) -> dirs_present w c st n v recursive ->
  exists st', remove_fixed fuel w c st n v recursive check = (Ok tt, st').
Proof. exact (RemoveMain.remove_completes true fuel w c st n v recursive check). Qed.
Print Assumptions remove_completes.

(* ------------------------------------------------------------------ frame *)

(* Whatever the outcome (normal end, refusal, any error): a declaration that is not doomed is as before, a tag
   that names no doomed version is as before, no path appears, and a path that lies in none of the asked
   products' directories stays. *)
Theorem frame fuel w c st n v recursive check res st' :
  wf_world w -> default_undeclared w c -> declared w n v = true ->
  remove_fixed fuel w c st n v recursive check = (res, st') ->
  (forall s n' v' f', ~ doomed w c (rdb st) n v recursive s n' v' f' ->
     a_decl (rdb st') s n' v' f' = a_decl (rdb st) s n' v' f') /\
  (forall s n' t f', (forall v', a_tag (rdb st) s n' t f' = Some v' -> ~ doomed w c (rdb st) n v recursive s n' v' f') ->
     a_tag (rdb st') s n' t f' = a_tag (rdb st) s n' t f') /\
  (forall x, In x (rfs st') -> In x (rfs st)) /\
  (forall x, In x (rfs st) ->
     (forall q dir, asked w n v recursive q -> product_dir c (rdb st) q = Some dir -> placeholder dir = false ->
                    under dir x = false) ->
     In x (rfs st')).
Proof.
  intros Hwf Hdef D. unfold remove_fixed. rewrite remove_is_remove_x.
  exact (remove_x_frame false true fuel w w c st (mkCall n v recursive check false) [] Hwf Hdef D res st').
Qed.
Print Assumptions frame.

(* with pairwise non-nested installation directories: the whole directory of every surviving declaration
   is untouched, whatever the outcome *)
Theorem frame_directories fuel w c st n v recursive check res st' s0 m u f0 rs :
  wf_world w -> default_undeclared w c -> declared w n v = true -> wf_dirs (rdb st) ->
  remove_fixed fuel w c st n v recursive check = (res, st') ->
  a_decl (rdb st) s0 m u f0 = Some rs -> placeholder (fst rs) = false ->
  ~ doomed w c (rdb st) n v recursive s0 m u f0 ->
  forall x, under (fst rs) x = true -> (In x (rfs st') <-> In x (rfs st)).
Proof.
  intros Hwf Hdef D. unfold remove_fixed. rewrite remove_is_remove_x.
  exact (remove_x_frame_dirs false true fuel w w c st (mkCall n v recursive check false) [] Hwf Hdef D res st' s0 m u f0 rs).
Qed.
Print Assumptions frame_directories.

(* ------------------------------------------------------------------ witnesses *)

Definition ed (n : string) (v r : option string) (o : bool) : edge :=
  mkEdge (lit n) (option_map lit v) (option_map lit r) o.
(* every table ends with the silent optional dependency on the undeclared default product *)
Definition imp : edge := ed "implicitProducts" None None true.
Definition pr (n v : string) (es : list edge) : (str * str) * list edge := ((lit n, lit v), es ++ [imp]).
Definition nd (n v : string) : node := (lit n, Some (lit v), true).
Definition S0 : str := lit "S".
Definition linux : str := lit "Linux64".
Definition pdir (n v : string) : str := lit "/S/" ++ lit n ++ lit "/" ++ lit v.
Definition dk (n v : string) : dkey * vrec :=
  ((S0, lit n, lit v, linux), (pdir n v, pdir n v ++ lit "/ups/" ++ lit n ++ lit ".table")).
Definition tg (n t v : string) : dkey * str := ((S0, lit n, lit t, linux), lit v).
Definition paths (n v : string) : list str :=
  [lit "/S/" ++ lit n; pdir n v; pdir n v ++ lit "/ups"; pdir n v ++ lit "/ups/" ++ lit n ++ lit ".table"].
Definition conf (force : bool) : rconf := mkRC linux (lit "implicitProducts") force.

(* a 1 needs b, c and the optional ghost (not installed); b and c both need d; the bystander x needs d too.
   d carries two tags. *)
Definition w_ex : world :=
  [ pr "a" "1" [ed "b" None (Some "1") false; ed "ghost" None None true; ed "c" (Some "1") (Some "1") false];
    pr "b" "1" [ed "d" None (Some "1") false];
    pr "c" "1" [ed "d" None (Some "1") true];
    pr "d" "1" [];
    pr "x" "1" [ed "d" (Some "1") (Some "1") false] ].
Definition st_ex : rstate :=
  mkR (mkAdb [S0] [dk "a" "1"; dk "b" "1"; dk "c" "1"; dk "d" "1"; dk "x" "1"]
             [tg "a" "current" "1"; tg "b" "current" "1"; tg "c" "current" "1"; tg "d" "current" "1";
              tg "d" "stable" "1"; tg "x" "current" "1"])
      (paths "a" "1" ++ paths "b" "1" ++ paths "c" "1" ++ paths "d" "1" ++ paths "x" "1").

(* Eups.uses of this world, evaluated once; the runs with the in-use check read it here *)
Definition idx_ex := Eval vm_compute in match uses_index 7 w_ex with Ok i => i | Err _ => [] end.
Lemma uses_ex : uses_index 7 w_ex = Ok idx_ex.
Proof. vm_refl. Qed.

(* remove -R a 1 without the in-use check, and the state it leaves *)
Definition st_ex_after : rstate :=
  mkR (mkAdb [S0] [dk "x" "1"] [tg "x" "current" "1"]) ([lit "/S/a"; lit "/S/b"; lit "/S/c"; lit "/S/d"] ++ paths "x" "1").
Lemma run_ex : remove_fixed 7 w_ex (conf false) st_ex (lit "a") (lit "1") true false = (Ok tt, st_ex_after).
Proof. vm_refl. Qed.

(* the hypotheses of the theorems are inhabited by this state ... *)
Example hypotheses_inhabited :
  wf_world w_ex /\ default_undeclared w_ex (conf false) /\ coherent w_ex (conf false) (rdb st_ex) /\
  wf_dirs (rdb st_ex) /\ dirs_present w_ex (conf false) st_ex (lit "a") (lit "1") true /\
  declared w_ex (lit "a") (lit "1") = true /\ length w_ex + 2 <= 7 /\
  (exists idx, uses_index 7 w_ex = Ok idx) /\
  asked w_ex (lit "a") (lit "1") true (nd "d" "1") /\ ~ asked w_ex (lit "a") (lit "1") true (nd "x" "1").
Proof.
  assert (Hwf : wf_world w_ex) by (apply wf_world_b_sound; vm_refl).
  assert (Hdef : default_undeclared w_ex (conf false)) by (apply default_undeclared_by_computation; vm_refl).
  assert (D : declared w_ex (lit "a") (lit "1") = true) by vm_refl.
  split; [exact Hwf|]. split; [exact Hdef|].
  split; [apply coherent_by_computation; vm_refl|].
  split; [apply wf_dirs_by_computation; vm_refl|].
  split; [apply dirs_present_by_computation; vm_refl|].
  split; [exact D|]. split; [apply Nat.leb_le; reflexivity|].
  split; [exists idx_ex; exact uses_ex|].
  split.
  - apply (proj2 (asked_dpath _ _ _ _ _ Hwf D)). right. split; [reflexivity|].
    apply dp_step with (q := nd "b" "1"); [apply dep_by_computation; vm_refl|].
    apply dp_step with (q := nd "d" "1"); [apply dep_by_computation; vm_refl|]. apply dp_refl.
  - intro A.
    (* the completed recursive removal keeps x: were x asked, removes_exactly would have it gone *)
    assert (E : a_decl (rdb st_ex_after) S0 (lit "x") (lit "1") linux = Some (snd (dk "x" "1"))) by vm_refl.
    rewrite (proj1 (removes_exactly 7 w_ex (conf false) st_ex (lit "a") (lit "1") true false _ Hwf Hdef D run_ex)) in E;
      [discriminate E|].
    split; [reflexivity|]. split; [exact A|vm_refl].
Qed.

(* ... on which remove -R a 1 without the in-use check removes a, b, c, d and keeps x with its tag and tree;
   with the check it is refused because x, which stays, needs d; with the check and force it goes through *)
Example remove_recursive_example :
  (let '(r, s) := remove_fixed 7 w_ex (conf false) st_ex (lit "a") (lit "1") true false in
   (r, adecls (rdb s), atags (rdb s), rfs s))
  = (Ok tt, [dk "x" "1"], [tg "x" "current" "1"],
     [lit "/S/a"; lit "/S/b"; lit "/S/c"; lit "/S/d"] ++ paths "x" "1")
  /\ remove_fixed 7 w_ex (conf false) st_ex (lit "a") (lit "1") true true = (Err Refused, st_ex)
  /\ fst (remove_fixed 7 w_ex (conf true) st_ex (lit "a") (lit "1") true true) = Ok tt
  /\ remove_fixed 7 w_ex (conf false) st_ex (lit "d") (lit "1") false true = (Err Refused, st_ex).
Proof.
  split; [rewrite run_ex; reflexivity|]. split; [|split].
  - unfold remove_fixed, remove. rewrite uses_ex. vm_refl.
  - unfold remove_fixed, remove. rewrite uses_ex. vm_refl.
  - unfold remove_fixed, remove. rewrite uses_ex. vm_refl.
Qed.

(* D12 on the pinned tree: a 1 needs b and c, both need d.  Without the check (or with force) the removal list
   is a, b, d, implicitProducts-stub, c: a, b and d are undeclared and deleted, undeclare(stub) raises
   ProductNotFound, and c - which needs the deleted d - is left behind.  With the fix all four go. *)
Definition w_diamond : world :=
  [ pr "a" "1" [ed "b" None (Some "1") false; ed "c" None (Some "1") false];
    pr "b" "1" [ed "d" None (Some "1") false];
    pr "c" "1" [ed "d" None (Some "1") false];
    pr "d" "1" [] ].
Definition st_diamond : rstate :=
  mkR (mkAdb [S0] [dk "a" "1"; dk "b" "1"; dk "c" "1"; dk "d" "1"]
             [tg "a" "current" "1"; tg "b" "current" "1"; tg "c" "current" "1"; tg "d" "current" "1"])
      (paths "a" "1" ++ paths "b" "1" ++ paths "c" "1" ++ paths "d" "1").

Example partial_removal_refuted_pinned :
  (let '(r, s) := remove_pinned 6 w_diamond (conf false) st_diamond (lit "a") (lit "1") true false in
   (r, adecls (rdb s), atags (rdb s), rfs s))
  = (Err NotFound, [dk "c" "1"], [tg "c" "current" "1"],
     [lit "/S/a"; lit "/S/b"] ++ paths "c" "1" ++ [lit "/S/d"])
  /\ (let '(r, s) := remove_fixed 6 w_diamond (conf false) st_diamond (lit "a") (lit "1") true false in
      (r, adecls (rdb s), atags (rdb s)))
     = (Ok tt, [], []).
Proof. split; vm_refl. Qed.

(* an optional dependency that is not installed: the pinned tree raises ProductNotFound while collecting
   (nothing can be removed recursively); with the fix the dependency is skipped *)
Example uninstalled_optional_refuted_pinned :
  remove_pinned 7 w_ex (conf false) st_ex (lit "a") (lit "1") true false = (Err NotFound, st_ex)
  /\ fst (remove_fixed 7 w_ex (conf false) st_ex (lit "a") (lit "1") true false) = Ok tt.
Proof. split; [vm_refl|rewrite run_ex; reflexivity]. Qed.

(* a dependency cycle: the pinned tree recurses for ever (RecursionError, here any fuel runs out); a product
   that depends on another version of itself: the pinned recursion is cut by name and c stays although a 1
   reaches it ([remove true false] = only the first fix).  With both fixes everything asked goes. *)
Definition w_cycle : world :=
  [ pr "a" "1" [ed "b" None (Some "1") false]; pr "b" "1" [ed "a" None (Some "1") false; ed "c" None (Some "1") false];
    pr "c" "1" [] ].
Definition st_cycle : rstate :=
  mkR (mkAdb [S0] [dk "a" "1"; dk "b" "1"; dk "c" "1"] []) (paths "a" "1" ++ paths "b" "1" ++ paths "c" "1").
Definition w_samename : world :=
  [ pr "a" "1" [ed "a" (Some "2") (Some "2") false]; pr "a" "2" [ed "c" None (Some "1") false]; pr "c" "1" [] ].
Definition st_samename : rstate :=
  mkR (mkAdb [S0] [dk "a" "1"; dk "a" "2"; dk "c" "1"] [tg "a" "current" "2"])
      (paths "a" "1" ++ paths "a" "2" ++ paths "c" "1").

Example recursion_refuted_pinned :
  remove true false false 50 w_cycle (conf false) st_cycle (lit "a") (lit "1") true false = (Err OutOfFuel, st_cycle)
  /\ (let '(r, s) := remove_fixed 5 w_cycle (conf false) st_cycle (lit "a") (lit "1") true false in (r, adecls (rdb s)))
     = (Ok tt, [])
  /\ (let '(r, s) := remove true false false 5 w_samename (conf false) st_samename (lit "a") (lit "1") true false in
      (r, adecls (rdb s))) = (Ok tt, [dk "c" "1"])
  /\ (let '(r, s) := remove_fixed 5 w_samename (conf false) st_samename (lit "a") (lit "1") true false in
      (r, adecls (rdb s), atags (rdb s))) = (Ok tt, [], []).
Proof. split; [vm_refl|]. split; [vm_refl|]. split; vm_refl. Qed.

(* observed behaviour, not a defect: in the chain a -> b -> c the check finds that c is used by b and refuses
   remove -R a 1, although b is being removed too and nothing that stays needs anything; nothing changes *)
Definition w_chain : world :=
  [ pr "a" "1" [ed "b" None (Some "1") false]; pr "b" "1" [ed "c" None (Some "1") false]; pr "c" "1" [] ].
Example over_cautious_refusal_observed :
  remove_fixed 5 w_chain (conf false) st_cycle (lit "a") (lit "1") true true = (Err Refused, st_cycle)
  /\ forall u, In u (map fst w_chain) -> asked w_chain (lit "a") (lit "1") true (pnode u).
Proof.
  split; [vm_refl|].
  assert (Hwf : wf_world w_chain) by (apply wf_world_b_sound; vm_refl).
  assert (D : declared w_chain (lit "a") (lit "1") = true) by vm_refl.
  intros u [<-|[<-|[<-|[]]]]; apply (proj2 (asked_dpath _ _ _ _ _ Hwf D)).
  - left. reflexivity.
  - right. split; [reflexivity|]. apply dp_step with (q := nd "b" "1"); [apply dep_by_computation; vm_refl|]. apply dp_refl.
  - right. split; [reflexivity|]. apply dp_step with (q := nd "b" "1"); [apply dep_by_computation; vm_refl|].
    apply dp_step with (q := nd "c" "1"); [apply dep_by_computation; vm_refl|]. apply dp_refl.
Qed.


(* ================================================================== the whole command (extension)

   [remove_x xall keep fuel ww wu c st k answers] (Model/RemoveExt.v) is Eups.remove as the command line calls it:
   [k] holds product, version, recursive, checkRecursive and interactive; [answers] are the lines standard
   input holds; the state is keyed by stack and flavor and holds the paths of every stack.  Two resolved
   worlds: [ww] is what _remove walks (running flavor, first stack on the path, that declaration's table), [wu]
   what Eups.uses reads (every declaration in every stack, running flavor and fall-back flavors).
   [xall = true] is the code with the fix C14-remove-other-declarations, [false] the pinned tree.
   [eups_remove] puts the option handling of RemoveCmd.execute in front.
   [gone c a sel s n v f]: (s, n, v, f) is the declaration removed for a product of the list [sel]: running
   flavor, first stack on the path that declares it.  [select i order dflt answers]: the products of the
   removal list the answers say yes to, and how the questioning ends. *)

(* the front end: what the options become; fewer than two arguments touch nothing *)
Theorem front_end_exact xall keep fuel ww wu flavor dp st o p v rest answers :
  eups_remove xall keep fuel ww wu flavor dp st o (p :: v :: rest) answers =
  Some (remove_x xall keep fuel ww wu (mkRC flavor dp (ro_force o)) st
          (mkCall p v (ro_recursive o) (negb (ro_nocheck o))
                  (match ro_interactive o with Some b => b | None => false end)) answers).
Proof. exact (RemoveExt.front_end_exact xall keep fuel ww wu flavor dp st o p v rest answers). Qed.
Print Assumptions front_end_exact.

Theorem front_end_usage xall keep fuel ww wu flavor dp st o args answers :
  length args < 2 -> eups_remove xall keep fuel ww wu flavor dp st o args answers = None.
Proof. exact (RemoveExt.front_end_usage xall keep fuel ww wu flavor dp st o args answers). Qed.
Print Assumptions front_end_usage.

(* one declaration of the product named, no questions, one world: the command of the theorems above *)
Theorem whole_command_conservative xall keep fuel w c st n v recursive chk answers :
  (xall = true -> chk = true -> length (decl_places c (rdb st) n v) <= 1) ->
  remove_x xall keep fuel w w c st (mkCall n v recursive chk false) answers = remove true true keep fuel w c st n v recursive chk.
Proof. exact (remove_x_is_remove xall keep fuel w c st n v recursive chk answers). Qed.
Print Assumptions whole_command_conservative.

(* removes_exactly over the extended state: declarations of every stack and flavor, tags of every stack, paths
   of every stack and outside; without questions *)
Theorem removes_exactly_multi xall keep fuel ww wu c st k answers st' :
  wf_world ww -> default_undeclared ww c -> declared ww (k_name k) (k_version k) = true ->
  k_interactive k = false ->
  remove_x xall keep fuel ww wu c st k answers = (Ok tt, st') ->
  let n := k_name k in let v := k_version k in let recursive := k_recursive k in
  (forall s n' v' f', doomed ww c (rdb st) n v recursive s n' v' f' -> a_decl (rdb st') s n' v' f' = None) /\
  (forall s n' v' f', ~ doomed ww c (rdb st) n v recursive s n' v' f' ->
     a_decl (rdb st') s n' v' f' = a_decl (rdb st) s n' v' f') /\
  (forall s n' t f' v', a_tag (rdb st) s n' t f' = Some v' -> doomed ww c (rdb st) n v recursive s n' v' f' ->
     a_tag (rdb st') s n' t f' = None) /\
  (forall s n' t f', (forall v', a_tag (rdb st) s n' t f' = Some v' -> ~ doomed ww c (rdb st) n v recursive s n' v' f') ->
     a_tag (rdb st') s n' t f' = a_tag (rdb st) s n' t f') /\
  (keep = false \/ wf_dirs (rdb st) ->
   forall x, In x (rfs st') <->
     In x (rfs st) /\
     ~ exists q dir, asked ww n v recursive q /\ product_dir c (rdb st) q = Some dir /\ placeholder dir = false /\
                     under dir x = true).
Proof. intros Hwf Hdef D. exact (remove_x_exact_plain xall keep fuel ww wu c st k answers Hwf Hdef D st'). Qed.
Print Assumptions removes_exactly_multi.

(* with questions: the set removed is a function of the answers.  There is a duplicate-free list of exactly the
   asked products (the order in which they are asked about) such that what has gone - declarations, their tags,
   their directories - is exactly what the answers select from it, whether the command ran to the end or
   was ended with q *)
Theorem removes_exactly_interactive xall keep fuel ww wu c st k answers st' :
  wf_world ww -> default_undeclared ww c -> declared ww (k_name k) (k_version k) = true ->
  remove_x xall keep fuel ww wu c st k answers = (Ok tt, st') ->
  exists order, NoDup order /\
    (forall q, In q order <-> asked ww (k_name k) (k_version k) (k_recursive k) q) /\
    let sel := fst (select (k_interactive k) order ans_y answers) in
    (forall s n' v' f', gone c (rdb st) sel s n' v' f' -> a_decl (rdb st') s n' v' f' = None) /\
    (forall s n' v' f', ~ gone c (rdb st) sel s n' v' f' -> a_decl (rdb st') s n' v' f' = a_decl (rdb st) s n' v' f') /\
    (forall s n' t f' v', a_tag (rdb st) s n' t f' = Some v' -> gone c (rdb st) sel s n' v' f' ->
       a_tag (rdb st') s n' t f' = None) /\
    (forall s n' t f', (forall v', a_tag (rdb st) s n' t f' = Some v' -> ~ gone c (rdb st) sel s n' v' f') ->
       a_tag (rdb st') s n' t f' = a_tag (rdb st) s n' t f') /\
    (keep = false \/ wf_dirs (rdb st) ->
     forall x, In x (rfs st') <->
       In x (rfs st) /\
       ~ exists q dir, In q sel /\ product_dir c (rdb st) q = Some dir /\ placeholder dir = false /\ under dir x = true).
Proof. intros Hwf Hdef D. exact (remove_x_exact xall keep fuel ww wu c st k answers Hwf Hdef D st'). Qed.
Print Assumptions removes_exactly_interactive.

(* what the answers can select: only products of the list; nothing is asked after the exclamation mark, which
   selects everything that is left; without -i everything *)
Theorem answers_select_from_the_list i order dflt answers x :
  In x (fst (select i order dflt answers)) -> In x order.
Proof. exact (select_incl i order dflt answers x). Qed.
Print Assumptions answers_select_from_the_list.

Theorem answer_all_selects_the_rest order answers : select true order ans_all answers = (order, Done).
Proof. exact (select_after_all order answers). Qed.
Print Assumptions answer_all_selects_the_rest.

(* frame over the extended state, whatever the outcome and whatever the answers: a declaration of another stack
   or flavor (or any that is not doomed) is as before, so are the tags that name no doomed version, no path
   appears, and a path in none of the asked products' directories stays *)
Theorem frame_multi xall keep fuel ww wu c st k answers res st' :
  wf_world ww -> default_undeclared ww c -> declared ww (k_name k) (k_version k) = true ->
  remove_x xall keep fuel ww wu c st k answers = (res, st') ->
  (forall s n' v' f', ~ doomed ww c (rdb st) (k_name k) (k_version k) (k_recursive k) s n' v' f' ->
     a_decl (rdb st') s n' v' f' = a_decl (rdb st) s n' v' f') /\
  (forall s n' t f', (forall v', a_tag (rdb st) s n' t f' = Some v' ->
                                 ~ doomed ww c (rdb st) (k_name k) (k_version k) (k_recursive k) s n' v' f') ->
     a_tag (rdb st') s n' t f' = a_tag (rdb st) s n' t f') /\
  (forall x, In x (rfs st') -> In x (rfs st)) /\
  (forall x, In x (rfs st) ->
     (forall q dir, asked ww (k_name k) (k_version k) (k_recursive k) q -> product_dir c (rdb st) q = Some dir ->
                    placeholder dir = false -> under dir x = false) ->
     In x (rfs st')).
Proof. intros Hwf Hdef D. exact (remove_x_frame xall keep fuel ww wu c st k answers Hwf Hdef D res st'). Qed.
Print Assumptions frame_multi.

(* a declaration is doomed only under the running flavor and only in the first stack that declares the
   version: every declaration for another flavor, and every declaration a nearer stack shadows, is in the frame *)
Theorem other_flavor_and_shadowed_not_doomed ww c a n v recursive s n' v' f' :
  doomed ww c a n v recursive s n' v' f' -> f' = rc_flavor c /\ home c a n' v' = Some s.
Proof. intros [Hf [_ Hh]]. auto. Qed.
Print Assumptions other_flavor_and_shadowed_not_doomed.

(* the installation directory of a declaration that stays, with the fix C14-remove-keeps-shared-directory and
   with NO hypothesis about nesting or sharing: a path is as before unless it lies in the own directory of an asked
   product that does not hold the survivor's directory - a directory that was asked to be deleted and sits
   strictly inside the survivor's.  (The survivor is one that Eups._findDeclarations sees: a stack of the path, the
   running flavor or a fall-back flavor.) *)
Theorem frame_directories_multi xall fuel ww wu c st k answers res st' s0 m u f0 rs :
  wf_world ww -> default_undeclared ww c -> declared ww (k_name k) (k_version k) = true ->
  remove_x xall true fuel ww wu c st k answers = (res, st') ->
  a_decl (rdb st) s0 m u f0 = Some rs -> In s0 (apath (rdb st)) -> In f0 (fallbacks (rc_flavor c)) ->
  placeholder (fst rs) = false ->
  ~ doomed ww c (rdb st) (k_name k) (k_version k) (k_recursive k) s0 m u f0 ->
  forall x,
    (forall q dir, asked ww (k_name k) (k_version k) (k_recursive k) q -> product_dir c (rdb st) q = Some dir ->
                   placeholder dir = false -> under dir x = true -> under dir (fst rs) = true) ->
    (In x (rfs st') <-> In x (rfs st)).
Proof. intros Hwf Hdef D. exact (remove_x_frame_dirs_kept xall fuel ww wu c st k answers Hwf Hdef D res st' s0 m u f0 rs). Qed.
Print Assumptions frame_directories_multi.

(* when no asked product is installed strictly inside it, the survivor's whole directory is as before - be it shared
   with a removed product, or inside a removed product's directory *)
Theorem frame_directories_multi_whole xall fuel ww wu c st k answers res st' s0 m u f0 rs :
  wf_world ww -> default_undeclared ww c -> declared ww (k_name k) (k_version k) = true ->
  remove_x xall true fuel ww wu c st k answers = (res, st') ->
  a_decl (rdb st) s0 m u f0 = Some rs -> In s0 (apath (rdb st)) -> In f0 (fallbacks (rc_flavor c)) ->
  placeholder (fst rs) = false ->
  ~ doomed ww c (rdb st) (k_name k) (k_version k) (k_recursive k) s0 m u f0 ->
  (forall q dir, asked ww (k_name k) (k_version k) (k_recursive k) q -> product_dir c (rdb st) q = Some dir ->
                 placeholder dir = false -> under (fst rs) dir = true -> under dir (fst rs) = true) ->
  forall x, under (fst rs) x = true -> (In x (rfs st') <-> In x (rfs st)).
Proof.
  intros Hwf Hdef D H Es Is If Ps Ns Hn x Ux.
  apply (frame_directories_multi xall fuel ww wu c st k answers res st' s0 m u f0 rs); auto.
  intros q dir Aq Pq Pd Ud. destruct (under_comparable _ _ _ Ud Ux) as [K|K]; [exact K|]. exact (Hn q dir Aq Pq Pd K).
Qed.
Print Assumptions frame_directories_multi_whole.

(* the SAME name, version and flavor declared in another stack of the path (eups declare -r dir in a team stack and
   in a personal stack): the command removes the declaration of the first stack that has the version ([home]); the
   declaration of stack s0 stays.  Recursive or not: this twin of ANY asked product (the one named, or a dependency
   that goes with -R) keeps its whole directory, provided no asked product is installed strictly inside it (that
   one was asked to go).  (That the product is asked says which declarations the theorem is meant for; the proof does not
   need it: any declaration whose home is another stack is not doomed.)  The model tells declarations apart by stack: [in_use] looks every (stack, name, version,
   flavor) up in the database as it is after the undeclare, so the twin of the product that has just gone still
   counts (Product equality of the code sees name, version and flavor only). *)
Theorem same_product_other_stack_keeps_directory_recursive xall fuel ww wu c st k answers res st' s0 n' v' rs :
  wf_world ww -> default_undeclared ww c -> declared ww (k_name k) (k_version k) = true ->
  remove_x xall true fuel ww wu c st k answers = (res, st') ->
  asked ww (k_name k) (k_version k) (k_recursive k) (n', Some v', true) ->
  a_decl (rdb st) s0 n' v' (rc_flavor c) = Some rs -> In s0 (apath (rdb st)) ->
  home c (rdb st) n' v' <> Some s0 ->
  placeholder (fst rs) = false ->
  (forall q dir, asked ww (k_name k) (k_version k) (k_recursive k) q -> product_dir c (rdb st) q = Some dir ->
                 placeholder dir = false -> under (fst rs) dir = true -> under dir (fst rs) = true) ->
  a_decl (rdb st') s0 n' v' (rc_flavor c) = Some rs /\
  forall x, under (fst rs) x = true -> (In x (rfs st') <-> In x (rfs st)).
Proof.
  intros Hwf Hdu Hd Hrun _ Hs0 Hin Hhome Hph Hins.
  assert (ND : ~ doomed ww c (rdb st) (k_name k) (k_version k) (k_recursive k) s0 n' v' (rc_flavor c)).
  { intros [_ [_ Hh]]. exact (Hhome Hh). }
  split.
  - rewrite <- Hs0. exact (proj1 (remove_x_frame xall true fuel ww wu c st k answers Hwf Hdu Hd res st' Hrun) _ _ _ _ ND).
  - exact (frame_directories_multi_whole xall fuel ww wu c st k answers res st' s0 n' v' (rc_flavor c) rs
             Hwf Hdu Hd Hrun Hs0 Hin (or_introl eq_refl) Hph ND Hins).
Qed.
Print Assumptions same_product_other_stack_keeps_directory_recursive.

(* in particular without -R, the twin of the product named sharing its installation: when it is installed in the very
   directory of the removed declaration, or inside it, its whole directory is as before *)
Theorem same_product_other_stack_keeps_directory xall fuel ww wu c st k answers res st' s0 rs hd :
  wf_world ww -> default_undeclared ww c -> declared ww (k_name k) (k_version k) = true ->
  remove_x xall true fuel ww wu c st k answers = (res, st') ->
  k_recursive k = false ->
  a_decl (rdb st) s0 (k_name k) (k_version k) (rc_flavor c) = Some rs -> In s0 (apath (rdb st)) ->
  home c (rdb st) (k_name k) (k_version k) <> Some s0 ->
  placeholder (fst rs) = false ->
  product_dir c (rdb st) (k_name k, Some (k_version k), true) = Some hd -> under hd (fst rs) = true ->
  a_decl (rdb st') s0 (k_name k) (k_version k) (rc_flavor c) = Some rs /\
  forall x, under (fst rs) x = true -> (In x (rfs st') <-> In x (rfs st)).
Proof.
  intros Hwf Hdu Hd Hrun Hrec Hs0 Hin Hhome Hph Hhd Hu.
  apply (same_product_other_stack_keeps_directory_recursive xall fuel ww wu c st k answers res st' s0 _ _ rs
           Hwf Hdu Hd Hrun (or_introl eq_refl) Hs0 Hin Hhome Hph).
  intros q dir [->|[R _]] PD _ _; [|rewrite Hrec in R; discriminate R].
  rewrite Hhd in PD. injection PD as <-. exact Hu.
Qed.
Print Assumptions same_product_other_stack_keeps_directory.

(* the statement under pairwise non-nested directories holds for the tree before that fix too *)
Theorem frame_directories_multi_nonnested xall keep fuel ww wu c st k answers res st' s0 m u f0 rs :
  wf_world ww -> default_undeclared ww c -> declared ww (k_name k) (k_version k) = true -> wf_dirs (rdb st) ->
  remove_x xall keep fuel ww wu c st k answers = (res, st') ->
  a_decl (rdb st) s0 m u f0 = Some rs -> placeholder (fst rs) = false ->
  ~ doomed ww c (rdb st) (k_name k) (k_version k) (k_recursive k) s0 m u f0 ->
  forall x, under (fst rs) x = true -> (In x (rfs st') <-> In x (rfs st)).
Proof. intros Hwf Hdef D. exact (remove_x_frame_dirs xall keep fuel ww wu c st k answers Hwf Hdef D res st' s0 m u f0 rs). Qed.
Print Assumptions frame_directories_multi_nonnested.

Theorem refusal_changes_nothing_multi xall keep fuel ww wu c st k answers st' :
  wf_world ww -> default_undeclared ww c -> declared ww (k_name k) (k_version k) = true ->
  remove_x xall keep fuel ww wu c st k answers = (Err Refused, st') -> st' = st.
Proof. intros Hwf Hdef D. exact (remove_x_refusal_keeps_state xall keep fuel ww wu c st k answers Hwf Hdef D st'). Qed.
Print Assumptions refusal_changes_nothing_multi.

(* never something still needed, over the extended state (code with the fix): d would be deleted; the
   declaration of un uv in stack s for flavor f - any stack of the path, the running flavor or a fall-back
   flavor, possibly a second declaration of the product named on the command line itself - would remain, and its
   table files reach d: the command is refused and nothing changes *)
Theorem refuses_when_needed_multi keep fuel ww wu c st k answers idx d un uv s f :
  wf_world ww -> default_undeclared ww c -> declared ww (k_name k) (k_version k) = true ->
  coherent ww c (rdb st) ->
  length ww + 2 <= fuel -> length wu < fuel ->
  uses_index fuel wu = Ok idx -> rc_force c = false -> k_check k = true ->
  asked ww (k_name k) (k_version k) (k_recursive k) d ->
  In (un, uv) (map fst wu) -> reach_plus wu (pnode (un, uv)) d -> d <> pnode (un, uv) ->
  In (s, f) (decl_places c (rdb st) un uv) ->
  ~ doomed ww c (rdb st) (k_name k) (k_version k) (k_recursive k) s un uv f ->
  remove_x true keep fuel ww wu c st k answers = (Err Refused, st).
Proof.
  intros Hwf Hdef D Hco Hf Hfu Hu Hforce Hchk Ad Iu R Nd Ipl Ns. rewrite remove_x_two_phases, Hchk.
  apply (two_phases_refuses fuel ww wu c _ st _ _ _ _ idx d (un, uv)); auto.
  exact (staying_user_not_set_aside ww c (rdb st) _ _ _ un uv s f D Hco Ipl Ns).
Qed.
Print Assumptions refuses_when_needed_multi.

(* ------------------------------------------------------------------ witnesses over two stacks and two flavors *)

Definition S1 : str := lit "/S1".
Definition S2 : str := lit "/S2".
Definition gen : str := lit "generic".
Definition mdir (s : str) (n v : string) : str := s ++ lit "/" ++ lit n ++ lit "/" ++ lit v.
Definition mdk (s f : str) (n v : string) : dkey * vrec :=
  ((s, lit n, lit v, f), (mdir s n v, mdir s n v ++ lit "/ups/" ++ lit n ++ lit ".table")).
Definition mtg (s f : str) (n t v : string) : dkey * str := ((s, lit n, lit t, f), lit v).
Definition mpaths (s : str) (n v : string) : list str :=
  [s ++ lit "/" ++ lit n; mdir s n v; mdir s n v ++ lit "/ups"; mdir s n v ++ lit "/ups/" ++ lit n ++ lit ".table"].

(* stack S1 (private): t 1 -> d 1, and d 1.   stack S2 (shared): t 1 -> d 1 once more (shadowed by S1), x 1, and
   for the fall-back flavor generic g 1 -> x 1.  d carries current in S1 and x carries current and stable in S2. *)
Definition ww_ms : world :=
  [ pr "t" "1" [ed "d" (Some "1") (Some "1") false]; pr "d" "1" []; pr "x" "1" [] ].
Definition wu_ms : world :=
  [ ((lit "t", lit "1"), [ed "d" (Some "1") (Some "1") false; imp; ed "d" (Some "1") (Some "1") false; imp]);
    pr "d" "1" []; pr "x" "1" []; pr "g" "1" [ed "x" None (Some "1") false] ].
(* what findProducts() of the pinned tree shows Eups.uses: t 1 once *)
Definition wu_ms_pinned : world :=
  [ pr "t" "1" [ed "d" (Some "1") (Some "1") false]; pr "d" "1" []; pr "x" "1" []; pr "g" "1" [ed "x" None (Some "1") false] ].
Definition st_ms : rstate :=
  mkR (mkAdb [S1; S2]
             [mdk S1 linux "t" "1"; mdk S1 linux "d" "1"; mdk S2 linux "t" "1"; mdk S2 linux "x" "1"; mdk S2 gen "g" "1"]
             [mtg S1 linux "t" "current" "1"; mtg S1 linux "d" "current" "1"; mtg S2 linux "t" "current" "1";
              mtg S2 linux "x" "current" "1"; mtg S2 linux "x" "stable" "1"; mtg S2 gen "g" "current" "1"])
      (mpaths S1 "t" "1" ++ mpaths S1 "d" "1" ++ mpaths S2 "t" "1" ++ mpaths S2 "x" "1" ++ mpaths S2 "g" "1").
Definition call (n v : string) (recursive chk interactive : bool) : rcall := mkCall (lit n) (lit v) recursive chk interactive.

Definition idx_ms := Eval vm_compute in match uses_index 6 wu_ms with Ok i => i | Err _ => [] end.
Lemma uses_ms : uses_index 6 wu_ms = Ok idx_ms.
Proof. vm_refl. Qed.
Definition idx_ms_pinned := Eval vm_compute in match uses_index 6 wu_ms_pinned with Ok i => i | Err _ => [] end.
Lemma uses_ms_pinned : uses_index 6 wu_ms_pinned = Ok idx_ms_pinned.
Proof. vm_refl. Qed.

Example hypotheses_inhabited_multi :
  wf_world ww_ms /\ default_undeclared ww_ms (conf false) /\ coherent ww_ms (conf false) (rdb st_ms) /\
  wf_dirs (rdb st_ms) /\ declared ww_ms (lit "t") (lit "1") = true /\ length ww_ms + 2 <= 6 /\ length wu_ms < 6 /\
  (exists idx, uses_index 6 wu_ms = Ok idx) /\
  asked ww_ms (lit "t") (lit "1") true (nd "d" "1") /\
  In (lit "t", lit "1") (map fst wu_ms) /\ reach_plus wu_ms (pnode (lit "t", lit "1")) (nd "d" "1") /\
  In (S2, linux) (decl_places (conf false) (rdb st_ms) (lit "t") (lit "1")) /\
  ~ doomed ww_ms (conf false) (rdb st_ms) (lit "t") (lit "1") true S2 (lit "t") (lit "1") linux.
Proof.
  assert (Hwf : wf_world ww_ms) by (apply wf_world_b_sound; vm_refl).
  assert (D : declared ww_ms (lit "t") (lit "1") = true) by vm_refl.
  split; [exact Hwf|].
  split; [apply default_undeclared_by_computation; vm_refl|].
  split; [apply coherent_by_computation; vm_refl|].
  split; [apply wf_dirs_by_computation; vm_refl|].
  split; [exact D|]. split; [apply Nat.leb_le; reflexivity|]. split; [apply Nat.ltb_lt; reflexivity|].
  split; [exists idx_ms; exact uses_ms|].
  split.
  { apply (proj2 (asked_dpath _ _ _ _ _ Hwf D)). right. split; [reflexivity|].
    apply dp_step with (q := nd "d" "1"); [apply dep_by_computation; vm_refl|]. apply dp_refl. }
  split; [left; reflexivity|].
  split.
  { apply rp_one. exists [ed "d" (Some "1") (Some "1") false; imp; ed "d" (Some "1") (Some "1") false; imp], (ed "d" (Some "1") (Some "1") false).
    split; [vm_refl|]. split; [left; reflexivity|vm_refl]. }
  split; [vm_compute; auto|].
  intros [_ [_ Hh]]. vm_compute in Hh. discriminate Hh.
Qed.

(* remove -R t 1 (private t 1 and d 1 would go; the shared t 1 stays and needs d 1): refused with the fix;
   the pinned tree deletes d 1 and leaves the shared t 1 declared without it.  remove x 1: refused in both,
   because g 1, declared for the fall-back flavor in the other stack, needs it. *)
Example other_declaration_refuted_pinned :
  remove_x true true 6 ww_ms wu_ms (conf false) st_ms (call "t" "1" true true false) [] = (Err Refused, st_ms)
  /\ (let '(r, s) := remove_x false false 6 ww_ms wu_ms_pinned (conf false) st_ms (call "t" "1" true true false) [] in
      (r, adecls (rdb s)))
     = (Ok tt, [mdk S2 linux "t" "1"; mdk S2 linux "x" "1"; mdk S2 gen "g" "1"])
  /\ remove_x true true 6 ww_ms wu_ms (conf false) st_ms (call "x" "1" false true false) [] = (Err Refused, st_ms)
  /\ remove_x false false 6 ww_ms wu_ms_pinned (conf false) st_ms (call "x" "1" false true false) [] = (Err Refused, st_ms).
Proof.
  split; [|split; [|split]].
  - unfold remove_x. rewrite uses_ms. vm_refl.
  - unfold remove_x. rewrite uses_ms_pinned. vm_refl.
  - unfold remove_x. rewrite uses_ms. vm_refl.
  - unfold remove_x. rewrite uses_ms_pinned. vm_refl.
Qed.

(* with --force the private t 1 and d 1 go: the shared stack, the other flavor, their tags and trees are as before *)
Example remove_multi_example :
  (let '(r, s) := remove_x true true 6 ww_ms wu_ms (conf true) st_ms (call "t" "1" true true false) [] in
   (r, adecls (rdb s), atags (rdb s), rfs s))
  = (Ok tt, [mdk S2 linux "t" "1"; mdk S2 linux "x" "1"; mdk S2 gen "g" "1"],
     [mtg S2 linux "t" "current" "1"; mtg S2 linux "x" "current" "1"; mtg S2 linux "x" "stable" "1"; mtg S2 gen "g" "current" "1"],
     [lit "/S1/t"; lit "/S1/d"] ++ mpaths S2 "t" "1" ++ mpaths S2 "x" "1" ++ mpaths S2 "g" "1").
Proof. unfold remove_x. rewrite uses_ms. vm_refl. Qed.

(* the questions of remove -R -i t 1 (no in-use check): t 1 is asked about first, then d 1.
   n, y: only d 1 goes.   q: nothing goes, status 0.   empty line (default y), then n: only t 1.
   garbage is asked again.   the exclamation mark: both, nothing more is read.   no answer left: EOFError after t 1. *)
Example interactive_example :
  let run answers := let '(r, s) := remove_x true true 6 ww_ms wu_ms (conf false) st_ms (call "t" "1" true false true) answers in
                     (r, map (fun e => snd (fst (fst (fst e)))) (filter (fun e => str_eqb (fst (fst (fst (fst e)))) S1) (adecls (rdb s)))) in
  run [lit "n"; lit "y"] = (Ok tt, [lit "t"])
  /\ run [lit "q"] = (Ok tt, [lit "t"; lit "d"])
  /\ run [lit ""; lit "n"] = (Ok tt, [lit "d"])
  /\ run [lit "what"; lit "y"; lit "maybe"; lit "n"] = (Ok tt, [lit "d"])
  /\ run [lit "!"] = (Ok tt, [])
  /\ run [lit "y"] = (Err Undefined, [lit "d"])
  /\ select true [nd "t" "1"; nd "d" "1"] ans_y [lit "n"; lit "y"] = ([nd "d" "1"], Done).
Proof. cbv zeta. do 6 (split; [vm_refl|]). vm_refl. Qed.

(* the front end: eups remove -R -N -i t 1 with the answer n, y; one argument only is the usage error *)
Example front_end_example :
  (match eups_remove true true 6 ww_ms wu_ms linux (lit "implicitProducts") st_ms (mkRO true true false (Some true))
                     [lit "t"; lit "1"] [lit "n"; lit "y"] with
   | Some (r, s) => Some (r, length (adecls (rdb s)))
   | None => None
   end) = Some (Ok tt, 4)
  /\ eups_remove true true 6 ww_ms wu_ms linux (lit "implicitProducts") st_ms (mkRO true true false None) [lit "t"] [] = None.
Proof. split; vm_refl. Qed.

(* defect, fixed by C14-remove-keeps-shared-directory: b 1 (stack S1) and y 1 (stack S2) are installed in the same
   directory /out/b.  The tree before the fix ([keep = false]): remove b 1 undeclares b 1 and deletes /out/b with
   everything below, although y 1 stays declared with that installation directory - the clause every other
   installation directory is untouched fails (the code knew about shared directories only when both products
   went: removedDirs).  With the fix the directory is left alone; it goes when y 1 is removed as well. *)
Definition st_shared : rstate :=
  mkR (mkAdb [S1; S2]
             [((S1, lit "b", lit "1", linux), (lit "/out/b", lit "/out/b/ups/b.table"));
              ((S2, lit "y", lit "1", linux), (lit "/out/b", lit "/S2/_tables/y.table"))] [])
      [lit "/out/b"; lit "/out/b/ups"; lit "/out/b/ups/b.table"; lit "/S2/_tables/y.table"].
Definition w_shared : world := [ pr "b" "1" []; pr "y" "1" [] ].

Example shared_directory_refuted_pinned :
  (let '(r, s) := remove_x true false 5 w_shared w_shared (conf false) st_shared (call "b" "1" false true false) [] in
   (r, adecls (rdb s), rfs s))
  = (Ok tt, [((S2, lit "y", lit "1", linux), (lit "/out/b", lit "/S2/_tables/y.table"))], [lit "/S2/_tables/y.table"])
  /\ (let '(r, s) := remove_x true true 5 w_shared w_shared (conf false) st_shared (call "b" "1" false true false) [] in
      (r, adecls (rdb s), rfs s))
     = (Ok tt, [((S2, lit "y", lit "1", linux), (lit "/out/b", lit "/S2/_tables/y.table"))], rfs st_shared)
  /\ ~ wf_dirs (rdb st_shared).
Proof.
  split; [vm_refl|]. split; [vm_refl|]. intro H.
  specialize (H S1 (lit "b") (lit "1") linux (lit "/out/b", lit "/out/b/ups/b.table")
                S2 (lit "y") (lit "1") linux (lit "/out/b", lit "/S2/_tables/y.table")).
  assert (X : under (lit "/out/b") (lit "/out/b") = false).
  { apply H; try vm_refl. discriminate. }
  rewrite under_refl in X. discriminate X.
Qed.

(* ... and when both products that live in the directory go (b 1, then y 1), it goes with the last of them *)
Example shared_directory_goes_with_the_last :
  (let '(r, s) := remove_x true true 5 w_shared w_shared (conf false)
                    (snd (remove_x true true 5 w_shared w_shared (conf false) st_shared (call "b" "1" false true false) []))
                    (call "y" "1" false true false) [] in
   (r, adecls (rdb s), rfs s))
  = (Ok tt, [], [lit "/S2/_tables/y.table"]).
Proof. vm_refl. Qed.

(* t 1 is declared in S1 and in S2 with the one installation /out/t (seed C14-13): remove t 1 takes the declaration of
   S1 away and leaves the directory to the declaration of S2; the same command once more removes that one and the
   directory with it.  Nested: the declaration of S2 lives in /out/t/sub - the whole of /out/t is left alone. *)
Definition tw (s : str) (dir : string) : dkey * vrec := ((s, lit "t", lit "1", linux), (lit dir, s ++ lit "/_tables/t.table")).
Definition fs_twin : list str :=
  [lit "/out/t"; lit "/out/t/README"; lit "/out/t/sub"; lit "/out/t/sub/README"; lit "/S1/_tables/t.table"; lit "/S2/_tables/t.table"].
Definition st_twin (d2 : string) : rstate := mkR (mkAdb [S1; S2] [tw S1 "/out/t"; tw S2 d2] []) fs_twin.
Definition w_twin : world := [ pr "t" "1" [] ].

Example same_product_other_stack_example :
  (let '(r, s) := remove_x true true 4 w_twin w_twin (conf false) (st_twin "/out/t") (call "t" "1" false true false) [] in
   (r, adecls (rdb s), rfs s)) = (Ok tt, [tw S2 "/out/t"], fs_twin)
  /\ (let '(r, s) := remove_x true true 4 w_twin w_twin (conf false)
                       (snd (remove_x true true 4 w_twin w_twin (conf false) (st_twin "/out/t") (call "t" "1" false true false) []))
                       (call "t" "1" false true false) [] in
      (r, adecls (rdb s), rfs s)) = (Ok tt, [], [lit "/S1/_tables/t.table"; lit "/S2/_tables/t.table"])
  /\ (let '(r, s) := remove_x true true 4 w_twin w_twin (conf false) (st_twin "/out/t/sub") (call "t" "1" true false false) [] in
      (r, adecls (rdb s), rfs s)) = (Ok tt, [tw S2 "/out/t/sub"], fs_twin)
  /\ home (conf false) (rdb (st_twin "/out/t")) (lit "t") (lit "1") = Some S1
  /\ product_dir (conf false) (rdb (st_twin "/out/t")) (nd "t" "1") = Some (lit "/out/t").
Proof. do 4 (split; [vm_refl|]). vm_refl. Qed.

(* the tree before the fix C14-remove-keeps-shared-directory deletes the installation of the twin *)
Example same_product_other_stack_refuted_pinned :
  (let '(r, s) := remove_x true false 4 w_twin w_twin (conf false) (st_twin "/out/t") (call "t" "1" false true false) [] in
   (r, adecls (rdb s), rfs s)) = (Ok tt, [tw S2 "/out/t"], [lit "/S1/_tables/t.table"; lit "/S2/_tables/t.table"]).
Proof. vm_refl. Qed.
