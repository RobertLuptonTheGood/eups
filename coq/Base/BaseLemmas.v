(* Lemmas about the shared definitions of Base.v *)
From Eupsv Require Import Base.Base.
From Coq Require Import Lia.

Lemma ascii_eqb_spec a b : reflect (a = b) (ascii_eqb a b).
Proof. apply Ascii.eqb_spec. Qed.

Lemma ascii_eqb_refl a : ascii_eqb a a = true.
Proof. apply Ascii.eqb_refl. Qed.

Lemma ascii_eqb_eq a b : ascii_eqb a b = true <-> a = b.
Proof. apply Ascii.eqb_eq. Qed.

Lemma ascii_eqb_neq a b : ascii_eqb a b = false <-> a <> b.
Proof. apply Ascii.eqb_neq. Qed.

Lemma ascii_eqb_sym a b : ascii_eqb a b = ascii_eqb b a.
Proof. apply Ascii.eqb_sym. Qed.

Lemma str_eqb_eq a b : str_eqb a b = true <-> a = b.
Proof.
  revert b; induction a as [|x a IH]; intros [|y b]; simpl; split; intro H;
    try reflexivity; try discriminate.
  - destruct (ascii_eqb_spec x y) as [->|]; [|discriminate]. f_equal. now apply IH.
  - injection H as -> ->. rewrite ascii_eqb_refl. now apply IH.
Qed.

Lemma str_eqb_refl a : str_eqb a a = true.
Proof. now apply str_eqb_eq. Qed.

Lemma str_eqb_neq a b : str_eqb a b = false <-> a <> b.
Proof.
  split.
  - intros H ->. now rewrite str_eqb_refl in H.
  - intro H. destruct (str_eqb a b) eqn:E; [|reflexivity]. apply str_eqb_eq in E. contradiction.
Qed.

Lemma str_eqb_spec a b : reflect (a = b) (str_eqb a b).
Proof.
  destruct (str_eqb a b) eqn:E; constructor.
  - now apply str_eqb_eq.
  - now apply str_eqb_neq.
Qed.

Lemma str_eqb_sym a b : str_eqb a b = str_eqb b a.
Proof.
  destruct (str_eqb_spec a b) as [->|H].
  - now rewrite str_eqb_refl.
  - symmetry. apply str_eqb_neq. congruence.
Qed.

Lemma str_eq_dec (a b : str) : {a = b} + {a <> b}.
Proof. destruct (str_eqb_spec a b); [left|right]; assumption. Qed.

Lemma mem_str_In x l : mem_str x l = true <-> In x l.
Proof.
  induction l as [|y l IH]; simpl.
  - split; [discriminate|tauto].
  - destruct (str_eqb_spec x y) as [->|H].
    + split; auto.
    + rewrite IH. split; [auto|]. intros [E|E]; [congruence|assumption].
Qed.

Lemma mem_str_not_In x l : mem_str x l = false <-> ~ In x l.
Proof.
  rewrite <- mem_str_In. destruct (mem_str x l); split; congruence.
Qed.

Lemma mem_ascii_In c l : mem_ascii c l = true <-> In c l.
Proof.
  induction l as [|y l IH]; simpl.
  - split; [discriminate|tauto].
  - destruct (ascii_eqb_spec c y) as [->|H].
    + split; auto.
    + rewrite IH. split; [auto|]. intros [E|E]; [congruence|assumption].
Qed.

Lemma mem_ascii_app c a b : mem_ascii c (a ++ b) = mem_ascii c a || mem_ascii c b.
Proof.
  induction a as [|x a IH]; simpl; [reflexivity|]. destruct (ascii_eqb c x); [reflexivity|apply IH].
Qed.

Lemma mem_ascii_cons_false c x l :
  mem_ascii c (x :: l) = false <-> c <> x /\ mem_ascii c l = false.
Proof.
  simpl. destruct (ascii_eqb_spec c x) as [->|H].
  - split; [discriminate | intros [N _]; congruence].
  - split; [intro; split; assumption | intros [_ E]; assumption].
Qed.

(* ---------------------------------------------------------------- remove / uniq *)

Lemma remove_str_In x v l : In x (remove_str v l) <-> In x l /\ x <> v.
Proof.
  unfold remove_str. rewrite filter_In. rewrite negb_true_iff, str_eqb_neq. tauto.
Qed.

Lemma remove_str_notin v l : ~ In v l -> remove_str v l = l.
Proof.
  induction l as [|y l IH]; simpl; intro H; [reflexivity|].
  destruct (str_eqb_spec y v) as [->|N]; simpl.
  - exfalso. apply H. now left.
  - f_equal. apply IH. tauto.
Qed.

Lemma remove_str_app v a b : remove_str v (a ++ b) = remove_str v a ++ remove_str v b.
Proof. unfold remove_str. apply filter_app. Qed.

Lemma remove_str_comm v w l : remove_str v (remove_str w l) = remove_str w (remove_str v l).
Proof.
  induction l as [|y l IH]; simpl; [reflexivity|].
  destruct (str_eqb y w) eqn:Ew, (str_eqb y v) eqn:Ev; simpl; rewrite ?Ew, ?Ev; simpl; congruence.
Qed.

Lemma remove_str_idem v l : remove_str v (remove_str v l) = remove_str v l.
Proof.
  induction l as [|y l IH]; simpl; [reflexivity|].
  destruct (str_eqb y v) eqn:Ev; simpl; rewrite ?Ev; simpl; congruence.
Qed.

Lemma filter_remove_str (p : str -> bool) v l :
  filter p (remove_str v l) = remove_str v (filter p l).
Proof.
  induction l as [|y l IH]; simpl; [reflexivity|].
  destruct (str_eqb y v) eqn:Ev, (p y) eqn:Ep; simpl; rewrite ?Ev, ?Ep; simpl; congruence.
Qed.

Lemma filter_remove_str_absorb (p : str -> bool) v l :
  p v = false -> filter p (remove_str v l) = filter p l.
Proof.
  intro Hp. induction l as [|y l IH]; simpl; [reflexivity|].
  destruct (str_eqb_spec y v) as [->|N]; simpl.
  - now rewrite Hp.
  - now rewrite IH.
Qed.

Lemma uniq_filter (p : str -> bool) l : uniq (filter p l) = filter p (uniq l).
Proof.
  induction l as [|a l IH]; simpl; [reflexivity|].
  destruct (p a) eqn:Ep; simpl.
  - f_equal. rewrite IH. symmetry. apply filter_remove_str.
  - rewrite IH. symmetry. now apply filter_remove_str_absorb.
Qed.

Lemma uniq_remove_str v l : uniq (remove_str v l) = remove_str v (uniq l).
Proof. apply uniq_filter. Qed.

Lemma uniq_In x l : In x (uniq l) <-> In x l.
Proof.
  induction l as [|a l IH]; simpl; [tauto|].
  rewrite remove_str_In, IH. destruct (str_eq_dec x a) as [->|N]; [tauto|].
  split; [tauto|]. intros [E|E]; [congruence|tauto].
Qed.

Lemma forallb_filter_id {A} (f : A -> bool) l : forallb f l = true -> filter f l = l.
Proof.
  induction l as [|x l IH]; simpl; [reflexivity|]. intro H. apply andb_true_iff in H. destruct H as [Hx Hl].
  rewrite Hx. now rewrite IH.
Qed.

(* the sub-list of the copies of one element, de-duplicated, tells whether the element occurs *)
Lemma In_mask v l : In v l <-> In v (uniq (filter (fun x => str_eqb x v) l)).
Proof. rewrite uniq_In, filter_In. rewrite str_eqb_refl. tauto. Qed.

Lemma mask_In_iff v l l' :
  uniq (filter (fun x => str_eqb x v) l') = uniq (filter (fun x => str_eqb x v) l) -> (In v l' <-> In v l).
Proof. intro E. rewrite (In_mask v l'), (In_mask v l), E. tauto. Qed.

Lemma uniq_NoDup l : NoDup (uniq l).
Proof.
  induction l as [|a l IH]; simpl; constructor.
  - rewrite remove_str_In. tauto.
  - now apply NoDup_filter.
Qed.

Lemma uniq_NoDup_id l : NoDup l -> uniq l = l.
Proof.
  induction 1 as [|x l Hx Hl IH]; simpl; [reflexivity|].
  rewrite IH. f_equal. now apply remove_str_notin.
Qed.

Lemma uniq_idem l : uniq (uniq l) = uniq l.
Proof. apply uniq_NoDup_id, uniq_NoDup. Qed.

Lemma uniq_app_fresh l v : ~ In v l -> uniq (l ++ [v]) = uniq l ++ [v].
Proof.
  induction l as [|a l IH]; simpl; intro H; [reflexivity|].
  rewrite IH by tauto. rewrite remove_str_app. simpl.
  destruct (str_eqb_spec v a) as [->|N]; simpl; [tauto|reflexivity].
Qed.

Lemma uniq_app_present l v : In v l -> uniq (l ++ [v]) = uniq l.
Proof.
  induction l as [|a l IH]; simpl; intro H; [tauto|].
  f_equal. destruct (str_eq_dec a v) as [->|N].
  - rewrite <- !uniq_remove_str, remove_str_app. simpl. rewrite str_eqb_refl. simpl.
    now rewrite app_nil_r.
  - rewrite IH; [reflexivity|]. destruct H; [congruence|assumption].
Qed.

(* ---------------------------------------------------------------- split / join *)

Lemma split_on_nonnil d x : split_on d x <> [].
Proof.
  induction x as [|c r IH]; simpl; [discriminate|].
  destruct (ascii_eqb c d); [discriminate|]. destruct (split_on d r); [congruence|discriminate].
Qed.

Lemma split_on_nodelim d x : mem_ascii d x = false -> split_on d x = [x].
Proof.
  induction x as [|c r IH]; simpl; [reflexivity|].
  rewrite (ascii_eqb_sym c d).
  destruct (ascii_eqb d c); [discriminate|]. intro H. now rewrite IH.
Qed.

Lemma split_on_app d x y :
  mem_ascii d x = false -> split_on d (x ++ d :: y) = x :: split_on d y.
Proof.
  induction x as [|c r IH]; simpl; intro H.
  - now rewrite ascii_eqb_refl.
  - rewrite (ascii_eqb_sym c d).
    destruct (ascii_eqb d c); [discriminate|]. now rewrite IH.
Qed.

Lemma split_on_parts_nodelim d x : Forall (fun p => mem_ascii d p = false) (split_on d x).
Proof.
  induction x as [|c r IH]; simpl.
  - constructor; [reflexivity|constructor].
  - destruct (ascii_eqb_spec c d) as [->|N].
    + constructor; [reflexivity|assumption].
    + destruct (split_on d r) as [|h t]; [constructor; [|constructor]|].
      * simpl. apply ascii_eqb_neq in N. rewrite ascii_eqb_sym. now rewrite N.
      * inversion IH; subst. constructor; [|assumption].
        simpl. apply ascii_eqb_neq in N. rewrite ascii_eqb_sym. now rewrite N.
Qed.

Lemma split_on_join d l :
  l <> [] -> Forall (fun p => mem_ascii d p = false) l -> split_on d (join d l) = l.
Proof.
  induction l as [|x l IH]; intros Hne Hall; [congruence|].
  inversion Hall as [|? ? Hx Hl]; subst.
  destruct l as [|y l'].
  - simpl. now apply split_on_nodelim.
  - change (join d (x :: y :: l')) with (x ++ d :: join d (y :: l')).
    rewrite split_on_app by assumption. f_equal. apply IH; [discriminate|assumption].
Qed.

Lemma join_split_on d x : join d (split_on d x) = x.
Proof.
  induction x as [|c r IH]; simpl; [reflexivity|].
  destruct (ascii_eqb_spec c d) as [->|N].
  - destruct (split_on d r) as [|h t] eqn:E; [now apply split_on_nonnil in E|].
    simpl. simpl in IH. now rewrite IH.
  - destruct (split_on d r) as [|h t] eqn:E; [now apply split_on_nonnil in E|].
    destruct t; simpl in *; now rewrite <- IH.
Qed.

Lemma join_cons d x y l : join d (x :: y :: l) = x ++ d :: join d (y :: l).
Proof. reflexivity. Qed.

Lemma mem_ascii_join c d l :
  c <> d -> Forall (fun p => mem_ascii c p = false) l -> mem_ascii c (join d l) = false.
Proof.
  intros Hcd. induction l as [|x l IH]; intro H; [reflexivity|].
  inversion H as [|? ? Hx Hl]; subst. destruct l as [|y l'].
  - assumption.
  - rewrite join_cons, mem_ascii_app, Hx. simpl.
    apply ascii_eqb_neq in Hcd. rewrite Hcd. now apply IH.
Qed.

Lemma starts_with_refl p x : starts_with p (p ++ x) = true.
Proof. induction p as [|c p IH]; simpl; [reflexivity|]. now rewrite ascii_eqb_refl. Qed.

Lemma Forall_filter {A} (P : A -> Prop) (p : A -> bool) l : Forall P l -> Forall P (filter p l).
Proof.
  induction 1 as [|x l Hx Hl IH]; simpl; [constructor|]. destruct (p x); [constructor|]; assumption.
Qed.

(* ---------------------------------------------------------------- association lists *)

Lemma alookup_aset_same {V} k (v : V) m : alookup k (aset k v m) = Some v.
Proof.
  induction m as [|[k' v'] m IH]; simpl.
  - now rewrite str_eqb_refl.
  - destruct (str_eqb k k') eqn:E; simpl; rewrite ?str_eqb_refl, ?E; auto.
Qed.

Lemma alookup_aset_other {V} k k' (v : V) m : k' <> k -> alookup k' (aset k v m) = alookup k' m.
Proof.
  intro N. induction m as [|[k2 v2] m IH]; simpl.
  - apply str_eqb_neq in N. now rewrite N.
  - destruct (str_eqb_spec k k2) as [->|N2]; simpl.
    + apply str_eqb_neq in N. now rewrite N.
    + destruct (str_eqb k' k2); [reflexivity|apply IH].
Qed.

Lemma alookup_In {V} k (v : V) m : alookup k m = Some v -> In (k, v) m.
Proof.
  induction m as [|[k' v'] m IH]; simpl; [discriminate|].
  destruct (str_eqb_spec k k') as [->|_]; [intros [= ->]; now left|auto].
Qed.

Lemma alookup_aremove_same {V} k (m : amap V) : alookup k (aremove k m) = None.
Proof.
  induction m as [|[k' v'] m IH]; simpl; [reflexivity|].
  destruct (str_eqb k k') eqn:E; simpl; rewrite ?E; auto.
Qed.

Lemma alookup_aremove_other {V} k k' (m : amap V) : k' <> k -> alookup k' (aremove k m) = alookup k' m.
Proof.
  intro N. induction m as [|[k2 v2] m IH]; simpl; [reflexivity|].
  destruct (str_eqb_spec k k2) as [->|N2]; simpl.
  - apply str_eqb_neq in N. now rewrite N.
  - destruct (str_eqb k' k2); [reflexivity|apply IH].
Qed.

Lemma split_on_parts_sub c d x :
  mem_ascii c x = false -> Forall (fun p => mem_ascii c p = false) (split_on d x).
Proof.
  induction x as [|a r IH]; simpl; intro H.
  - constructor; [reflexivity|constructor].
  - destruct (ascii_eqb c a) eqn:Eca; [discriminate|]. specialize (IH H).
    destruct (ascii_eqb a d).
    + constructor; [reflexivity|assumption].
    + destruct (split_on d r) as [|h t]; [constructor; [|constructor]|].
      * simpl. now rewrite Eca.
      * inversion IH; subst. constructor; [|assumption]. simpl. now rewrite Eca.
Qed.

(* Facts about character classes are finite: a boolean predicate that holds of the 256 characters holds of
   every character.  [all_ascii p] evaluates p on each of them, so such a fact is one evaluation
   ([apply all_ascii_spec; vm_compute; reflexivity]) and not a case split with 256 goals. *)
Definition all_bool (p : bool -> bool) : bool := p true && p false.

Definition all_ascii (p : ascii -> bool) : bool :=
  all_bool (fun a => all_bool (fun b => all_bool (fun c => all_bool (fun d =>
  all_bool (fun e => all_bool (fun f => all_bool (fun g => all_bool (fun h => p (Ascii a b c d e f g h))))))))).

Lemma all_bool_spec p : all_bool p = true -> forall b, p b = true.
Proof. unfold all_bool. intros H []; apply andb_true_iff in H; tauto. Qed.

Lemma all_ascii_spec p : all_ascii p = true -> forall c, p c = true.
Proof.
  intros H [a b c d e f g h]. unfold all_ascii in H.
  apply all_bool_spec with (b := a) in H. apply all_bool_spec with (b := b) in H.
  apply all_bool_spec with (b := c) in H. apply all_bool_spec with (b := d) in H.
  apply all_bool_spec with (b := e) in H. apply all_bool_spec with (b := f) in H.
  apply all_bool_spec with (b := g) in H. exact (all_bool_spec _ H h).
Qed.

(* the usual shape: one class is contained in another *)
Lemma all_ascii_impl (p q : ascii -> bool) :
  all_ascii (fun c => implb (p c) (q c)) = true -> forall c, p c = true -> q c = true.
Proof. intros H c Hp. apply all_ascii_spec with (c := c) in H. now rewrite Hp in H. Qed.

Lemma forallb_impl {A} (p q : A -> bool) l :
  (forall x, p x = true -> q x = true) -> forallb p l = true -> forallb q l = true.
Proof.
  intros H. induction l as [|x l IH]; cbn [forallb]; [auto|]. intros Hl.
  apply andb_true_iff in Hl. destruct Hl as [H1 H2]. now rewrite (H x H1), (IH H2).
Qed.

Lemma forallb_rev {A} (p : A -> bool) l : forallb p (rev l) = forallb p l.
Proof.
  induction l as [|x l IH]; [reflexivity|]. cbn [rev forallb]. rewrite forallb_app, IH. cbn [forallb].
  rewrite andb_true_r. apply andb_comm.
Qed.

Lemma forallb_not_mem (q : ascii -> bool) d x : q d = false -> forallb q x = true -> mem_ascii d x = false.
Proof.
  intro Hd. induction x as [|c r IH]; cbn [mem_ascii forallb]; [reflexivity|]. intro H.
  apply andb_true_iff in H as [Hc Hr]. destruct (ascii_eqb_spec d c) as [->|]; [congruence|auto].
Qed.

Lemma last_opt_snoc {A} (l : list A) (x : A) : last_opt (l ++ [x]) = Some x.
Proof.
  induction l as [|a l IH]; [reflexivity|]. cbn [app last_opt].
  destruct (l ++ [x]) eqn:E; [now destruct l|exact IH].
Qed.

Lemma NoDup_snoc {A} (l : list A) (x : A) : NoDup l -> ~ In x l -> NoDup (l ++ [x]).
Proof.
  induction l as [|y l IH]; intros ND N; cbn [app].
  - constructor; [intros []|constructor].
  - inversion ND as [|? ? Hy Hl]; subst. constructor.
    + rewrite in_app_iff. intros [H|[<-|[]]]; [contradiction|]. apply N. now left.
    + apply IH; [assumption|]. intro H. apply N. now right.
Qed.

Lemma find_app {A} (p : A -> bool) l1 l2 :
  find p (l1 ++ l2) = match find p l1 with Some x => Some x | None => find p l2 end.
Proof. induction l1 as [|a l1 IH]; simpl; [reflexivity|]. destruct (p a); auto. Qed.

Lemma aset_fresh {V} k (v : V) m : ~ In k (akeys m) -> aset k v m = m ++ [(k, v)].
Proof.
  induction m as [|[k' v'] m IH]; intro N; [reflexivity|]. cbn in *.
  destruct (str_eqb_spec k k') as [->|]; [tauto|]. rewrite IH; tauto.
Qed.

Lemma alookup_app {V} k (a b : amap V) :
  alookup k (a ++ b) = match alookup k a with Some v => Some v | None => alookup k b end.
Proof.
  induction a as [|[k1 v1] a IH]; [reflexivity|].
  cbn [app alookup]. destruct (str_eqb k k1); [reflexivity|exact IH].
Qed.

Lemma conj_then (A B : Prop) : A -> (A -> B) -> A /\ B.
Proof. intros a f. exact (conj a (f a)). Qed.

Lemma mem_str_filter (p : str -> bool) k l : mem_str k (filter p l) = mem_str k l && p k.
Proof.
  induction l as [|x l IH]; [reflexivity|].
  cbn [filter mem_str]. destruct (p x) eqn:Ep.
  - cbn [mem_str]. destruct (str_eqb_spec k x) as [->|Hne]; [rewrite Ep; reflexivity|exact IH].
  - rewrite IH. destruct (str_eqb_spec k x) as [->|Hne]; [|reflexivity].
    rewrite Ep. destruct (mem_str x l); reflexivity.
Qed.
